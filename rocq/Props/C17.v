(** C17 — instance collapse transforms contents exactly and leaves the template intact.
    The statements of the property, with the proofs that are a few steps from their lemmas; the lemmas are in Rot/C17GeomProofs.v, SM/C17NameProofs.v,
    SM/C17RoundsProofs.v, SM/C17RoundsDynProofs.v, SM/C17SubstProofs.v, SM/C17SitesProofs.v, SM/C17FrameProofs.v (on top of
    C09's SM/StoreCopyProofs.v), SM/C17GlobalProofs.v, SM/C17CacheProofs.v, SM/C17AutoNamesProofs.v, SM/C17ComposeProofs.v,
    SM/C17WholeProofs.v, SM/C17KindsProofs.v.
    Every [g_...] below is GENERATED from today's math.py / vmf.py / instancing.py (Gen/C17Formulas_gen.v) by
    symbolic execution of the Python method bodies; [place], [vrot], [mmul], [uvplace], [texcoord], [orth] are the
    hand-written specification (Rot/C17Base.v).  Arithmetic is over R: floating-point rounding is outside the model. *)
From Coq Require Import Reals NArith ZArith List String.
From SV Require Import Rot.C17Base SM.C17Name SM.C17Rounds SM.C17Subst SM.C17Sites SM.Store SM.StoreProofs SM.StoreCopy
                       SM.StoreCopyProofs SM.C17Frame SM.C17Global SM.C17Cache SM.C17Compose
                       Gen.C17Formulas_gen
                       Rot.C17GeomProofs SM.C17NameProofs SM.C17RoundsProofs SM.C17SubstProofs SM.C17SitesProofs
                       SM.C17FrameProofs SM.C17GlobalProofs SM.C17CacheProofs SM.C17ComposeProofs
                       SM.C17Whole SM.C17WholeProofs SM.C17Kinds SM.C17KindsProofs SM.C17RoundsDyn SM.C17RoundsDynProofs
                       SM.C17AutoNames SM.C17AutoNamesProofs.
Import ListNotations.
(* String is imported for the census names; [length] keeps meaning the length of a list *)
Local Notation length := List.length (only parsing).

(** Site obligations over the generated census (each is kernel-checked by vm_compute on every run). *)
Definition fixup_style_values_ok : bool :=
  match g_fixup_style_values with
  | [(SPrefix, 0%Z); (SSuffix, 1%Z); (SNone, 2%Z)] => true
  | _ => false
  end.
(* "VEC", "VEC_ORIGIN", "VEC_LINE" *)
Definition position_key_types_ok : bool :=
  strs_eqb g_fixup_key_position_types [[86;69;67]; [86;69;67;95;79;82;73;71;73;78]; [86;69;67;95;76;73;78;69]]%N.
Definition template_calls_readonly : bool :=
  forallb (fun c => existsb (str_eqb c) g_template_readonly_methods) g_collapse_template_method_calls.

(* "output-target", "entity-key", "nested-fixup": sinks that must go through fixup_name / fixup_key;
   "output-params": a sink that is only substituted *)
Definition name_site_labels : list str :=
  [[111;117;116;112;117;116;45;116;97;114;103;101;116]; [101;110;116;105;116;121;45;107;101;121]; [110;101;115;116;101;100;45;102;105;120;117;112]]%N.
Definition plain_site_labels : list str := [[111;117;116;112;117;116;45;112;97;114;97;109;115]]%N.
Definition value_sites_present : bool :=
  name_labels_present g_collapse_sites name_site_labels && labels_present g_collapse_sites plain_site_labels.
Definition brushes_and_entities_copied : bool :=
  forallb (fun c => existsb (String.eqb c) g_collapse_copied_classes) ["Solid"; "Entity"]%string.

(* every function of instancing.py that mentions a module-level mutable object (collapse_one always), as a skeleton:
   decisions on such an object guard logging / updates of the object only, nothing else reads it *)
Definition process_state_only_gates_logging : bool :=
  forallb (fun f => fn_ok (snd f)) g_process_state_functions.
Definition collapse_one_skeleton_present : bool :=
  existsb (fun f => str_eqb (fst f) [99;111;108;108;97;112;115;101;95;111;110;101]%N) g_process_state_functions.

(* EntityFixup keeps the compiled pattern of `substitute` in an attribute: every method that may change the key set of the
   table resets it, a copy that takes the pattern along has the same keys (one shape per method, SM/C17Cache.v) *)
Definition fixup_pattern_cache_reset_on_key_change : bool :=
  forallb (fun r => shape_ok (snd r)) g_fixup_cache_shapes.
Definition fixup_pattern_cache_has_mutators : bool :=
  existsb (fun r => match snd r with SChange _ => true | _ => false end) g_fixup_cache_shapes.

(** *** Positions: the originals rotated by the instance angles, then offset by its origin. *)
Theorem c17_localise_point : forall p o m, g_vec_localise p o m = place p o m.
Proof. exact localise_point. Qed.

(** Brush sides (all three plane points), displacement data and whole solids, as Side.localise / Solid.localise do it. *)
Theorem c17_side_planes : forall p0 p1 p2 o m,
  g_side_plane0 p0 p1 p2 o m = place p0 o m /\ g_side_plane1 p0 p1 p2 o m = place p1 o m /\
  g_side_plane2 p0 p1 p2 o m = place p2 o m.
Proof. intros. split; [|split]; reflexivity. Qed.

(** Explicit face vertices (Strata Source point_data / make_prism(set_points=True)) move with the face. *)
Theorem c17_side_vertices : forall sp o m, g_side_strata_point sp o m = place sp o m /\ g_solid_strata_point sp o m = place sp o m.
Proof. split; reflexivity. Qed.

Theorem c17_side_displacement : forall d o m,
  g_side_disp_pos d o m = place d o m /\ g_side_vert_offset d m = vrot d m /\
  g_side_vert_normal d m = vrot d m /\ g_side_vert_offset_norm d m = vrot d m.
Proof. intros. split; [|split; [|split]]; reflexivity. Qed.

Theorem c17_solid_localise : forall p0 p1 p2 u o m,
  g_solid_plane0 p0 p1 p2 o m = place p0 o m /\ g_solid_plane2 p0 p1 p2 o m = place p2 o m /\
  g_solid_uaxis u o m = uvplace u o m.
Proof. intros. split; [|split]; reflexivity. Qed.

(** Entity origins and position / axis / direction keyvalues in collapse_one and Instance.fixup_key. *)
Theorem c17_entity_origin : forall p o m, g_collapse_ent_origin p o m = place p o m.
Proof. exact collapse_ent_origin_spec. Qed.

Theorem c17_position_keyvalues : forall p o m,
  g_fixup_key_position p o m = place p o m /\ g_fixup_key_axis0 p o m = place p o m /\ g_fixup_key_axis1 p o m = place p o m.
Proof. intros. split; [|split]; reflexivity. Qed.

Theorem c17_direction_keyvalues : forall p m, g_fixup_key_direction p m = vrot p m.
Proof. reflexivity. Qed.

(** The arguments are not modified by the arithmetic (v @ m leaves v, localise leaves the origin, _mat_mul leaves
    its right operand): the instance's own placement survives the collapse of each of its brushes. *)
Theorem c17_operands_unchanged : forall (p o : vec) (a b : mat),
  g_vec_matmul_self_after p a = p /\ g_vec_localise_origin_after p o a = o /\ g_mat_mul_other_after a b = b.
Proof. intros [] [] a []. split; [|split]; reflexivity. Qed.

(** *** Texture alignment moves with the geometry (instance rotation orthonormal, texture scale non-zero). *)
Theorem c17_texture_moves_with_geometry : forall ax o m p, orth m -> uscale ax <> 0%R ->
  texcoord (g_uv_localise ax o m) (g_vec_localise p o m) = texcoord ax p.
Proof. exact texture_moves_with_geometry. Qed.

Theorem c17_side_texture_moves_with_geometry : forall p0 p1 p2 u w o m, orth m -> uscale u <> 0%R -> uscale w <> 0%R ->
  let q0 := g_side_plane0 p0 p1 p2 o m in let q1 := g_side_plane1 p0 p1 p2 o m in let q2 := g_side_plane2 p0 p1 p2 o m in
  let u' := g_side_uaxis u o m in let w' := g_side_vaxis w o m in
  (texcoord u' q0 = texcoord u p0 /\ texcoord u' q1 = texcoord u p1 /\ texcoord u' q2 = texcoord u p2) /\
  (texcoord w' q0 = texcoord w p0 /\ texcoord w' q1 = texcoord w p1 /\ texcoord w' q2 = texcoord w p2).
Proof. intros; repeat split; apply texcoord_uvplace; assumption. Qed.

(** *** Results differ only by the placement. *)
Theorem c17_identity_placement : forall p, g_vec_localise p vzero mid = p.
Proof. exact localise_identity. Qed.

Theorem c17_placement_equivariance : forall p o m, g_vec_localise p o m = g_vec_localise (g_vec_localise p vzero mid) o m.
Proof. exact placement_equivariance. Qed.

(** Nested instances / two placements of one template: placing at (o1,m1) then at (o2,m2) is one placement at the
    composed origin and the product matrix (with the generated _mat_mul). *)
Theorem c17_placement_composes : forall p o1 m1 o2 m2,
  g_vec_localise (g_vec_localise p o1 m1) o2 m2 = g_vec_localise p (g_vec_localise o1 o2 m2) (g_mat_mul m1 m2).
Proof. exact localise_compose. Qed.

Theorem c17_texture_placement_composes : forall ax o1 m1 o2 m2, orth m2 ->
  g_uv_localise (g_uv_localise ax o1 m1) o2 m2 = g_uv_localise ax (g_vec_localise o1 o2 m2) (g_mat_mul m1 m2).
Proof. exact uvplace_compose. Qed.

Theorem c17_rotations_closed : orth mid /\ forall a b, orth a -> orth b -> orth (g_mat_mul a b).
Proof. split; [exact orth_mid | intros; rewrite g_mat_mul_spec; apply orth_mmul; assumption]. Qed.

(** *** Orientations are composed with the instance rotation (Euler round trip = C04, a visible hypothesis). *)
Theorem c17_orientation_composes :
  forall (angle : Type) (from_angle : angle -> mat) (to_angle : mat -> angle) (good : mat -> Prop),
  (forall m, good m -> from_angle (to_angle m) = m) ->
  forall a r, good (mmul (from_angle a) r) ->
    from_angle (to_angle (g_angle_imatmul (from_angle a) r)) = mmul (from_angle a) r /\
    from_angle (to_angle (g_angle_matmul (from_angle a) r)) = mmul (from_angle a) r.
Proof. exact orientation_composes. Qed.

(** *** Names follow the fixup style, for every decision table that passes the (kernel-checked) named booleans. *)
Theorem c17_fixup_name_cases : forall c, cfg_ok c = true -> forall st inst name,
  (name = [] -> fixup_name c st inst name = Some []) /\
  (forall ch rest, name = ch :: rest -> ch = AT \/ ch = BANG -> fixup_name c st inst name = Some name) /\
  (forall ch rest, name = ch :: rest -> ch <> AT -> ch <> BANG -> fixup_name c st inst name = Some (expected st inst name)).
Proof. exact fixup_name_cases. Qed.

Theorem c17_fixup_name_separates_instances : forall c, cfg_ok c = true -> forall st i1 i2 ch rest,
  st <> SNone -> ch <> AT -> ch <> BANG ->
  fixup_name c st i1 (ch :: rest) = fixup_name c st i2 (ch :: rest) -> i1 = i2.
Proof. exact fixup_name_separates_instances. Qed.

(** *** $variables are substituted: EntityFixup.substitute as a scanner over the regular expression read from vmf.py
    ([subst_cfg]); [None] = KeyError (missing variable without default). *)
Theorem c17_substitute_name_free_identity : forall cfg inv tbl d t,
  dollar_free t = true -> substitute cfg inv tbl d t = Some t.
Proof. exact substitute_no_dollar. Qed.

(** No '$' is left when every '$' of the text starts a variable reference and the values (and the default) contain
    none; the result is then a fixed point.  Without the premise idempotence is false ("$$a"). *)
Theorem c17_substitute_leaves_no_dollar : forall cfg inv tbl d t out,
  values_dollar_free tbl d = true -> closed_text cfg inv tbl d t = true ->
  substitute cfg inv tbl d t = Some out -> dollar_free out = true.
Proof. exact substitute_leaves_no_dollar. Qed.

Theorem c17_substitute_idempotent_on_closed : forall cfg inv tbl d t out,
  values_dollar_free tbl d = true -> closed_text cfg inv tbl d t = true ->
  substitute cfg inv tbl d t = Some out -> substitute cfg inv tbl d out = Some out.
Proof. intros. apply substitute_no_dollar. eapply substitute_leaves_no_dollar; eassumption. Qed.

(** Without the closedness premise idempotence is false: "$$a" with a = "x" gives "$x", and then "". *)
Theorem c17_substitute_idempotent_refuted :
  let tbl := [([97], [120])]%N in
  substitute ref_subst_cfg false tbl (Some []) [36; 36; 97]%N = Some [36; 120]%N /\
  substitute ref_subst_cfg false tbl (Some []) [36; 120]%N = Some [] /\
  values_dollar_free tbl (Some []) = true.
Proof. vm_compute. repeat split; reflexivity. Qed.

(** Longest match over the table: the name taken after a '$' is at least as long as every defined name that also
    matches there, and a defined name that matches is never left to the identifier fallback. *)
Theorem c17_substitute_longest_name_wins : forall cfg tbl s m r, sc_longest_first cfg = true ->
  name_at cfg tbl s = Some (m, r) ->
  forall k, In k (map fst tbl) -> match_pre (sc_ignore_case cfg) k s <> None -> (List.length k <= List.length m)%nat.
Proof.
  unfold name_at, alternatives. intros cfg tbl s m r HL H k I N. rewrite HL in H.
  destruct (first_match (sc_ignore_case cfg) (sort_keys (map fst tbl)) s) as [[m' r']|] eqn:E.
  - injection H as <- <-. apply (first_match_longest _ _ _ _ _ (sort_keys_sorted _) E); [now apply sort_keys_in|assumption].
  - exfalso. apply N. apply (first_match_none _ _ _ E). now apply sort_keys_in.
Qed.

Theorem c17_substitute_defined_name_taken : forall cfg tbl s k,
  In k (map fst tbl) -> match_pre (sc_ignore_case cfg) k s <> None ->
  exists k0 m r, In k0 (map fst tbl) /\ match_pre (sc_ignore_case cfg) k0 s = Some (m, r) /\ name_at cfg tbl s = Some (m, r).
Proof. exact name_at_defined. Qed.

(** Without allow_invert the "(!)?" of the pattern changes nothing (the '!' is put back). *)
Theorem c17_substitute_bang_transparent : forall cfg tbl d t, sc_bang_readd cfg = true ->
  substitute cfg false tbl d t = substitute (without_bang cfg) false tbl d t.
Proof. intros. apply substitute_bang_transparent. assumption. Qed.

(** *** Substitution comes first at every value site of collapse_one ([g_collapse_sites], generated): a site list that
    passes [sites_ok] computes, at every site, [post] of the substituted raw text ... *)
Theorem c17_sites_substitute_first : forall l, sites_ok l = true -> forall lbl e, In (lbl, e) l ->
  forall S F x, seval S F e x = obind (S x) (post F e).
Proof. intros l H lbl e I. unfold sites_ok in H. rewrite forallb_forall in H. exact (site_ok_substitutes_first e (H _ I)). Qed.

(** ... so a '@global' / '!special' / empty name passed in through a $variable is kept, and an ordinary one gets the
    style applied to the substituted text ... *)
Theorem c17_variable_names_follow_style : forall c, cfg_ok c = true -> forall st inst e S x v,
  site_ok e = true -> S x = Some v -> post (fixup_name c st inst) e = fixup_name c st inst ->
  ((v = [] \/ exists ch rest, v = ch :: rest /\ (ch = AT \/ ch = BANG)) -> seval S (fixup_name c st inst) e x = Some v) /\
  (forall ch rest, v = ch :: rest -> ch <> AT -> ch <> BANG ->
     seval S (fixup_name c st inst) e x = Some (expected st inst v)).
Proof.
  intros c Hc st inst e S x v He Hs Hp. rewrite (site_ok_substitutes_first e He), Hs, Hp. cbn [obind].
  destruct (fixup_name_cases c Hc st inst v) as (A & B & C). split.
  - intros [-> | (ch & rest & -> & Hch)]; [now apply A | now apply (B ch rest)].
  - intros ch rest -> H1 H2. now apply (C ch rest).
Qed.

(** ... whereas renaming before substituting (or not substituting) is a different function: `$v` with v = `@global`. *)
Theorem c17_name_before_substitute_refuted :
  seval w_S w_F (SName (SSubst SRaw)) [36;118]%N = Some [64;103;108;111;98;97;108]%N /\
  seval w_S w_F (SSubst (SName SRaw)) [36;118]%N = Some [105;45;64;103;108;111;98;97;108]%N /\
  seval w_S w_F (SName SRaw) [36;118]%N = Some [105;45;36;118]%N /\
  site_ok (SSubst (SName SRaw)) = false /\ site_ok (SName SRaw) = false /\ site_ok (SSubst (SSubst SRaw)) = false.
Proof. vm_compute. repeat split; reflexivity. Qed.

(** *** The template is not modified: collapse_one works on copies; for a copy built as C09's census says (all
    mutable parts fresh), EVERY sequence of in-place stores and allocations through the copy leaves every
    observation of the template object as it was ... *)
Theorem c17_template_intact : forall (c : census) h h' la lc nd nd',
  closed h -> closed h' -> extends h h' -> h la = Some nd -> h lc = None -> h' lc = Some nd' ->
  copy_fresh_mutables c = true ->
  fields_rel h h' (ck c) (nfields nd) (nfields nd') ->
  forall ms h'' R, steps (h', [lc]) ms (h'', R) -> forall n, unfold n h'' (VRef la) = unfold n h' (VRef la).
Proof. exact template_intact. Qed.

(** ... and so does ANY number of collapses of the same template, in any order, interleaved with any work on the copies
    made so far ([collapses]: a collapse adds a root that reaches only new mutable locations — the conclusion of C09's
    [census_copy_new_mut] for a fresh census; in between, arbitrary in-place stores / allocations through the roots):
    every observation of the template object is unchanged and the template stays separated from all copies. *)
Theorem c17_template_intact_any_number_of_collapses : forall a h R h' R',
  collapses h R h' R' ->
  closed h -> alloc h a -> StoreProofs.roots_alloc h R -> sep h a R ->
  (forall n, unfold n h' (VRef a) = unfold n h (VRef a)) /\ sep h' a R' /\ closed h' /\ alloc h' a /\ StoreProofs.roots_alloc h' R'.
Proof. exact template_intact_any_number_of_collapses. Qed.

(** the step that feeds [col_copy]: C09's census theorem for a copy built as a fresh census says *)
Theorem c17_fresh_census_copy_is_new : forall (c : census) h h' la lc nd nd',
  closed h -> extends h h' -> h la = Some nd -> h lc = None -> h' lc = Some nd' ->
  copy_fresh_mutables c = true ->
  fields_rel h h' (ck c) (nfields nd) (nfields nd') ->
  new_mut h h' (VRef lc).
Proof. exact StoreCopyProofs.census_copy_new_mut. Qed.

(** ... and the census booleans the check evaluates give that premise for the classes collapse_one copies, and say
    that every field Side.localise / Solid.localise modify in place was copied deeply. *)
Theorem c17_copied_classes_fresh : forall all copied, copied_classes_fresh all copied = true ->
  forall cls, In cls copied -> exists l, copy_closure cls = Some l /\
  forall n, In n l -> exists c, In (n, c) all /\ copy_fresh_mutables c = true.
Proof.
  unfold copied_classes_fresh. intros all copied H cls I. rewrite forallb_forall in H. specialize (H _ I).
  destruct (copy_closure cls) as [l|]; [|discriminate]. exists l. split; [reflexivity|].
  rewrite forallb_forall in H. intros n In_. specialize (H _ In_). unfold class_fresh in H.
  destruct (lookup_census all n) as [c|] eqn:L; [|discriminate]. exists c. split; [now apply lookup_census_in|assumption].
Qed.

Theorem c17_inplace_writes_are_deep : forall all ws, writes_ok all ws = true ->
  forall cls f, In (cls, f, WInPlace) ws ->
  exists c k, In (cls, c) all /\ In (f, k, HDeep) c /\ field_fresh k HDeep = true.
Proof.
  unfold writes_ok. intros all ws H cls f I. rewrite forallb_forall in H. specialize (H _ I).
  cbn [write_ok] in H. unfold field_how in H.
  destruct (lookup_census all cls) as [c|] eqn:L; [|discriminate].
  destruct (lookup_field c f) as [[k w]|] eqn:F; [|discriminate]. destruct w; try discriminate.
  exists c, k. split; [now apply lookup_census_in|]. split; [now apply lookup_field_in|]. now destruct k as [| | | |[]].
Qed.

(** *** Process-global state (module-level mutable objects of instancing.py: the log de-duplication set, the logger)
    cannot influence a result.  For every control-flow skeleton in which decisions on such an object guard only logging
    and updates of the object itself ([gates_ok]; kernel-checked for the skeletons generated from today's collapse_one
    and every other function that mentions such an object), and for EVERY meaning of the statements, conditions, loop
    counts and exceptions ([sem]): the program state and the way control leaves the function are the same whatever
    the global state was at entry ... *)
Theorem c17_result_independent_of_process_state : forall (St G : Type) (m : sem St G) p, gates_ok p = true ->
  forall s g1 g2, result St G (run St G m p s g1) = result St G (run St G m p s g2).
Proof. exact noninterference. Qed.

(** ... hence for any history of such calls in one process (first collapse, hundredth collapse, before or after
    reset_keyvalue_warnings): "collapsing the same file any number of times, in any order". *)
Theorem c17_collapse_history_independent_of_process_state : forall (St G : Type) (m : sem St G) ps,
  forallb gates_ok ps = true ->
  forall s g1 g2, fst (run_many St G m ps s g1) = fst (run_many St G m ps s g2).
Proof. exact history_independent. Qed.

(** The guard-clause shape `if key in SEEN: continue` in front of the store is rejected, and rightly so: two collapses
    write one keyvalue instead of two, one collapse depends on what the process did before. *)
Theorem c17_process_state_gate_refuted :
  gates_ok shape_guard_clause = false /\ gates_ok shape_log_once = true /\
  fst (run_many nat bool demo_sem [shape_guard_clause; shape_guard_clause] 0%nat false) = 1%nat /\
  fst (run_many nat bool demo_sem [shape_log_once; shape_log_once] 0%nat false) = 2%nat /\
  result nat bool (run nat bool demo_sem shape_guard_clause 0%nat false) <> result nat bool (run nat bool demo_sem shape_guard_clause 0%nat true).
Proof. repeat split; try reflexivity. cbn. discriminate. Qed.

(** A function of the module seen from its callers ([KCall]: `return` ends it, exceptions propagate; the skeleton of a
    callee that touches the module-level state is inlined at the call, so the global state is threaded through helpers
    and through collapse_all's loop of collapse_one calls): with [fn_ok] - every decision on the global state guards
    quiet code, or the whole body is quiet up to bare `return`s - a call leaves the same program state and raises or
    not independently of the global state.  This is the statement the obligation `process_state_only_gates_logging`
    instantiates for every function of instancing.py that touches the module-level state, directly or through calls. *)
Theorem c17_call_independent_of_process_state : forall (St G : Type) (m : sem St G) body, fn_ok body = true ->
  forall s g1 g2, result St G (run St G m (KCall body) s g1) = result St G (run St G m (KCall body) s g2).
Proof. exact call_noninterference. Qed.

(** Helper shapes: `def warn_once(k): if k in SEEN: return; log; SEEN.add(k)` called before the store is accepted (and two
    collapses write two keyvalues); a helper whose return value depends on SEEN, used by the caller to skip the store, is not. *)
Theorem c17_process_state_helper_shapes : gates_ok shape_helper_log_once = true /\ gates_ok shape_helper_decides = false /\
  fst (run_many nat bool demo_sem [shape_helper_log_once; shape_helper_log_once] 0%nat false) = 2%nat.
Proof. exact shape_helpers. Qed.

(** *** The parts together: "collapsing the same file any number of times, in any order and at any placement, gives
    results that differ only by that placement".  For any abstract collapse (template, process state, placement, other
    arguments -> what is added to the map, template and process state afterwards) that (1) reads the template only
    through its observations, (2) leaves those observations unchanged (c17_template_intact_any_number_of_collapses),
    (3) gives a result independent of the process state (c17_call_independent_of_process_state) and (4) is equivariant
    in the placement (c17_placement_equivariance): every result of any history of collapses in one process is what that
    call alone gives on the untouched template in a new process at the identity placement, moved to its own placement.
    The four hypotheses are visible; their link to the part models is by reading (SM/C17Compose.v). *)
Theorem c17_each_collapse_as_if_first : forall (T G P A M Obs : Type) (obs : T -> Obs) (collapse : T -> G -> P -> A -> M * T * G)
    (ident : P) (transform : P -> M -> M),
  (forall t t' g p a, obs t = obs t' -> c_out T G M (collapse t g p a) = c_out T G M (collapse t' g p a)) ->
  (forall t g p a, obs (c_tmpl T G M (collapse t g p a)) = obs t) ->
  (forall t g g' p a, c_out T G M (collapse t g p a) = c_out T G M (collapse t g' p a)) ->
  (forall t g p a, c_out T G M (collapse t g p a) = transform p (c_out T G M (collapse t g ident a))) ->
  forall cs t g g0, c_history T G P A M collapse cs t g = map (as_if_first T G P A M collapse ident transform t g0) cs.
Proof. exact each_result_as_if_first. Qed.

(** ... hence the order of the collapses does not matter (a permuted history gives the permuted results). *)
Theorem c17_collapse_order_independent : forall (T G P A M Obs : Type) (obs : T -> Obs) (collapse : T -> G -> P -> A -> M * T * G)
    (ident : P) (transform : P -> M -> M),
  (forall t t' g p a, obs t = obs t' -> c_out T G M (collapse t g p a) = c_out T G M (collapse t' g p a)) ->
  (forall t g p a, obs (c_tmpl T G M (collapse t g p a)) = obs t) ->
  (forall t g g' p a, c_out T G M (collapse t g p a) = c_out T G M (collapse t g' p a)) ->
  (forall t g p a, c_out T G M (collapse t g p a) = transform p (c_out T G M (collapse t g ident a))) ->
  forall cs cs' t g, Permutation.Permutation cs cs' ->
  Permutation.Permutation (c_history T G P A M collapse cs t g) (c_history T G P A M collapse cs' t g).
Proof. exact order_independent. Qed.

(** *** THE PROPERTY AS ONE STATEMENT over the generated objects.  The four hypotheses of the two theorems above
    are not assumed but derived, in one machine (SM/C17Whole.v): a collapse is the run of the generated skeleton of
    collapse_one over a program state made of C09's heap (who holds a reference to what), the values in hand and the
    process-global state; what it adds to the map is the generated placement arithmetic [g_arith] applied item by item.
      - template read only through its value + template intact:  from C09's census / frame theorems, for every copy
        census in which the classes reached by copy() from the copied classes are fresh (obligation
        `copied_template_classes_fresh`, with [all] := C09's generated [all_census]);
      - independent of the process state:  from [fn_ok] of the skeleton (obligation `process_state_only_gates_logging`;
        collapse_one is in the list: `collapse_one_skeleton_present`);
      - placement equivariance:  from the identity laws of the generated arithmetic (c17_generated_arithmetic_identity).
    What remains assumed is [respects], about the meaning of the individual statements (universally quantified [m]):
    a statement writes through references it holds or builds a copy as the census says, and what it computes depends on
    the template only through the template's value.
    (Below: c17_property_by_statement_kinds replaces [respects] by a generated per-statement kind table that the
    check validates on every run, plus the per-kind contract [follows]; [respects] is then derived.)
    Conclusion: every result (how control left collapse_one, what was added to the map) of ANY history of collapses of
    one template in one process equals what that call alone gives on the untouched template, in a new process (any
    process state [g0]), at the identity placement, moved to its own placement. *)
Theorem c17_property : forall (all : list (string * census)),
  copied_classes_fresh all g_collapse_copied_classes = true ->
  process_state_only_gates_logging = true ->
  forall name body, In (name, body) g_process_state_functions ->
  forall (X G A D : Type) (a : loc) (m : sem (pstate X) G), respects all g_collapse_copied_classes X G a m ->
  forall (enter : A -> X) (content : X -> list (item D)) cs t g g0, wf_T a t ->
    c_history T G placement A (added D) (collapse X G m A D g_arith body enter content) cs t g =
    map (as_if_first T G placement A (added D) (collapse X G m A D g_arith body enter content)
           ident_placement (transform D g_arith) t g0) cs.
Proof.
  intros all fr ga name body pr X G A D a m resp enter content.
  unfold process_state_only_gates_logging in ga. pose proof (proj1 (forallb_forall _ _) ga _ pr) as ok.
  exact (whole_each_collapse_as_if_first all _ fr X G a m resp A D g_arith g_arith_identity body ok enter content).
Qed.

(** ... hence "in any order": a permuted history gives the permuted results ... *)
Theorem c17_property_any_order : forall (all : list (string * census)),
  copied_classes_fresh all g_collapse_copied_classes = true ->
  process_state_only_gates_logging = true ->
  forall name body, In (name, body) g_process_state_functions ->
  forall (X G A D : Type) (a : loc) (m : sem (pstate X) G), respects all g_collapse_copied_classes X G a m ->
  forall (enter : A -> X) (content : X -> list (item D)) cs cs' t g, wf_T a t -> Permutation.Permutation cs cs' ->
    Permutation.Permutation (c_history T G placement A (added D) (collapse X G m A D g_arith body enter content) cs t g)
                            (c_history T G placement A (added D) (collapse X G m A D g_arith body enter content) cs' t g).
Proof.
  intros all fr ga name body pr X G A D a m resp enter content.
  unfold process_state_only_gates_logging in ga. pose proof (proj1 (forallb_forall _ _) ga _ pr) as ok.
  exact (whole_order_independent all _ fr X G a m resp A D g_arith g_arith_identity body ok enter content).
Qed.

(** ... and after the whole history every observation of the template is what it was, the process still holds it
    separated from all copies (the state from which the next collapse starts). *)
Theorem c17_property_template_intact : forall (all : list (string * census)),
  copied_classes_fresh all g_collapse_copied_classes = true ->
  forall (body : skel) (X G A D : Type) (a : loc) (m : sem (pstate X) G), respects all g_collapse_copied_classes X G a m ->
  forall (enter : A -> X) (content : X -> list (item D)) cs t g, wf_T a t ->
    let t' := final_T X G m A D g_arith body enter content cs t g in
    wf_T a t' /\ forall n, unfold n (fst t') (VRef a) = unfold n (fst t) (VRef a).
Proof.
  intros all fr body X G A D a m resp enter content.
  exact (whole_template_intact all _ fr X G a m resp A D g_arith body enter content).
Qed.

(** The generated arithmetic: placing at (0, I) changes no point, direction, texture axis or orientation, and the other
    generated placement functions (entity origin, position keyvalues, explicit vertices, displacement data) are the
    same arithmetic as the four of [g_arith]. *)
Theorem c17_generated_arithmetic_identity : arith_identity g_arith.
Proof. exact g_arith_identity. Qed.

Theorem c17_generated_arithmetic_covers_sites : forall p o m,
  g_collapse_ent_origin p o m = ar_point g_arith p o m /\ g_fixup_key_position p o m = ar_point g_arith p o m /\
  g_side_strata_point p o m = ar_point g_arith p o m /\ g_side_disp_pos p o m = ar_point g_arith p o m /\
  g_side_vert_normal p m = ar_dir g_arith p m /\ g_side_vert_offset p m = ar_dir g_arith p m /\
  g_side_vert_offset_norm p m = ar_dir g_arith p m.
Proof. exact g_arith_covers_sites. Qed.

(** ... and the [transform D g_arith] of c17_property is, item by item, the specification of the property text: a position
    is the original rotated by the instance matrix and then offset by its origin ([place]), a direction is rotated ([vrot]),
    a texture axis is placed so that the texture moves with the geometry ([uvplace], c17_texture_moves_with_geometry), an
    orientation is composed with the instance rotation ([mmul]); placement-independent data is untouched. *)
Theorem c17_property_transform_is_the_specification : forall D p (r : added D),
  transform D g_arith p r = transform D spec_arith p r.
Proof. reflexivity. Qed.

(** *** [respects] narrowed to a GENERATED per-statement table (SM/C17Kinds.v).
    translate/c17_formulas.py classifies every numbered site of the skeleton of collapse_one by where the names bound to
    template objects occur in what the site evaluates: [KdLocal] (none), [KdRead] (only read by value), [KdCopy cls]
    (`.copy()` of a template object of class cls), [KdOther] (anything else) - [g_collapse_statement_kinds].  The
    generated-object hypothesis is [kinds_ok]: every site of the skeleton has an entry, none is [KdOther], every copied
    class is in [g_collapse_copied_classes] (obligation `statement_kinds_cover_collapse_one`).  What is still assumed
    about the meaning [m] of the statements is [follows], kind by kind: a local / reading statement changes the heap
    only by in-place stores and allocations through the references held (it builds no copy), a copying statement is
    [disciplined] for its one class; a local statement computes from the values in hand alone, a reading / copying
    statement from those and the VALUE of the template.  [follows] says nothing about an [KdOther] statement. *)
Definition collapse_one_statement_kinds_ok : bool :=
  andb collapse_one_skeleton_present
       (forallb (fun f => if str_eqb (fst f) [99;111;108;108;97;112;115;101;95;111;110;101]%N
                          then kinds_ok g_collapse_statement_kinds g_collapse_copied_classes (snd f) else true)
                g_process_state_functions).

Theorem c17_statement_kinds_give_respects : forall all copied (X G : Type) (a : loc) tbl body,
  kinds_ok tbl copied body = true ->
  forall m : sem (pstate X) G, follows all X G a tbl m -> respects all copied X G a m.
Proof. exact kinds_respects. Qed.

Theorem c17_property_by_statement_kinds : forall (all : list (string * census)),
  copied_classes_fresh all g_collapse_copied_classes = true ->
  process_state_only_gates_logging = true ->
  forall name body, In (name, body) g_process_state_functions ->
  kinds_ok g_collapse_statement_kinds g_collapse_copied_classes body = true ->
  forall (X G A D : Type) (a : loc) (m : sem (pstate X) G), follows all X G a g_collapse_statement_kinds m ->
  forall (enter : A -> X) (content : X -> list (item D)) cs t g g0, wf_T a t ->
    c_history T G placement A (added D) (collapse X G m A D g_arith body enter content) cs t g =
    map (as_if_first T G placement A (added D) (collapse X G m A D g_arith body enter content)
           ident_placement (transform D g_arith) t g0) cs.
Proof.
  intros all fr ga name body pr ok X G A D a m fo.
  exact (c17_property all fr ga name body pr X G A D a m (kinds_respects all _ X G a _ body ok m fo)).
Qed.

Theorem c17_property_by_statement_kinds_any_order : forall (all : list (string * census)),
  copied_classes_fresh all g_collapse_copied_classes = true ->
  process_state_only_gates_logging = true ->
  forall name body, In (name, body) g_process_state_functions ->
  kinds_ok g_collapse_statement_kinds g_collapse_copied_classes body = true ->
  forall (X G A D : Type) (a : loc) (m : sem (pstate X) G), follows all X G a g_collapse_statement_kinds m ->
  forall (enter : A -> X) (content : X -> list (item D)) cs cs' t g, wf_T a t -> Permutation.Permutation cs cs' ->
    Permutation.Permutation (c_history T G placement A (added D) (collapse X G m A D g_arith body enter content) cs t g)
                            (c_history T G placement A (added D) (collapse X G m A D g_arith body enter content) cs' t g).
Proof.
  intros all fr ga name body pr ok X G A D a m fo.
  exact (c17_property_any_order all fr ga name body pr X G A D a m (kinds_respects all _ X G a _ body ok m fo)).
Qed.

Theorem c17_property_by_statement_kinds_template_intact : forall (all : list (string * census)),
  copied_classes_fresh all g_collapse_copied_classes = true ->
  forall body, kinds_ok g_collapse_statement_kinds g_collapse_copied_classes body = true ->
  forall (X G A D : Type) (a : loc) (m : sem (pstate X) G), follows all X G a g_collapse_statement_kinds m ->
  forall (enter : A -> X) (content : X -> list (item D)) cs t g, wf_T a t ->
    let t' := final_T X G m A D g_arith body enter content cs t g in
    wf_T a t' /\ forall n, unfold n (fst t') (VRef a) = unfold n (fst t) (VRef a).
Proof.
  intros all fr body ok X G A D a m fo.
  exact (c17_property_template_intact all fr body X G A D a m (kinds_respects all _ X G a _ body ok m fo)).
Qed.

(** *** VMM manifests.  `Manifest` is an `Instance` constructed with `Vec()`, `Matrix()` and `FixupStyle.NONE`
    (obligation `manifest_identity_placement_names_unaltered`: the arguments of the `Instance.__init__` call in
    `Manifest.__init__`, no override of fixup_name / fixup_key): for every name table passing the named checks no name is
    altered, and the generated placement arithmetic at (0, I) alters no item of the content. *)
Theorem c17_manifest_names_unaltered : forall c, cfg_ok c = true -> forall inst name, fixup_name c SNone inst name = Some name.
Proof. intros c H inst name. destruct (fixup_name_value c H SNone inst name) as [E|E]; exact E. Qed.

Theorem c17_manifest_content_unaltered : forall D (r : added D), transform D g_arith ident_placement r = r.
Proof. intros. apply transform_ident, g_arith_identity. Qed.

(** The derivations behind c17_property, for any arithmetic / census / skeleton: a statement that respects the census
    keeps the template's value and the separation (C09's census theorem + frame theorem, one statement at a time) ... *)
Theorem c17_disciplined_statement_keeps_template : forall all copied, copied_classes_fresh all copied = true ->
  forall a h R h' R', disciplined all copied h R h' R' -> wf_hr a h R ->
  (forall n, unfold n h' (VRef a) = unfold n h (VRef a)) /\ wf_hr a h' R'.
Proof. exact disciplined_frame. Qed.

(** ... and two runs of any skeleton from states that hold the same values and see the same template value stay in
    step: same values, same control outcome, same process state, template value kept on both sides. *)
Theorem c17_run_reads_template_by_value : forall all copied, copied_classes_fresh all copied = true ->
  forall (X G : Type) (a : loc) (m : sem (pstate X) G), respects all copied X G a m ->
  forall o p s s' g, sim X a o s s' -> sim_out X G a o (run (pstate X) G m p s g) (run (pstate X) G m p s' g).
Proof. exact run_sim. Qed.

(** *** `substitute` is a function of the current table, although the compiled pattern is cached on the object.
    For every list of method shapes passing [shape_ok] (the generated one does: obligation
    `fixup_pattern_cache_reset_on_key_change`), every history of method calls and substitutions on a new table, every
    effect of the methods on the key set: the pattern the next substitution scans with is the one compiled from the keys
    defined at that moment - the premise under which SM/C17Subst.v models `substitute` without any state. *)
Theorem c17_substitute_pattern_is_current : forall (Keys Pat : Type) (compile : Keys -> Pat) h k,
  forallb (pc_action_ok Keys) h = true ->
  fst (pc_lookup Keys Pat compile (pc_run Keys Pat compile h (pc_fresh Keys Pat k))) =
  compile (pc_keys Keys Pat (pc_run Keys Pat compile h (pc_fresh Keys Pat k))).
Proof. intros Keys Pat compile h k Hok. apply lookup_current, history_coherent; [exact Hok | apply fresh_coherent]. Qed.

(** Needed: a method that adds a key and keeps the cached pattern (substitute; add variable 1; substitute) scans with the
    pattern of the old key set; with the reset it scans with the new one. *)
Theorem c17_stale_pattern_refuted :
  shape_ok (SChange false) = false /\
  fst (pc_lookup _ _ (fun k => k) (pc_run _ _ (fun k => k) (demo_history false) (pc_fresh _ _ []))) = [] /\
  pc_keys _ _ (pc_run _ _ (fun k => k) (demo_history false) (pc_fresh _ _ [])) = [1%nat] /\
  fst (pc_lookup _ _ (fun k => k) (pc_run _ _ (fun k => k) (demo_history true) (pc_fresh _ _ []))) = [1%nat].
Proof. repeat split; reflexivity. Qed.

Local Open Scope nat_scope.
(** *** collapse_all terminates: at most recur_limit rounds, then RecursionError; success iff the inclusion depth
    is below the limit; mutually-inclusive instances always raise. *)
Theorem c17_collapse_rounds_bounded : forall children limit p,
  l_rounds (loop children limit p) <= limit /\
  (l_outcome (loop children limit p) = Raise -> l_rounds (loop children limit p) = limit) /\
  (l_outcome (loop children limit p) = Done ->
     rounds children (l_rounds (loop children limit p)) p = [] /\ l_rounds (loop children limit p) < limit).
Proof. exact rounds_bounded. Qed.

Theorem c17_collapse_done_iff : forall children limit p,
  l_outcome (loop children limit p) = Done <-> exists k, k < limit /\ rounds children k p = [].
Proof. exact done_iff. Qed.

Theorem c17_collapse_cycle_raises : forall children limit p, (forall k, rounds children k p <> []) ->
  l_outcome (loop children limit p) = Raise /\ l_rounds (loop children limit p) = limit.
Proof. exact cycle_raises. Qed.

(** The work (number of collapse_one calls) is the sum of the pending sets; linear when no file holds more than one
    instance ... *)
Theorem c17_collapse_work : forall children limit p,
  l_work (loop children limit p) = work_upto children (l_rounds (loop children limit p)) p.
Proof. exact work_is_sum. Qed.

Theorem c17_collapse_work_linear_fanout1 : forall children limit p, (forall f, length (children f) <= 1) ->
  l_work (loop children limit p) <= limit * length p.
Proof. exact work_linear_fanout1. Qed.

(** ... and exponential in the limit for a file that includes itself twice (carved-out known defect #32: the
    recursion counter kept on entities is never consulted, only the round count bounds the loop). *)
Theorem c17_collapse_work_exponential_refuted : forall limit,
  loop (fun _ => [0; 0]) limit [0] = (Raise, limit, 2 ^ limit - 1).
Proof. exact self_twice. Qed.

(* collapse_all with the ancestry check (SM/C17Rounds.v [loop2]).
   [loop] above is the loop WITHOUT the check (the code before the repair): it stays as the specification of the outcome.
   [loop2 children perm] is today's loop: a pending instance carries the files of its enclosing instances and the loop
   raises as soon as an instance's file is among them; [perm] is the (arbitrary) order in which the set by_class hands
   out the pending instances of a round.  The graph [children] is fixed, i.e. all nested file names are free of
   $variables; links through $variables reset the parents in the code and are outside the model.
   ([start] is qualified: SM/C17Whole.v, imported later, has a [start] of its own.) *)

(** Exactness of the repair, for every graph, limit, start and iteration order: the loop with the check raises exactly
    when the loop without it raises, and when they finish they ran the same rounds and the same collapse_one calls. *)
Theorem c17_collapse_cycle_check_exact : forall children perm, (forall l, Permutation.Permutation (perm l) l) ->
  forall limit roots,
  l_outcome (loop2 children perm limit (C17Rounds.start roots)) = l_outcome (loop children limit roots) /\
  (l_outcome (loop children limit roots) = Done -> loop2 children perm limit (C17Rounds.start roots) = loop children limit roots).
Proof. intros children perm P limit roots. split; apply (loop2_vs_loop children perm P limit roots). Qed.

(** It never does more work or more rounds than the loop without the check. *)
Theorem c17_collapse_cycle_check_work_le : forall children perm, (forall l, Permutation.Permutation (perm l) l) ->
  forall limit roots,
  l_work (loop2 children perm limit (C17Rounds.start roots)) <= l_work (loop children limit roots) /\
  l_rounds (loop2 children perm limit (C17Rounds.start roots)) <= l_rounds (loop children limit roots).
Proof. intros children perm P limit roots. split; apply (loop2_vs_loop children perm P limit roots). Qed.

(** The file that includes itself twice (2^limit - 1 collapses without the check, c17_collapse_work_exponential_refuted):
    one collapse, RecursionError in the second round - for every limit of at least 2 and every iteration order. *)
Theorem c17_collapse_self_twice_raises_at_once : forall perm, (forall l, Permutation.Permutation (perm l) l) ->
  forall limit, 2 <= limit -> loop2 (fun _ => [0; 0]) perm limit (C17Rounds.start [0]) = (Raise, 2, 1).
Proof. exact self_twice_checked_any_order. Qed.

(** The number of rounds no longer grows with the limit: with all files among [univ] (closed under inclusion) at most
    one round per file and one more (a chain of parents never repeats a file). *)
Theorem c17_collapse_cycle_check_rounds_le_files : forall children perm, (forall l, Permutation.Permutation (perm l) l) ->
  forall univ, (forall f, In f univ -> incl (children f) univ) ->
  forall limit roots, incl roots univ ->
  l_rounds (loop2 children perm limit (C17Rounds.start roots)) <= S (length univ).
Proof. exact cycle_check_rounds_le_files. Qed.
(** *** The ancestry check with file names that come from $variables (SM/C17RoundsDyn.v).  A pending instance is a
    state (file + what the fixup variables hand down), [fl] gives its file, [kids s] the nested instances that collapsing
    [s] adds, flagged literal / through a $variable; parents are recorded along literal links and reset at the others
    ([loop3], what collapse_one / collapse_all do today: obligations `nested_instance_parents_extended_on_literal_file_names`,
    `ancestry_check_before_each_collapse`).  If a literal link belongs to the file ([lit_by_file]: from whatever state a file
    is collapsed, its literal nested instances are there, with the same file names) then for every state graph, limit, start
    and iteration order the loop with the check decides like the loop without it on the state graph, with the same rounds
    and collapses when that one finishes, and never more work: the check never fires on an inclusion that would have ended. *)
Theorem c17_collapse_cycle_check_exact_with_variable_file_names : forall fl kids, lit_by_file fl kids ->
  forall perm, (forall l, Permutation.Permutation (perm l) l) -> forall limit roots,
  l_outcome (loop3 fl kids perm limit (start3 roots)) = l_outcome (loop (children3 kids) limit roots) /\
  (l_outcome (loop (children3 kids) limit roots) = Done -> loop3 fl kids perm limit (start3 roots) = loop (children3 kids) limit roots) /\
  l_work (loop3 fl kids perm limit (start3 roots)) <= l_work (loop (children3 kids) limit roots) /\
  l_rounds (loop3 fl kids perm limit (start3 roots)) <= l_rounds (loop (children3 kids) limit roots).
Proof. exact dyn_cycle_check_exact. Qed.

(** recording a $variable link like a literal one (the `'$' not in` test dropped) makes a terminating self-inclusion raise *)
Theorem c17_variable_link_recorded_as_literal_refuted :
  loop3 countdown_fl countdown_as_literal (fun l => l) 100 (start3 [3]) = (Raise, 2, 1) /\
  loop (children3 countdown_as_literal) 100 [3] = (Done, 4, 4) /\ ~ lit_by_file countdown_fl countdown_as_literal.
Proof. exact dyn_chain_recorded_as_literal_refuted. Qed.
(** *** The automatic names of unnamed instances (SM/C17AutoNames.v).  collapse_all numbers the unnamed instances of
    a run from one variable; the generated object [g_collapse_all_auto_counter] lists what collapse_all does to it
    (obligation `auto_name_counter_kept_across_passes`: [counter_kept] - set before the loop over the passes, increased
    directly before every use, bound nowhere else inside the loop).  Then, however many unnamed instances each pass
    collapses ([passes]; nested unnamed instances are collapsed in later passes), no number is given twice in the run. *)
Theorem c17_auto_instance_names_distinct_across_passes : forall evs, counter_kept evs = true ->
  forall passes, NoDup (auto_names (counter_resets evs) 0 passes).
Proof.
  intros evs H passes. unfold counter_kept in H. unfold counter_resets.
  apply andb_prop in H as [_ H]. apply andb_prop in H as [_ H].
  destruct (existsb is_reset evs); [discriminate|]. apply auto_names_kept_distinct.
Qed.

Theorem c17_auto_instance_names_kept_counter : forall passes c,
  NoDup (auto_names false c passes) /\ (forall k, In k (auto_names false c passes) -> c < k).
Proof. intros; split; [apply auto_names_kept_distinct | apply auto_names_kept_above_start]. Qed.

(** numbering that restarts in every pass (the position in the pass as the number) gives the first unnamed instance of the
    second pass the number of the first one of the first pass; such an event list does not pass [counter_kept] *)
Theorem c17_auto_instance_names_restarting_per_pass_refuted :
  auto_names true 0 [1; 1] = [1; 1] /\ ~ NoDup (auto_names true 0 [1; 1]) /\
  counter_kept [CStoreInLoop] = false /\ counter_kept [CInitBeforeLoop; CIncrAtUse; CStoreInLoop] = false /\
  counter_kept [CInitBeforeLoop; CIncrAtUse] = true.
Proof.
  repeat split; try reflexivity.
  simpl. intro H. inversion H as [|x l Hin _]. apply Hin. left. reflexivity.
Qed.
