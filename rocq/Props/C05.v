(** C05 — Angle stays in [0,360), frozen values never change, text form is canonical.
    The statements, with the proofs that take a few lines; the others are in Num/Mod360Proofs.v, Num/AngleSitesProofs.v, Num/Dec6Proofs.v,
    SM/FrozenOpsProofs.v.  The generated objects (angle_sites, format_float_cfg, mut_events) are in
    Gen/AngleSites_gen.v; the instance obligations about them are kernel-checked by checks/c05.py. *)
From Coq Require Import ZArith NArith Reals List String Bool.
From Flocq Require Import Core BinarySingleNaN.
From SV Require Import Num.Mod360 Num.Mod360Proofs Num.AngleSites Num.AngleSitesProofs
                       Num.Dec6 Num.Dec6Proofs Num.Dec6CarveProofs Num.VecText Num.VecTextProofs Num.Mod360Id Num.VecTextFloat SM.FrozenOps SM.FrozenOpsProofs SM.FrozenCopy SM.FrozenCopyProofs
                       SM.FrozenCopyValue SM.FrozenCopyValueProofs Num.AngleText Num.AngleTextProofs
                       Num.AngleCtor Num.AngleCtorProofs SM.FrozenHash SM.FrozenHashProofs Num.SpecStrip Num.SpecStripProofs Num.C05Whole SM.FrozenEq SM.FrozenEqProofs.
Import ListNotations.

(** ------------------------------------------------------------------ (a) range *)

(** Python's [x % 360.0 % 360.0] on ANY finite binary64 x is finite and in the half-open interval. *)
Theorem c05_norm360_range : forall x : b64, is_finite x = true ->
  is_finite (double360 x) = true /\ (0 <= B2R (double360 x) < 360)%R.
Proof. exact norm360_range. Qed.

(** One application only gives the closed interval ... *)
Theorem c05_single_mod_closed : forall x : b64, is_finite x = true ->
  is_finite (pymod360 x) = true /\ (0 <= B2R (pymod360 x) <= 360)%R /\ (Bsign x = false -> (B2R (pymod360 x) < 360)%R).
Proof. exact pymod360_closed. Qed.

(** ... and 360.0 is reached (x = -1e-14). *)
Theorem c05_single_mod_refuted : exists x : b64, is_finite x = true /\ B2R (single360 x) = 360%R.
Proof. exact single_mod_refuted. Qed.

(** If every store to _pitch/_yaw/_roll found in the source is safe (double modulo, copy of an angle slot,
    literal 0.0), then after every history of stores with finite operands every slot of every angle is in
    [0, 360). *)
Theorem c05_angle_range_invariant : forall sites, all_sites_safe sites = true ->
  forall es st, Forall in_range st -> finite_inputs es -> Forall in_range (AngleSites.run sites es st).
Proof. exact angle_range_invariant. Qed.

(** Error paths: the events are single stores, so a call that raises half-way leaves a PREFIX of its stores
    behind; the invariant holds after the prefix as well as after the whole call (no store relies on a later one).  The
    frame theorems below quantify over arbitrary new values for the registers a call may write, which covers a call that
    was interrupted after some of its writes. *)
Theorem c05_range_after_interrupted_call : forall sites, all_sites_safe sites = true ->
  forall done skipped st, Forall in_range st -> finite_inputs done -> Forall in_range (AngleSites.run sites done st) /\
    (finite_inputs skipped -> Forall in_range (AngleSites.run sites (done ++ skipped) st)).
Proof. exact angle_range_after_interrupted_call. Qed.

(** A single-modulo site breaks the invariant: one store of -1e-14 leaves exactly 360.0 in the slot. *)
Theorem c05_single_site_refuted :
  exists es, finite_inputs es /\
    exists x, In x (AngleSites.run [("_to_angle"%string, Single360)] es []) /\ B2R x = 360%R.
Proof.
  exists [Alloc; Store {| site := 0; dst := 1; input := tiny_neg; src := 0 |}]. split.
  - constructor; [exact I|]. constructor; [|constructor]. vm_compute. reflexivity.
  - exists (single360 tiny_neg). split; [|exact single360_tiny_neg].
    change (In (single360 tiny_neg) [B754_zero false; single360 tiny_neg; B754_zero false]).
    right. left. reflexivity.
Qed.

(** Constructors by ARGUMENT FORM.  For every dispatch table read off Angle.__init__ / FrozenAngle.__new__
    that passes [ctor_table_ok]: whatever the first argument is - a number, an object of the class, an angle of the
    twin class, a Vec, a FrozenVec, any other iterable - and whatever finite floats it supplies (in range when they
    are the slots of an angle), each constructor has a path for that form and the object that path hands out has
    three finite slots in [0, 360). *)
Theorem c05_ctor_range : forall ctors rows, ctor_table_ok ctors rows = true ->
  forall c, In c ctors -> forall f v, supplied_ok f v ->
    (exists a, In (c, f, a) rows) /\
    (forall a, In (c, f, a) rows -> exists s, ctor_eval a v = Some s /\ in_range3 s).
Proof. exact ctor_range. Qed.

(** A fast path that stores the components of a Vec argument as they are (seeded fault c05_6) fails the table check,
    the offending row is named, and FrozenAngle(Vec(-90, 0, 0)) holds -90. *)
Theorem c05_ctor_vec_copy_refuted :
  let rows := [("FrozenAngle.__new__"%string, FVec, AStores Other Other Other)] in
  ctor_table_ok ["FrozenAngle.__new__"%string] rows = false /\
  bad_ctor_rows rows = [("FrozenAngle.__new__"%string, FVec)] /\
  supplied_ok FVec (neg90, B754_zero false, B754_zero false) /\
  exists s, ctor_eval (AStores Other Other Other) (neg90, B754_zero false, B754_zero false) = Some s /\
            (B2R (fst (fst s)) = -90)%R.
Proof.
  destruct neg90_spec as [Hv Hf].
  repeat split; try reflexivity; try discriminate; auto.
  eexists; split; [reflexivity|]. simpl. exact Hv.
Qed.

(** ------------------------------------------------------------------ (b) frozen values, copies *)

(** For every mutation table that passes the census check, and every history of public calls that do not
    trigger a carved-out event: registers of a frozen class keep their observable value ... *)
Theorem c05_frozen_registers_stable : forall (V : Type) table carve, table_ok table carve = true ->
  forall h st i r, good_history V table carve h st ->
  nth_error st i = Some r -> frozen_class (fst r) = true -> nth_error (FrozenOps.run V table h st) i = Some r.
Proof. intros V table carve OK h. exact (frozen_registers_stable V table carve OK h). Qed.

(** ... and a register that is never the receiver of a call (e.g. the source of a copy while its copy is
    operated on, or the copy while the source is operated on) keeps its value. *)
Theorem c05_copy_independent : forall (V : Type) table carve, table_ok table carve = true ->
  forall h st i r, good_history V table carve h st ->
  nth_error st i = Some r -> Forall (fun x => recv (fst (fst x)) <> i) h ->
  nth_error (FrozenOps.run V table h st) i = Some r.
Proof. intros V table carve OK h. exact (non_receiver_stable V table carve OK h). Qed.

Theorem c05_frozen_stable_refuted :
  table_ok bad_table no_carve = false /\
  FrozenOps.run nat bad_table (({| meth := "__matmul__"; recv := 0%nat; args := (0%nat :: nil) |}, fun _ : nat => 1%nat, nil) :: nil)
    (("FrozenMatrix"%string, 0%nat) :: nil) = (("FrozenMatrix"%string, 1%nat) :: nil).
Proof. split; reflexivity. Qed.

(** Copy independence WITH aliasing.  The state is a heap of objects; [src] is an object, [m] one of copy / __copy__ /
    __deepcopy__ / __reduce__ (pickle) / freeze / thaw that its class has.  For every census and result table read
    from the source that pass the three checks: the call writes nothing; its result is a new object or — only for a
    frozen class — [src] itself; whatever public calls follow, operating on the result never changes the source (1)
    and operating on the source never changes the result (2). *)
Theorem c05_copy_independent_alias : forall (V : Type) table carve results,
  table_ok table carve = true -> copy_results_ok results = true -> no_copy_events table = true ->
  forall st src c v m nv newobj,
    nth_error st src = Some (c, v) -> copylike m = true -> has results c m = true ->
    let k := kind_of results c m in
    let o := {| meth := m; recv := src; args := [] |} in
    let st' := FrozenOps.step V table st (o, nv, result_alloc k newobj) in
    let dst := result_obj k st src in
    (k = RFresh \/ (k = RSelf /\ frozen_class c = true)) /\
    nth_error st' src = Some (c, v) /\
    (k = RFresh -> nth_error st' dst = Some newobj /\ dst <> src) /\
    (forall h, good_history V table carve h st' -> Forall (fun x => recv (fst (fst x)) = dst \/ recv (fst (fst x)) <> src) h ->
       nth_error (FrozenOps.run V table h st') src = Some (c, v)) /\
    (forall h r, good_history V table carve h st' -> nth_error st' dst = Some r ->
       Forall (fun x => recv (fst (fst x)) = src \/ recv (fst (fst x)) <> dst) h ->
       nth_error (FrozenOps.run V table h st') dst = Some r).
Proof. intros V table carve results T R N. exact (copy_independent_alias V table carve results T R N). Qed.

(** necessary: with `Angle.copy` returning the receiver the check of the result table fails and multiplying the
    "copy" changes the source *)
Theorem c05_copy_alias_refuted :
  copy_results_ok bad_results_table = false /\
  let k := kind_of bad_results_table "Angle" "copy" in
  let st := [("Angle"%string, 5%nat)] in
  let st' := FrozenOps.step nat imul_table st ({| meth := "copy"; recv := 0%nat; args := [] |}, fun _ => 0%nat, result_alloc k ("Angle"%string, 5%nat)) in
  let dst := result_obj k st 0%nat in
  table_ok imul_table no_carve = true /\ dst = 0%nat /\
  nth_error (FrozenOps.run nat imul_table [({| meth := "__imul__"; recv := dst; args := [] |}, fun _ => 7%nat, [])] st') 0%nat = Some ("Angle"%string, 7%nat).
Proof. split; [reflexivity|]. cbv zeta. split; [reflexivity|]. split; reflexivity. Qed.

(** The VALUE of a copy.  [copy_shapes] (generated: each of copy / __copy__ / __deepcopy__ / __reduce__ / freeze /
    thaw of the six classes run symbolically on a source whose slots hold floats) lists which source slot reaches
    which result slot through which conversion.  For every table that passes [copy_shapes_ok]: the result has the class
    the method promises; a new Vec/FrozenVec/Matrix/FrozenMatrix has in every slot exactly the value of the same slot
    of the source (whatever the values are, any value type) ... *)
Theorem c05_copy_result_class : forall l, copy_shapes_ok l = true ->
  forall c m rc sh, In (c, m, rc, sh) l -> rc = result_class c m.
Proof. exact copy_result_class. Qed.

Theorem c05_copy_value_equal_exact : forall l, copy_shapes_ok l = true ->
  forall c m rc t, In (c, m, rc, CSlots t) l -> angle_family rc = false ->
  forall (V : Type) (norm : V -> V) (dflt : V) (src : string -> V) s, In s (slots_of rc) -> built V norm dflt t src s = src s.
Proof. exact copy_value_equal_exact. Qed.

(** ... and a new Angle/FrozenAngle built from a source that satisfies the range invariant (c05_angle_range_invariant)
    has in every slot a finite double with the same real value, again in [0, 360): the constructor's and the property
    setters' [% 360 % 360] is the identity there (c05_double360_id).  Composes (a) with (b): "a copy is equal to its
    source" for Angle.copy() / pickle needs the range invariant of the source. *)
Theorem c05_copy_value_equal_angles : forall l, copy_shapes_ok l = true ->
  forall c m rc t, In (c, m, rc, CSlots t) l -> angle_family rc = true ->
  forall src : string -> b64, (forall s, In s (slots_of rc) -> in_range (src s)) ->
  forall s, In s (slots_of rc) ->
    same64 (built b64 double360 (B754_zero false) t src s) (src s) /\ in_range (built b64 double360 (B754_zero false) t src s).
Proof. exact copy_value_equal_angles. Qed.

(** necessary: a copy() that swaps two slots fails the check and the built object differs *)
Theorem c05_copy_value_refuted :
  copy_shapes_ok [("Vec"%string, "copy"%string, "Vec"%string, CSlots swapped)] = false /\
  built nat (fun v => v) 0%nat swapped (fun s => if String.eqb s "_y" then 1%nat else if String.eqb s "_z" then 2%nat else 0%nat) "_y"%string = 2%nat.
Proof. split; reflexivity. Qed.

(** Hash of frozen values.  [hash_kinds] = what hash(obj) is for each concrete class, read from the source.
    For every table that passes [hash_table_ok] (a FROZEN class is unhashable or its hash is a function of ALL of its slots
    and of nothing else - not of the object's identity; the property is silent about the hash of a value that
    can change, so rows of mutable classes are not constrained; "mutable classes unhashable, FrozenVec/FrozenAngle
    hashable" is the separate predicate [hash_conventions], an observation of the check and the premise of
    c05_hashable_is_frozen only): *)

(** equal frozen values hash equal, wherever the two objects live (a copy, a pickle, thaw().freeze() of a dictionary key finds it) *)
Theorem c05_hash_same_value : forall (V X H : Type) (get : V -> string -> X) (hf : list X -> H) (ident : nat -> H) rows,
  hash_table_ok rows = true -> forall c a b i j, frozen_class c = true -> same_value V X get c a b ->
  hash_of V X H get hf ident rows i (c, a) = hash_of V X H get hf ident rows j (c, b).
Proof. exact hash_same_value. Qed.

(** the hash ignores no component *)
Theorem c05_hash_reads_every_slot : forall rows, hash_table_ok rows = true ->
  forall c l, frozen_class c = true -> FrozenHash.lookup c rows = Some (HSlots l) -> forall s, In s (family_slots c) -> In s l.
Proof. exact hash_reads_every_slot. Qed.

(** only frozen classes are hashable - a convention of today's source ([hash_conventions]), not a clause of C05 *)
Theorem c05_hashable_is_frozen : forall (V X H : Type) (get : V -> string -> X) (hf : list X -> H) (ident : nat -> H) rows,
  hash_conventions rows = true -> forall c i v h, hash_of V X H get hf ident rows i (c, v) = Some h -> frozen_class c = true.
Proof. exact hashable_is_frozen. Qed.

(** composed with the frame theorem: the hash of a frozen object is the same after EVERY history of public calls *)
Theorem c05_frozen_hash_stable : forall (V X H : Type) (get : V -> string -> X) (hf : list X -> H) (ident : nat -> H) table carve rows,
  table_ok table carve = true ->
  forall h st i r, good_history V table carve h st ->
  nth_error st i = Some r -> frozen_class (fst r) = true ->
  exists r', nth_error (FrozenOps.run V table h st) i = Some r' /\
             hash_of V X H get hf ident rows i r' = hash_of V X H get hf ident rows i r.
Proof. exact frozen_hash_stable. Qed.

(** ==.  [eq_shapes] = the per-slot comparisons of __eq__ on two objects of one family, read from the source.
    For every table that passes [eq_table_ok] (every slot of the family compared, each comparison accepting a difference of
    zero): two objects whose slots hold the same finite values (rationals) compare equal - with the copy theorems this
    is "a copy == its source" *)
Theorem c05_eq_same_value : forall rows, eq_table_ok rows = true ->
  forall fam l, In (fam, l) rows -> forall a b : string -> QArith_base.Q,
  (forall s, In s (family_slots fam) -> QArith_base.Qeq (a s) (b s)) -> eq_eval l a b = true.
Proof. exact eq_same_value. Qed.

Theorem c05_eq_reads_every_slot : forall rows, eq_table_ok rows = true ->
  forall fam l, In (fam, l) rows -> forall s, In s (family_slots fam) -> In s (map fst l).
Proof.
  unfold eq_table_ok. intros rows H fam l Hin s Hs.
  apply andb_prop in H. destruct H as [H _]. rewrite forallb_forall in H. specialize (H _ Hin).
  unfold eq_row_ok in H; simpl in H. apply andb_prop in H. destruct H as [H _]. apply andb_prop in H. destruct H as [_ Hsub].
  eapply subset_in; eauto.
Qed.

(** a strict test against a tolerance of zero rejects even identical values (own mutation OM10) *)
Theorem c05_eq_strict_zero_refuted :
  let rows := [("AngleBase"%string, [("_pitch"%string, CTol true (QArith_base.Qmake 0 1)); ("_yaw"%string, CTol false (QArith_base.Qmake 1 1000000)); ("_roll"%string, CTol false (QArith_base.Qmake 1 1000000))])] in
  eq_table_ok rows = false /\ bad_eq_rows rows = ["AngleBase"%string] /\
  eq_eval (snd (hd (""%string, []) rows)) (fun _ => QArith_base.Qmake 90 1) (fun _ => QArith_base.Qmake 90 1) = false.
Proof. repeat split. Qed.

(** in-place operators: for every census [inplace_rows] that passes, no class of a frozen object (nor a base class
    of one) defines an __iOP__ method: `frozen op= y` can only rebind the name to the result of the binary operator *)
Theorem c05_inplace_never_on_frozen : forall rows, inplace_ok rows = true ->
  forall c m, In (c, m) rows -> frozen_reachable c = false /\ frozen_class c = false.
Proof.
  unfold inplace_ok. intros rows. rewrite forallb_forall. intros H c m Hin. specialize (H _ Hin). simpl in H.
  apply negb_true_iff in H. split; auto.
  unfold frozen_reachable in H. apply orb_false_iff in H. destruct H as [H _].
  apply orb_false_iff in H. destruct H as [H _]. apply orb_false_iff in H. destruct H as [H _]. exact H.
Qed.

(** an identity hash on a frozen class is rejected: equal values in two registers hash differently *)
Theorem c05_hash_identity_refuted :
  let rows := [("FrozenVec"%string, HIdentity)] in
  hash_table_ok rows = false /\ bad_hash_rows rows = ["FrozenVec"%string] /\
  hash_of nat nat nat (fun v _ => v) (fun l => 0%nat) (fun i => i) rows 0 ("FrozenVec"%string, 7%nat)
  <> hash_of nat nat nat (fun v _ => v) (fun l => 0%nat) (fun i => i) rows 1 ("FrozenVec"%string, 7%nat).
Proof. repeat split; try reflexivity. discriminate. Qed.

(** ------------------------------------------------------------------ (c) text *)

(** Shape of the text for EVERY dyadic x and every pipeline read from the source that strips zeros at six
    places: sign?, digits without leading zero, optionally '.' and 1-6 digits not ending in 0, never "-0" -
    except on the carved-out inputs, which exist only while the '-0' repair is absent (known defect #3:
    negative x with |x|*1e6 rounding to 0). *)
Theorem c05_format6_shape : forall c x, cfg_base_ok c = true -> carved c x = false -> shape_ok (fmt_parts c x) = true.
Proof. exact format6_shape_gen. Qed.

(** with the repair nothing is carved out *)
Theorem c05_format6_shape_fixed : forall c x, cfg_ok c = true -> shape_ok (fmt_parts c x) = true.
Proof. exact format6_shape. Qed.

(** the rendered STRING is accepted by an independent recogniser of  -?[0-9]+(\.[0-9]{1,6})?  minus "-0" *)
Theorem c05_render_plain : forall p, shape_ok p = true -> plain_decimal (render p) = true.
Proof. exact render_plain. Qed.

Theorem c05_format6_plain : forall c x, cfg_base_ok c = true -> carved c x = false -> plain_decimal (format6 c x) = true.
Proof. exact format6_plain_gen. Qed.

(** the carved-out class is exactly the "-0" output *)
Theorem c05_carved_prints_negative_zero : forall c x, cfg_base_ok c = true -> carved c x = true ->
  format6 c x = [45; 48]%N.
Proof. exact carved_prints_negative_zero. Qed.

(** The carve-out is EXACT: the text is "-0" if and only if the input is carved out ... *)
Theorem c05_negative_zero_iff_carved : forall c x, cfg_base_ok c = true -> (format6 c x = [45; 48]%N <-> carved c x = true).
Proof. exact negative_zero_iff_carved. Qed.

(** ... which means: no '-0' repair, a sign is printed, and |x|·10^6 <= 1/2 (num/den = |x|·10^6 exactly) *)
Theorem c05_carved_iff : forall c x, carved c x = true <->
  neg_zero_fix c = false /\ sign_flag c x = true /\ (2 * fst (num_den x) <= snd (num_den x))%N.
Proof. exact carved_iff. Qed.

(** for the pinned pipeline (x+0.0, no repair): exactly the non-zero negative values with |x| <= 5e-7 *)
Theorem c05_carved_pinned_iff : forall x, carved cfg_pinned x = true <->
  dneg x = true /\ dm x <> 0%N /\ (2 * fst (num_den x) <= snd (num_den x))%N.
Proof.
  intros x. rewrite carved_iff. unfold cfg_pinned, sign_flag. cbn [neg_zero_fix adds_zero].
  rewrite andb_true_iff, negb_true_iff, N.eqb_neq. tauto.
Qed.

(** an exact zero of either sign prints as "0" when the pipeline formats x+0.0 or repairs '-0' (obligation
    format_float_exact_zero_has_no_sign); without either, -0.0 prints as "-0" *)
Theorem c05_exact_zero_prints_zero : forall c x, cfg_base_ok c = true -> zero_sign_ok c = true -> dm x = 0%N -> format6 c x = [48]%N.
Proof. exact exact_zero_prints_zero. Qed.

(** without either, -0.0 prints as "-0": the obligation zero_sign_ok is necessary *)
Theorem c05_exact_zero_refuted :
  format6 {| adds_zero := false; places := 6; strips := true; neg_zero_fix := false |} {| dneg := true; dm := 0; de := 0%Z |} = [45; 48]%N.
Proof. vm_compute. reflexivity. Qed.

Theorem c05_format6_value : forall c x, scaled_value (fmt_parts c x) = scaled6 x.
Proof. exact format6_value. Qed.

(** |text·10^6 − |x|·10^6| ≤ 1/2, i.e. the text is within 5e-7 of x  (num/den = |x|·10^6 exactly) *)
Theorem c05_format6_error : forall x,
  (0 < Z.of_N (snd (num_den x)))%Z /\
  (2 * Z.abs (Z.of_N (scaled6 x) * Z.of_N (snd (num_den x)) - Z.of_N (fst (num_den x))) <= Z.of_N (snd (num_den x)))%Z.
Proof. exact scaled6_error. Qed.

Theorem c05_format6_sign : forall c x, pneg (fmt_parts c x) = true -> dneg x = true.
Proof.
  intros c x. rewrite fmt_parts_neg. unfold sign_flag. intros H. apply andb_prop in H. destruct H as [H _].
  destruct (adds_zero c); [apply andb_prop in H; tauto|exact H].
Qed.

Theorem c05_format6_shape_refuted :
  format6 cfg_pinned {| dneg := true; dm := 1; de := (-30)%Z |} = [45; 48]%N /\
  shape_ok (fmt_parts cfg_pinned {| dneg := true; dm := 1; de := (-30)%Z |}) = false.
Proof. split; vm_compute; reflexivity. Qed.

(** ------------------------------------------------------------------ (c) text: __format__ with a user spec *)

(** What Vec.__format__ / Angle.__format__ do to the text Python's format(component, spec) produced, for every
    configuration read from the source that passes [spec_cfg_ok]: a fixed-point text  pre ++ "." ++ frac  ([pre] = sign,
    padding, integer digits, separators: anything without '.', 'e', 'E'; [frac] digits) loses the trailing zeros of the
    fraction, and the dot when nothing is left - and nothing else. *)
Theorem c05_spec_post_fixed : forall k pre frac,
  spec_cfg_ok k = true -> spec_neg_zero_fix k = false ->
  ss_has 46 pre = false -> ss_has 101 pre = false -> ss_has 69 pre = false -> ss_digits frac = true ->
  exists (frac' : list N) n, frac = (frac' ++ repeat 48%N n)%list /\ (forall p x, frac' = (p ++ [x])%list -> x <> 48%N) /\
    spec_post k (pre ++ 46%N :: frac)%list = (pre ++ (match frac' with [] => [] | _ => 46%N :: frac' end))%list.
Proof. exact spec_post_fixed. Qed.

(** a text with an exponent is handed on unchanged (its trailing zeros belong to the exponent) *)
Theorem c05_spec_post_exponent : forall k s,
  guard_no_exp k = true -> dot_outside k = false \/ (forall p, s <> (p ++ [46%N])%list) ->
  ss_has 101 s = true \/ ss_has 69 s = true -> spec_post k s = s.
Proof. exact spec_post_exponent. Qed.

(** a text without a dot is handed on unchanged *)
Theorem c05_spec_post_no_dot : forall k s,
  guard_dot k = true -> spec_neg_zero_fix k = false -> ss_has 46 s = false -> spec_post k s = s.
Proof.
  intros k s Hg Hf Hd. unfold spec_post, ss_guard. rewrite Hg, Hf, Hd. cbn [negb orb andb].
  destruct (dot_outside k); auto. apply rstrip_no_c. exact Hd.
Qed.

(** the pinned tree before repair ab396c8 (no exponent guard): "1.5e+20" -> "1.5e+2", "0.0e+00" -> "0.0e+" *)
Theorem c05_spec_post_unguarded_refuted :
  spec_cfg_ok cfg_unguarded = false /\
  spec_post cfg_unguarded [49; 46; 53; 101; 43; 50; 48]%N = [49; 46; 53; 101; 43; 50]%N /\
  spec_post cfg_unguarded [48; 46; 48; 101; 43; 48; 48]%N = [48; 46; 48; 101; 43]%N /\
  spec_post cfg_guarded [49; 46; 53; 101; 43; 50; 48]%N = [49; 46; 53; 101; 43; 50; 48]%N.
Proof. repeat split. Qed.

(** ------------------------------------------------------------------ (c) text: reading back *)

(** every number written by format_float (any pipeline, any dyadic, the carved-out "-0" included) is decoded by the
    plain-decimal reader to an exact decimal within 5e-7 of the number *)
Theorem c05_parse_format6 : forall c x, exists d, parse_decimal (format6 c x) = Some d /\ within_5e7 d x.
Proof. exact parse_format6. Qed.

(** parse_vec_str (as read from the source, [pcfg_ok]) applied to three formatted numbers separated by non-empty
    whitespace, optionally wrapped in one opening and/or one closing bracket of the source's sets, with arbitrary
    whitespace outside and inside the brackets: three fields, each decoded within 5e-7 of its component *)
Theorem c05_parse_format_vec : forall pc c x y z ws1 ob wa s1 s2 wb cb ws2,
  pcfg_ok pc = true ->
  all_space ws1 -> all_space wa -> all_space wb -> all_space ws2 ->
  all_space s1 -> s1 <> [] -> all_space s2 -> s2 <> [] ->
  opt_bracket (opens pc) ob -> opt_bracket (closes pc) cb ->
  exists dx dy dz,
    parse_vec pc (ws1 ++ ob ++ wa ++ format6 c x ++ s1 ++ format6 c y ++ s2 ++ format6 c z ++ wb ++ cb ++ ws2)
      = PFields (Some dx) (Some dy) (Some dz) /\
    within_5e7 dx x /\ within_5e7 dy y /\ within_5e7 dz z.
Proof. exact parse_format_vec. Qed.

(** str(vec) / str(angle) itself *)
Theorem c05_parse_str_vec : forall pc c x y z, pcfg_ok pc = true ->
  exists dx dy dz, parse_vec pc (vec_text c x y z) = PFields (Some dx) (Some dy) (Some dz) /\
    within_5e7 dx x /\ within_5e7 dy y /\ within_5e7 dz z.
Proof.
  intros pc c x y z OK.
  destruct (parse_format_vec pc c x y z [] [] [] [32%N] [32%N] [] [] [] OK) as (dx & dy & dz & E & W);
    try reflexivity; try discriminate; try (left; reflexivity).
  exists dx, dy, dz. split; [|exact W]. unfold vec_text. cbn [app] in E. rewrite app_nil_r in E. exact E.
Qed.

(** the documented forms "(x y z)", "{x y z}", "[x y z]", "<x y z>" (mixed pairs too) *)
Theorem c05_parse_bracketed_vec : forall pc c x y z o cl, pcfg_ok pc = true -> accepts_documented_brackets pc = true ->
  In o [40; 123; 91; 60]%N -> In cl [41; 125; 93; 62]%N ->
  exists dx dy dz, parse_vec pc ([o] ++ vec_text c x y z ++ [cl]) = PFields (Some dx) (Some dy) (Some dz) /\
    within_5e7 dx x /\ within_5e7 dy y /\ within_5e7 dz z.
Proof.
  intros pc c x y z o cl OK D Ho Hcl.
  destruct (parse_format_vec pc c x y z [] [o] [] [32%N] [32%N] [] [cl] [] OK) as (dx & dy & dz & E & W);
    try reflexivity; try discriminate; [apply documented_open; assumption|apply documented_close; assumption|].
  exists dx, dy, dz. split; [|exact W]. rewrite <- E. f_equal. unfold vec_text. cbn [app].
  f_equal. rewrite <- !app_assoc. cbn [app]. rewrite <- !app_assoc. cbn [app]. reflexivity.
Qed.

(** without strip() the bracket after a leading space is not removed and the first field is lost *)
Theorem c05_parse_nostrip_refuted :
  parse_vec {| strips_ws := false; opens := [40]%N; closes := [41]%N; splits_ws := true; uses_float := true |} [32; 40; 49; 32; 50; 32; 51; 41]%N
  = PFields None (Some (false, 2%N, O)) (Some (false, 3%N, O)).
Proof. vm_compute. reflexivity. Qed.

(** ------------------------------------------------------------------ (a)+(c) normalisation of a value already in range *)

(** Python's [x % 360.0 % 360.0] leaves every finite x with 0 <= x < 360 unchanged (as a real number): the
    constructor normalisation in Angle.from_str / Angle(...) / FrozenAngle(...) does not move a component that was
    read back from text, and storing twice equals storing once. *)
Theorem c05_double360_id : forall x : b64, is_finite x = true -> (0 <= B2R x < 360)%R ->
  B2R (double360 x) = B2R x /\ is_finite (double360 x) = true.
Proof. exact double360_id. Qed.

Theorem c05_double360_idempotent : forall x : b64, is_finite x = true ->
  B2R (double360 (double360 x)) = B2R (double360 x).
Proof. intros x Hx. destruct (norm360_range x Hx) as [Hf Hr]. apply (double360_id _ Hf Hr). Qed.

(** exactly 360.0 — what a component such as 359.9999997 prints as ("360") and re-reads to — is stored as 0.0:
    the 5e-7 of the property is measured on the circle for angles *)
Theorem c05_double360_of_360 : show (double360 f360) = (0, 0, 0)%Z.
Proof. vm_compute. reflexivity. Qed.

(** ------------------------------------------------------------------ (c) float(): the binary rounding of the field *)

(** [within_5e7] is the statement |decimal − x| <= 5e-7 over the reals *)
Theorem c05_within_5e7_R : forall d x, within_5e7 d x -> (Rabs (dec_R d - dy_R x) <= 5 / 10000000)%R.
Proof. exact within_5e7_R. Qed.

(** float() modelled as correctly rounded ([py_float] = round-to-nearest-even to binary64 of the exact decimal):
    the double read back is within 5e-7 + half an ulp of x *)
Theorem c05_float_parse_error : forall d x, within_5e7 d x ->
  (Rabs (py_float d - dy_R x) <= 5 / 10000000 + / 2 * ulp radix2 (FLT_exp (-1074) 53) (dec_R d))%R.
Proof. exact float_parse_error. Qed.

(** and exact when the text denotes x itself *)
Theorem c05_float_parse_exact : forall d x, dec_R d = dy_R x ->
  generic_format radix2 (FLT_exp (-1074) 53) (dy_R x) -> py_float d = dy_R x.
Proof. intros d x E G. unfold py_float. rewrite E. apply round_generic; [typeclasses eauto|exact G]. Qed.

(** ------------------------------------------------------------------ (a)+(c) composed: str(angle) -> from_str *)

(** Python's [% 360.0] on a finite value in [360, 720) is the exact subtraction of 360 (no rounding, no sign repair):
    what happens to a component that was printed as "360" / "360.000000" and read back *)
Theorem c05_double360_sub : forall x : b64, is_finite x = true -> (360 <= B2R x < 720)%R ->
  B2R (double360 x) = (B2R x - 360)%R /\ is_finite (double360 x) = true.
Proof. exact double360_sub. Qed.

(** ONE COMPONENT through the whole chain.  [x] is a slot that satisfies the range invariant (c05_angle_range_invariant);
    [d] the decimal that the reader decodes from format_float's text of it; [f] the double float() returns for [d]
    (correctly rounded, [py_float]).  Then the slot the constructor stores, [f % 360.0 % 360.0], is again in [0, 360)
    and is within 5e-7 + ulp/2 of [x] either directly or after the wrap-around 360 -> 0 (distance on the circle). *)
Theorem c05_angle_component_roundtrip : forall c (x f : b64) d,
  in_range x -> parse_decimal (format6 c (dy_of x)) = Some d ->
  is_finite f = true -> B2R f = py_float d ->
  in_range (double360 f) /\
  (Rabs (B2R (double360 f) - B2R x) <= 5 / 10000000 + / 2 * ulp radix2 (FLT_exp (-1074) 53) (dec_R d) \/
   Rabs (B2R (double360 f) + 360 - B2R x) <= 5 / 10000000 + / 2 * ulp radix2 (FLT_exp (-1074) 53) (dec_R d))%R.
Proof. exact angle_component_roundtrip. Qed.

(** THE WHOLE ANGLE: Angle.from_str / FrozenAngle.from_str applied to the text of an angle whose slots are in range, in
    any bracket style of the source's sets with any whitespace: parse_vec_str (pipeline read from the source) returns
    three decimal fields, and for whatever finite doubles float() returns for them (correctly rounded) each stored slot
    is in [0, 360) and within 5e-7 + ulp/2 of the printed slot modulo 360.  Composes c05_angle_range_invariant (premise),
    c05_parse_format_vec, c05_float_parse_error, c05_double360_id and c05_double360_sub. *)
Theorem c05_angle_text_roundtrip : forall pc c (p y r : b64) ws1 ob wa s1 s2 wb cb ws2,
  pcfg_ok pc = true ->
  all_space ws1 -> all_space wa -> all_space wb -> all_space ws2 ->
  all_space s1 -> s1 <> [] -> all_space s2 -> s2 <> [] ->
  opt_bracket (opens pc) ob -> opt_bracket (closes pc) cb ->
  in_range p -> in_range y -> in_range r ->
  exists d1 d2 d3,
    parse_vec pc (ws1 ++ ob ++ wa ++ format6 c (dy_of p) ++ s1 ++ format6 c (dy_of y) ++ s2 ++ format6 c (dy_of r) ++ wb ++ cb ++ ws2)
      = PFields (Some d1) (Some d2) (Some d3) /\
    forall d x, In (d, x) [(d1, p); (d2, y); (d3, r)] ->
    forall f : b64, is_finite f = true -> B2R f = py_float d ->
      in_range (double360 f) /\
      (Rabs (B2R (double360 f) - B2R x) <= 5 / 10000000 + / 2 * ulp radix2 (FLT_exp (-1074) 53) (dec_R d) \/
       Rabs (B2R (double360 f) + 360 - B2R x) <= 5 / 10000000 + / 2 * ulp radix2 (FLT_exp (-1074) 53) (dec_R d))%R.
Proof. exact angle_text_roundtrip. Qed.

(** the dyadic given to format6 and the binary64 given to double360 are the same reading of a Python float (the
    (sign, mantissa, exponent) triple of the bit-exact correspondences) *)
Theorem c05_dy_of_show : forall x : b64, is_finite x = true ->
  show x = ((if dneg (dy_of x) then 1 else 0)%Z, Z.of_N (dm (dy_of x)), de (dy_of x)).
Proof. intros x. destruct x as [s|s| |s m e Hb]; try discriminate; intros _; reflexivity. Qed.

(** THE WHOLE VECTOR: Vec.from_str / FrozenVec.from_str applied to the text of a vector with finite components (the
    carved-out "-0" included), any bracket style: three decimal fields, and the double float() returns for each
    (correctly rounded) is within 5e-7 + ulp/2 of the component that was printed.  The constructor stores float(x)
    unchanged, so this is the value of the new vector. *)
Theorem c05_vec_text_roundtrip : forall pc c (x y z : b64) ws1 ob wa s1 s2 wb cb ws2,
  pcfg_ok pc = true ->
  all_space ws1 -> all_space wa -> all_space wb -> all_space ws2 ->
  all_space s1 -> s1 <> [] -> all_space s2 -> s2 <> [] ->
  opt_bracket (opens pc) ob -> opt_bracket (closes pc) cb ->
  is_finite x = true -> is_finite y = true -> is_finite z = true ->
  exists d1 d2 d3,
    parse_vec pc (ws1 ++ ob ++ wa ++ format6 c (dy_of x) ++ s1 ++ format6 c (dy_of y) ++ s2 ++ format6 c (dy_of z) ++ wb ++ cb ++ ws2)
      = PFields (Some d1) (Some d2) (Some d3) /\
    forall d v, In (d, v) [(d1, x); (d2, y); (d3, z)] ->
      (Rabs (py_float d - B2R v) <= 5 / 10000000 + / 2 * ulp radix2 (FLT_exp (-1074) 53) (dec_R d))%R.
Proof. exact vec_text_roundtrip. Qed.

(** ------------------------------------------------------------------ THE WHOLE PROPERTY *)

(** One statement over everything the translator reads from math.py ([c05_source]: store sites, creations, constructor
    dispatch, mutation census, result kinds, copy shapes, hash kinds, in-place methods, the == table, the census of state kept
    between calls, the format_float / parse_vec_str / __format__ pipelines).  If the boolean checks [c05_source_ok] hold - the check evaluates them on today's generated
    objects on every run (obligation whole_property_hypotheses_hold, and each conjunct under its own name) - then:
    angle slots stay in [0, 360) along every history of stores and out of every constructor form; frozen objects and
    non-receivers never change and the hash of a frozen object is stable and equal for equal values (histories carry no state
    but the objects: the census of module- and class-level state written by functions is empty); identical values compare ==; a copy has the
    promised class and the value of its source; the text of a component is a plain decimal ("-0" exactly on the
    carved-out class), str -> from_str returns to within 5e-7 + ulp/2 (on the circle for angles, in range again), and
    format(obj, spec) only drops trailing zeros of a fixed-point fraction.  Remaining assumptions are visible in the
    clauses: finite operands ([finite_inputs], [supplied_ok]), float() correctly rounded ([py_float]), public calls only
    ([good_history]). *)
Theorem c05_property : forall s, c05_source_ok s = true ->
  whole_range s /\ whole_ctor s /\ whole_no_hidden_state s /\ whole_frozen s /\ whole_independent s /\ whole_hash s /\ whole_eq s /\ whole_copy_value s /\
  whole_text_shape s /\ whole_angle_roundtrip s /\ whole_vec_roundtrip s /\ whole_format_spec s.
Proof. exact c05_whole. Qed.
