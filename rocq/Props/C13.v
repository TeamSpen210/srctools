(** C13 — VPK archives return exactly what was last written, across reopen.
    The statements; the invariants, the refinement and the codec theorems are in the Fmt/Vpk* and SM/Vpk* files; examples
    decided by evaluation and proofs a few steps from those theorems stand here. *)
From Coq Require Import List NArith Bool Permutation.
From SV Require Import Fmt.VpkDir Fmt.VpkDirProofs Fmt.VpkName Fmt.VpkNameSplit Fmt.VpkNameProofs SM.Vpk SM.VpkProofs.
From SV Require Import Fmt.VpkArchName Fmt.VpkArchNameProofs SM.VpkRefine Fmt.VpkDirV2.
From SV Require Import Fmt.VpkNameJoin Fmt.VpkNameJoinProofs SM.VpkPlaceTable SM.VpkPlaceTableProofs Fmt.VpkDirProg Fmt.VpkDirProgProofs Fmt.VpkDirRead Fmt.VpkDirReadProofs SM.VpkProperty SM.VpkGenMachine SM.VpkGenMachineProofs.
From SV Require Import Fmt.VpkNullStr Fmt.VpkNullStrProofs SM.VpkNested SM.VpkNestedProofs SM.VpkApi SM.VpkApiProofs SM.VpkNestedMap SM.VpkNestedMapProofs SM.VpkNestedSim SM.VpkNestedWf SM.VpkPlace SM.VpkPlaceProofs.
From SV Require Import SM.VpkWriteOrder SM.VpkWriteOrderProofs SM.VpkListing SM.VpkListingProofs.
Import ListNotations.
Open Scope N_scope.

(** What the theorems need of a configuration (checked on the instance generated from vpk.py). *)
Definition vcfg_ok (cf : vcfg) : bool :=
  dcfg_ok (v_dc cf) && (v_max_pre cf <=? 65535) && v_chk_idx cf && v_chk_name cf.

(** load_dirfile inverts write_dirfile: for every format instance with in-range constants, every grouped tree
    whose strings are representable (no NUL, not a single space) and whose archive indexes differ from the
    directory sentinel, and every footer: if write_dirfile does not raise (all fields fit), the bytes decode
    to the same entries in the same order (offset normalised to 0 where nothing is stored outside the tree)
    and the same footer. *)
Theorem c13_dirtree_roundtrip : forall c, dcfg_ok c = true -> forall t footer b,
  wf_tree c t -> enc_file c t footer = Some b ->
  dec_file c b = Some (nmap (flat_tree t), footer).
Proof. exact dirtree_roundtrip. Qed.

(** Grouping and sorting the table for writing neither loses nor invents an entry. *)
Theorem c13_tree_of_keeps_entries : forall tb, Permutation (flat_tree (tree_of tb)) tb.
Proof. exact tree_of_perm. Qed.

(** One FileInfo.write (when the checksum differs, otherwise the code does nothing): afterwards the file reads back
    exactly the data and verifies — for every placement: preload only, preload + directory tail (footer_data),
    preload + numbered archive, singular file; every dir_limit, every preload cap, every size. *)
Theorem c13_write_reads : forall crc cf st k i d ix,
  (crc d =? icrc i) = false ->
  let st' := do_write crc cf st k i d ix in
  exists i', alookup k (tbl st') = Some i' /\ read_info st' i' = d /\ verify_info crc st' i' = true.
Proof.
  intros crc cf st k i d ix Hc. unfold do_write. destruct (write_info crc cf st i d ix) as [st1 i'] eqn:E.
  destruct (write_info_stores crc cf _ _ _ _ _ _ Hc E) as (_ & _ & _ & _ & _ & Hcrc & Hrd & _).
  exists i'. cbn [tbl with_tbl]. rewrite alookup_aset, key_eqb_refl. split; [reflexivity|].
  unfold verify_info. change (read_info (with_tbl st1 (aset k i' (tbl st1))) i') with (read_info st1 i').
  rewrite Hrd, Hcrc. split; [reflexivity|apply N.eqb_refl].
Qed.

(** write_dirfile followed by reopening in 'r' or 'a' mode: the call succeeds and the reopened archive has exactly
    the same files, each reading the same bytes with the same verify() result and checksum as before the save —
    wherever its data was placed.  Premises: distinct table keys, representable names, archive indexes below the
    directory sentinel (what new_file / write enforce), and write_dirfile not raising. *)
Theorem c13_save_reopen_reads : forall crc cf, dcfg_ok (v_dc cf) = true -> forall st st1 m,
  m <> MW -> NoDup (map fst (tbl st)) -> Forall (entry_wf (v_dc cf)) (tbl st) ->
  step crc cf st OSave = Some (st1, rOk) ->
  exists st2, step crc cf st1 (OReopen m) = Some (st2, rOk) /\ md st2 = m /\
    forall k, match alookup k (tbl st), alookup k (tbl st2) with
              | Some i, Some i2 => read_info st2 i2 = read_info st i
                                   /\ verify_info crc st2 i2 = verify_info crc st i /\ icrc i2 = icrc i
              | None, None => True
              | _, _ => False
              end.
Proof.
  intros crc cf Hcf st st1 m Hm Hnd Hwf Hs.
  destruct (save_reopen crc cf Hcf st st1 m Hm Hnd Hwf Hs) as (st2 & H1 & Ha & Hf & Hmd & _ & _ & Hl).
  exists st2. split; [exact H1|]. split; [exact Hmd|]. intros k. rewrite Hl.
  destruct (alookup k (tbl st)) as [i|]; cbn [option_map]; [|exact I].
  destruct (read_norm crc st st2 i Ha Hf) as [Hr Hv]. auto.
Qed.

(** Read-only archives reject every mutation: state unchanged, error result. *)
Theorem c13_readonly_rejects : forall crc cf st o,
  md st = MR -> mutating o = true ->
  exists c, step crc cf st o = Some (st, c) /\ (c = rReadOnly \/ c = rMissing).
Proof. exact readonly_rejects. Qed.

(** 'd/n.e', ('d', 'n.e') and ('d', 'n', 'e') resolve to the same entry, for every os.path.normpath. *)
Theorem c13_name_forms_agree : forall normpath s,
  let '(h, t) := split_path s in
  let '(n, e) := split_ext t [] in
  file_parts normpath (NPair h t) = file_parts normpath (NStr s)
  /\ ((e = [] -> rsplit1 46 n = None) -> file_parts normpath (NTriple h n e) = file_parts normpath (NStr s)).
Proof. exact name_forms_agree. Qed.

(** The carved-out name class is a real disagreement (known finding name-trailing-dot). *)
Theorem c13_name_forms_trailing_dot_refuted :
  let s := [97; 47; 98; 46; 99; 46] in
  file_parts posix_normpath (NStr s) = ([], [97], [98; 46; 99])
  /\ file_parts posix_normpath (NTriple [97] [98; 46; 99] []) = ([99], [97], [98]).
Proof. vm_compute. split; reflexivity. Qed.

(** Non-vacuity: a concrete history over all four placements runs in the model, write_dirfile succeeds, and the
    reopened archive reads back every file (computed with the real CRC-32). *)
Theorem c13_example_history_runs : example_history_ok = true.
Proof. vm_compute. reflexivity. Qed.

(** The same over the split statement of _get_file_parts as read from the source (Gen/VpkPlace_gen.v g_ext_split):
    whenever it cuts at the last '.', the three forms agree ... *)
Theorem c13_name_forms_agree_k : forall normpath k, split_kind_ok k = true -> forall s,
  let '(h, t) := split_path s in
  let '(n, e) := split_ext t [] in
  file_parts_k normpath k (NPair h t) = file_parts_k normpath k (NStr s)
  /\ ((e = [] -> rsplit1 46 n = None) -> file_parts_k normpath k (NTriple h n e) = file_parts_k normpath k (NStr s)).
Proof. exact name_forms_agree_k. Qed.

(** ... and cutting at the first '.' (str.partition) makes 'a/b.c.d' and ('a', 'b.c', 'd') different files. *)
Theorem c13_name_forms_first_dot_refuted :
  let s := [97; 47; 98; 46; 99; 46; 100] in
  split_kind_ok (SplitFirst 46) = false
  /\ file_parts_k posix_normpath (SplitFirst 46) (NStr s) = ([99; 46; 100], [97], [98])
  /\ file_parts_k posix_normpath (SplitFirst 46) (NTriple [97] [98; 46; 99] [100]) = ([100], [97], [98; 46; 99]).
Proof. vm_compute. repeat split; reflexivity. Qed.

(** ---- archive file names (Fmt/VpkArchName.v; the instance is Gen/VpkArchName_gen.v g_ncfg) ---- *)

(** The filename setter: [P ++ '_dir.vpk'] has directory prefix [P], and no other file name has a prefix. *)
Theorem c13_dir_prefix_exact : forall c, setter_ok c = true ->
  (forall P, dir_prefix_of c (P ++ n_suffix c) = Some P)
  /\ (forall f p, dir_prefix_of c f = Some p -> f = p ++ n_suffix c).
Proof. intros c H. split; [exact (dir_prefix_of_dir c H)|exact (dir_prefix_of_inv c H)]. Qed.

(** For every file name of a directory VPK and every index, FileInfo.write appends to exactly the file that FileInfo.read
    and FileInfo.verify open, namely get_arch_filename(prefix, index); and get_arch_filename(prefix) is the directory file. *)
Theorem c13_arch_names_coincide : forall c, ncfg_ok c = true -> forall f p i,
  dir_prefix_of c f = Some p ->
  site_name c f (n_writer c) i = Some (arch_filename c p (Some i))
  /\ Forall (fun r => site_name c f r i = Some (arch_filename c p (Some i))) (n_readers c)
  /\ arch_filename c p None = f.
Proof. exact arch_names_coincide. Qed.

(** Distinct indexes are distinct files, and none of them is the directory file (what SM/Vpk.v assumes by keeping the
    archives in a map from index to contents next to the directory file). *)
Theorem c13_arch_filename_inj : forall c, numbered_ok c = true -> forall p i j,
  arch_filename c p (Some i) = arch_filename c p (Some j) -> i = j.
Proof.
  intros c Hn p i j. unfold numbered_ok in Hn. apply andb_prop in Hn as [Hf _]. apply N.eqb_eq in Hf.
  cbn [arch_filename]. rewrite Hf. intros H. apply app_inv_head in H. apply app_inv_head in H.
  apply app_inv_tail in H. eapply pad_dec_inj, H.
Qed.
Theorem c13_arch_filename_not_dir : forall c, numbered_ok c = true -> forall p i,
  arch_filename c p (Some i) <> arch_filename c p None.
Proof.
  intros c Hn p i. unfold numbered_ok in Hn. apply andb_prop in Hn as [Hf Hs]. apply N.eqb_eq in Hf.
  destruct (strip_prefix (n_sep c) (n_dir_suffix c)) as [[|x r]|] eqn:E; try discriminate.
  apply strip_prefix_app in E. cbn [arch_filename]. rewrite E, Hf. intros H.
  apply app_inv_head in H. apply app_inv_head in H.
  destruct (pad_dec_head (n_width c) i) as (y & r' & Hp & Hd). rewrite Hp in H. cbn [List.app] in H.
  injection H as -> _. rewrite Hd in Hs. discriminate.
Qed.

(** Deriving the reader's prefix by character stripping (rstrip('_dir')) is refuted: 'world_dir.vpk' writes 'world_000.vpk'
    and reads 'worl_000.vpk'; the condition [ncfg_ok] rejects that configuration. *)
Theorem c13_arch_names_rstrip_refuted :
  let c := ex_ncfg reader_rstrip in
  let f := [119; 111; 114; 108; 100] ++ s_dir_vpk in
  ncfg_ok c = false
  /\ site_name c f (n_writer c) 0 = Some ([119; 111; 114; 108; 100; 95; 48; 48; 48] ++ s_vpk)
  /\ site_name c f reader_rstrip 0 = Some ([119; 111; 114; 108; 95; 48; 48; 48] ++ s_vpk).
Proof. vm_compute. repeat split; reflexivity. Qed.

(** ---- the whole-history statement (SM/VpkRefine.v: invariant + induction over the operation list) ---- *)

(** [vpk_refines_map].  For every configuration that validates archive indexes and names (the generated one does:
    instance obligation), every sequence of new_file / add_file / FileInfo.write / del / write_dirfile / reopen('r'|'w'|'a')
    on a fresh archive, for every placement, dir_limit and size: if no write_dirfile raises struct.error ([run] is not
    [None]) and the data values of the history, together with the empty string, do not collide under the checksum
    (FileInfo.write skips a write whose checksum equals the stored one), then every operation returns the result code of the
    specification map, and afterwards the archive is in the same mode, lists exactly the names of the map, and every file
    reads back exactly the map's bytes and passes verify(). *)
Theorem c13_vpk_refines_map : forall crc cf, vcfg_ok cf = true -> forall ops st codes,
  collision_free crc ops ->
  run crc cf init ops = Some (st, codes) ->
  let '(s, scodes) := srun cf sinit ops in
  codes = scodes /\ md st = smd s /\ Permutation (map fst (tbl st)) (map fst (cur s)) /\
  forall k, match alookup k (tbl st), alookup k (cur s) with
            | Some i, Some d => read_info st i = d /\ verify_info crc st i = true
            | None, None => True
            | _, _ => False
            end.
Proof. exact vpk_refines_map. Qed.

(** The property's observation point: any history that leaves the archive writable, then write_dirfile, then reopening in
    'r' or 'a' mode: both succeed, and the reopened archive lists exactly the files that should exist, each reading back
    the bytes last written to it and verifying. *)
Theorem c13_history_save_reopen : forall crc cf, vcfg_ok cf = true -> forall ops m st codes,
  m <> MW -> collision_free crc ops ->
  run crc cf init (ops ++ [OSave; OReopen m]) = Some (st, codes) ->
  let '(s0, c0) := srun cf sinit ops in
  writable (smd s0) = true ->
  codes = c0 ++ [rOk; rOk] /\ md st = m /\ Permutation (map fst (tbl st)) (map fst (cur s0)) /\
  forall k, match alookup k (tbl st), alookup k (cur s0) with
            | Some i, Some d => read_info st i = d /\ verify_info crc st i = true
            | None, None => True
            | _, _ => False
            end.
Proof. exact vpk_history_save_reopen. Qed.

(** The collision premise is decidable on a concrete history ... *)
Theorem c13_collision_freeb_sound : forall crc ops, collision_freeb crc ops = true -> collision_free crc ops.
Proof.
  unfold collision_freeb, collision_free. intros crc ops H d1 d2 H1 H2 Hc.
  rewrite forallb_forall in H. specialize (H _ H1). rewrite forallb_forall in H. specialize (H _ H2).
  apply orb_prop in H as [H|H].
  - apply negb_true_iff, N.eqb_neq in H. contradiction.
  - now apply bytes_eqb_eq.
Qed.

(** ... and the premises are satisfiable: the example history (all four placements, an overwrite, save, reopen) with the
    real CRC-32. *)
Theorem c13_refines_premises_satisfiable :
  vcfg_okb ex_cfg = true /\ collision_freeb crc32 ex_ops = true
  /\ match run crc32 ex_cfg init ex_ops with Some _ => true | None => false end = true.
Proof. vm_compute. repeat split; reflexivity. Qed.

(** ---- version 2 directory files (read side; write_dirfile refuses them) ---- *)

(** The four extra header fields of version 2 are skipped and the entries preserved: a version-2 file with the tree and
    trailing bytes that write_dirfile produces decodes to the same entries and footer_data, whatever the fields hold. *)
Theorem c13_dirtree_roundtrip_v2 : forall c, dcfg_ok c = true -> forall t h1 h2 h3 h4 footer b,
  h1 < 4294967296 -> h2 < 4294967296 -> h3 < 4294967296 -> h4 < 4294967296 ->
  wf_tree c t -> enc_file_v2 c t h1 h2 h3 h4 footer = Some b ->
  dec_file_v c b = Some (2, nmap (flat_tree t), footer).
Proof.
  intros c Hc t h1 h2 h3 h4 footer b H1 H2 H3 H4 Hwf. unfold enc_file_v2. cbv zeta.
  destruct (fits32 (c_sig c) && tree_fits c t && fits32 (len (enc_tree c t))) eqn:E; [|discriminate].
  intros Hb. apply (f_equal (fun o => match o with Some x => x | None => [] end)) in Hb. cbv beta iota in Hb. subst b.
  pose proof E as E'. apply andb_prop in E' as [E' Hl]. apply andb_prop in E' as [Hs _].
  unfold fits32 in Hs, Hl. apply N.ltb_lt in Hs, Hl.
  rewrite dec_file_v2_header_skipped by assumption.
  assert (enc_file c t footer = Some (le32 (c_sig c) ++ le32 1 ++ le32 (len (enc_tree c t)) ++ enc_tree c t ++ footer)) as Ev1
    by (unfold enc_file; cbv zeta; rewrite E; reflexivity).
  rewrite (dirtree_roundtrip c Hc _ _ _ Hwf Ev1). reflexivity.
Qed.

(** The two-version decoder agrees with the version-1 decoder the other theorems are about. *)
Theorem c13_dec_file_v_extends_v1 : forall c bs es f, dec_file c bs = Some (es, f) -> dec_file_v c bs = Some (1, es, f).
Proof. exact dec_file_v_v1. Qed.

(** ---- the NUL-terminated strings of the tree (Fmt/VpkNullStr.v; the instance is Gen/VpkNullStr_gen.v g_ncodec) ---- *)

(** The reader shapes accepted by [reader_ok] (one byte at a time, or blocks of a positive size in a loop) take exactly the bytes
    up to the next NUL off the file, whatever their number, and fail exactly when there is none: they are [read_cstr], the reader
    the directory codec is defined with, on every input. *)
Theorem c13_nullstr_reader_shapes : forall r, reader_ok r = true -> forall bs, read_cstr_r r bs = read_cstr bs.
Proof. exact reader_ok_is_read_cstr. Qed.

(** If the translated description of _write_nullstring / iter_nullstr satisfies [ncodec_ok] (instance obligation), the two
    functions are the [write_cstr] / [next_str] of Fmt/VpkDir.v that c13_dirtree_roundtrip and the whole-history theorems use. *)
Theorem c13_nullstr_codec_is_model : forall k, ncodec_ok k = true ->
  (forall s, write_cstr_k k s = write_cstr s) /\ (forall bs, next_str_k k bs = next_str bs).
Proof. exact ncodec_ok_is_model. Qed.

(** Every representable tree string (no NUL, bytes < 256, not the single space) of ANY length is read back, followed by anything. *)
Theorem c13_nullstr_roundtrip : forall k, ncodec_ok k = true -> forall s rest, str_ok s = true ->
  next_str_k k (write_cstr_k k s ++ rest) = Some (Some s, rest).
Proof. exact nullstr_roundtrip. Qed.

(** A whole section: the generator yields exactly the strings written, in order, and leaves the file right after the terminator. *)
Theorem c13_nullstr_section_roundtrip : forall k, ncodec_ok k = true -> forall l rest, forallb str_ok l = true ->
  iter_nullstr_k k (write_section_k k l ++ rest) = Some (l, rest).
Proof. exact nullstr_section_roundtrip. Qed.

(** A reader that searches one block of n bytes only cannot read any NUL-free string of n or more bytes: for every block size
    there are names the writer accepts and the archive cannot be reopened with (seeded fault c13_4 is n = 256). *)
Theorem c13_nullstr_block_reader_refuted : forall n s rest,
  forallb (fun b => negb (b =? 0)) s = true -> (N.to_nat n <= length s)%nat ->
  read_cstr_r (RBlock n) (s ++ 0 :: rest) = None.
Proof. exact block_reader_refuted. Qed.

Theorem c13_nullstr_block_256_refuted :
  let s := repeat 97 256 in
  str_ok s = true /\ next_str (write_cstr s ++ [7]) = Some (Some s, [7])
  /\ next_str_k (ncodec_block 256) (write_cstr_k (ncodec_block 256) s ++ [7]) = None
  /\ ncodec_ok (ncodec_block 256) = false
  /\ next_str_k (ncodec_block 256) (write_cstr_k (ncodec_block 256) (repeat 97 255) ++ [7]) = Some (Some (repeat 97 255), [7]).
Proof. exact block_256_refuted. Qed.

(** Non-vacuity of [ncodec_ok]; a looping block reader is accepted. *)
Theorem c13_nullstr_premises_satisfiable : ncodec_ok ncodec_pinned = true
  /\ reader_ok (RBlockLoop 256) = true
  /\ iter_nullstr_k ncodec_pinned (write_section_k ncodec_pinned [[116; 120; 116]; []; repeat 101 300] ++ [1; 2])
     = Some ([[116; 120; 116]; []; repeat 101 300], [1; 2]).
Proof. exact ncodec_pinned_ok. Qed.

(** ---- the nested dicts _fileinfo[ext][folder][name] and the clean-up of VPK.__delitem__ (SM/VpkNested.v; Gen/VpkNested_gen.v g_del_prog) ---- *)

(** For every clean-up program that only ever pops empty dicts ([prog_safe]: complete enumeration of what its emptiness tests can
    observe; instance obligation on the program compiled from __delitem__) and every nested tree: the delete raises KeyError exactly
    when the flat table has no such file, and otherwise the files left are exactly those the flat delete [adel] of SM/Vpk.v leaves
    (same entries, same order) — no other file of the folder, the extension or the archive disappears. *)
Theorem c13_nested_delete_is_flat_delete : forall prog, prog_safe prog = true -> forall t k,
  match ndel prog t k with
  | Some t' => alookup k (flat_tree t) <> None /\ flat_tree t' = adel k (flat_tree t)
  | None => alookup k (flat_tree t) = None
  end.
Proof. exact ndel_is_adel. Qed.

(** The same on the nested dicts that hold a table of the state machine ([tree_of tb], the tree write_dirfile walks). *)
Theorem c13_nested_delete_on_table : forall prog, prog_safe prog = true -> forall tb k,
  match ndel prog (tree_of tb) k with
  | Some t' => alookup k tb <> None /\ Permutation (flat_tree t') (adel k tb)
  | None => alookup k tb = None
  end.
Proof.
  intros prog Hs tb k. pose proof (ndel_is_adel prog Hs (tree_of tb) k) as H. pose proof (tree_of_perm tb) as P.
  destruct (ndel prog (tree_of tb) k) as [t'|].
  - destruct H as [Hl He]. split.
    + intros Hn. apply Hl. apply (alookup_none_perm k tb); [now apply Permutation_sym|assumption].
    + rewrite He. now apply adel_perm.
  - now apply (alookup_none_perm k _ tb P).
Qed.

(** The pinned clean-up is accepted and leaves no empty dict behind. *)
Theorem c13_nested_delete_pinned_ok : prog_safe del_prog_pinned = true /\ prog_tidy del_prog_pinned = true.
Proof. exact del_prog_pinned_safe. Qed.

(** Testing the files dict a second time instead of the folders dict (seeded fault c13_3) is rejected by [prog_safe], and deleting
    a/x.t then also removes b/y.t. *)
Theorem c13_nested_delete_wrong_test_refuted :
  prog_safe del_prog_c13_3 = false
  /\ option_map (@flat_tree) (ndel del_prog_c13_3 ex_tree ([116], [97], [120])) = Some []
  /\ adel ([116], [97], [120]) (flat_tree ex_tree) = [(([116], [98], [121]), ex_info)]
  /\ option_map (@flat_tree) (ndel del_prog_pinned ex_tree ([116], [97], [120])) = Some [(([116], [98], [121]), ex_info)].
Proof. exact del_prog_c13_3_refuted. Qed.

(** ---- the API around the state machine: with-blocks, load_dirfile() on the same object (SM/VpkApi.v; Gen/VpkApi_gen.v g_exit_table) ---- *)

(** The whole-history statement over the extended operations.  For every table of what VPK.__exit__ does that is accepted by
    [exit_table_ok] (complete enumeration of "exception in flight or not" x "mode writable or not": write_dirfile() is called once when
    there is no exception and the mode is writable, never otherwise, and the exception is not swallowed; instance obligation on the
    table computed from the source), every sequence of the six operations, leaving a with-block normally or by an exception, and
    load_dirfile() called again on the same object, refines the specification map exactly as in c13_vpk_refines_map.
    [xrun] is [None] also when such a load_dirfile() fails half-way (it leaves the object emptied, which the model does not follow). *)
Theorem c13_api_refines_map : forall et crc cf, exit_table_ok et = true -> vcfg_ok cf = true -> forall xs st codes,
  collision_free crc (xplain xs) ->
  xrun et crc cf init xs = Some (st, codes) ->
  let '(s, scodes) := sxrun cf sinit xs in
  codes = scodes /\ md st = smd s /\ Permutation (map fst (tbl st)) (map fst (cur s)) /\
  forall k, match alookup k (tbl st), alookup k (cur s) with
            | Some i, Some d => read_info st i = d /\ verify_info crc st i = true
            | None, None => True
            | _, _ => False
            end.
Proof. exact vpk_api_refines_map. Qed.

(** `with VPK(path, mode='w'|'a') as v: ...` left normally, then the archive opened again for reading or appending: it lists exactly
    the files that should exist, each reading back the bytes last written to it and verifying. *)
Theorem c13_with_block_saves : forall et crc cf, exit_table_ok et = true -> vcfg_ok cf = true -> forall xs m st codes,
  m <> MW -> collision_free crc (xplain xs) ->
  xrun et crc cf init (xs ++ [XExit true; XOp (OReopen m)]) = Some (st, codes) ->
  let '(s0, c0) := sxrun cf sinit xs in
  writable (smd s0) = true ->
  codes = c0 ++ [rOk; rOk] /\ md st = m /\ Permutation (map fst (tbl st)) (map fst (cur s0)) /\
  forall k, match alookup k (tbl st), alookup k (cur s0) with
            | Some i, Some d => read_info st i = d /\ verify_info crc st i = true
            | None, None => True
            | _, _ => False
            end.
Proof. exact vpk_with_block_saves. Qed.

(** A block left by an exception writes nothing. *)
Theorem c13_with_block_exception_writes_nothing : forall et crc cf st, exit_table_ok et = true ->
  xstep et crc cf st (XExit false) = Some (st, rOk).
Proof. intros et crc cf st H. rewrite (xstep_exit et crc cf st false H). reflexivity. Qed.

(** The pinned __exit__ is accepted; saving also while an exception is in flight, or never saving, is not. *)
Theorem c13_exit_tables_computed :
  exit_table_ok exit_table_pinned = true /\ exit_table_ok exit_table_always = false /\ exit_table_ok exit_table_never = false
  /\ mode_table_ok false true true = true.
Proof. vm_compute. repeat split; reflexivity. Qed.

(** ---- the nested dicts are a finite map (SM/VpkNestedMap.v; Gen/VpkNested_gen.v g_ins_ext / g_ins_dir / g_del_prog) ---- *)

(** The three laws of a finite map for lookup as __getitem__ / __contains__ do it (first entry with the key at each of the three
    levels), insertion as new_file does it and deletion as __delitem__ does it — for every tree (no well-formedness assumption), every
    description of the two get-or-create steps of new_file accepted by [goc_ok] (the dict found is reused, a missing one is created and
    stored) and every clean-up program accepted by [prog_safe]; both are instance obligations on what the translator reads from the
    source. *)
Theorem c13_nested_map_empty : forall k, nlookup [] k = None.
Proof. exact nlookup_nil. Qed.

Theorem c13_nested_map_lookup_after_new_file : forall g1 g2, goc_ok g1 = true -> goc_ok g2 = true -> forall t k i,
  exists t', nins g1 g2 t k i = Some t' /\ forall k', nlookup t' k' = if key_eqb k' k then Some i else nlookup t k'.
Proof. exact nlookup_nins. Qed.

Theorem c13_nested_map_lookup_after_delete : forall prog, prog_safe prog = true -> forall t k,
  match ndel prog t k with
  | Some t' => forall k', nlookup t' k' = if key_eqb k' k then None else nlookup t k'
  | None => nlookup t k = None
  end.
Proof. exact nlookup_ndel. Qed.

(** A fresh extension dict on every new_file loses the other files of the extension; a new folder dict that is not stored loses the
    file just added; both descriptions are rejected by [goc_ok]. *)
Theorem c13_nested_insert_refuted :
  goc_ok goc_pinned = true /\ goc_ok goc_always_new = false /\ goc_ok goc_forgets_store = false
  /\ option_map (fun t => nlookup t ([116], [97], [120])) (nins goc_always_new goc_pinned ex_t2 ([116], [99], [122]) ex_info) = Some None
  /\ option_map (fun t => nlookup t ([116], [97], [120])) (nins goc_pinned goc_pinned ex_t2 ([116], [99], [122]) ex_info) = Some (Some ex_info)
  /\ option_map (fun t => nlookup t ([116], [99], [122])) (nins goc_pinned goc_forgets_store ex_t2 ([116], [99], [122]) ex_info) = Some None.
Proof. exact goc_refuted. Qed.

(** ---- the nested dicts simulate the table of the state machine (SM/VpkNestedSim.v) ---- *)

(** [nrel t tb]: looking a name up in the nested dicts gives what the table of SM/Vpk.v holds for it.  It holds for the empty archive
    and is preserved by new_file / an in-place update of an entry ([aset] on the table) and by __delitem__ ([adel]), for the
    translated descriptions of both; a KeyError from the nested delete implies that the table has no such file. *)
Theorem c13_nested_simulates_table_empty : nrel [] [].
Proof. exact nrel_nil. Qed.

Theorem c13_nested_simulates_table_new_file : forall g1 g2, goc_ok g1 = true -> goc_ok g2 = true -> forall t tb k i, nrel t tb ->
  exists t', nins g1 g2 t k i = Some t' /\ nrel t' (aset k i tb).
Proof. exact nrel_nins. Qed.

Theorem c13_nested_simulates_table_delete : forall prog, prog_safe prog = true -> forall t tb k, nrel t tb ->
  match ndel prog t k with
  | Some t' => nrel t' (adel k tb)
  | None => alookup k tb = None
  end.
Proof. exact nrel_ndel. Qed.

(** ---- Python dicts have no two entries with one key: what __iter__ walks is the table (SM/VpkNestedWf.v) ---- *)

(** [tree_wf] (distinct keys at each of the three levels) holds for the empty archive and is kept by new_file and __delitem__. *)
Theorem c13_nested_wf_invariant :
  tree_wf []
  /\ (forall g1 g2, goc_ok g1 = true -> goc_ok g2 = true -> forall t k i t', tree_wf t -> nins g1 g2 t k i = Some t' -> tree_wf t')
  /\ (forall prog t k t', tree_wf t -> ndel prog t k = Some t' -> tree_wf t').
Proof. split; [exact tree_wf_nil|]. split; [exact tree_wf_nins|exact tree_wf_ndel]. Qed.

(** For such nested dicts related to a table of the state machine: the files __iter__ / __len__ / filenames() walk ([flat_tree], the
    three-level walk the listing obligations establish) are exactly the table's names, none twice, each with the table's entry ... *)
Theorem c13_nested_walk_is_table : forall t tb, tree_wf t -> nrel t tb -> NoDup (map fst tb) ->
  Permutation (map fst (flat_tree t)) (map fst tb) /\ forall k, alookup k (flat_tree t) = alookup k tb.
Proof. exact wf_walk_is_table. Qed.

(** ... and __delitem__ raises KeyError exactly when the table has no such file. *)
Theorem c13_nested_delete_raises_iff_missing : forall prog, prog_safe prog = true -> forall t tb k, tree_wf t -> nrel t tb ->
  (ndel prog t k = None <-> alookup k tb = None).
Proof.
  intros prog Hs t tb k Hw R. pose proof (ndel_is_adel prog Hs t k) as H. rewrite <- R, <- (alookup_flat_tree t k Hw).
  destruct (ndel prog t k); [|tauto]. destruct H as [H _]. split; [discriminate|contradiction].
Qed.

(** Every sequence of new_file / in-place updates of an entry / deletes from the empty archive: no insertion raises, and what __iter__
    walks afterwards is exactly the table SM/Vpk.v holds after the same [aset]/[adel] operations. *)
Theorem c13_nested_history_lists_table : forall g1 g2 prog, goc_ok g1 = true -> goc_ok g2 = true -> prog_safe prog = true -> forall ops,
  exists t, nt_run g1 g2 prog [] ops = Some t
  /\ Permutation (map fst (flat_tree t)) (map fst (tb_run [] ops))
  /\ forall k, alookup k (flat_tree t) = alookup k (tb_run [] ops).
Proof. exact nested_history_lists_table. Qed.

(** ---- where FileInfo.write puts the data, as a decision table (SM/VpkPlace.v; Gen/VpkPlace_gen.v g_place_table) ---- *)

(** [want_cut] / [want_dest], against which the table obtained by executing FileInfo.write on symbolic values is compared
    ([place_table_ok], instance obligation), are exactly what [write_info] of the state machine does: for every configuration, state,
    entry, data and index with a changed checksum, the preload is the data up to the cut (the limit if the VPK is a directory with a
    limit <= MAX_PRELOAD, MAX_PRELOAD otherwise), the stored length is that of the rest, and the rest goes nowhere (empty), to the end
    of footer_data with the old length as offset (singular, no limit, or no index), or to the end of archive [x] with its old length
    as offset. *)
Theorem c13_write_placement_is_table : forall crc cf st i d ix, (crc d =? icrc i) = false ->
  let cut := cut_val cf (want_cut (v_is_dir cf) (class_of cf)) in
  let tail := skipn (N.to_nat cut) d in
  let dest := want_dest (v_is_dir cf) (class_of cf) (is_none ix) (is_nil' tail) in
  let '(st', i') := write_info crc cf st i d ix in
  icrc i' = crc d /\ ipre i' = firstn (N.to_nat cut) d /\ ilen i' = len tail /\
  match dest with
  | DNone => st' = st /\ iidx i' = None /\ ioff i' = 0
  | DFooter => foot st' = foot st ++ tail /\ archs st' = archs st /\ tbl st' = tbl st /\ iidx i' = None /\ ioff i' = len (foot st)
  | DArch => exists x, ix = Some x /\ archs st' = arch_app x tail (archs st) /\ foot st' = foot st /\ tbl st' = tbl st
                       /\ iidx i' = Some x /\ ioff i' = len (arch_get x (archs st))
  | DOther => False
  end.
Proof. exact write_info_want. Qed.

(** The table of the pinned code is accepted; a table without the cap at MAX_PRELOAD (defect 20 of round 1) and one that drops the rest
    of a file written with arch_index None (defect 19) are rejected, as is an incomplete table. *)
Theorem c13_place_tables_computed :
  place_table_ok table_pinned = true /\ length table_pinned = 24%nat
  /\ place_cut_ok table_no_cap = false /\ place_dest_ok table_tail_dropped = false /\ place_table_ok [] = false.
Proof. exact place_tables_computed. Qed.

(** [want_src], against which the table obtained by executing FileInfo.read and FileInfo.verify on symbolic values is compared
    ([read_table_ok], instance obligation: nothing after start_data when arch_len is 0, the slice of footer_data at the stored offset
    when the index is None, otherwise the stored number of bytes at the stored offset of the archive with the stored index; verify()
    takes the checksum of the same bytes), is [read_info] / [verify_info] of the state machine. *)
Theorem c13_read_source_is_table : forall crc st i,
  read_info st i = ipre i ++ match want_src (ilen i =? 0) (is_none (iidx i)) with
                            | RNone => []
                            | RFooter => slice (foot st) (ioff i) (ilen i)
                            | RArch => match iidx i with Some x => slice (arch_get x (archs st)) (ioff i) (ilen i) | None => [] end
                            | ROther => []
                            end
  /\ verify_info crc st i = (crc (read_info st i) =? icrc i).
Proof.
  intros crc st i. split; [|reflexivity]. unfold read_info, container, want_src.
  destruct (ilen i =? 0); [reflexivity|]. destruct (iidx i); reflexivity.
Qed.

Theorem c13_read_tables_computed :
  read_table_ok rtable_pinned = true
  /\ read_table_ok [mkRRow false false RArch ROther; mkRRow false true RFooter RFooter; mkRRow true false RNone RNone; mkRRow true true RNone RNone] = false
  /\ read_table_ok [mkRRow false false RArch RArch] = false.
Proof. exact read_tables_computed. Qed.

(** ---- the two name helpers as read from the source (Fmt/VpkNameJoin.v; Gen/VpkNames_gen.v g_join_table / g_parts) ---- *)

(** Every table obtained by executing _join_file_parts on symbolic strings (eight combinations of empty / non-empty folder, stem,
    extension) that is accepted by [join_table_ok] (instance obligation) is [join_parts] of the model on every key: folder and '/' when
    there is a folder, the stem, '.' and the extension when there is an extension. *)
Theorem c13_join_table_is_model : forall tb, join_table_ok tb = true -> forall k, join_k tb k = Some (join_parts k).
Proof. exact join_table_ok_is_join_parts. Qed.

(** Every description of _get_file_parts (sources of folder / file name / extension for the three name forms, split statement reached,
    chain of operations on the folder, order of the result) accepted by [gparts_ok] (instance obligation) is [file_parts_k] of the model
    for every normpath, every split statement and every name form. *)
Theorem c13_get_parts_description_is_model : forall g, gparts_ok g = true -> forall normpath k f,
  file_parts_g normpath k g f = file_parts_k normpath k f.
Proof. exact gparts_ok_is_file_parts. Qed.

(** _get_file_parts o _join_file_parts = id on the keys that can be listed: the name filenames() / FileInfo.filename show for an entry
    resolves back to that entry, for every os.path.normpath.  [key_listable]: the folder is in the form _get_file_parts returns, stem and
    extension contain no '/', the extension no '.', and (the carve-out, exactly the known finding name-trailing-dot) a stem containing
    '.' has an extension. *)
Theorem c13_listed_name_resolves : forall normpath k, key_listable normpath k -> file_parts normpath (NStr (join_parts k)) = k.
Proof. exact parts_of_join. Qed.

(** The same about the generated objects of both helpers and the translated split statement. *)
Theorem c13_generated_listed_name_resolves : forall normpath sk g tb,
  split_kind_ok sk = true -> gparts_ok g = true -> join_table_ok tb = true ->
  forall k, key_listable normpath k -> exists s, join_k tb k = Some s /\ file_parts_g normpath sk g (NStr s) = k.
Proof. exact generated_parts_of_join. Qed.

(** _join_file_parts o _get_file_parts = id on names in the listed form (folder as _get_file_parts returns it, one '/', the file name)
    whose file name does not end in '.'. *)
Theorem c13_join_of_parts : forall normpath s h t, split_path s = (h, t) -> norm_dir normpath h = h ->
  s = h ++ (match h with [] => [] | _ => [47] end) ++ t -> (forall a, rsplit1 46 t <> Some (a, [])) ->
  join_parts (file_parts normpath (NStr s)) = s.
Proof.
  intros normpath s h t Hs Hh Hform Hdot. unfold file_parts. rewrite Hs.
  destruct (split_ext t []) as [n e] eqn:He. unfold join_parts. rewrite Hh.
  rewrite Hform. f_equal. f_equal.
  unfold split_ext in He. destruct (rsplit1 46 t) as [[a b]|] eqn:Hr.
  - inversion He; subst. destruct e as [|e0 e']; [exfalso; now apply (Hdot n)|]. now rewrite (rsplit1_spec _ _ _ _ Hr).
  - inversion He; subst. cbn [app]. now rewrite app_nil_r.
Qed.

(** The pinned table is accepted; the table of seeded fault c13_5 ('/'.join(filter(None, (path, filename))): the separator is dropped
    with a blank stem) is rejected, and lists the dot-file ('a', '', 't') as 'a.t', which resolves to ('', 'a', 't'). *)
Theorem c13_join_tables_computed :
  join_table_ok join_table_pinned = true /\ join_table_ok join_table_c13_5 = false /\ join_table_ok [] = false
  /\ join_k join_table_c13_5 ([116], [97], []) = Some [97; 46; 116]
  /\ join_parts ([116], [97], []) = [97; 47; 46; 116]
  /\ file_parts posix_normpath (NStr [97; 46; 116]) = ([116], [], [97]).
Proof. vm_compute. repeat split; reflexivity. Qed.

Theorem c13_get_parts_descriptions_computed :
  gparts_ok gparts_pinned = true /\ gparts_ok gparts_triple_ext_dropped = false
  /\ file_parts_g posix_normpath (SplitLast 46) gparts_triple_ext_dropped (NTriple [97] [98] [116]) = ([], [97], [98]).
Proof. vm_compute. repeat split; reflexivity. Qed.

(** The carve-out is exact: 'a/b.c.' is stored as (ext '', stem 'b.c'), listed as 'a/b.c', which resolves to (ext 'c', stem 'b'). *)
Theorem c13_listed_name_trailing_dot_refuted :
  file_parts posix_normpath (NStr [97; 47; 98; 46; 99; 46]) = ([], [97], [98; 46; 99])
  /\ join_parts ([], [97], [98; 46; 99]) = [97; 47; 98; 46; 99]
  /\ file_parts posix_normpath (NStr [97; 47; 98; 46; 99]) = ([99], [97], [98])
  /\ jhas 46 [98; 46; 99] = true.
Proof. vm_compute. repeat split; reflexivity. Qed.

(** Non-vacuity: 'a/b.txt', the dot-file 'cfg/.g' in a sub-folder (empty stem: what seeded fault c13_5 needs) and '' are listable. *)
Theorem c13_key_listable_examples :
  key_listable posix_normpath ([116; 120; 116], [97], [98]) /\ key_listable posix_normpath ([103], [99; 102; 103], [])
  /\ key_listable posix_normpath ([], [], []).
Proof. unfold key_listable. repeat split; try reflexivity; intros; try discriminate; reflexivity. Qed.

(** ---- the decision tables have a meaning of their own (SM/VpkPlaceTable.v) ---- *)

(** FileInfo.write run *from the placement table* ([write_info_t]: pick the row of the situation, cut where it says, put the rest where it
    says, store the index and offset it says) is [write_info] of the state machine, for every table accepted by [place_table_ok] and
    every configuration, state, entry, data and index. *)
Theorem c13_write_table_is_write_info : forall pt, place_table_ok pt = true -> forall crc cf st i d ix,
  write_info_t pt crc cf st i d ix = Some (write_info crc cf st i d ix).
Proof. exact write_info_t_is_write_info. Qed.

(** FileInfo.read / verify run from the read table are [read_info] / [verify_info]. *)
Theorem c13_read_table_is_read_info : forall rt, read_table_ok rt = true -> forall crc st i,
  read_info_t rt st i = Some (read_info st i) /\ verify_info_t rt crc st i = Some (verify_info crc st i).
Proof. exact read_info_t_is_read_info. Qed.

(** ---- write_dirfile / load_dirfile as programs read from the source (Fmt/VpkDirProg.v, Fmt/VpkDirRead.v; Gen/VpkDirProg_gen.v) ---- *)

(** The statements of write_dirfile inside its with-block, compiled to a program and run on a file buffer with a cursor: every program
    accepted by [wprog_ok] leaves exactly [enc_file] in the file (or raises struct.error exactly when [enc_file] is [None]) — header, mark,
    loops extension > folder > file over sorted dicts skipping empty ones, string / entry / preload, one NUL after each level, tree
    length measured before footer_data is written and patched in at offset 8. *)
Theorem c13_write_dirfile_program_is_encoder : forall p, wprog_ok p = true -> forall c t footer, wexec c footer p t = enc_file c t footer.
Proof. exact wprog_ok_is_enc_file. Qed.

(** The statements of load_dirfile after the file is opened: every program accepted by [rprog_ok] returns what [dec_file_v] returns on
    every input (well-formed or not; versions 1 and 2). *)
Theorem c13_load_dirfile_program_is_decoder : forall p, rprog_ok p = true -> forall c bs, rexec c p bs = dec_file_v c bs.
Proof. exact rprog_ok_is_dec_file_v. Qed.

(** The translated reader reads back what the translated writer wrote. *)
Theorem c13_dirfile_programs_roundtrip : forall wp rp, wprog_ok wp = true -> rprog_ok rp = true -> forall c, dcfg_ok c = true ->
  forall t footer b, wf_tree c t -> wexec c footer wp t = Some b -> rexec c rp b = Some (1, nmap (flat_tree t), footer).
Proof. exact programs_roundtrip. Qed.

(** Wrong programs: no terminator after the folder level / preload before the entry (the file does not decode); tree length taken after
    footer_data (wrong header; the library's lenient reader still loads it). *)
Theorem c13_write_dirfile_programs_computed :
  wprog_ok wprog_pinned = true
  /\ match wexec ex_c [5; 6] wprog_pinned ex_t with Some b => dec_file ex_c b | None => None end = Some (nmap (flat_tree ex_t), [5; 6])
  /\ wprog_ok wprog_no_dir_term = false
  /\ match wexec ex_c [5; 6] wprog_no_dir_term ex_t with Some b => dec_file ex_c b | None => None end <> Some (nmap (flat_tree ex_t), [5; 6])
  /\ wprog_ok wprog_len_after_footer = false
  /\ wexec ex_c [5; 6] wprog_len_after_footer ex_t <> enc_file ex_c ex_t [5; 6]
  /\ wprog_ok wprog_preload_first = false
  /\ match wexec ex_c [5; 6] wprog_preload_first ex_t with Some b => dec_file ex_c b | None => None end <> Some (nmap (flat_tree ex_t), [5; 6]).
Proof. vm_compute. repeat split; try reflexivity; intros H; discriminate. Qed.

(** Wrong readers: version-2 fields not skipped, header_len marked before them (a version-2 file is not loaded as its version-1 twin), the
    sentinel rewrite of the archive index forgotten (the entries stored in the directory file come back with archive index 32767).
    Dropping the early exit changes nothing on this file: the loop ends at the final NUL. *)
Theorem c13_load_dirfile_programs_computed :
  rprog_ok rprog_pinned = true
  /\ rexec ex_c rprog_pinned ex_dirfile = Some (1, nmap (flat_tree ex_t), [5; 6])
  /\ rexec ex_c rprog_pinned ex_v2 = Some (2, nmap (flat_tree ex_t), [5; 6])
  /\ rprog_ok rprog_no_v2_skip = false /\ rexec ex_c rprog_no_v2_skip ex_v2 <> Some (2, nmap (flat_tree ex_t), [5; 6])
  /\ rprog_ok rprog_mark_before_v2 = false
  /\ rprog_ok rprog_no_idx_sentinel = false
  /\ rexec ex_c rprog_no_idx_sentinel ex_dirfile <> Some (1, nmap (flat_tree ex_t), [5; 6])
  /\ rprog_ok rprog_no_early_exit = false
  /\ rexec ex_c rprog_no_early_exit ex_dirfile = Some (1, nmap (flat_tree ex_t), [5; 6]).
Proof. vm_compute. repeat split; try reflexivity; intros H; discriminate. Qed.

(** ---- the whole property as one statement (SM/VpkProperty.v) ---- *)

(** [c13_hyps] collects, as one boolean, everything assumed about today's source: the objects the translators read from vpk.py (truth
    table of __exit__, format constants and validations, placement and read tables, get-or-create steps of new_file, clean-up of
    __delitem__, NUL-terminated string codec, programs of write_dirfile and load_dirfile, split statement, description of
    _get_file_parts, table of _join_file_parts, archive naming sites) each pass their obligation.  Under it, for every checksum function
    and every os.path.normpath: (1) any history of adding, overwriting, deleting, saving, reopening, with-blocks and load_dirfile(),
    whose data values do not collide under the checksum and whose fields fit 32 bits ([xrun]/[run] not [None]), followed by leaving a
    with-block (or write_dirfile) and reopening in 'r'/'a': every call returned what the specification map says, the reopened archive
    lists exactly the files that should exist, and each file read as the read table says gives the bytes last written and verifies;
    (2) the write of the machine is the write the placement table describes, for every placement; (3) write_dirfile / reopen of the
    machine are the translated programs and the reader inverts the writer; (4) tree strings of any length go through the translated
    codec; (5) the nested dicts hold exactly the machine's table; (6) the three name forms agree and a listed name resolves to its
    entry (carve-out: last component ending in '.'); (7) numbered archives are found again; (8) read-only archives reject every mutation. *)
Theorem c13_property : forall et cf pt rt g1 g2 prog nk wp rp sk gp jt nc,
  c13_hyps et cf pt rt g1 g2 prog nk wp rp sk gp jt nc = true -> forall (crc : bytes -> N) (normpath : bytes -> bytes),
  (forall xs m st codes, m <> MW -> collision_free crc (xplain xs) ->
     xrun et crc cf init (xs ++ [XExit true; XOp (OReopen m)]) = Some (st, codes) ->
     let '(s0, c0) := sxrun cf sinit xs in
     writable (smd s0) = true ->
     codes = c0 ++ [rOk; rOk] /\ md st = m /\ Permutation (map fst (tbl st)) (map fst (cur s0)) /\
     forall k, match alookup k (tbl st), alookup k (cur s0) with
               | Some i, Some d => read_info_t rt st i = Some d /\ verify_info_t rt crc st i = Some true
               | None, None => True
               | _, _ => False
               end)
  /\ (forall ops m st codes, m <> MW -> collision_free crc ops ->
     run crc cf init (ops ++ [OSave; OReopen m]) = Some (st, codes) ->
     let '(s0, c0) := srun cf sinit ops in
     writable (smd s0) = true ->
     codes = c0 ++ [rOk; rOk] /\ md st = m /\ Permutation (map fst (tbl st)) (map fst (cur s0)) /\
     forall k, match alookup k (tbl st), alookup k (cur s0) with
               | Some i, Some d => read_info_t rt st i = Some d /\ verify_info_t rt crc st i = Some true
               | None, None => True
               | _, _ => False
               end)
  /\ (forall st i d ix, write_info_t pt crc cf st i d ix = Some (write_info crc cf st i d ix))
  /\ (forall t footer, wexec (v_dc cf) footer wp t = enc_file (v_dc cf) t footer)
  /\ (forall bs, rexec (v_dc cf) rp bs = dec_file_v (v_dc cf) bs)
  /\ (forall t footer b, wf_tree (v_dc cf) t -> wexec (v_dc cf) footer wp t = Some b -> rexec (v_dc cf) rp b = Some (1, nmap (flat_tree t), footer))
  /\ (forall s, write_cstr_k nk s = write_cstr s) /\ (forall bs, next_str_k nk bs = next_str bs)
  /\ (forall s rest, str_ok s = true -> next_str_k nk (write_cstr_k nk s ++ rest) = Some (Some s, rest))
  /\ (forall ops, exists t, nt_run g1 g2 prog [] ops = Some t
        /\ Permutation (map fst (flat_tree t)) (map fst (tb_run [] ops)) /\ forall k, alookup k (flat_tree t) = alookup k (tb_run [] ops))
  /\ (forall s, let '(h, t) := split_path s in let '(n, e) := split_ext t [] in
        file_parts_g normpath sk gp (NPair h t) = file_parts_g normpath sk gp (NStr s)
        /\ ((e = [] -> rsplit1 46 n = None) -> file_parts_g normpath sk gp (NTriple h n e) = file_parts_g normpath sk gp (NStr s)))
  /\ (forall k, key_listable normpath k -> exists s, join_k jt k = Some s /\ file_parts_g normpath sk gp (NStr s) = k)
  /\ (forall f p i, dir_prefix_of nc f = Some p ->
        site_name nc f (n_writer nc) i = Some (arch_filename nc p (Some i))
        /\ Forall (fun r => site_name nc f r i = Some (arch_filename nc p (Some i))) (n_readers nc)
        /\ arch_filename nc p None = f)
  /\ (forall st o, md st = MR -> mutating o = true -> exists c, step crc cf st o = Some (st, c) /\ (c = rReadOnly \/ c = rMissing)).
Proof. exact c13_property_composed. Qed.

(** Non-vacuity: the objects of vpk.py as pinned satisfy [c13_hyps] (the check proves the same for the objects generated on every run:
    instance obligation c13_property_hypotheses_hold_for_todays_source). *)
Theorem c13_property_hypotheses_satisfiable :
  c13_hyps exit_table_pinned ex_cfg table_pinned rtable_pinned goc_pinned goc_pinned del_prog_pinned ncodec_pinned wprog_pinned rprog_pinned
           (SplitLast 46) gparts_pinned join_table_pinned (ex_ncfg (n_writer (ex_ncfg reader_rstrip))) = true.
Proof. exact c13_hyps_pinned. Qed.

(** ---- the state machine assembled from the generated objects (SM/VpkGenMachine.v) ---- *)

(** [gstep] is the state machine with FileInfo.write run from the placement table, write_dirfile run as the translated writer program and
    reopening run as the translated reader program.  Whenever it gives an answer, the hand-written machine [step] gives the same one
    (it gives none when a field overflows, or when a version-2 file is reopened: write_dirfile never produces one). *)
Theorem c13_generated_machine_step : forall pt wp rp crc cf,
  place_table_ok pt = true -> wprog_ok wp = true -> rprog_ok rp = true ->
  forall st o r, gstep pt wp rp crc cf st o = Some r -> step crc cf st o = Some r.
Proof. exact gstep_sound. Qed.

(** Hence the property at its observation point holds for the generated machine: any history it runs, then write_dirfile, then reopen in
    'r'/'a': the result codes of the specification map, exactly the files that should exist, each read back from the read table with the
    bytes last written and verifying. *)
Theorem c13_generated_machine_history : forall pt rt wp rp crc cf,
  place_table_ok pt = true -> read_table_ok rt = true -> wprog_ok wp = true -> rprog_ok rp = true -> vcfg_ok cf = true ->
  forall ops m st codes, m <> MW -> collision_free crc ops ->
  grun pt wp rp crc cf init (ops ++ [OSave; OReopen m]) = Some (st, codes) ->
  let '(s0, c0) := srun cf sinit ops in
  writable (smd s0) = true ->
  codes = c0 ++ [rOk; rOk] /\ md st = m /\ Permutation (map fst (tbl st)) (map fst (cur s0)) /\
  forall k, match alookup k (tbl st), alookup k (cur s0) with
            | Some i, Some d => read_info_t rt st i = Some d /\ verify_info_t rt crc st i = Some true
            | None, None => True
            | _, _ => False
            end.
Proof.
  intros pt rt wp rp crc cf Hpt Hrt Hwp Hrp Hcf ops m st codes Hm Hfree Hrun.
  apply (grun_sound pt wp rp crc cf Hpt Hwp Hrp) in Hrun.
  pose proof (vpk_history_save_reopen crc cf Hcf ops m st codes Hm Hfree Hrun) as P.
  destruct (srun cf sinit ops) as [s0 c0]. intros Hw. destruct (P Hw) as (P1 & P2 & P3 & P4). repeat split; try assumption.
  now apply (read_table_reads rt Hrt).
Qed.

(** Non-vacuity: the generated machine runs the example history over all four placements with the real CRC-32. *)
Theorem c13_generated_machine_example :
  match grun table_pinned wprog_pinned rprog_pinned crc32 ex_cfg init ex_ops, run crc32 ex_cfg init ex_ops with
  | Some (s1, c1), Some (s2, c2) => (if list_eq_dec N.eq_dec c1 c2 then true else false) && Nat.eqb (length (tbl s1)) (length (tbl s2)) && negb (Nat.eqb (length (tbl s1)) 0)
  | _, _ => false
  end = true.
Proof. vm_compute. reflexivity. Qed.

(** ---- error paths of FileInfo.write (SM/VpkWriteOrder.v) and the os.path.splitext split ---- *)

(** [write_guarded_t] runs FileInfo.write WITH its validations from two generated tables: the placement table and the rejection table
    (the method executed with a read-only archive / an index out of range / both, for every combination of the deciding facts: did a
    validation raise, which one, which stores had been executed by then; a rejected call keeps exactly those stores).  For every table
    accepted by [rej_table_ok] — every validation that can reject raises before the first store, the mode before the index, a singular
    VPK ignores the index — it is the guard order and the result codes of the state machine, on all inputs. *)
Theorem c13_guarded_write_is_model : forall jt pt, rej_table_ok jt = true -> place_table_ok pt = true -> forall crc cf st i d ix,
  v_chk_idx cf = true ->
  write_guarded_t jt pt crc cf st i d ix = Some (write_guarded_model crc cf st i d ix).
Proof. exact write_guarded_is_model. Qed.

(** A rejected write changes neither the archive nor the entry. *)
Theorem c13_rejected_write_stores_nothing : forall jt pt, rej_table_ok jt = true -> place_table_ok pt = true ->
  forall crc cf st i d ix st' i' c,
  v_chk_idx cf = true -> write_guarded_t jt pt crc cf st i d ix = Some (st', i', c) -> c <> rOk -> st' = st /\ i' = i.
Proof. exact rejected_write_stores_nothing. Qed.

(** The OWrite case of [step] — where the refinement theorem uses "a rejected write changes nothing" — is the method run from the two
    generated tables. *)
Theorem c13_write_step_is_generated_tables : forall jt pt, rej_table_ok jt = true -> place_table_ok pt = true -> forall crc cf st k d ix,
  v_chk_idx cf = true ->
  step crc cf st (OWrite k d ix) =
    match alookup k (tbl st) with
    | None => Some (st, rMissing)
    | Some i => match write_guarded_t jt pt crc cf st i d ix with
                | Some (st', i', c) => Some (if c =? rOk then with_tbl st' (aset k i' (tbl st')) else st', c)
                | None => None
                end
    end.
Proof. exact step_write_is_guarded_tables. Qed.

(** The pinned table is accepted; the table of seeded c13_7 (index validated after `self.crc = new_checksum`) and a table without the
    "both wrong" rows are rejected. *)
Theorem c13_rejection_tables_computed :
  rej_table_ok rej_table_pinned = true /\ rej_table_ok rej_table_late_check = false
  /\ rej_table_ok (filter (fun r => negb (kind_eqb (j_kind r) KBoth)) rej_table_pinned) = false.
Proof. vm_compute. repeat split; reflexivity. Qed.

(** Seeded c13_7 followed in the model, for EVERY checksum function, archive, entry and data: in a directory VPK a write of different data
    with an index out of range is rejected, but the entry keeps the new checksum on the old data — it reads back the old bytes and
    verify() is false — and writing the same data again with a valid index is taken for "same data" and stores nothing. *)
Theorem c13_late_index_check_refuted : forall crc cf st i d ix ix2,
  v_is_dir cf = true -> writable (md st) = true -> idx_ok cf ix = false -> idx_ok cf ix2 = true -> (crc d =? icrc i) = false ->
  verify_info crc st i = true ->
  let i' := mkInfo (crc d) (ipre i) (iidx i) (ioff i) (ilen i) in
  write_guarded_t rej_table_late_check table_pinned crc cf st i d ix = Some (st, i', rBadIndex)
  /\ read_info st i' = read_info st i /\ verify_info crc st i' = false
  /\ write_guarded_t rej_table_late_check table_pinned crc cf st i' d ix2 = Some (st, i', rOk).
Proof. exact late_check_rejected_write_breaks_verify. Qed.

(** Seeded c13_8: the split statement as `os.path.splitext` ([SplitExt], meaning [splitext] = posixpath.splitext).  Not accepted by
    [split_kind_ok]; 'a/.b' resolves to (folder a, name '.b') while the 3-tuple ('a', '', 'b') — the entry load_dirfile creates — is
    (folder a, name '', extension b); both are listed as 'a/.b'.  With the split at the last '.' the string resolves to that entry.  A name
    starting with '.' never loses its first character to the extension; on a name with an inner dot the two splits agree. *)
Theorem c13_name_forms_splitext_refuted :
  let s := [97; 47; 46; 98] in
  split_kind_ok SplitExt = false
  /\ file_parts_k posix_normpath SplitExt (NStr s) = ([], [97], [46; 98])
  /\ file_parts_k posix_normpath SplitExt (NTriple [97] [] [98]) = ([98], [97], [])
  /\ join_k join_table_pinned ([98], [97], []) = Some s
  /\ join_k join_table_pinned ([], [97], [46; 98]) = Some s
  /\ file_parts_k posix_normpath (SplitLast 46) (NStr s) = ([98], [97], [])
  /\ (forall n, splitext (46 :: n) = None \/ exists a b, splitext (46 :: n) = Some (46 :: a, b))
  /\ file_parts_k posix_normpath SplitExt (NStr [97; 47; 98; 46; 99; 46; 100]) = file_parts_k posix_normpath (SplitLast 46) (NStr [97; 47; 98; 46; 99; 46; 100]).
Proof. exact name_forms_splitext_refuted. Qed.

(** Seeded c13_6 given a meaning: [RBlockLoopRel n] = blocks of n in an inner loop, `start` taken once before the first block, then
    `seek(start + end + 1)` with `end` found in the LAST block.  Not accepted; 127 characters are read and the file is left after the
    terminator, with 128 characters the string is still right but the file is left at position 1, inside the string. *)
Theorem c13_nullstr_block_rel_refuted :
  let s127 := repeat 97 127 in let s128 := repeat 97 128 in
  reader_ok (RBlockLoopRel 128) = false
  /\ read_cstr_r (RBlockLoopRel 128) (s127 ++ 0 :: [7; 8]) = Some (s127, [7; 8])
  /\ read_cstr_r (RBlockLoopRel 128) (s128 ++ 0 :: [7; 8]) = Some (s128, repeat 97 127 ++ 0 :: [7; 8])
  /\ read_cstr_r (RBlockLoop 128) (s128 ++ 0 :: [7; 8]) = Some (s128, [7; 8]).
Proof. vm_compute. repeat split; reflexivity. Qed.

(** ---- the listing methods called with arguments (SM/VpkListing.v) ---- *)

(** [list_walk w ext folder t] is what `filenames(ext, folder)` / `fileinfos(ext=, folder=)` yield on the nested dicts [t] when the method,
    executed with that combination of arguments, performs the walk [w] (translate/c13_api.py: which extension dicts, which folders).  For
    every accepted description and dicts without duplicate extension keys it is, in the same order, the entries of the default walk
    ([flat_tree]: the table of the state machine by c13_nested_walk_is_table) with that extension (when one is given) whose folder name
    starts with the folder argument (when one is given). *)
Theorem c13_listing_with_arguments_is_filter : forall eg fg w, walk_ok eg fg w = true -> forall ext folder t, NoDup (map fst t) ->
  list_walk w ext folder t = filter (listed eg fg ext folder) (flat_tree t).
Proof. exact list_walk_is_filter. Qed.

Theorem c13_listing_tables_list_matching : forall ws, walks_ok ws = true -> forall eg fg w, In (eg, fg, w) ws ->
  forall ext folder t, NoDup (map fst t) ->
  list_walk w ext folder t = filter (listed eg fg ext folder) (flat_tree t).
Proof. exact walks_ok_lists_matching. Qed.

(** The pinned walks are accepted; an inverted folder test (R7 of round 3) and a walk that ignores the extension argument are not. *)
Theorem c13_listing_walks_computed :
  walks_ok walks_pinned = true /\ walks_ok walks_inverted_filter = false
  /\ walks_ok (map (fun x : bool * bool * lwalk => let '(eg, fg, w) := x in (eg, fg, mkWalk EAll (lw_dir w) true)) walks_pinned) = false.
Proof. vm_compute. repeat split; reflexivity. Qed.

(** extract_all: for a description accepted as the full walk, exactly one file per entry of the default walk, named by the entry's listed
    name (the translated _join_file_parts table) and holding what read() — run from the read table — returns. *)
Theorem c13_extract_all_writes_every_file : forall (jt : list jrow) (rt : list rrow) (st : vstate) w,
  walk_ok false false w = true -> forall t, NoDup (map fst t) ->
  extract_files w (join_k jt) (read_info_t rt st) t = map (fun e => (join_k jt (fst e), read_info_t rt st (snd e))) (flat_tree t).
Proof. exact (fun jt rt st w => extract_all_writes_every_file w (join_k jt) (read_info_t rt st)). Qed.

(** ---- the whole property with the rejection table and the listing walks, as one statement (SM/VpkProperty.v) ---- *)

(** [c13_hyps_r5] = the hypotheses of [c13_property] and three more generated objects: the rejection table of FileInfo.write and the
    walks of `filenames` / `fileinfos` under their arguments.  Then [c13_property] applies (first conjunct) and: the write step of the
    state machine is the method run from the generated tables, validations included; a rejected write stores nothing; the listing methods
    called with arguments list exactly the matching entries of the default walk. *)
Theorem c13_property_r5 : forall et cf pt rt g1 g2 prog nk wp rp sk gp jt nc rj wn wi,
  c13_hyps_r5 et cf pt rt g1 g2 prog nk wp rp sk gp jt nc rj wn wi = true -> forall (crc : bytes -> N),
  c13_hyps et cf pt rt g1 g2 prog nk wp rp sk gp jt nc = true
  /\ (forall st k d ix,
        step crc cf st (OWrite k d ix) =
          match alookup k (tbl st) with
          | None => Some (st, rMissing)
          | Some i => match write_guarded_t rj pt crc cf st i d ix with
                      | Some (st', i', c) => Some (if c =? rOk then with_tbl st' (aset k i' (tbl st')) else st', c)
                      | None => None
                      end
          end)
  /\ (forall st i d ix st' i' c, write_guarded_t rj pt crc cf st i d ix = Some (st', i', c) -> c <> rOk -> st' = st /\ i' = i)
  /\ (forall eg fg w, In (eg, fg, w) (wn ++ wi) -> forall ext folder t, NoDup (map fst t) ->
        list_walk w ext folder t = filter (listed eg fg ext folder) (flat_tree t)).
Proof. exact c13_property_r5_composed. Qed.

Theorem c13_property_r5_hypotheses_satisfiable :
  c13_hyps_r5 exit_table_pinned ex_cfg table_pinned rtable_pinned goc_pinned goc_pinned del_prog_pinned ncodec_pinned wprog_pinned rprog_pinned
           (SplitLast 46) gparts_pinned join_table_pinned (ex_ncfg (n_writer (ex_ncfg reader_rstrip))) rej_table_pinned walks_pinned walks_pinned = true.
Proof. exact c13_hyps_r5_pinned. Qed.
