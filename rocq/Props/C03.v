(** C03 — tokenizing is total and independent of how the input is chunked.
    The statements, each with its proof where that is a few steps from the lemmas of Text/*Proofs.v, otherwise citing
    the lemma that carries it.

    The tokenizer model (Text/Tokenizer.v) mirrors Tokenizer._get_token/_handle_comment/_handle_string as reader
    programs over an abstract character source; [run_chk] interprets them over the reader state of the real class
    ([_cur_chunk], [_char_index], the chunk iterator; [cnext] = [_next_char], [cunread] = [_char_index -= 1]),
    [run_flat] over the plain string.  [T] are the constant tables regenerated from tokenizer.py, [o] any of the
    2^7 option vectors.  A trace is the list of results of successive calls, each result carrying token kind, value,
    [line_num] and [_last_was_cr] after the call, or the error site with its line; it ends at the first error. *)
From Coq Require Import List NArith ZArith Bool.
From SV Require Import Text.Str Text.Prog Text.ProgProofs Text.Tokenizer Text.TokenizerProofs Text.KvErrModel Text.KvErrProofs
  Text.BaseTok Text.BaseTokProofs Text.BaseTokTokenizer Text.BaseTokHelpers Text.ErrFmt Text.ErrFmtProofs
  Text.HsTable Text.HsTableProofs Text.GtTable Text.GtTableProofs Text.GtExample Text.NextChar.
Import ListNotations.

(** Generic: NO reader program can tell a chunked source from the flat string it denotes — same result, and the
    sources stay related (so this holds call after call). Empty chunks, and cuts at any position (inside CR-LF,
    escapes, comments, before a pushed-back character), are all instances. *)
Theorem c03_chunk_independent : forall (A : Type) (p : Prog A) l s, R l s ->
  fst (run_flat p l) = fst (run_chk p s) /\ R (snd (run_flat p l)) (snd (run_chk p s)).
Proof. exact @chunk_independent. Qed.

(** The initial states of [Tokenizer(str)] and [Tokenizer(iterable of chunks)] denote the text. *)
Theorem c03_initial_states : forall cs, R (concat cs) (chk_of_chunks cs) /\ R (concat cs) (chk_of_str (concat cs)).
Proof. intros cs. split; [apply R_of_chunks|apply R_of_str]. Qed.

(** Token traces (kind, value, line number, error) are identical for every chunking of the same text, for every
    option vector, any number of calls, any fuel. *)
Theorem c03_tokens_chunk_independent : forall T o n fuel line lcr l s, R l s ->
  tokens_chk T o n fuel line lcr s = tokens_flat T o n fuel line lcr l.
Proof. exact tokens_chunk_independent. Qed.

Theorem c03_tokens_any_chunking : forall T o n fuel cs,
  tokens_chk T o n fuel 1 false (chk_of_chunks cs) = tokens_chk T o n fuel 1 false (chk_of_str (concat cs)).
Proof. exact tokens_any_chunking. Qed.

(** Totality and progress of one call: with fuel above the length of the remaining text the call does not run out
    of fuel, returns EOF only with the input exhausted, leaves a remaining text no longer than before, and
    performs at most 2*|remaining text|+1 character reads. *)
Theorem c03_get_token_total : forall T o, ops_no_eof T = true ->
  forall f l line lcr, (length l < f)%nat ->
  let r := run_flat (get_token T o f line lcr) l in
  fst r <> RFuel
  /\ (forall v ln b, fst r = RTok EOF v ln b -> snd r = [] /\ v = [] /\ True)
  /\ (Prog.reads (get_token T o f line lcr) l + 2 * length (snd r) <= 2 * length l + 1)%nat.
Proof.
  intros T o H f l line lcr Hf. destruct (get_token_total T o H f l line lcr Hf) as [[H1 H2] H3].
  exact (conj H1 (conj H2 H3)).
Qed.

(** Every result of every call is a token or an error value of the one error type; never "out of fuel". The
    model has no other outcome: in the implementation "nothing but TokenSyntaxError escapes" is checked by the
    differential run and the oracle. *)
Theorem c03_tokens_total : forall T o, ops_no_eof T = true ->
  forall n fuel line lcr l, (length l < fuel)%nat ->
  Forall (fun r => r <> RFuel) (tokens_flat T o n fuel line lcr l).
Proof. exact tokens_total. Qed.

Theorem c03_tokens_total_chunked : forall T o, ops_no_eof T = true ->
  forall n fuel cs, (length (concat cs) < fuel)%nat ->
  Forall (fun r => r <> RFuel) (tokens_chk T o n fuel 1 false (chk_of_chunks cs)).
Proof.
  intros T o Hops n fuel cs Hf. rewrite (tokens_chunk_independent T o n fuel 1%N false (concat cs) _ (R_of_chunks cs)).
  now apply tokens_total.
Qed.

(** Once a call returns EOF, every later call returns EOF and the state no longer changes. *)
Theorem c03_eof_forever : forall T o, ops_no_eof T = true ->
  forall fuel l line lcr v line' lcr' l', (length l < fuel)%nat ->
  run_flat (get_token T o fuel line lcr) l = (RTok EOF v line' lcr', l') ->
  v = [] /\ l' = [] /\ forall n, tokens_flat T o n fuel line' lcr' l' = repeat (RTok EOF [] line' lcr') n.
Proof. exact eof_forever. Qed.

(** Linear step bound for the whole stream: [n] calls cost at most 2*|text| + n character reads, and the count
    is the same on every chunking. *)
Theorem c03_trace_reads_linear : forall T o, ops_no_eof T = true ->
  forall n fuel line lcr l, (length l < fuel)%nat -> (trace_reads T o n fuel line lcr l <= 2 * length l + n)%nat.
Proof. exact trace_reads_linear. Qed.

Theorem c03_reads_chunk_independent : forall (A : Type) (p : Prog A) l s, R l s -> reads_chk p s = Prog.reads p l.
Proof.
  intros A. induction p as [a|u k IH]; intros l s HR; cbn [Prog.reads reads_chk]; [reflexivity|].
  pose proof (next_sim u l s HR) as Hn. destruct (fnext l) as [c1 l1], (cnext s) as [c2 s1].
  destruct Hn as [<- HR1]. f_equal. apply IH, HR1.
Qed.

(** Non-vacuity: a concrete run (star comment cut inside "*/", CR-LF cut in the middle, an empty chunk). *)
Definition ex_tables : tables := {|
  esc_table := [(110,10);(116,9);(34,34);(92,92)]%N; excl_single := []; excl_multi := [];
  bare_disallowed := [34;39;123;125;59;44;61;91;93;40;41;13;10;9;32]%N;
  operators := [(123, BRACE_OPEN); (125, BRACE_CLOSE); (61, EQUALS); (44, COMMA)]%N;
  casefold := fun c => [c] |}.
Definition ex_opts : opts := {| string_bracket := false; string_parens := true; allow_escapes := true;
  allow_star_comments := true; preserve_comments := true; colon_operator := false; plus_operator := false |}.
Theorem c03_example :
  ops_no_eof ex_tables = true /\
  tokens_chk ex_tables ex_opts 5 20 1 false (chk_of_chunks [[97;13]; []; [10;47;42;120;42]; [47;98]]%N)
  = [RTok STRING [97]%N 1 false; RTok NEWLINE [10]%N 2 true; RTok COMMENT [120]%N 2 false; RTok STRING [98]%N 2 false;
     RTok EOF [] 2 false].
Proof. vm_compute. split; reflexivity. Qed.

(** ---- "KeyValError and nothing else" for [Keyvalues.parse] (exception-level model Text/KvErrModel.v) ----
    [cfg] records how the source guards each indexing site of the parser (regenerated from keyvalues.py on every run;
    the check discharges [cfg_safe gen_kcfg = true] field by field).  For EVERY token stream the parser can see through
    its tokenizer, every caller-supplied flag mapping, every option vector and whatever error the tokenizer ends with:
    the parser returns, or raises KeyValError — never an exception of another type. *)
Theorem c03_kvparse_only_keyvalerror : forall cfg ko cf flags defaults fin,
  cfg_safe cfg = true -> forall ts s, parse_tokens cfg ko cf flags defaults fin ts <> OForeign s.
Proof. exact no_foreign. Qed.

(** Site by site: a foreign exception starting at site [s] needs the guard of exactly that site to be missing (and the
    unguarded [cur_block_contents[-1]] of the "block expected" branch is never reached with an empty list). *)
Theorem c03_kvparse_foreign_needs_missing_guard : forall cfg ko cf flags defaults fin ts s,
  parse_tokens cfg ko cf flags defaults fin ts = OForeign s -> site_guard cfg s = false.
Proof. exact foreign_needs_missing_guard. Qed.

(** Composition with the tokenizer model: [Keyvalues.parse(text)] for any text: the tokenizer part does not run out
    of fuel and ends in EOF or one of its error values (raised with error_type = KeyValError); the parser part never
    leaves with a foreign exception. *)
Theorem c03_kvparse_text_typed : forall T cfg ko ae flags defaults, cfg_safe cfg = true -> ops_no_eof T = true ->
  forall text,
  let tr := split_trace (tokens_flat T (kv_tok_opts ae) (S (length text)) (S (length text)) 1 false text) in
  snd tr <> Some RFuel /\ forall s, kv_parse_text T cfg ko ae flags defaults text <> OForeign s.
Proof. exact kv_parse_text_typed. Qed.

(** ... and the outcome (ok / which KeyValError, including the tokenizer error and its line when that ends the stream)
    is the same whether the text is passed as one string or as any sequence of chunks. *)
Theorem c03_kvparse_any_chunking : forall T cfg ko ae flags defaults cs,
  kv_parse_chunks T cfg ko ae flags defaults cs = kv_parse_text T cfg ko ae flags defaults (concat cs).
Proof.
  intros T cfg ko ae flags defaults cs. unfold kv_parse_chunks, kv_parse_text.
  now rewrite (tokens_chunk_independent T (kv_tok_opts ae) _ _ 1%N false (concat cs) (chk_of_chunks cs) (R_of_chunks cs)).
Qed.

(** The guards are not decoration (these are the shapes the pinned tree had before the fixes, and seeded fault c03_2):
    an empty flag with an index test, a flagged keyvalue after a skipped block, a skipped block in single-block mode. *)
Definition all_guarded : kcfg := {| bang_total := true; guard_replace_block := true; guard_replace_leaf := true;
  guard_single_root := true; close_guarded := true |}.
Definition ko_default : kopts := {| newline_keys := false; newline_values := true; single_line := false; single_block := false |}.
Theorem c03_kvparse_unguarded_refuted :
  let S_ := (STRING, [97]%N) in let NL_ := (NEWLINE, [10]%N) in
  let run c k ts := parse_tokens c k (fun x => [x]) [] [] None ts in
  run {| bang_total := false; guard_replace_block := true; guard_replace_leaf := true; guard_single_root := true; close_guarded := true |}
      ko_default [S_; S_; (PROP_FLAG, []); NL_] = OForeign F_BANG
  /\ run {| bang_total := true; guard_replace_block := true; guard_replace_leaf := false; guard_single_root := true; close_guarded := true |}
      ko_default [S_; (PROP_FLAG, [120]%N); NL_; (BRACE_OPEN, []); (BRACE_CLOSE, []); S_; S_; (PROP_FLAG, [33; 120]%N); NL_] = OForeign F_REPLACE_LEAF
  /\ run {| bang_total := true; guard_replace_block := true; guard_replace_leaf := true; guard_single_root := false; close_guarded := true |}
      {| newline_keys := false; newline_values := true; single_line := false; single_block := true |}
      [S_; (PROP_FLAG, [120]%N); NL_; (BRACE_OPEN, []); (BRACE_CLOSE, [])] = OForeign F_ROOT0
  /\ run all_guarded ko_default [S_; (PROP_FLAG, [120]%N); NL_; (BRACE_OPEN, []); (BRACE_CLOSE, []); S_; S_; (PROP_FLAG, [33; 120]%N); NL_] = OOk
  /\ cfg_safe all_guarded = true.
Proof. vm_compute. repeat split; reflexivity. Qed.

(** ---- The token-level layer [BaseTokenizer] (Text/BaseTok.v): [__call__] with the push-back list, [peek],
    [push_back]; generic over the underlying source [get] (= [_get_token] of Tokenizer or IterTokenizer).  [c] says which
    end of [_pushback] each method uses (regenerated from the source; obligation [lifo gen_bcfg = true]). ---- *)

(** Every sequence of calls, peeks and push-backs returns what the same sequence returns on the logical stream
    "pushed-back tokens, last pushed first, then the stream [_get_token] delivers" ([view]); [n] only bounds how much
    of that stream is looked at. *)
Theorem c03_basetok_refines_logical_stream : forall (S E : Type) (get : S -> (ptok + E) * S) c, lifo c = true ->
  forall ops b n, (BaseTok.reads ops <= n)%nat -> fst (run S E get c ops b) = srun E ops (view S E get c n b).
Proof. exact run_refines. Qed.

(** Delivery = underlying stream: with nothing pushed back explicitly, whatever mixture of calls and peeks is made,
    the tokens the calls return are the first tokens of [_get_token]'s stream, in order, none lost or repeated. *)
Theorem c03_basetok_delivery_is_underlying_stream : forall (S E : Type) (get : S -> (ptok + E) * S) c, lifo c = true ->
  forall ops b, pb b = [] -> Forall (fun o => match o with Push _ => False | _ => True end) ops ->
  exists k, map snd (filter fst (fst (run S E get c ops b))) = firstn k (unfold S E get (BaseTok.reads ops) (src b)).
Proof. exact delivery_is_underlying_stream. Qed.

(** LIFO, one level: push_back then call returns the token and restores the state; peek shows what the next call
    returns; a re-delivered token does not touch the source (so [line_num] stays where the furthest read left it). *)
Theorem c03_basetok_call_after_push_back : forall (S E : Type) (get : S -> (ptok + E) * S) c, lifo c = true ->
  forall x b, call S E get c (push S c x b) = (inl x, b).
Proof. exact call_push. Qed.
Theorem c03_basetok_peek_then_call : forall (S E : Type) (get : S -> (ptok + E) * S) c, lifo c = true ->
  forall b x b1, call S E get c b = (inl x, b1) ->
  fst (peek S E get c b) = inl x /\ call S E get c (snd (peek S E get c b)) = (inl x, b1).
Proof. exact peek_then_call. Qed.
Theorem c03_basetok_redelivery_keeps_source : forall (S E : Type) (get : S -> (ptok + E) * S) c b x l,
  pb_pop (pop_last c) (pb b) = Some (x, l) -> call S E get c b = (inl x, {| pb := l; src := src b |}).
Proof. exact redelivery_keeps_source. Qed.

(** Chunk independence through the layer: over [Tokenizer] as the source, any sequence of calls / peeks / push-backs,
    and [expect], give the same tokens, values and errors and leave the same push-back list, [line_num] and
    [_last_was_cr], whether the text is one string or any sequence of chunks ([R l s]). *)
Theorem c03_basetok_ops_chunk_independent : forall T o fuel c ops pbl line lcr l s, R l s ->
  fst (run _ _ (tk_get_flat T o fuel) c ops {| pb := pbl; src := (line, lcr, l) |})
  = fst (run _ _ (tk_get_chk T o fuel) c ops {| pb := pbl; src := (line, lcr, s) |})
  /\ Rb _ _ Rtk (snd (run _ _ (tk_get_flat T o fuel) c ops {| pb := pbl; src := (line, lcr, l) |}))
                (snd (run _ _ (tk_get_chk T o fuel) c ops {| pb := pbl; src := (line, lcr, s) |})).
Proof. exact bt_ops_chunk_independent. Qed.
Theorem c03_basetok_expect_chunk_independent : forall T o fuel c f want skip pbl line lcr l s, R l s ->
  fst (expect _ _ (tk_get_flat T o fuel) c f want skip {| pb := pbl; src := (line, lcr, l) |})
  = fst (expect _ _ (tk_get_chk T o fuel) c f want skip {| pb := pbl; src := (line, lcr, s) |}).
Proof. exact bt_expect_chunk_independent. Qed.

(** [expect(token)] on the logical stream: the NEWLINE tokens in front are skipped (NEWLINE itself not being wanted),
    the first other token [x] decides: its value is returned if it is the wanted kind, otherwise the error names [x] —
    whether those tokens come from the push-back list or from the source. *)
Theorem c03_basetok_expect_spec : forall (S E : Type) (get : S -> (ptok + E) * S) c nls fuel want b n x rest,
  Forall (fun t => is_tok NEWLINE t = true) nls -> is_tok NEWLINE x = false ->
  is_tok NEWLINE (want, []) = false -> (length nls < fuel)%nat ->
  view S E get c n b = map inl nls ++ inl x :: rest ->
  fst (expect S E get c fuel want true b) = if is_tok want x then HVal (snd x) else HErr x.
Proof. exact expect_spec. Qed.

(** [IterTokenizer]: delivers the wrapped items, then (EOF, '') for ever. *)
Theorem c03_itertokenizer_stream : forall l n, (length l <= n)%nat ->
  unfold (list ptok) Empty_set iter_get n l = map inl l ++ repeat (inl (EOF, [])) (n - length l).
Proof. exact iter_delivers_the_list. Qed.

(** The LIFO condition is not decoration: popping the other end (FIFO) re-delivers two pushed-back tokens in the
    wrong order. *)
Theorem c03_basetok_fifo_refuted :
  let c := {| pop_last := false; push_last := true; peek_last := true |} in
  let b := {| pb := []; src := ([] : list ptok) |} in
  lifo c = false /\
  fst (run _ _ iter_get c [Push (STRING, [97]%N); Push (STRING, [98]%N); Call; Call] b)
  = [(true, inl (STRING, [97]%N)); (true, inl (STRING, [98]%N))].
Proof. vm_compute. split; reflexivity. Qed.

(** ---- the TEXT of an error: [str(exc)] = [format_exc_fileinfo(mess, file, line_num)], and the messages
    [BaseTokenizer.error] builds for a token.  [c] are the pieces of the text for the four combinations "file is None" x
    "line_num is None", regenerated from tokenizer.py on every run (a combination that raises is [None]); the check
    discharges the boolean conditions for the generated [c]. ---- *)

(** Formatting an error cannot itself fail (the AssertionError branch of [format_exc_fileinfo] is unreachable). *)
Theorem c03_error_text_never_fails : forall c, fmt_total c = true ->
  forall msg file line, format_fileinfo c msg file line <> None.
Proof.
  intros c H msg file line. unfold fmt_total in H. rewrite forallb_forall in H.
  specialize (H _ (fcase_in_cases c file line)). unfold format_fileinfo.
  destruct (fcase c file line); [discriminate|discriminate H].
Qed.

(** The text starts with the message; without file and line it is the message. *)
Theorem c03_error_text_starts_with_message : forall c, fmt_msg_first c = true ->
  forall msg file line s, format_fileinfo c msg file line = Some s -> exists rest, s = msg ++ rest.
Proof.
  intros c H msg file line s. unfold fmt_msg_first in H. rewrite forallb_forall in H.
  specialize (H _ (fcase_in_cases c file line)). unfold format_fileinfo.
  destruct (fcase c file line) as [[|[] ps]|]; try discriminate H. intros E. injection E as <-.
  eexists. cbn. reflexivity.
Qed.
Theorem c03_error_text_plain : forall c, fmt_plain c = true -> forall msg, format_fileinfo c msg None None = Some msg.
Proof.
  unfold fmt_plain, format_fileinfo. cbn. intros c H msg. destruct (f_none_none c) as [[|[] [|? ?]]|]; try discriminate H.
  cbn. rewrite app_nil_r. reflexivity.
Qed.

(** A given line number appears in the text as a non-empty string of decimal digits; a given file name appears. *)
Theorem c03_error_text_shows_line : forall c, fmt_line_shown c = true ->
  forall msg file n s, format_fileinfo c msg file (Some n) = Some s -> exists a b, s = a ++ dec n ++ b.
Proof.
  intros c. unfold fmt_line_shown. rewrite andb_true_iff. intros [H1 H2] msg file n s E.
  destruct (fileinfo_has is_line c msg file (Some n) s) as ([] & a & b & Hp & ->); try discriminate Hp;
    [destruct file; assumption|exact E|now exists a, b].
Qed.
Theorem c03_error_text_shows_file : forall c, fmt_file_shown c = true ->
  forall msg f line s, format_fileinfo c msg (Some f) line = Some s -> exists a b, s = a ++ f ++ b.
Proof.
  intros c. unfold fmt_file_shown. rewrite andb_true_iff. intros [H1 H2] msg f line s E.
  destruct (fileinfo_has is_file c msg (Some f) line s) as ([] & a & b & Hp & ->); try discriminate Hp;
    [destruct line; assumption|exact E|now exists a, b].
Qed.
Theorem c03_error_line_is_decimal : forall n, dec n <> [] /\ Forall (fun ch => (48 <= ch <= 57)%N) (dec n).
Proof. intros n. split; [apply dec_nonempty|apply dec_digits]. Qed.

(** [error(Token.X)] and [error(Token.X, value)] build a message for every member of [Token] (no KeyError from the
    [_OPERATOR_VALS] fall-through, no IndexError from the value). *)
Theorem c03_error_token_message_total : forall ts members, tmsgs_total ts members = true ->
  forall t v, In t members -> token_message ts t v <> None.
Proof.
  intros ts members H t v Hin. unfold tmsgs_total in H. rewrite forallb_forall in H. specialize (H t Hin).
  unfold token_message. destruct (tmsg_lookup ts t) as [[[a|] [b|]]|]; try discriminate H. destruct v; discriminate.
Qed.

(** The error a tokenizer run ends with has the same text for every chunking of the input, whatever the message texts
    of the error sites are ([msgf]) and whatever the file name; and that text exists, starts with the message and shows the
    line the error was raised on. *)
Theorem c03_error_text_any_chunking : forall c msgf file T o n fuel cs,
  map (err_text c msgf file) (tokens_chk T o n fuel 1 false (chk_of_chunks cs))
  = map (err_text c msgf file) (tokens_chk T o n fuel 1 false (chk_of_str (concat cs))).
Proof. intros. now rewrite tokens_any_chunking. Qed.
Theorem c03_error_text_shape : forall c msgf file e a line,
  fmt_total c = true -> fmt_msg_first c = true -> fmt_line_shown c = true ->
  exists s rest x y, err_text c msgf file (RErr e a line) = Some s /\ s = msgf e a ++ rest /\ s = x ++ dec line ++ y.
Proof.
  intros c msgf file e a line Ht Hm Hl. cbn [err_text].
  destruct (format_fileinfo c (msgf e a) file (Some line)) as [s|] eqn:E;
    [|exfalso; exact (c03_error_text_never_fails c Ht _ _ _ E)].
  destruct (c03_error_text_starts_with_message c Hm _ _ _ _ E) as [rest Hr].
  destruct (c03_error_text_shows_line c Hl _ _ _ _ E) as (x & y & Hxy).
  exists s, rest, x, y. auto.
Qed.

(** Non-vacuity (a configuration satisfying every condition, with a computed text) and a refutation: if one
    combination raised, formatting would fail there. *)
Definition ex_fcfg : fcfg := {|
  f_none_none := Some [PMsg]; f_file_only := Some [PMsg; PLit [32]%N; PFile];
  f_line_only := Some [PMsg; PLit [58]%N; PLine]; f_both := Some [PMsg; PLit [58]%N; PLine; PLit [32]%N; PFile] |}.
Theorem c03_error_text_example :
  fmt_total ex_fcfg = true /\ fmt_msg_first ex_fcfg = true /\ fmt_plain ex_fcfg = true /\ fmt_line_shown ex_fcfg = true
  /\ fmt_file_shown ex_fcfg = true
  /\ format_fileinfo ex_fcfg [109]%N (Some [102]%N) (Some 120%N) = Some [109; 58; 49; 50; 48; 32; 102]%N.
Proof. vm_compute. repeat split; reflexivity. Qed.
Theorem c03_error_text_raising_case_refuted :
  let c := {| f_none_none := Some [PMsg]; f_file_only := None; f_line_only := Some [PMsg; PLine]; f_both := Some [PMsg; PLine; PFile] |} in
  fmt_total c = false /\ format_fileinfo c [109]%N (Some [102]%N) None = None.
Proof. vm_compute. split; reflexivity. Qed.

(** [_get_token] and [_handle_comment] AS WRITTEN in the source.  translate/c02_gettoken.py cuts the two functions into
    eight segments (the outer loop, the four inner loops, the entry of [_handle_comment] and its two loops), executes each on
    abstract values and emits a decision tree per segment; [gt_interp] gives any such object a meaning as a reader program.  If
    the trees pass [trees_ok] (eight instance obligations, one per segment: the tree asks only what a segment of its kind may
    depend on, and computes the model's function on every consistent abstract environment) and [hs] computes what the hand model
    of [_handle_string] computes, the interpretation IS the hand model [get_token] on every input ... *)
Theorem c03_get_token_trees_are_the_model : forall T o G hs, trees_ok G = true ->
  (forall f acc lcr line l, run_flat (hs f acc lcr line) l = run_flat (handle_string T o f acc lcr line) l) ->
  forall f line lcr l,
  run_flat (gt_interp T o (steps_of G) hs f line lcr) l = run_flat (get_token T o f line lcr) l.
Proof. exact gt_trees_interp_is_model. Qed.

(** ... also over the chunked reader state of the real class ... *)
Theorem c03_get_token_trees_are_the_model_chunked : forall T o G hs, trees_ok G = true ->
  (forall f acc lcr line l, run_flat (hs f acc lcr line) l = run_flat (handle_string T o f acc lcr line) l) ->
  forall f line lcr l s, R l s ->
  fst (run_chk (gt_interp T o (steps_of G) hs f line lcr) s) = fst (run_flat (get_token T o f line lcr) l).
Proof. exact gt_trees_interp_is_model_chunked. Qed.

(** ... so the whole tokenizer as written ([_get_token] and [_handle_comment] from their trees [G], [_handle_string] from its
    rows) yields, call after call, on the flat text and on ANY chunking of it, the trace of the hand model - to which the
    totality, EOF-for-ever and linear-bound theorems above apply. *)
Theorem c03_tokenizer_as_written_any_chunking : forall T o G rows, trees_ok G = true -> hs_rows_ok rows = true ->
  forall n fuel cs,
  itokens_chk (gt_interp T o (steps_of G) (hs_interp T o (tb_of rows)) fuel) n 1 false (chk_of_chunks cs)
  = tokens_flat T o n fuel 1 false (concat cs)
  /\ itokens_chk (gt_interp T o (steps_of G) (hs_interp T o (tb_of rows)) fuel) n 1 false (chk_of_str (concat cs))
  = tokens_flat T o n fuel 1 false (concat cs)
  /\ itokens_flat (gt_interp T o (steps_of G) (hs_interp T o (tb_of rows)) fuel) n 1 false (concat cs)
  = tokens_flat T o n fuel 1 false (concat cs).
Proof.
  intros T o G rows HG Hr n fuel cs.
  pose proof (hs_rows_interp_is_model T o rows Hr) as Hhs.
  repeat split.
  - exact (gt_trees_trace_is_model_chunked T o G _ HG Hhs n fuel 1%N false (concat cs) _ (R_of_chunks cs)).
  - exact (gt_trees_trace_is_model_chunked T o G _ HG Hhs n fuel 1%N false (concat cs) _ (R_of_str (concat cs))).
  - exact (gt_trees_trace_is_model T o G _ HG Hhs n fuel 1%N false (concat cs)).
Qed.

Theorem c03_tokenizer_as_written_total : forall T o G rows, trees_ok G = true -> hs_rows_ok rows = true -> ops_no_eof T = true ->
  forall n fuel cs, (length (concat cs) < fuel)%nat ->
  Forall (fun r => r <> RFuel)
         (itokens_chk (gt_interp T o (steps_of G) (hs_interp T o (tb_of rows)) fuel) n 1 false (chk_of_chunks cs)).
Proof.
  intros T o G rows HG Hr Hops n fuel cs Hf.
  destruct (c03_tokenizer_as_written_any_chunking T o G rows HG Hr n fuel cs) as [-> _].
  exact (tokens_total T o Hops n fuel 1%N false (concat cs) Hf).
Qed.

(** The condition is satisfiable (a fixed copy of the trees of the pinned source passes it; the check proves it for the trees
    it regenerates from today's source) and it matters: a dispatch tree that no longer looks at [_last_was_cr] is rejected, and
    its interpretation turns CR LF into two NEWLINE tokens. *)
Theorem c03_get_token_trees_satisfiable : trees_ok ex_trees = true.
Proof. exact ex_trees_ok. Qed.
Theorem c03_get_token_trees_refuted :
  trees_ok bad_trees = false
  /\ itokens_flat (gt_interp ex_tables ex_opts (steps_of bad_trees) (handle_string ex_tables ex_opts) 5) 3 1 false [CR; LF]
     = [RTok NEWLINE [LF] 2 true; RTok NEWLINE [LF] 3 false; RTok EOF [] 3 false]
  /\ tokens_flat ex_tables ex_opts 3 5 1 false [CR; LF] = [RTok NEWLINE [LF] 2 true; RTok EOF [] 2 false; RTok EOF [] 2 false].
Proof. split; [exact (proj1 bad_trees_refuted)|]. vm_compute. split; reflexivity. Qed.

(** [_next_char] AS WRITTEN, and chunk sources that are not texts.  translate/c03_nextchar.py reads the fast path and
    executes the refill part on abstract values for every thing the chunk iterator can do next (yield bytes / another non-str
    object / the empty string / a non-empty string, be exhausted, raise UnicodeDecodeError / another exception).  If the rows are
    the model's ([nc_rows_ok], instance obligation [next_char_rows_are_the_model]), then on a source of [str] chunks the function
    IS the reader [cnext] that every theorem above is about ... *)
Theorem c03_next_char_is_cnext : forall fast rows, nc_rows_ok fast rows = true -> forall s,
  xnext (nc_tb rows) (xof s) = (XChar (fst (cnext s)), xof (snd (cnext s))).
Proof. exact xnext_is_cnext. Qed.

(** ... and the first thing that is not a [str] (after any number of empty chunks, when the current chunk is used up) is answered
    precisely: ValueError for a bytes / non-str object (such a source is not a text: outside the property; nothing is silently
    dropped), the tokenizer's own error (TokenSyntaxError / KeyValError, 'Could not decode file!') for UnicodeDecodeError - a file in
    the wrong encoding is covered by "TokenSyntaxError and nothing else" -, any other exception of the iterator propagates. *)
Theorem c03_next_char_first_non_text : forall fast rows, nc_rows_ok fast rows = true -> forall s n it r,
  at_end s -> xmore s = repeat (IStr []) n ++ it :: r ->
  fst (xnext (nc_tb rows) s) =
  match it with
  | IBytes | INonStr => XValueError
  | IDecodeErr => XDecodeError
  | IOtherErr => XPropagates
  | IStr [] => fst (xnext (nc_tb rows) {| xcur := xcur s; xidx := xidx s; xmore := r |})
  | IStr (c :: _) => XChar (Some c)
  end.
Proof. exact xnext_first_bad. Qed.

Theorem c03_next_char_rows_refuted :
  nc_rows_ok 1 nc_rows_of_spec = true /\ nc_rows_ok 1 nc_rows_bad = false
  /\ fst (xnext (nc_tb nc_rows_bad) {| xcur := []; xidx := -1; xmore := [INonStr; IStr [65%N]] |}) = XChar (Some 65%N)
  /\ fst (xnext (nc_tb nc_rows_bad) {| xcur := []; xidx := -1; xmore := [IDecodeErr] |}) = XPropagates.
Proof. exact (conj nc_spec_rows_ok nc_rows_bad_refuted). Qed.
