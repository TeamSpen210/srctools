(** C20 — secondary format writers emit files their own readers reproduce.
    The statements of the property, each closed by citing (the composed ones: by assembling) theorems of the models' own files
    under Fmt/.

    - Hammer command sequences: complete model of cmdseq.write / cmdseq.parse over a configuration [cfg] that is
      regenerated from cmdseq.py (Gen/CmdSeqFmt_gen.v); the check discharges [cfg_okb gen_cfg = true] in the kernel
      and compares model bytes / parse results with the implementation on every run.
    - scenes.image: container-level model of save_scenes_image_sync / parse_scenes_image (LZMA as a Section pair).
    - SMD: every line Mesh.export can write (Gen/SmdTpl_gen.v) keeps its conversions apart. *)
From Coq Require Import List NArith ZArith Bool Sorted Permutation.
Import ListNotations.
From SV Require Fmt.CmdSeq Fmt.CmdSeqProofs Fmt.ScenesImage Fmt.ScenesImageProofs Fmt.ScenesImageCfg Fmt.ScenesImageCfgProofs
  Fmt.SmdTpl Fmt.SmdTplProofs Fmt.SmdWords Fmt.TextFields Fmt.TextFieldsProofs Fmt.SndStacks Fmt.SndStacksProofs Fmt.VmtQuote Fmt.VmtQuoteProofs Fmt.TextLines Fmt.TextLinesProofs Fmt.ChoreoBin Fmt.ChoreoBinProofs Fmt.SceneSummary Fmt.BspDedup Fmt.C20KeyTables Fmt.C20KeyTablesProofs Fmt.SmdNumber Fmt.SmdNumberProofs Fmt.ChoreoQuant Fmt.VmtBlocks Fmt.VmtBlocksProofs Fmt.C20Property Fmt.C20PropertyProofs KV.KvBase KV.KvLex KV.KvSym KV.KvLexProofs.

(** * Command sequences *)
Module CS := Fmt.CmdSeq.
Module CSP := Fmt.CmdSeqProofs.

(** struct.unpack inverts struct.pack for every format of the dialect (B, i, <n>s; native alignment), at any offset *)
Theorem c20_struct_unpack_pack : forall fmt off vals b r,
  CS.pack off fmt vals = Some b -> CS.unpack off fmt (b ++ r) = Some (vals, r).
Proof. exact CSP.unpack_pack. Qed.

(** one record: every representable command is written, and read back unchanged whatever follows it *)
Theorem c20_cmdseq_record_roundtrip : forall c x, CS.cfg_okb c = true -> CS.cmd_okb c x = true ->
  exists b, b <> [] /\ CS.write_cmd c x = Some b /\
            forall r, CS.parse_cmd c (CS.c_fmt_v2 c) (b ++ r) = Some (x, r).
Proof. exact CSP.cmd_roundtrip. Qed.

(** the file: for every configuration satisfying the generated obligations and every representable value
    (ASCII, NUL-free, within the field widths, distinct sequence names, counts below 2^32) *)
Theorem c20_cmdseq_roundtrip : forall c v, CS.cfg_okb c = true -> CS.repr_okb c v = true ->
  exists b, CS.write c v = Some b /\ CS.parse c b = Some v.
Proof. intros c v Hc Hv. exact (CSP.file_roundtrip c v Hc (CSP.repr_okb_ok c v Hv)). Qed.

Theorem c20_cmdseq_second_generation : forall c v b v', CS.cfg_okb c = true -> CS.repr_okb c v = true ->
  CS.write c v = Some b -> CS.parse c b = Some v' -> CS.write c v' = Some b.
Proof. intros c v b v' Hc Hv. exact (CSP.second_generation c v b v' Hc (CSP.repr_okb_ok c v Hv)). Qed.

(** outside the alphabet the reader does not give the value back: an embedded NUL truncates *)
Theorem c20_cmdseq_nul_not_representable : CS.strip_cstring ([97; 0; 98] ++ CS.zeros 3)%N = Some [97%N].
Proof. exact CSP.nul_truncates. Qed.

(** * scenes.image container *)
Module SI := Fmt.ScenesImage.
Module SIP := Fmt.ScenesImageProofs.

(** the model of Python's stable list.sort(key=crc) sorts and permutes *)
Theorem c20_image_sort_sorted : forall es, Sorted (fun a b => (SI.e_crc a <= SI.e_crc b)%N) (SI.sort_by_crc es).
Proof. exact SIP.sort_by_crc_sorted. Qed.
Theorem c20_image_sort_perm : forall es, Permutation es (SI.sort_by_crc es).
Proof. exact SIP.sort_by_crc_perm. Qed.

(** the entry table of every written image is sorted by checksum (what the game's binary search needs) *)
Theorem c20_image_sorted_by_crc : forall version pool es, SI.image_ok version pool es ->
  exists ps, SI.img_parse (SI.img_write version pool es) = Some (version, pool, ps)
    /\ StronglySorted N.le (map SI.p_crc ps) /\ Sorted N.le (map SI.p_crc ps)
    /\ Permutation (map SI.e_crc es) (map SI.p_crc ps).
Proof. exact SIP.image_sorted_by_crc. Qed.

(** container round trip (versions 2 and 3): header, string pool through the offset table, entry table, summaries
    and blobs all come back; version 2 has no last-speak field and the reader substitutes the duration *)
Theorem c20_image_roundtrip : forall version pool es, SI.image_ok version pool es ->
  SI.img_parse (SI.img_write version pool es)
  = Some (version, pool, map (SI.to_pentry version pool) (SI.sort_by_crc es)).
Proof. exact SIP.image_roundtrip. Qed.

(** the writer that follows DeferredWrites literally (slots keyed by checksum) is the ideal writer exactly when the
    checksums are distinct; with that hypothesis its round trip holds *)
Theorem c20_image_roundtrip_deferred_writer : forall version pool es, SI.image_ok version pool es ->
  SI.crcs_distinctb es = true ->
  SI.img_parse (SI.img_write_py version pool es)
  = Some (version, pool, map (SI.to_pentry version pool) (SI.sort_by_crc es)).
Proof. exact SIP.image_roundtrip_py. Qed.

(** payloads through any store/unstore pair that is an inverse pair (LZMA / raw): visible hypothesis *)
Theorem c20_image_payload_roundtrip : forall (store unstore : list N -> list N),
  (forall d, unstore (store d) = d) ->
  forall version pool es, SI.image_ok version pool (map (SIP.store_entry store) es) ->
  exists ps, SI.img_parse (SI.img_write version pool (map (SIP.store_entry store) es)) = Some (version, pool, ps)
    /\ map (fun p => unstore (SI.p_blob p)) ps = map SI.e_blob (SI.sort_by_crc es).
Proof.
  intros store unstore H version pool es Hok.
  destruct (SIP.image_payload_roundtrip store unstore H version pool es Hok) as (ps & H1 & _ & H3).
  exists ps. split; assumption.
Qed.

Theorem c20_image_okb_sound : forall v pool es, SI.image_okb v pool es = true -> SI.image_ok v pool es.
Proof. exact SIP.image_okb_sound. Qed.

(** * scenes.image: the writer over the configuration regenerated from choreo.py (Gen/ScenesImg_gen.v) *)
Module SC := Fmt.ScenesImageCfg.
Module SCP := Fmt.ScenesImageCfgProofs.

(** for every configuration satisfying the obligations (struct formats and the value each field carries on both sides,
    version tests, the sort in effect for every input form when the pool is filled and when the table is written) the
    configured writer produces exactly the bytes of the hand model, for both input forms and whatever the dict keys are *)
Theorem c20_image_cfg_writer_is_model : forall c is_dict version pool kes,
  SC.icfg_okb c = true -> SC.image_ok_w version pool (map snd kes) ->
  SC.img_save_g c is_dict version pool kes = Some (SI.img_write version pool (map snd kes)).
Proof. exact SCP.save_g_is_img_write. Qed.

Theorem c20_image_cfg_roundtrip : forall c is_dict version pool kes,
  SC.icfg_okb c = true -> SC.image_ok_w version pool (map snd kes) ->
  exists b, SC.img_save_g c is_dict version pool kes = Some b /\
    SI.img_parse b = Some (version, pool, map (SI.to_pentry version pool) (SI.sort_by_crc (map snd kes))).
Proof. exact SCP.save_g_roundtrip. Qed.

(** the stored table is sorted by checksum, for the dict form too (keys play no role) *)
Theorem c20_image_cfg_table_sorted : forall c is_dict version pool kes,
  SC.icfg_okb c = true -> SC.image_ok_w version pool (map snd kes) ->
  exists b ps, SC.img_save_g c is_dict version pool kes = Some b /\ SI.img_parse b = Some (version, pool, ps) /\
    StronglySorted N.le (map SI.p_crc ps) /\ Permutation (map (fun ke => SI.e_crc (snd ke)) kes) (map SI.p_crc ps).
Proof. exact SCP.save_g_table_sorted. Qed.

(** sort site, generically: whenever the sort key is the attribute stored in the table, the stored column is sorted *)
Theorem c20_image_table_sorted_by_stored_attribute : forall a kes,
  StronglySorted N.le (map (SC.ekey a) (SC.order_g SC.ekey (SC.SKAttr a) kes)).
Proof. exact SCP.table_sorted_by_stored_attribute. Qed.

(** including the construction of the string pool (find_or_insert over sounds and scene strings in sorted order):
    the file parses to that pool and to entries whose sounds are the original strings *)
Theorem c20_image_pool_roundtrip : forall c is_dict version pool0 kes, SC.icfg_okb c = true ->
  let pool := SC.pool_g c is_dict pool0 kes in
  SC.image_ok_w version pool (map (SC.resolve pool) (map snd kes)) ->
  exists b, SC.img_save_s c is_dict version pool0 kes = Some b /\
    SI.img_parse b = Some (version, pool, map (SC.to_pentry_s version) (SC.sort_by SC.s_crc (map snd kes))).
Proof. exact SCP.save_s_roundtrip. Qed.

(** equal images give identical files: the caller's order, the input form and the dict keys do not matter
    (entries with distinct checksums) *)
Theorem c20_image_order_independent : forall c d1 d2 version pool0 kes1 kes2,
  SC.icfg_okb c = true -> Permutation (map snd kes1) (map snd kes2) -> NoDup (map SC.s_crc (map snd kes1)) ->
  SC.img_save_s c d1 version pool0 kes1 = SC.img_save_s c d2 version pool0 kes2.
Proof. exact SCP.save_s_order_independent. Qed.

(** refuted variants (computed witnesses).  Table ordered by the dict key, keys stale (entries stored under 5 and 7
    have checksums 30 and 10): the obligation is false, the parsed table is [30; 10], and the list form of the same
    image gives another file *)
Theorem c20_image_sort_by_dict_key_refuted :
  (SC.sort_table_okb SC.cfg_dict_key = false /\ SC.sort_pool_okb SC.cfg_dict_key = false) /\
  SC.parsed_crcs (SC.img_save_s SC.cfg_dict_key true 3 [] [(5, SC.ex_s1); (7, SC.ex_s2)])%N = Some [30; 10]%N /\
  SC.img_save_s SC.cfg_dict_key true 3 [] [(5, SC.ex_s1); (7, SC.ex_s2)]%N
  <> SC.img_save_s SC.cfg_dict_key false 3 [] [(5, SC.ex_s1); (7, SC.ex_s2)]%N.
Proof. exact (conj SCP.dict_key_cfg_rejected SCP.sort_by_dict_key_refuted). Qed.

(** pool filled in the caller's order and the table sorted afterwards (the pinned tree): two orders, two files *)
Theorem c20_image_pool_in_caller_order_refuted :
  (SC.sort_pool_okb SC.cfg_pool_unsorted = false /\ SC.sort_table_okb SC.cfg_pool_unsorted = true) /\
  SC.img_save_s SC.cfg_pool_unsorted false 3 [] [(0, SC.ex_s1); (0, SC.ex_s2)]%N
  <> SC.img_save_s SC.cfg_pool_unsorted false 3 [] [(0, SC.ex_s2); (0, SC.ex_s1)]%N.
Proof. exact (conj SCP.pool_unsorted_cfg_rejected SCP.pool_in_caller_order_refuted). Qed.

(** table sorted by an attribute other than the stored one *)
Theorem c20_image_sort_by_other_attribute_refuted :
  SC.sort_table_okb SC.cfg_sort_other = false /\
  SC.parsed_crcs (SC.img_save_s SC.cfg_sort_other false 3 [] [(0, SC.ex_s1); (0, SC.ex_s2)])%N = Some [30; 10]%N.
Proof. exact SCP.sort_by_other_attribute_refuted. Qed.

(** * SMD line templates *)
Module ST := Fmt.SmdTpl.
Module STP := Fmt.SmdTplProofs.

(** numeric_fields_separated: in every line that passes the boolean check, any two conversions with only literals
    between them have a whitespace literal between them; the check instantiates this on the generated lines *)
Theorem c20_smd_numeric_fields_separated : forall ls, forallb ST.line_ok ls = true -> Forall ST.separated ls.
Proof. exact STP.lines_ok_separated. Qed.

(** the boolean is exact: a rejected line really has two touching conversions *)
Theorem c20_smd_rejected_line_has_touching_conversions : forall l, ST.line_ok l = false ->
  exists a c1 mid c2 b, l = a ++ c1 :: mid ++ c2 :: b /\ ST.is_conv c1 = true /\ ST.is_conv c2 = true /\
    Forall (fun p => ST.is_conv p = false /\ ST.has_ws p = false) mid.
Proof. exact STP.line_not_ok_touching. Qed.

(** the vertex line of the pinned tree (link count written directly after the V coordinate) is rejected *)
Theorem c20_smd_pinned_vertex_line_refuted : ST.line_ok ST.smd_vertex_line_pinned = false.
Proof. exact STP.smd_pinned_vertex_line_refuted. Qed.

(** SMD data lines (skeleton poses, time lines, vertex lines with their bone links): in every line template whose
    conversions are delimited by whitespace literals, splitting the written line at whitespace (what the reader does)
    gives back exactly the written fields (literal keywords included), for all field texts without whitespace *)
Module SW := Fmt.SmdWords.
Theorem c20_smd_delimited_line_splits_into_its_fields : forall ps prev_ws,
  SW.delim prev_ws (map fst ps) = true -> SW.values_wordy ps = true -> SW.words (SW.render ps) = SW.fields ps.
Proof. exact SW.delimited_line_splits. Qed.
(** the bone line  index "name" parent  is read back by the reader's regular expression (modelled as greedy matching
    over disjoint classes; the pattern bytes are compared with the source on every run): any name without a double quote *)
Theorem c20_smd_bone_line_reads_back : forall a b idx nm par,
  SW.nodes_line_shape [ST.ConvInt; ST.Lit a; ST.ConvStr; ST.Lit b; ST.ConvInt] = true ->
  SW.all_digits idx = true -> forallb (fun c => negb (c =? 34)%N) nm = true -> SW.int_text par = true ->
  SW.parse_nodes (SW.render [(ST.ConvInt, idx); (ST.Lit a, []); (ST.ConvStr, nm); (ST.Lit b, []); (ST.ConvInt, par)])
  = Some (idx, nm, par).
Proof. exact SW.nodes_line_reads_back. Qed.
Theorem c20_smd_glued_fields_refuted :
  SW.delim true ST.smd_vertex_line_pinned = false
  /\ SW.words (SW.render [(ST.ConvFloat 6, [48; 46; 53]%N); (ST.ConvInt, [50%N])]) = [[48; 46; 53; 50]%N].
Proof. exact (conj SW.pinned_vertex_line_not_delimited SW.glued_fields_merge). Qed.

(** * Text writers (soundscripts, VMT, text choreo scenes): the interpolated fields (Gen/TextFields_gen.v) *)
Module TF := Fmt.TextFields.
Module TFP := Fmt.TextFieldsProofs.

(** over the tokenizer model of KV/KvLex.v (the string mode is the same code for every Tokenizer configuration with
    escapes enabled) and any escape table satisfying C01's obligations: a field written escaped between quotes is read
    back as one string whatever it holds; a field written raw between quotes when it has no quote, backslash or line break *)
Theorem c20_text_field_reads_back : forall E, KvSym.esc_ok E = true -> forall c v l, TFP.field_reads c v = true ->
  KvLexProofs.lexes E l (TF.render_field E c v) [KvBase.TStr v] l.
Proof. exact TFP.field_lexes. Qed.

(** a writer whose census passes [free_text_escaped] (text choreo scenes): every free-text field comes back, any value *)
Theorem c20_text_escaped_sites_read_back : forall E sites, KvSym.esc_ok E = true -> TF.free_text_escaped sites = true ->
  forall s v l, In s sites -> TF.is_free_text (TF.fs_type s) = true ->
  KvLexProofs.lexes E l (TF.render_field E (TF.fs_class s) v) [KvBase.TStr v] l.
Proof. exact TFP.escaped_sites_read_back. Qed.

(** a writer whose census passes [free_text_quoted] (soundscripts: the format has no escapes): every free-text field
    comes back for values in the raw alphabet *)
Theorem c20_text_quoted_sites_read_back : forall E sites, KvSym.esc_ok E = true -> TF.free_text_quoted sites = true ->
  forall s v l, In s sites -> TF.is_free_text (TF.fs_type s) = true -> TF.raw_safe v = true ->
  KvLexProofs.lexes E l (TF.render_field E (TF.fs_class s) v) [KvBase.TStr v] l.
Proof. exact TFP.quoted_sites_read_back. Qed.

(** refuted: a quote inside a raw quoted field; an unquoted "low, high" pair; the stop stack written from the update stack *)
Theorem c20_text_raw_quoted_quote_refuted :
  KvLex.lex_all TFP.ex_escfg (TF.render_field TFP.ex_escfg TF.FRawQuoted [97; 34; 98]%N) <> ([KvBase.TStr [97; 34; 98]%N], None).
Proof. exact TFP.raw_quoted_quote_refuted. Qed.
Theorem c20_text_bare_pair_refuted :
  fst (KvLex.lex_all TFP.ex_escfg (TF.render_field TFP.ex_escfg TF.FRawBare [57; 53; 44; 32; 49; 49; 48]%N ++ [KvBase.LF]))
  <> [KvBase.TStr [57; 53; 44; 32; 49; 49; 48]%N; KvBase.TNL].
Proof. exact TFP.bare_pair_refuted. Qed.
Theorem c20_sndscript_stacks_crossed_refuted :
  TF.stacks_paired [([1], [10], [10]); ([2], [11], [11]); ([3], [11], [11])]%N [([1], [10]); ([2], [11]); ([3], [12])]%N = false
  /\ TF.stacks_paired [([1], [10], [10]); ([2], [11], [11]); ([3], [12], [12])]%N [([1], [10]); ([2], [11]); ([3], [12])]%N = true.
Proof. exact TFP.stacks_crossed_refuted. Qed.

(** * Soundscript operator stacks (SK := Fmt.SndStacks): Sound keeps three optional blocks behind lazy properties (reading
    `snd.stack_start` stores an empty block when there was none).  Over the census regenerated from sndscript.py -- the
    terms of the test that switches the version-2 keys on, and per stack block its guard and source -- for every census
    passing [guard_okb] / [blocks_okb] (the check discharges both for today's source), every sound, any child type: *)
Module SK := Fmt.SndStacks.
Module SKP := Fmt.SndStacksProofs.

(** what is written depends on the value only: reading the lazy properties first, in any order, changes nothing *)
Theorem c20_sndscript_export_observer_independent : forall A g ws ts (x : SK.sound A),
  SK.guard_okb g = true -> SK.blocks_okb ws = true ->
  fst (SK.export g ws (SK.touches ts x)) = fst (SK.export g ws x).
Proof. exact SKP.export_observer_independent. Qed.

(** exporting the same object twice (export itself reads the lazy properties) writes the same *)
Theorem c20_sndscript_export_again_identical : forall A g ws (x : SK.sound A),
  SK.guard_okb g = true -> SK.blocks_okb ws = true ->
  fst (SK.export g ws (snd (SK.export g ws x))) = fst (SK.export g ws x).
Proof. exact SKP.export_again_identical. Qed.

(** two sounds of the same value (same version-2-ness, same children; a missing stack = an empty one) are written identically *)
Theorem c20_sndscript_export_same_value : forall A g ws (x y : SK.sound A),
  SK.guard_okb g = true -> SK.blocks_okb ws = true -> SK.same_value x y ->
  fst (SK.export g ws x) = fst (SK.export g ws y).
Proof. exact SKP.export_same_value. Qed.

(** the reader gives the value back, and the second generation is identical *)
Theorem c20_sndscript_stacks_roundtrip : forall A g ws (x : SK.sound A),
  SK.guard_okb g = true -> SK.blocks_okb ws = true ->
  SK.same_value (SK.parse (fst (SK.export g ws x))) x.
Proof. exact SKP.parse_export_same_value. Qed.
Theorem c20_sndscript_stacks_second_generation : forall A g ws (x : SK.sound A),
  SK.guard_okb g = true -> SK.blocks_okb ws = true ->
  fst (SK.export g ws (SK.parse (fst (SK.export g ws x)))) = fst (SK.export g ws x).
Proof. exact SKP.second_generation_identical. Qed.

(** refuted: `self._stack_x is not None` in the version-2 test (a version-1 sound whose start stack was merely looked
    at is written as version 2 and read back as another value); a test that forgets the stop stack; a block guarded by a
    presence test *)
Theorem c20_sndscript_presence_test_refuted :
  SK.guard_okb SKP.presence_guard = false
  /\ let x := SK.mkSnd (A := nat) false None None None in
     fst (SK.export SKP.presence_guard SKP.ref_blocks (SK.touch SK.SStart x)) <> fst (SK.export SKP.presence_guard SKP.ref_blocks x)
     /\ SK.is_v2 (SK.parse (fst (SK.export SKP.presence_guard SKP.ref_blocks (SK.touch SK.SStart x)))) <> SK.is_v2 (SK.touch SK.SStart x).
Proof. exact SKP.presence_guard_refuted. Qed.
Theorem c20_sndscript_forgetful_test_refuted :
  SK.guard_okb SKP.forgetful_guard = false
  /\ let x := SK.mkSnd false None None (Some [5]) in
     SK.content (SK.parse (fst (SK.export SKP.forgetful_guard SKP.ref_blocks x))) SK.SStop <> SK.content x SK.SStop.
Proof. exact SKP.forgetful_guard_refuted. Qed.
Theorem c20_sndscript_presence_block_refuted :
  SK.blocks_okb SKP.presence_blocks = false
  /\ let x := SK.mkSnd (A := nat) true None None None in
     fst (SK.export SKP.ref_guard SKP.presence_blocks (SK.touch SK.SStart x)) <> fst (SK.export SKP.ref_guard SKP.presence_blocks x).
Proof. exact SKP.presence_block_refuted. Qed.

(** * VMT parameters (VQ := Fmt.VmtQuote): `\t<name> <value>\n`, each quoted on demand by vmt._needs_quotes; the decision table
    is regenerated from vmt.py / tokenizer.py.  Over the bare-string mode of the tokenizer model (the same loop for every
    configuration without the colon / plus operators), for every table passing [nq_okb] (the check discharges it), on any line
    but the first (the shader line comes first): *)
Module VQ := Fmt.VmtQuote.
Module VQP := Fmt.VmtQuoteProofs.

(** a string the decision lets through unquoted is read back as exactly that string *)
Theorem c20_vmt_unquoted_reads_back : forall E cfg l v, VQ.nq_okb cfg = true -> l <> 1%N -> VQ.needs_quotes cfg v = false ->
  KvLexProofs.lexes E l (v ++ [KvBase.SP]) [KvBase.TStr v] l.
Proof. exact VQP.bare_reads_back. Qed.

(** the whole parameter line is read back as name, value, newline: any name / value the decision lets through, and quoted ones
    without quote, backslash or line break (partial: the model un-escapes inside quotes, Material.parse reads with escapes
    disabled, so for the real reader a backslash inside quotes is fine too -- searched, not proved) *)
Theorem c20_vmt_param_line_reads_back_partial : forall E cfg l name value, VQ.nq_okb cfg = true -> l <> 1%N ->
  VQP.value_ok cfg name = true -> VQP.value_ok cfg value = true ->
  KvLexProofs.lexes E l (VQ.param_line cfg name value) [KvBase.TStr name; KvBase.TStr value; KvBase.TNL] (l + 1)%N.
Proof. exact VQP.param_line_reads_back. Qed.

(** refuted: the decision of the pinned tree (no test for a leading '/': `//x` written bare is a comment); a delimiter missing
    from the table (a value with a comma is split) *)
Theorem c20_vmt_leading_slash_refuted :
  VQ.nq_okb VQP.no_slash_nq = false
  /\ fst (KvLex.lex_all TFP.ex_escfg ([97; 10]%N ++ VQ.param_line VQP.no_slash_nq [36; 98]%N [47; 47; 120]%N))
     = [KvBase.TStr [97%N]; KvBase.TNL; KvBase.TStr [36; 98]%N; KvBase.TNL].
Proof. exact VQP.leading_slash_refuted. Qed.
Theorem c20_vmt_missing_delimiter_refuted :
  VQ.nq_okb VQP.no_comma_nq = false
  /\ fst (KvLex.lex_all TFP.ex_escfg ([97; 10]%N ++ VQ.param_line VQP.no_comma_nq [36; 98]%N [49; 44; 50]%N))
     <> [KvBase.TStr [97%N]; KvBase.TNL; KvBase.TStr [36; 98]%N; KvBase.TStr [49; 44; 50]%N; KvBase.TNL].
Proof. exact VQP.missing_delimiter_refuted. Qed.

(** the whole file of a material that has parameters only (no sub-blocks, no proxies; the frame `<shader>\n\t{\n` ... `\t}\n` is an
    obligation on Material.export, the file text is compared with the exporter on every run): for a shader name that is a bare
    string and parameters as above, the tokenizer model reads the file without error as exactly shader, `{`, the (name, value)
    pairs in order, `}` (partial as above: quoted strings without backslash; what Material.parse builds from the tokens is searched) *)
Theorem c20_vmt_file_reads_back_partial : forall E cfg shader ps, VQ.nq_okb cfg = true -> VQP.shader_ok shader = true ->
  VQP.params_ok cfg ps = true -> KvLex.lex_all E (VQ.vmt_file cfg shader ps) = (VQ.vmt_tokens shader ps, None).
Proof. exact VQP.vmt_file_reads_back. Qed.

(** hence the written file determines the material: two different parameter-only materials never produce the same file *)
Theorem c20_vmt_file_determines_material : forall cfg s1 p1 s2 p2, VQ.nq_okb cfg = true ->
  VQP.shader_ok s1 = true -> VQP.params_ok cfg p1 = true -> VQP.shader_ok s2 = true -> VQP.params_ok cfg p2 = true ->
  VQ.vmt_file cfg s1 p1 = VQ.vmt_file cfg s2 p2 -> s1 = s2 /\ p1 = p2.
Proof. exact VQP.vmt_file_determines_material. Qed.

(** refuted: a shader name with a space (written as it is) is not representable *)
Theorem c20_vmt_shader_with_space_refuted :
  VQP.shader_ok [97; 32; 98]%N = false
  /\ fst (KvLex.lex_all TFP.ex_escfg (VQ.vmt_file VQP.ref_nq [97; 32; 98]%N [])) <> VQ.vmt_tokens [97; 32; 98]%N [].
Proof. exact VQP.shader_with_space_refuted. Qed.

(** * Whole written lines (TL := Fmt.TextLines): what one `file.write(template)` of a text writer produces, as a list of
    self-delimiting items regenerated from the source (every template of sndscript.Sound.export, `snd_lines`, none unstructured;
    the templates of the choreo export_text methods that are whole items, `cho_lines`, with the run-time indent as the item IInd;
    the check discharges [items_ok] for each).  For every escape table with [esc_ok], every
    structured line, every line number and ALL field values within [vals_ok] (one value per field; a raw quoted field without
    quote / backslash / line break, a bare field a bare word, an escaped quoted field anything): the tokenizer model reads the
    written text back as exactly the keywords, braces, newlines and field values, in order *)
Module TL := Fmt.TextLines.
Module TLP := Fmt.TextLinesProofs.
Theorem c20_text_line_reads_back : forall E ind, KvSym.esc_ok E = true -> KvSym.ws_only ind = true ->
  forall its, TL.items_ok its = true -> forall vs l, TL.vals_ok its vs = true ->
  KvLexProofs.lexes E l (TL.render E ind its vs) (TL.toks its vs) (TL.lines its l).
Proof. exact TLP.items_lex. Qed.
Theorem c20_text_lines_of_a_writer_read_back : forall E ind ls, KvSym.esc_ok E = true -> KvSym.ws_only ind = true ->
  forallb TL.items_ok ls = true -> forall its vs l, In its ls -> TL.vals_ok its vs = true ->
  KvLexProofs.lexes E l (TL.render E ind its vs) (TL.toks its vs) (TL.lines its l).
Proof. exact TLP.lines_lex. Qed.
(** the unquoted low/high pair `95, 110` (the repaired soundscript defect) is not a bare word: as a bare field it is outside [vals_ok] *)
Theorem c20_text_bare_pair_is_not_a_word_refuted : TL.word_ok [57; 53; 44; 32; 49; 49; 48]%N = false.
Proof. exact TLP.bare_pair_not_a_word. Qed.

(** * Binary choreo scenes (BVCD), at the level of raw field values (float32 as bit pattern, quantised values as the
    byte written, strings as pool indexes).  Fmt/ChoreoBin.v describes each class by a layout; the check discharges,
    per class, that the width / call / loop paths of the layout are exactly the paths export_binary can emit and exactly
    the paths parse_binary can consume (Gen/ChoreoBin_gen.v), and compares the layout's encoder with export_binary byte
    for byte. *)
Module CB := Fmt.ChoreoBin.
Module CBP := Fmt.ChoreoBinProofs.

(** a record written with a sequence of field widths is read back with the same widths, whatever follows *)
Theorem c20_choreo_record_roundtrip : forall ws vals b r, CB.emit ws vals = Some b -> CB.consume ws (b ++ r) = Some (vals, r).
Proof. exact CBP.consume_emit. Qed.

(** a counted list (count field of [cw] bytes, then the records) *)
Theorem c20_choreo_counted_list_roundtrip : forall cw ws recs b r, CB.emit_counted cw ws recs = Some b ->
  CB.consume_counted cw ws (b ++ r) = Some (recs, r).
Proof. exact CBP.consume_counted_emit. Qed.

(** for EVERY layout (records, counted lists of items, optional parts behind a marker byte, parts selected by a field
    or a flag bit of the head record, nested records of other classes): decoding what was encoded gives the value back
    and leaves what follows; in particular for scene_lay: a whole binary scene with its events (ramps, four tag lists,
    gesture duration, relative tag, flex tracks with optional direction track, loop / speak tails), actors and channels *)
Theorem c20_choreo_layout_roundtrip : forall l env v b r, CB.enc l env v = Some b -> CB.dec l env (b ++ r) = Some (v, r).
Proof. exact CBP.dec_enc. Qed.

Theorem c20_choreo_scene_roundtrip : forall g l s v b r, CB.enc (CB.scene_lay g l s) [] v = Some b ->
  CB.dec (CB.scene_lay g l s) [] (b ++ r) = Some (v, r).
Proof. intros g l s. exact (CBP.dec_enc (CB.scene_lay g l s) []). Qed.

(** second generation at the same level *)
Theorem c20_choreo_layout_second_generation : forall l env v b v' r, CB.enc l env v = Some b ->
  CB.dec l env (b ++ r) = Some (v', r) -> CB.enc l env v' = Some b.
Proof. exact CBP.enc_dec_enc. Qed.

(** refuted: the relative-tag marker written twice (widths 1,1,2,2 against the reader's 1,2,2) *)
Theorem c20_choreo_double_marker_refuted :
  match CB.emit [1; 1; 2; 2]%nat [1; 1; 5; 9]%N with
  | Some b => CB.consume [1; 2; 2]%nat b = Some ([1; 1281; 2304]%N, [0%N])
  | None => False
  end /\ CB.paths_eqb [[CB.TW 1; CB.TW 1; CB.TW 2; CB.TW 2]] [[CB.TW 1; CB.TW 2; CB.TW 2]] = false.
Proof. exact CBP.double_marker_refuted. Qed.

(** * The summary stored with a scene (Entry.from_scene): model Fmt/SceneSummary.v, compared with the implementation on
    every run.  Times are float32 values scaled by 2^160 (exact integers); round() is half-to-even of an exact rational. *)
Module SS := Fmt.SceneSummary.

(** the last-speak time never exceeds the duration *)
Theorem c20_summary_last_speak_le_duration : forall speak master slave evs,
  let '(d, l, _) := SS.summary_of speak master slave evs in (l <= d)%Z.
Proof. exact SS.last_speak_le_duration. Qed.

(** the sound list is strictly increasing (sorted, no duplicates) and holds exactly the sounds the events use *)
Theorem c20_summary_sounds_sorted : forall l, StronglySorted SS.str_lt (SS.sort_set l).
Proof. exact SS.sort_set_sorted. Qed.
Theorem c20_summary_sounds_members : forall l x, In x (SS.sort_set l) <-> In x l.
Proof. exact SS.sort_set_In. Qed.

(** the summary is a function of the set of events: their order (events, actors, channels) does not matter *)
Theorem c20_summary_order_independent : forall speak master slave evs evs', Permutation evs evs' ->
  SS.summary_of speak master slave evs = SS.summary_of speak master slave evs'.
Proof. exact SS.summary_order_independent. Qed.

(** milliseconds are monotone in the time *)
Theorem c20_summary_ms_monotone : forall a b, (a <= b)%Z -> (SS.ms a <= SS.ms b)%Z.
Proof. exact SS.ms_mono. Qed.

(** * Keyed tables of the writers: bone numbering through [dict[Bone, int]], the string pool, particle systems by
    name, scenes.image slots.  The table is C11's [dd_run] (Fmt/BspDedup.v, imported); the census [kt_tables] / [kt_classes] is
    regenerated from the six modules (Gen/KeyTables_gen.v), the KEY of an object-keyed table being read from the [__eq__] /
    [__hash__] of the key's class. *)
Module KT := Fmt.C20KeyTables.
Module KTP := Fmt.C20KeyTablesProofs.
Module DD := Fmt.BspDedup.
From Coq Require Import String.
Open Scope string_scope.
Open Scope list_scope.

(** every table of a census passing [tables_ok] (the instance obligation on [kt_tables]): whatever is requested, in whatever
    order, the record stored under the number handed out for an object is that object's record *)
Theorem c20_keyed_table_roundtrip : forall (ts : list DD.dedup_table) name adm fields k tr l xs,
  KT.tables_ok ts = true -> In (name, adm, fields, k) ts ->
  (forall v, tr "" v = v) ->
  (forall o, In o (l ++ xs) -> map fst (snd o) = fields) ->
  (forall o o', In o (l ++ xs) -> In o' (l ++ xs) -> fst o = fst o' -> o = o') ->
  (forall t, In t adm -> forall o o' f v v', In o (l ++ xs) -> In o' (l ++ xs) ->
     DD.assoc_f f (snd o) = Some v -> DD.assoc_f f (snd o') = Some v' -> tr t v = tr t v' -> v = v') ->
  forall s' is, DD.dd_run (DD.key_sem tr k) DD.keyval_eqb (DD.dd_init (DD.key_sem tr k) l) xs = (s', is) ->
  Forall2 (fun o i => DD.read_back (fst s') i = Some (snd o)) xs is /\ exists ext, fst s' = l ++ ext.
Proof. exact KTP.keyed_table_roundtrip. Qed.

(** hand-written comparison methods passing [kcmp_ok]: objects the dict treats as equal also hash equal *)
Theorem c20_class_equal_objects_hash_equal : forall eq ne hash tr (o o' : DD.obj),
  KT.kcmp_ok (KT.CFields eq ne hash) = true -> (forall v, tr "" v = v) ->
  DD.key_sem tr (DD.KFields eq) o = DD.key_sem tr (DD.KFields eq) o' ->
  DD.key_sem tr (DD.KFields hash) o = DD.key_sem tr (DD.KFields hash) o'.
Proof. exact KTP.class_equal_objects_hash_equal. Qed.

(** the class of seeded fault c20_6: [Bone.__eq__] / [__hash__] through [name.casefold()] are consistent with each other, but
    "Weapon" and "weapon" get one node number, under which the reader finds "Weapon"; with the exact name both are kept *)
Theorem c20_smd_bone_key_casefold_refuted :
  KT.kcmp_ok KTP.bone_casefold = true /\ KT.kcmp_exact KTP.bone_casefold = false /\
  DD.dedup_ok ("smd.Mesh.export:bone_indexes", [], ["name"], KT.keyspec_of_class KTP.bone_casefold) = false /\
  (let k := DD.key_sem KT.tr_case (KT.keyspec_of_class KTP.bone_casefold) in
   let '(s, is) := DD.dd_run k DD.keyval_eqb (DD.dd_init k []) [KT.bone_Weapon; KT.bone_weapon] in
   is = [0; 0]%nat /\ DD.read_back (fst s) 0 = Some (snd KT.bone_Weapon) /\ snd KT.bone_Weapon <> snd KT.bone_weapon) /\
  KT.kcmp_ok KTP.bone_exact = true /\ KT.kcmp_exact KTP.bone_exact = true /\
  DD.dedup_ok ("smd.Mesh.export:bone_indexes", [], ["name"], KT.keyspec_of_class KTP.bone_exact) = true /\
  (let k := DD.key_sem KT.tr_case (KT.keyspec_of_class KTP.bone_exact) in
   let '(s, is) := DD.dd_run k DD.keyval_eqb (DD.dd_init k []) [KT.bone_Weapon; KT.bone_weapon; KT.bone_Weapon] in
   is = [0; 1; 0]%nat /\ DD.read_back (fst s) 1 = Some (snd KT.bone_weapon)).
Proof. exact KTP.bone_key_casefold_refuted. Qed.

(** [__eq__] folding case with an exact [__hash__] is rejected (equal objects, different hashes); the converse is accepted *)
Theorem c20_hash_finer_than_eq_refuted :
  KT.kcmp_ok (KT.CFields [("name", "casefold")] [("name", "casefold")] [("name", "")]) = false /\
  KT.kcmp_ok (KT.CFields [("name", "")] [("name", "")] [("name", "casefold")]) = true.
Proof. exact KTP.hash_finer_than_eq_refuted. Qed.

(** a string pool keyed by the casefolded string, a particle table keyed more coarsely than the reader keys systems *)
Theorem c20_pool_key_casefold_refuted :
  DD.dedup_ok ("choreo.save_scenes_image_sync:add_to_pool", [], ["<value>"], DD.KFields [("<value>", "casefold")]) = false /\
  DD.dedup_ok ("choreo.save_scenes_image_sync:add_to_pool", [], ["<value>"], DD.KValue) = true /\
  DD.dedup_ok ("particles.Particle.export:name_to_elem", ["casefold"], ["name"], DD.KFields [("name", "casefold")]) = true /\
  DD.dedup_ok ("particles.Particle.export:name_to_elem", ["casefold"], ["name"], DD.KFields [("name", "strip+casefold")]) = false.
Proof. exact KTP.pool_key_casefold_refuted. Qed.

(** * SMD bone numbering: the [nodes] section of [Mesh.export] -- [dict.fromkeys] over the bones, passes that number a
    bone once its parent is numbered, [ValueError] when a pass numbers nobody -- against the reader's line-by-line table
    (numbers consecutive from 0, a parent number must be defined by an earlier line).  Model Fmt/SmdNumber.v, compared with the
    implementation on every run. *)
Module SN := Fmt.SmdNumber.
Module SNP := Fmt.SmdNumberProofs.

(** whenever the section is written, the reader accepts every line and returns, in file order, exactly the (name, parent name)
    records of the bones of [todo]: each once, none invented, whatever the order of the dict (children first included) *)
Theorem c20_smd_nodes_section_reads_back : forall bs ls, SN.number bs = Some ls ->
  exists perm, Permutation perm (SN.dedupe bs) /\ SN.read_nodes [] ls = Some (map SN.bone_rec perm).
Proof. exact SNP.number_reads_back. Qed.

(** with pairwise distinct keys (names, as the comparison methods of Bone read them) no bone is dropped *)
Theorem c20_smd_nodes_section_reads_back_distinct : forall bs ls, NoDup (map SN.bkey bs) -> SN.number bs = Some ls ->
  exists perm, Permutation perm bs /\ SN.read_nodes [] ls = Some (map SN.bone_rec perm).
Proof. exact SNP.number_reads_back_distinct. Qed.

(** two bones under one key (what a case-folding comparison makes of "Weapon" / "weapon"): the second one is gone *)
Theorem c20_smd_equal_keys_merge_refuted :
  SN.number [SN.mkBone 0 None; SN.mkBone 1 (Some 0%N); SN.mkBone 1 (Some 0%N); SN.mkBone 3 (Some 1%N)] =
  Some [(0%nat, 0%N, None); (1%nat, 1%N, Some 0%nat); (2%nat, 3%N, Some 1%nat)] /\
  ~ NoDup (map SN.bkey [SN.mkBone 0 None; SN.mkBone 1 (Some 0%N); SN.mkBone 1 (Some 0%N); SN.mkBone 3 (Some 1%N)]).
Proof. exact SNP.number_equal_keys_merge_refuted. Qed.

(** * Quantised fields of binary choreo scenes: [min(MAX, max(0, round(value * FACTOR)))] written, [field / FACTOR] read,
    on the kernel's binary64 floats (Fmt/ChoreoQuant.v; sites regenerated from choreo.py in Gen/QuantSites_gen.v).  The stored
    values form a finite domain: every one of them is checked in the kernel. *)
Module CQ := Fmt.ChoreoQuant.
From Coq Require Import Floats.

(** for every site passing the enumeration: each field value 0..MAX is read as a float that is written back as that field *)
Theorem c20_choreo_quantised_field_stable : forall s, CQ.all_stable s = true ->
  forall k, (0 <= k <= CQ.q_max s)%Z -> CQ.quant s (CQ.dequant s k) = Some k.
Proof. exact CQ.quant_dequant. Qed.

(** ... and read again as the same float (second generation identical) *)
Theorem c20_choreo_quantised_value_second_generation : forall s, CQ.all_stable s = true ->
  forall k, (0 <= k <= CQ.q_max s)%Z -> option_map (CQ.dequant s) (CQ.quant s (CQ.dequant s k)) = Some (CQ.dequant s k).
Proof. exact CQ.dequant_second_generation. Qed.

(** the two sites of the pinned tree: factor 255 into a byte (all 256 values), factor 4096 into 16 bits (all 65536 values) *)
Theorem c20_choreo_byte_fields_stable : CQ.all_stable CQ.site_byte = true.
Proof. exact CQ.byte_sites_stable. Qed.
Theorem c20_choreo_absolute_tag_fields_stable : CQ.all_stable CQ.site_abs = true.
Proof. exact CQ.abs_sites_stable. Qed.

(** a reader dividing by 256 where the writer multiplies by 255: field 200 comes back as 199 *)
Theorem c20_choreo_quantisation_factor_mismatch_refuted :
  CQ.all_stable (CQ.mkQ CQ.QRound 255%float true 255 256%float) = false /\
  CQ.quant (CQ.mkQ CQ.QRound 255%float true 255 256%float) (CQ.dequant (CQ.mkQ CQ.QRound 255%float true 255 256%float) 200) = Some 199%Z.
Proof. exact CQ.quant_factor_mismatch_refuted. Qed.

(** * The property, composed.  One statement with its hypotheses visible: the objects regenerated from today's source --
    the cmdseq configuration, the scenes.image configuration, the soundscript stack census, the key census of the writers, the
    quantisation sites -- enter only through the named booleans the check discharges on every run ([cmdseq_cfg_ok], [image_cfg_ok],
    [sndscript_stack_census_ok], the per-table obligations, the quantisation obligation).  Partial: the formats / layers that have a
    model (see docs/C20.md for what is only searched); VMT, text lines and SMD data lines have their own statements above, over the
    tokenizer model. *)
Theorem c20_property_partial :
  forall (c : CS.cfg) (ic : SC.icfg) (A : Type) (g : list SK.gterm) (ws : list SK.wblock) (ts : list DD.dedup_table) (qs : list CQ.qsite),
  CS.cfg_okb c = true -> SC.icfg_okb ic = true -> SK.guard_okb g = true -> SK.blocks_okb ws = true ->
  KT.tables_ok ts = true -> forallb CQ.all_stable qs = true ->
  (* command sequences: written, read back equal, second generation identical *)
  (forall v, CS.repr_okb c v = true -> exists b, CS.write c v = Some b /\ CS.parse c b = Some v /\
                                                 forall v', CS.parse c b = Some v' -> CS.write c v' = Some b) /\
  (* scenes.image: read back equal (sorted by checksum), for both input forms and any dict keys *)
  (forall is_dict version pool kes, SC.image_ok_w version pool (map snd kes) ->
     exists b, SC.img_save_g ic is_dict version pool kes = Some b /\
       SI.img_parse b = Some (version, pool, map (SI.to_pentry version pool) (SI.sort_by_crc (map snd kes)))) /\
  (* binary scenes: every layout decodes what it encoded *)
  (forall l env v b r, CB.enc l env v = Some b -> CB.dec l env (b ++ r) = Some (v, r)) /\
  (* ... and every stored quantised field is stable *)
  (forall s, In s qs -> forall k, (0 <= k <= CQ.q_max s)%Z -> CQ.quant s (CQ.dequant s k) = Some k) /\
  (* soundscript operator stacks: the value comes back *)
  (forall x : SK.sound A, SK.same_value (SK.parse (fst (SK.export g ws x))) x) /\
  (* SMD: the nodes section reads back as the bones, through a table whose key keeps apart what the reader keeps apart *)
  (forall bs ls, NoDup (map SN.bkey bs) -> SN.number bs = Some ls ->
     exists perm, Permutation perm bs /\ SN.read_nodes [] ls = Some (map SN.bone_rec perm)) /\
  (forall name adm fields k, In (name, adm, fields, k) ts -> DD.key_determines adm fields k = true).
Proof.
  intros c ic A g ws ts qs Hc Hic Hg Hws Hts Hqs.
  refine (conj _ (conj _ (conj _ (conj _ (conj _ (conj _ _)))))).
  - intros v Hv. destruct (CSP.file_roundtrip c v Hc (CSP.repr_okb_ok c v Hv)) as (b & Hw & Hp). exists b. repeat split; try assumption.
    intros v' Hp'. exact (CSP.second_generation c v b v' Hc (CSP.repr_okb_ok c v Hv) Hw Hp').
  - intros is_dict version pool kes Hok. exact (SCP.save_g_roundtrip ic is_dict version pool kes Hic Hok).
  - exact CBP.dec_enc.
  - intros s Hs k Hk. rewrite forallb_forall in Hqs. exact (CQ.quant_dequant s (Hqs s Hs) k Hk).
  - intro x. exact (SKP.parse_export_same_value A g ws x Hg Hws).
  - exact SNP.number_reads_back_distinct.
  - intros name adm fields k Hin. unfold KT.tables_ok in Hts. rewrite forallb_forall in Hts. exact (Hts _ Hin).
Qed.

(** * VMT sub-blocks and proxies (VB := Fmt.VmtBlocks).  vmt._write_block is recursive: a block with children is written as
    OPEN, its children at the indent extended by STEP, CLOSE; a block without children as LEAF.  The three templates, the step, the
    indents Material.export starts with and the frame of the Proxies block are regenerated from vmt.py (Gen/VmtBlocks_gen.v, the
    control flow is matched fail-closed); the check discharges [bcfg_okb] (self-delimiting items, whitespace indents) and
    [bcfg_shape_okb] (the templates are  "name" NL { NL / } NL / "name" "value" NL) for the generated configuration and compares
    [vmt_file_b] with Material.export on generated materials.  Names and values are written raw between quotes (Material.parse reads
    with escapes disabled; the tokenizer model un-escapes, so [tree_ok] excludes quote, backslash and line break). *)
Module VB := Fmt.VmtBlocks.
Module VBP := Fmt.VmtBlocksProofs.

(** one block with all its descendants, at any whitespace indent and any line: lexed as exactly the tokens of its templates *)
Theorem c20_vmt_block_reads_back : forall E c, KvSym.esc_ok E = true -> VB.bcfg_okb c = true ->
  forall t ind l, KvSym.ws_only ind = true -> VB.tree_ok c t = true ->
  exists l', KvLexProofs.lexes E l (VB.write_block E c ind t) (VB.block_toks c t) l'.
Proof. exact VBP.block_lexes. Qed.

(** the whole file of a material with parameters, sub-blocks and proxies (extends c20_vmt_file_reads_back_partial) *)
Theorem c20_vmt_file_with_blocks_reads_back_partial : forall E c, KvSym.esc_ok E = true -> VB.bcfg_okb c = true ->
  forall q shader ps blocks proxies, VQ.nq_okb q = true -> VQP.shader_ok shader = true -> VQP.params_ok q ps = true ->
  forallb (VB.tree_ok c) blocks = true -> forallb (VB.tree_ok c) proxies = true ->
  KvLex.lex_all E (VB.vmt_file_b E c q shader ps blocks proxies) = (VB.vmt_tokens_b c shader ps blocks proxies, None).
Proof. exact VBP.vmt_file_b_reads_back. Qed.

(** for templates of the expected shape those tokens are the canonical token stream of the tree ... *)
Theorem c20_vmt_block_tokens_canonical : forall c, VB.bcfg_shape_okb c = true -> forall t, VB.block_toks c t = VB.kv_toks t.
Proof. exact VBP.block_toks_canonical. Qed.

(** ... which a recursive-descent reader of block lists turns back into exactly the trees (with enough fuel; what follows the closing
    brace is left), so the tokens determine the blocks *)
Theorem c20_vmt_blocks_read_back_as_trees : forall ts st,
  VBP.reads (flat_map VB.kv_toks ts ++ [KvBase.TBC; KvBase.TNL] ++ st) ts st.
Proof. exact VBP.read_blocks_kv. Qed.
Theorem c20_vmt_block_tokens_determine_blocks : forall ts1 ts2 st,
  flat_map VB.kv_toks ts1 ++ [KvBase.TBC; KvBase.TNL] ++ st = flat_map VB.kv_toks ts2 ++ [KvBase.TBC; KvBase.TNL] ++ st -> ts1 = ts2.
Proof. exact VBP.kv_toks_determine_blocks. Qed.

(** refuted: a leaf template that does not quote the value, a close template without the brace *)
Theorem c20_vmt_block_leaf_without_quotes_refuted :
  VB.bcfg_shape_okb (VB.mkB (VB.b_open VB.ref_bcfg) (VB.b_close VB.ref_bcfg) [TL.IInd; TL.IQRaw; TL.IWs [32%N]; TL.IBare 10%N] [9%N] [9%N]
                       (VB.b_prox_open VB.ref_bcfg) (VB.b_prox_close VB.ref_bcfg) [9; 9]%N) = false.
Proof. exact VBP.leaf_without_quotes_refuted. Qed.
Theorem c20_vmt_block_close_without_brace_refuted :
  VB.bcfg_shape_okb (VB.mkB (VB.b_open VB.ref_bcfg) [TL.IInd; TL.INl] (VB.b_leaf VB.ref_bcfg) [9%N] [9%N]
                       (VB.b_prox_open VB.ref_bcfg) (VB.b_prox_close VB.ref_bcfg) [9; 9]%N) = false.
Proof. exact VBP.close_without_brace_refuted. Qed.

(** * The property with ONE hypothesis.  [P.gen_objects] is the record of everything the seven translators regenerate from
    today's source (cmdseq configuration, scenes.image configuration, soundscript version-2 test and stack blocks, keyed tables of the
    writers, quantisation sites, VMT quoting table and block templates, the structured lines of the soundscript and choreo text writers, the SMD lines);
    [P.premises] is the conjunction of the named booleans.  The check discharges [P.premises] for the record built from the Gen files
    on every run (obligation [c20_property_premises_hold_for_the_objects_regenerated_from_todays_source]); nothing else is assumed
    about the source.  What remains trusted is what gives the objects their meaning: the translators, the hand models behind
    [CS.write] / [SC.img_save_s] / [CB.enc] / [SK.export] / [SN.number] / [VQ.vmt_file] / [TL.render] / [SW.render] (each compared with the
    implementation on every run) and the tokenizer model of C01.  Compared with [c20_property_partial] it adds: the pool the
    scenes.image writer builds, independence of caller order, sortedness of the stored table, second generation of binary layouts and
    of soundscript stacks, independence of lazy reads, VMT files incl. sub-blocks and proxies, all structured text lines, all SMD lines. *)
Module P := Fmt.C20Property.
Theorem c20_property :
  forall g : P.gen_objects, P.premises g = true ->
  (* command sequences: written, read back equal, second generation identical *)
  (forall v, CS.repr_okb (P.g_cmdseq g) v = true -> exists b, CS.write (P.g_cmdseq g) v = Some b /\ CS.parse (P.g_cmdseq g) b = Some v /\
     forall v', CS.parse (P.g_cmdseq g) b = Some v' -> CS.write (P.g_cmdseq g) v' = Some b) /\
  (* scenes.image: read back equal, table sorted by checksum, for both input forms and any dict keys *)
  (forall is_dict version pool kes, SC.image_ok_w version pool (map snd kes) ->
     exists b ps, SC.img_save_g (P.g_image g) is_dict version pool kes = Some b /\
       SI.img_parse b = Some (version, pool, ps) /\ ps = map (SI.to_pentry version pool) (SI.sort_by_crc (map snd kes)) /\
       StronglySorted N.le (map SI.p_crc ps)) /\
  (* ... with the string pool the writer builds itself, every sound comes back as its string *)
  (forall is_dict version pool0 kes, let pool := SC.pool_g (P.g_image g) is_dict pool0 kes in
     SC.image_ok_w version pool (map (SC.resolve pool) (map snd kes)) ->
     exists b, SC.img_save_s (P.g_image g) is_dict version pool0 kes = Some b /\
       SI.img_parse b = Some (version, pool, map (SC.to_pentry_s version) (SC.sort_by SC.s_crc (map snd kes)))) /\
  (* ... and equal images give identical files *)
  (forall d1 d2 version pool0 kes1 kes2, Permutation (map snd kes1) (map snd kes2) -> NoDup (map SC.s_crc (map snd kes1)) ->
     SC.img_save_s (P.g_image g) d1 version pool0 kes1 = SC.img_save_s (P.g_image g) d2 version pool0 kes2) /\
  (* binary scenes: every layout decodes what it encoded, the second generation is identical, every stored quantised field is stable *)
  (forall l env v b r, CB.enc l env v = Some b -> CB.dec l env (b ++ r) = Some (v, r)) /\
  (forall l env v b v' r, CB.enc l env v = Some b -> CB.dec l env (b ++ r) = Some (v', r) -> CB.enc l env v' = Some b) /\
  (forall s, In s (P.g_quant g) -> forall k, (0 <= k <= CQ.q_max s)%Z -> CQ.quant s (CQ.dequant s k) = Some k) /\
  (* soundscript operator stacks: the value comes back, identically the second time, whatever lazy property was read before *)
  (forall (A : Type) (x : SK.sound A), SK.same_value (SK.parse (fst (SK.export (P.g_snd_guard g) (P.g_snd_blocks g) x))) x /\
     fst (SK.export (P.g_snd_guard g) (P.g_snd_blocks g) (SK.parse (fst (SK.export (P.g_snd_guard g) (P.g_snd_blocks g) x))))
       = fst (SK.export (P.g_snd_guard g) (P.g_snd_blocks g) x) /\
     forall ts, fst (SK.export (P.g_snd_guard g) (P.g_snd_blocks g) (SK.touches ts x)) = fst (SK.export (P.g_snd_guard g) (P.g_snd_blocks g) x)) /\
  (* SMD: the nodes section reads back as the bones; every writer table has a key that determines what the reader identifies *)
  (forall bs ls, NoDup (map SN.bkey bs) -> SN.number bs = Some ls ->
     exists perm, Permutation perm bs /\ SN.read_nodes [] ls = Some (map SN.bone_rec perm)) /\
  (forall name adm fields k, In (name, adm, fields, k) (P.g_tables g) -> DD.key_determines adm fields k = true) /\
  (* SMD: every other written line splits at whitespace into exactly its fields; the bone line is read back by the reader's pattern *)
  (forall l, In l (P.g_smd_lines g) ->
     (SW.delim true l = true /\ forall ps, map fst ps = l -> SW.values_wordy ps = true -> SW.words (SW.render ps) = SW.fields ps) \/
     (SW.nodes_line_shape l = true /\ forall a b idx nm par, l = [ST.ConvInt; ST.Lit a; ST.ConvStr; ST.Lit b; ST.ConvInt] ->
        SW.all_digits idx = true -> forallb (fun c => negb (c =? 34)%N) nm = true -> SW.int_text par = true ->
        SW.parse_nodes (SW.render [(ST.ConvInt, idx); (ST.Lit a, []); (ST.ConvStr, nm); (ST.Lit b, []); (ST.ConvInt, par)])
        = Some (idx, nm, par))) /\
  (* VMT (parameter-only materials): the file is read as shader, brace, the pairs in order, brace; the file determines the material *)
  (forall E shader ps, VQP.shader_ok shader = true -> VQP.params_ok (P.g_vmt_nq g) ps = true ->
     KvLex.lex_all E (VQ.vmt_file (P.g_vmt_nq g) shader ps) = (VQ.vmt_tokens shader ps, None)) /\
  (forall s1 p1 s2 p2, VQP.shader_ok s1 = true -> VQP.params_ok (P.g_vmt_nq g) p1 = true -> VQP.shader_ok s2 = true ->
     VQP.params_ok (P.g_vmt_nq g) p2 = true -> VQ.vmt_file (P.g_vmt_nq g) s1 p1 = VQ.vmt_file (P.g_vmt_nq g) s2 p2 -> s1 = s2 /\ p1 = p2) /\
  (* VMT with sub-blocks and proxies: the file is read as shader, brace, the pairs, the canonical tokens of every block (name, brace,
     children, brace / name, value), the Proxies frame with its blocks, brace; and a reader of such tokens gives the trees back *)
  (forall E shader ps blocks proxies, KvSym.esc_ok E = true -> VQP.shader_ok shader = true -> VQP.params_ok (P.g_vmt_nq g) ps = true ->
     forallb (VB.tree_ok (P.g_vmt_blocks g)) blocks = true -> forallb (VB.tree_ok (P.g_vmt_blocks g)) proxies = true ->
     KvLex.lex_all E (VB.vmt_file_b E (P.g_vmt_blocks g) (P.g_vmt_nq g) shader ps blocks proxies)
       = (VB.vmt_tokens_b (P.g_vmt_blocks g) shader ps blocks proxies, None) /\
     (forall t, VB.block_toks (P.g_vmt_blocks g) t = VB.kv_toks t) /\
     (forall st, VBP.reads (flat_map VB.kv_toks blocks ++ [KvBase.TBC; KvBase.TNL] ++ st) blocks st)) /\
  (* soundscripts and text scenes: every structured line the writers can emit is lexed back as its keywords and field values *)
  (forall E ind its vs l, KvSym.esc_ok E = true -> KvSym.ws_only ind = true -> In its (P.g_snd_lines g ++ P.g_cho_lines g) ->
     TL.vals_ok its vs = true -> KvLexProofs.lexes E l (TL.render E ind its vs) (TL.toks its vs) (TL.lines its l)).
Proof. exact Fmt.C20PropertyProofs.property. Qed.

(** the premise is satisfiable (a record of the shape generated for the pinned tree) and rejects the classes of the seeded faults:
    table ordered by the dict keys (c20_1, 3, 5, 7), version-2 test by presence of a lazy stack (c20_4, 8), bones compared through
    casefold (c20_6) *)
Theorem c20_property_premises_satisfiable : P.premises Fmt.C20PropertyProofs.pinned_objects = true.
Proof. exact Fmt.C20PropertyProofs.premises_satisfiable. Qed.
