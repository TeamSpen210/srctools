(** C09 — copies of map objects are complete and independent of their source; operators that produce a new
    value leave their operands unchanged.  The statements, with the proofs that are a few lines; the others are in
    SM/Store*Proofs.v, SM/StoreExamples.v, SM/KvAdd*Proofs.v, SM/OpPurityProofs.v, SM/CollapseCensusProofs.v.
    The census objects come from Gen/CopyCensus_gen.v (regenerated from vmf.py / keyvalues.py on every run);
    the check discharges [copy_fresh_mutables census_X = true] and [copy_covers_fields census_X = true]
    per class as instance obligations, and [export_ok ... = true] for heaps exported from real objects. *)
From Coq Require Import List ZArith Bool String FMapPositive.
From SV Require Import SM.Store SM.StoreProofs SM.StoreCert SM.StoreCertProofs SM.StoreCopy SM.StoreCopyProofs
  SM.StoreExamples SM.KvAdd SM.KvAddProofs SM.StoreCopySrc SM.StoreCopySrcProofs SM.KvAddFresh SM.KvAddFreshProofs
  SM.StoreCopyExport SM.StoreCopyExportProofs SM.StoreCopyFlow SM.StoreCopyFlowProofs SM.StoreCopyWholeProofs SM.StoreRowCert SM.StoreRowCertProofs SM.StoreExportCert SM.StoreExportCertProofs SM.StoreTypedLabels SM.StoreTypedLabelsProofs SM.StoreCondRow SM.StoreCondRowProofs SM.StorePickleState SM.StorePickleStateProofs SM.StorePickleShort SM.StorePickleShortProofs SM.OpPurity SM.OpPurityProofs SM.CollapseCensus SM.CollapseCensusProofs SM.InstanceFromEntity
  Gen.CopyCensus_gen Gen.CopyExportReads_gen Gen.C09OpCensus_gen Gen.C09Collapse_gen.
Import ListNotations.

(** FRAME THEOREM.  If no mutable location is reachable both from [a] and from the roots [R] a mutator
    holds, then after EVERY sequence of in-place stores and allocations performed through those roots,
    everything reachable from [a] is untouched, the separation still holds, and ... *)
Theorem c09_frame_steps : forall ms h R h' R' a,
  closed h -> alloc h a -> roots_alloc h R -> sep h a R -> steps (h, R) ms (h', R') ->
  (forall l, reach h a l -> h' l = h l) /\ sep h' a R' /\ closed h' /\ roots_alloc h' R'.
Proof. exact frame_steps. Qed.

(** ... the observation (unfolding to any depth = what export can see) of [a] is unchanged. *)
Theorem c09_frame_observation : forall ms h R h' R' a,
  closed h -> alloc h a -> roots_alloc h R -> sep h a R -> steps (h, R) ms (h', R') ->
  forall n, unfold n h' (VRef a) = unfold n h (VRef a).
Proof. exact frame_observation. Qed.

(** "And vice versa": separation is symmetric. *)
Theorem c09_separation_symmetric : forall h a b, sep h a [b] -> sep h b [a].
Proof. exact sep_sym. Qed.

(** The premise is necessary: one shared mutable node, one store through the other object, and the
    observation of the first changes. *)
Theorem c09_frame_needs_separation :
  exists h', steps (shared_heap, [2%positive]) [MStore 3%positive [VAtom 0%Z]] (h', [2%positive]) /\
             unfold 2 h' (VRef 1%positive) <> unfold 2 shared_heap (VRef 1%positive).
Proof.
  eexists. split.
  - eapply store_field_steps; [reflexivity|left; reflexivity|reflexivity|reflexivity|]. intros v [<-|[]]. exact I.
  - cbv. discriminate.
Qed.

(** Kernel-checkable certificate: a finite heap exported from real objects (original [a], copy [b]) that
    passes [export_ok] is independent in both directions under every mutation history. *)
Theorem c09_export_ok_independent : forall l a b SA SB,
  export_ok l a b SA SB = true ->
  let h := hof (mk_heap l) in
  (forall ms h' R', steps (h, [b]) ms (h', R') -> forall n, unfold n h' (VRef a) = unfold n h (VRef a)) /\
  (forall ms h' R', steps (h, [a]) ms (h', R') -> forall n, unfold n h' (VRef b) = unfold n h (VRef b)).
Proof.
  intros l a b SA SB H h. unfold export_ok in H. rewrite andb_true_iff in H. destruct H as [Hcl Hcert].
  destruct (cert_ok_sound _ _ _ _ _ Hcert) as (Ha & Hb & Hsep).
  exact (sep_independent h a b (heap_closed_sound l Hcl) Ha Hb Hsep).
Qed.

(** Copy census ⟹ independence: a copy built field by field as the census says (each field's kind and
    "how" having their heap meaning), with every field passing [field_fresh], is independent of its original
    under every mutation history, in both directions. *)
Theorem c09_census_copy_independent : forall (c : census) h h' la lc nd nd',
  closed h -> closed h' -> extends h h' -> h la = Some nd -> h lc = None -> h' lc = Some nd' ->
  copy_fresh_mutables c = true ->
  fields_rel h h' (ck c) (nfields nd) (nfields nd') ->
  (forall ms h'' R, steps (h', [lc]) ms (h'', R) -> forall n, unfold n h'' (VRef la) = unfold n h' (VRef la)) /\
  (forall ms h'' R, steps (h', [la]) ms (h'', R) -> forall n, unfold n h'' (VRef lc) = unfold n h' (VRef lc)).
Proof. exact census_copy_independent. Qed.

(** The nested-copy hypothesis ([HDeep] fields) is the conclusion of the same theorem one level down. *)
Theorem c09_census_copy_new_mut : forall (c : census) h h' la lc nd nd',
  closed h -> extends h h' -> h la = Some nd -> h lc = None -> h' lc = Some nd' ->
  copy_fresh_mutables c = true ->
  fields_rel h h' (ck c) (nfields nd) (nfields nd') ->
  new_mut h h' (VRef lc).
Proof. exact census_copy_new_mut. Qed.

(** The hypotheses of the census theorem are satisfiable (a two-field object copied share/deep). *)
Theorem c09_census_theorem_not_vacuous :
  let h := hof (mk_heap ex_l) in let h' := hof (mk_heap ex_l') in
  (forall ms h'' R, steps (h', [3%positive]) ms (h'', R) -> forall n, unfold n h'' (VRef 1%positive) = unfold n h' (VRef 1%positive)) /\
  (forall ms h'' R, steps (h', [1%positive]) ms (h'', R) -> forall n, unfold n h'' (VRef 3%positive) = unfold n h' (VRef 3%positive)).
Proof. exact census_copy_independent_applies. Qed.

(** A shared mutable field (what [field_fresh] rejects) really breaks the separation. *)
Theorem c09_shared_mutable_field_not_separated :
  let h' : heap := fun l => match l with
      | 1%positive => Some (Node true [VRef 3%positive]) | 2%positive => Some (Node true [VRef 3%positive])
      | 3%positive => Some (Node true [VAtom 255%Z]) | _ => None end in
  field_fresh KMut HShare = false /\ ~ sep h' 1%positive [2%positive].
Proof.
  cbn. split; [reflexivity|].
  eapply shared_field_not_sep; [reflexivity|left; reflexivity|reflexivity|left; reflexivity|reflexivity|reflexivity].
Qed.

(** Completeness composes: a shared field is observed equal; a copy whose fields are observed equal is
    observed equal to its original at every depth. *)
Theorem c09_share_obs_eq : forall h h' v, closed h -> extends h h' -> val_alloc h v -> obs_eq h h' v v.
Proof.
  intros h h' v Hc He Hv n. destruct v as [z|r]; [destruct n; reflexivity|].
  apply (unfold_agree h h' r); [|constructor]. intros x Hx. eapply extends_agree; eauto.
Qed.

Theorem c09_node_obs_eq : forall h h' a c nd nd',
  h a = Some nd -> h' c = Some nd' -> nmut nd' = nmut nd ->
  Forall2 (obs_eq h h') (nfields nd) (nfields nd') -> obs_eq h h' (VRef a) (VRef c).
Proof.
  intros h h' a c nd nd' Ha Hc Hm Hf n. destruct n as [|n]; [reflexivity|].
  cbn [unfold]. rewrite Ha, Hc, Hm. f_equal.
  induction Hf as [|v v' vs vs' Hv Hvs IH]; [reflexivity|]. cbn [map]. rewrite (Hv n), IH. reflexivity.
Qed.

(** A field copy() never sets is observable as soon as the original differs from the default. *)
Theorem c09_missing_field_observable :
  let h : heap := fun l => match l with 1%positive => Some (Node true [VAtom 5%Z]) | _ => None end in
  let h' : heap := fun l => match l with 1%positive => Some (Node true [VAtom 5%Z])
                                    | 2%positive => Some (Node true [VAtom 0%Z]) | _ => None end in
  extends h h' /\ how_sem HMissing h h' (VAtom 5%Z) (VAtom 0%Z) /\ ~ obs_eq h h' (VRef 1%positive) (VRef 2%positive).
Proof.
  cbn. split; [|split].
  - intros l nd. destruct l as [l|l|]; try discriminate. auto.
  - intros l [].
  - intros H. specialize (H 1%nat). cbv in H. discriminate.
Qed.

(** The census booleans mean what they say, for every class of the generated table at once. *)
Definition all_fresh : bool := forallb (fun p => copy_fresh_mutables (snd p)) all_census.
Definition all_covered : bool := forallb (fun p => copy_covers_fields (snd p)) all_census.

Theorem c09_all_classes_fresh : all_fresh = true ->
  forall cls c f k w, In (cls, c) all_census -> In (f, k, w) c -> field_fresh k w = true.
Proof.
  unfold all_fresh. rewrite forallb_forall. intros H cls c f k w Hc Hf.
  exact (fresh_all_fields c (H _ Hc) f k w Hf).
Qed.

Theorem c09_all_classes_covered : all_covered = true ->
  forall cls c f k w, In (cls, c) all_census -> In (f, k, w) c -> w <> HMissing.
Proof.
  unfold all_covered. rewrite forallb_forall. intros H cls c f k w Hc Hf.
  exact (covers_all_fields c (H _ Hc) f k w Hf).
Qed.

(** Keyvalues '+': pure and complete exactly when every append goes to the copy and the copy is returned
    (receivers read from keyvalues.py); '+=' extends self. *)
Theorem c09_kv_add_pure : forall (A : Type) r1 r2 ret,
  recv_is_copy r1 && recv_is_copy r2 && recv_is_copy ret = true ->
  forall single (self other : list A), kv_add r1 r2 ret single self other = (self, (self ++ other)%list).
Proof. exact @kv_add_pure. Qed.

(** The pinned code appends to self in the iterable branch: operand changed, result incomplete. *)
Theorem c09_kv_add_self_receiver_refuted : kv_add RCopy RSelf RCopy false [1%nat] [2%nat] = ([1%nat; 2%nat], [1%nat]).
Proof. reflexivity. Qed.

Theorem c09_kv_iadd_extends_self : forall (A : Type) r1 r2,
  negb (recv_is_copy r1) && negb (recv_is_copy r2) = true ->
  forall single (self other : list A), kv_iadd r1 r2 single self other = (self ++ other)%list.
Proof. intros A [|] [|] H; try discriminate. intros [|] self other; reflexivity. Qed.

(** census with SOURCES.  The generated table also records from which fields of the original each
    field of the copy is built ([sources_X]); [copy_sources_match] (instance obligation per class) demands that
    every field that carries the original's value is built from exactly its own field.  Then the positional
    relation [fields_rel_src] (field i of the copy comes from field [src i] of the original) is the field-by-field
    relation [c09_census_copy_independent] assumes, and independence follows as before. *)
Theorem c09_sources_fields_rel : forall h h' (c : census) (s : srcmap) orig vs',
  copy_sources_match c s = true -> kinds_rel h c orig ->
  fields_rel_src h h' orig (resolve c s) vs' -> fields_rel h h' (ck c) orig vs'.
Proof. exact sources_fields_rel. Qed.

Theorem c09_census_src_copy_independent : forall (c : census) (s : srcmap) h h' la lc nd nd',
  closed h -> closed h' -> extends h h' -> h la = Some nd -> h lc = None -> h' lc = Some nd' ->
  copy_fresh_mutables c = true -> copy_sources_match c s = true ->
  kinds_rel h c (nfields nd) ->
  fields_rel_src h h' (nfields nd) (resolve c s) (nfields nd') ->
  (forall ms h'' R, steps (h', [lc]) ms (h'', R) -> forall n, unfold n h'' (VRef la) = unfold n h' (VRef la)) /\
  (forall ms h'' R, steps (h', [la]) ms (h'', R) -> forall n, unfold n h'' (VRef lc) = unfold n h' (VRef lc)).
Proof. exact census_src_copy_independent. Qed.

(** Without the source check a census can be fresh and covered and the copy still observably wrong
    (the shape of the seeded fault [multi_alpha=vert.multi_blend]). *)
Theorem c09_wrong_source_observable_refuted :
  copy_fresh_mutables ws_census = true /\ copy_covers_fields ws_census = true /\
  copy_sources_match ws_census ws_sources = false /\ wrong_source ws_census ws_sources = ["multi_alpha"%string] /\
  fields_rel_src ws_h ws_h' [VAtom 5%Z; VAtom 7%Z] (resolve ws_census ws_sources) [VAtom 5%Z; VAtom 5%Z] /\
  ~ obs_eq ws_h ws_h' (VRef 1%positive) (VRef 2%positive).
Proof.
  split; [reflexivity|]. split; [reflexivity|]. split; [reflexivity|]. split; [reflexivity|]. split.
  - cbn. constructor; [|constructor; [|constructor]].
    + exists 0%nat, (VAtom 5%Z). cbn. auto.
    + exists 0%nat, (VAtom 5%Z). cbn. auto.
  - intros H. specialize (H 1%nat). cbv in H. discriminate.
Qed.

Definition all_sources_match : bool :=
  forallb (fun p => match find (fun q => String.eqb (fst q) (fst p)) all_sources with
                    | Some q => copy_sources_match (snd p) (snd q) | None => false end) all_census.

(** Keyvalues '+' / '+=': with copies appended in BOTH branches (flags read from keyvalues.py, one per append
    site) the result is complete, the left operand unchanged, and no child of the right operand is in the
    result; '+=' likewise. *)
Theorem c09_kv_add_ids_fresh : forall (A : Type) (cp : A -> A) r1 r2 ret cs ci,
  recv_is_copy r1 && recv_is_copy r2 && recv_is_copy ret = true -> cs && ci = true ->
  forall single (self other : list A),
    kv_add_ids cp r1 r2 ret cs ci single self other = (self, (self ++ map cp other)%list) /\
    ((forall x y, In y other -> cp x <> y) -> forall x, In x (map cp other) -> ~ In x other).
Proof.
  intros A cp r1 r2 ret cs ci Hr Hc single self other. split.
  - unfold kv_add_ids. rewrite (kv_added_copied cp cs ci single other Hc). apply kv_add_pure. exact Hr.
  - intros Hf x Hx Hin. apply in_map_iff in Hx. destruct Hx as (x0 & <- & _). exact (Hf x0 _ Hin eq_refl).
Qed.

Theorem c09_kv_iadd_ids_fresh : forall (A : Type) (cp : A -> A) r1 r2 cs ci,
  negb (recv_is_copy r1) && negb (recv_is_copy r2) = true -> cs && ci = true ->
  forall single (self other : list A), kv_iadd_ids cp r1 r2 cs ci single self other = (self ++ map cp other)%list.
Proof.
  intros A cp r1 r2 cs ci Hr Hc single self other.
  unfold kv_iadd_ids. rewrite (kv_added_copied cp cs ci single other Hc). apply c09_kv_iadd_extends_self. exact Hr.
Qed.

(** The seeded shape: the (deprecated) single-Keyvalues branch appends the operand itself — the result's last
    child IS the operand (identity 7), although the iterable branch is fine. *)
Theorem c09_kv_add_single_branch_shares_refuted :
  kv_add_ids (fun x => (x + 100)%nat) RCopy RCopy RCopy false true true [1%nat] [7%nat] = ([1%nat], [1%nat; 7%nat]) /\
  kv_add_ids (fun x => (x + 100)%nat) RCopy RCopy RCopy false true false [1%nat] [7%nat] = ([1%nat], [1%nat; 107%nat]).
Proof. split; reflexivity. Qed.

(** COMPLETENESS AS EXPORT EQUALITY.  [export_reads_X] (Gen/CopyExportReads_gen.v) = the data fields the
    export of class X reads; the observation is the unfolding with unread / ID / context positions masked.  If
    every observed field of the census passes [copy_export_ok] (carried over, from its own field) and the copy's
    fields are related to the original's as the census says — shared, fresh container of the same elements, or a
    nested copy that itself exports equally (this theorem one level down) — the copy exports like the original. *)
Theorem c09_copy_export_equal : forall (mk : loc -> list bool) (c : census) (s : srcmap) (reads : list string)
    h h' la lc nd nd',
  closed h -> extends h h' -> h la = Some nd -> h' lc = Some nd' -> nmut nd' = nmut nd ->
  mk la = obs_mask c reads -> mk lc = obs_mask c reads ->
  List.length (nfields nd) = List.length c ->
  copy_export_ok c s reads = true ->
  fields_rel_c mk h h' (nfields nd) (eresolve c s reads) (nfields nd') ->
  mobs_eq mk h h' (VRef la) (VRef lc).
Proof. exact copy_export_equal. Qed.

(** ... hence every export function that depends only on the observation yields the same text. *)
Theorem c09_copy_export_text_equal : forall (T : Type) (mk : loc -> list bool) (E : tree -> T)
    (c : census) (s : srcmap) (reads : list string) h h' la lc nd nd',
  closed h -> extends h h' -> h la = Some nd -> h' lc = Some nd' -> nmut nd' = nmut nd ->
  mk la = obs_mask c reads -> mk lc = obs_mask c reads ->
  List.length (nfields nd) = List.length c ->
  copy_export_ok c s reads = true ->
  fields_rel_c mk h h' (nfields nd) (eresolve c s reads) (nfields nd') ->
  forall n, E (munfold mk n h' (VRef lc)) = E (munfold mk n h (VRef la)).
Proof. intros. f_equal. eapply copy_export_equal; eauto. Qed.

(** All classes at once: every census of the generated table passes [copy_export_ok] against the export reads of its
    class (nested copies — the [HDeep] hypotheses of [c09_copy_export_equal] — are censuses of the same table). *)
Definition lookup {A} (k : string) (l : list (string * A)) : option A :=
  option_map snd (find (fun q => String.eqb (fst q) k) l).
Definition all_export_ok : bool :=
  forallb (fun p => match lookup (fst p) all_sources, lookup (fst p) class_of_label with
                    | Some s, Some cls => match lookup cls all_export_reads with
                                          | Some reads => copy_export_ok (snd p) s reads && reads_are_fields (snd p) reads
                                          | None => false end
                    | _, _ => false end) all_census.

Theorem c09_all_classes_export_ok : all_export_ok = true ->
  forall label c, In (label, c) all_census ->
  exists s cls reads, lookup label all_sources = Some s /\ lookup label class_of_label = Some cls /\
                      lookup cls all_export_reads = Some reads /\ copy_export_ok c s reads = true.
Proof.
  unfold all_export_ok. rewrite forallb_forall. intros H label c Hin. specialize (H _ Hin). cbn [fst snd] in H.
  destruct (lookup label all_sources) as [s|] eqn:E1; [|discriminate].
  destruct (lookup label class_of_label) as [cls|] eqn:E2; [|discriminate].
  destruct (lookup cls all_export_reads) as [reads|] eqn:E3; [|discriminate].
  apply andb_true_iff in H. destruct H as [H _]. exists s, cls, reads. repeat split; assumption.
Qed.

Theorem c09_copy_export_equal_not_vacuous :
  copy_export_ok ex_census ex_src_good ex_reads = true /\
  mobs_eq ex_mk ex_h (ex_h' 7%Z) (VRef 1%positive) (VRef 2%positive).
Proof. exact copy_export_equal_applies. Qed.

(** The wrong-source census is rejected, and the copy it describes does NOT export like the original
    (new IDs alone, by contrast, are invisible: see [copy_export_equal_applies]). *)
Theorem c09_copy_export_wrong_source_refuted :
  copy_export_ok ex_census ex_src_bad ex_reads = false /\
  export_broken ex_census ex_src_bad ex_reads = ["alpha"%string] /\
  ~ mobs_eq ex_mk ex_h (ex_h' 5%Z) (VRef 1%positive) (VRef 2%positive).
Proof.
  split; [reflexivity|]. split; [reflexivity|]. intros H. specialize (H 1%nat). cbv in H. discriminate.
Qed.

(** OPERATOR PURITY (Vec / Angle / Matrix).  [op_census_X] (Gen/C09OpCensus_gen.v) lists for every operator
    method, as inherited by each concrete class, the origins of the objects it may write and return.  A run of a
    method none of whose stores is tagged with an operand origin leaves EVERY pre-existing object observed unchanged
    (both operands in particular) and returns only objects that did not exist before; a run of an in-place operator
    leaves everything separated from the receiver unchanged. *)
Theorem c09_pure_op_frame : forall slf ps h tr h' F',
  closed h -> trun slf ps (h, []) tr (h', F') ->
  (forall o, In o (map snd tr) -> is_operand o = false) ->
  (forall a, alloc h a -> forall n, unfold n h' (VRef a) = unfold n h (VRef a)) /\
  (forall r, In r F' -> h r = None).
Proof. exact pure_op_frame. Qed.

Theorem c09_inplace_op_frame : forall slf ps h tr h' F',
  closed h -> alloc h slf -> trun slf ps (h, []) tr (h', F') ->
  (forall o, In o (map snd tr) -> o = OSelf \/ is_operand o = false) ->
  forall b, alloc h b -> sep h b [slf] -> forall n, unfold n h' (VRef b) = unfold n h (VRef b).
Proof. exact inplace_op_frame. Qed.

(** The same, from a census row: [row_writes_ok] + "the row lists every origin a run can write". *)
Theorem c09_census_pure_op_frame : forall (r : oprow) slf ps h tr h' F',
  op_kind r = OpPure -> row_writes_ok r = true ->
  (forall o, In o (map snd tr) -> In o (op_writes r)) ->
  closed h -> trun slf ps (h, []) tr (h', F') ->
  (forall a, alloc h a -> forall n, unfold n h' (VRef a) = unfold n h (VRef a)) /\
  (forall x, In x F' -> h x = None).
Proof.
  intros r slf ps h tr h' F' Hk Hok Hsub Hc Hr. apply (pure_op_frame slf ps h tr h' F' Hc Hr).
  intros o Ho. exact (writes_ok_pure r Hk Hok o (Hsub o Ho)).
Qed.

Theorem c09_census_inplace_op_frame : forall (r : oprow) slf ps h tr h' F',
  op_kind r = OpInplace -> row_writes_ok r = true ->
  (forall o, In o (map snd tr) -> In o (op_writes r)) ->
  closed h -> alloc h slf -> trun slf ps (h, []) tr (h', F') ->
  forall b, alloc h b -> sep h b [slf] -> forall n, unfold n h' (VRef b) = unfold n h (VRef b).
Proof.
  intros r slf ps h tr h' F' Hk Hok Hsub Hc Hs Hr. apply (inplace_op_frame slf ps h tr h' F' Hc Hs Hr).
  intros o Ho. exact (writes_ok_inplace r Hk Hok o (Hsub o Ho)).
Qed.

(** Every pure-operator row of the generated census passes, for all three families at once. *)
Theorem c09_all_ops_pure : ops_store_nothing_to_operands op_census_all = true ->
  forall r, In r op_census_all -> op_kind r = OpPure -> forall o, In o (op_writes r) -> is_operand o = false.
Proof.
  unfold ops_store_nothing_to_operands. rewrite forallb_forall. intros H r Hr Hk.
  apply writes_ok_pure; [exact Hk|]. apply H. apply filter_In. split; [exact Hr|]. rewrite Hk. reflexivity.
Qed.

(** What the census rejects is a real change of an operand. *)
Theorem c09_operand_write_observable_refuted :
  row_writes_ok (mkop "Vec.__add__" OpPure true [OParam] [OParam]) = false /\
  exists h', trun 1%positive [2%positive] (op_h, []) [(MStore 2%positive [VAtom 3%Z], OParam)] (h', []) /\
             unfold 1 h' (VRef 2%positive) <> unfold 1 op_h (VRef 2%positive).
Proof.
  split; [reflexivity|]. eexists. split.
  - eapply tr_cons; [|apply tr_nil]. eapply ts_store with (nd := Node true [VAtom 2%Z]); try reflexivity.
    + exists 2%positive. split; [left; reflexivity|constructor].
    + intros v [<-|[]]. exact I.
  - cbv. discriminate.
Qed.

(** INSTANCING.  [collapse_writes] / [collapse_enters] / [collapse_copies] (Gen/C09Collapse_gen.v) classify
    every store, every value entering a non-local object and every copy in instancing.collapse_one.  A run whose
    stores and stored values are never tagged [CTemplate] leaves a template that shared no mutable object with the
    target beforehand observed unchanged, at every depth (collapse_one is an in-place operator on the target with the
    template as a read-only operand; the copies it makes are fresh by the copy census of VisGroup, Solid, Entity). *)
Theorem c09_collapse_template_frame : forall tgt tmpl h tr h' F',
  closed h -> alloc h tgt -> alloc h tmpl -> sep h tmpl [tgt] ->
  crun tgt tmpl (h, []) tr (h', F') -> forallb event_clean tr = true ->
  forall n, unfold n h' (VRef tmpl) = unfold n h (VRef tmpl).
Proof. exact collapse_template_frame. Qed.

Theorem c09_census_collapse_template_frame : forall (W E : list (string * corigin)) tgt tmpl h tr h' F',
  collapse_never_writes_template W = true -> collapse_only_copies_enter E = true ->
  (forall e, In e tr -> (exists s, In (s, snd (fst e)) W) /\ forall vo, In vo (snd e) -> exists s, In (s, vo) E) ->
  closed h -> alloc h tgt -> alloc h tmpl -> sep h tmpl [tgt] ->
  crun tgt tmpl (h, []) tr (h', F') ->
  forall n, unfold n h' (VRef tmpl) = unfold n h (VRef tmpl).
Proof. exact census_collapse_template_frame. Qed.

Theorem c09_collapse_template_write_refuted :
  collapse_never_writes_template [("old_brush.localise(...)"%string, CTemplate)] = false /\
  exists h', crun 1%positive 2%positive (cl_h, []) [(MStore 2%positive [VAtom 128%Z], CTemplate, [CScalar])] (h', []) /\
             unfold 1 h' (VRef 2%positive) <> unfold 1 cl_h (VRef 2%positive).
Proof.
  split; [reflexivity|]. eexists. split.
  - eapply cr_cons; [|apply cr_nil]. eapply cs_store with (nd := Node true [VAtom 64%Z]); try reflexivity.
    + exists 2%positive. split; [left; reflexivity|constructor].
    + constructor; [exact I|constructor].
  - cbv. discriminate.
Qed.

Theorem c09_collapse_template_enter_refuted :
  collapse_only_copies_enter [("old_brush -> vmf.add_brush"%string, CTemplate)] = false /\
  exists h1 h2,
    crun 1%positive 2%positive (cl_h, []) [(MStore 1%positive [VRef 2%positive], CTarget, [CTemplate])] (h1, []) /\
    steps (h1, [1%positive]) [MStore 2%positive [VAtom 128%Z]] (h2, [1%positive]) /\
    unfold 1 h2 (VRef 2%positive) <> unfold 1 cl_h (VRef 2%positive).
Proof. exact collapse_template_enter_observable. Qed.

(** ARGUMENT FLOWS THROUGH THE CONSTRUCTOR.  [flows_X] (Gen/CopyCensus_gen.v): for every field of the copy, how
    the original's fields flow into it through the constructor SPECIALISED to the call copy() makes (defaults of the
    parameters not given, the constructor's conditionals partially evaluated, properties of the source class inlined).
    [copy_args_lossless] (instance obligation per class): a field that is carried over is fed by its own field and by
    nothing else, through value-preserving steps only; a field that is not carried over is not computed from the
    original at all. *)
Theorem c09_derived_field_complete_iff : forall g : Z -> Z,
  (forall z, field_complete g z) <-> (forall z, g z = z).
Proof. intros g. split; intros H z; apply field_complete_iff, H. Qed.

Theorem c09_args_lossless_rows : forall c fl, copy_args_lossless c fl = true ->
  forall f k w, In (f, k, w) c -> needs_source w = true ->
  (forall g m, In (g, m) (flows_of fl f) -> g = f /\ flow_harmless_for k m = true) /\
  (exists g m, In (g, m) (flows_of fl f) /\ flow_carries m = true).
Proof. exact lossless_rows. Qed.

(** For an immutable scalar field (str / int / float / bool: [KImm]) the admitted flow modes are complete for EVERY
    value of the original, the falsy ones included ([p or default] is not admitted there). *)
Theorem c09_imm_flow_complete : forall m d g z,
  flow_harmless_for KImm m = true -> field_complete (flow_fun m d g) z.
Proof.
  intros m d g z H. destruct m; try discriminate H; apply flow_ident_complete; auto.
Qed.

Theorem c09_args_lossless_missing_reads_nothing : forall c fl, copy_args_lossless c fl = true ->
  forall f k, In (f, k, HMissing) c -> flows_of fl f = [].
Proof.
  intros c fl H f k Hin. unfold copy_args_lossless in H. rewrite forallb_forall in H.
  specialize (H _ Hin). unfold field_flow_ok in H. cbn [snd cname fst] in H.
  destruct (flows_of fl f); [reflexivity | discriminate].
Qed.

(** Every admitted flow mode is complete on every truthy value, whatever a lossy path would compute ... *)
Theorem c09_harmless_flow_complete : forall m d g z,
  flow_harmless m = true -> z <> 0%Z -> field_complete (flow_fun m d g) z.
Proof.
  intros m d g z Hm Hz. destruct m; try discriminate.
  - apply flow_ident_complete; auto.
  - apply flow_ident_complete; auto.
  - apply flow_ordefault_complete_iff. left. exact Hz.
Qed.

(** ... and [p or default] exactly on those (or when the default is the falsy value itself). *)
Theorem c09_or_default_complete_iff : forall d g z,
  field_complete (flow_fun FOrDefault d g) z <-> (z <> 0%Z \/ d = 0%Z).
Proof. exact flow_ordefault_complete_iff. Qed.

(** [p or default] on a falsy value is observable (Entity.logical_pos = '' is copied as '[0 <id>]'). *)
Theorem c09_or_default_falsy_observable_refuted : forall d g, d <> 0%Z -> ~ field_complete (flow_fun FOrDefault d g) 0%Z.
Proof. intros d g Hd H. apply flow_ordefault_complete_iff in H. destruct H as [H|H]; [apply H; reflexivity | contradiction]. Qed.

(** The flow census refines the source census: lossless flows induce matching sources, so the theorems about sources
    ([c09_sources_fields_rel], [c09_census_src_copy_independent]) apply to the induced source map. *)
Theorem c09_args_lossless_sources_match : forall c fl,
  copy_args_lossless c fl = true -> nodupb (names c) = true -> copy_sources_match c (flow_sources fl) = true.
Proof. exact lossless_sources_match. Qed.

(** The shape of seeded fault c09_4 ([Output(..., only_once=self.only_once)]): rejected, the field named, really lossy
    (times = 3 comes back as -1) and invisible on the two values Hammer writes (1 and -1). *)
Theorem c09_only_once_argument_lossy_refuted :
  copy_args_lossless oo_census oo_flows = false /\ lossy_fields oo_census oo_flows = ["times"%string] /\
  copy_args_lossless oo_census_claims_share oo_flows = false /\
  copy_args_lossless oo_census_claims_share oo_flows_good = true /\
  field_complete once_fn 1%Z /\ field_complete once_fn (-1)%Z /\ ~ field_complete once_fn 3%Z.
Proof.
  repeat split; try reflexivity.
  - apply field_complete_iff. reflexivity.
  - apply field_complete_iff. reflexivity.
  - intro H. apply field_complete_iff in H. discriminate H.
Qed.

Definition all_args_lossless : bool :=
  forallb (fun p => match lookup (fst p) all_flows with
                    | Some fl => copy_args_lossless (snd p) fl
                    | None => false end) all_census.

Theorem c09_all_classes_args_lossless : all_args_lossless = true ->
  forall label c, In (label, c) all_census ->
  exists fl, lookup label all_flows = Some fl /\ copy_args_lossless c fl = true.
Proof.
  unfold all_args_lossless. rewrite forallb_forall. intros H label c Hin. specialize (H _ Hin). cbn [fst snd] in H.
  destruct (lookup label all_flows) as [fl|] eqn:E; [|discriminate]. exists fl. split; [reflexivity | exact H].
Qed.

(** THE WHOLE PROPERTY FOR ONE COPY METHOD, over the observation the property speaks of (the export =
    masked unfolding): the frame theorem holds for the masked observation too, and the three strands compose.
    If the census of a class is fresh, built from its own source fields and covers everything export reads, and the
    copy's fields are related to the original's as the census says, then
      (1) the copy exports like the original,
      (2) after EVERY mutation history through the copy the original still exports as before the copy was made,
      (3) after EVERY mutation history through the original the copy still exports like the original did when copied. *)
Theorem c09_frame_masked_observation : forall (mk : loc -> list bool) ms h R h' R' a,
  closed h -> alloc h a -> roots_alloc h R -> sep h a R -> steps (h, R) ms (h', R') ->
  forall n, munfold mk n h' (VRef a) = munfold mk n h (VRef a).
Proof. exact frame_masked_observation. Qed.

Theorem c09_copy_complete_and_independent :
  forall (mk : loc -> list bool) (c : census) (s : srcmap) (reads : list string) h h' la lc nd nd',
  closed h -> closed h' -> extends h h' -> h la = Some nd -> h lc = None -> h' lc = Some nd' ->
  nmut nd' = nmut nd -> mk la = obs_mask c reads -> mk lc = obs_mask c reads ->
  List.length (nfields nd) = List.length c ->
  copy_fresh_mutables c = true -> copy_sources_match c s = true -> copy_export_ok c s reads = true ->
  kinds_rel h c (nfields nd) ->
  fields_rel_src h h' (nfields nd) (resolve c s) (nfields nd') ->
  fields_rel_c mk h h' (nfields nd) (eresolve c s reads) (nfields nd') ->
  mobs_eq mk h h' (VRef la) (VRef lc) /\
  (forall ms h'' R, steps (h', [lc]) ms (h'', R) -> forall n, munfold mk n h'' (VRef la) = munfold mk n h (VRef la)) /\
  (forall ms h'' R, steps (h', [la]) ms (h'', R) -> forall n, munfold mk n h'' (VRef lc) = munfold mk n h (VRef la)).
Proof. exact copy_complete_and_independent. Qed.

Theorem c09_copy_complete_and_independent_not_vacuous :
  let h := ex_h in let h' := ex_h' 7%Z in
  mobs_eq ex_mk h h' (VRef 1%positive) (VRef 2%positive) /\
  (forall ms h'' R, steps (h', [2%positive]) ms (h'', R) ->
     forall n, munfold ex_mk n h'' (VRef 1%positive) = munfold ex_mk n h (VRef 1%positive)) /\
  (forall ms h'' R, steps (h', [1%positive]) ms (h'', R) ->
     forall n, munfold ex_mk n h'' (VRef 2%positive) = munfold ex_mk n h (VRef 1%positive)).
Proof. exact copy_complete_and_independent_applies. Qed.

(** Completeness does not imply independence: a copy sharing a mutable field passes the export and source checks,
    exports equally at copy time, fails [copy_fresh_mutables] — and one store through the copy changes the original. *)
Theorem c09_complete_but_shared_refuted :
  copy_export_ok sh_census sh_src sh_reads = true /\ copy_sources_match sh_census sh_src = true /\
  copy_fresh_mutables sh_census = false /\
  mobs_eq sh_mk sh_h sh_h' (VRef 1%positive) (VRef 2%positive) /\
  exists h'', steps (sh_h', [2%positive]) [MStore 3%positive [VAtom 0%Z]] (h'', [2%positive]) /\
              munfold sh_mk 2 h'' (VRef 1%positive) <> munfold sh_mk 2 sh_h (VRef 1%positive).
Proof.
  split; [reflexivity|]. split; [reflexivity|]. split; [reflexivity|]. split.
  - intros n. destruct n as [|[|n]]; try reflexivity. cbn. destruct n; reflexivity.
  - eexists. split.
    + eapply store_field_steps; [reflexivity|left; reflexivity|reflexivity|reflexivity|]. intros v [<-|[]]. exact I.
    + cbv. discriminate.
Qed.

(** ... for every copy method of the generated table at once: the three table-level booleans (each an instance
    obligation of the check) give, for every census, the whole statement above. *)
Theorem c09_all_classes_complete_and_independent :
  all_fresh = true -> all_sources_match = true -> all_export_ok = true ->
  forall label c, In (label, c) all_census ->
  exists s cls reads, lookup label all_sources = Some s /\ lookup label class_of_label = Some cls /\
    lookup cls all_export_reads = Some reads /\
    forall (mk : loc -> list bool) h h' la lc nd nd',
      closed h -> closed h' -> extends h h' -> h la = Some nd -> h lc = None -> h' lc = Some nd' ->
      nmut nd' = nmut nd -> mk la = obs_mask c reads -> mk lc = obs_mask c reads ->
      List.length (nfields nd) = List.length c ->
      kinds_rel h c (nfields nd) ->
      fields_rel_src h h' (nfields nd) (resolve c s) (nfields nd') ->
      fields_rel_c mk h h' (nfields nd) (eresolve c s reads) (nfields nd') ->
      mobs_eq mk h h' (VRef la) (VRef lc) /\
      (forall ms h'' R, steps (h', [lc]) ms (h'', R) -> forall n, munfold mk n h'' (VRef la) = munfold mk n h (VRef la)) /\
      (forall ms h'' R, steps (h', [la]) ms (h'', R) -> forall n, munfold mk n h'' (VRef lc) = munfold mk n h (VRef la)).
Proof.
  intros Hfr Hsm Hex label c Hin.
  destruct (c09_all_classes_export_ok Hex label c Hin) as (s & cls & reads & E1 & E2 & E3 & Hok).
  exists s, cls, reads. split; [exact E1|]. split; [exact E2|]. split; [exact E3|].
  pose proof (proj1 (forallb_forall _ _) Hfr _ Hin) as Hf. cbn [snd] in Hf.
  pose proof (proj1 (forallb_forall _ _) Hsm _ Hin) as Hs. cbn [fst snd] in Hs.
  unfold lookup in E1. destruct (find (fun q => String.eqb (fst q) label) all_sources) as [q|]; [|discriminate].
  injection E1 as <-.
  intros mk h h' la lc nd nd' H1 H2 H3 H4 H5 H6 H7 H8 H9 H10 H11 H12 H13.
  exact (c09_copy_complete_and_independent mk c (snd q) reads h h' la lc nd nd' H1 H2 H3 H4 H5 H6 H7 H8 H9 H10 Hf Hs Hok
           H11 H12 H13).
Qed.

(** THE CENSUS ROWS HOLD ON REAL OBJECT GRAPHS (kernel-checked certificate).  The census theorems take as
    premise that the copy's fields are related to the original's as the rows say ([fields_rel_src]) and that the
    original's fields have the declared kinds ([kinds_rel]).  [row_cert_ok] DECIDES these premises on a finite heap
    exported from real srctools objects (original + copy, the original's part marked old) against the generated census
    and source tables; the check evaluates it in the kernel for generated objects of every census label.  An accepted
    heap satisfies every premise of [c09_census_src_copy_independent], hence its conclusion. *)
Theorem c09_row_cert_premises : forall l' old la lc SB c s,
  row_cert_ok l' old la lc SB c s = true ->
  let h' := hof (mk_heap l') in let h := hold (mk_heap l') (mk_set old) in
  closed h /\ closed h' /\ extends h h' /\
  exists nd nd', h la = Some nd /\ h lc = None /\ h' lc = Some nd' /\
                 kinds_rel h c (nfields nd) /\ fields_rel_src h h' (nfields nd) (resolve c s) (nfields nd').
Proof. exact row_cert_premises. Qed.

Theorem c09_row_cert_sound : forall l' old la lc SB c s,
  row_cert_ok l' old la lc SB c s = true ->
  copy_fresh_mutables c = true -> copy_sources_match c s = true ->
  let h' := hof (mk_heap l') in
  (forall ms h'' R, steps (h', [lc]) ms (h'', R) -> forall n, unfold n h'' (VRef la) = unfold n h' (VRef la)) /\
  (forall ms h'' R, steps (h', [la]) ms (h'', R) -> forall n, unfold n h'' (VRef lc) = unfold n h' (VRef lc)).
Proof.
  intros l' old la lc SB c s H Hf Hs h'.
  destruct (row_cert_premises _ _ _ _ _ _ _ H) as (Hc & Hc' & He & nd & nd' & Hla & Hlc & Hlc' & Hk & Hr).
  exact (census_src_copy_independent c s _ h' la lc nd nd' Hc Hc' He Hla Hlc Hlc' Hf Hs Hk Hr).
Qed.

(** The checker accepts a faithful two-field copy and rejects a copy that shares the vector / changes the number. *)
Theorem c09_row_cert_not_vacuous :
  row_cert_ok [(1, Node true [VAtom 5; VRef 3]); (3, Node true [VAtom 255]);
               (2, Node true [VAtom 5; VRef 4]); (4, Node true [VAtom 255])]%positive
              [1; 3]%positive 1%positive 2%positive [2; 4]%positive rc_census rc_sources = true /\
  row_cert_ok [(1, Node true [VAtom 5; VRef 3]); (3, Node true [VAtom 255]); (2, Node true [VAtom 5; VRef 3])]%positive
              [1; 3]%positive 1%positive 2%positive [2; 3]%positive rc_census rc_sources = false /\
  row_cert_ok [(1, Node true [VAtom 5; VRef 3]); (3, Node true [VAtom 255]);
               (2, Node true [VAtom 6; VRef 4]); (4, Node true [VAtom 255])]%positive
              [1; 3]%positive 1%positive 2%positive [2; 4]%positive rc_census rc_sources = false.
Proof. exact (conj row_cert_accepts (conj row_cert_rejects_shared row_cert_rejects_changed_value)). Qed.

(** THE COMPLETENESS PREMISES AND THE WHOLE PROPERTY ON REAL OBJECT GRAPHS (kernel-checked).  [mobs_eq] speaks
    about every depth; it is decided by comparing the masked unfoldings at one depth at which both have stabilised. *)
Theorem c09_mobs_eq_decided : forall (mk : loc -> list bool) N h h' v v',
  mobs_eq_b mk N h h' v v' = true -> mobs_eq mk h h' v v'.
Proof. exact mobs_eq_b_sound. Qed.

(** The export masks of the labelled nodes of an exported heap, COMPUTED IN THE KERNEL from the generated tables (the
    harness only says which census label each exported object has). *)
Definition masks_of_labels (labels : list (loc * string)) : list (loc * list bool) :=
  map (fun p => (fst p,
        match lookup (snd p) all_census, lookup (snd p) class_of_label with
        | Some c, Some cls => match lookup cls all_export_reads with Some r => obs_mask c r | None => [] end
        | _, _ => []
        end)) labels.

(** An accepted completeness certificate (heap exported from a real original + copy, export masks of every labelled
    node from the generated reads tables) + the census obligation ⟹ the real copy is observed equal at every depth. *)
Theorem c09_export_cert_sound : forall l' old la lc masks N c s reads,
  export_cert_ok l' old la lc masks N c s reads = true ->
  copy_export_ok c s reads = true ->
  mobs_eq (mk_of (mk_masks masks)) (hold (mk_heap l') (mk_set old)) (hof (mk_heap l')) (VRef la) (VRef lc).
Proof.
  intros l' old la lc masks N c s reads H Hok.
  destruct (export_cert_premises _ _ _ _ _ _ _ _ _ H) as (Hc & nd & nd' & Hla & Hlc & Hm & Hma & Hmc & Hlen & Hr).
  exact (copy_export_equal _ c s reads _ _ la lc nd nd' Hc (hold_extends _ _) Hla Hlc Hm Hma Hmc Hlen Hok Hr).
Qed.

(** Both certificates on the same exported heap + the three census obligations of the class: THE WHOLE PROPERTY for
    that real (original, copy) pair — instance of [c09_copy_complete_and_independent] with every premise discharged
    inside the kernel. *)
Theorem c09_real_copy_complete_and_independent : forall l' old la lc SB masks N c s reads,
  row_cert_ok l' old la lc SB c s = true ->
  export_cert_ok l' old la lc masks N c s reads = true ->
  copy_fresh_mutables c = true -> copy_sources_match c s = true -> copy_export_ok c s reads = true ->
  let mk := mk_of (mk_masks masks) in let h' := hof (mk_heap l') in let h := hold (mk_heap l') (mk_set old) in
  mobs_eq mk h h' (VRef la) (VRef lc) /\
  (forall ms h'' R, steps (h', [lc]) ms (h'', R) -> forall n, munfold mk n h'' (VRef la) = munfold mk n h (VRef la)) /\
  (forall ms h'' R, steps (h', [la]) ms (h'', R) -> forall n, munfold mk n h'' (VRef lc) = munfold mk n h (VRef la)).
Proof.
  intros l' old la lc SB masks N c s reads Hrow Hexp Hf Hs Hx mk h' h.
  destruct (row_cert_premises _ _ _ _ _ _ _ Hrow) as (Hc & Hc' & He & nd & nd' & Hla & Hlc & Hlc' & Hk & Hr).
  destruct (export_cert_premises _ _ _ _ _ _ _ _ _ Hexp) as (_ & nd0 & nd0' & Hla0 & Hlc0 & Hm & Hma & Hmc & Hlen & Hrc).
  assert (nd0 = nd) by congruence. assert (nd0' = nd') by congruence. subst nd0 nd0'.
  exact (copy_complete_and_independent mk c s reads h h' la lc nd nd' Hc Hc' He Hla Hlc Hlc' Hm Hma Hmc Hlen Hf Hs Hx
           Hk Hr Hrc).
Qed.

(** The completeness checker accepts a faithful copy (new id invisible), rejects a copy whose vector differs, and
    rejects (never wrongly accepts) a comparison depth at which the unfolding has not stabilised. *)
Theorem c09_export_cert_not_vacuous :
  let L v := [(1, Node true [VAtom 10; VAtom 5; VRef 3]); (3, Node true [VAtom 255]);
              (2, Node true [VAtom 11; VAtom 5; VRef 4]); (4, Node true [VAtom v])]%positive in
  let M := [(1%positive, obs_mask xc_census xc_reads); (2%positive, obs_mask xc_census xc_reads)] in
  export_cert_ok (L 255%Z) [1; 3]%positive 1%positive 2%positive M 4 xc_census xc_sources xc_reads = true /\
  export_cert_ok (L 128%Z) [1; 3]%positive 1%positive 2%positive M 4 xc_census xc_sources xc_reads = false /\
  export_cert_ok (L 255%Z) [1; 3]%positive 1%positive 2%positive M 0 xc_census xc_sources xc_reads = false.
Proof. cbv zeta. exact (conj export_cert_accepts (conj export_cert_rejects_changed_vector export_cert_rejects_unstable_depth)). Qed.

(** THE CENSUS LABEL OF EVERY EXPORTED NODE IS DERIVED AND VALIDATED IN THE KERNEL.  The harness reports per
    node only run-time facts: location, [type(o).__name__], the attribute names it read (in the order of the node's fields).
    The label is the first label of [class_of_label] whose class is that type name; the names must be the field names
    of that label's census, in census order, and the node must have that many fields. *)
Definition masks_of_typed (tns : list typed_node) : list (loc * list bool) :=
  masks_of_labels (labels_of_typed class_of_label tns).

Theorem c09_typed_nodes_checked : forall l' tns,
  typed_nodes_ok all_census class_of_label l' tns = true ->
  forall loc cls nms, In (loc, cls, nms) tns ->
  exists lab c nd, label_of_type class_of_label cls = Some lab /\ tlookup lab all_census = Some c /\
                   PositiveMap.find loc (mk_heap l') = Some nd /\
                   nms = names c /\ List.length (nfields nd) = List.length c.
Proof. exact (typed_nodes_ok_spec all_census class_of_label). Qed.

(** The label found for a type name is a label of that class. *)
Theorem c09_label_of_type_is_of_class : forall cls lab,
  label_of_type class_of_label cls = Some lab -> In (lab, cls) class_of_label.
Proof. exact (label_of_type_class class_of_label). Qed.

(** Instance obligation [census_labels_of_a_class_agree]: all labels of one class (EntityFixup_copy_values / _copy /
    _deepcopy, FixupValue_in_* ...) list the same fields with the same masked-ness, so each of them gives the export mask
    of the first label of the class — deriving the label from the type name alone loses nothing. *)
Theorem c09_labels_of_a_class_same_mask : forall lab cls c,
  labels_agree all_census class_of_label = true ->
  tlookup lab class_of_label = Some cls -> tlookup lab all_census = Some c ->
  exists l0 c0, label_of_type class_of_label cls = Some l0 /\ tlookup l0 all_census = Some c0 /\
                forall reads, obs_mask c reads = obs_mask c0 reads.
Proof. exact (labels_agree_same_mask all_census class_of_label). Qed.

(** Accepts the right names; rejects names in another order, an unknown type name, a node with another number of
    fields; two labels of one class that disagree are rejected by [labels_agree]. *)
Theorem c09_typed_labels_not_vacuous :
  labels_agree tl_all tl_col = true /\
  typed_nodes_ok tl_all tl_col tl_heap [(1%positive, "T"%string, ["id"%string; "pos"%string])] = true /\
  typed_nodes_ok tl_all tl_col tl_heap [(1%positive, "T"%string, ["pos"%string; "id"%string])] = false /\
  typed_nodes_ok tl_all tl_col tl_heap [(1%positive, "U"%string, ["id"%string; "pos"%string])] = false /\
  typed_nodes_ok tl_all tl_col tl_heap [(2%positive, "T"%string, ["id"%string; "pos"%string])] = false /\
  labels_agree [("T_copy"%string, tl_census_a); ("T_deepcopy"%string, tl_census_bad)] tl_col = false.
Proof. vm_compute. repeat split; reflexivity. Qed.

(** CONDITIONAL ROWS.  A field that copy() builds by a conditional (`A if t else B`, `x and B`, `x or B`, an
    if/else storing the same field) gets the WEAKER of the two branch rows.  The joined row is fresh exactly when both
    branches are — so an accepted census is right whichever branch an input takes, and a rejected one has an input that
    takes a branch that is not fresh. *)
Theorem c09_cond_row_fresh_iff : forall k a b, how_carries a = true -> how_carries b = true ->
  field_fresh k (how_join a b) = field_fresh k a && field_fresh k b.
Proof. exact join_fresh. Qed.

Theorem c09_cond_row_sound : forall k a b, how_carries a = true -> how_carries b = true ->
  field_fresh k (how_join a b) = true -> forall t : bool, field_fresh k (if t then a else b) = true.
Proof. exact join_fresh_sound. Qed.

Theorem c09_cond_row_complete : forall k a b, how_carries a = true -> how_carries b = true ->
  field_fresh k (how_join a b) = false -> exists t : bool, field_fresh k (if t then a else b) = false.
Proof.
  intros k a b Ha Hb H. rewrite (join_fresh k a b Ha Hb) in H. apply andb_false_iff in H.
  destruct H; [exists true | exists false]; assumption.
Qed.

(** Instance obligation [conditional_rows_are_joins] over the generated [cond_rows]: the translator's choice of the
    weaker branch is re-computed in the kernel against the generated census. *)
Theorem c09_cond_rows_checked : forall rows, cond_rows_ok all_census rows = true ->
  forall lab f a b, In (lab, f, a, b) rows ->
  exists c k, clookup lab all_census = Some c /\ In (f, k, how_join a b) c /\
              (field_fresh k (how_join a b) = true -> forall t : bool, field_fresh k (if t then a else b) = true).
Proof. exact (cond_rows_ok_spec all_census). Qed.

(** SHARED WHEN EMPTY (shape of seeded fault c09_6): a copy that shares the original's container only because it is
    empty is observed equal to the original at every depth, yet the frame premise fails and one store through the copy
    (filling the list) changes what the original exports. *)
Theorem c09_shared_when_empty_refuted :
  (forall n, unfold n empty_shared_heap (VRef 2%positive) = unfold n empty_shared_heap (VRef 1%positive)) /\
  ~ sep empty_shared_heap 1%positive [2%positive] /\
  exists h', steps (empty_shared_heap, [2%positive]) [MStore 3%positive [VAtom 7%Z]] (h', [2%positive]) /\
             unfold 2 h' (VRef 1%positive) <> unfold 2 empty_shared_heap (VRef 1%positive).
Proof.
  split; [|split].
  - intros [|[|n]]; reflexivity.
  - eapply shared_field_not_sep; [reflexivity|right; left; reflexivity|reflexivity|right; left; reflexivity|reflexivity|reflexivity].
  - eexists. split.
    + eapply store_field_steps; [reflexivity|right; left; reflexivity|reflexivity|reflexivity|]. intros v [<-|[]]. exact I.
    + cbv. discriminate.
Qed.

Theorem c09_cond_rows_not_vacuous :
  cond_rows_ok [("Keyvalues"%string, cr_census)] [("Keyvalues"%string, "_value"%string, HDeep, HShare)] = true /\
  copy_fresh_mutables cr_census = false /\
  cond_rows_ok [("Keyvalues"%string, cr_census_claims_deep)] [("Keyvalues"%string, "_value"%string, HDeep, HShare)] = false.
Proof. repeat split; reflexivity. Qed.

(** GUARDS OF POST-CONSTRUCTION STORES.  [new.f = ...] under [if g(self.f):] carries every value iff the guard
    fails only on the constructor default; [is not None] does, bare truthiness loses exactly the EMPTY container (the
    translator records such a test of the stored field itself as a guard flow: [copy_args_lossless] names the field). *)
Theorem c09_guarded_store_complete_iff : forall A (g : A -> bool) (d : A),
  (forall v, guarded_store g d v = v) <-> (forall v, g v = false -> v = d).
Proof.
  intros A g d. unfold guarded_store. split.
  - intros H v Hg. specialize (H v). rewrite Hg in H. symmetry. exact H.
  - intros H v. destruct (g v) eqn:E; [reflexivity|]. symmetry. apply H. exact E.
Qed.

Theorem c09_is_not_none_guard_complete : forall v : optlist, guarded_store g_is_not_none None v = v.
Proof. intros [l|]; reflexivity. Qed.

(** [if self.f:] loses exactly the EMPTY list: the copy gets None (`point_data { numpts 0 }` disappears). *)
Theorem c09_truthy_guard_loses_empty_refuted :
  guarded_store g_truthy None (Some []) <> Some [] /\
  forall v : optlist, v <> Some [] -> guarded_store g_truthy None v = v.
Proof.
  split; [discriminate|]. intros [[|z l]|] H; try reflexivity. exfalso. apply H. reflexivity.
Qed.

(** THE PICKLING PAIR.  copy.copy / copy.deepcopy / pickle of an Output hand the tuple built by [__getstate__] to
    [__setstate__].  [output_state_put] / [output_state_get] (generated): the field each position is built from / unpacked
    into.  Instance obligation [pickle_state_positions_match:Output] = [state_ok (names census_Output) put get]: then every
    data field comes back with its own value.  (Which originals take the SHORT form — optional parts at their defaults — and
    that the restored defaults equal those originals' values is only searched: boundary probe.) *)
Theorem c09_pickle_state_roundtrip : forall fields put get, state_ok fields put get = true ->
  forall obj f, In f fields -> alookup f (setstate get (getstate obj put)) = Some (alookup f obj).
Proof.
  intros fields put get H obj f HI. unfold state_ok in H.
  apply andb_true_iff in H. destruct H as [H H3]. apply andb_true_iff in H. destruct H as [_ H2].
  apply sl_eqb_eq in H2. subst put.
  rewrite forallb_forall in H3. specialize (H3 f HI). apply existsb_eqb_in in H3.
  unfold setstate, getstate. exact (lookup_combine_map (fun k => alookup k obj) get f H3).
Qed.

Theorem c09_pickle_state_swap_refuted :
  state_ok ps_fields ps_fields ps_fields = true /\
  state_ok ps_fields ps_fields ["inst_in"%string; "inst_out"%string; "delay"%string] = false /\
  alookup "inst_out"%string (setstate ["inst_in"%string; "inst_out"%string; "delay"%string] (getstate ps_obj ps_fields)) = Some (Some 2%Z) /\
  state_ok ps_fields ["inst_out"%string; "delay"%string] ["inst_out"%string; "delay"%string] = false.
Proof. repeat split; reflexivity. Qed.

(** THE SHORT FORM OF THE PICKLING PAIR.  [Output.__getstate__] leaves the optional fields out of the state when
    the "take the long form" test fails, [__setstate__] then restores constants.  [output_short_rows] (generated): per
    optional field its type, its own disjuncts of that test and the constant restored.  Instance obligation
    [pickle_short_form_restores_export_equal:Output] = [short_ok output_short_rows && short_rows_cover output_state_tail
    output_short_rows]: then for EVERY value of the field's type on which all of the field's disjuncts fail — in particular
    for every original that takes the short form — the restored constant exports like the value. *)
Theorem c09_pickle_short_form_export_equal : forall rows, short_ok rows = true ->
  forall f ty ts d, In (f, ty, ts, d) rows ->
  forall v, has_type ty v = true -> all_fail ts v = true -> export_equiv ty v (default_val d) = true.
Proof.
  intros rows H f ty ts d Hin. exact (row_ok_sound f ty ts d (proj1 (forallb_forall row_ok rows) H _ Hin)).
Qed.

Theorem c09_pickle_short_default_typed : forall rows, short_ok rows = true ->
  forall f ty ts d, In (f, ty, ts, d) rows -> has_type ty (default_val d) = true.
Proof.
  intros rows H f ty ts d Hin. apply (proj1 (forallb_forall row_ok rows) H) in Hin.
  apply andb_true_iff in Hin. exact (proj1 Hin).
Qed.

(** The defect repaired in [Output.__getstate__], as a refuted shape: a float steered by truthiness (or by `!= 0`) and restored as 0.0 is
    rejected — the value -0.0 takes the short form and exports "-0", the restored 0.0 exports "0"; the repaired test on
    the exported text is accepted. *)
Theorem c09_pickle_short_truthy_float_refuted :
  row_ok ("delay"%string, TyFloat, [TTruthy], DFloatZero) = false /\
  has_type TyFloat VFloatNegZero = true /\ all_fail [TTruthy] VFloatNegZero = true /\
  export_equiv TyFloat VFloatNegZero (default_val DFloatZero) = false.
Proof. vm_compute. repeat split. Qed.

Theorem c09_pickle_short_neq_zero_float_refuted : row_ok ("delay"%string, TyFloat, [TNeqZeroNum], DFloatZero) = false.
Proof. vm_compute. reflexivity. Qed.

(** Not vacuous: today's rows are accepted; an optional int that no disjunct reads, a test against another constant than
    the one restored, a str restored as None are rejected. *)
Theorem c09_pickle_short_not_vacuous :
  row_ok ("delay"%string, TyFloat, [TFmtNotZero], DFloatZero) = true /\
  row_ok ("times"%string, TyInt, [], DIntC (-1)) = false /\ row_ok ("times"%string, TyInt, [TNeqInt 1], DIntC (-1)) = false /\
  row_ok ("times"%string, TyInt, [TNeqInt (-1)], DIntC (-1)) = true /\
  row_ok ("inst_in"%string, TyOptStr, [TTruthy], DNone) = true /\
  row_ok ("params"%string, TyStr, [TTruthy], DNone) = false /\
  row_ok ("inst_in"%string, TyOptStr, [], DNone) = false.
Proof.
  split; [vm_compute; reflexivity|].
  destruct short_untested_int_refuted as (A & B & C), short_optstr_accepted_and_str_refuted as (D & _ & E & _ & F).
  exact (conj A (conj B (conj C (conj D (conj E F))))).
Qed.

(** [Instance.from_entity].  [instance_from_entity] (generated from instancing.py): the origin of every value the
    Instance is built from.  Instance obligation [instance_from_entity_shares_only_outputs]: the only objects of the
    func_instance entity that reach the Instance are its Outputs (read-only there: census of collapse_one), and the $fixup
    values are copies ([EntityFixup.copy_values], itself a census label). *)
Theorem c09_from_entity_shares_only : forall allowed rows, from_entity_shares_only allowed rows = true ->
  forall f o, In (f, o) rows -> origin_shared o = true -> In f allowed.
Proof.
  intros allowed rows H f o Hin Hs. unfold from_entity_shares_only in H. rewrite forallb_forall in H.
  specialize (H _ Hin). cbn [fst snd] in H. rewrite Hs in H. exact (proj1 (existsb_eqb_In f allowed) H).
Qed.

Theorem c09_from_entity_copies : forall f rows, from_entity_copies f rows = true ->
  (exists o, In (f, o) rows) /\ forall o, In (f, o) rows -> o = CCopy.
Proof.
  intros f rows H. unfold from_entity_copies in H. apply andb_true_iff in H. destruct H as [He Ha]. split.
  - apply existsb_exists in He. destruct He as ([g o] & Hin & E). cbn [fst snd] in E. apply andb_true_iff in E.
    destruct E as [E _]. apply String.eqb_eq in E. subst g. exists o. exact Hin.
  - intros o Hin. rewrite forallb_forall in Ha. specialize (Ha _ Hin). cbn [fst snd] in Ha.
    rewrite String.eqb_refl in Ha. cbn [negb orb] in Ha. destruct o; try discriminate Ha; reflexivity.
Qed.

Theorem c09_from_entity_shared_fixup_refuted :
  from_entity_shares_only ["outputs"%string] [("outputs"%string, CTemplate); ("fixup"%string, CTemplate)] = false /\
  from_entity_copies "fixup"%string [("outputs"%string, CTemplate); ("fixup"%string, CTemplate)] = false /\
  from_entity_shares_only ["outputs"%string] [("outputs"%string, CTemplate); ("fixup"%string, CCopy)] = true /\
  from_entity_copies "fixup"%string [("outputs"%string, CTemplate); ("fixup"%string, CCopy)] = true.
Proof. vm_compute. repeat split. Qed.

(** THE WHOLE PROPERTY FROM GENERATED OBJECTS ONLY.  Every hypothesis above the line is a boolean over objects the
    translators regenerate from vmf.py / keyvalues.py / math.py / instancing.py on every run, and is discharged by a named
    instance obligation of the check ([all_classes_complete_and_independent] = the first three, [all_flows_present],
    [conditional_rows_are_joins], [pickle_state_positions_match:Output], [pickle_short_form_restores_export_equal:Output],
    [ops_store_nothing_to_operands:*], [kv_add_appends_to_copy_and_returns_it], [kv_added_items_are_copied],
    [collapse_never_writes_template], [collapse_only_copies_enter_target]).  What remains SEMANTIC is visible inside the
    conjuncts: the heap relations of a census row ([kinds_rel], [fields_rel_src], [fields_rel_c] — decided in the kernel on
    heaps of real copies by the two row certificates), "the trace of a run only contains origins the census lists" for
    operators and collapse_one ([trun] / [crun] premises — compared with run-time traces by the correspondences), and the
    abstraction of field values to the classes of StorePickleShort.v. *)
Theorem c09_property :
  all_fresh = true -> all_sources_match = true -> all_export_ok = true -> all_args_lossless = true ->
  cond_rows_ok all_census cond_rows = true ->
  state_ok (names census_Output) output_state_put output_state_get = true ->
  short_ok output_short_rows = true ->
  ops_store_nothing_to_operands op_census_all = true ->
  recv_is_copy kv_add_recv_single && recv_is_copy kv_add_recv_iter && recv_is_copy kv_add_ret = true ->
  kv_add_single_copied && kv_add_iter_copied = true ->
  collapse_never_writes_template collapse_writes = true -> collapse_only_copies_enter collapse_enters = true ->
  (* 1. every copy method of the table: complete (observed equal under the export masks) and independent both ways *)
  (forall label c, In (label, c) all_census ->
   exists s cls reads, lookup label all_sources = Some s /\ lookup label class_of_label = Some cls /\
    lookup cls all_export_reads = Some reads /\
    forall (mk : loc -> list bool) h h' la lc nd nd',
      closed h -> closed h' -> extends h h' -> h la = Some nd -> h lc = None -> h' lc = Some nd' ->
      nmut nd' = nmut nd -> mk la = obs_mask c reads -> mk lc = obs_mask c reads ->
      List.length (nfields nd) = List.length c ->
      kinds_rel h c (nfields nd) ->
      fields_rel_src h h' (nfields nd) (resolve c s) (nfields nd') ->
      fields_rel_c mk h h' (nfields nd) (eresolve c s reads) (nfields nd') ->
      mobs_eq mk h h' (VRef la) (VRef lc) /\
      (forall ms h'' R, steps (h', [lc]) ms (h'', R) -> forall n, munfold mk n h'' (VRef la) = munfold mk n h (VRef la)) /\
      (forall ms h'' R, steps (h', [la]) ms (h'', R) -> forall n, munfold mk n h'' (VRef lc) = munfold mk n h (VRef la))) /\
  (* 2. a conditional row (a conditional of copy() or of an attrs converter) is fresh whichever branch an input takes *)
  (forall lab f a b, In (lab, f, a, b) cond_rows ->
   exists c k, clookup lab all_census = Some c /\ In (f, k, how_join a b) c /\
               (field_fresh k (how_join a b) = true -> forall t : bool, field_fresh k (if t then a else b) = true)) /\
  (* 3. copy.copy / copy.deepcopy / pickle of an Output: every data field comes back with its own value (long state) *)
  (forall obj f, In f (names census_Output) ->
   alookup f (setstate output_state_get (getstate obj output_state_put)) = Some (alookup f obj)) /\
  (* 4. ... and an original that takes the SHORT state gets constants back that export like its values *)
  (forall f ty ts d, In (f, ty, ts, d) output_short_rows ->
   forall v, has_type ty v = true -> all_fail ts v = true -> export_equiv ty v (default_val d) = true) /\
  (* 5. Vec / Angle / Matrix operators that produce a new value store into no operand *)
  (forall r, In r op_census_all -> op_kind r = OpPure -> forall o, In o (op_writes r) -> is_operand o = false) /\
  (* 6. Keyvalues '+': the left operand is unchanged, the result holds copies of the right operand's children *)
  (forall (A : Type) (cp : A -> A) single (self other : list A),
   kv_add_ids cp kv_add_recv_single kv_add_recv_iter kv_add_ret kv_add_single_copied kv_add_iter_copied single self other
   = (self, (self ++ map cp other)%list)) /\
  (* 7. collapsing an instance leaves the template observed unchanged *)
  (forall tgt tmpl h tr h' F',
   (forall e, In e tr -> (exists s, In (s, snd (fst e)) collapse_writes) /\
                         forall vo, In vo (snd e) -> exists s, In (s, vo) collapse_enters) ->
   closed h -> alloc h tgt -> alloc h tmpl -> sep h tmpl [tgt] ->
   crun tgt tmpl (h, []) tr (h', F') ->
   forall n, unfold n h' (VRef tmpl) = unfold n h (VRef tmpl)) /\
  (* 8. every argument copy() hands to a constructor reaches its field without loss (flows through the constructor) *)
  (forall label c, In (label, c) all_census -> exists fl, lookup label all_flows = Some fl /\ copy_args_lossless c fl = true).
Proof.
  intros H1 H2 H3 H4 H5 H6 H7 H8 H9 H10 H11 H12.
  split; [exact (c09_all_classes_complete_and_independent H1 H2 H3)|].
  split; [exact (c09_cond_rows_checked cond_rows H5)|].
  split; [exact (c09_pickle_state_roundtrip _ _ _ H6)|].
  split; [exact (c09_pickle_short_form_export_equal output_short_rows H7)|].
  split; [exact (c09_all_ops_pure H8)|].
  split.
  { intros A cp single self other.
    exact (proj1 (c09_kv_add_ids_fresh A cp _ _ _ _ _ H9 H10 single self other)). }
  split.
  { intros tgt tmpl h tr h' F'.
    exact (c09_census_collapse_template_frame collapse_writes collapse_enters tgt tmpl h tr h' F' H11 H12). }
  exact (c09_all_classes_args_lossless H4).
Qed.
