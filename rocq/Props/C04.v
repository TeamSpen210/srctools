(** C04 — Angles, matrices and vectors obey the rotation algebra.
    The statements, each with its proof or the lemma of Rot/ that proves it.  [from_angle], [from_pitch/yaw/roll], [mat_mul] (= _mat_mul),
    [mat_mul_self] (= _mat_mul with other is self), [vec_rot] (= _vec_rot), [transpose], the guard and the atan2
    arguments of [to_angle] (= _to_angle) and [dispatch_table] are GENERATED from srctools/math.py on every run
    (Gen/RotFormulas_gen.v, Gen/RotDispatch_gen.v).  Arithmetic is over the classical reals: floating-point rounding
    is outside the model (the property says "up to rounding"). *)
From Coq Require Import Reals List Qreals.
From SV Require Import Rot.RotBase Gen.RotFormulas_gen Rot.RotAlgebra Rot.RotAliasProofs Rot.RotEuler Rot.RotEulerProofs
  Rot.RotDispatch Rot.RotDispatchProofs Rot.RotInplace Rot.RotCopies Rot.RotMethods Rot.RotMethodsProofs Rot.RotGJ
  Rot.RotGJProofs Rot.RotGJTotal Rot.RotGJTotalProofs Rot.RotGJExample Rot.RotRoundEuler Rot.RotProperty Rot.RotState
  Rot.RotPivot Rot.RotReify Gen.RotReified_gen Rot.RotReifyProofs Rot.RotRound Rot.RotRoundProofs Rot.RotRoundFlocq
  Gen.RotRounded_gen Rot.RotRoundTied.
Import ListNotations.
Open Scope R_scope.

(** ** Every matrix built from an Euler angle is a proper rotation *)
Theorem c04_from_angle_orthonormal : forall p y r, orthonormal (from_angle p y r).
Proof. exact from_angle_orthonormal. Qed.
Theorem c04_from_angle_det_one : forall p y r, det (from_angle p y r) = 1.
Proof. exact from_angle_det_one. Qed.
(** from_angle(Angle) and from_angle(pitch, yaw, roll) are the same formulas. *)
Theorem c04_from_angle_obj : forall a, from_angle_obj a = from_angle (a_pitch a) (a_yaw a) (a_roll a).
Proof. exact from_angle_obj_eq. Qed.
Theorem c04_axis_rotations : forall t, rotation (from_pitch t) /\ rotation (from_yaw t) /\ rotation (from_roll t).
Proof. exact from_axis_rotation. Qed.

(** ** ... that agrees with the Source convention: roll about X, then pitch about Y, then yaw about Z
    (row vectors, v @ M = v * M, so the first factor acts first) *)
Theorem c04_from_angle_convention : forall p y r,
  from_angle p y r = mat_mul (mat_mul (from_roll r) (from_pitch p)) (from_yaw y).
Proof. exact from_angle_convention. Qed.
Theorem c04_axis_fixed : forall t,
  vec_rot (from_roll t) (Vec3 1 0 0) = Vec3 1 0 0 /\
  vec_rot (from_pitch t) (Vec3 0 1 0) = Vec3 0 1 0 /\
  vec_rot (from_yaw t) (Vec3 0 0 1) = Vec3 0 0 1.
Proof. exact axis_fixed. Qed.
(** +90 yaw: forward -> left; +90 pitch: forward -> down; +90 roll: left -> up. *)
Theorem c04_handedness :
  vec_rot (from_yaw 90) (Vec3 1 0 0) = Vec3 0 1 0 /\
  vec_rot (from_pitch 90) (Vec3 1 0 0) = Vec3 0 0 (-1) /\
  vec_rot (from_roll 90) (Vec3 0 1 0) = Vec3 0 0 1.
Proof. exact handedness. Qed.

(** ** Rotating composes associatively *)
Theorem c04_vec_rot_assoc : forall v a b, vec_rot b (vec_rot a v) = vec_rot (mat_mul a b) v.
Proof. exact vec_rot_assoc. Qed.
Theorem c04_mat_mul_assoc : forall a b c, mat_mul (mat_mul a b) c = mat_mul a (mat_mul b c).
Proof. exact mat_mul_assoc. Qed.
(** _mat_mul is correct when both operands are the same object (m @= m). *)
Theorem c04_mat_mul_alias_safe : forall s, mat_mul_self s = mat_mul s s.
Proof. exact mat_mul_self_eq. Qed.
(** The same, generically: the translator also emits the nine entries as expanded polynomials ([mat_mul_self_tied],
    [mat_mul_ss_tied]: the expansion is right); equality of the two lists is a named instance obligation per row. *)
Theorem c04_mat_mul_alias_generic : polys_eqb mat_mul_self_polys mat_mul_ss_polys = true -> forall s, mat_mul_self s = mat_mul s s.
Proof.
  intros H s. apply (list_eqb_eq _ poly_eqb_eq) in H. apply entries_inj.
  rewrite <- mat_mul_self_tied, <- mat_mul_ss_tied, H. reflexivity.
Qed.
Theorem c04_rotation_closed : forall a b, rotation a -> rotation b -> rotation (mat_mul a b) /\ rotation (transpose a).
Proof. intros a b Ha Hb. split; [exact (rotation_mul a b Ha Hb) | exact (rotation_transpose a Ha)]. Qed.
Theorem c04_rotation_preserves_length : forall m v, rotation m ->
  let w := vec_rot m v in vx w * vx w + vy w * vy w + vz w * vz w = vx v * vx v + vy v * vy v + vz v * vz v.
Proof. exact vec_rot_len. Qed.

(** ** inverse = transpose on rotations: the transpose is a two-sided inverse and the ONLY left or right inverse *)
Theorem c04_rotation_inverse_is_transpose : forall m, rotation m ->
  mat_mul m (transpose m) = I3 /\ mat_mul (transpose m) m = I3 /\
  (forall n, mat_mul n m = I3 -> n = transpose m) /\ (forall n, mat_mul m n = I3 -> n = transpose m).
Proof. exact rotation_inverse_is_transpose. Qed.

(** ** inverse() itself (Gauss-Jordan with partial pivoting).  [p] ranges over the straight-line programs of row operations
    that the translator can read out of MatrixBase.inverse (Gen/RotInverse_gen.v: [inverse_prog]); [gj_prog_ok] is the
    decidable acceptance test (abstract interpretation of the left block) that the check discharges for today's source;
    [gj_inverse Rnum p] is the interpreter over the reals, the same Gallina function that is compared bit for bit with
    the implementation over IEEE doubles.  Whenever inverse() returns, the result is a left inverse ... *)
Theorem c04_gauss_jordan_inverse : forall p, gj_prog_ok p = true ->
  forall m n, gj_inverse Rnum p (rows_of m) = GOk n -> mat_mul (mat_of n) m = I3.
Proof. exact gauss_jordan_inverse. Qed.
(** ... so on a rotation inverse() returns exactly the transpose. *)
Theorem c04_inverse_is_transpose_on_rotations : forall p, gj_prog_ok p = true ->
  forall m n, rotation m -> gj_inverse Rnum p (rows_of m) = GOk n -> mat_of n = transpose m.
Proof. exact gauss_jordan_inverse_rotation. Qed.

(** inverse() RETURNS on every rotation (exact arithmetic): for every program accepted by the second decidable test
    [gj_total_ok] (Rot/RotGJTotal.v: intervals for the absolute value of every entry of the left block and a lower bound of
    |det|; every pivot search finds a pivot, every divisor is non-zero, every diagonal entry passes the threshold test)
    the interpreter over the reals returns a result on every rotation ... *)
Theorem c04_inverse_returns_on_rotations : forall p, gj_total_ok p = true ->
  forall m, rotation m -> exists n, gj_inverse Rnum p (rows_of m) = GOk n.
Proof. exact gj_inverse_total. Qed.
(** ... so inverse() equals transpose() on rotations, without the proviso "whenever it returns". *)
Theorem c04_inverse_equals_transpose_on_rotations : forall p, gj_prog_ok p = true -> gj_total_ok p = true ->
  forall m, rotation m -> exists n, gj_inverse Rnum p (rows_of m) = GOk n /\ mat_of n = transpose m.
Proof. exact gj_inverse_rotation_is_transpose. Qed.
(** The first pivot, quantitatively: the largest entry of every column of a rotation has square >= 1/3 (|pivot| >= 1/sqrt 3),
    five orders of magnitude above the 0.00001 threshold. *)
Theorem c04_rotation_column_pivot_bound : forall m, rotation m ->
  (1 / 3 <= Rmax (aa m * aa m) (Rmax (ba m * ba m) (ca m * ca m))) /\
  (1 / 3 <= Rmax (ab m * ab m) (Rmax (bb m * bb m) (cb m * cb m))) /\
  (1 / 3 <= Rmax (ac m * ac m) (Rmax (bc m * bc m) (cc m * cc m))).
Proof.
  intros m Hm. destruct (rotation_transpose m Hm) as [(N1 & N2 & N3 & _) _].
  repeat split; apply third_le_max; [exact N1 | exact N2 | exact N3].
Qed.

(** ** Matrix -> Angle -> Matrix.  libm's atan2 enters only through the visible premise [atan2_spec]. *)
Theorem c04_euler_roundtrip : forall atan2, atan2_spec atan2 ->
  forall m, rotation m -> horiz m > 1 / 1000 -> from_angle_obj (to_angle atan2 m) = m.
Proof. exact euler_roundtrip. Qed.
(** The test that selects the non-degenerate branch, generically in the (operator, left operand, literal) read from
    the source: an accepted guard IS "horizontal length of the forward row > 0.001" (the three parts of [guard_cfg_ok] are
    named instance obligations), and the reified guard is the generated one. *)
Theorem c04_to_angle_guard_is_engine_threshold : forall c, guard_cfg_ok c = true ->
  forall m, guard_den c m <-> horiz m > 1 / 1000.
Proof. exact guard_ok_horiz. Qed.
Theorem c04_to_angle_guard_tied : forall s, ta_guard s <-> guard_den ta_guard_cfg s.
Proof. exact ta_guard_tied. Qed.
(** The pitch: a reified component accepted by [pitch_ok] is atan2(-forward.z, horizontal length) - total on every matrix,
    also on a product whose forward.z was rounded to 1.0000000000000002 - and the reified components are the generated ones. *)
Theorem c04_to_angle_pitch_is_atan2 : forall c, pitch_ok c = true -> forall s t, comp_den s c t ->
  exists n, t = TaAtan2 n (- ac s) (horiz s).
Proof.
  intros c H s t D. destruct c as [[y|y] [x|x] | q |]; try discriminate.
  cbn [pitch_ok] in H. apply andb_prop in H as [H1 H2]. apply poly_eqb_eq in H1, H2. subst y x.
  destruct t as [n y' x' | c']; cbn [comp_den] in D; [|contradiction]. destruct D as [D1 D2]. exists n. subst y' x'.
  unfold horiz, neg_forz_poly, horiz_sq_poly; cbn [gexpr_den poly_den mono_den atom_den slot_of fst snd].
  f_equal; [ring | f_equal; ring].
Qed.
Theorem c04_to_angle_pitch_tied : forall s,
  comp_den s ta_pitch_main_cfg (fst (fst (ta_main s))) /\ comp_den s ta_pitch_lock_cfg (fst (fst (ta_lock s))).
Proof. exact ta_pitch_tied. Qed.
(** Inside the gimbal-lock band every entry is reproduced within twice the horizontal length of the forward axis. *)
Theorem c04_gimbal_error_bound : forall atan2, atan2_spec atan2 ->
  forall m, rotation m -> horiz m <= 1 / 1000 -> mat_close (2 * horiz m) (from_angle_obj (to_angle atan2 m)) m.
Proof. exact gimbal_error_bound. Qed.

(** ** Every mix of Vec / Angle / Matrix operands, in-place and frozen variants included.
    An accepted dispatch table: each supported (form, left class, right class, same-object?) row returns the
    specification product [spec], returns a fresh object and leaves both operands unchanged unless it is the in-place
    form on a mutable left operand.  The check discharges [table_ok dispatch_table = true] in the kernel on every run. *)
Theorem c04_dispatch_sound : forall atan2 tbl, table_ok tbl = true -> forall t, In t tbl -> row_meaning atan2 t.
Proof. exact dispatch_sound. Qed.
Theorem c04_dispatch_handled : forall tbl, table_ok tbl = true -> forall t, In t tbl ->
  expected (t_l t) (t_r t) (t_alias t) <> None -> t_form t <> FRmatmul -> t_out t <> ONone.
Proof. exact dispatch_handled. Qed.
Theorem c04_dispatch_complete : forall tbl, table_ok tbl = true -> forall f l r,
  exists t, In t tbl /\ t_form t = f /\ t_l t = l /\ t_r t = r /\ t_alias t = false.
Proof. exact dispatch_complete. Qed.
(** In-place variants.  For an accepted table, `l @= r` on a supported pair returns a value; when the class of
    [l] is mutable (Vec, Angle, Matrix) the object returned is the receiver itself and the receiver's final value is the
    specification product, so every alias of it holds the product; when it is frozen or a tuple the result is a new object
    and the receiver keeps its value. *)
Theorem c04_inplace_stores_into_self : forall atan2 tbl, table_ok tbl = true -> forall t, In t tbl ->
  t_form t = FImatmul -> expected (t_l t) (t_r t) (t_alias t) <> None ->
  exists c i v fl fr, t_out t = OValue c i v fl fr /\
    i = (if mutable (t_l t) then IdL else IdFresh) /\
    forall L R, well_kinded (kind_of (t_l t)) L -> well_kinded (kind_of (t_r t)) R -> (t_alias t = true -> R = L) ->
      denote atan2 L R v = spec atan2 L R /\ spec atan2 L R <> None /\
      denote atan2 L R fl = (if mutable (t_l t) then spec atan2 L R else Some L).
Proof. exact dispatch_inplace. Qed.
(** ... and the in-place variant denotes the same value as the pure one: the rows of `l @ r` and `l @= r` return equal
    values; `@` returns a new object and leaves its receiver alone; the mutable receiver of `@=` ends up holding exactly the
    value `@` returns. *)
Theorem c04_inplace_agrees_with_pure : forall atan2 tbl, table_ok tbl = true -> forall t1 t2, In t1 tbl -> In t2 tbl ->
  t_form t1 = FMatmul -> t_form t2 = FImatmul -> t_l t1 = t_l t2 -> t_r t1 = t_r t2 -> t_alias t1 = t_alias t2 ->
  expected (t_l t2) (t_r t2) (t_alias t2) <> None ->
  exists c1 v1 fl1 fr1 c2 i2 v2 fl2 fr2,
    t_out t1 = OValue c1 IdFresh v1 fl1 fr1 /\ t_out t2 = OValue c2 i2 v2 fl2 fr2 /\
    i2 = (if mutable (t_l t2) then IdL else IdFresh) /\
    forall L R, well_kinded (kind_of (t_l t2)) L -> well_kinded (kind_of (t_r t2)) R -> (t_alias t2 = true -> R = L) ->
      denote atan2 L R v1 = denote atan2 L R v2 /\ denote atan2 L R fl1 = Some L /\
      denote atan2 L R fl2 = (if mutable (t_l t2) then denote atan2 L R v1 else Some L).
Proof. exact inplace_agrees_with_pure. Qed.
(** The shape of seeded fault c04_5 / of `Angle @= FrozenMatrix` on the pinned tree: a mutable receiver that falls back to the fresh
    result of `@` (value right, receiver untouched) is rejected - as is a frozen receiver that is returned itself. *)
Example c04_inplace_fallback_refuted :
  let e := TToAngle (TMatMul (TFromAngle TL) TR) in
  inplace_ok (Triple FImatmul CAngle CMatrix false (OValue CAngle IdFresh e TL TR)) = false /\
  triple_ok (Triple FImatmul CAngle CMatrix false (OValue CAngle IdFresh e TL TR)) = true /\
  inplace_ok (Triple FImatmul CAngle CMatrix false (OValue CAngle IdL e e TR)) = true /\
  inplace_ok (Triple FImatmul CFrozenAngle CMatrix false (OValue CFrozenAngle IdL e e TR)) = false.
Proof. repeat split. Qed.
(** The census of ALL in-place operator methods of the operand classes (`+= -= *= /= //= %= @=`; Gen/RotInplace_gen.v, read
    from the class bodies and the expanded exec() templates on every run): for an accepted census every in-place method
    belongs to mutable classes only (no frozen class has or inherits one, so `frozen op= x` is the pure operator), updates the
    receiver on some path, and every path either defers (NotImplemented) or returns the receiver after storing into it. *)
Theorem c04_inplace_census_sound : forall c, census_ok c = true -> forall m, In m c ->
  im_mutable m = true /\ im_frozen_reach m = false /\
  (exists p, In p (im_paths m) /\ p <> PNotImplemented) /\
  forall p, In p (im_paths m) -> p = PNotImplemented \/ exists n, p = PSelf (S n).
Proof. exact census_ok_sound. Qed.
(** Matrix conversions (Gen/RotCopies_gen.v: copy, __deepcopy__, freeze, thaw, _new_copy classified by symbolic
    execution as `return self` or a field-for-field new matrix): for an accepted table a mutable matrix is never handed out as
    its own copy, _new_copy (what `@` multiplies in place) is a new object of the receiver's class also for a frozen matrix,
    freeze gives a FrozenMatrix and thaw a Matrix. *)
Theorem c04_matrix_copies_sound : forall t, copies_ok t = true -> forall r, In r t ->
  (cr_frozen r = false -> cr_alias r = false) /\
  (cr_meth r = CNewCopy -> cr_alias r = false /\ cr_result_frozen r = cr_frozen r) /\
  (cr_meth r = CFreeze -> cr_result_frozen r = true) /\ (cr_meth r = CThaw -> cr_result_frozen r = false).
Proof.
  intros t H r Hr. unfold copies_ok in H. apply andb_prop in H as [H _]. rewrite forallb_forall in H. specialize (H r Hr).
  unfold crow_ok in H. destruct r as [f m a rf]; cbn in *.
  destruct m, f, a, rf; cbn in H; try discriminate; repeat split; intros; try discriminate; reflexivity.
Qed.
(** The in-place rotation METHODS (Gen/RotMethods_gen.v: the bodies of Vec.localise, Vec.transform(),
    Angle.transform() and Vec.rotate executed symbolically on every run, the body of `with x.transform() as m:` being
    `m @= rot`): for an accepted table the receiver ends up holding the pure form - `v @ angles + origin`, `v @ rot`,
    `a @ rot` (through the Euler extraction), `v @ Angle(p, y, r)` - and the rotation argument keeps its value. *)
Theorem c04_inplace_methods_sound : forall atan2 t, methods_ok t = true -> forall r, In r t ->
  forall S Rt O rm, rot_mat (mr_rot r) Rt = Some rm -> method_spec atan2 (mr_meth r) S O rm <> None ->
    mdenote atan2 S Rt O (mr_self r) = method_spec atan2 (mr_meth r) S O rm /\ mdenote atan2 S Rt O (mr_rot_final r) = Some Rt.
Proof. exact methods_ok_sound. Qed.
(** x @ Angle is x @ Matrix.from_angle(Angle). *)
Theorem c04_angle_operand_is_from_angle : forall atan2 L a,
  spec atan2 L (VAng a) = spec atan2 L (VMat (from_angle_obj a)).
Proof. reflexivity. Qed.
(** ... and not only over the reals: the two are the same computation.  For every interpretation of the table terms over
    arbitrary carriers and operations (e.g. IEEE binary64 with the float from_angle / _to_angle / _mat_mul / _vec_rot), the
    value of an accepted row with an Angle (Angle or FrozenAngle) on the right equals the value of the row with a Matrix on
    the right at [from_angle] of the angle - bit for bit when the interpretation is the float one. *)
Theorem c04_angle_operand_same_computation :
  forall (GV GM GA : Type) (fa : GA -> GM) (ta : GM -> GA) (mm : GM -> GM -> GM) (mms : GM -> GM) (vr : GM -> GV -> GV)
    tbl, table_ok tbl = true -> forall t1 t2, In t1 tbl -> In t2 tbl ->
    t_form t1 = t_form t2 -> t_l t1 = t_l t2 -> kind_of (t_r t1) = KA -> kind_of (t_r t2) = KM ->
    t_alias t1 = false -> t_alias t2 = false ->
    forall c1 i1 v1 fl1 fr1 c2 i2 v2 fl2 fr2,
      t_out t1 = OValue c1 i1 v1 fl1 fr1 -> t_out t2 = OValue c2 i2 v2 fl2 fr2 ->
      forall L a, gdenote GV GM GA fa ta mm mms vr L (GAng GV GM GA a) v1
                = gdenote GV GM GA fa ta mm mms vr L (GMat GV GM GA (fa a)) v2.
Proof. exact angle_operand_same_computation. Qed.
(** (v @ A) @ B = v @ (A @ B) for A a Matrix (exact) ... *)
Theorem c04_mixed_assoc_matrix : forall atan2 v x B m, rhs_mat B = Some m ->
  spec atan2 (VMat x) B = Some (VMat (mat_mul x m)) /\
  spec atan2 (VVec (vec_rot x v)) B = spec atan2 (VVec v) (VMat (mat_mul x m)).
Proof.
  intros atan2 v x B m HB. unfold spec. rewrite HB. cbn [rhs_mat]. split; [reflexivity|].
  now rewrite vec_rot_assoc.
Qed.
(** ... and for A an Angle, where A @ B goes through the Euler extraction (exact outside the gimbal band). *)
Theorem c04_mixed_assoc_angle : forall atan2, atan2_spec atan2 -> forall v a B m, rhs_mat B = Some m ->
  horiz (mat_mul (from_angle_obj a) m) > 1 / 1000 -> rotation m ->
  exists ab, spec atan2 (VAng a) B = Some (VAng ab) /\
    spec atan2 (VVec (vec_rot (from_angle_obj a) v)) B = spec atan2 (VVec v) (VAng ab).
Proof.
  intros atan2 A v a B m HB Hh Hm. exists (to_angle atan2 (mat_mul (from_angle_obj a) m)).
  unfold spec. rewrite HB. cbn [rhs_mat]. split; [reflexivity|].
  rewrite (euler_roundtrip atan2 A).
  - now rewrite vec_rot_assoc.
  - apply rotation_mul; [rewrite from_angle_obj_eq; apply from_angle_rotation | exact Hm].
  - exact Hh.
Qed.

(** ** "... up to rounding": the float side of v @ M and A @ B.
    The expression trees of _vec_rot and _mat_mul (reified from the same trees that are compared bit for bit with the
    implementation) evaluated with a rounding after every + - * stay within a rational bound [fe_err] of their exact value:
    sound for every tree, every input bound and every rounding with |rnd t - t| <= u |t| + eta ... *)
Theorem c04_rounding_analysis_sound : forall rnd u eta,
  (forall t, Rabs (rnd t - t) <= Q2R u * Rabs t + Q2R eta) -> 0 <= Q2R u ->
  forall B env, (forall n, Rabs (env n) <= Q2R (B n)) ->
  forall e, Rabs (fe_exact env e) <= Q2R (fe_mag B e) /\ Rabs (fe_fl rnd env e - fe_exact env e) <= Q2R (fe_err u eta B e).
Proof. exact fe_error_bound. Qed.
(** ... IEEE binary64 round-to-nearest-even (Flocq's [round radix2 (FLT_exp (-1074) 53) ZnearestE]) is one, with u = 2^-53
    and eta = 2^-1075 (underflow included; overflow excluded: the exponent range of [rnd64] is unbounded above) ... *)
Theorem c04_binary64_rounding : forall t, Rabs (rnd64 t - t) <= Q2R u64 * Rabs t + Q2R eta64.
Proof. exact rnd64_error. Qed.
(** ... the trees are the generated real formulas ... *)
Theorem c04_rounded_trees_tied : forall s o v,
  map (fe_exact (env_sov s o v)) vec_rot_fe = [vx (vec_rot s v); vy (vec_rot s v); vz (vec_rot s v)] /\
  map (fe_exact (env_sov s o v)) mat_mul_fe = (let m := mat_mul s o in [aa m; ab m; ac m; ba m; bb m; bc m; ca m; cb m; cc m]).
Proof. intros s o v. split; [apply vec_rot_fe_tied | apply mat_mul_fe_tied]. Qed.
(** ... so every component of the binary64 v @ M is within [tol] of the real v @ M, and every entry of the binary64 A @ B
    within [tol] of the real product, for all matrices with entries up to [bm] (exact rotations: 1) and vectors with
    components up to [bv], whenever the decidable test accepts [tol] (named instance obligations, e.g. 2e-15 for unit
    inputs: the oracle's tolerance 1e-9 is not an empirical number for these two formulas). *)
Theorem c04_vec_rot_binary64_error : forall bm bv tol, errs_within bm bv tol vec_rot_fe = true ->
  forall s v, mat_within bm s -> vec_within bv v -> forall i, (i < 3)%nat ->
  Rabs (nth i (map (fe_fl rnd64 (env_sov s s v)) vec_rot_fe) 0 -
        nth i [vx (vec_rot s v); vy (vec_rot s v); vz (vec_rot s v)] 0) <= Q2R tol.
Proof.
  intros bm bv tol Hok s v Hs Hv i Hi. rewrite <- (vec_rot_fe_tied s s v). apply nth_map_within; [|exact Hi].
  exact (binary64_error_within bm bv tol vec_rot_fe Hok (env_sov s s v) (env_bounded s s v bm bv Hs Hs Hv)).
Qed.
Theorem c04_mat_mul_binary64_error : forall bm tol, errs_within bm 0 tol mat_mul_fe = true ->
  forall s o, mat_within bm s -> mat_within bm o -> forall i, (i < 9)%nat ->
  Rabs (nth i (map (fe_fl rnd64 (env_sov s o (Vec3 0 0 0))) mat_mul_fe) 0 -
        nth i (let m := mat_mul s o in [aa m; ab m; ac m; ba m; bb m; bc m; ca m; cb m; cc m]) 0) <= Q2R tol.
Proof.
  intros bm tol Hok s o Hs Ho i Hi. rewrite <- (mat_mul_fe_tied s o (Vec3 0 0 0)). apply nth_map_within; [|exact Hi].
  exact (binary64_error_within bm 0 tol mat_mul_fe Hok _ (env_bounded s o (Vec3 0 0 0) bm 0 Hs Ho vec_within_0)).
Qed.
(** Matrix.from_angle in binary64.  The arithmetic of the nine entries runs on libm's sin / cos values [inp]; if these are
    within [d] of the real sin / cos of the real angles, every entry of the float matrix is within [tol] of the exact rotation
    [from_angle p y r] and at most 1 + tol in absolute value - for every [d], [tol] the decidable test accepts for today's
    trees (obligations: 1e-15 for d = 0, 3e-14 for d = 5e-15; the check measures d on sampled angles with 50-digit
    arithmetic).  libm's accuracy is the visible hypothesis; the trees are tied to the generated [from_angle]. *)
Theorem c04_from_angle_binary64_error : forall d tol, errs_within_in 1 d tol from_angle_fe = true ->
  forall p y r inp, (forall n, Rabs (inp n - from_angle_inputs p y r n) <= Q2R d) ->
  forall i, (i < 9)%nat ->
  let fl := nth i (map (fe_fl rnd64 inp) from_angle_fe) 0 in
  let ex := nth i (let m := from_angle p y r in [aa m; ab m; ac m; ba m; bb m; bc m; ca m; cb m; cc m]) 0 in
  Rabs (fl - ex) <= Q2R tol /\ Rabs fl <= 1 + Q2R tol.
Proof. exact from_angle_binary64_error. Qed.
(** Matrix -> Angle -> Matrix in binary64, outside the gimbal band: the exact Euler round trip composed with the
    bound above.  For an exact rotation [m] with horizontal length > 0.001: if the six sin / cos values the float from_angle
    runs on are within [d] of the real sin / cos of the exact Euler angles of [m] (this hypothesis contains the float error of
    _to_angle's atan2 / degrees / % 360 and of radians / sin / cos; the check measures it against 60-digit arithmetic on every
    run: about 1.5e-15, also for horizontal lengths down to 0.0011), every entry of the float matrix is within [tol] of [m]
    (obligation: 2e-13 for d = 2e-14). *)
Theorem c04_euler_roundtrip_binary64 : forall atan2, atan2_spec atan2 ->
  forall d tol, errs_within_in 1 d tol from_angle_fe = true ->
  forall m, rotation m -> horiz m > 1 / 1000 ->
  forall inp,
    (forall n, Rabs (inp n - from_angle_inputs (a_pitch (to_angle atan2 m)) (a_yaw (to_angle atan2 m))
                                               (a_roll (to_angle atan2 m)) n) <= Q2R d) ->
  forall i, (i < 9)%nat ->
    Rabs (nth i (map (fe_fl rnd64 inp) from_angle_fe) 0
          - nth i [aa m; ab m; ac m; ba m; bb m; bc m; ca m; cb m; cc m] 0) <= Q2R tol.
Proof. exact euler_roundtrip_binary64. Qed.
Theorem c04_from_angle_trees_tied : forall p y r,
  map (fe_exact (from_angle_inputs p y r)) from_angle_fe =
  (let m := from_angle p y r in [aa m; ab m; ac m; ba m; bb m; bc m; ca m; cb m; cc m]).
Proof. exact from_angle_fe_tied. Qed.
Theorem c04_rotation_entries_within_1 : forall m, rotation m -> mat_within 1 m.
Proof. intros m H. unfold mat_within. rewrite Q2R_1'. exact (rotation_entries_le1 m H). Qed.

(** ** The whole property in one statement: [c04_statement] (Rot/RotProperty.v) is the conjunction of: from_angle is a
    proper rotation equal to roll * pitch * yaw; rotation composes associatively; x @ Angle = x @ Matrix.from_angle(Angle);
    every row of the dispatch table denotes the specification product with fresh results / untouched operands, @= on a mutable
    receiver returns the receiver holding the product and on a frozen receiver a new object, the table is complete, every
    in-place operator method belongs to mutable classes only and returns the receiver it stored into; the in-place rotation
    methods leave the pure operator form in the receiver; Matrix -> Angle ->
    Matrix is exact outside the gimbal band and within 2 * horizontal length inside; inverse() returns transpose() on every
    rotation.  Hypotheses: atan2 by its specification and the five acceptance tests of the objects read from math.py;
    Props/C04Today.v proves the five tests for today's generated objects. *)
Theorem c04_property : forall atan2 tbl prog census methods,
  atan2_spec atan2 -> table_ok tbl = true -> gj_prog_ok prog = true -> gj_total_ok prog = true -> census_ok census = true ->
  methods_ok methods = true ->
  c04_statement atan2 tbl prog census methods.
Proof. exact c04_whole_property. Qed.

(** ** The shape of the pivot searches of inverse() (Gen/RotPivot_gen.v, read by a tolerant reader: which comparison, how
    the largest value so far and the pivot row start, which test reports "no inverse").  An accepted shape selects a row whose
    entry is not zero - and largest in absolute value - whenever some candidate entry is not zero; the shape of seeded fault
    c04_6 (largest value so far seeded with the SIGNED diagonal entry) reports "no inverse" for the column (-1, 0, 0). *)
Theorem c04_pivot_search_finds_nonzero_pivot : forall s es, pv_shape_ok s = true -> (exists e, In e es /\ e <> 0) ->
  exists i, pv_search s es = Some i /\ (i < length es)%nat /\ nth i es 0 <> 0 /\ forall e, In e es -> Rabs e <= Rabs (nth i es 0).
Proof. exact pv_shape_ok_finds_nonzero_pivot. Qed.
Theorem c04_pivot_signed_seed_refuted :
  pv_shape_ok signed_seed_shape = false /\ pv_search signed_seed_shape [-1; 0; 0] = None /\ In (-1) [-1; 0; 0] /\ -1 <> 0.
Proof. exact signed_seed_refuted. Qed.

(** ** Histories of calls.  A census of the objects of math.py that outlive a call (module-level and class-level
    mutable objects; who reads them, who updates them; caching decorators, mutable defaults, global declarations, reflective
    access, foreign imports), regenerated on every run (Gen/RotState_gen.v), accepted by [state_ok]: every call of a history
    returns what it returns as the first call of a new process.  [footprint] (the census describes the real module) is the
    visible, trusted hypothesis. *)
Theorem c04_state_census_sound : forall c, state_ok c = true ->
  reads_not_written c = true /\ sc_writes c = [] /\ sc_write_sites c = [] /\ sc_class_writes c = [] /\ sc_decorators c = [] /\
  sc_defaults c = [] /\ sc_globals c = [] /\ sc_reflective c = [] /\ sc_imports c = [].
Proof. exact state_ok_parts. Qed.
Theorem c04_history_independent : forall (V A B : Type) (run : A -> store V -> B * store V) (R W : list String.string),
  footprint V A B run R W -> (forall n, In n R -> ~ In n W) ->
  forall h a g, fst (run a (after V A B run h g)) = fst (run a g).
Proof. exact history_independent. Qed.
Theorem c04_state_ok_history_independent : forall (V A B : Type) (run : A -> store V -> B * store V) (c : state_census),
  state_ok c = true -> footprint V A B run (sc_reads c) (sc_writes c) ->
  forall h a g, fst (run a (after V A B run h g)) = fst (run a g).
Proof. exact state_ok_history_independent. Qed.
(** The rejected shape (seeded fault c04_8, a memo table keyed by the text alone): rejected by [state_ok], and a [run] with that
    footprint does answer a later call with the fallback of the first one. *)
Theorem c04_memo_by_text_refuted : memo_refuted_statement.
Proof. exact memo_by_text_refuted. Qed.
(** The whole property, for every call of a history: [c04_property] plus [state_ok] of the state census. *)
Theorem c04_property_histories : forall atan2 tbl prog census methods sc,
  atan2_spec atan2 -> table_ok tbl = true -> gj_prog_ok prog = true -> gj_total_ok prog = true -> census_ok census = true ->
  methods_ok methods = true -> state_ok sc = true ->
  c04_statement atan2 tbl prog census methods /\ c04_history_statement sc.
Proof. exact c04_whole_property_histories. Qed.
Example c04_state_hyp_satisfiable : state_ok constant_table_census = true.
Proof. exact constant_table_accepted. Qed.

(** Non-vacuity of the Gauss-Jordan theorems: a program equal to today's generated one is accepted and inverse() returns on
    the identity (which is a rotation). *)
Example c04_inverse_hyp_satisfiable :
  gj_prog_ok gj_ref_prog = true /\ gj_inverse Rnum gj_ref_prog (rows_of I3) = GOk (rows_of I3).
Proof. exact gj_identity. Qed.
Example c04_inverse_total_hyp_satisfiable : gj_total_ok gj_ref_prog = true /\ rotation I3.
Proof. exact gj_ref_total. Qed.
(** Non-vacuity: the identity is a rotation outside the gimbal band; the pole is a rotation inside it. *)
Example c04_hyp_satisfiable_main : rotation I3 /\ horiz I3 > 1 / 1000.
Proof. exact rotation_I3_main. Qed.
Example c04_hyp_satisfiable_lock : rotation (Mat 0 0 (-1)  0 1 0  1 0 0) /\ horiz (Mat 0 0 (-1)  0 1 0  1 0 0) <= 1 / 1000.
Proof. exact rotation_pole_lock. Qed.
