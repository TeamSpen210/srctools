(** C08 — IDs handed out inside one VMF are unique per kind and never reused while live.
    The statements, with the proofs that take a few lines; the others are in SM/IdManProofs.v, SM/IdManSpecProofs.v, SM/IdLifeProofs.v,
    SM/IdWorldProofs.v and SM/IdNodeProofs.v. *)
From stdpp Require Import gmap sets.
From Coq Require Import ZArith.
From SV Require Import SM.IdMan SM.IdManProofs SM.IdManSpec SM.IdManSpecProofs SM.IdLife SM.IdLifeProofs
  SM.IdWorld SM.IdWorldProofs SM.IdNode SM.IdNodeProofs SM.IdFixupHist SM.IdFixupHistProofs SM.IdNest SM.IdNestProofs SM.IdNodeMaps SM.IdNodeMapsProofs SM.IdCtor SM.IdCtorProofs SM.IdAllProofs Gen.IdSites_gen.
Open Scope Z_scope.

(** Release discipline read from the source census (Gen/IdSites_gen.v). *)
Definition kind_eqb (a b : kind) : bool :=
  match a, b with
  | KEnt, KEnt | KSolid, KSolid | KFace, KFace | KGroup, KGroup | KVis, KVis | KNode, KNode => true
  | _, _ => false
  end.
Definition release_on_remove (k : kind) : bool :=
  existsb (λ '(k', s, _), kind_eqb k k' && match s with SDel => false | _ => true end) release_sites.
Definition all_id_stores_from_get_id : bool := forallb snd id_stores.
(** Each class releases and acquires only in the manager of its own kind. *)
Definition class_kind_consistent : bool := forallb snd class_kind_sites.

(** Every constructor call and nested copy() inside the copy() methods and collapse_one that produces an object
    of kind [k] takes the ID from the destination map (and there is at least one such site). *)
Definition copy_to_dest (k : kind) : bool :=
  forallb (λ '(k', _, ok), implb (kind_eqb k k') ok) copy_sites &&
  existsb (λ '(k', _, _), kind_eqb k k') copy_sites.
(** remove_ent releases the nav-node ID of an entity that keeps its 'nodeid' key. *)
Definition node_release_on_remove : bool :=
  existsb (λ '(k, s, _), kind_eqb k KNode && match s with SRemoveFromMap => true | _ => false end) release_sites.

(** Every place that can put a key into an entity's keyvalue dictionary goes through Entity.__setitem__
    (which registers a 'nodeid' value with the map's node_id manager and stores the ID it was given) or cannot
    concern the 'nodeid' key.  [node_copy_registers]: the same for the sites on the constructor / copy() path. *)
Definition keys_writes_registered : bool :=
  forallb (λ '(_, _, _, ok), ok) keys_write_sites && node_setitem_registers.
Definition node_copy_registers : bool :=
  forallb (λ '(_, _, c, ok), match c with KwCtor => ok | _ => true end) keys_write_sites.

(** Every place that can put a value into the index table of an EntityFixup is one of the modelled
    operations (constructor's accepting store, __setitem__'s lowest-unused-index store, index-preserving duplicate). *)
Definition fixup_writes_modelled : bool := forallb (λ '(_, _, _, ok), ok) fixup_write_sites.

(** The steps of VMF.parse that touch entity / brush / face IDs, read off its body in source order
    (Gen/IdSites_gen.v), as a program of SM/IdNest.v. *)
Definition parse_program : list pstep :=
  List.map (λ g, match g with GPPlaceholder => PPlaceholder | GPWorld => PWorld | GPDropPlaceholder => PDropPlaceholder
                            | GPEntities => PEntities | GPReleasePlaceholder => PReleasePlaceholder end) parse_steps.
(** VMF.parse itself releases no ID (the placeholder's ID is given back by its destructor, once). *)
Definition parse_releases_nothing : bool := prog_ok parse_program.

(** The constructor of every ID-bearing class as a step list of SM/IdCtor.v (attrs classes: the generated __init__ field by
    field, validators, __attrs_post_init__), with the shape of its destructor (releases self.id at all / only under an ownership flag). *)
Definition ctor_step_of (g : ctor_step) : cstep :=
  match g with GCStoreRaw => CStoreRaw | GCMayRaise => CMayRaise | GCRegister => CRegister | GCSetOwned => CSetOwned end.
Definition ctor_models : list (list cstep * bool * bool) :=
  List.map (λ r : kind * String.string * list ctor_step * bool * bool, (List.map ctor_step_of r.1.1.2, r.1.2, r.2)) ctor_classes.
Definition ctor_model_of (k : kind) : list (list cstep * bool * bool) :=
  List.map (λ r : kind * String.string * list ctor_step * bool * bool, (List.map ctor_step_of r.1.1.2, r.1.2, r.2))
           (List.filter (λ r : kind * String.string * list ctor_step * bool * bool, kind_eqb k r.1.1.1.1) ctor_classes).
(** At no point where a constructor can raise does [self.id] hold an ID that the object has not registered while the destructor
    would release it; a completed object holds a registered ID. *)
Definition constructors_fail_safely : bool := ctors_ok ctor_models.
(** copy.copy() of an object whose class has a releasing destructor goes through copy() (hence the constructor): no object comes into
    being with the fields -- ID, ownership flag -- of another one. *)
Definition copy_module_copies_are_real_copies : bool := forallb snd shallow_copy_sites.
Definition constructor_fails_safely (k : kind) : bool := ctors_ok (ctor_model_of k) && negb (Nat.eqb (length (ctor_model_of k)) 0).

(** The allocator scan always terminates (pigeonhole on the used set). *)
Theorem c08_get_id_total : ∀ d s, is_Some (get_id d s).
Proof. exact get_id_total. Qed.

(** Every ID handed out is positive and not in use; the allocator invariant is kept. *)
Theorem c08_get_id_fresh : ∀ d s i s', Inv s → get_id d s = Some (i, s') →
  0 < i ∧ i ∉ used s ∧ used s' = {[i]} ∪ used s ∧ Inv s'.
Proof. exact get_id_fresh. Qed.

Theorem c08_discard_keeps_invariant : ∀ e s, Inv s → Inv (discard e s).
Proof. exact discard_inv. Qed.
(** ... which needs the positivity guard on lowering the hint: *)
Theorem c08_discard_unguarded_refuted : fst <$> get_id (-1) (discard_g false (-1) init) = Some (-1).
Proof. vm_compute. reflexivity. Qed.

(** Lifecycle: for every kind whose only release sites are destructors, after EVERY history of creation with
    arbitrary desired IDs, removal from the map, re-adding and garbage collection, the objects that still
    exist have pairwise distinct, positive IDs. *)
Theorem c08_live_ids_unique : ∀ k es, release_on_remove k = false →
  let w := lrun (release_on_remove k) es in NoDup (live_ids w) ∧ (∀ i, i ∈ live_ids w → 0 < i).
Proof. intros k es ->. exact (live_ids_nodup_pos es). Qed.

(** The hypothesis is necessary: with a release on removal there is a history with a duplicate in the map. *)
Theorem c08_release_on_remove_refuted : has_dup (map_ids (lrun true double_release_history)) = true.
Proof. vm_compute. reflexivity. Qed.

(** replaceNN indexes of one entity's fixups: distinct and positive after construction from any list,
    provided the constructor tests positivity, and kept by every set/delete. *)
Theorem c08_fixup_init : ∀ l, FxInv (fx_init true true l).
Proof. exact fx_init_inv. Qed.
Theorem c08_fixup_set : ∀ v f, FxInv f → FxInv (fx_set v f).
Proof. exact fx_set_inv. Qed.
Theorem c08_fixup_del : ∀ v f, FxInv f → FxInv (fx_del v f).
Proof. exact fx_del_inv. Qed.
(** Without it (the pinned tree) a parsed "replace00" keeps index 0. *)
Theorem c08_fixup_init_needs_positive_test : (fx_init false true [(7, 0)]).*2 = [0].
Proof. vm_compute. reflexivity. Qed.
(** Re-inserting a rejected value at once, before the later values of the list have claimed their indexes, lets a
    later value claim the index just given away: replace02 a, replace02 b, replace01 c -> b and c share index 1. *)
Theorem c08_fixup_init_needs_deferral : (fx_init true false [(10, 2); (11, 2); (12, 1)]).*2 = [2; 1; 1].
Proof. vm_compute. reflexivity. Qed.

(** IDMan refines a plain finite set: from any state that satisfies the invariant, every sequence of
    get_id (any desired ID) / discard / remove / clear / __contains__ / __len__ yields exactly the results of the
    set-level specification (desired ID if positive and free, else the least free positive ID) started from the
    set of used IDs.  [search_pos] never shows. *)
Theorem c08_idman_refines_set : ∀ ops s, Inv s → run_res true s ops = spec_run (used s) ops.
Proof. exact idman_refines_set. Qed.
Theorem c08_idman_hint_unobservable : ∀ ops s1 s2, Inv s1 → Inv s2 → used s1 = used s2 →
  run_res true s1 ops = run_res true s2 ops.
Proof. exact hint_unobservable. Qed.
(** The states reachable in the code do satisfy it: [IDMan()] / [IDMan(existing)], and every operation keeps it. *)
Theorem c08_idman_init_from_inv : ∀ l, Inv (init_from l).
Proof. intros l. split; simpl; [lia|]. intros; lia. Qed.
Theorem c08_idman_step_inv : ∀ s o, Inv s → Inv (step true s o).1.
Proof. exact step_inv. Qed.
(** A refused or absent desired ID yields the *least* free positive ID. *)
Theorem c08_get_id_least : ∀ d s i s', Inv s → get_id d s = Some (i, s') → ¬ (0 < d ∧ d ∉ used s) →
  ∀ j, 1 ≤ j < i → j ∈ used s.
Proof. exact get_id_least. Qed.
(** Without the invariant the hint is observable (so the invariant is what makes it an optimisation). *)
Theorem c08_idman_hint_needs_invariant :
  run_res true {| used := ∅; pos := 5 |} [Get (-1)] = [5] ∧ spec_run ∅ [Get (-1)] = [1].
Proof. exact hint_observable_without_invariant. Qed.

(** Several maps: for every kind whose IDs are released only by destructors and whose copies allocate in the
    destination map, after EVERY history of construction with arbitrary desired IDs, copy() within and across
    maps, removal, re-adding, destruction, VMF.parse of documents with arbitrary (colliding, missing,
    non-positive) IDs and collapse_one of instances, the existing objects belonging to one map have pairwise
    distinct, positive IDs. *)
Theorem c08_world_live_ids_unique : ∀ k es m, release_on_remove k = false → copy_to_dest k = true →
  let w := wrun (release_on_remove k) (copy_to_dest k) es in
  NoDup (live_ids_in m w) ∧ (∀ i, i ∈ live_ids_in m w → 0 < i).
Proof. intros k es m -> ->. exact (world_live_ids_nodup_pos es m). Qed.
(** ... in particular those the map lists (what export() writes). *)
Theorem c08_world_map_ids_unique : ∀ k es m, release_on_remove k = false → copy_to_dest k = true →
  let w := wrun (release_on_remove k) (copy_to_dest k) es in
  NoDup (map_ids_in m w) ∧ (∀ i, i ∈ map_ids_in m w → 0 < i).
Proof. intros k es m -> ->. exact (world_map_ids_nodup_pos es m). Qed.
(** Whatever copy() does with its map argument, IDs are unique per *issuing* manager. *)
Theorem c08_world_keys_unique : ∀ c es, let w := wrun false c es in
  NoDup (wkeys (wobjs w)) ∧ ∀ m i, (m, i) ∈ wkeys (wobjs w) → 0 < i.
Proof.
  intros c es w. pose proof (λ m, held_unique _ _ (wrun_from_inv c es ww0 ww0_inv m)) as H. split.
  - apply wkeys_nodup. intros m. apply H.
  - intros m i Hi%elem_of_wkeys. by apply (H m).
Qed.
(** parse / collapse are the folds of their constructor / copy calls. *)
Theorem c08_parse_is_creates : ∀ r c m ds w, wstep1 r c w (WParse m ds) = wrun_from r c w (WCreate m <$> ds).
Proof. intros r c m ds. induction ds as [|d ds IH]; intros w; simpl; [done|]. apply IH. Qed.
Theorem c08_collapse_is_copies : ∀ r c m ks w,
  wstep1 r c w (WCollapse ks m) = wrun_from r c w ((λ k, WCopy k m (-1)) <$> ks).
Proof. intros r c m ks. induction ks as [|k ks IH]; intros w; simpl; [done|]. apply IH. Qed.
(** Both hypotheses are necessary. *)
Theorem c08_copy_from_source_refuted : map_ids_in 1 (wrun false false xmap_copy_history) = [1; 2; 2].
Proof. vm_compute. reflexivity. Qed.
(** Collapsing an instance whose objects take IDs from the instance map. *)
Theorem c08_collapse_from_source_refuted :
  map_ids_in 1 (wrun false false [WParse 0 [7; 7; 0]; WParse 1 [3; 1]; WCollapse [0; 1; 2]%nat 1]) = [3; 1; 3; 4; 5].
Proof. vm_compute. reflexivity. Qed.
(** Release on removal (the shape VMF.remove_ent had for entity IDs): duplicate inside one map. *)
Theorem c08_world_release_on_remove_refuted :
  map_ids_in 0 (wrun true true [WCreate 0 (-1); WRemove 0; WCreate 0 (-1); WReAdd 0]) = [1; 1].
Proof. vm_compute. reflexivity. Qed.
Example c08_parse_colliding_ids_renumbered :
  map_ids_in 0 (wrun false true [WParse 0 [5; 5; -1; 0; 1; 5; 2]]) = [5; 1; 2; 3; 4; 6; 7].
Proof. exact parse_colliding_ids. Qed.

(** Nav-node IDs ('nodeid' keyvalue): when remove_ent does not release the ID of an entity that keeps the key,
    the node IDs held by existing entities are pairwise distinct and positive after every history of
    construction / parse with any value, key assignment, key deletion, copy, removal, re-adding and destruction
    — for either shape of add_ent (re-allocating or not) and of the destructor (releasing or not) — provided
    the keyvalues of a copy enter the new entity through __setitem__. *)
Theorem c08_node_ids_unique : ∀ es, node_release_on_remove = false →
  node_copy_registers = true →
  let w := nrun node_realloc_on_add node_release_on_remove node_release_in_del node_copy_registers es in
  NoDup (nids (nents w)) ∧ (∀ i, i ∈ nids (nents w) → 0 < i).
Proof. intros es -> ->. exact (node_ids_nodup_pos _ _ es). Qed.
(** The pinned tree's shape (remove_ent releases) is refuted, with and without the re-allocation in add_ent. *)
Theorem c08_node_release_on_remove_refuted :
  has_dup (nmap_ids (nents (nrun false true false true node_release_on_remove_history))) = true ∧
  has_dup (nmap_ids (nents (nrun true true false true [NCreate (Some 0); NRemove 0; NCreate (Some (-1)); NCreate (Some (-1)); NReAdd 0; NCreate (Some (-1))]))) = true.
Proof. split; vm_compute; reflexivity. Qed.
(** The second hypothesis is necessary.  A copy that takes the key dictionary of its source over without
    __setitem__ shares the node ID of its source; and once such a copy is dropped its destructor releases the ID
    the source still holds, so a later node receives it again. *)
Theorem c08_node_copy_unregistered_refuted :
  nids (nents (nrun false false true false [NCreate (Some 1); NCopy 0])) = [1; 1] ∧
  nids (nents (nrun false false true false
                 [NCreate (Some (-1)); NCopy 0; NRemove 1; NGc 1; NCreate (Some (-1))])) = [1; 1].
Proof. split; vm_compute; reflexivity. Qed.

(** ReplaceNN indexes over whole histories: after the constructor on ANY list (colliding, zero, negative
    indexes, repeated variables) and EVERY sequence of assignments (also setdefault/update), deletions (also pop),
    clear(), rebuilds from the table's own values (Entity.copy) and index-preserving duplicates (copy/deepcopy/
    pickle), the indexes of one entity are pairwise distinct and positive — with the constructor shape read from
    the source. *)
Theorem c08_fixup_history : ∀ l ops,
  fixup_init_requires_positive = true → fixup_init_defers_reinsertion = true →
  FxInv (fx_hist fixup_init_requires_positive fixup_init_defers_reinsertion l ops).
Proof. intros l ops -> ->. exact (fx_hist_inv l ops). Qed.
(** Entity.copy() keeps the numbering: rebuilding a table whose indexes are distinct and positive gives the table. *)
Theorem c08_fixup_rebuild_keeps_indexes : ∀ f, FxInv f → FxVars f → fx_init true true f = f.
Proof.
  intros f [Hnd Hpos] Hv. unfold fx_init.
  rewrite (fx_init_pass_id f [] [] []); [done|done| |done|].
  - intros i Hi. split; [by apply Hpos|]. intros Hx. inversion Hx.
  - intros v _ Hx. inversion Hx.
Qed.
(** Both constructor properties are necessary for the history statement. *)
Theorem c08_fixup_history_needs_positive_test : (fx_hist false true [(7, 0)] [FSet 8; FRebuild]).*2 = [0; 1].
Proof. vm_compute. reflexivity. Qed.
Theorem c08_fixup_history_needs_deferral :
  (fx_hist true false [(10, 1); (11, 1); (12, 2)] [FDel 10; FSet 13]).*2 = [2; 2; 1].
Proof. vm_compute. reflexivity. Qed.

(** Entity ⊃ Solid ⊃ Side as ONE world (SM/IdNest.v): an event on a top-level object (point entity, brush
    entity with its brushes and their faces, world brush) is the whole bundle of constructor / copy() / remove /
    re-add / destructor calls made for it and its parts.  After EVERY history of such events over any number of
    maps, in every map the existing entities have pairwise distinct positive IDs, and so have the existing
    brushes (world brushes and those of entities together) and the existing faces — with the release and copy
    discipline of the three kinds read from the source.  collapse_one is an event of this world: WHICH objects it copies
    (the listed world brushes of the instance map in list order, then its listed entities) is computed by the model. *)
Theorem c08_nested_world_unique : ∀ es m,
  release_on_remove KEnt = false → release_on_remove KSolid = false → release_on_remove KFace = false →
  copy_to_dest KEnt = true → copy_to_dest KSolid = true → copy_to_dest KFace = true →
  parse_releases_nothing = true →
  let w := trun (release_on_remove KEnt) (release_on_remove KSolid) (release_on_remove KFace)
                (copy_to_dest KEnt) (copy_to_dest KSolid) (copy_to_dest KFace) parse_program es in
  (NoDup (live_ids_in m (tE w)) ∧ ∀ i, i ∈ live_ids_in m (tE w) → 0 < i) ∧
  (NoDup (live_ids_in m (tS w)) ∧ ∀ i, i ∈ live_ids_in m (tS w) → 0 < i) ∧
  (NoDup (live_ids_in m (tF w)) ∧ ∀ i, i ∈ live_ids_in m (tF w) → 0 < i).
Proof. intros es m -> -> -> -> -> -> Hp. exact (trun_unique parse_program es m Hp). Qed.
(** The same for EVERY parse program without an explicit release step, whatever the order of its steps and the
    time at which the placeholder worldspawn dies: histories may contain VMF.parse of any document (world block, world
    brushes and entity blocks with arbitrary, colliding, missing IDs; hidden objects) into any map, followed and preceded by
    any other events -- parse-then-allocate included. *)
Theorem c08_parse_any_program_unique : ∀ prog es m, prog_ok prog = true →
  let w := trun false false false true true true prog es in
  (NoDup (live_ids_in m (tE w)) ∧ ∀ i, i ∈ live_ids_in m (tE w) → 0 < i) ∧
  (NoDup (live_ids_in m (tS w)) ∧ ∀ i, i ∈ live_ids_in m (tS w) → 0 < i) ∧
  (NoDup (live_ids_in m (tF w)) ∧ ∀ i, i ∈ live_ids_in m (tF w) → 0 < i).
Proof. exact trun_unique. Qed.
(** The premise is necessary: when parse hands the placeholder's ID back itself before the world block is parsed, the
    destructor of the placeholder releases it a second time while the worldspawn holds it.  A Hammer-saved document (world
    id 1, an entity with id 2, an entity without id): entity IDs 1, 2, 1; an empty map with world id 1 followed by one
    create_ent: 1, 1. *)
Theorem c08_parse_early_release_refuted :
  let w := trun false false false true true true prog_early_release [TParse 0 hammer_doc] in
  live_ids_in 0 (tE w) = [1; 2; 1] ∧
  live_ids_in 0 (tE (trun false false false true true true prog_early_release
     [TParse 0 {| pd_world := 1; pd_brushes := []; pd_ents := [] |}; TCreateEnt 0 (-1) []])) = [1; 1].
Proof. vm_compute. done. Qed.
(** With the pinned tree's program, VMF.parse is: the constructor's worldspawn; the bundles of the world brushes in file
    order; the worldspawn entity; the destructor of the placeholder (the object with the index the constructor's worldspawn
    got); the bundles of the entity blocks in file order. *)
Theorem c08_parse_is_events : ∀ r1 r2 r3 c1 c2 c3 w m d,
  tparse r1 r2 r3 c1 c2 c3 prog_std w m d =
  let w1 := tstep r1 r2 r3 c1 c2 c3 prog_std w (TCreateSpawn m) in
  let w2 := fold_left (λ w (b : bool * (Z * list Z)), tcreate_h r1 r2 r3 c1 c2 c3 w m None [b.2] true b.1) (pd_brushes d) w1 in
  let w3 := tcreate r1 r2 r3 c1 c2 c3 w2 m (Some (pd_world d)) [] false in
  let w4 := tstep r1 r2 r3 c1 c2 c3 prog_std w3 (TDestroy (length (ttops w))) in
  fold_left (λ w (e : bool * (Z * list (Z * list Z))), tcreate_h r1 r2 r3 c1 c2 c3 w m (Some e.2.1) e.2.2 true e.1) (pd_ents d) w4.
Proof. intros r1 r2 r3 c1 c2 c3 w m d. reflexivity. Qed.
(** The hypotheses are satisfiable and the statement is not vacuous: the Hammer-saved document, then one create_ent. *)
Example c08_parse_hammer_doc :
  let w := trun false false false true true true prog_std [TParse 0 hammer_doc; TCreateEnt 0 (-1) []] in
  live_ids_in 0 (tE w) = [2; 1; 3; 4] ∧ live_ids_in 0 (tS w) = [1] ∧ live_ids_in 0 (tF w) = [1; 2].
Proof. vm_compute. done. Qed.
(** When Entity.copy() does not pass the map down to its brushes: brushes 1, 2, 2 and faces 1, 2, 2 in one map. *)
Theorem c08_nested_copy_from_source_refuted :
  let w := trun false false false true false false prog_std nested_copy_history in
  live_ids_in 1 (tE w) = [1] ∧ live_ids_in 1 (tS w) = [1; 2; 2] ∧ live_ids_in 1 (tF w) = [1; 2; 2].
Proof. vm_compute. done. Qed.
(** collapse_one (visgroups kept) as one event is the fold of the copy() bundles of the instance map's visible listed
    brushes, then its listed entities; without visgroups the copies are in addition made visible. *)
Theorem c08_nested_collapse_is_copies : ∀ r1 r2 r3 c1 c2 c3 pg w s m, s ≠ m →
  tstep r1 r2 r3 c1 c2 c3 pg w (TCollapse s m true) =
  fold_left (tstep r1 r2 r3 c1 c2 c3 pg) ((λ t, TCopy t m (-1) true) <$> tcollapse_sources w s true) w.
Proof.
  intros r1 r2 r3 c1 c2 c3 pg w s m Hn. cbn [tstep]. destruct (decide (s = m)); [done|].
  generalize (tcollapse_sources w s true). intros l. revert w.
  induction l as [|t l IH]; intros w; simpl; [done|]. apply IH.
Qed.

(** Nav-node IDs over several maps (SM/IdNodeMaps.v): after every history of construction / parse with any
    'nodeid' value in any map, key assignment, deletion, removal, re-adding, destruction, copy within and ACROSS maps,
    reservations by Instance.fixup_key and collapse_one of node entities into another map (copy every entity, then
    reserve-and-reassign every copied node ID), in every map the node IDs held by existing entities are pairwise
    distinct and positive — under the same two census premises as c08_node_ids_unique. *)
Theorem c08_node_maps_ids_unique : ∀ es m, node_release_on_remove = false → node_copy_registers = true →
  let w := mrun node_realloc_on_add node_release_on_remove node_release_in_del node_copy_registers es in
  NoDup (nids (nents (mmap w m))) ∧ (∀ i, i ∈ nids (nents (mmap w m)) → 0 < i).
Proof. intros es m -> ->. exact (node_maps_ids_nodup_pos _ _ es m). Qed.
(** Without registration a cross-map copy brings the source's ID into a map where it is taken already. *)
Theorem c08_node_maps_copy_unregistered_refuted :
  let w := mrun false false true false [MCreate 0 (Some 1); MCreate 1 (Some 1); MCopy 0 1] in
  nids (nents (mmap w 1)) = [1; 1].
Proof. vm_compute. done. Qed.

(** The property in one statement.  The premises are exactly the census obligations the check discharges on
    every run: IDs of entities, brushes, faces, brush groups and visgroups are released only by destructors; every
    copy site allocates in the destination map; remove_ent keeps node IDs and copies register theirs; the fixup
    constructor tests positivity and defers re-insertion.  Then, for EVERY history of the nested world (entities with
    their brushes and faces, world brushes; creation with arbitrary desired IDs, copy within and across maps, removal,
    re-adding, destruction, collapse_one), of brush groups and of visgroups (IdWorld events incl. parse and collapse),
    of node entities over several maps, and of the fixup table of any one entity: within every map no two existing
    entities share an ID, no two brushes, no two faces, no two groups, no two visgroups, no two node IDs, no two
    replaceNN indexes of the entity — and all of them are positive. *)
Theorem c08_one_map_all_kinds : ∀ hn hg hv hm fl fo m,
  release_on_remove KEnt = false → release_on_remove KSolid = false → release_on_remove KFace = false →
  release_on_remove KGroup = false → release_on_remove KVis = false →
  copy_to_dest KEnt = true → copy_to_dest KSolid = true → copy_to_dest KFace = true →
  copy_to_dest KGroup = true → copy_to_dest KVis = true →
  node_release_on_remove = false → node_copy_registers = true →
  fixup_init_requires_positive = true → fixup_init_defers_reinsertion = true →
  parse_releases_nothing = true → constructors_fail_safely = true → copy_module_copies_are_real_copies = true →
  let wn := trun (release_on_remove KEnt) (release_on_remove KSolid) (release_on_remove KFace)
                 (copy_to_dest KEnt) (copy_to_dest KSolid) (copy_to_dest KFace) parse_program hn in
  (uniq_pos (live_ids_in m (tE wn)) ∧ uniq_pos (live_ids_in m (tS wn)) ∧ uniq_pos (live_ids_in m (tF wn)) ∧
   uniq_pos (live_ids_in m (wrun (release_on_remove KGroup) (copy_to_dest KGroup) hg)) ∧
   uniq_pos (live_ids_in m (wrun (release_on_remove KVis) (copy_to_dest KVis) hv)) ∧
   uniq_pos (nids (nents (mmap (mrun node_realloc_on_add node_release_on_remove node_release_in_del node_copy_registers hm) m))) ∧
   FxInv (fx_hist fixup_init_requires_positive fixup_init_defers_reinsertion fl fo)) ∧
  ∀ c hc, c ∈ ctor_models → uniq_pos (klive (krun c.1.1 c.1.2 c.2 (negb copy_module_copies_are_real_copies) hc)).
Proof. intros hn hg hv hm fl fo m -> -> -> -> -> -> -> -> -> -> -> -> -> -> Hp Hc Hr. rewrite Hr. exact (all_kinds_unique_r5 hn hg hv hm fl fo _ _ m parse_program ctor_models Hp Hc). Qed.

(** Constructors that FAIL.  For EVERY step list that passes [ctor_ok] -- in particular for the five read from the source when
    the obligation [constructors_fail_safely] holds -- after EVERY history of constructor calls with arbitrary desired IDs that run to
    completion or raise at any one of the points where they can raise (a converter or validator inside the attrs-generated __init__, a
    statement of a hand-written one), with the caller catching the exception and carrying on, and of destructor calls of complete and of
    half-built objects at any later time: the complete objects that still exist have pairwise distinct positive IDs, each handed out to
    that object by the manager. *)
Theorem c08_failed_constructors_unique : ∀ steps dr dg es, ctor_ok steps dr dg = true → copy_module_copies_are_real_copies = true →
  let w := krun steps dr dg (negb copy_module_copies_are_real_copies) es in
  NoDup (klive w) ∧ (∀ i, i ∈ klive w → 0 < i) ∧ ∀ o, o ∈ cobjs w → cdone o = true → hreg (ch o) = true ∧ is_Some (hid (ch o)).
Proof. intros steps dr dg es H ->. exact (failed_ctor_unique dr dg steps es H). Qed.
(** The premise is necessary.  An attrs class whose [id] field is followed by a field with a converter, [__attrs_post_init__] registering
    the ID, and a destructor that releases whatever [self.id] holds (seeded fault c08_8; the pinned tree's Solid with its visgroup_ids
    converter): brushes 1 and 2 exist, a constructor call that asks for 2 raises in the converter, the half-built object dies, the
    next brush is handed 2 again.  With the ownership flag, or without a releasing destructor, the same history is harmless. *)
Theorem c08_failed_constructor_refuted :
  klive (krun attrs_raw_then_convert true false false failed_ctor_history) = [1; 2; 2] ∧
  klive (krun attrs_guarded true true false failed_ctor_history) = [1; 2; 3] ∧
  klive (krun attrs_raw_then_convert false false false failed_ctor_history) = [1; 2; 3].
Proof. vm_compute. done. Qed.
(** The second premise is necessary too: when copy.copy() is left to the default protocol, the copy of brush 1 is a second brush with ID 1;
    once the copy dies its destructor releases 1 (the flag was copied with the other fields) and the next brush is handed 1 while the
    original holds it.  The same history with a __copy__ that goes through copy(): 1, 2. *)
Theorem c08_shallow_copy_refuted :
  klive (krun attrs_guarded true true true [KNew (-1) None; KAlias 0]) = [1; 1] ∧
  klive (krun attrs_guarded true true true [KNew (-1) None; KAlias 0; KDel 1; KNew (-1) None]) = [1; 1] ∧
  klive (krun attrs_guarded true true false [KNew (-1) None; KAlias 0; KDel 1; KNew (-1) None]) = [1; 2].
Proof. exact shallow_alias_refuted. Qed.
Theorem c08_constructor_shapes :
  ctor_ok attrs_raw_then_convert true false = false ∧ ctor_ok attrs_raw_then_convert false false = true ∧
  ctor_ok attrs_guarded true true = true ∧ ctor_ok direct_register true false = true ∧
  ctor_ok [CSetOwned; CStoreRaw; CMayRaise; CRegister] true true = false ∧ ctor_ok [CStoreRaw; CMayRaise] false false = false.
Proof. exact shapes_ok. Qed.
