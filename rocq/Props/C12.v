(** C12 — atomic file replacement through [srctools.AtomicWriter] (used by BSP.save).
    The statements; the model is SM/AtomicWriter.v, the invariants and general theorems are proved in
    SM/AtomicWriterProofs.v and SM/AtomicWriterThms.v (and the SM/Atomic*Proofs.v files named below); proofs a few steps
    from those theorems stand here.  [c : cfg] is
    the record of source facts that translate/c12_atomic.py regenerates into Gen/AtomicWriter_gen.v on every run; the
    check discharges [cfg_ok aw_cfg = true] flag by flag in the kernel.

    Reading guide.  [run2 c s1 s2 sched (start d0)] runs two writers (scenarios [s1], [s2]) in one directory with
    initial contents [d0] under the schedule [sched : list (who, inject_OSError)]; every element performs exactly one
    file-system operation of one writer.  A crash/kill at any operation boundary is a schedule that stops there,
    so a statement "for every [sched]" covers every crash point, every pattern of injected OSErrors and every
    interleaving at once.  [alone c s faults d0] is one writer alone.  Contents are token lists: [new s] is the
    complete new content, [d0 (File (dest s))] the previous one. *)
From Coq Require Import List Bool Arith.
From SV Require Import SM.AtomicWriter SM.AtomicWriterProofs SM.AtomicWriterThms SM.AtomicExit SM.AtomicExitProofs
  SM.AtomicOpenLoopProofs SM.AtomicSameDestProofs SM.AtomicReuse SM.AtomicReuseProofs SM.AtomicRetry
  SM.AtomicRetryProofs SM.AtomicProduct SM.AtomicProductProofs SM.AtomicAbandon SM.AtomicAbandonProofs.
Import ListNotations.

(** Old or new, never a mixture; new exactly when the replace has succeeded — at every point of every execution,
    with any injected faults and any concurrent writer to another file. *)
Theorem c12_crash_atomic : forall c d0 s1 s2, dest s1 <> dest s2 -> cfg_safe c = true -> forall sched,
  let st := run2 c s1 s2 sched (start d0) in
  sd st (File (dest s1)) = (if committed (p1 st) then Some (new s1) else d0 (File (dest s1))) /\
  sd st (File (dest s2)) = (if committed (p2 st) then Some (new s2) else d0 (File (dest s2))).
Proof. exact crash_atomic. Qed.

Theorem c12_crash_atomic_alone : forall c d0 s, cfg_safe c = true -> forall faults,
  let st := alone c s faults d0 in
  sd st (File (dest s)) = (if committed (p1 st) then Some (new s) else d0 (File (dest s))).
Proof. exact alone_crash_atomic. Qed.

(** Any OSError in any operation of the writer (mkdir, open, write, flush, close, replace, unlink), at any time:
    the writer never commits afterwards and the destination keeps the previous contents. *)
Theorem c12_fault_keeps_old : forall c d0 s1 s2, dest s1 <> dest s2 -> cfg_safe c = true -> forall sched,
  let st := run2 c s1 s2 sched (start d0) in
  faulted false (tr st) -> committed (p1 st) = false /\ sd st (File (dest s1)) = d0 (File (dest s1)).
Proof. exact fault_keeps_old. Qed.

Theorem c12_fault_keeps_old_alone : forall c d0 s, cfg_safe c = true -> forall faults,
  let st := alone c s faults d0 in
  faulted false (tr st) -> committed (p1 st) = false /\ sd st (File (dest s)) = d0 (File (dest s)).
Proof. exact alone_fault_keeps_old. Qed.

(** The caller's body raises after any number [r] of raw writes: previous contents remain, and once the writer has
    finished (and its cleanup unlink did not itself raise) the whole directory is as it was. *)
Theorem c12_body_exception_cleans : forall c d0 s, cfg_ok c = true -> forall r faults,
  raise_at s = Some r -> r <= length (body s) ->
  let st := alone c s faults d0 in
  sd st (File (dest s)) = d0 (File (dest s)) /\
  (finished (p1 st) = true -> (forall i, ~ In (false, (EUnlink i, RFault)) (tr st)) -> forall n, sd st n = d0 n).
Proof. exact alone_body_exception_cleans. Qed.

Theorem c12_body_exception_keeps_old_concurrent : forall c d0 s1 s2, dest s1 <> dest s2 -> cfg_safe c = true ->
  forall r sched, raise_at s1 = Some r -> r <= length (body s1) ->
  let st := run2 c s1 s2 sched (start d0) in
  committed (p1 st) = false /\ sd st (File (dest s1)) = d0 (File (dest s1)).
Proof. exact body_exception_keeps_old. Qed.

(** No temp file is left by a handled failure: a finished writer (success, body exception, OSError in mkdir / open /
    write / flush / close / replace) leaves every temp name as it was; the single exception is an OSError raised by
    the cleanup unlink itself, which no implementation can handle (see [c12_unlink_fault_leaves_temp]). *)
Theorem c12_no_temp_after_handled_failure_alone : forall c d0 s, cfg_ok c = true -> forall faults,
  let st := alone c s faults d0 in
  finished (p1 st) = true -> (forall i, ~ In (false, (EUnlink i, RFault)) (tr st)) ->
  forall i, sd st (Tmp i) = d0 (Tmp i).
Proof. exact alone_no_temp_left. Qed.

Theorem c12_no_temp_after_handled_failure : forall c d0 s1 s2, dest s1 <> dest s2 -> cfg_ok c = true -> forall sched,
  let st := run2 c s1 s2 sched (start d0) in
  finished (p1 st) = true -> (forall i, ~ In (false, (EUnlink i, RFault)) (tr st)) ->
  assoc (p1 st) = None /\ forall i, assoc (p2 st) <> Some i -> sd st (Tmp i) = d0 (Tmp i).
Proof. exact no_temp_after_handled_failure. Qed.

(** Two writers to different files of one directory, all interleavings, all fault patterns: they never hold the same
    temp name; a held temp name was created fresh (it did not exist before) and still exists; the temp file that is
    about to be committed holds exactly its own writer's complete data; nothing that existed before (other files,
    stale temp files) is touched.  (The destinations are covered by [c12_crash_atomic].) *)
Theorem c12_two_writers_isolated : forall c d0 s1 s2, dest s1 <> dest s2 -> cfg_safe c = true -> forall sched,
  let st := run2 c s1 s2 sched (start d0) in
  (forall i, assoc (p1 st) = Some i -> assoc (p2 st) = Some i -> False) /\
  (forall i, assoc (p1 st) = Some i \/ assoc (p2 st) = Some i -> d0 (Tmp i) = None /\ sd st (Tmp i) <> None) /\
  (forall i, p1 st = PReplace i -> sd st (Tmp i) = Some (new s1)) /\
  (forall i, p2 st = PReplace i -> sd st (Tmp i) = Some (new s2)) /\
  (forall n, n <> File (dest s1) -> n <> File (dest s2) -> d0 n <> None -> sd st n = d0 n).
Proof. exact two_writers_isolated. Qed.

(** The repaired source satisfies the hypotheses; the statements are not vacuous. *)
Theorem c12_cfg_fixed_ok : cfg_ok cfg_fixed = true.
Proof. reflexivity. Qed.
Theorem c12_happy_path_commits :
  let st := alone cfg_fixed sc_a (repeat false 7) d_old in
  p1 st = PDone FCommitted None /\ sd st (File 0) = Some [1; 2; 3] /\ sd st (Tmp 1) = None /\ sd st (Tmp 2) = Some [777].
Proof. vm_compute. auto. Qed.

(** The hypotheses are needed.  Pinned tree (cleanup not in a finally, DESIGN section 7 #31): an OSError from the
    flush/close or from the replace leaves tmp_1 behind. *)
Theorem c12_pinned_close_fault_leaves_temp_refuted :
  let st := alone cfg_pinned sc_a [false; false; false; false; false; true] d_old in
  p1 st = PDone FNot (Some 1) /\ sd st (Tmp 1) = Some [1; 2; 3] /\ sd st (File 0) = Some [100].
Proof. vm_compute. auto. Qed.
Theorem c12_pinned_flush_fault_leaves_temp_refuted :
  let st := alone cfg_pinned sc_a [false; false; false; false; true; false] d_old in
  p1 st = PDone FNot (Some 1) /\ sd st (Tmp 1) = Some [1; 2] /\ sd st (File 0) = Some [100].
Proof. vm_compute. auto. Qed.
Theorem c12_pinned_replace_fault_leaves_temp_refuted :
  let st := alone cfg_pinned sc_a [false; false; false; false; false; false; true] d_old in
  p1 st = PDone FNot (Some 1) /\ sd st (Tmp 1) = Some [1; 2; 3] /\ sd st (File 0) = Some [100].
Proof. vm_compute. auto. Qed.
Theorem c12_nonexclusive_open_clobbers_refuted :
  let st := run2 cfg_nonexcl sc_a1 sc_b
              [(false, false); (false, false); (false, false); (true, false); (true, false); (true, false);
               (false, false); (false, false)] (start d_old) in
  committed (p1 st) = true /\ sd st (File 0) = Some [7] /\ new sc_a1 = [1].
Proof. vm_compute. auto. Qed.
Theorem c12_commit_on_exception_refuted :
  let st := alone cfg_commit_on_exc sc_raise (repeat false 6) d_old in
  sd st (File 0) = Some [1] /\ new sc_raise = [1; 2; 3].
Proof. vm_compute. auto. Qed.
Theorem c12_unlink_fault_leaves_temp :
  let st := alone cfg_fixed sc_raise [false; false; false; false; true] d_old in
  p1 st = PDone FNot (Some 1) /\ sd st (Tmp 1) = Some [1] /\ sd st (File 0) = Some [100].
Proof. vm_compute. auto. Qed.

(** * The same property for the exit protocol as a generated object (SM/AtomicExit.v)

    translate/c12_atomic.py transliterates [AtomicWriter.__exit__] into a program [aw_exit_prog : xstmt]; the kernel
    interprets it symbolically into the decision trees [x_ok] / [x_exc] of a protocol [x : xproto] (which operation
    follows which result of close / rename / unlink, whether an exception leaves [__exit__]).  [run2t x] runs two
    writers whose exit phase walks these trees.  [proto_safe x] / [proto_ok x] are boolean: the trees are those of a
    member of the five-flag family with the good flags; the check discharges them for today's program by vm_compute.
    The theorems below therefore speak about the trees the kernel computes from whatever program the translator
    produces, not about five flags read off the source; [proto_safe] admits the part of the family with an exclusive
    open and a discarding exception path, [proto_ok] exactly one protocol ([proto_ok_eq], SM/AtomicExitProofs.v). *)

(** Refinement: a protocol in the family runs exactly like the flag machine with the flags read off its trees
    (same directory and same trace after every schedule, related program counters). *)
Theorem c12_protocol_refines_flags : forall x, in_family x = true -> forall d0 s1 s2 sched,
  Rsys (derive_cfg x) (run2t x s1 s2 sched (startt d0)) (run2 (derive_cfg x) s1 s2 sched (start d0)).
Proof. exact run2t_refines. Qed.

Theorem c12_family_is_recognised : forall c, in_family (proto_of_cfg c) = true.
Proof.
  intros [e cg rg ok ex]. unfold in_family.
  destruct cg, rg, ok, ex; cbn; now rewrite ?xtree_eqb_refl.
Qed.

Theorem c12_protocol_crash_atomic : forall x d0 s1 s2, dest s1 <> dest s2 -> proto_safe x = true -> forall sched,
  let st := run2t x s1 s2 sched (startt d0) in
  sdt st (File (dest s1)) = (if committedt (q1 st) then Some (new s1) else d0 (File (dest s1))) /\
  sdt st (File (dest s2)) = (if committedt (q2 st) then Some (new s2) else d0 (File (dest s2))).
Proof. exact proto_crash_atomic. Qed.

Theorem c12_protocol_fault_keeps_old : forall x d0 s1 s2, dest s1 <> dest s2 -> proto_safe x = true -> forall sched,
  let st := run2t x s1 s2 sched (startt d0) in
  faulted false (trt st) -> committedt (q1 st) = false /\ sdt st (File (dest s1)) = d0 (File (dest s1)).
Proof.
  intros x d0 s1 s2 Hdest H sched st. destruct (psafe_family x H) as [Hf Hs].
  destruct (run2t_refines x Hf d0 s1 s2 sched) as (Hd & Ht & H1 & H2). fold st in Hd, Ht, H1, H2.
  rewrite Hd, Ht, (R_committed _ _ _ H1).
  exact (fault_keeps_old (derive_cfg x) d0 s1 s2 Hdest Hs sched).
Qed.

Theorem c12_protocol_body_exception_keeps_old : forall x d0 s1 s2, dest s1 <> dest s2 -> proto_safe x = true ->
  forall r sched, raise_at s1 = Some r -> r <= length (body s1) ->
  let st := run2t x s1 s2 sched (startt d0) in
  committedt (q1 st) = false /\ sdt st (File (dest s1)) = d0 (File (dest s1)).
Proof. exact proto_body_exception_keeps_old. Qed.

Theorem c12_protocol_no_temp_after_handled_failure : forall x d0 s1 s2, dest s1 <> dest s2 -> proto_ok x = true ->
  forall sched, let st := run2t x s1 s2 sched (startt d0) in
  finishedt (q1 st) = true -> (forall i, ~ In (false, (EUnlink i, RFault)) (trt st)) ->
  assoct (q1 st) = None /\ forall i, assoct (q2 st) <> Some i -> sdt st (Tmp i) = d0 (Tmp i).
Proof. exact proto_no_temp_after_handled_failure. Qed.

Theorem c12_protocol_two_writers_isolated : forall x d0 s1 s2, dest s1 <> dest s2 -> proto_safe x = true ->
  forall sched, let st := run2t x s1 s2 sched (startt d0) in
  (forall i, assoct (q1 st) = Some i -> assoct (q2 st) = Some i -> False) /\
  (forall i, assoct (q1 st) = Some i \/ assoct (q2 st) = Some i -> d0 (Tmp i) = None /\ sdt st (Tmp i) <> None) /\
  (forall i, about_to_replace (q1 st) i -> sdt st (Tmp i) = Some (new s1)) /\
  (forall i, about_to_replace (q2 st) i -> sdt st (Tmp i) = Some (new s2)) /\
  (forall n, n <> File (dest s1) -> n <> File (dest s2) -> d0 n <> None -> sdt st n = d0 n).
Proof. exact proto_two_writers_isolated. Qed.

Theorem c12_protocol_body_exception_cleans : forall x d0 s, proto_ok x = true -> forall r faults,
  raise_at s = Some r -> r <= length (body s) ->
  let st := alonet x s faults d0 in
  sdt st (File (dest s)) = d0 (File (dest s)) /\
  (finishedt (q1 st) = true -> (forall i, ~ In (false, (EUnlink i, RFault)) (trt st)) -> forall n, sdt st n = d0 n).
Proof. exact proto_alone_body_exception_cleans. Qed.

Theorem c12_protocol_no_temp_left_alone : forall x d0 s, proto_ok x = true -> forall faults,
  let st := alonet x s faults d0 in
  finishedt (q1 st) = true -> (forall i, ~ In (false, (EUnlink i, RFault)) (trt st)) ->
  forall i, sdt st (Tmp i) = d0 (Tmp i).
Proof. exact proto_alone_no_temp_left. Qed.

(** BSP.save = rebuild phase without file-system operations, then one writer: a failure while rebuilding lumps
    leaves the whole directory as it was; otherwise the destination is old or complete new at every point. *)
Theorem c12_save_rebuild_failure_touches_nothing : forall x d0 s faults,
  let st := save_alone x false s faults d0 in
  (forall n, sdt st n = d0 n) /\ trt st = [] /\ committedt (q1 st) = false.
Proof. exact save_pre_failure_touches_nothing. Qed.

Theorem c12_save_atomic : forall x d0 s, proto_safe x = true -> forall pre_ok faults,
  let st := save_alone x pre_ok s faults d0 in
  sdt st (File (dest s)) = (if committedt (q1 st) then Some (new s) else d0 (File (dest s))).
Proof.
  intros x d0 s H [] faults; [exact (proto_alone_crash_atomic x d0 s H faults)|reflexivity].
Qed.

(** The named obligations on decision trees follow from [proto_ok] (they refine it; none is an extra demand). *)
Theorem c12_protocol_ok_implies_tree_obligations : forall x, proto_ok x = true ->
  forallb (fun b => b) (proto_preds x) = true.
Proof. intros x H. rewrite (proto_ok_eq x H). reflexivity. Qed.

(** Non-vacuity: the repaired [__exit__] (as the translator writes it) satisfies the hypotheses and has the flags
    [cfg_fixed]; the pinned one is in the family with the flags [cfg_pinned]. *)
Theorem c12_repaired_program_ok :
  proto_ok (proto_of_prog true prog_fixed) = true /\ derive_cfg (proto_of_prog true prog_fixed) = cfg_fixed.
Proof. split; vm_compute; reflexivity. Qed.
Theorem c12_pinned_program_flags :
  in_family (proto_of_prog true prog_pinned) = true /\ derive_cfg (proto_of_prog true prog_pinned) = cfg_pinned.
Proof. vm_compute. auto. Qed.

(** Defective shapes are outside the hypotheses, and the tree machine exhibits what they do.  Commit decided in a
    [finally] by [exc_type is None] alone: the flush inside close fails, the truncated temp
    file [1;2] replaces the destination although the complete content is [1;2;3] and an OSError was raised. *)
Theorem c12_commit_in_finally_refuted :
  let x := proto_of_prog true prog_commit_in_finally in
  in_family x = false /\ no_replace (close_fl (x_ok x)) = false /\
  let st := alonet x sc_a [false; false; false; false; true; false; false] d_old in
  q1 st = TDone FCommitted None true /\ sdt st (File 0) = Some [1; 2] /\ new sc_a = [1; 2; 3] /\ faulted false (trt st).
Proof. vm_compute. repeat split; auto. exists (EWrite 1 3). auto 10. Qed.
Theorem c12_replace_before_close_refuted :
  let x := proto_of_prog true prog_replace_before_close in in_family x = false /\ closes_first (x_ok x) = false.
Proof. vm_compute. auto. Qed.
Theorem c12_swallowed_exception_refuted :
  let x := proto_of_prog true prog_swallow in in_family x = false /\ propagates (x_exc x) true = false.
Proof. vm_compute. auto. Qed.

(** * The temp-name loop of [make_tempfile] terminates

    One writer alone, no temp name above tmp_N present: the loop settles on the least free index j <= N+1 after
    exactly j attempts (all earlier ones answered FileExistsError), creates only tmp_j, nothing else changes. *)
Theorem c12_open_loop_least_free : forall c s d0 N, c_excl c = true -> (forall i, N < i -> d0 (Tmp i) = None) ->
  exists j, 1 <= j <= S N /\ d0 (Tmp j) = None /\ (forall k, 1 <= k < j -> d0 (Tmp k) <> None) /\
    run1 c s (S j) 0 [] PMkdir d0 =
    (after_body s j 0, upd d0 (Tmp j) (Some []),
     (EMkdir, ROk) :: exist_events 1 (j - 1) ++ [(EOpen j, ROk)]).
Proof. exact open_loop_least_free. Qed.

(** Two writers, every schedule and fault pattern: every open attempt (also in the recorded trace) and every held
    temp name has an index <= N+2.  The attempts of one writer have strictly increasing indexes, so no interleaving
    makes a writer loop more than N+2 times; [c12_temp_index_bound_is_tight] shows N+2 is reached. *)
Theorem c12_temp_index_bounded : forall x d0 s1 s2 N, dest s1 <> dest s2 -> proto_safe x = true ->
  (forall i, N < i -> d0 (Tmp i) = None) -> forall sched,
  let st := run2t x s1 s2 sched (startt d0) in
  (forall i, idxt (q1 st) = Some i -> i <= N + 2) /\
  (forall i, idxt (q2 st) = Some i -> i <= N + 2) /\
  (forall w i r, In (w, (EOpen i, r)) (trt st) -> i <= N + 2).
Proof.
  intros x d0 s1 s2 N Hd H HN sched st. destruct (psafe_family x H) as [Hf Hs].
  destruct (run2t_refines x Hf d0 s1 s2 sched) as (_ & Ht & H1 & H2). fold st in Ht, H1, H2.
  rewrite Ht, (R_idx _ _ _ H1), (R_idx _ _ _ H2).
  exact (temp_index_bounded (derive_cfg x) Hs d0 s1 s2 Hd N HN sched).
Qed.

Theorem c12_temp_index_bound_is_tight :
  let d := dir_of [(File 0, [100]); (Tmp 1, [111])] in
  let st := run2 cfg_fixed sc_a sc_b
              [(true, false); (true, false); (true, false); (false, false); (false, false); (false, false);
               (false, false)] (start d) in
  assoc (p2 st) = Some 2 /\ assoc (p1 st) = Some 3.
Proof. exact bound_is_tight. Qed.

(** * Two writers to the same destination (beyond the wording of the property: "different files")

    At every point of every schedule and fault pattern the destination holds the previous contents (nobody has
    committed yet) or the complete contents of a writer that has committed — never chunks of both; temp names are
    never shared; every other pre-existing file is untouched.  Which of two committed writers wins is decided by the
    order of the renames ([c12_same_destination_last_rename_wins]). *)
Theorem c12_same_destination_no_mixture : forall x d0 s1 s2, dest s1 = dest s2 -> proto_safe x = true -> forall sched,
  let st := run2t x s1 s2 sched (startt d0) in
  ((committedt (q1 st) = false /\ committedt (q2 st) = false /\ sdt st (File (dest s1)) = d0 (File (dest s1))) \/
   (committedt (q1 st) = true /\ sdt st (File (dest s1)) = Some (new s1)) \/
   (committedt (q2 st) = true /\ sdt st (File (dest s1)) = Some (new s2))) /\
  (forall i, assoct (q1 st) = Some i -> assoct (q2 st) = Some i -> False) /\
  (forall n, n <> File (dest s1) -> d0 n <> None -> sdt st n = d0 n).
Proof.
  intros x d0 s1 s2 Hd H sched st. destruct (psafe_family x H) as [Hf Hs].
  destruct (run2t_refines x Hf d0 s1 s2 sched) as (Hdir & _ & H1 & H2). fold st in Hdir, H1, H2.
  rewrite Hdir, (R_committed _ _ _ H1), (R_committed _ _ _ H2), (R_assoc _ _ _ H1), (R_assoc _ _ _ H2).
  exact (same_dest_no_mixture (derive_cfg x) Hs d0 s1 s2 Hd sched).
Qed.

Theorem c12_same_destination_fault_never_commits : forall x d0 s1 s2, dest s1 = dest s2 -> proto_safe x = true ->
  forall sched, let st := run2t x s1 s2 sched (startt d0) in
  faulted false (trt st) ->
  committedt (q1 st) = false /\
  (sdt st (File (dest s1)) = d0 (File (dest s1)) \/
   (committedt (q2 st) = true /\ sdt st (File (dest s1)) = Some (new s2))).
Proof.
  intros x d0 s1 s2 Hd H sched st. destruct (psafe_family x H) as [Hf Hs].
  destruct (run2t_refines x Hf d0 s1 s2 sched) as (Hdir & Ht & H1 & H2). fold st in Hdir, Ht, H1, H2.
  rewrite Hdir, Ht, (R_committed _ _ _ H1), (R_committed _ _ _ H2).
  exact (same_dest_fault_never_commits (derive_cfg x) Hs d0 s1 s2 Hd sched).
Qed.

Theorem c12_same_destination_last_rename_wins :
  let sb := {| dest := 0; body := [7]; tail := []; raise_at := None |} in
  let seq w := repeat (w, false) 6 in
  sd (run2 cfg_fixed sc_a1 sb (seq false ++ seq true) (start d_old)) (File 0) = Some [7] /\
  sd (run2 cfg_fixed sc_a1 sb (seq true ++ seq false) (start d_old)) (File 0) = Some [1].
Proof. exact same_dest_last_rename_wins. Qed.

(** * One AtomicWriter object used for several [with] blocks (SM/AtomicReuse.v)

    What survives a [with] block is the object's instance attributes.  [o : wobj] is generated from today's source:
    the program of [__exit__], the attribute slots it mentions, their values after [__init__], what
    [__enter__]/[make_tempfile] assign on every entry, which attributes are never assigned again.  [proto_at o a] is the
    exit protocol of a use that starts with the attributes in state [a]; [reuse_indep o] (a boolean the check
    discharges by vm_compute) enumerates EVERY state [a] that agrees with [__init__] on the constant attributes.
    A history [h] is a list of uses (scenario, fault pattern, attribute state the object happens to be in), each run
    in the directory the previous one left ([hrun]/[hfinal]); a killed use ends the history. *)

(** In whatever state earlier uses left the attributes, the next use runs the protocol of a fresh object. *)
Theorem c12_reuse_every_use_runs_the_first_use_protocol : forall o, reuse_indep o = true ->
  forall a, ostate o a -> proto_at o a = obj_proto o.
Proof. exact reuse_indep_sound. Qed.
Theorem c12_reuse_fresh_object_is_a_state : forall o, reuse_indep o = true -> ostate o (o_init o).
Proof.
  intros o. unfold reuse_indep, ostate. intros H. apply andb_prop in H as [H _]. apply Nat.eqb_eq in H.
  now apply consistent_init.
Qed.

(** Every use of every history (successful, abandoned by the body, failing with OSErrors anywhere, killed; in any
    order: S, F, SF, SSF, FSF, SFS, ...) is a good single use relative to the directory it started in: destination
    old or complete new (new exactly when its rename succeeded), any OSError / body exception keeps the previous
    contents, a finished use whose cleanup unlink was not itself refused leaves every temp name as it found it, every
    other file untouched. *)
Theorem c12_reuse_history : forall o, reuse_indep o = true -> proto_ok (obj_proto o) = true ->
  forall h, hstates_ok o h -> forall d, hist_good o h d.
Proof. exact reuse_history_good. Qed.

(** Temp files do not accumulate over a history, and files that are no destination are never touched. *)
Theorem c12_reuse_no_temp_accumulates : forall o, reuse_indep o = true -> proto_ok (obj_proto o) = true ->
  forall h, hstates_ok o h -> forall d, hclean o h d ->
  (forall i, hfinal o h d (Tmp i) = d (Tmp i)) /\
  (forall k, (forall u, In u h -> dest (fst (fst u)) <> k) -> hfinal o h d (File k) = d (File k)).
Proof. exact reuse_no_temp_accumulates. Qed.

(** Non-vacuity: today's class (no attribute besides handle, temp name, destination), and a "committed" flag kept in
    an attribute that is reset on entry or at the start of [__exit__], satisfy the hypotheses. *)
Theorem c12_reuse_repaired_object_ok :
  reuse_indep obj_fixed = true /\ proto_ok (obj_proto obj_fixed) = true /\
  exit_always_leaves obj_fixed 0 VNone = true /\ init_unentered obj_fixed = true /\ enter_binds obj_fixed = true.
Proof. exact obj_fixed_reusable. Qed.
Theorem c12_reuse_flag_attribute_reset_ok :
  reuse_indep obj_flag_reset_on_entry = true /\ proto_ok (obj_proto obj_flag_reset_on_entry) = true /\
  reuse_indep obj_flag_reset_in_exit = true /\ proto_ok (obj_proto obj_flag_reset_in_exit) = true.
Proof.
  split; [apply reuse_indep_entered; vm_compute; reflexivity|].
  split; [vm_compute; reflexivity|].
  split; [apply reuse_indep_entered|]; vm_compute; reflexivity.
Qed.

(** The hypothesis is needed: the same flag initialised by [__init__] only (the shape of seeded c12_4).  The first
    use is good, [reuse_indep] is false; after one successful use the flag is True, and the next use, abandoned by the
    body after one write, leaves tmp_1 = [1] behind although no operation failed. *)
Theorem c12_reuse_flag_never_reset_refuted :
  let o := obj_flag_never_reset in
  proto_ok (obj_proto o) = true /\ reuse_indep o = false /\
  ok_leaf (leaf_tree o (o_init o) false
             (fun e => is_val VNone (e 0) && is_val VTName (e 1) && is_val VDest (e 2) && is_val VTrue (e 6))) = true /\
  ostate o st_after_success /\
  let h := [(sc_a, repeat false 7, o_init o); (sc_raise, repeat false 6, st_after_success)] in
  hclean o h d_old /\
  hfinal o h d_old (Tmp 1) = Some [1] /\ d_old (Tmp 1) = None /\ hfinal o h d_old (File 0) = Some [1; 2; 3].
Proof. vm_compute. repeat split; auto; intros; intuition discriminate. Qed.

(** * A history of [BSP.save] calls
    Every call builds a fresh writer object; the rebuild phase of a call may raise before the writer is entered
    ([pre = false]: nothing at all happens, the next call finds the directory as it was).  Every call of every history
    is a good single use relative to the directory it started in, and temp files do not accumulate. *)
Theorem c12_save_history : forall x, proto_ok x = true -> forall h d, shist_good x h d.
Proof.
  intros x H. induction h as [|[[pre s] fl] r IH]; intros d; cbn [shist_good]; [exact I|].
  destruct pre.
  - split; [exact (one_use_good x s d fl H)|intros _; apply IH].
  - destruct (save_pre_failure_touches_nothing x d s fl) as (A & B & _). repeat split; auto.
Qed.
Theorem c12_save_history_no_temp_accumulates : forall x, proto_ok x = true -> forall h d, shclean x h d ->
  (forall i, shfinal x h d (Tmp i) = d (Tmp i)) /\
  (forall k, (forall u, In u h -> dest (snd (fst u)) <> k) -> shfinal x h d (File k) = d (File k)).
Proof. exact save_history_no_temp_accumulates. Qed.
Theorem c12_save_history_example :
  let x := obj_proto obj_fixed in
  let h := [(true, sc_a, repeat false 7); (false, sc_a, []); (true, sc_raise, repeat false 6)] in
  shclean x h d_old /\ shfinal x h d_old (File 0) = Some [1; 2; 3] /\ shfinal x h d_old (Tmp 1) = d_old (Tmp 1).
Proof. vm_compute. repeat split; auto; intros; intuition discriminate. Qed.

(** * Refused operations by exception class, bounded retries (SM/AtomicRetry.v)

    [with_class r o] is the object [o] with the handler classes of its [__exit__] specialised to runs in which every
    refused operation raises class [r] (an OSError that is no named subclass / the c-th named subclass: PermissionError,
    FileExistsError, ... / KeyboardInterrupt); all theorems above that speak about objects and protocols apply to
    [with_class r o] and [class_proto o r], and the check discharges their hypotheses for every run class.
    [SFor n body orelse] / [SBreak] / [SContinue] make a retry loop a statement like any other; its decision tree is a
    chain of renames, which [collapse] merges. *)

(** The [with] statement of a finished writer returns normally exactly when its rename succeeded — for ANY protocol
    whose trees pass [proto_outcome_ok] (no family membership needed), after every schedule of two writers. *)
Theorem c12_returns_normally_iff_committed : forall x, proto_outcome_ok x = true -> forall d0 s1 s2 sched,
  let st := run2t x s1 s2 sched (startt d0) in
  (forall r l b, q1 st = TDone r l b -> b = negb (committedt (q1 st))) /\
  (forall r l b, q2 st = TDone r l b -> b = negb (committedt (q2 st))).
Proof. exact outcome_inv. Qed.

(** Stutter simulation: every run of a protocol is, up to refused renames / unlinks that are tried again, a run of the
    collapsed protocol: same directory, related program counters, and every event of the collapsed run happened. *)
Theorem c12_retry_run_is_a_run_of_the_collapsed_protocol : forall x s1 s2 sched d0,
  exists sched', Rc (run2t x s1 s2 sched (startt d0)) (run2t (collapse_proto x) s1 s2 sched' (startt d0)).
Proof. intros x s1 s2 sched d0. exact (run2t_collapse x s1 s2 sched _ _ (Rc_start d0)). Qed.

(** The property for protocols with retries ([retry_safe] / [retry_ok]: the collapsed protocol is in the good part of
    the five-flag family). *)
Theorem c12_retry_crash_atomic : forall x d0 s1 s2, dest s1 <> dest s2 -> retry_safe x = true -> forall sched,
  let st := run2t x s1 s2 sched (startt d0) in
  sdt st (File (dest s1)) = (if committedt (q1 st) then Some (new s1) else d0 (File (dest s1))) /\
  sdt st (File (dest s2)) = (if committedt (q2 st) then Some (new s2) else d0 (File (dest s2))).
Proof. exact retry_crash_atomic. Qed.

(** With retries "a refused operation => never commits" is false and not wanted (refused once, accepted at the next
    attempt: commits).  What the property asks: the write FAILED (the with statement raised) => previous contents. *)
Theorem c12_retry_failure_keeps_old : forall x d0 s1 s2, dest s1 <> dest s2 -> retry_safe x = true ->
  proto_outcome_ok x = true -> forall sched,
  let st := run2t x s1 s2 sched (startt d0) in
  forall r l, q1 st = TDone r l true -> committedt (q1 st) = false /\ sdt st (File (dest s1)) = d0 (File (dest s1)).
Proof.
  intros x d0 s1 s2 Hdest H Ho sched st r l E. destruct (outcome_inv x Ho d0 s1 s2 sched) as [O1 _]. fold st in O1.
  specialize (O1 r l true E). destruct (committedt (q1 st)) eqn:Ec; [discriminate|]. split; auto.
  destruct (retry_crash_atomic x d0 s1 s2 Hdest H sched) as [A _]. fold st in A. now rewrite Ec in A.
Qed.

Theorem c12_retry_body_exception_keeps_old : forall x d0 s1 s2, dest s1 <> dest s2 -> retry_safe x = true ->
  forall r sched, raise_at s1 = Some r -> r <= length (body s1) ->
  let st := run2t x s1 s2 sched (startt d0) in
  committedt (q1 st) = false /\ sdt st (File (dest s1)) = d0 (File (dest s1)).
Proof. exact retry_body_exception_keeps_old. Qed.

Theorem c12_retry_no_temp_after_handled_failure : forall x d0 s1 s2, dest s1 <> dest s2 -> retry_ok x = true ->
  forall sched, let st := run2t x s1 s2 sched (startt d0) in
  finishedt (q1 st) = true -> (forall i, ~ In (false, (EUnlink i, RFault)) (trt st)) ->
  assoct (q1 st) = None /\ forall i, assoct (q2 st) <> Some i -> sdt st (Tmp i) = d0 (Tmp i).
Proof. exact retry_no_temp_after_handled_failure. Qed.

Theorem c12_retry_two_writers_isolated : forall x d0 s1 s2, dest s1 <> dest s2 -> retry_safe x = true ->
  forall sched, let st := run2t x s1 s2 sched (startt d0) in
  (forall i, assoct (q1 st) = Some i -> assoct (q2 st) = Some i -> False) /\
  (forall i, assoct (q1 st) = Some i \/ assoct (q2 st) = Some i -> d0 (Tmp i) = None /\ sdt st (Tmp i) <> None) /\
  (forall i, about_to_replace (q1 st) i -> sdt st (Tmp i) = Some (new s1)) /\
  (forall i, about_to_replace (q2 st) i -> sdt st (Tmp i) = Some (new s2)) /\
  (forall n, n <> File (dest s1) -> n <> File (dest s2) -> d0 n <> None -> sdt st n = d0 n).
Proof. exact retry_two_writers_isolated. Qed.

(** The whole property in one statement (hypotheses visible; composes the five theorems above). *)
Theorem c12_property : forall x d0 s1 s2, dest s1 <> dest s2 -> retry_ok x = true -> proto_outcome_ok x = true ->
  forall sched, let st := run2t x s1 s2 sched (startt d0) in
  (sdt st (File (dest s1)) = (if committedt (q1 st) then Some (new s1) else d0 (File (dest s1))) /\
   sdt st (File (dest s2)) = (if committedt (q2 st) then Some (new s2) else d0 (File (dest s2)))) /\
  (forall r l b, q1 st = TDone r l b ->
     b = negb (committedt (q1 st)) /\ (b = true -> sdt st (File (dest s1)) = d0 (File (dest s1)))) /\
  (forall r, raise_at s1 = Some r -> r <= length (body s1) -> committedt (q1 st) = false) /\
  (finishedt (q1 st) = true -> (forall i, ~ In (false, (EUnlink i, RFault)) (trt st)) ->
   assoct (q1 st) = None /\ forall i, assoct (q2 st) <> Some i -> sdt st (Tmp i) = d0 (Tmp i)) /\
  ((forall i, assoct (q1 st) = Some i -> assoct (q2 st) = Some i -> False) /\
   (forall i, assoct (q1 st) = Some i \/ assoct (q2 st) = Some i -> d0 (Tmp i) = None /\ sdt st (Tmp i) <> None) /\
   (forall i, about_to_replace (q1 st) i -> sdt st (Tmp i) = Some (new s1)) /\
   (forall i, about_to_replace (q2 st) i -> sdt st (Tmp i) = Some (new s2)) /\
   (forall n, n <> File (dest s1) -> n <> File (dest s2) -> d0 n <> None -> sdt st n = d0 n)).
Proof. intros x d0 s1 s2 Hd Hok Ho. exact (whole_property x Hok Ho d0 s1 s2 Hd). Qed.

(** Its hypotheses hold for today's class under every run class (8 named subclasses), and for a class whose rename is
    retried on PermissionError with [else: raise]: not vacuous. *)
Theorem c12_property_hypotheses_hold :
  all_classes 8 obj_fixed (fun o => retry_ok (obj_proto o) && proto_outcome_ok (obj_proto o) && reuse_indep o) = true /\
  all_classes 8 obj_retry_good (fun o => retry_ok (obj_proto o) && proto_outcome_ok (obj_proto o) && reuse_indep o) = true.
Proof. exact (conj (proj1 generated_object_hypotheses_hold) (proj1 obj_retry_good_ok)). Qed.

(** One writer alone: a finished use is a good use (returned normally iff committed; complete new content after a
    commit, previous content otherwise; no temp name changed unless the cleanup unlink was refused). *)
Theorem c12_retry_good_use : forall x d0 s, retry_ok x = true -> proto_outcome_ok x = true -> forall faults,
  good_use d0 s (alonet x s faults d0).
Proof. exact retry_good_use. Qed.

(** A protocol with retries is good iff exhausting the retries takes the failure path: the family whose commit tries
    the rename n+1 times and continues with [exh] after the last refusal, for every n. *)
Theorem c12_retry_good_iff_exhaustion_fails : forall c n exh, cfg_ok c = true -> exh_shape exh ->
  ((forall d0 s faults, good_use d0 s (alonet (retry_proto c n exh) s faults d0)) <-> exh = unlink_tree true).
Proof.
  intros c n exh Hc Hs. split.
  - intros G. rewrite (cfg_ok_is_fixed c Hc) in G. destruct Hs as [[]|[]]; auto; exfalso.
    + destruct (retry_exhaustion_without_cleanup_refuted n) as (_ & _ & _ & B). apply B, G.
    + destruct (retry_swallowed_exhaustion_refuted n) as (_ & _ & _ & B). apply B, G.
    + destruct (retry_exhaustion_swallowed_after_cleanup_refuted n) as (_ & _ & _ & B). apply B, G.
  - intros ->. intros d0 s faults. now apply retry_family_good.
Qed.

(** The three wrong continuations, each for EVERY number of attempts.  Unconditional commit after the loop (seeded
    c12_6): the with statement returns normally, the destination keeps its old contents, tmp_1 holds the new data. *)
Theorem c12_retry_unconditional_commit_after_loop_refuted : forall n,
  let st := refused_run n (XDone false) [] in
  q1 st = TDone FNot (Some 1) false /\ sdt st (File 0) = Some [100] /\ sdt st (Tmp 1) = Some [1; 2; 3] /\
  ~ good_use d_old sc_a st.
Proof. exact retry_swallowed_exhaustion_refuted. Qed.
Theorem c12_retry_exhaustion_without_cleanup_refuted : forall n,
  let st := refused_run n (XDone true) [] in
  q1 st = TDone FNot (Some 1) true /\ sdt st (File 0) = Some [100] /\ sdt st (Tmp 1) = Some [1; 2; 3] /\
  ~ good_use d_old sc_a st.
Proof. exact retry_exhaustion_without_cleanup_refuted. Qed.
Theorem c12_retry_exhaustion_swallowed_after_cleanup_refuted : forall n,
  let st := refused_run n (unlink_tree false) [false] in
  q1 st = TDone FNot None false /\ sdt st (File 0) = Some [100] /\ sdt st (Tmp 1) = None /\
  ~ good_use d_old sc_a st.
Proof. exact retry_exhaustion_swallowed_after_cleanup_refuted. Qed.

(** The retry loop as a program: the kernel computes its trees.  With [else: raise] it is good for every class (and the
    uncollapsed protocol is outside the five-flag family: the theorems about the family alone could not accept it). *)
Theorem c12_retry_loop_program_ok :
  all_classes 8 obj_retry_good (fun o => retry_ok (obj_proto o) && proto_outcome_ok (obj_proto o) && reuse_indep o) = true /\
  x_ok (class_proto obj_retry_good (RSub 0)) =
    XClose (retry_tree 2 (XDone false) (unlink_tree true) (unlink_tree true)) (unlink_tree true) /\
  x_ok (class_proto obj_retry_good RGeneric) = x_ok (proto_of_cfg cfg_fixed) /\
  proto_ok (class_proto obj_retry_good (RSub 0)) = false.
Proof. exact obj_retry_good_ok. Qed.
(** Without the else clause: wrong exactly for the class the handler names, right for every other class. *)
Theorem c12_retry_loop_without_else_refuted :
  class_proto obj_retry_swallow (RSub 0) = retry_proto cfg_fixed 2 (XDone false) /\
  retry_ok (class_proto obj_retry_swallow (RSub 0)) = false /\
  proto_outcome_ok (class_proto obj_retry_swallow (RSub 0)) = false /\
  cleans (x_ok (class_proto obj_retry_swallow (RSub 0))) false = false /\
  propagates (x_ok (class_proto obj_retry_swallow (RSub 0))) false = false /\
  retry_ok (class_proto obj_retry_swallow RGeneric) = true /\
  retry_ok (class_proto obj_retry_swallow RKbd) = true /\
  retry_ok (class_proto obj_retry_swallow (RSub 1)) = true.
Proof. vm_compute. auto 10. Qed.

(** The entry prologue of [make_tempfile] (what it does before mkdir and the temp-name loop): inert whenever the object
    holds no open temp file — today's; keyed on the temp name that nothing resets (seeded c12_5) it removes tmp_N on
    re-entry, which by then may be another writer's file. *)
Theorem c12_entry_prologue_keyed_on_stale_name_refuted :
  entry_inert obj_fixed prologue_fixed = true /\ entry_inert obj_fixed prologue_stale_name = false /\
  exec prologue_stale_name None (env_of (o_attrs obj_fixed) [Some VNone; Some VTName; Some VDest] false) inert_k
    = XUnlink (XDone false) (XDone true) (XDone false).
Proof. vm_compute. auto. Qed.

(** * Reuse histories of one writer interleaved with a concurrent writer (SM/AtomicProduct.v)

    Writer A is one object used for a history [h] of [with] blocks to the destination [k1] (each segment = the scenario of
    the use + a schedule interleaving it with B; after a finished use that left no temp file A starts again at mkdir:
    obligations [reuse_entry_touches_nothing_before_creating_its_temp_file] and
    [reuse_exit_protocol_independent_of_earlier_uses]); writer B is a single use of another file, in flight across A's
    uses.  For every history, every schedule of every segment (= every kill point, fault pattern and interleaving):
    B's destination is old or B's complete new content; A and B never hold the same temp name; the temp file B holds did
    not exist before, exists, and holds exactly what B has written so far — no re-entry of A removes or rewrites it
    (what seeded c12_5 breaks); nothing else in the directory changes.  Proof: the two-writer invariant, re-based at A's
    destination, survives the restart of A. *)
Theorem c12_product_isolated : forall x d0 k1 s2 h, proto_safe x = true -> k1 <> dest s2 -> h <> [] ->
  (forall u, In u h -> dest (fst u) = k1) ->
  let st := prunt x s2 h (startt d0) in
  sdt st (File (dest s2)) = (if committedt (q2 st) then Some (new s2) else d0 (File (dest s2))) /\
  (forall i, assoct (q1 st) = Some i -> assoct (q2 st) = Some i -> False) /\
  (forall i, assoct (q2 st) = Some i -> d0 (Tmp i) = None /\ exists ct, sdt st (Tmp i) = Some ct /\ progresst s2 (q2 st) ct) /\
  (forall n, n <> File k1 -> n <> File (dest s2) ->
     (forall i, n = Tmp i -> assoct (q1 st) <> Some i /\ assoct (q2 st) <> Some i) -> sdt st n = d0 n).
Proof.
  intros x d0 k1 s2 h Hs Hne Hn Hh st. destruct (psafe_family x Hs) as [Hf Hc].
  pose proof (prunt_sim (derive_cfg x) s2 h _ _ (Rsys_start (derive_cfg x) d0)) as (Hd & _ & H1 & H2).
  rewrite <- (in_family_eq x Hf) in Hd, H1, H2. fold st in Hd, H1, H2.
  destruct (product_isolated (derive_cfg x) Hc d0 k1 s2 Hne h Hn Hh) as (A & B & C & D).
  rewrite Hd, (R_committed _ _ _ H2), (R_assoc _ _ _ H1), (R_assoc _ _ _ H2). repeat split; auto.
  - apply (C i H).
  - destruct (C i H) as (_ & ct & E & P). exists ct. split; [exact E|]. eapply R_progress; eauto.
Qed.

(** Not vacuous: A succeeds, B opens tmp_1 and writes, A is entered again while B is open (tmp_1 and the stale tmp_2
    are taken: it uses tmp_3) and completes, B completes. *)
Theorem c12_product_example :
  let x := proto_of_cfg cfg_fixed in
  let sA := {| dest := 0; body := [1]; tail := []; raise_at := None |} in
  let sA2 := {| dest := 0; body := [2; 3]; tail := []; raise_at := None |} in
  let sB := {| dest := 1; body := [7; 8]; tail := []; raise_at := None |} in
  let h := [(sA, repeat (false, false) 5 ++ repeat (true, false) 3);
            (sA2, repeat (false, false) 8 ++ repeat (true, false) 3)] in
  let st := prunt x sB h (startt d_old) in
  committedt (q1 st) = true /\ committedt (q2 st) = true /\
  sdt st (File 0) = Some [2; 3] /\ sdt st (File 1) = Some [7; 8] /\ sdt st (Tmp 1) = None /\ sdt st (Tmp 2) = Some [777] /\
  In (false, (EOpen 1, RExist)) (trt st).
Proof. vm_compute. repeat split; auto 20. Qed.

(** * Entering a writer that still holds a temp file (SM/AtomicAbandon.v)

    A use that was entered and written but never exited leaves the object with an open handle and its temp file tmp_j.
    The statements of [make_tempfile] before mkdir / the temp-name loop (generated: [aw_entry_prog]) decide what the next
    entry does with it; [reentry_tree] is their decision tree in a state with a handle, [gives_up] the shape "close the
    handle, remove the file by name, only then go on; a failing close fails the entry" (obligation
    [reuse_entry_gives_up_a_temp_file_left_open] = [reentry_ok aw_obj aw_entry_prog]).  For every such tree, every
    directory, every pattern of refused operations in the prologue and in the use that follows (one writer alone; [x]:
    any exit protocol with the hypotheses of [c12_property]): nothing but tmp_j changes in the prologue; if the entry
    goes on, the use is a good single use relative to the directory the prologue left, and the destination ends up with
    its previous content or with the complete new content of THIS use — written to a temp file the temp-name loop
    created afresh — never with anything the abandoned attempt wrote. *)
Theorem c12_reentry_after_abandoned_use : forall x, retry_ok x = true -> proto_outcome_ok x = true ->
  forall t, gives_up t = true -> forall j fs d s faults,
  let d' := fst (pro_run t j fs d) in
  let r := snd (pro_run t j fs d) in
  let st := alonet x s faults d' in
  (exists b, r = Some b) /\
  (forall n, n <> Tmp j -> d' n = d n) /\
  (d' (Tmp j) = None \/ d' (Tmp j) = d (Tmp j)) /\
  (r = Some false ->
     good_use d' s st /\
     sdt st (File (dest s)) = (if committedt (q1 st) then Some (new s) else d (File (dest s)))).
Proof. exact reentry_then_good_use. Qed.

(** The obligation on the generated object gives the hypothesis for every attribute state with a handle. *)
Theorem c12_reentry_obligation_gives_the_shape : forall o p, reentry_ok o p = true ->
  forall a, In a (holding o) -> gives_up (reentry_tree o p a) = true.
Proof. exact reentry_ok_gives_up. Qed.

(** Today's prologue [prologue_r5] and the earlier one [prologue_r4] give the file up; only today's forgets the handle
    when the entry fails (after the earlier one a later entry unlinked the stale NAME again); a prologue that keeps a handle
    that is still open and returns (seeded c12_8: truncate(0) without seek, NUL padding + new data are committed) has the
    tree [XBad] — it ends before any temp file is created —, [reentry_ok] is false. *)
Theorem c12_reentry_keeps_open_handle_refuted :
  reentry_ok obj_fixed prologue_r4 = true /\ reentry_forgets obj_fixed prologue_r4 = false /\
  reentry_ok obj_fixed prologue_r5 = true /\ reentry_forgets obj_fixed prologue_r5 = true /\
  entry_inert obj_fixed prologue_r5 = true /\
  reentry_ok obj_fixed prologue_keep_open_handle = false /\
  reentry_tree obj_fixed prologue_keep_open_handle [Some VTemp; Some VTName; Some VDest] = XBad /\
  reentry_tree obj_fixed prologue_r5 [Some VTemp; Some VTName; Some VDest]
    = XClose (XUnlink (XDone false) (XDone true) (XDone false)) (XUnlink (XDone true) (XDone true) (XDone true)).
Proof.
  destruct generated_object_hypotheses_hold as (_ & H5 & H4 & _).
  split; [exact H4|]. split; [vm_compute; reflexivity|]. split; [exact H5|]. vm_compute. auto 10.
Qed.

(** Not vacuous: the repaired prologue on a directory in which the object holds tmp_1. *)
Theorem c12_reentry_example :
  let t := reentry_tree obj_fixed prologue_r5 [Some VTemp; Some VTName; Some VDest] in
  let d := upd d_old (Tmp 1) (Some [9]) in
  snd (pro_run t 1 [] d) = Some false /\ fst (pro_run t 1 [] d) (Tmp 1) = None /\
  snd (pro_run t 1 [true] d) = Some true /\ fst (pro_run t 1 [true] d) (Tmp 1) = None /\
  fst (pro_run t 1 [] d) (File 0) = d_old (File 0).
Proof. vm_compute. auto 10. Qed.

(** * The property for the generated object

    Every hypothesis is a boolean computed by the kernel on objects the translator generates from today's source — [o]
    (aw_obj: the __exit__ program, the attribute facts, the open modes), [p] (aw_entry_prog: the statements of
    make_tempfile before mkdir), [n] (aw_nclasses) — and discharged on every run as the instance obligation
    [c12_property_of_generated_object_hypotheses]; what remains is [In r (run_classes n)] (the class of exception the
    refused operations of the run raise), [dest s1 <> dest s2] inside [two_writer_property] (the property speaks of
    writers to different files) and [hstates_ok] (the attribute states of a history keep the constants).  Conclusion, for
    the exit protocol [x] of the object under run class [r]: [two_writer_property x] = the conclusion of [c12_property]
    (old or complete new at every point of every schedule, raised iff not committed and then the old contents, an
    abandoned body never commits, no temp file after a handled failure, isolation of the two writers); every history of
    complete uses of the object is good use by use (when the uncollapsed protocol is in the family: no retry loop); and
    entering the object while it still holds a temp file gives that file up and is followed by a good use. *)
Theorem c12_property_of_generated_object : forall n o p r,
  all_classes n o (fun o' => retry_ok (obj_proto o') && proto_outcome_ok (obj_proto o') && reuse_indep o') = true ->
  reentry_ok o p = true -> In r (run_classes n) ->
  let o' := with_class r o in
  let x := obj_proto o' in
  two_writer_property x /\
  (proto_ok x = true -> forall h, hstates_ok o' h -> forall d, hist_good o' h d) /\
  (forall a, In a (holding o) -> reentry_property x (reentry_tree o p a)).
Proof.
  intros n o p r H Hp Hr o' x. unfold all_classes in H. rewrite forallb_forall in H. specialize (H r Hr).
  fold o' in H. apply andb_prop in H as [H Hi]. apply andb_prop in H as [Hok Hout]. fold x in Hok, Hout.
  split; [exact (whole_property x Hok Hout) | split].
  - intros Hpo h Hh d. exact (reuse_history_good o' Hi Hpo h Hh d).
  - intros a Ha. exact (reentry_then_good_use x Hok Hout _ (reentry_ok_gives_up o p Hp a Ha)).
Qed.

Theorem c12_generated_object_hypotheses_hold :
  all_classes 8 obj_fixed (fun o' => retry_ok (obj_proto o') && proto_outcome_ok (obj_proto o') && reuse_indep o') = true /\
  reentry_ok obj_fixed prologue_r5 = true /\ reentry_ok obj_fixed prologue_r4 = true /\
  all_classes 8 obj_fixed (fun o' => proto_ok (obj_proto o')) = true /\ holding obj_fixed <> [].
Proof. exact generated_object_hypotheses_hold. Qed.
