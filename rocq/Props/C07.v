(** C07 — the VMF class/name indexes always agree with the entities in the map.
    Statements; the model is SM/IndexModel.v (the repaired maintenance code of vmf.py), the invariants and general
    theorems are in SM/Index*Proofs.v; computed examples, witnesses and proofs a few steps from those lemmas stand here.
    Everything is stated for an arbitrary case-folding function [fold] that leaves '' and the
    three literals 'classname', 'targetname', 'worldspawn' unchanged ([str.casefold] does; so does [ascii_fold],
    which shows the hypotheses are satisfiable). *)
From stdpp Require Import gmap sets list.
From Coq Require Import NArith.
From SV Require Import SM.IndexModel SM.IndexProofs SM.IndexSearchProofs SM.IndexShapes SM.IndexShapeProofs
  SM.IndexUniqueProofs SM.IndexCopySetProofs SM.IndexMaint SM.IndexMaintProofs SM.IndexEquivProofs
  SM.IndexRemove SM.IndexRemoveProofs SM.IndexDel SM.IndexDelProofs SM.IndexListOps SM.IndexListOpsProofs SM.IndexClear SM.IndexClearProofs
  SM.IndexGlue SM.IndexGlueProofs SM.IndexProperty SM.IndexFold SM.IndexSearchCount.
From Coq Require Strings.String.
Notation string := String.string (only parsing).

Section C07.
  Variable fold : str → str.
  Hypothesis fold_nil : fold [] = [].
  Hypothesis fold_cn : fold cn = cn.
  Hypothesis fold_tn : fold tn = tn.
  Hypothesis fold_ws : fold ws = ws.

  (** [Inv st] (SM/IndexProofs.v) says: for every key [k] and entity [e],
      [e ∈ by_class[k]] iff [e] is in the entity list or is the worldspawn, and its current classname folds to [k];
      the same for [by_target] with ['' ↦ None]; the worldspawn's class is 'worldspawn' and it is not in the
      entity list; no key list holds two spellings of one key; no object beyond the allocation counter is present. *)

  (** A freshly constructed VMF satisfies the invariant ... *)
  Theorem c07_index_inv_init : Inv fold init.
  Proof. apply init_inv; assumption. Qed.

  (** ... so does the result of VMF.parse for every world block and every list of entity blocks ... *)
  Theorem c07_index_inv_parse : ∀ spawn_keys ent_keys, Inv fold (parse_init fold spawn_keys ent_keys).
  Proof. apply parse_init_inv; assumption. Qed.

  (** ... every single operation preserves it (whatever its arguments, whether it raises or not) ... *)
  Theorem c07_index_inv_step : ∀ o st, Inv fold st → Inv fold (step fold o st).1.
  Proof. apply step_inv; assumption. Qed.

  (** ... hence it holds after EVERY finite sequence of operations on one map ... *)
  Theorem c07_index_inv_reachable : ∀ ops, Inv fold (run fold ops init).
  Proof. intros ops. apply run_inv; try assumption. apply c07_index_inv_init. Qed.

  (** ... and for every history over any number of maps with entities copied between them and maps parsed. *)
  Theorem c07_index_inv_worlds : ∀ ops, Forall (Inv fold) (wrun fold ops []).
  Proof. intros ops. apply wrun_inv; try assumption. constructor. Qed.

  (** What a reader of the indexes gets in a state satisfying the invariant: exactly the scan. *)
  Theorem c07_by_class_is_scan : ∀ st k e, Inv fold st →
    e ∈ ix_get (by_class st) k ↔ present st e ∧ cls_of fold st e = k.
  Proof. exact (inv_by_class fold). Qed.
  Theorem c07_by_target_is_scan : ∀ st k e, Inv fold st →
    e ∈ ix_get (by_target st) k ↔ present st e ∧ tgt_of fold st e = k.
  Proof. exact (inv_by_target fold). Qed.

  (** VMF.search(name) returns exactly the entities in the map whose current targetname (exact or [prefix*] form)
      or current classname matches case-insensitively ([search_spec], SM/IndexSearchProofs.v); unnamed entities
      are never found by name and the empty query finds nothing. Needs folding to be idempotent. *)
  Theorem c07_search_sound_complete : (∀ s, fold (fold s) = fold s) → ∀ name st e, Inv fold st →
    e ∈ search fold name st ↔ search_spec fold name st e.
  Proof. intros Hidem name st e. by apply search_sound_complete. Qed.

  (** The worldspawn entity always has class 'worldspawn' and is always listed under it. *)
  Theorem c07_worldspawn_pinned : ∀ ops m st, wrun fold ops [] !! m = Some st →
    cls_of fold st (spawn st) = ws ∧ spawn st ∈ ix_get (by_class st) ws.
  Proof.
    intros ops m st Hm. apply (inv_worldspawn fold).
    exact (Forall_lookup_1 _ _ _ _ (c07_index_inv_worlds ops) Hm).
  Qed.

  (** *** The code as written (shapes read off vmf.py by translate/c07_index_shapes.py on every run).
      Entity.__setitem__: whatever spelling the caller uses, a lookup loop that passes the five shape obligations
      (previous value fetched with the *stored* spelling before the store, ...) is the model's [set_item] — for
      all arguments and states — and therefore preserves the invariant. *)
  Theorem c07_setitem_as_written : ∀ sh e key v st, setitem_shape_ok sh = true →
    set_item_sh fold sh e key v st = set_item fold e key v st ∧ (Inv fold st → Inv fold (set_item_sh fold sh e key v st).1).
  Proof.
    intros sh e key v st Hok. rewrite (set_item_sh_ok fold sh e key v st Hok). split; [done|].
    by apply set_item_inv.
  Qed.

  (** Entity.__setitem__ as written, whole function: the lookup loop of shape [sh] followed by the
      maintenance program [p] read off the source (the `if key_fold == 'classname' ... elif ...` chain with the
      worldspawn guard; `self['classname'] = 'worldspawn'` on its error path is a recursive call of the same
      function, modelled with an explicit depth).  When every path through [p] executes the actions the four named
      obligations ask for, the function is the model's [set_item] for all arguments and states — in particular the
      rejected re-class of the worldspawn leaves it listed under 'worldspawn' — and keeps the invariant. *)
  Theorem c07_setitem_maintenance_as_written : ∀ sh p d e key v st,
    setitem_shape_ok sh = true → maint_ok p = true →
    set_item_pg fold sh p (S (S d)) e key v st = set_item fold e key v st ∧
    (Inv fold st → Inv fold (set_item_pg fold sh p (S (S d)) e key v st).1).
  Proof.
    intros sh p d e key v st Hsh Hp. rewrite (set_item_pg_ok fold fold_cn fold_ws sh p d e key v st Hsh Hp).
    split; [done|]. by apply set_item_inv.
  Qed.

  (** VMF.add_ents as written: a program over an argument that may be a one-shot iterable.  When every
      entity is listed once and indexed once in both indexes — whether or not the argument can be iterated a
      second time — the function is the model's [add_ents] for every argument, and keeps the invariant. *)
  Theorem c07_add_ents_as_written : ∀ p es oneshot st, ae_ok p = true →
    ae_run fold p es oneshot st = add_ents fold es st ∧ (Inv fold st → Inv fold (ae_run fold p es oneshot st)).
  Proof.
    intros p es oneshot st Hp. rewrite (ae_run_ok fold p es oneshot st Hp). split; [done|]. by apply add_ents_inv.
  Qed.

  (** Entity.__delitem__ with a single key, as written: the statements before the lookup loop as a
      maintenance program [p] (the by_target update of the targetname branch, whose removal key is the entity's
      current targetname, and the refusal to delete the classname, in either order) and the loop that pops the stored
      key as a shape [dl], both read off the source.  When every path through [p] executes what the three named
      obligations ask for and the loop is case-insensitive and pops the stored spelling, the function is the model's
      [del_item] for all arguments and states, and keeps the invariant.  ([del self[k1, k2, ...]], pop, popitem and
      clear go through this function: [del_items], [pop_item], [pop_first], [clear] of the model.) *)
  Theorem c07_delitem_as_written : ∀ p dl e key st,
    del_maint_ok p = true → del_loop_ok dl = true →
    del_item_pg fold p dl e key st = del_item fold e key st ∧
    (Inv fold st → Inv fold (del_item_pg fold p dl e key st).1).
  Proof.
    intros p dl e key st Hp Hdl. rewrite (del_item_pg_ok fold p dl e key st Hp Hdl). split; [done|].
    by apply del_item_inv.
  Qed.

  (** Entity.clear as written: a straight-line list of steps read off the source.  When the classname is reset
      through __setitem__ and the targetname deleted through __delitem__ before the key dict is emptied directly, and
      the classname is stored back afterwards, the function is the model's [clear] for every entity and state (the
      only assumption: 'nodeid'.casefold() is neither 'classname' nor 'targetname'), and keeps the invariant. *)
  Theorem c07_clear_as_written : fold nodeid ≠ cn ∧ fold nodeid ≠ tn → ∀ l e st, clear_ok l = true →
    clear_pg fold l e st = clear fold e st ∧ (Inv fold st → Inv fold (clear_pg fold l e st).1).
  Proof.
    intros Hn l e st Hl. rewrite (clear_pg_ok fold Hn l e st Hl). split; [done|]. by apply clear_inv.
  Qed.

  (** VMF.remove_ent and VMF.add_ent as written: little programs over the entity list and the two indexes
      whose conditions are evaluated where they stand (the membership test of remove_ent after the list removal).
      A remove_ent program that passes its three path obligations — the worldspawn stays indexed, an entity that is
      still listed (it was added more than once) stays indexed, any other entity leaves the list and both indexes —
      is the model's [remove_ent]; an add_ent program that appends the item and adds it to each index exactly once
      is the model's [add_ent] (for an entity object of this map that is not the worldspawn: the modelled domain).
      Both keep the invariant. *)
  Theorem c07_remove_ent_as_written : ∀ p e st, remove_ok p = true →
    v_run fold p e st = remove_ent fold e st ∧ (Inv fold st → Inv fold (v_run fold p e st)).
  Proof.
    intros p e st Hp. rewrite (remove_ent_pg_ok fold p e st Hp). split; [done|]. by apply remove_ent_inv.
  Qed.
  Theorem c07_add_ent_as_written : ∀ p e st, add_ok p = true → e ≠ spawn st → e < nobj st →
    v_run fold p e st = add_ent fold e st ∧ (Inv fold st → Inv fold (v_run fold p e st)).
  Proof.
    intros p e st Hp Hs Hn. rewrite (add_ent_pg_ok fold p e st Hp Hs Hn). split; [done|]. by apply add_ent_inv.
  Qed.

  (** VMF.search as written: any program for the two branches that passes the shape obligations — over the real
      defaultdict semantics, where reading a missing key inserts an empty set and `name in index` sees such keys —
      returns exactly [search_spec], and the state it leaves cannot be told from the one before by any reader. *)
  Theorem c07_search_as_written : (∀ s, fold (fold s) = fold s) → ∀ sh name st, search_shape_ok sh = true → Inv fold st →
    (∀ e, e ∈ (search_sh fold sh name st).1 ↔ search_spec fold name st e) ∧
    ix_equiv st (search_sh fold sh name st).2 ∧ Inv fold (search_sh fold sh name st).2.
  Proof. intros Hidem sh name st. by apply search_sh_sound_complete. Qed.

  (** *** Entity.make_unique terminates: with [n] keys in by_target, one of the [n+1] candidates base1 .. base(n+1)
      is unused (they stay pairwise distinct after case folding), so the `while True` loop ends within the fuel
      the model gives it; the name chosen is the first unused candidate; make_unique never raises.
      Folding is abstract: it distributes over an appended decimal number and leaves the digits alone. *)
  Section unique.
    Hypothesis fold_app_dec : ∀ b i, fold (b ++ dec i) = fold b ++ dec i.
    Theorem c07_make_unique_loop_total : ∀ (bt : gmap (option str) (gset nat)) base i,
      is_Some (free_name fold (S (size bt)) i base bt).
    Proof. exact (free_name_total fold fold_app_dec). Qed.
    Theorem c07_make_unique_first_unused : ∀ fuel i base bt name, free_name fold fuel i base bt = Some name →
      ∃ j, (j < fuel)%nat ∧ name = base ++ dec (i + N.of_nat j) ∧ ix_get bt (cand fold base i j) = ∅ ∧
           ∀ j', (j' < j)%nat → ix_get bt (cand fold base i j') ≠ ∅.
    Proof. exact (free_name_some fold). Qed.
    Theorem c07_make_unique_terminates : ∀ e p st, (make_unique fold e p st).2 = 0.
    Proof. exact (make_unique_terminates fold fold_app_dec fold_tn). Qed.

    (** Every operation respects [ix_equiv]: two states that differ only in empty sets held by the index
        maps — what defaultdict reads, iteration and make_unique's own lookups leave behind in the implementation
        and the model does not track — give equivalent states and the same error code, step after step.  (For
        make_unique the fuel of the model's loop differs between the two states; the name found does not.) *)
    Theorem c07_step_respects_ix_equiv : ∀ o st st', ix_equiv st st' →
      ix_equiv (step fold o st).1 (step fold o st').1 ∧ (step fold o st).2 = (step fold o st').2.
    Proof. exact (step_resp fold fold_app_dec). Qed.
    Theorem c07_run_respects_ix_equiv : ∀ ops st st', ix_equiv st st' →
      ix_equiv (run fold ops st) (run fold ops st') ∧ (Inv fold st → Inv fold (run fold ops st')).
    Proof.
      intros ops st st' H. pose proof (run_resp fold fold_app_dec ops st st' H) as H'. split; [done|].
      intros HI. eapply ix_equiv_inv; [|exact H']. by apply run_inv.
    Qed.
  End unique.

  (** *** Iterating an index while mutating it (CopySet.__iter__, shape read off the source): a generator that
      never iterates the live set cannot raise, for every loop body; when the body applies arbitrary operations
      to the yielded entity (re-class, rename, remove, add, ...) every map still satisfies the invariant. *)
  Theorem c07_copyset_iteration_keeps_inv : ∀ (get : list mstate → gset nat) (f : nat → list wop)
      (order : gset nat → list nat) p w,
    iprog_never_live p = true → Forall (Inv fold) w →
    let out := irun get (λ x w, wrun fold (f x) w) order p ∅ [] w in
    io_raised out = false ∧ Forall (Inv fold) (io_state out).
  Proof. apply copyset_iteration_keeps_inv; assumption. Qed.
  (** *** The glue around those functions, as written (statement lists / shapes read off vmf.py by
      translate/c07_index_glue.py on every run).
      VMF.__init__: when the two indexes and the entity list are created before the worldspawn, and the worldspawn is a
      new entity without keys that becomes [spawn], is classed 'worldspawn' through __setitem__ and filed under no
      name, the constructor yields exactly the model's [init]. *)
  Theorem c07_vmf_init_as_written : ∀ l env, vmf_init_ok l = true →
    g_run fold l env blank = init ∧ Inv fold (g_run fold l env blank).
  Proof. intros l env H. rewrite (vmf_init_pg_ok fold fold_nil fold_cn fold_ws l env H). split; [done|]. by apply init_inv. Qed.

  (** VMF.parse: constructor, worldspawn replacement (the parsed world block becomes an entity; the placeholder leaves
      both indexes before [spawn] is re-assigned; the new spawn is classed through __setitem__ and filed under its
      current name) and the entity loop (every block is parsed into an entity and added through add_ent) are the
      model's [parse_init] for every world block and every list of entity blocks. *)
  Theorem c07_parse_as_written : ∀ pi ps pe sk ek,
    vmf_init_ok pi = true → parse_spawn_ok ps = true → parse_ent_ok pe = true →
    parse_pg fold pi ps pe sk ek = parse_init fold sk ek ∧ Inv fold (parse_pg fold pi ps pe sk ek).
  Proof.
    intros pi ps pe sk ek H1 H2 H3. rewrite (parse_pg_ok fold fold_nil fold_cn fold_ws pi ps pe sk ek H1 H2 H3).
    split; [done|]. by apply parse_init_inv.
  Qed.

  (** VMF.create_ent (the keyword arguments cannot contain 'classname' itself: Python rejects such a call),
      Entity.__init__ (a new empty key dict, self.map assigned first, the keys stored one by one through
      __setitem__), Entity.pop (case-insensitive lookup loop, the deletion goes through __delitem__; needs folding
      to be idempotent when the folded key is deleted instead of the stored one). *)
  Theorem c07_create_ent_as_written : ∀ l keys c st, create_ent_ok l = true → dget cn keys = None →
    g_run fold l (GE keys c) st = create_ent fold c keys st ∧ (Inv fold st → Inv fold (g_run fold l (GE keys c) st)).
  Proof. intros l keys c st H Hk. rewrite (create_ent_pg_ok fold l keys c st H Hk). split; [done|]. by apply create_ent_inv. Qed.
  Theorem c07_entity_init_as_written : ∀ sh l st, einit_ok sh = true →
    new_ent_sh fold sh l st = new_ent fold l st ∧ (Inv fold st → Inv fold (new_ent_sh fold sh l st)).
  Proof. intros sh l st H. rewrite (new_ent_sh_ok fold sh l st H). split; [done|]. by apply new_ent_inv. Qed.
  Theorem c07_pop_as_written : (∀ s, fold (fold s) = fold s) → ∀ sh e key st, pop_ok sh = true →
    pop_item_sh fold sh e key st = pop_item fold e key st ∧ (Inv fold st → Inv fold (pop_item_sh fold sh e key st).1).
  Proof. intros Hi sh e key st H. rewrite (pop_item_sh_ok fold sh e key st Hi H). split; [done|]. by apply pop_item_inv. Qed.

  (** Entity.make_unique as written: the uniqueness test, the clearing of the own name, the base name and the
      candidate loop look names up folded, count from 1 in steps of 1, and store through __setitem__: then the function
      is the model's [make_unique] (whose loop is shown to terminate above). *)
  Theorem c07_make_unique_as_written : ∀ sh e p st, mu_ok sh = true →
    make_unique_sh fold sh e p st = make_unique fold e p st ∧ (Inv fold st → Inv fold (make_unique_sh fold sh e p st).1).
  Proof. intros sh e p st H. rewrite (make_unique_sh_ok fold sh e p st H). split; [done|]. by apply make_unique_inv. Qed.

  (** *** THE PROPERTY over the code as written.  [P] collects every object the translators read off vmf.py
      and [programs_ok P] all their named obligations; [census] is the list of all functions of the package that write
      by_class / by_target, a VMF.entities list, VMF.spawn or an Entity._keys dict (translate/c07_index_sites.py), and
      [census_covered] says each of them is one of the functions below.  Then
      (a) every function of the census, as written, is the corresponding operation of the model on its whole modelled
          domain and preserves the invariant;
      (b) after every history of public operations as written ([step_w]: create/add/remove, []=, del, pop, popitem,
          setdefault, update, clear, make_unique, export, defaultdict reads) on a map constructed as written, the
          invariant holds, looking an entity up by class or by name returns exactly the scan of the entities in the
          map, search() as written returns exactly [search_spec], and the worldspawn is listed under 'worldspawn'. *)
  Theorem c07_property :
    (∀ s, fold (fold s) = fold s) → (∀ b i, fold (b ++ dec i) = fold b ++ dec i) → fold nodeid ≠ cn ∧ fold nodeid ≠ tn →
    ∀ (census : list string) (P : programs), census_covered census = true → programs_ok P = true →
    (∀ s, s ∈ census → ∃ f, fname_of s = Some f ∧
       ∀ a st, fn_dom f a st → fn_w fold P f a st = fn_model fold f a st ∧ (Inv fold st → Inv fold (fn_w fold P f a st).1)) ∧
    (∀ ops, ops_dom fold ops (init_w fold P) →
       let st := run_w fold P ops (init_w fold P) in
       Inv fold st ∧
       (∀ k e, e ∈ ix_get (by_class st) k ↔ present st e ∧ cls_of fold st e = k) ∧
       (∀ k e, e ∈ ix_get (by_target st) k ↔ present st e ∧ tgt_of fold st e = k) ∧
       (∀ name e, e ∈ (search_sh fold (pg_search P) name st).1 ↔ search_spec fold name st e) ∧
       cls_of fold st (spawn st) = ws ∧ spawn st ∈ ix_get (by_class st) ws).
  Proof.
    intros Hidem Hdec Hnode census P Hc HP. split.
    - eapply property_functions; eassumption.
    - intros ops Hd. eapply property_histories; eassumption.
  Qed.
End C07.

(** CopySet iteration in general (any state type, any loop body, any iteration order of a frozen set): no
    RuntimeError; today's generator stops after [size snapshot + size late] yields, yields no element twice, and
    yields exactly the snapshot and the elements added during the first pass. *)
Theorem c07_copyset_never_live_no_raise : ∀ {S} (get : S → gset nat) body order p, iprog_never_live p = true →
  ∀ cur ys s, io_raised (irun get body order p cur ys s) = false.
Proof. intros S. exact (@irun_never_live_no_raise S). Qed.
Theorem c07_copyset_iteration_total : ∀ {S} (get : S → gset nat) body order, (∀ X, order X ≡ₚ elements X) → ∀ s,
  let out := irun get body order copyset_iter_today ∅ [] s in
  let s1 := yield_frozen body (order (get s)) s in
  io_raised out = false ∧
  length (io_yield out) = size (get s) + size (get s1 ∖ get s) ∧
  NoDup (io_yield out) ∧
  ∀ x, x ∈ io_yield out ↔ x ∈ get s ∨ (x ∈ get s1 ∧ x ∉ get s).
Proof. intros S. exact (@copyset_iteration_total S). Qed.
(** the plain set iteration that CopySet replaces: a body that removes the yielded element makes it raise *)
Theorem c07_plain_set_iteration_refuted :
  iprog_never_live plain_set_iter = false ∧
  io_raised (irun (S := gset nat) id (λ x s, s ∖ {[x]}) elements plain_set_iter ∅ [] {[1; 2]}) = true.
Proof. split; [reflexivity|]. vm_compute. reflexivity. Qed.
Example c07_ascii_fold_app_dec : ∀ b i, ascii_fold (b ++ dec i) = ascii_fold b ++ dec i.
Proof.
  intros b i. unfold ascii_fold at 1. rewrite map_app. f_equal. apply ascii_fold_digits, uint_codes_digits.
Qed.

(** Today's shapes pass; the shapes of the seeded faults do not, and are wrong on reachable states:
    c07_1 (previous value fetched with the caller's spelling; also: fetched after the store) ... *)
Example c07_shapes_today_ok : setitem_shape_ok setitem_shape_today = true ∧ search_shape_ok search_shape_today = true.
Proof. split; reflexivity. Qed.
Theorem c07_setitem_caller_spelling_refuted :
  setitem_shape_ok setitem_shape_caller = false ∧
  let st0 := run ascii_fold [CreateEnt [97]%N [([84;97;114;103;101;116;78;97;109;101]%N, [120]%N)]] init in
  Inv ascii_fold st0 ∧ ¬ Inv ascii_fold (set_item_sh ascii_fold setitem_shape_caller 1 tn [121]%N st0).1.
Proof. exact set_item_caller_spelling_refuted. Qed.
Theorem c07_setitem_read_after_store_refuted :
  setitem_shape_ok setitem_shape_after = false ∧
  let st0 := run ascii_fold [CreateEnt [97]%N [([84;97;114;103;101;116;78;97;109;101]%N, [120]%N)]] init in
  ¬ Inv ascii_fold (set_item_sh ascii_fold setitem_shape_after 1 tn [121]%N st0).1.
Proof. exact set_item_read_after_store_refuted. Qed.
(** ... and c07_2 (`if name in by_target ... elif name in by_class`): after a mere read of by_target['a'], or when
    another entity is named 'A', search('a') misses the entity of class 'a'. *)
Theorem c07_search_elif_refuted :
  search_shape_ok search_shape_elif = false ∧
  let st_probe := run ascii_fold [CreateEnt [97]%N []; ProbeTarget (Some [97]%N)] init in
  let st_named := run ascii_fold [CreateEnt [97]%N []; CreateEnt [98]%N [(tn, [65]%N)]] init in
  Inv ascii_fold st_probe ∧ search_spec ascii_fold [97]%N st_probe 1 ∧ 1 ∉ (search_sh ascii_fold search_shape_elif [97]%N st_probe).1 ∧
  Inv ascii_fold st_named ∧ search_spec ascii_fold [97]%N st_named 1 ∧ 1 ∉ (search_sh ascii_fold search_shape_elif [97]%N st_named).1.
Proof. exact search_elif_refuted. Qed.

(** Seeded fault c07_5 ([ents = self.by_target.get(name) or self.by_class.get(name); if ents: yield from ents]):
    the search programs have plain lookups ([PYieldGetTarget] / [PYieldGetClass]: nothing is inserted) and
    non-emptiness tests ([CNeTarget] / [CNeClass]), so the `or` form is a program with a meaning.  It fails the
    obligation about the exact branch, and when an entity is named like another one's class the search for that class
    misses the entity of that class; two plain lookups one after the other pass (and find it). *)
Theorem c07_search_or_refuted :
  search_shape_ok search_shape_or = false ∧ search_shape_ok search_shape_two_gets = true ∧
  let st_named := run ascii_fold [CreateEnt [97]%N []; CreateEnt [98]%N [(tn, [65]%N)]] init in
  Inv ascii_fold st_named ∧ search_spec ascii_fold [97]%N st_named 1 ∧
  1 ∉ (search_sh ascii_fold search_shape_or [97]%N st_named).1 ∧
  1 ∈ (search_sh ascii_fold search_shape_two_gets [97]%N st_named).1.
Proof. exact search_or_refuted. Qed.

(** Today's maintenance program and add_ents pass their obligations; the shapes of seeded faults c07_3
    (rejected re-class of the worldspawn reverted by a direct store: ValueError is raised, the keyvalue is back,
    the worldspawn is gone from by_class) and c07_4 (add_ents iterates its argument twice: with a generator the
    entity is listed but not indexed) fail theirs and break the invariant on reachable states. *)
Example c07_maintenance_today_ok : maint_ok maint_today = true ∧ ae_ok add_ents_today = true.
Proof. split; reflexivity. Qed.
(** Seeded fault c07_3: the rejected re-class of the worldspawn reverted by a direct store.  The obligation about
    the error path fails (the other three hold), and on a fresh map [vmf.spawn['classname'] = 'a'] — which raises
    ValueError as it should — leaves a state in which the worldspawn is not listed under 'worldspawn'. *)
Theorem c07_setitem_guard_direct_revert_refuted :
  maint_guard_error_ok maint_direct_revert = false ∧
  maint_classname_ok maint_direct_revert = true ∧ maint_targetname_ok maint_direct_revert = true ∧
  maint_other_ok maint_direct_revert = true ∧
  let r := set_item_pg ascii_fold setitem_shape_today maint_direct_revert 2 0 cn [97]%N init in
  r.2 = 2 ∧ keys_of r.1 0 = [(cn, ws)] ∧ ¬ Inv ascii_fold r.1.
Proof. repeat (split; [reflexivity|]). apply (not_inv_class_missing _ _ 0); compute_done. Qed.
(** Seeded fault c07_4 (the argument is iterated twice): fine for a list, but with a generator the entity is listed
    and not indexed. *)
Theorem c07_add_ents_iterated_twice_refuted :
  ae_ok_reiterable add_ents_twice = true ∧ ae_ok_oneshot add_ents_twice = false ∧
  let st0 := run ascii_fold [NewEnt [(cn, [97]%N)]] init in
  Inv ascii_fold st0 ∧ ents (ae_run ascii_fold add_ents_twice [1] true st0) = [1] ∧
  ¬ Inv ascii_fold (ae_run ascii_fold add_ents_twice [1] true st0).
Proof.
  do 2 (split; [reflexivity|]). intros st0. split; [by apply run_inv, init_inv|]. split; [reflexivity|].
  apply (not_inv_class_missing _ _ 1); compute_done.
Qed.

(** Seeded fault c07_7: membership in the map read from a flag cached on the entity object ([self._in_map],
    kept by add_ent / remove_ent but not by add_ents) instead of the scan [self in self.map.entities].  Such a flag
    is state the model does not have: the translator emits the condition [MCCached], which no fact decides; the state
    census [prog_stateless] and the path obligations of both indexed keys fail, and for the value the flag has after
    add_ents a re-classed entity is in no class set. *)
Theorem c07_setitem_cached_membership_flag_refuted :
  prog_stateless maint_today = true ∧ prog_stateless maint_cached_flag = false ∧
  maint_classname_ok maint_cached_flag = false ∧ maint_targetname_ok maint_cached_flag = false ∧
  maint_other_ok maint_cached_flag = true ∧
  let st0 := run ascii_fold [NewEnt [(cn, [97]%N)]; AddEnts [1]] init in
  let r := set_item_pg ascii_fold setitem_shape_today maint_cached_flag 2 1 cn [98]%N st0 in
  Inv ascii_fold st0 ∧ r.2 = 0 ∧ ents r.1 = [1] ∧ keys_of r.1 1 = [(cn, [98]%N)] ∧ ¬ Inv ascii_fold r.1.
Proof.
  do 5 (split; [reflexivity|]). intros st0 r. split; [by apply run_inv, init_inv|]. do 3 (split; [reflexivity|]).
  apply (not_inv_class_missing _ _ 1); compute_done.
Qed.

(** _remove_copyset as written: every shape of the helper that passes the four named obligations (the set is
    found without raising and a missing set means nothing to do; the entity is discarded, not removed; the other
    members stay; a set that became empty is dropped) is the model's [ix_remove] — the function every removal of the
    model and of the generated maintenance program goes through — for every mapping, key and entity, and never raises.
    Without the fourth obligation the only difference is an empty set left under the key: the same sets for every
    reader ([ix_get]), which is what [ix_equiv] ignores.  The other shapes are refuted by computed witnesses:
    [set.remove] raises KeyError, an inverted emptiness test loses the remaining members, no `is not None` guard raises
    on an absent key. *)
Theorem c07_remove_copyset_as_written : ∀ sh,
  rc_ok sh = true →
  (∀ k e (m : gmap str (gset nat)), rc_run sh k e m = (ix_remove k e m, 0)) ∧
  (∀ k e (m : gmap (option str) (gset nat)), rc_run sh k e m = (ix_remove k e m, 0)).
Proof. intros sh Hok. split; intros; by apply rc_run_ok. Qed.
Theorem c07_remove_copyset_leaving_empty_sets_reader_equal : ∀ sh,
  rc_reader_ok sh = true →
  ∀ k e (m : gmap (option str) (gset nat)),
    (rc_run sh k e m).2 = 0 ∧ ∀ k', ix_get (rc_run sh k e m).1 k' = ix_get (ix_remove k e m) k'.
Proof. intros sh Hok k e m. by apply rc_run_reader_ok. Qed.
Example c07_remove_copyset_today_ok : rc_ok rc_today = true.
Proof. reflexivity. Qed.
Theorem c07_remove_copyset_variants_refuted :
  let m1 : gmap nat (gset nat) := {[ 7 := {[1; 2]} ]} in
  (rc_discards rc_strict_remove = false ∧ (rc_run rc_strict_remove 7 3 m1).2 = 1 ∧ (ix_remove 7 3 m1) = m1) ∧
  (rc_keeps_others rc_drop_inverted = false ∧ ix_get (rc_run rc_drop_inverted 7 1 m1).1 7 = ∅ ∧ ix_get (ix_remove 7 1 m1) 7 = {[2]}) ∧
  (rc_lookup_ok rc_no_none_guard = false ∧ (rc_run rc_no_none_guard 8 1 m1).2 = 9) ∧
  (rc_drops_empty rc_never_drops = false ∧ rc_reader_ok rc_never_drops = true ∧
   (rc_run rc_never_drops 7 1 {[ 7 := {[1]} ]}).1 = ({[ 7 := ∅ ]} : gmap nat (gset nat)) ∧
   ix_remove 7 1 ({[ 7 := {[1]} ]} : gmap nat (gset nat)) = ∅).
Proof.
  cbv zeta. repeat split; try (vm_compute; reflexivity); apply (bool_decide_unpack _); vm_compute; exact I.
Qed.

(** Today's __delitem__, remove_ent and add_ent programs pass their obligations; refuted variants: a
    by_target[None] addition in __delitem__ without the membership test (an entity that is not in the map ends up in
    by_target[None]), a pop by the caller's spelling (KeyError for a key stored in another letter case), the
    membership test of remove_ent placed before the list removal (the entity leaves the list but stays indexed), the
    guard of remove_ent written with `and` (removing the worldspawn takes it out of by_class). *)
Example c07_delitem_listops_today_ok :
  del_maint_ok del_maint_today = true ∧ del_loop_ok del_loop_today = true ∧
  remove_ok remove_ent_today = true ∧ add_ok add_ent_today = true.
Proof. repeat split; reflexivity. Qed.
Theorem c07_delitem_variants_refuted :
  (del_targetname_ok del_maint_unguarded = false ∧ del_classname_refused del_maint_unguarded = true ∧
   del_other_ok del_maint_unguarded = true ∧
   let st0 := run ascii_fold [NewEnt [(cn, [97]%N); (tn, [120]%N)]] init in
   let r := del_item_pg ascii_fold del_maint_unguarded del_loop_today 1 tn st0 in
   Inv ascii_fold st0 ∧ r.2 = 0 ∧ ents r.1 = [] ∧ ¬ Inv ascii_fold r.1) ∧
  (del_loop_pops_stored del_loop_pop_caller = false ∧
   delitem_loop ascii_fold del_loop_pop_caller [84;110]%N [([116;78]%N, [120]%N)] = ([([116;78]%N, [120]%N)], 1) ∧
   delitem_loop ascii_fold del_loop_today [84;110]%N [([116;78]%N, [120]%N)] = ([], 0)).
Proof.
  split; [|split; [reflexivity|split; vm_compute; reflexivity]].
  split; [reflexivity|]. split; [reflexivity|]. split; [reflexivity|]. split; [by apply run_inv, init_inv|].
  split; [reflexivity|]. split; [reflexivity|].
  apply (not_inv_target_member _ _ None 1); compute_done.
Qed.
Theorem c07_remove_ent_variants_refuted :
  (remove_unlists_and_unindexes remove_ent_test_first = false ∧
   let st0 := run ascii_fold [CreateEnt [97]%N []] init in
   let st1 := v_run ascii_fold remove_ent_test_first 1 st0 in
   Inv ascii_fold st0 ∧ ents st1 = [] ∧ ¬ Inv ascii_fold st1) ∧
  (remove_worldspawn_stays_indexed remove_ent_and_guard = false ∧
   remove_still_listed_stays_indexed remove_ent_and_guard = false ∧
   ¬ Inv ascii_fold (v_run ascii_fold remove_ent_and_guard 0 init)).
Proof.
  split.
  - split; [reflexivity|]. intros st0 st1. split; [by apply run_inv, init_inv|]. split; [reflexivity|].
    apply (not_inv_class_member _ _ [97]%N 1); compute_done.
  - do 2 (split; [reflexivity|]). apply (not_inv_class_missing _ _ 0); compute_done.
Qed.

(** "Still listed" read from a flag cached on the entity object: state the model does not have; no fact decides
    the condition, so no path obligation of remove_ent holds for it. *)
Theorem c07_remove_ent_cached_flag_refuted :
  remove_worldspawn_stays_indexed remove_ent_cached_flag = false ∧
  remove_still_listed_stays_indexed remove_ent_cached_flag = false ∧
  remove_unlists_and_unindexes remove_ent_cached_flag = false.
Proof. repeat split; reflexivity. Qed.

(** Entity.clear: today's step list passes; without `del self['targetname']` before the dict is emptied the entity
    keeps its old name in by_target (computed witness on a reachable state). *)
Example c07_clear_today_ok : clear_ok clear_today = true ∧ (ascii_fold nodeid ≠ cn ∧ ascii_fold nodeid ≠ tn).
Proof. split; [reflexivity|split; by vm_compute]. Qed.
(** Without `del self['targetname']` before the dict is emptied: the entity keeps its old name in by_target. *)
Theorem c07_clear_forgets_targetname_refuted :
  clear_reindexes_before_emptying clear_forgets_targetname = false ∧ clear_keeps_the_classname clear_forgets_targetname = true ∧
  let st0 := run ascii_fold [CreateEnt [97]%N [(tn, [120]%N)]] init in
  let r := clear_pg ascii_fold clear_forgets_targetname 1 st0 in
  Inv ascii_fold st0 ∧ r.2 = 0 ∧ keys_of r.1 1 = [(cn, inull)] ∧ ¬ Inv ascii_fold r.1.
Proof.
  do 2 (split; [reflexivity|]). intros st0 r. split; [by apply run_inv, init_inv|]. do 2 (split; [compute_done|]).
  apply (not_inv_target_member _ _ (Some [120]%N) 1); compute_done.
Qed.

(** The hypotheses are satisfiable: ASCII lower-casing. *)
Example c07_ascii_fold_ok :
  ascii_fold [] = [] ∧ ascii_fold cn = cn ∧ ascii_fold tn = tn ∧ ascii_fold ws = ws.
Proof. repeat split. Qed.
Example c07_ascii_fold_idem : ∀ s, ascii_fold (ascii_fold s) = ascii_fold s.
Proof.
  intros s. unfold ascii_fold. rewrite map_map. apply map_ext, ascii_lower_idem.
Qed.

(** Not vacuous: a history in which a mixed-case class and name are set, changed and the entity removed. *)
Example c07_history_example :
  let st := run ascii_fold [CreateEnt [70;117]%N [(tn, [65;98]%N)]; SetItem 1 cn [97]%N; Pop 1 tn; RemoveEnt 1] init in
  ents st = [] ∧ elements (ix_get (by_class st) ws) = [0] ∧ elements (ix_get (by_target st) None) = [0].
Proof. vm_compute. done. Qed.

(** The hypotheses of [c07_property] are satisfiable — today's programs pass every obligation and today's census
    is covered; a non-trivial history as written ends in the state of the model. *)
Example c07_property_today_ok :
  programs_ok programs_today = true ∧
  census_covered census_today = true ∧ census_covered census_with_an_unmodelled_writer = false ∧
  let ops := [CreateEnt [70;117]%N [(tn, [65;98]%N)]; SetItem 1 cn [97]%N; Pop 1 tn; MakeUnique 1 [120]%N] in
  let st := run_w ascii_fold programs_today ops (init_w ascii_fold programs_today) in
  ops_dom ascii_fold ops (init_w ascii_fold programs_today) ∧
  ents st = [1] ∧ keys_of st 1 = [(cn, [97]%N); (tn, [120]%N)] ∧
  elements (ix_get (by_target st) (Some [120]%N)) = [1] ∧ elements (ix_get (by_class st) [97]%N) = [1] ∧
  elements (ix_get (by_class st) [102;117]%N) = [].
Proof. split; [reflexivity|]. split; [reflexivity|]. split; [reflexivity|]. split; [vm_compute; tauto|]. vm_compute. done. Qed.
Example c07_glue_today_ok :
  vmf_init_ok vmf_init_today = true ∧ parse_spawn_ok parse_spawn_today = true ∧ parse_ent_ok glue_ent_today = true ∧
  create_ent_ok create_ent_today = true ∧ einit_ok einit_today = true ∧ copy_ok copy_today = true ∧
  pop_ok pop_today = true ∧ mu_ok mu_today = true.
Proof. repeat split; reflexivity. Qed.
(** Faulty glue, refuted by computed witnesses: a constructor that does not file the worldspawn under no name; parse
    re-assigning the spawn before the placeholder is taken out of the indexes (the placeholder stays listed under
    'worldspawn'); pop through `self._keys.pop(k)` (the entity keeps its old name in by_target); a constructor that
    fills the key dict directly (two spellings of one key survive); make_unique looking a candidate up un-folded (a
    name taken in another letter case is handed out again - not a C07 violation, the indexes stay consistent). *)
Theorem c07_vmf_init_forgets_target_refuted :
  vmf_init_containers_first vmf_init_forgets_target = true ∧ vmf_init_spawn_ok vmf_init_forgets_target = false ∧
  ¬ Inv ascii_fold (g_run ascii_fold vmf_init_forgets_target env0 blank).
Proof. do 2 (split; [reflexivity|]). apply (not_inv_target_missing _ _ 0); compute_done. Qed.
(** VMF.parse assigning the new spawn before it takes the placeholder out of the indexes: the removals then hit the
    new spawn, the placeholder (object 0, no longer the spawn, not in the entity list) stays under 'worldspawn'. *)
Theorem c07_parse_spawn_assign_first_refuted :
  parse_drops_the_placeholder parse_spawn_assign_first = false ∧ Inv ascii_fold init ∧
  ¬ Inv ascii_fold (g_run ascii_fold parse_spawn_assign_first (GE [] []) init).
Proof.
  split; [reflexivity|]. split; [by apply init_inv|]. apply (not_inv_class_member _ _ ws 0); compute_done.
Qed.
(** Entity.pop through `self._keys.pop(k)`: the name index is not told. *)
Theorem c07_pop_direct_refuted :
  pop_deletes_through_delitem pop_direct = false ∧
  let st0 := run ascii_fold [CreateEnt [97]%N [(tn, [120]%N)]] init in
  let r := pop_item_sh ascii_fold pop_direct 1 tn st0 in
  Inv ascii_fold st0 ∧ r.2 = 0 ∧ keys_of r.1 1 = [(cn, [97]%N)] ∧ ¬ Inv ascii_fold r.1.
Proof.
  split; [reflexivity|]. intros st0 r. split; [by apply run_inv, init_inv|]. do 2 (split; [compute_done|]).
  apply (not_inv_target_member _ _ (Some [120]%N) 1); compute_done.
Qed.
(** Entity.__init__ filling the key dict directly: two spellings of one key survive in the key list. *)
Theorem c07_entity_init_direct_refuted :
  einit_ok einit_direct = false ∧
  ¬ Inv ascii_fold (new_ent_sh ascii_fold einit_direct [([65]%N, [120]%N); ([97]%N, [121]%N)] init).
Proof.
  split; [reflexivity|]. intros HI. pose proof (inv_keys _ _ HI 1) as Hk. vm_compute in Hk.
  apply NoDup_cons in Hk as [Hn _]. apply Hn, elem_of_list_here.
Qed.
Theorem c07_make_unique_unfolded_candidate_differs :
  mu_loop_ok mu_unfolded_cand = false ∧
  let st0 := run ascii_fold [CreateEnt [97]%N [(tn, [88]%N)]; CreateEnt [97]%N [(tn, [88;49]%N)]; CreateEnt [97]%N [(tn, [88]%N)]] init in
  kv_find ascii_fold tn (keys_of (make_unique_sh ascii_fold mu_unfolded_cand 3 [] st0).1 3) = Some [88;49]%N ∧
  kv_find ascii_fold tn (keys_of (make_unique ascii_fold 3 [] st0).1 3) = Some [88;50]%N.
Proof. split; [reflexivity|]. split; vm_compute; reflexivity. Qed.

(** Case folding by table.  [str.casefold] works code point by code point; the correspondence instantiates the
    model with [table_fold tab], ASCII lower-casing extended by the table [code point ↦ chr(c).casefold()] that CPython
    gives for the non-ASCII code points of the batch.  For every such table the folding satisfies the hypotheses of all
    the theorems above; idempotence holds when the images are their own folding (a boolean the check evaluates). *)
Theorem c07_table_fold_ok : ∀ tab, tab_non_ascii tab = true →
  table_fold tab [] = [] ∧ table_fold tab cn = cn ∧ table_fold tab tn = tn ∧ table_fold tab ws = ws ∧
  (∀ b i, table_fold tab (b ++ dec i) = table_fold tab b ++ dec i) ∧
  (table_fold tab nodeid ≠ cn ∧ table_fold tab nodeid ≠ tn).
Proof.
  intros tab Ht. destruct (table_fold_ok tab Ht) as (H1 & H2 & H3 & H4 & H5). repeat split; try done; by apply table_fold_nodeid.
Qed.
Theorem c07_table_fold_idem : ∀ tab, tab_non_ascii tab = true → tab_closed tab = true →
  ∀ s, table_fold tab (table_fold tab s) = table_fold tab s.
Proof.
  intros tab Ht Hc s.
  induction s as [|c r IH]; [done|]. change (table_fold tab (c :: r)) with (fold_cp tab c ++ table_fold tab r).
  by rewrite table_fold_app, IH, fold_cp_idem.
Qed.
(** The whole property with hypotheses on GENERATED objects only.  For every casefold table [tab]
    (computed from CPython for the strings of a run), every census list and every record of programs read off vmf.py:
    four booleans — [tab_non_ascii], [tab_closed], [census_covered], [programs_ok], each evaluated by the kernel on every
    run — give both conclusions of [c07_property] for the folding [table_fold tab]; all seven hypotheses about the
    folding are discharged by [c07_table_fold_ok] / [c07_table_fold_idem].  What remains outside: the domain predicates
    [fn_dom] / [ops_dom] (operations refer to existing objects of this map; add_ent is not given the worldspawn), and
    that [table_fold tab] is str.casefold on the strings used (checked against CPython per batch). *)
Theorem c07_property_generated_only : ∀ tab (census : list string) (P : programs),
  tab_non_ascii tab = true → tab_closed tab = true → census_covered census = true → programs_ok P = true →
  let fold := table_fold tab in
  (∀ s, s ∈ census → ∃ f, fname_of s = Some f ∧
     ∀ a st, fn_dom f a st → fn_w fold P f a st = fn_model fold f a st ∧ (Inv fold st → Inv fold (fn_w fold P f a st).1)) ∧
  (∀ ops, ops_dom fold ops (init_w fold P) →
     let st := run_w fold P ops (init_w fold P) in
     Inv fold st ∧
     (∀ k e, e ∈ ix_get (by_class st) k ↔ present st e ∧ cls_of fold st e = k) ∧
     (∀ k e, e ∈ ix_get (by_target st) k ↔ present st e ∧ tgt_of fold st e = k) ∧
     (∀ name e, e ∈ (search_sh fold (pg_search P) name st).1 ↔ search_spec fold name st e) ∧
     cls_of fold st (spawn st) = ws ∧ spawn st ∈ ix_get (by_class st) ws).
Proof.
  intros tab census P Ht Hc Hcen HP. destruct (c07_table_fold_ok tab Ht) as (H1 & H2 & H3 & H4 & H5 & H6).
  exact (c07_property (table_fold tab) H1 H2 H3 H4 (c07_table_fold_idem tab Ht Hc) H5 H6 census P Hcen HP).
Qed.
Example c07_property_generated_only_today :
  tab_non_ascii tab_example = true ∧ tab_closed tab_example = true ∧
  census_covered census_today = true ∧ programs_ok programs_today = true.
Proof. repeat split; reflexivity. Qed.

Example c07_table_fold_example : tab_non_ascii tab_example = true ∧ tab_closed tab_example = true ∧
  tab_closed [(7838, [223]); (223, [115; 115])]%N = false ∧ table_fold tab_example [83; 223; 304]%N = [115; 115; 115; 105; 775]%N.
Proof. repeat split; reflexivity. Qed.

(** How often VMF.search yields an entity (multiplicity; the set-level theorems above say *which* entities).
    [search_count] runs the same generated program as [search_sh] and counts the yields of one entity (a set is
    iterated once per `yield from`, every member once).  For every program that passes the shape obligations and
    [search_once_ok] (no part is yielded twice on any path), in every state satisfying the invariant: the empty query
    yields nothing; a `prefix*` query yields each matching entity exactly once; an exact query yields an entity once
    if its name matches plus once if its class matches — never more than twice, and twice exactly when both match. *)
Theorem c07_search_multiplicity : ∀ fold, (∀ s, fold (fold s) = fold s) → ∀ sh name e st,
  search_shape_ok sh = true → search_once_ok sh = true → Inv fold st →
  search_count fold sh name e st =
    (if bool_decide (name = []) then 0
     else if ends_star (fold name) then b2n (bool_decide (e ∈ named fold (is_prefix (removelast (fold name))) true st))
     else b2n (bool_decide (e ∈ ix_get (by_target st) (Some (fold name)))) + b2n (bool_decide (e ∈ ix_get (by_class st) (fold name)))) ∧
  search_count fold sh name e st ≤ 2.
Proof.
  intros fold Hi sh name e st H1 H2 HI. split; [exact (search_count_spec fold Hi sh name e st H1 H2 HI)|].
  exact (search_count_le2 fold Hi sh name e st H1 H2 HI).
Qed.
Example c07_search_multiplicity_examples :
  search_once_ok search_shape_today = true ∧
  search_shape_ok search_shape_class_twice = true ∧ search_once_ok search_shape_class_twice = false ∧
  let st := run ascii_fold [CreateEnt [97]%N [(tn, [65]%N)]] init in
  search_count ascii_fold search_shape_today [97]%N 1 st = 2 ∧ search_count ascii_fold search_shape_class_twice [97]%N 1 st = 3.
Proof. split; [reflexivity|]. repeat split; vm_compute; reflexivity. Qed.
