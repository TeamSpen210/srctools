(** C10 — saving an unmodified BSP is lossless whichever lump views were looked at.
    The model is SM/LazyLumps.v, the proofs are in SM/LazyLumpsProofs.v and the files named at each part; a theorem
    that is a few lines away from those is proved here.

    The theorems hold for EVERY dependency graph [g] with [order_consistent g = true] and every statement
    order of __get__ / loop shape of save [sh] with [shape_ok sh = true]; the instance obligations
    [order_consistent bsp_graph = true] and [shape_ok bsp_shape = true] for the graph and the shape generated
    from today's bsp.py (Gen/BspGraph_gen.v) are discharged by the check on every run (vm_compute; reflexivity).
    [rd] / [wr] are the per-view lump codecs; [rd] returns [None] when the reader raises, and access sequences
    may contain looks that raise (the caller catches the exception and goes on).  "The writer inverts the reader
    on the lumps of this file" ([codec_ok], [wr_len_ok]; that is property C11) is a visible hypothesis.
    [save] returns a flag: [false] when a look inside a writer raised (BSP.save raises, no file is written). *)
From Coq Require Import List Arith.
From Coq Require Import NArith.
From SV Require Import SM.LazyLumps SM.LazyLumpsProofs SM.LazyLumpsAppend SM.LazyLumpsCond SM.LazyLumpsSide SM.LazyLumpsMut Fmt.BspContainer Fmt.BspContainerProofs.
From SV Require Bin.FindInsert.
Import ListNotations.

Section C10.
  Variables D P : Type.
  Variable empty : D.
  Variable rd : nat -> list D -> option P.
  Variable wr : nat -> P -> list D.
  Variable g : graph.
  Variable sh : shape.

  Notation state := (state D P).
  Notation run := (run D P empty rd g sh).
  Notation get := (get D P empty rd g sh).
  Notation save := (save D P empty rd wr g sh).
  Notation fresh := (fresh D P).
  Notation codec_ok := (codec_ok D P rd wr g).
  Notation wr_len_ok := (wr_len_ok D P rd wr g).
  Notation writers_can_look := (writers_can_look D P rd g).
  Notation same_content := (same_content D P rd g).
  Notation denote := (denote D P rd g).

  (** If no view was looked at, saving leaves every lump byte-identical (no condition on graph or shape). *)
  Theorem c10_nothing_viewed_identity : forall s : state, fresh s -> save s = (true, s).
  Proof. exact (save_fresh_id D P empty rd wr g sh). Qed.

  (** A look either succeeds, and then the view is cached with what its reader makes of the file's lumps, or
      raises, and then only because the reader of this view or of a view later in the rebuild order rejects the
      file's data (the reader nesting is bounded by the number of views: fuel is never the reason). *)
  Theorem c10_get_total : order_consistent g = true -> shape_ok sh = true ->
    forall (s0 : state) accs v, fresh s0 -> v < nviews g ->
    let r := get v (run accs s0) in
    (fst r = true -> exists p, cache (snd r) v = Some p /\ rd v (own_data D P g s0 v) = Some p) /\
    (fst r = false -> exists e, v <= e /\ e < nviews g /\ rd e (own_data D P g s0 e) = None) /\
    ((forall e, v <= e -> e < nviews g -> rd e (own_data D P g s0 e) <> None) -> fst r = true).
  Proof.
    intros OC SH s0 accs v Hf Hv r.
    destruct (get_post_run D P empty rd wr g sh OC SH s0 accs v Hf) as (_ & Hok & Hfail & _).
    fold r in Hok, Hfail. split; [|split].
    - intros Ht. destruct (Hok Hv Ht) as [Hc Hg]. apply good_pv in Hg. unfold pv in *.
      destruct (rd v (own_data D P g s0 v)) as [p|]; [exists p; auto | contradiction].
    - exact (Hfail Hv).
    - intros Hall. destruct (fst r) eqn:E; [reflexivity|]. destruct (Hfail Hv eq_refl) as (e & H1 & H2 & H3).
      destruct (Hall e H1 H2 H3).
  Qed.

  (** A look that raises is the identity as far as the property can see: after ANY access sequence, a failing
      look leaves the view uncached and its lumps untouched, every view denotes what it denoted, lumps without
      a view are unchanged. *)
  Theorem c10_failed_get_is_identity : order_consistent g = true -> shape_ok sh = true ->
    forall (s0 : state) accs v, fresh s0 -> v < nviews g ->
    let s := run accs s0 in let r := get v s in fst r = false ->
    cache (snd r) v = None /\ (forall l, In l (own g v) -> raw (snd r) l = raw s l) /\
    (forall w, w < nviews g -> denote (snd r) w = denote s w) /\
    (forall l, ~ owned g l -> raw (snd r) l = raw s l).
  Proof. exact (failed_get_is_identity D P empty rd wr g sh). Qed.

  (** ... and literally the identity for a view whose reader looks at no other view (needs only the statement
      order of __get__: no graph condition, any state). *)
  Theorem c10_failed_get_leaf_identity : sh_early_main sh = false -> sh_early_extra sh = false ->
    forall v (s : state), v_rdeps (decl g v) = [] -> fst (get v s) = false -> snd (get v s) = s.
  Proof. intros E1 E2. exact (failed_get_leaf_identity D P empty rd g sh E1 E2 (nviews g)). Qed.

  (** Merely looking never empties or changes a lump: after ANY sequence of accesses (successful or raising)
      every view still denotes the content parsed from the original file (cleared raw data is always matched by
      a cached value), and lumps without a structured view are untouched. *)
  Theorem c10_view_look_preserves : order_consistent g = true -> shape_ok sh = true ->
    forall (s0 : state) accs, fresh s0 ->
    let s := run accs s0 in
    (forall v, v < nviews g -> denote s v = denote s0 v) /\
    (forall l, ~ owned g l -> raw s l = raw s0 l).
  Proof. exact (view_look_preserves D P empty rd wr g sh). Qed.

  (** Main statement: for ALL access sequences (any subset of views, any order, repetitions, looks that raise),
      if save completes the cache is empty, every view parses to the same content as before (or is rejected
      exactly as before), every lump without a view is byte-identical; and save does complete when every view a
      writer looks at can be parsed whenever the writer's own view could. *)
  Theorem c10_save_lossless : order_consistent g = true -> shape_ok sh = true ->
    forall (s0 : state) accs, fresh s0 -> wr_len_ok s0 -> codec_ok s0 ->
    let r := save (run accs s0) in
    (fst r = true -> fresh (snd r) /\ same_content (snd r) s0) /\ (writers_can_look s0 -> fst r = true).
  Proof. exact (save_lossless D P empty rd wr g sh). Qed.

  (** [writers_can_look] is a consequence of a decidable condition on the graph alone (an instance obligation for
      today's bsp.py): every view a writer looks at is among the views the reader of the same view looks at. *)
  Theorem c10_writers_can_look_from_graph :
    wdeps_within_rdeps g = true -> forall s0 : state, writers_can_look s0.
  Proof. exact (writers_can_look_from_graph D P rd g). Qed.

  (** Lumps of views outside any dependency-closed set containing the accessed views stay byte-identical. *)
  Theorem c10_save_untouched_exact : order_consistent g = true -> shape_ok sh = true ->
    forall (s0 : state) accs (R : nat -> Prop), fresh s0 -> wr_len_ok s0 ->
    (forall v d, v < nviews g -> R v -> In d (v_rdeps (decl g v) ++ v_wdeps (decl g v)) -> R d) ->
    (forall v, In v accs -> R v) ->
    let r := save (run accs s0) in fst r = true ->
    forall v l, v < nviews g -> ~ R v -> In l (own g v) -> raw (snd r) l = raw s0 l.
  Proof. exact (save_untouched_exact D P empty rd wr g sh). Qed.

  (** Saving the result again changes nothing. *)
  Theorem c10_save_idempotent : order_consistent g = true -> shape_ok sh = true ->
    forall (s0 : state) accs, fresh s0 -> wr_len_ok s0 ->
    let r := save (run accs s0) in fst r = true -> save (snd r) = (true, snd r).
  Proof. exact (save_idempotent D P empty rd wr g sh). Qed.

  (** Any number of look/save cycles, each with its own access sequence. *)
  Theorem c10_cycles_lossless : order_consistent g = true -> shape_ok sh = true ->
    forall cs (s0 : state), fresh s0 -> wr_len_ok s0 -> codec_ok s0 ->
    let r := run_cycles D P empty rd wr g sh cs s0 in fst r = true -> fresh (snd r) /\ same_content (snd r) s0.
  Proof. exact (cycles_lossless D P empty rd wr g sh). Qed.
End C10.

(** The hypotheses are satisfiable (a consistent graph with reader and writer dependencies, identity codec whose
    reader rejects lumps starting with 99), also on a file where a look raises. *)
Theorem c10_hypotheses_satisfiable :
  order_consistent g_ok = true /\ shape_ok std_shape = true /\ fresh nat (list nat) ex_s0 /\
  wr_len_ok nat (list nat) ex_rd ex_wr g_ok ex_s0 /\ codec_ok nat (list nat) ex_rd ex_wr g_ok ex_s0 /\
  writers_can_look nat (list nat) ex_rd g_ok ex_s0.
Proof. exact (conj g_ok_consistent (conj eq_refl ex_hyps)). Qed.

Theorem c10_failing_look_example :
  let q := get nat (list nat) 0 ex_rd g_part std_shape 0 ex_bad in
  let r := save nat (list nat) 0 ex_rd ex_wr g_part std_shape (snd q) in
  order_consistent g_part = true /\
  fst q = false /\ map (cache (snd q)) [0; 1; 2] = [None; Some [2; 6]; None] /\
  map (raw (snd q)) [0; 1; 2; 3; 5] = [1; 0; 99; 4; 0] /\
  fst r = true /\ map (raw (snd r)) [0; 1; 2; 3; 5] = [1; 2; 99; 4; 6] /\ map (cache (snd r)) [0; 1; 2] = [None; None; None].
Proof. exact g_part_failing_look. Qed.

(** Each clause of [order_consistent] is necessary: closed counterexamples (lump 0 = b''). *)
Theorem c10_self_dependent_writer_refuted :
  let r := save nat (list nat) 0 ex_rd ex_wr g_self std_shape (run nat (list nat) 0 ex_rd g_self std_shape [0] ex_s0) in
  order_consistent g_self = false /\ raw ex_s0 0 = 1 /\ fst r = true /\ raw (snd r) 0 = 0 /\ cache (snd r) 0 = Some [0].
Proof. exact self_dependent_writer_refuted. Qed.

Theorem c10_rebuild_order_refuted :
  let r := save nat (list nat) 0 ex_rd ex_wr g_order std_shape (run nat (list nat) 0 ex_rd g_order std_shape [1] ex_s0) in
  order_consistent g_order = false /\ raw ex_s0 0 = 1 /\ fst r = true /\ raw (snd r) 0 = 0 /\ cache (snd r) 0 = Some [1].
Proof. exact rebuild_order_refuted. Qed.

Theorem c10_cleared_lump_not_rewritten_refuted :
  let r := save nat (list nat) 0 ex_rd ex_wr g_unstored std_shape (run nat (list nat) 0 ex_rd g_unstored std_shape [0] ex_s0) in
  order_consistent g_unstored = false /\ raw ex_s0 1 = 2 /\ fst r = true /\ raw (snd r) 1 = 0.
Proof. exact cleared_lump_not_rewritten_refuted. Qed.

Theorem c10_shared_lump_refuted :
  let r := save nat (list nat) 0 ex_rd ex_wr g_shared std_shape (run nat (list nat) 0 ex_rd g_shared std_shape [0; 1] ex_s0) in
  order_consistent g_shared = false /\ raw ex_s0 7 = 8 /\ fst r = true /\ raw (snd r) 7 = 0.
Proof. exact shared_lump_refuted. Qed.

(** Each flag of [shape] is harmful even on an order-consistent graph. *)
(** seeded fault class c10_2: __get__ empties the main lump before the reader has run; a look that raises loses it. *)
Theorem c10_clear_before_parse_refuted :
  let sh := mkShape true false false in
  let q := get nat (list nat) 0 ex_rd g_one sh 0 ex_bad in
  let r := save nat (list nat) 0 ex_rd ex_wr g_one sh (snd q) in
  order_consistent g_one = true /\ shape_ok sh = false /\ raw ex_bad 2 = 99 /\
  fst q = false /\ cache (snd q) 0 = None /\ fst r = true /\ raw (snd r) 2 = 0 /\ raw (snd r) 3 = 4.
Proof. exact clear_before_parse_refuted. Qed.

Theorem c10_clear_extra_before_parse_refuted :
  let sh := mkShape false true false in
  let r := save nat (list nat) 0 ex_rd ex_wr g_one sh (run nat (list nat) 0 ex_rd g_one sh [0] ex_s0) in
  order_consistent g_one = true /\ shape_ok sh = false /\ raw ex_s0 3 = 4 /\ fst r = true /\ raw (snd r) 3 = 0.
Proof. exact clear_extra_before_parse_refuted. Qed.

(** seeded fault class c10_1: save walks a snapshot of the cached views; a view first parsed by a writer is never
    written back (with the standard shape the same history is lossless: last conjunct). *)
Theorem c10_snapshot_save_refuted :
  let sh := mkShape false false true in
  let r := save nat (list nat) 0 ex_rd ex_wr g_wdep sh (run nat (list nat) 0 ex_rd g_wdep sh [0] ex_s0) in
  order_consistent g_wdep = true /\ shape_ok sh = false /\ raw ex_s0 1 = 2 /\
  fst r = true /\ raw (snd r) 1 = 0 /\ cache (snd r) 1 = Some [2] /\
  raw (snd (save nat (list nat) 0 ex_rd ex_wr g_wdep std_shape (run nat (list nat) 0 ex_rd g_wdep std_shape [0] ex_s0))) 1 = 2.
Proof. exact snapshot_save_refuted. Qed.

(** Conditional stores (fault class of seeded c10_4).  A writer whose store of an owned lump may be skipped for
    some values is [wrc : nat -> P -> list (option D)] ([None] = skipped: the lump keeps what it holds); [save_c] is
    BSP.save with such writers (SM/LazyLumpsCond.v).  Instance obligation of the check: today's writers store no
    lump that a view clears conditionally, so [save] is the model of today's BSP.save. *)
Section C10Cond.
  Variables D P : Type.
  Variable empty : D.
  Variable rd : nat -> list D -> option P.
  Variable wrc : nat -> P -> list (option D).
  Variable g : graph.
  Variable sh : shape.

  (** A skipped store of a lump that a view clears is a store of b'': for every order-consistent graph, every shape and
      every access sequence, saving with skipped stores is exactly saving with the writer that stores b'' instead
      (every lump of a cached view is b'' when its writer runs, and looks only ever empty lumps). *)
  Theorem c10_skipped_store_of_cleared_lump_stores_empty : order_consistent g = true ->
    forall (s0 : state D P) accs, fresh D P s0 ->
    save_c D P empty rd wrc g sh (run D P empty rd g sh accs s0)
    = save D P empty rd (wr_fill D P empty wrc) g sh (run D P empty rd g sh accs s0).
  Proof. exact (save_c_eq_save D P empty rd wrc g sh). Qed.

  (** Hence saving with conditional stores is lossless exactly when the writer that stores b'' for a skipped store inverts
      the reader: the reader must make of b'' the very value for which the store is skipped. *)
  Theorem c10_conditional_store_lossless : order_consistent g = true -> shape_ok sh = true ->
    forall (s0 : state D P) accs, fresh D P s0 ->
    wr_len_ok D P rd (wr_fill D P empty wrc) g s0 -> codec_ok D P rd (wr_fill D P empty wrc) g s0 ->
    let r := save_c D P empty rd wrc g sh (run D P empty rd g sh accs s0) in
    (fst r = true -> fresh D P (snd r) /\ same_content D P rd g (snd r) s0) /\
    (writers_can_look D P rd g s0 -> fst r = true).
  Proof.
    intros OC SH s0 accs Hf Hlen Hcodec. cbv zeta. rewrite (save_c_eq_save D P empty rd wrc g sh OC s0 accs Hf).
    exact (save_lossless D P empty rd (wr_fill D P empty wrc) g sh OC SH s0 accs Hf Hlen Hcodec).
  Qed.
End C10Cond.

(** seeded fault class c10_4: the store of the auxiliary lump is skipped when all its values are zero, but the reader's
    default for an absent lump is (9, 0): the values (0, 0) come back as (9, 0) although every graph condition holds
    (what fails is [codec_ok] of the filled writer); one non-zero value and the same history is lossless. *)
Theorem c10_conditional_store_refuted :
  let rd := cx_rd [9; 0] in
  let s0 := cx_file [0; 0] in
  let r := save_c (list nat) (list (list nat)) [] rd cx_wrc g_aux std_shape (run (list nat) (list (list nat)) [] rd g_aux std_shape [0] s0) in
  order_consistent g_aux = true /\
  denote (list nat) (list (list nat)) rd g_aux s0 0 = Some [[7]; [0; 0]] /\
  fst r = true /\ raw (snd r) 2 = [7] /\ raw (snd r) 3 = [] /\
  denote (list nat) (list (list nat)) rd g_aux (snd r) 0 = Some [[7]; [9; 0]] /\
  rd 0 (wr_fill (list nat) (list (list nat)) [] cx_wrc 0 [[7]; [0; 0]]) <> Some [[7]; [0; 0]] /\
  raw (snd (save_c (list nat) (list (list nat)) [] rd cx_wrc g_aux std_shape
              (run (list nat) (list (list nat)) [] rd g_aux std_shape [0] (cx_file [0; 4])))) 3 = [0; 4].
Proof. exact conditional_store_refuted. Qed.

(** Non-vacuity: with the default (0, 0) the hypotheses hold on a file for which the store IS skipped; the lump comes
    back empty, the view parses to the same content (the OVERLAY_SYSTEM_LEVELS half of the seeded change). *)
Theorem c10_conditional_store_hypotheses_satisfiable :
  let rd := cx_rd [0; 0] in
  let s0 := cx_file [0; 0] in
  let r := save_c (list nat) (list (list nat)) [] rd cx_wrc g_aux std_shape (run (list nat) (list (list nat)) [] rd g_aux std_shape [0] s0) in
  fresh (list nat) (list (list nat)) s0 /\
  wr_len_ok (list nat) (list (list nat)) rd (wr_fill (list nat) (list (list nat)) [] cx_wrc) g_aux s0 /\
  codec_ok (list nat) (list (list nat)) rd (wr_fill (list nat) (list (list nat)) [] cx_wrc) g_aux s0 /\
  cx_wrc 0 [[7]; [0; 0]] = [Some [7]; None] /\ raw (snd r) 3 = [] /\
  denote (list nat) (list (list nat)) rd g_aux (snd r) 0 = denote (list nat) (list (list nat)) rd g_aux s0 0.
Proof. exact cond_hyps_satisfiable. Qed.

(** Writers that store a lump NO view owns (SM/LazyLumpsSide.v): _write_faces_common rewrites FACEIDS, a lump the faces
    reader reads raw and the property wants back byte-identical.  [seqv] is pointwise equality of states. *)
Section C10Side.
  Variables D P : Type.
  Variable empty : D.
  Variable rd : nat -> list D -> option P.
  Variable wr : nat -> P -> list D.
  Variable wside : nat -> P -> list (nat * D).
  Variable g : graph.
  Variable sh : shape.

  (** If, on the values parsed from this file, every store outside the writer's own view goes to an unowned lump and
      puts there what the file holds ([side_ok]), saving with those stores is saving without them: same completion
      flag, every lump and every cache entry equal, for all access sequences. *)
  Theorem c10_store_outside_view_is_invisible : order_consistent g = true -> shape_ok sh = true ->
    forall s0 : state D P, wr_len_ok D P rd wr g s0 -> side_ok D P rd wside g s0 -> fresh D P s0 -> forall accs,
    fst (save_s D P empty rd wr wside g sh (run D P empty rd g sh accs s0)) = fst (save D P empty rd wr g sh (run D P empty rd g sh accs s0)) /\
    seqv D P (snd (save_s D P empty rd wr wside g sh (run D P empty rd g sh accs s0))) (snd (save D P empty rd wr g sh (run D P empty rd g sh accs s0))).
  Proof. exact (side_save_equiv D P empty rd wr wside g sh). Qed.

  (** ... and therefore lossless under the hypotheses of the main theorem. *)
  Theorem c10_store_outside_view_lossless : order_consistent g = true -> shape_ok sh = true ->
    forall s0 : state D P, wr_len_ok D P rd wr g s0 -> side_ok D P rd wside g s0 -> fresh D P s0 -> codec_ok D P rd wr g s0 ->
    forall accs, let r := save_s D P empty rd wr wside g sh (run D P empty rd g sh accs s0) in
    (fst r = true -> fresh D P (snd r) /\ same_content D P rd g (snd r) s0) /\
    (writers_can_look D P rd g s0 -> fst r = true).
  Proof.
    intros OC SH s0 Hlen Hside Hf Hcodec accs. cbv zeta.
    destruct (side_save_equiv D P empty rd wr wside g sh OC SH s0 Hlen Hside Hf accs) as [Eb [Er Ec]].
    destruct (save_lossless D P empty rd wr g sh OC SH s0 accs Hf Hlen Hcodec) as [A B]. cbv zeta in A, B.
    rewrite Eb. split; [|exact B]. intros Ht. apply (lossless_ext D P rd g _ _ s0 Er); [|exact (A Ht)].
    intros v Hn. now rewrite Ec.
  Qed.
End C10Side.

(** [side_ok] is necessary (the defects repaired by fixes b7b21cf and 81886b6): a writer that fabricates ids for a file
    with an empty FACEIDS lump, or pads a short one with zeros, changes the lump that has no view although every graph
    condition holds; the writer that stores the ids as read (and nothing when there are none) does not. *)
Theorem c10_store_outside_view_fabricated_refuted :
  raw (snd (save_s (list nat) (list nat) nil sx_rd sx_wr (sx_pad nil) g_side std_shape
              (run (list nat) (list nat) nil sx_rd g_side std_shape (0 :: nil) (sx_file nil)))) 5 = 0 :: 0 :: nil /\
  raw (snd (save_s (list nat) (list nat) nil sx_rd sx_wr (sx_pad (100 :: nil)) g_side std_shape
              (run (list nat) (list nat) nil sx_rd g_side std_shape (0 :: nil) (sx_file (100 :: nil))))) 5 = 100 :: 0 :: nil /\
  raw (snd (save_s (list nat) (list nat) nil sx_rd sx_wr (sx_asread nil) g_side std_shape
              (run (list nat) (list nat) nil sx_rd g_side std_shape (0 :: nil) (sx_file nil)))) 5 = nil /\
  ~ side_ok (list nat) (list nat) sx_rd (sx_pad (100 :: nil)) g_side (sx_file (100 :: nil)).
Proof. exact side_store_fabricated_refuted. Qed.

(** Non-vacuity: all hypotheses hold for the as-read writer on a file with ids; the lump comes back as it was. *)
Theorem c10_store_outside_view_hypotheses_satisfiable :
  let s0 := sx_file (100 :: nil) in
  let r := save_s (list nat) (list nat) nil sx_rd sx_wr (sx_asread (100 :: nil)) g_side std_shape
             (run (list nat) (list nat) nil sx_rd g_side std_shape (0 :: nil) s0) in
  order_consistent g_side = true /\ fresh (list nat) (list nat) s0 /\
  wr_len_ok (list nat) (list nat) sx_rd sx_wr g_side s0 /\ codec_ok (list nat) (list nat) sx_rd sx_wr g_side s0 /\
  side_ok (list nat) (list nat) sx_rd (sx_asread (100 :: nil)) g_side s0 /\
  raw (snd r) 5 = 100 :: nil /\ raw (snd r) 2 = 7 :: 8 :: nil.
Proof. exact side_store_hyps_satisfiable. Qed.

(** Readers that change, in place, objects of a view they look at (SM/LazyLumpsMut.v): _lmp_read_bmodels takes the
    "model" key out of the brush entities of the cached ents view, _lmp_write_bmodels puts it back before it
    serialises.  [getf_m] / [save_m]: the reader of [v] applies [mut v d] to the cached value of every [d] in [mdeps v]
    once its own parse has succeeded ([early = false]; [early = true]: before it can still raise), the writer of [v]
    applies [unmut v d] after it looked at its dependencies.  [R None s' s]: same lumps, same cached views, and the
    cached value of [x] in [s'] is that of [s] changed by the cached view that mutates [x], if any. *)
Section C10Mut.
  Variables D P : Type.
  Variable empty : D.
  Variable rd : nat -> list D -> option P.
  Variable wr : nat -> P -> list D.
  Variable g : graph.
  Variable sh : shape.
  Variable mdeps : nat -> list nat.
  Variable mut unmut : nat -> nat -> P -> P.
  Variable early : bool.

  (** If the change is made only after the reader's parse succeeded, every mutated view is looked at by the reader and
      by the writer of the mutating view, no two views change the same view and the writer's undo restores the values
      parsed from this file, then saving completes exactly when it does without the changes and leaves the same lumps
      and the same cache, for all access sequences (looks that raise included). *)
  Theorem c10_hidden_mutation_undone_is_invisible : order_consistent g = true -> shape_ok sh = true -> early = false ->
    (forall v d, In d (mdeps v) -> In d (v_rdeps (decl g v)) /\ In d (v_wdeps (decl g v))) ->
    (forall v w x, In x (mdeps v) -> In x (mdeps w) -> v = w) ->
    forall s0 : state D P,
    (forall v d p, In d (mdeps v) -> d < nviews g -> rd d (own_data D P g s0 d) = Some p -> unmut v d (mut v d p) = p) ->
    wr_len_ok D P rd wr g s0 -> fresh D P s0 -> forall accs,
    fst (save_m D P empty rd wr g sh mdeps mut unmut early (run_m D P empty rd g sh mdeps mut early accs s0))
    = fst (save D P empty rd wr g sh (run D P empty rd g sh accs s0)) /\
    (fst (save D P empty rd wr g sh (run D P empty rd g sh accs s0)) = true ->
     R D P mdeps mut None (snd (save_m D P empty rd wr g sh mdeps mut unmut early (run_m D P empty rd g sh mdeps mut early accs s0)))
       (snd (save D P empty rd wr g sh (run D P empty rd g sh accs s0)))).
  Proof. exact (mut_save_equiv D P empty rd wr g sh mdeps mut unmut early). Qed.

  (** ... and therefore lossless under the hypotheses of the main theorem. *)
  Theorem c10_hidden_mutation_lossless : order_consistent g = true -> shape_ok sh = true -> early = false ->
    (forall v d, In d (mdeps v) -> In d (v_rdeps (decl g v)) /\ In d (v_wdeps (decl g v))) ->
    (forall v w x, In x (mdeps v) -> In x (mdeps w) -> v = w) ->
    forall s0 : state D P,
    (forall v d p, In d (mdeps v) -> d < nviews g -> rd d (own_data D P g s0 d) = Some p -> unmut v d (mut v d p) = p) ->
    wr_len_ok D P rd wr g s0 -> fresh D P s0 -> codec_ok D P rd wr g s0 -> forall accs,
    let r := save_m D P empty rd wr g sh mdeps mut unmut early (run_m D P empty rd g sh mdeps mut early accs s0) in
    (fst r = true -> fresh D P (snd r) /\ same_content D P rd g (snd r) s0) /\
    (writers_can_look D P rd g s0 -> fst r = true).
  Proof.
    intros OC SH He Hsub Huniq s0 Hundo Hlen Hf Hcodec accs. cbv zeta.
    destruct (mut_save_equiv D P empty rd wr g sh mdeps mut unmut early OC SH He Hsub Huniq s0 Hundo Hlen Hf accs) as [Eb HRf].
    destruct (save_lossless D P empty rd wr g sh OC SH s0 accs Hf Hlen Hcodec) as [A B]. cbv zeta in A, B.
    rewrite Eb. split; [|exact B]. intros Ht. destruct (HRf Ht) as [Er Ec].
    apply (lossless_ext D P rd g _ _ s0 Er); [|exact (A Ht)]. intros v Hn. specialize (Ec v). now rewrite Hn in Ec.
  Qed.
End C10Mut.

(** Non-vacuity: on the example graph (view 0 = bmodels looks at and mutates view 1 = ents) the hypotheses hold and the
    history "look at bmodels, look at ents, save" is lossless although the user saw the entities without the key. *)
Theorem c10_hidden_mutation_hypotheses_satisfiable :
  order_consistent g_mut = true /\
  (forall v d, In d (mx_mdeps v) -> In d (v_rdeps (decl g_mut v)) /\ In d (v_wdeps (decl g_mut v))) /\
  (forall v w x, In x (mx_mdeps v) -> In x (mx_mdeps w) -> v = w) /\
  (forall v d p, In d (mx_mdeps v) -> d < nviews g_mut -> mx_rd false d (own_data (list nat) (list nat) g_mut mx_file d) = Some p ->
     mx_unmut v d (mx_mut v d p) = p) /\
  cache (run_m (list nat) (list nat) nil (mx_rd false) g_mut std_shape mx_mdeps mx_mut false (0 :: 1 :: nil) mx_file) 1 = Some (7 :: nil) /\
  fst (save_m (list nat) (list nat) nil (mx_rd false) mx_wr g_mut std_shape mx_mdeps mx_mut mx_unmut false
         (run_m (list nat) (list nat) nil (mx_rd false) g_mut std_shape mx_mdeps mx_mut false (0 :: 1 :: nil) mx_file)) = true /\
  raw (snd (save_m (list nat) (list nat) nil (mx_rd false) mx_wr g_mut std_shape mx_mdeps mx_mut mx_unmut false
         (run_m (list nat) (list nat) nil (mx_rd false) g_mut std_shape mx_mdeps mx_mut false (0 :: 1 :: nil) mx_file))) 1 = 9 :: 7 :: nil /\
  raw (snd (save_m (list nat) (list nat) nil (mx_rd false) mx_wr g_mut std_shape mx_mdeps mx_mut mx_unmut false
         (run_m (list nat) (list nat) nil (mx_rd false) g_mut std_shape mx_mdeps mx_mut false (0 :: 1 :: nil) mx_file))) 0 = 5 :: nil.
Proof. exact mut_example_lossless. Qed.

(** [early = false] is necessary (the defect repaired by fix 477021c): the reader of view 0 raises on this file AFTER
    it changed the entities; the look fails, nothing is cached for view 0, its writer never runs, and save writes the
    entity lump without the key ([7] instead of [9; 7]).  With [early = false] the same history is lossless. *)
Theorem c10_hidden_mutation_before_raise_refuted :
  fst (get_m (list nat) (list nat) nil (mx_rd true) g_mut std_shape mx_mdeps mx_mut true 0 mx_file) = false /\
  cache (run_m (list nat) (list nat) nil (mx_rd true) g_mut std_shape mx_mdeps mx_mut true (0 :: nil) mx_file) 0 = None /\
  cache (run_m (list nat) (list nat) nil (mx_rd true) g_mut std_shape mx_mdeps mx_mut true (0 :: nil) mx_file) 1 = Some (7 :: nil) /\
  fst (save_m (list nat) (list nat) nil (mx_rd true) mx_wr g_mut std_shape mx_mdeps mx_mut mx_unmut true
         (run_m (list nat) (list nat) nil (mx_rd true) g_mut std_shape mx_mdeps mx_mut true (0 :: nil) mx_file)) = true /\
  raw (snd (save_m (list nat) (list nat) nil (mx_rd true) mx_wr g_mut std_shape mx_mdeps mx_mut mx_unmut true
         (run_m (list nat) (list nat) nil (mx_rd true) g_mut std_shape mx_mdeps mx_mut true (0 :: nil) mx_file))) 1 = 7 :: nil /\
  raw (snd (save_m (list nat) (list nat) nil (mx_rd true) mx_wr g_mut std_shape mx_mdeps mx_mut mx_unmut false
         (run_m (list nat) (list nat) nil (mx_rd true) g_mut std_shape mx_mdeps mx_mut false (0 :: nil) mx_file))) 1 = 9 :: 7 :: nil.
Proof. exact mut_before_raise_refuted. Qed.

(** The undo is necessary: a writer that leaves its reader's change in place loses the key. *)
Theorem c10_hidden_mutation_not_undone_refuted :
  raw (snd (save_m (list nat) (list nat) nil (mx_rd false) mx_wr g_mut std_shape mx_mdeps mx_mut (fun _ _ p => p) false
         (run_m (list nat) (list nat) nil (mx_rd false) g_mut std_shape mx_mdeps mx_mut false (0 :: nil) mx_file))) 1 = 7 :: nil.
Proof. exact mut_not_undone_refuted. Qed.

(** The file container (Fmt/BspContainer.v): header, lump table in either field order, map revision, payload
    placement in write order, game-lump directory with absolute offsets and the dummy trailing entry, LZMA as an
    inverse pair.  [layout_ok bsp_layout] and [bsp_layout = std_layout] are instance obligations of the check. *)

(** Reading what was written gives back the container: version, field order, map revision, every lump's version,
    compressed flag and (decompressed) data, every game lump's id, flags, version and (decompressed) data. *)
Theorem c10_container_roundtrip : forall compress decompress : list N -> list N,
  (forall d, decompress (compress d) = d) ->
  forall (L : layout) (c : container), layout_ok L = true -> wf compress L c = true ->
  read decompress L (write compress L c) = Some c.
Proof. exact container_roundtrip. Qed.

(** Payload placement: the segment of every lump of the write order lies exactly at the offset and with the length the
    table records for it, whatever surrounds the body. *)
Theorem c10_container_payload_placement : forall (compress : list N -> list N) (L : layout) (c : container) order pos k pre post,
  In k order -> N.to_nat pos = length pre ->
  let off := offset_of compress L c pos order k in
  slice off (len (segment compress L c off k)) (pre ++ body compress L c pos order ++ post) = segment compress L c off k.
Proof. exact body_slice. Qed.

(** Non-vacuity: the standard layout is fine and a container with L4D2 field order, an LZMA lump, a pakfile and a
    compressed last game lump is well-formed (and round-trips by the theorem). *)
Theorem c10_container_hypotheses_satisfiable :
  layout_ok std_layout = true /\ wf ex_compress std_layout ex_container = true /\
  (forall d, ex_decompress (ex_compress d) = d) /\
  read ex_decompress std_layout (write ex_compress std_layout ex_container) = Some ex_container.
Proof. exact (conj std_layout_ok (conj ex_container_wf (conj ex_lzma_inverse ex_container_roundtrip))). Qed.

(** The non-range conditions of [wf] are necessary (closed witnesses). *)
Theorem c10_container_compressed_empty_lump_refuted :
  wf ex_compress std_layout ex_comp_empty = false /\
  option_map (fun c => nth 1 (c_lumps c) lump0) (read ex_decompress std_layout (write ex_compress std_layout ex_comp_empty))
  = Some (mkL 0 [93%N] false).
Proof. exact compressed_empty_lump_refuted. Qed.

Theorem c10_container_compressed_pakfile_refuted :
  wf ex_compress std_layout ex_comp_pak = false /\
  option_map (fun c => nth 40 (c_lumps c) lump0) (read ex_decompress std_layout (write ex_compress std_layout ex_comp_pak))
  = Some (mkL 0 [80%N; 75%N] false).
Proof. exact compressed_pakfile_refuted. Qed.

Theorem c10_container_game_lump_version_refuted :
  wf ex_compress std_layout ex_game_ver = false /\
  option_map (fun c => nth 35 (c_lumps c) lump0) (read ex_decompress std_layout (write ex_compress std_layout ex_game_ver))
  = Some (mkL 0 [] false).
Proof. exact game_lump_version_refuted. Qed.

Theorem c10_container_l4d2_first_version_refuted :
  let f := write ex_compress std_layout ex_l4d2_ver in
  wf ex_compress std_layout ex_l4d2_ver = false /\ c_l4d2 ex_l4d2_ver = true /\
  andb (N.eqb (get32 f 4) (l4d2_version std_layout)) (N.eqb (get32 f 8) 0) = false.
Proof. exact l4d2_first_version_refuted. Qed.

(** Writers that append to a view they look at (instance obligation: writers only read or append).  In the lazy-lump
    model a writer leaves the cached value of a dependency unchanged; that is what [find_or_insert] (C11's model
    Bin/FindInsert.v) does whenever every requested item is already in the table, which is the case for values
    parsed from the file (each reference was resolved from that table). *)
Theorem c10_appending_writer_is_a_read_on_parsed_values : forall (l ks : list N), (forall k, In k ks -> In k l) ->
  FindInsert.items (fst (FindInsert.fi_run (FindInsert.fi_init l) ks)) = l.
Proof.
  intros l ks H. rewrite (fi_run_present_noop ks (FindInsert.fi_init l) (fi_init_complete l)); [reflexivity|].
  intros k Hk. exact (H k Hk).
Qed.

(** The hypothesis cannot be dropped: a missing item is appended (the dummy-edge vertex before fix dae40a3). *)
Theorem c10_appending_writer_missing_item_refuted :
  FindInsert.items (fst (FindInsert.fi_run (FindInsert.fi_init [5; 6]%N) [6; 7]%N)) = [5; 6; 7]%N.
Proof. exact append_when_missing. Qed.

(** The premise "every writer inverts its reader on the values the file holds", one per view, and the whole
    property as one statement with every hypothesis visible (SM/LazyLumpsCodec.v).  The per-view premises are what
    property C11 is about; the check discharges them from the objects C11's translators generate from today's
    bsp.py (instance obligations [codec[<views>]:...], listed per view in the evidence), and for the texture-name
    view the step from the generated object to the premise is proved here. *)
From SV Require Import SM.LazyLumpsCodec Fmt.BspTexStrings.
Close Scope N_scope.

Theorem c10_codec_premise_per_view : forall (D P : Type) (rd : nat -> list D -> option P) (wr : nat -> P -> list D)
    (g : graph) (s0 : state D P),
  (forall v, v < nviews g -> codec_ok_at D P rd wr g s0 v) <-> (codec_ok D P rd wr g s0 /\ wr_len_ok D P rd wr g s0).
Proof. exact codec_ok_per_view. Qed.

(** The property: graph / statement-order / writers-look conditions (decidable: instance obligations), a file just read,
    one codec premise per view |- with no look every lump is identical; for every access sequence save completes,
    the cache is empty, every view parses to the same content, lumps without a view and lumps of views outside the
    dependency closure of the looks are byte-identical, and saving again changes nothing. *)
Theorem c10_property : forall (D P : Type) (empty : D) (rd : nat -> list D -> option P) (wr : nat -> P -> list D)
    (g : graph) (sh : shape),
  order_consistent g = true -> shape_ok sh = true -> wdeps_within_rdeps g = true ->
  forall s0 : state D P, fresh D P s0 ->
  (forall v, v < nviews g -> codec_ok_at D P rd wr g s0 v) ->
  (save D P empty rd wr g sh s0 = (true, s0)) /\
  forall accs,
    let r := save D P empty rd wr g sh (run D P empty rd g sh accs s0) in
    fst r = true /\ fresh D P (snd r) /\ same_content D P rd g (snd r) s0 /\
    save D P empty rd wr g sh (snd r) = (true, snd r) /\
    (forall R : nat -> Prop,
       (forall v d, v < nviews g -> R v -> In d (v_rdeps (decl g v) ++ v_wdeps (decl g v)) -> R d) ->
       (forall v, In v accs -> R v) ->
       forall v l, v < nviews g -> ~ R v -> In l (own g v) -> raw (snd r) l = raw s0 l).
Proof.
  intros D P empty rd wr g sh Hg Hs Hw s0 Hf Hc. apply codec_ok_per_view in Hc. destruct Hc as [Hc Hl]. split.
  - exact (save_fresh_id D P empty rd wr g sh s0 Hf).
  - intros accs r.
    destruct (save_lossless D P empty rd wr g sh Hg Hs s0 accs Hf Hl Hc) as [A B]. fold r in A, B.
    assert (Hr : fst r = true) by (apply B; apply writers_can_look_from_graph; exact Hw).
    destruct (A Hr) as [A1 A2]. split; [exact Hr|]. split; [exact A1|]. split; [exact A2|]. split.
    + exact (save_idempotent D P empty rd wr g sh Hg Hs s0 accs Hf Hl Hr).
    + intros R HR1 HR2. exact (save_untouched_exact D P empty rd wr g sh Hg Hs s0 accs R Hf Hl HR1 HR2 Hr).
Qed.

(** Non-vacuity: the example graph of theorem 11 with its codec satisfies every hypothesis of [c10_property]. *)
Theorem c10_property_hypotheses_satisfiable :
  order_consistent g_ok = true /\ shape_ok std_shape = true /\ wdeps_within_rdeps g_ok = true /\
  fresh nat (list nat) ex_s0 /\ (forall v, v < nviews g_ok -> codec_ok_at nat (list nat) ex_rd ex_wr g_ok ex_s0 v).
Proof.
  destruct ex_hyps as [Hf [Hl [Hc _]]].
  split; [exact g_ok_consistent|]. split; [reflexivity|]. split; [vm_compute; reflexivity|]. split; [exact Hf|].
  apply codec_ok_per_view. split; assumption.
Qed.

(** Texture names (lumps TEXDATA_STRING_DATA + TEXDATA_STRING_TABLE): for every configuration [c] read off
    [_lmp_write_textures] / [_lmp_read_textures] that passes [texcfg_ok] (search pattern and appended bytes are
    name + NUL, the writer's guard is below the reader's window: C11's obligations) and [texcfg_window_is_guard]
    (every name the reader can return passes the writer's guard), the codec premise holds for EVERY content of the two
    lumps: what the reader returns is written so that it reads back equal, whatever storage the pool search shared. *)
Theorem c10_textures_codec_premise : forall c, texcfg_ok c = true -> texcfg_window_is_guard c = true ->
  forall ds names, tex_view_rd c ds = Some names ->
  tex_view_rd c (tex_view_wr c names) = Some names /\ length (tex_view_wr c names) = 2.
Proof. exact tex_view_codec. Qed.

(** ... hence [codec_ok_at] at the position of the texture-name view in any graph, for every file. *)
Theorem c10_textures_codec_ok_at : forall (P : Type) (inj : list (list N) -> P) (prj : P -> list (list N))
    (rd : nat -> list tdatum -> option P) (wr : nat -> P -> list tdatum) (g : graph) c v,
  texcfg_ok c = true -> texcfg_window_is_guard c = true ->
  (forall x, prj (inj x) = x) ->
  (forall ds, rd v ds = option_map inj (tex_view_rd c ds)) -> (forall p, wr v p = tex_view_wr c (prj p)) ->
  length (own g v) = 2 ->
  forall s0, codec_ok_at tdatum P rd wr g s0 v.
Proof.
  intros P inj prj rd wr g c v Hc Hw Hpi Hrd Hwr Hown s0 p Hr. rewrite Hrd in Hr.
  destruct (tex_view_rd c (own_data tdatum P g s0 v)) as [names|] eqn:E; [|discriminate].
  cbn [option_map] in Hr. injection Hr as <-.
  destruct (tex_view_codec c Hc Hw _ _ E) as [A B]. rewrite Hwr, Hrd, Hpi, A, Hown. split; [reflexivity | exact B].
Qed.

(** Seeded fault c10_5 in closed form: the string pool searched for the bare name.  A file holding "AB" and "A" (each
    stored in full) is read as ["AB"; "A"]; what the writer makes of that reads back as ["AB"; "AB"]. *)
Theorem c10_textures_bare_search_refuted :
  let c := ([], [0%N], 127, 128) in
  let file := [TBytes [65; 66; 0; 65; 0]%N; TOffs [0; 3]] in
  texcfg_ok c = false /\ texcfg_window_is_guard c = true /\
  tex_view_rd c file = Some [[65; 66]; [65]]%N /\
  tex_view_wr c [[65; 66]; [65]]%N = [TBytes [65; 66; 0]%N; TOffs [0; 0]] /\
  tex_view_rd c (tex_view_wr c [[65; 66]; [65]]%N) = Some [[65; 66]; [65; 66]]%N.
Proof. vm_compute. repeat split; reflexivity. Qed.

(** Views that are a plain array of fixed [struct] records (PLANES, VERTEXES, CUBEMAPS: one lump, the reader is
    [iter_unpack fmt], the writer packs every record with the same format; SM/LazyLumpsRecCodec.v).  The direction C10
    needs and C11 does not state: whatever [unpack] returns for a string of bytes fits the format. *)
From SV Require Import Bin.Struct SM.LazyLumpsRecCodec Fmt.BspFormatsSpec.
Close Scope N_scope.

Theorem c10_unpack_returns_fitting_values : forall f bs vs, wf_fmt f = true -> all_bytes bs = true ->
  unpack f bs = Some vs -> fits f vs = true.
Proof. exact unpack_fits. Qed.

(** The codec premise of such a view for EVERY content of its lump, from the well-formedness of the format alone. *)
Theorem c10_record_array_codec_premise : forall f, wf_fmt f = true -> 0 < calcsize f ->
  forall data recs, all_bytes data = true -> rec_view_rd f [data] = Some recs ->
  rec_view_rd f (rec_view_wr f recs) = Some recs /\ length (rec_view_wr f recs) = 1.
Proof. exact rec_view_codec. Qed.

(** ... and from the object C11 generates from bsp.py: a stream of Gen/BspFormats_gen.v that passes [rec_stream_ok_in] in a
    layout table (all reading and writing alternatives denote one well-formed format of positive size: an instance
    obligation per view and layout) gives the premise for ANY pairing of a reading and a writing alternative. *)
Theorem c10_record_array_codec_from_generated_stream : forall lay n appl ralts walts ra wa fr fw,
  rec_stream_ok_in lay (n, appl, ralts, walts) = true -> In ra ralts -> In wa walts ->
  alt_fmt lay ra = Some fr -> alt_fmt lay wa = Some fw ->
  forall data recs, all_bytes data = true -> rec_view_rd fr [data] = Some recs ->
  rec_view_rd fr (rec_view_wr fw recs) = Some recs /\ length (rec_view_wr fw recs) = 1.
Proof.
  intros lay n appl ralts walts ra wa fr fw H Hra Hwa Er Ew data recs Hb E.
  unfold rec_stream_ok_in in H. apply andb_prop in H. destruct H as [H Hc].
  cbn [stream_ok_in] in H. destruct ralts as [|r0 ralts']; [discriminate|]. destruct walts as [|w0 walts']; [discriminate|].
  destruct (alt_fmt lay r0) as [f0|] eqn:E0; [|discriminate].
  apply andb_prop in H. destruct H as [H Hws]. apply andb_prop in H. destruct H as [Hwf Hrs].
  rewrite forallb_forall in Hrs, Hws.
  pose proof (BspFormatsProofs.alt_is_eq _ _ _ (Hrs ra Hra)) as Ar. pose proof (BspFormatsProofs.alt_is_eq _ _ _ (Hws wa Hwa)) as Aw.
  rewrite Er in Ar. rewrite Ew in Aw. injection Ar as ->. injection Aw as ->.
  apply Nat.ltb_lt in Hc. exact (rec_view_codec f0 Hwf Hc data recs Hb E).
Qed.

(** Non-vacuity (two plane records [<ffffi] are read and written back byte-identically) and the nearby wrong shape (a
    writer that packs the last field as a short writes records the reader rejects). *)
Theorem c10_record_array_example_and_other_format_refuted :
  (wf_fmt fmt_plane = true /\ calcsize fmt_plane = 20 /\ all_bytes ex_planes = true /\
   option_map (@length _) (rec_view_rd fmt_plane [ex_planes]) = Some 2 /\
   option_map (rec_view_wr fmt_plane) (rec_view_rd fmt_plane [ex_planes]) = Some [ex_planes]) /\
  (let wr_short := [KFloat; KFloat; KFloat; KFloat; KInt true 2] in
   match rec_view_rd fmt_plane [ex_planes] with
   | Some recs => rec_view_rd fmt_plane (rec_view_wr wr_short recs) = None
   | None => False
   end).
Proof. exact (conj rec_view_codec_example rec_view_other_writer_format_refuted). Qed.

(** What BSP.save leaves behind when it raises half-way (a writer looks at a view that cannot be parsed) and
    the caller carries on.  [save_a restore]: the rebuild loop with an [except] clause around the writer call;
    [restore = true] (fix c8f05ec, generated flag [bsp_save_restores_on_abort]) puts the popped value back into the
    cache before the exception propagates, [restore = false] is the plain loop. *)
Section C10Abort.
  Variables D P : Type.
  Variable empty : D.
  Variable rd : nat -> list D -> option P.
  Variable wr : nat -> P -> list D.
  Variable g : graph.
  Variable sh : shape.

  (** The except clause changes nothing unless the save raises: the completion flag is the same, a save that completes is
      the plain save (so every theorem above about [save] is about [save_a]), and without the clause [save_a] is [save]. *)
  Theorem c10_except_clause_matters_only_when_save_raises : forall restore (s : state D P),
    fst (save_a D P empty rd wr g sh restore s) = fst (save D P empty rd wr g sh s) /\
    (fst (save D P empty rd wr g sh s) = true -> save_a D P empty rd wr g sh restore s = save D P empty rd wr g sh s) /\
    save_a D P empty rd wr g sh false s = save D P empty rd wr g sh s.
  Proof. exact (save_a_summary D P empty rd wr g sh). Qed.

  (** With the clause, a save that raises loses nothing: after ANY access sequence (looks that raise included) and a save
      that may or may not complete, every view still denotes what its reader makes of the file's lumps and lumps without
      a view are untouched. *)
  Theorem c10_aborted_save_keeps_content : order_consistent g = true -> shape_ok sh = true ->
    forall (s0 : state D P) accs, fresh D P s0 -> wr_len_ok D P rd wr g s0 -> codec_ok D P rd wr g s0 ->
    let r := save_a D P empty rd wr g sh true (run D P empty rd g sh accs s0) in
    (forall v, v < nviews g -> denote D P rd g (snd r) v = rd v (own_data D P g s0 v)) /\
    (forall l, ~ owned g l -> raw (snd r) l = raw s0 l).
  Proof.
    intros OC SH s0 accs Hf Hlen Hcodec r.
    destruct (save_a_inv D P empty rd wr g sh OC SH s0 (fun _ => True) (closed_all g) Hlen _
                (inv_run_all D P empty rd wr g sh OC SH s0 accs Hf)) as (j & HI).
    fold r in HI. split; [|exact (proj2 (proj2 (proj2 HI)))].
    intros v Hv. exact (inv_mid_denote D P rd wr g s0 _ j (snd r) HI (fun w p _ => Hcodec w p) v Hv).
  Qed.

  (** ... and the caller can carry on: after a save that may have raised half-way, ANY further looks (raising ones included)
      and a save that completes are lossless with respect to the ORIGINAL file: the cache is empty, every view parses to the
      same content (or is rejected as before), lumps without a view are byte-identical. *)
  Theorem c10_retry_after_aborted_save_lossless : order_consistent g = true -> shape_ok sh = true ->
    forall (s0 : state D P) accs accs2, fresh D P s0 -> wr_len_ok D P rd wr g s0 -> codec_ok D P rd wr g s0 ->
    let r := save_a D P empty rd wr g sh true (run D P empty rd g sh accs s0) in
    let r2 := save_a D P empty rd wr g sh true (run D P empty rd g sh accs2 (snd r)) in
    fst r2 = true -> fresh D P (snd r2) /\ same_content D P rd g (snd r2) s0.
  Proof. exact (retry_after_aborted_save_lossless D P empty rd wr g sh). Qed.
End C10Abort.

(** Without the clause (the pinned tree before fix c8f05ec): the writer of view 0 looks at view 1, which cannot be parsed;
    the reader of view 0 does not.  Look at view 0, save (raises), save again: the second save completes and writes lump 0
    empty.  With the clause the view is cached again and the second save raises like the first. *)
Theorem c10_aborted_save_drops_view_refuted :
  let s := run nat (list nat) 0 ex_rd g_wabort std_shape [0] ex_bad in
  let r := save_a nat (list nat) 0 ex_rd ex_wr g_wabort std_shape false s in
  let r2 := save_a nat (list nat) 0 ex_rd ex_wr g_wabort std_shape false (snd r) in
  let q := save_a nat (list nat) 0 ex_rd ex_wr g_wabort std_shape true s in
  let q2 := save_a nat (list nat) 0 ex_rd ex_wr g_wabort std_shape true (snd q) in
  order_consistent g_wabort = true /\ raw ex_bad 0 = 1 /\ cache s 0 = Some [1] /\
  fst r = false /\ cache (snd r) 0 = None /\ raw (snd r) 0 = 0 /\ fst r2 = true /\ raw (snd r2) 0 = 0 /\
  fst q = false /\ cache (snd q) 0 = Some [1] /\ fst q2 = false /\ cache (snd q2) 0 = Some [1].
Proof. exact aborted_save_drops_view_refuted. Qed.

(** Header versions of lumps (after fix 11d408c: the static-prop writer sets the game lump's header version).  They are
    cells of the file no look touches.  If every store a writer makes into a header puts there the number the file holds (the
    writer stores the number the reader recorded for this object: generated list [bsp_version_stores], obligations
    [writers_store_only_the_header_version_the_reader_recorded], [recorded_version_has_the_header_number_of_the_file]), look + save
    leaves every lump version as it was. *)
Theorem c10_header_version_store_of_recorded_number_is_invisible : forall (V : Type) (stores : list (nat * V)) (hver : nat -> V),
  (forall p, In p stores -> snd p = hver (fst p)) -> forall l, save_versions stores hver l = hver l.
Proof.
  intros V stores hver. unfold save_versions. induction stores as [|p r IH] using rev_ind; intros Hs l; [reflexivity|].
  rewrite fold_left_app. cbn [fold_left]. destruct (Nat.eq_dec l (fst p)) as [->|Hne].
  - rewrite upd_eq. apply Hs, in_or_app. right. now left.
  - rewrite upd_neq by exact Hne. apply IH. intros q Hq. apply Hs, in_or_app. now left.
Qed.

(** A writer that stores another number (7 for a lightmapped layout whose header says 10) changes the header. *)
Theorem c10_header_version_store_of_other_number_refuted :
  save_versions [(65, 7)] (fun l => if Nat.eqb l 65 then 10 else 0) 65 = 7 /\
  save_versions [(65, 10)] (fun l => if Nat.eqb l 65 then 10 else 0) 65 = 10.
Proof. vm_compute. split; reflexivity. Qed.
