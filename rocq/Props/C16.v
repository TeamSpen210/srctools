(** C16 — FGD definitions survive text export, the binary database, and lazy loading.
    The statements, each with its proof when that is a few lines; the other proofs are in the *Proofs.v files of Fmt/ and SM/ imported below.
    The objects read from the source (Gen/FgdConsts_gen.v) enter through the boolean side conditions
    [table_ok], [cfg_ok], [order_ok], [entflags_ok], ... which checks/c16.py discharges on every run
    (instance obligations, vm_compute).  The FGD grammar itself is not modelled (search only). *)
From Coq Require Import List NArith Arith Bool String.
From SV Require Import Fmt.LongString Fmt.LongStringProofs Fmt.FgdBin Fmt.FgdBinProofs SM.LazyDb SM.LazyDbProofs SM.LazyDbMulti SM.LazyDbMultiProofs.
From SV Require Import Fmt.FgdBinEnt Fmt.FgdBinEntProofs Fmt.FgdLine Fmt.FgdLineProofs Fmt.FgdLineTextProofs Fmt.FgdBody Fmt.FgdBodyProofs.
From SV Require Import Fmt.FgdHead Fmt.FgdHeadProofs Fmt.FgdEntity.
From SV Require Import Fmt.FgdTypeText Fmt.FgdTypeTextProofs SM.FgdBlocks SM.FgdBlocksProofs Fmt.FgdKindKw.
From SV Require Import SM.FgdCopyShare SM.FgdCopyShareProofs.
From SV Require Import Fmt.FgdBare.
From SV Require Import Gen.FgdConsts_gen.
Import ListNotations.
Open Scope N_scope.
Open Scope list_scope.

(** * Ties between the hand-written model and the generated constants (all boolean, all named) *)
Fixpoint nlist_eqb (a b : list N) : bool :=
  match a, b with [], [] => true | x :: a', y :: b' => (x =? y) && nlist_eqb a' b' | _, _ => false end.
Definition op_is_gt (o : cmp_op) : bool := match o with OpGt => true | _ => false end.
Definition std_repl_matches : bool :=
  match std_repl with
  | [(a1, b1); (a2, b2)] => nlist_eqb a1 [LF] && nlist_eqb b1 [BSLASH; LOWER_N] && nlist_eqb a2 [QUOTE] && nlist_eqb b2 [APOS; APOS]
  | _ => false
  end.
Definition flag_value (n : string) : N := match flag_of_name n ent_flags with Some v => v | None => 0 end.
Definition type_flags : list (string * N) :=
  filter (fun p => String.prefix "TYPE_"%string (fst p)) ent_flags.
Definition entity_types_have_flags : bool :=
  forallb (fun n => match flag_of_name (String.append "TYPE_"%string n) ent_flags with Some _ => true | None => false end) entity_types_all
  && (List.length type_flags =? List.length entity_types_all)%nat.
Definition bit_lits (fn op : string) : list N :=
  map snd (filter (fun x => String.eqb (fst (fst x)) fn && String.eqb (snd (fst x)) op) bit_ops).
Definition all_in (l allowed : list N) : bool := forallb (fun x => existsb (N.eqb x) allowed) l.
Definition struct_is (n f : string) : bool :=
  existsb (fun p => String.eqb (fst p) n && String.eqb (snd p) f) struct_formats.
Definition needle1_ok : bool := nlist_eqb ls_needle1 [BSLASH; LOWER_N] && (ls_off1 =? 2)%nat.
Definition needle2_ok : bool := nlist_eqb ls_needle2 [SPACE] && (ls_off2 =? 1)%nat && (ls_notfound =? 0)%nat.
Definition joiner_ok : bool := nlist_eqb ls_joiner JOINER.
Definition limits_ok : bool := (2 <=? limit gen_cfg)%nat && (1 <=? min_nl gen_cfg)%nat.
Definition cfg_ok_is_parts : bool :=
  Bool.eqb (cfg_ok gen_cfg) (limits_ok && empty_quotes gen_cfg && cut_guard gen_cfg).
Definition bit_literals_ok : bool :=
  all_in (bit_lits "kv_serialise" "or") [128] && all_in (bit_lits "ent_serialise" "or") [128]
  && all_in (bit_lits "kv_unserialise" "and") [127; 128] && all_in (bit_lits "ent_unserialise" "and") [127; 128]
  && (List.length bit_ops =? 9)%nat.
Definition index_formats_ok : bool :=
  struct_is "_fmt_16bit" "<H" && struct_is "_fmt_8bit" "<B" && struct_is "_fmt_ent_header" "<BBBBBB".
Definition entflags_layout_ok : bool :=
  entflags_ok (map snd type_flags) (flag_value "MASK_TYPE") (flag_value "IS_ALIAS").
Definition entity_flags_distinct : bool :=
  entity_types_have_flags && nodup_N (map snd type_flags) && nodup_str (map fst type_flags).

(** * Long strings *)
(** For every text, every indent of blanks and everything that may follow on the line, the reader
    (_handle_string + the '+' continuation of _read_colon_list) returns exactly the text that
    _write_longstring wrote — in the extended syntax for all texts, in the plain syntax for texts
    without double quote, backslash and carriage return (which that syntax cannot represent). *)
Theorem c16_longstring_roundtrip : forall t excl, table_ok t excl = true ->
  forall cfg ext indent text tail,
  cfg_ok cfg = true -> all_blank indent = true -> stops t tail = true ->
  (ext = false -> std_safe text = true) ->
  read_joined t (write_longstring t excl cfg ext indent text ++ tail) = Some text.
Proof. exact longstring_roundtrip. Qed.

(** The writer never writes nothing, loses no character, keeps every section within LIMIT, and never
    cuts between a backslash and the character it escapes. *)
Theorem c16_longstring_sections : forall t excl, table_ok t excl = true ->
  forall cfg ext text, cfg_ok cfg = true -> (ext = false -> std_safe text = true) ->
  let secs := sections cfg (fgd_escape t excl ext text) in
  secs <> [] /\ List.concat secs = fgd_escape t excl ext text
  /\ Forall (fun sec => (List.length sec <= limit cfg)%nat /\ section_closed sec = true) secs.
Proof. exact longstring_sections. Qed.

(** Both repaired branches are necessary.  Without `or not sections` empty text is written as nothing,
    and nothing cannot be read back: *)
Theorem c16_empty_text_refuted : forall t excl cfg ext indent tail,
  empty_quotes cfg = false -> (forall r, tail <> QUOTE :: r) ->
  read_joined t (write_longstring t excl cfg ext indent [] ++ tail) = None.
Proof. intros. rewrite empty_text_writes_nothing by assumption. apply nothing_is_unreadable. assumption. Qed.

(** ... and without the guard of the hard cut a text of LIMIT-1 letters, a double quote and a letter is cut
    between the backslash and the quote (today's constants and escape table). *)
Definition unguarded : ls_cfg :=
  {| limit := limit gen_cfg; min_nl := min_nl gen_cfg; empty_quotes := true; cut_guard := false |}.
Definition hard_cut_text : str := repeat 97 (limit gen_cfg - 1) ++ [QUOTE; 98].
Definition hard_cut_breaks : bool :=
  match read_joined esc_pairs (write_longstring esc_pairs esc_excluded unguarded true [TAB] hard_cut_text ++ [LF]) with
  | Some v => negb (nlist_eqb v hard_cut_text)
  | None => true
  end
  && negb (forallb section_closed (sections unguarded (fgd_escape esc_pairs esc_excluded true hard_cut_text))).

(** Example: the hypotheses of the round trip are satisfiable (a concrete table and configuration). *)
Example c16_hypotheses_satisfiable :
  table_ok [(110, 10); (114, 13); (34, 34); (92, 92)] [] = true
  /\ cfg_ok {| limit := 1000; min_nl := 128; empty_quotes := true; cut_guard := true |} = true
  /\ stops [(110, 10)] [SPACE; 58; SPACE; 49; LF] = true.
Proof. repeat split. Qed.

(** * The lines that carry the fields (token level, Fmt/FgdLine.v) *)
(** [line_cfg]: the decisive branches of KVDef.export / EntityDef.export read from the source ([gen_line_cfg]);
    the hypotheses on [vt_lookup], [io_lookup], [rt_lookup], [undec] are checked on the real tables (data obligations),
    [tags_wf] = the tags are in the normal form read_tags produces and pass validate_tags. *)
Definition line_cfg_ok (c : line_cfg) : bool :=
  (colons_before_desc_without_default c =? 2)%nat && bool_default_filled c && res_block_if_defined c.

(** Keyvalue lines without a value list: whatever the tags, readonly / report, the split of display name and
    description into '+' sections, with or without default and description, KVDef._parse reads back the same name,
    tags, type, flags, display name, default and description and stops at the end of the line. *)
Theorem c16_kv_line_roundtrip :
  forall (tag_norm : str -> str) (tags_valid : list str -> bool) (vt : Type) (vt_text : vt -> str) (vt_lookup : str -> option (bool * vt))
         (vt_is_bool vt_is_flags vt_is_choices : vt -> bool) (dec : N -> str) (undec : str -> option N) (pow2 : N -> bool) (cfg : line_cfg),
  (forall v, vt_lookup (vt_text v) = Some (false, v)) -> colons_before_desc_without_default cfg = 2%nat ->
  forall (label custom : bool) (k : kvline vt) (rest : list tok),
  tags_wf tag_norm tags_valid (l_tags vt k) -> vt_is_flags (l_type vt k) = false -> vt_is_choices (l_type vt k) = false ->
  l_list vt k = NoList -> l_disp vt k <> [] ->
  yes_no vt vt_is_bool (l_type vt k) (default_written vt vt_is_bool cfg k) = default_written vt vt_is_bool cfg k ->
  ends_line rest ->
  kv_parse tag_norm tags_valid vt vt_lookup vt_is_bool vt_is_flags vt_is_choices dec undec pow2 (l_name vt k)
    (List.tl (kv_toks vt vt_text vt_is_bool vt_is_flags dec cfg label custom k) ++ rest)
  = Some (kv_norm vt vt_is_bool cfg custom k NoList, rest).
Proof. exact kv_plain_roundtrip. Qed.

(** Choices keyvalues with their value list (value, display name in any split, tags per item) *)
Theorem c16_kv_choices_roundtrip :
  forall (tag_norm : str -> str) (tags_valid : list str -> bool) (vt : Type) (vt_text : vt -> str) (vt_lookup : str -> option (bool * vt))
         (vt_is_bool vt_is_flags vt_is_choices : vt -> bool) (dec : N -> str) (undec : str -> option N) (pow2 : N -> bool) (cfg : line_cfg),
  (forall v, vt_lookup (vt_text v) = Some (false, v)) -> colons_before_desc_without_default cfg = 2%nat ->
  forall (label custom : bool) (k : kvline vt) (items : list (str * list str * list str)) (rest : list tok),
  tags_wf tag_norm tags_valid (l_tags vt k) -> vt_is_flags (l_type vt k) = false -> vt_is_choices (l_type vt k) = true ->
  l_list vt k = Choices items -> Forall (ciwf tag_norm tags_valid) items -> l_disp vt k <> [] ->
  yes_no vt vt_is_bool (l_type vt k) (default_written vt vt_is_bool cfg k) = default_written vt vt_is_bool cfg k ->
  kv_parse tag_norm tags_valid vt vt_lookup vt_is_bool vt_is_flags vt_is_choices dec undec pow2 (l_name vt k)
    (List.tl (kv_toks vt vt_text vt_is_bool vt_is_flags dec cfg label custom k) ++ rest)
  = Some (kv_norm vt vt_is_bool cfg custom k (Choices (map (cires custom) items)), TNl :: rest).
Proof. exact kv_choices_roundtrip. Qed.

(** Spawnflags keyvalues: every item with its value, name (the generated `[n]` label removed again), default and tags,
    for names that do not start with a blank and — when no labels are written — do not themselves start with `[n]` *)
Theorem c16_kv_flags_roundtrip :
  forall (tag_norm : str -> str) (tags_valid : list str -> bool) (vt : Type) (vt_text : vt -> str) (vt_lookup : str -> option (bool * vt))
         (vt_is_bool vt_is_flags vt_is_choices : vt -> bool) (dec : N -> str) (undec : str -> option N) (pow2 : N -> bool) (cfg : line_cfg),
  (forall v, vt_lookup (vt_text v) = Some (false, v)) -> (forall n, undec (dec n) = Some n) ->
  colons_before_desc_without_default cfg = 2%nat ->
  forall (label custom : bool) (k : kvline vt) (items : list (N * list str * bool * list str)) (rest : list tok),
  tags_wf tag_norm tags_valid (l_tags vt k) -> vt_is_flags (l_type vt k) = true -> vt_is_choices (l_type vt k) = false ->
  l_list vt k = Flags items -> Forall (fiwf tag_norm tags_valid dec pow2 label) items ->
  default_written vt vt_is_bool cfg k = [] -> List.concat (l_desc vt k) = [] ->
  kv_parse tag_norm tags_valid vt vt_lookup vt_is_bool vt_is_flags vt_is_choices dec undec pow2 (l_name vt k)
    (List.tl (kv_toks vt vt_text vt_is_bool vt_is_flags dec cfg label custom k) ++ rest)
  = Some (mk_kvl vt (l_name vt k) (seen_tags custom (l_tags vt k)) (l_type vt k) (l_ro vt k) (l_report vt k)
                 [l_name vt k] [] [[]] (Flags (map (fires custom) items)), TNl :: rest).
Proof. exact kv_flags_roundtrip. Qed.

(** input / output lines: name, tags, the decayed type, the description *)
Theorem c16_io_line_roundtrip :
  forall (tag_norm : str -> str) (tags_valid : list str -> bool) (vt : Type) (io_text : vt -> str) (io_lookup : str -> option vt)
         (io_decay : vt -> vt),
  (forall v, io_lookup (io_text v) = Some (io_decay v)) ->
  forall (custom : bool) (o : ioline vt) (rest : list tok),
  tags_wf tag_norm tags_valid (o_tags vt o) -> ends_line rest ->
  io_parse tag_norm tags_valid vt io_lookup (io_toks vt io_text custom o ++ rest)
  = Some (mk_iol vt (o_name vt o) (seen_tags custom (o_tags vt o)) (io_decay (o_type vt o)) [List.concat (o_desc vt o)], rest).
Proof. exact io_roundtrip. Qed.

(** @resources (extended syntax): undefined stays undefined, a defined list — EMPTY OR NOT — comes back as that list *)
Theorem c16_resources_roundtrip :
  forall (tag_norm : str -> str) (tags_valid : list str -> bool) (cfg : line_cfg),
  colons_before_desc_without_default cfg = 2%nat ->
  forall (rt : Type) (rt_text : rt -> str) (rt_lookup : str -> option rt),
  (forall t, rt_lookup (rt_text t) = Some t) ->
  forall (res : option (list (rt * str * list str))) (rest : list tok),
  res_block_if_defined cfg = true ->
  match res with Some l => Forall (riwf tag_norm tags_valid rt) l | None => True end ->
  res_read tag_norm tags_valid rt rt_lookup (res_toks cfg rt rt_text true res ++ TBrClose :: rest)
  = Some (res, match res with Some _ => TNl :: TBrClose :: rest | None => TBrClose :: rest end).
Proof. exact res_roundtrip. Qed.

(** Character level and token level joined.  The STRING tokens of a text as _write_longstring writes it
    ([token_sections]: Tokenizer._handle_string on every section): there is at least one, every section is a complete
    string body, and the token values concatenate to the text. *)
Theorem c16_longstring_token_sections : forall t excl, table_ok t excl = true -> forall cfg ext text, cfg_ok cfg = true ->
  (ext = false -> std_safe text = true) ->
  token_sections t excl cfg ext text <> []
  /\ List.concat (token_sections t excl cfg ext text) = text
  /\ Forall (fun sec => exists o, run t Plain sec = Some (Plain, o)) (sections cfg (fgd_escape t excl ext text)).
Proof. exact token_sections_spec. Qed.

(** ... so a keyvalue line whose display name and description went through _write_longstring — any length, any
    characters (plain syntax: without quote, backslash, CR) — is parsed back to exactly that display name and that
    description (plus name, tags, type, readonly, report, default). *)
Theorem c16_kv_line_text_roundtrip :
  forall (tag_norm : str -> str) (tags_valid : list str -> bool) (vt : Type) (vt_text : vt -> str) (vt_lookup : str -> option (bool * vt))
         (vt_is_bool vt_is_flags vt_is_choices : vt -> bool) (dec : N -> str) (undec : str -> option N) (pow2 : N -> bool) (lcfg : line_cfg),
  (forall v, vt_lookup (vt_text v) = Some (false, v)) -> colons_before_desc_without_default lcfg = 2%nat ->
  forall t excl, table_ok t excl = true -> forall cfg, cfg_ok cfg = true ->
  forall (label custom : bool) name tags ty ro rep disp dflt desc rest,
  (custom = false -> std_safe disp = true /\ std_safe desc = true) ->
  let k := mk_kvl vt name tags ty ro rep (token_sections t excl cfg custom disp) dflt (token_sections t excl cfg custom desc) NoList in
  tags_wf tag_norm tags_valid tags -> vt_is_flags ty = false -> vt_is_choices ty = false ->
  yes_no vt vt_is_bool ty (default_written vt vt_is_bool lcfg k) = default_written vt vt_is_bool lcfg k -> ends_line rest ->
  kv_parse tag_norm tags_valid vt vt_lookup vt_is_bool vt_is_flags vt_is_choices dec undec pow2 name
    (List.tl (kv_toks vt vt_text vt_is_bool vt_is_flags dec lcfg label custom k) ++ rest)
  = Some (mk_kvl vt name (seen_tags custom tags) ty ro rep [disp] (default_written vt vt_is_bool lcfg k) [desc] NoList, rest).
Proof. exact kv_line_text_roundtrip. Qed.

(** The whole body of an entity (Fmt/FgdBody.v): the keyvalue, input and output lines in the order written — with the
    blank / comment lines EntityDef.export puts between them —, the @resources block and the closing bracket are read
    back by the loop of EntityDef.parse as the same keyvalues, inputs and outputs in the same order (normal forms: long
    strings joined, I/O types decayed, no tags in the plain syntax) and the same resources.  [item_wf]: the line
    conditions above, and no keyvalue is called input, output or @resources. *)
Theorem c16_entity_body_roundtrip :
  forall (tag_norm : str -> str) (tags_valid : list str -> bool) (vt : Type) (vt_text : vt -> str) (vt_lookup : str -> option (bool * vt))
         (vt_is_bool vt_is_flags vt_is_choices : vt -> bool) (io_text : vt -> str) (io_lookup : str -> option vt) (io_decay : vt -> vt)
         (dec : N -> str) (undec : str -> option N) (pow2 : N -> bool) (cfg : line_cfg) (rt : Type) (rt_text : rt -> str)
         (rt_lookup : str -> option rt),
  (forall v, vt_lookup (vt_text v) = Some (false, v)) -> (forall v, io_lookup (io_text v) = Some (io_decay v)) ->
  (forall n, undec (dec n) = Some n) -> (forall t, rt_lookup (rt_text t) = Some t) ->
  colons_before_desc_without_default cfg = 2%nat -> res_block_if_defined cfg = true ->
  forall (label custom : bool) (items : list (nat * item vt)) (res : resources rt) (rest : list tok),
  Forall (item_wf tag_norm tags_valid vt vt_is_bool vt_is_flags vt_is_choices dec pow2 cfg label) (map snd items) ->
  match res with Some l => Forall (riwf tag_norm tags_valid rt) l | None => True end ->
  body_read tag_norm tags_valid vt vt_lookup vt_is_bool vt_is_flags vt_is_choices io_lookup dec undec pow2 rt rt_lookup
    (body_toks vt vt_text vt_is_bool vt_is_flags io_text dec cfg rt rt_text label custom items res ++ rest)
  = Some (with_res vt rt (fold_left (add_item vt vt_is_bool io_decay cfg rt custom) (map snd items) (mk_body vt rt [] [] [] None))
                   (if custom then res else None), rest).
Proof. exact body_roundtrip. Qed.

(** One concrete instance (non-vacuity, and the refutations of the other writer branches). *)
Inductive xvt := XString | XBool | XFlags | XChoices.
Definition x_text (v : xvt) : str := match v with XString => [115] | XBool => [98] | XFlags => [102] | XChoices => [99] end.
Definition x_lookup (s : str) : option (bool * xvt) :=
  match s with [115] => Some (false, XString) | [98] => Some (false, XBool) | [102] => Some (false, XFlags) | [99] => Some (false, XChoices) | _ => None end.
Definition x_bool (v : xvt) := match v with XBool => true | _ => false end.
Definition x_flags (v : xvt) := match v with XFlags => true | _ => false end.
Definition x_choices (v : xvt) := match v with XChoices => true | _ => false end.
Definition x_dec (n : N) : str := repeat 49 (N.to_nat n).      (* unary *)
Definition x_undec (s : str) : option N := Some (N.of_nat (List.length s)).
Definition x_cfg (colons : nat) (res_defined : bool) : line_cfg :=
  {| colons_before_desc_without_default := colons; bool_default_filled := true; res_block_if_defined := res_defined |}.
Definition x_kv : kvline xvt :=   (* key[A, +B](s) readonly : "di" + "sp" : : "de" + "sc"  — no default *)
  mk_kvl xvt [107] [[65]; [43; 66]] XString true false [[100; 105]; [115; 112]] [] [[100; 101]; [115; 99]] NoList.
Definition x_parse (colons : nat) : option (kvline xvt * list tok) :=
  kv_parse (fun t => t) (fun _ => true) xvt x_lookup x_bool x_flags x_choices x_dec x_undec (fun _ => true) [107]
    (List.tl (kv_toks xvt x_text x_bool x_flags x_dec (x_cfg colons true) true true x_kv) ++ [TStr [110]]).
Example c16_kv_line_example :
  x_parse 2 = Some (mk_kvl xvt [107] [[65]; [43; 66]] XString true false [[100; 105; 115; 112]] [] [[100; 101; 115; 99]] NoList, [TStr [110]])
  /\ (forall v, x_lookup (x_text v) = Some (false, v)) /\ (forall n, x_undec (x_dec n) = Some n).
Proof.
  split; [vm_compute; reflexivity|]. split; [intros []; reflexivity|].
  intros n. unfold x_undec, x_dec. rewrite repeat_length, N2Nat.id. reflexivity.
Qed.
(** with a single ':' before the description of a keyvalue without default, the description is read as the default *)
Example c16_one_colon_refuted :
  x_parse 1 = Some (mk_kvl xvt [107] [[65]; [43; 66]] XString true false [[100; 105; 115; 112]] [100; 101; 115; 99] [[]] NoList, [TStr [110]]).
Proof. vm_compute. reflexivity. Qed.
(** when the @resources block is only written for a non-empty list, an explicitly empty list comes back undefined *)
Definition x_res_read (res_defined : bool) (res : option (list (N * str * list str))) :=
  res_read (fun t => t) (fun _ => true) N (fun s => match s with [c] => Some c | _ => None end)
    (res_toks (x_cfg 2 res_defined) N (fun t => [t]) true res ++ [TBrClose]).
Example c16_empty_resources_refuted :
  x_res_read false (Some []) = Some (None, [TBrClose])
  /\ x_res_read true (Some []) = Some (Some [], [TNl; TBrClose])
  /\ x_res_read true (Some [(5, [109], [[65]]); (6, [110], [])]) = Some (Some [(5, [109], [[65]]); (6, [110], [])], [TNl; TBrClose]).
Proof. repeat split; vm_compute; reflexivity. Qed.
Definition empty_resources_need_block : bool :=
  match x_res_read false (Some []), x_res_read true (Some []) with
  | Some (None, _), Some (Some [], _) => true
  | _, _ => false
  end.

(** * The entity header and the whole entity definition (token level, Fmt/FgdHead.v, Fmt/FgdEntity.v) *)
(** Helper objects are abstract: [known n] = `HelperTypes(n)` succeeds, [hparse n args] = `HELPER_IMPL[HelperTypes(n)].parse(args)`
    (None = it raises), [hunknown n args] = `UnknownHelper(n, args)`.  [form_ok f h]: the written form [f] of a helper (bare name /
    name(args)) is read back as the object [h]; arguments and base names are non-empty, stripped and without ','; a helper is not
    called base, aliasof or autovis.  [secs] = the '+' sections of the description (none for an empty description).
    The header as EntityDef.export writes it — `base(..)` or `aliasof(..)` when there are bases, one helper per line, `= classname`,
    `: description`, `[` — is read back by EntityDef.parse (from the token after `@PointClass`) as the same bases in the same
    order, the alias flag (extended syntax only), the same helper objects in the same order, the class name and the description,
    and the parser stops right after the `[`. *)
Theorem c16_entity_header_roundtrip :
  forall (H : Type) (known : str -> bool) (hparse : str -> list str -> option H) (hunknown : str -> list str -> H),
  known KW_BASE = true -> known KW_ALIASOF = false ->
  forall (custom alias : bool) (bases : list str) (forms : list hform) (hidden : bool) (hs : list H) (cls : str) (secs : list str) (rest : list tok),
  bases_ok bases -> Forall2 (form_ok H known hparse hunknown) forms hs -> strip cls = cls ->
  head_read H known hparse hunknown (head_toks custom alias bases forms hidden cls secs ++ rest)
  = Some (mk_head H (match bases with [] => false | _ => alias && custom end) bases hs cls (List.concat secs), rest).
Proof. exact head_roundtrip. Qed.

(** the `(a, b, c)` of a helper or of base(): `', '.join(args)` is split at ',' and stripped back to the arguments;
    arguments may be BLANK at any position ([args_ok]: every argument stripped and comma-free, the list is not [['']]) — the writer
    leaves an empty slot (`frustum(lightfov, , , lightcolor, -1)`) and the reader must keep it, because helper arguments are
    positional.  The one list that cannot come back is the sole blank argument: `helper()` is read as no argument at all. *)
Theorem c16_helper_args_roundtrip : forall args, args_ok args -> paren_args (join_cs args) = args.
Proof. exact paren_args_join0. Qed.
Theorem c16_helper_args_sole_blank : paren_args (join_cs [[]]) = [] /\ paren_args (join_cs []) = [].
Proof. split; reflexivity. Qed.
(** [gen_args_cfg] is read off the PAREN_ARGS branch of EntityDef.parse on every run (separator, strip, the comprehension's
    filter, the `['']` special case); [helper_arg_joiners] = every string literal whose .join() writes an argument list in
    EntityDef.export.  EVERY configuration of today's shape computes [paren_args] on all inputs, hence reads back what was written. *)
Definition helper_args_program_ok : bool := args_cfg_ok gen_args_cfg.
(** computed witnesses with today's configuration: blank arguments at the first, a middle, the last and several positions come back
    where they were, and `name()` is no argument *)
Fixpoint strs_eqb (a b : list str) : bool :=
  match a, b with [] , [] => true | x :: a', y :: b' => nlist_eqb x y && strs_eqb a' b' | _, _ => false end.
Definition blank_witnesses : list (list str) :=
  [[[108]; []; [99]]; [[]; [108]]; [[108]; []]; [[]; []]; [[108]; []; []; [99; 32; 100]; []]; [[]; []; []]].
Definition helper_args_blank_kept : bool :=
  forallb (fun l => strs_eqb (paren_args_with gen_args_cfg (join_cs l)) l) blank_witnesses.
Definition helper_args_empty_parens_no_argument : bool :=
  match paren_args_with gen_args_cfg [] with [] => true | _ => false end.
Definition helper_args_joined_by_comma_blank : bool :=
  negb (match helper_arg_joiners with [] => true | _ => false end) && forallb (nlist_eqb [COMMA; 32]) helper_arg_joiners.
Definition helper_args_ok : bool := helper_args_program_ok && helper_args_joined_by_comma_blank.
Theorem c16_helper_args_program_is_model : forall c, args_cfg_ok c = true -> forall s, paren_args_with c s = paren_args s.
Proof. exact paren_args_with_is_model. Qed.
Theorem c16_helper_args_program_roundtrip : forall c, args_cfg_ok c = true -> forall args, args_ok args ->
  paren_args_with c (join_cs args) = args.
Proof. intros c Hc args Ha. rewrite paren_args_with_is_model by exact Hc. apply paren_args_join0, Ha. Qed.
(** the nearby wrong shapes: a filter in the comprehension (`if arg.strip()` / `if arg`) also turns `helper()` into no argument, but
    drops every blank argument, so the later ones shift left; without the special case `helper()` has one blank argument *)
Definition filter_stripped_cfg : args_cfg := mk_args_cfg COMMA true FDropStripped false.
Definition filter_raw_cfg : args_cfg := mk_args_cfg COMMA true FDropRaw true.
Example c16_helper_args_filter_refuted :
  let a := [108] in let b := [99] in
  args_ok [a; []; []; b] /\ args_ok [[]; a]
  /\ paren_args_with filter_stripped_cfg (join_cs [a; []; []; b]) = [a; b]
  /\ paren_args_with filter_raw_cfg (join_cs [[]; a]) = [a]
  /\ paren_args_with filter_stripped_cfg (join_cs []) = []
  /\ paren_args_with (mk_args_cfg COMMA true FKeep false) (join_cs []) = [[]]
  /\ paren_args (join_cs [a; []; []; b]) = [a; []; []; b] /\ paren_args (join_cs [[]; a]) = [[]; a].
Proof.
  cbv zeta. repeat split; try (vm_compute; reflexivity); try discriminate;
    repeat (constructor; try (split; vm_compute; reflexivity)).
Qed.
Definition filter_blank_breaks : bool :=
  negb (Nat.eqb (List.length (paren_args_with filter_stripped_cfg (join_cs [[108]; []; [99]]))) 3)
  && negb (Nat.eqb (List.length (paren_args_with filter_raw_cfg (join_cs [[]; [108]]))) 2).

(** Composition of the header with [c16_entity_body_roundtrip]: a WHOLE entity definition as written — header, `[`, keyvalue / input /
    output lines, @resources, `]` — is read back as the same header fields and the same body. *)
Theorem c16_entity_text_roundtrip :
  forall (tag_norm : str -> str) (tags_valid : list str -> bool) (vt : Type) (vt_text : vt -> str) (vt_lookup : str -> option (bool * vt))
         (vt_is_bool vt_is_flags vt_is_choices : vt -> bool) (io_text : vt -> str) (io_lookup : str -> option vt) (io_decay : vt -> vt)
         (dec : N -> str) (undec : str -> option N) (pow2 : N -> bool) (cfg : line_cfg) (rt : Type) (rt_text : rt -> str)
         (rt_lookup : str -> option rt)
         (H : Type) (known : str -> bool) (hparse : str -> list str -> option H) (hunknown : str -> list str -> H),
  (forall v, vt_lookup (vt_text v) = Some (false, v)) -> (forall v, io_lookup (io_text v) = Some (io_decay v)) ->
  (forall n, undec (dec n) = Some n) -> (forall t, rt_lookup (rt_text t) = Some t) ->
  colons_before_desc_without_default cfg = 2%nat -> res_block_if_defined cfg = true ->
  known KW_BASE = true -> known KW_ALIASOF = false ->
  forall (label custom alias : bool) (bases : list str) (forms : list hform) (hidden : bool) (hs : list H) (cls : str) (secs : list str)
         (items : list (nat * item vt)) (res : resources rt) (rest : list tok),
  bases_ok bases -> Forall2 (form_ok H known hparse hunknown) forms hs -> strip cls = cls ->
  Forall (item_wf tag_norm tags_valid vt vt_is_bool vt_is_flags vt_is_choices dec pow2 cfg label) (map snd items) ->
  match res with Some l => Forall (riwf tag_norm tags_valid rt) l | None => True end ->
  entity_read tag_norm tags_valid vt vt_lookup vt_is_bool vt_is_flags vt_is_choices io_lookup dec undec pow2 rt rt_lookup H known hparse hunknown
    (entity_toks vt vt_text vt_is_bool vt_is_flags io_text dec cfg rt rt_text label custom alias bases forms hidden cls secs items res ++ rest)
  = Some (mk_head H (match bases with [] => false | _ => alias && custom end) bases hs cls (List.concat secs),
          with_res vt rt (fold_left (add_item vt vt_is_bool io_decay cfg rt custom) (map snd items) (mk_body vt rt [] [] [] None))
                   (if custom then res else None),
          rest).
Proof.
  intros until rest. intros Hb Hf Hc Hi Hr. unfold entity_read, entity_toks. rewrite <- app_assoc.
  erewrite head_roundtrip by eassumption. cbn [app]. rewrite body_read_nl. erewrite body_roundtrip; [reflexivity|eassumption..].
Qed.

(** One concrete header (non-vacuity): `aliasof(A, B)` NEWLINE `s(1 2, 3)` NEWLINE `h` NEWLINE `u(x)` NEWLINE `= e : "de" + "sc"` NEWLINE `[`
    with the known helper types base, s, h; helper objects are (name, arguments).  And two limits of the format that the premises
    exclude: an unknown helper written WITHOUT parentheses is forgotten when the next helper name arrives, and an argument that
    contains a comma comes back as two. *)
Definition xh_known (n : str) : bool := str_eqb n KW_BASE || str_eqb n [115] || str_eqb n [104].
Definition xh_parse (n : str) (a : list str) : option (str * list str) := Some (n, a).
Definition xh_read := head_read (str * list str) xh_known xh_parse (fun n a => (n, a)).
Example c16_entity_header_example :
  xh_read (head_toks true true [[65]; [66]] [HCall [115] [[49; 32; 50]; [51]]; HBare [104]; HCall [117] [[120]]] false [101] [[100; 101]; [115; 99]] ++ [TNl])
  = Some (mk_head _ true [[65]; [66]] [([115], [[49; 32; 50]; [51]]); ([104], []); ([117], [[120]])] [101] [100; 101; 115; 99], [TNl])
  /\ xh_known KW_BASE = true /\ xh_known KW_ALIASOF = false.
Proof. split; [vm_compute; reflexivity|split; reflexivity]. Qed.
Example c16_bare_unknown_helper_refuted :
  option_map (fun x => h_helpers _ (fst x)) (xh_read [TStr [117]; TNl; TStr [118]; TParen []; TNl; TEq; TStr [101]; TNl; TBrOpen])
  = Some [([118], [])].
Proof. vm_compute. reflexivity. Qed.
Example c16_comma_in_argument_refuted : paren_args (join_cs [[97; 44; 98]]) = [[97]; [98]].
Proof. vm_compute. reflexivity. Qed.

(** * Binary database: tables and bit packings *)
(** VALUE_TYPE_ORDER / FILE_TYPE_ORDER: the index written for an enum member reads back as that member
    and fits in 7 bits (the order list may contain a member twice; the last index is the one written). *)
Theorem c16_order_roundtrip : forall order all v, order_ok order all = true -> In v all ->
  exists i, encode_type order v = Some i /\ decode_type order i = Some v /\ (i < 128)%nat.
Proof.
  unfold order_ok. intros order all v H Hv. apply andb_true_iff in H as [H Hlen]. apply andb_true_iff in H as [Hall _].
  rewrite forallb_forall in Hall. apply Nat.ltb_lt in Hlen. apply Hall, mem_str_In in Hv.
  destruct (index_last_aux_some v order Hv 0%nat None) as [i Hi]. exists i.
  destruct (encode_decode_type order v i Hi) as [Hd Hlt]. split; [exact Hi|split; [exact Hd|exact (Nat.lt_trans _ _ _ Hlt Hlen)]].
Qed.
Theorem c16_order_decodes_members : forall order all i v, order_ok order all = true ->
  decode_type order i = Some v -> In v all.
Proof.
  unfold order_ok, decode_type. intros order all i v H Hi. apply andb_true_iff in H as [H _].
  apply andb_true_iff in H as [_ Hord]. rewrite forallb_forall in Hord. apply mem_str_In, Hord. eapply nth_error_In; eauto.
Qed.

(** index | 128: value type + readonly, spawnflag power + default, resource type + has-tags *)
Theorem c16_flag7_roundtrip : forall idx f, idx < 128 ->
  unpack_flag7 (pack_flag7 idx f) = (idx, f) /\ pack_flag7 idx f < 256.
Proof. exact flag7_roundtrip. Qed.
Theorem c16_spawnflag_roundtrip : forall p d, p < 128 -> unpack_spawnflag (pack_spawnflag (2 ^ p) d) = (2 ^ p, d).
Proof. exact spawnflag_roundtrip. Qed.

(** EntFlags: entity kind and the alias bit *)
Theorem c16_entflags_roundtrip : forall types mask alias_bit ty a,
  entflags_ok types mask alias_bit = true -> In ty types ->
  unpack_entflags mask alias_bit (pack_entflags ty alias_bit a) = (ty, a) /\ pack_entflags ty alias_bit a < 256.
Proof. exact entflags_roundtrip. Qed.
Theorem c16_flag_table_inverse : forall l n v, nodup_N (map snd l) = true -> nodup_str (map fst l) = true ->
  flag_of_name n l = Some v -> name_of_flag v l = Some n.
Proof. exact flag_table_inverse. Qed.

(** BinStrDict: every string of the shared or the block dictionary is written as an index that reads back
    as that string, provided the shared dictionary has exactly SHARED_STRINGS entries. *)
Theorem c16_strdict_roundtrip : forall (A : Type) (eqb : A -> A -> bool), (forall a b, eqb a b = true <-> a = b) ->
  forall base own shared s, List.length base = shared -> In s base \/ In s own ->
  exists i, sd_encode A eqb base own shared s = Some i /\ sd_decode A base own i = Some s
            /\ (i < List.length base + List.length own)%nat.
Proof. exact strdict_roundtrip. Qed.
Theorem c16_le16_roundtrip : forall i, i < 65536 ->
  fst (pack16 i) < 256 /\ snd (pack16 i) < 256 /\ unpack16 (pack16 i) = i.
Proof. exact le16_roundtrip. Qed.
Theorem c16_split_join : forall sep l, l <> [] -> Forall (fun x => mem_N sep x = false) l ->
  split_sep sep (join_sep sep l) = l.
Proof. exact split_join. Qed.

(** * Binary database: whole definitions and blocks *)
(** ent_serialise / ent_unserialise (Fmt/FgdBinEnt.v: header of six bytes, base names, keyvalues with spawnflag lists,
    inputs, outputs, resources with tags) composed from the codecs above.  [enc]/[dec] is the string dictionary;
    the side conditions on the tables are the instance obligations value_type_order_covers_enum,
    file_type_order_covers_enum, entflags_layout, entity_types_have_distinct_flags.  For every definition the writer
    accepts ([Some bs]) whose spawnflag masks are powers of two, whose SPAWNFLAGS keyvalues have no default and whose
    other keyvalues have no flag list, the reader returns the definition and exactly the bytes that followed. *)
Theorem c16_ent_bin_roundtrip : forall (A : Type) (enc : A -> option (N * N)) (dec : N * N -> option A),
  (forall s p, enc s = Some p -> dec p = Some s) ->
  forall (empty : A) (vt_order ft_order : list string),
  (List.length vt_order < 128)%nat -> (List.length ft_order < 128)%nat ->
  forall (list_type choices_type : string) (kinds : list (string * N)) (mask alias_bit : N),
  entflags_ok (map snd kinds) mask alias_bit = true -> nodup_N (map snd kinds) = true -> nodup_str (map fst kinds) = true ->
  forall e bs rest, ent_wf A empty list_type e ->
  ent_ser A enc vt_order ft_order list_type choices_type kinds alias_bit e = Some bs ->
  ent_unser A dec empty vt_order ft_order list_type kinds mask alias_bit (bs ++ rest) = Some (e, rest).
Proof. exact ent_roundtrip. Qed.

(** all definitions of a block, read back in the order of the block's class names, nothing left over *)
Theorem c16_block_bin_roundtrip : forall (A : Type) (enc : A -> option (N * N)) (dec : N * N -> option A),
  (forall s p, enc s = Some p -> dec p = Some s) ->
  forall (empty : A) (vt_order ft_order : list string),
  (List.length vt_order < 128)%nat -> (List.length ft_order < 128)%nat ->
  forall (list_type choices_type : string) (kinds : list (string * N)) (mask alias_bit : N),
  entflags_ok (map snd kinds) mask alias_bit = true -> nodup_N (map snd kinds) = true -> nodup_str (map fst kinds) = true ->
  forall es bs rest, Forall (ent_wf A empty list_type) es ->
  block_ser A enc vt_order ft_order list_type choices_type kinds alias_bit es = Some bs ->
  block_unser A dec empty vt_order ft_order list_type kinds mask alias_bit (List.length es) (bs ++ rest) = Some (es, rest).
Proof. exact block_roundtrip. Qed.

(** the dictionary premise holds for BinStrDict: shared dictionary of exactly SHARED_STRINGS entries + the block's own
    strings, indexes written as 16-bit little-endian (composition of c16_strdict_roundtrip and c16_le16_roundtrip) *)
Theorem c16_block_dictionary_inverts : forall (A : Type) (eqb : A -> A -> bool), (forall a b, eqb a b = true <-> a = b) ->
  forall base own shared, List.length base = shared ->
  forall s p, dict_enc A eqb base own shared s = Some p -> dict_dec A base own p = Some s.
Proof.
  intros A eqb Hspec base own shared Hlen s p. unfold dict_enc, dict_dec.
  destruct (sd_encode A eqb base own shared s) as [i|] eqn:E; [|discriminate].
  destruct (N.ltb_spec (N.of_nat i) 65536) as [Hi|]; [|discriminate]. intros [= <-].
  destruct (le16_roundtrip (N.of_nat i) Hi) as [_ [_ ->]]. rewrite Nat2N.id. exact (sd_encode_decode A eqb Hspec _ _ _ _ _ Hlen E).
Qed.

(** the file header ('FGD', version, block count, per block: class names, position, size) reads back, and reading
    `size` bytes at `off` for the positions serialise() fills in returns every block's data *)
Theorem c16_db_header_roundtrip : forall version positions0 bs rest, header_ser version positions0 = Some bs ->
  header_unser version (bs ++ rest) = Some (positions0, rest).
Proof.
  unfold header_ser. intros version positions0 bs rest. destruct (N.ltb_spec version 256) as [Hv|]; [|discriminate].
  destruct (N.ltb_spec (N.of_nat (List.length positions0)) 4294967296) as [Hn|]; [|discriminate]. cbn [andb].
  destruct (cat_all (map bpos_ser positions0)) as [body|] eqn:Eb; [|discriminate]. cbn [cat]. intros [= <-].
  pose proof (un32_le32 _ Hn) as E. unfold le32 in *. unfold MAGIC. cbn [app]. unfold header_unser.
  rewrite N.eqb_refl, E, Nat2N.id. exact (rd_n_all bpos_ser bpos_unser bpos_roundtrip positions0 body rest Eb).
Qed.
Theorem c16_block_positions_slices : forall (blocks : list (list N * list N)) pre post,
  Forall2 (fun p blk => slice (pre ++ List.concat (map snd blocks) ++ post) (bp_off p) (bp_size p) = snd blk /\ bp_names p = fst blk)
          (positions (N.of_nat (List.length pre)) blocks) blocks.
Proof.
  induction blocks as [|[names data] blocks IH]; intros pre post; cbn [positions map List.concat]; constructor.
  - cbn [bp_off bp_size bp_names fst snd]. split; [|reflexivity]. rewrite <- app_assoc. apply slice_app.
  - specialize (IH (pre ++ data) post). rewrite app_length, Nat2N.inj_add in IH. cbn [snd].
    rewrite <- !app_assoc in IH. rewrite <- app_assoc. exact IH.
Qed.

(** the generated tables satisfy the premises of c16_ent_bin_roundtrip *)
Definition bin_tables_ok : bool :=
  (List.length value_type_order <? 128)%nat && (List.length file_type_order <? 128)%nat
  && entflags_layout_ok && nodup_N (map snd type_flags) && nodup_str (map fst type_flags)
  && mem_str bin_list_type value_type_order && mem_str bin_choices_type value_type_order
  && negb (String.eqb bin_list_type bin_choices_type).

(** the I/O skeletons of the eight (un)serialisers, as the model of Fmt/FgdBinEnt.v has them: kv = name, display name,
    type|readonly byte, then for the list type a count and (power|default byte, name) per flag, otherwise the default;
    io = name, type byte; ent = six header bytes (flags, then the counts of bases, keyvalues, inputs, outputs,
    resources), the base names, the keyvalues, inputs, outputs, and per resource the type|has-tags byte, the tags if
    flagged, the file name *)
Fixpoint slist_eqb (a b : list string) : bool :=
  match a, b with [], [] => true | x :: a', y :: b' => String.eqb x y && slist_eqb a' b' | _, _ => false end.
Definition layout_is (fn : string) (expected : list string) : bool :=
  match find (fun p => String.eqb (fst p) fn) bin_layouts with Some p => slist_eqb (snd p) expected | None => false end.
Definition layout_kv_writer_ok : bool := layout_is "kv_serialise"
  ["str"; "str"; "u8"; "if(_.type is ValueTypes.SPAWNFLAGS){"; "u8"; "loop(_.flags_list){"; "if(_){"; "raise"; "}"; "u8"; "str"; "}";
   "return"; "}"; "str"; "if(_.type is ValueTypes.CHOICES){"; "raise"; "}"].
Definition layout_kv_reader_ok : bool := layout_is "kv_unserialise"
  ["str"; "str"; "u8"; "if(_ is ValueTypes.SPAWNFLAGS){"; "u8"; "loop(range(r3)){"; "u8"; "str"; "}"; "}else{"; "str"; "}"].
Definition layout_io_ok : bool := layout_is "iodef_serialise" ["str"; "u8"] && layout_is "iodef_unserialise" ["str"; "u8"].
Definition layout_ent_writer_ok : bool := layout_is "ent_serialise"
  ["hdr:_.value,len(_.bases),len(_.keyvalues),len(_.inputs),len(_.outputs),len(_.resources)";
   "loop(_.bases){"; "str"; "}";
   "loop(_._iter_attrs()){"; "loop(_.items()){"; "if(len(_) == 1){"; "if(not _){"; "if(isinstance(_, KVDef)){"; "kv"; "}else{";
   "if(isinstance(_, IODef)){"; "io"; "}else{"; "raise"; "}"; "}"; "}"; "}"; "raise"; "}"; "}";
   "loop(_.resources){"; "u8"; "if(_.tags){"; "tags"; "}"; "str"; "}"].
Definition layout_ent_reader_ok : bool := layout_is "ent_unserialise"
  ["hdr6"; "loop(h1){"; "str"; "}"; "loop(h2){"; "kv"; "}"; "loop(h3){"; "io"; "}"; "loop(h4){"; "io"; "}";
   "if(h5){"; "loop(h5){"; "u8"; "if(r1 & 128){"; "tags"; "}"; "str"; "}"; "}"].
Definition header_formats_ok : bool :=
  struct_is "_fmt_header" "<BI" && struct_is "_fmt_block_pos" "<IH" && struct_is "_fmt_32bit" "<I".

(** the model instantiated with the generated tables, strings numbered (see [encN]/[decN]) *)
Definition g_ent_ser : entdef N -> option (list N) :=
  ent_ser N encN value_type_order file_type_order bin_list_type bin_choices_type type_flags (flag_value "IS_ALIAS").
Definition g_ent_unser (canon : list N) (empty : N) : reader (entdef N) :=
  ent_unser N (decN canon) empty value_type_order file_type_order bin_list_type type_flags (flag_value "MASK_TYPE") (flag_value "IS_ALIAS").
Definition g_block_ser : list (entdef N) -> option (list N) :=
  block_ser N encN value_type_order file_type_order bin_list_type bin_choices_type type_flags (flag_value "IS_ALIAS").
Definition g_block_unser (canon : list N) (empty : N) (n : nat) : reader (list (entdef N)) :=
  block_unser N (decN canon) empty value_type_order file_type_order bin_list_type type_flags (flag_value "MASK_TYPE") (flag_value "IS_ALIAS") n.

(** * Lazy loading *)
(** [via] = how _parse_block replaces the stored base names ([lazy_via_get_ent] read from the source).
    For every file (list of blocks) in which no class name occurs twice and every block has data, for
    every decoding function that yields one definition per class name, and for EVERY sequence of
    engine_def() queries (any order, any repetitions) on a fresh database, the answers are exactly the
    definitions obtained by decoding the whole database. *)
Theorem c16_lazy_equals_eager :
  forall (name ent bytes : Type) (name_eqb : name -> name -> bool),
  (forall a b, name_eqb a b = true <-> a = b) ->
  forall (decode : list name -> bytes -> list ent),
  (forall cs data, List.length (decode cs data) = List.length cs) ->
  forall (ent_bases : ent -> list name) (is_empty : bytes -> bool) (empty_bytes : bytes),
  is_empty empty_bytes = true ->
  forall (via : bool) (B : list (block name bytes)),
  NoDup (flat_map fst B) -> Forall (fun b => is_empty (snd b) = false) B ->
  forall f g qs,
  fst (run_queries name ent bytes name_eqb decode ent_bases is_empty empty_bytes via (S f) (init name ent bytes B) qs)
  = map (eager name ent bytes name_eqb decode ent_bases is_empty empty_bytes via B g) qs.
Proof. exact lazy_equals_eager. Qed.

(** The same including the bases: when _parse_block resolves base names through get_ent ([via = true]) and the
    fuel covers the number of blocks, every answer of every query sequence carries, for each stored base name,
    exactly the definition of that class in the file — alias chains across blocks included — and that is
    also what a look-up in the completely loaded database gives. *)
Theorem c16_lazy_equals_eager_with_bases :
  forall (name ent bytes : Type) (name_eqb : name -> name -> bool),
  (forall a b, name_eqb a b = true <-> a = b) ->
  forall (decode : list name -> bytes -> list ent),
  (forall cs data, List.length (decode cs data) = List.length cs) ->
  forall (ent_bases : ent -> list name) (is_empty : bytes -> bool) (empty_bytes : bytes),
  is_empty empty_bytes = true ->
  forall (via : bool) (B : list (block name bytes)),
  NoDup (flat_map fst B) -> Forall (fun b => is_empty (snd b) = false) B ->
  via = true -> forall f g qs, (List.length B <= f)%nat -> (List.length B <= g)%nat ->
  fst (run_full name ent bytes name_eqb decode ent_bases is_empty empty_bytes via f (init name ent bytes B) qs)
  = map (eager_full name ent bytes name_eqb decode ent_bases is_empty empty_bytes via B g) qs.
Proof. exact lazy_full_equals_eager. Qed.

Theorem c16_eager_with_bases_is_file_content :
  forall (name ent bytes : Type) (name_eqb : name -> name -> bool),
  (forall a b, name_eqb a b = true <-> a = b) ->
  forall (decode : list name -> bytes -> list ent),
  (forall cs data, List.length (decode cs data) = List.length cs) ->
  forall (ent_bases : ent -> list name) (is_empty : bytes -> bool) (empty_bytes : bytes),
  is_empty empty_bytes = true ->
  forall (via : bool) (B : list (block name bytes)),
  NoDup (flat_map fst B) -> Forall (fun b => is_empty (snd b) = false) B ->
  via = true -> forall f c, (List.length B <= f)%nat ->
  eager_full name ent bytes name_eqb decode ent_bases is_empty empty_bytes via B f c
  = full_spec name ent bytes name_eqb decode ent_bases B c.
Proof. exact eager_full_correct. Qed.

(** if every stored base name is a class of the file, no base of any answer is left as a bare name *)
Theorem c16_lazy_bases_all_resolved :
  forall (name ent bytes : Type) (name_eqb : name -> name -> bool),
  (forall a b, name_eqb a b = true <-> a = b) ->
  forall (decode : list name -> bytes -> list ent),
  (forall cs data, List.length (decode cs data) = List.length cs) ->
  forall (ent_bases : ent -> list name) (is_empty : bytes -> bool) (empty_bytes : bytes),
  is_empty empty_bytes = true ->
  forall (via : bool) (B : list (block name bytes)),
  NoDup (flat_map fst B) -> Forall (fun b => is_empty (snd b) = false) B ->
  via = true -> forall f qs, (List.length B <= f)%nat ->
  (forall c e b, spec name ent bytes name_eqb decode B c = Some e -> In b (ent_bases e) ->
                 spec name ent bytes name_eqb decode B b <> None) ->
  Forall (fun a => match a with
                   | Some (e, rb) => List.length rb = List.length (ent_bases e) /\ Forall (fun x => x <> None) rb
                   | None => True end)
         (fst (run_full name ent bytes name_eqb decode ent_bases is_empty empty_bytes via f (init name ent bytes B) qs)).
Proof. exact lazy_bases_all_resolved. Qed.

(** Non-vacuity and refutation on one concrete file with a CROSS-BLOCK alias chain: block 0 holds class 1
    (alias of 2), block 1 holds class 2 (alias of 3) and class 4, block 2 holds class 3.  Definitions are
    (class, stored base names). *)
Definition xb_ent : Type := (N * list N)%type.
Definition xb_bases (c : N) : list N := match c with 1 => [2] | 2 => [3] | _ => [] end.
Definition xb_decode (cs : list N) (data : N) : list xb_ent := map (fun c => (c, xb_bases c)) cs.
Definition xb_file : list (block N N) := [([1], 10); ([2; 4], 11); ([3], 12)].
Definition xb_run (via : bool) (qs : list N) : list (option (xb_ent * list (option xb_ent))) :=
  fst (run_full N xb_ent N N.eqb xb_decode (fun e => snd e) (N.eqb 0) 0 via 3 (init N xb_ent N xb_file) qs).
Example c16_cross_block_alias_resolved :
  xb_run true [1; 4; 2; 1] = [Some ((1, [2]), [Some (2, [3])]); Some ((4, []), []); Some ((2, [3]), [Some (3, [])]);
                              Some ((1, [2]), [Some (2, [3])])]
  /\ NoDup (flat_map fst xb_file) /\ Forall (fun b => N.eqb 0 (snd b) = false) xb_file.
Proof. split; [vm_compute; reflexivity|]. split; [repeat constructor; cbn; intuition discriminate|repeat constructor]. Qed.
(** a look-up in `ent_map` that only succeeds for decoded entries (instead of get_ent) leaves the base of class 1
    as a bare name when class 1 is asked for first — and differently when class 2 was asked for before: the
    answer depends on the query order *)
Example c16_map_lookup_refuted :
  xb_run false [1] = [Some ((1, [2]), [None])]
  /\ xb_run false [2; 1] = [Some ((2, [3]), [None]); Some ((1, [2]), [Some (2, [3])])].
Proof. split; vm_compute; reflexivity. Qed.
Definition map_lookup_breaks : bool :=
  match xb_run false [1], xb_run true [1] with
  | [Some (_, [None])], [Some (_, [Some _])] => true
  | _, _ => false
  end.

(** and each answer is the entry at the class's position in its block *)
Theorem c16_eager_is_file_content :
  forall (name ent bytes : Type) (name_eqb : name -> name -> bool),
  (forall a b, name_eqb a b = true <-> a = b) ->
  forall (decode : list name -> bytes -> list ent),
  (forall cs data, List.length (decode cs data) = List.length cs) ->
  forall (ent_bases : ent -> list name) (is_empty : bytes -> bool) (empty_bytes : bytes),
  is_empty empty_bytes = true ->
  forall (via : bool) (B : list (block name bytes)),
  NoDup (flat_map fst B) -> Forall (fun b => is_empty (snd b) = false) B ->
  forall f c, eager name ent bytes name_eqb decode ent_bases is_empty empty_bytes via B f c
              = spec name ent bytes name_eqb decode B c.
Proof. exact eager_correct. Qed.

(** the recursive lookups of alias bases never run deeper than the number of blocks (the model marks a block as
    decoded before its bases are looked up, as the source does) *)
Theorem c16_base_lookups_terminate :
  forall (name ent bytes : Type) (name_eqb : name -> name -> bool)
         (decode : list name -> bytes -> list ent) (ent_bases : ent -> list name)
         (is_empty : bytes -> bool) (empty_bytes : bytes),
  is_empty empty_bytes = true ->
  forall (via : bool) (B : list (block name bytes)) f qs, (List.length B <= f)%nat ->
  oof _ _ _ (snd (run_queries name ent bytes name_eqb decode ent_bases is_empty empty_bytes via f (init name ent bytes B) qs)) = false.
Proof. exact base_lookups_terminate. Qed.

(** * Several databases (add_engine_database): EntityDef.engine_def vs FGD.engine_dbase
    [Bs] = the list of files in the order of `_ENGINE_DB` (an added database comes first); every file is well formed as in the
    single-database theorems ([file_ok]: no class name twice inside one file, every block has data) — the SAME class name in
    two files is exactly the case of interest.  [engine_dbase_merge] (Gen) is the shape of the merge loop of FGD.engine_dbase
    read from the source: [FirstWins] = a class name that is already present is kept, [LastWins] = it is overwritten. *)
Definition merge_is_first (m : merge_mode) : bool := match m with FirstWins => true | LastWins => false end.
Definition multi_modes_agree : bool := merge_is_first engine_dbase_merge && engine_def_returns_first_hit.

(** one at a time (first database that knows the class), in any order and with any repetitions, on a fresh list of databases
    = the merged whole database, answers including what every stored base name was replaced by *)
Theorem c16_multi_lazy_equals_eager :
  forall (name ent bytes : Type) (name_eqb : name -> name -> bool),
  (forall a b, name_eqb a b = true <-> a = b) ->
  forall (decode : list name -> bytes -> list ent),
  (forall cs data, List.length (decode cs data) = List.length cs) ->
  forall (ent_bases : ent -> list name) (is_empty : bytes -> bool) (empty_bytes : bytes),
  is_empty empty_bytes = true ->
  forall (via : bool), via = true ->
  forall (f g : nat) (Bs : list (list (block name bytes))) (qs : list name),
  Forall (file_ok name bytes is_empty) Bs ->
  Forall (fun B => (List.length B <= f)%nat) Bs -> Forall (fun B => (List.length B <= g)%nat) Bs ->
  fst (run_defs name ent bytes name_eqb decode ent_bases is_empty empty_bytes via f (map (init name ent bytes) Bs) qs)
  = map (engine_dbase name ent bytes name_eqb decode ent_bases is_empty empty_bytes via FirstWins g Bs) qs.
Proof. exact multi_lazy_equals_eager. Qed.

(** and that common answer is the content of the FIRST file that defines the class (an added database overrides) *)
Theorem c16_multi_eager_is_first_file :
  forall (name ent bytes : Type) (name_eqb : name -> name -> bool),
  (forall a b, name_eqb a b = true <-> a = b) ->
  forall (decode : list name -> bytes -> list ent),
  (forall cs data, List.length (decode cs data) = List.length cs) ->
  forall (ent_bases : ent -> list name) (is_empty : bytes -> bool) (empty_bytes : bytes),
  is_empty empty_bytes = true ->
  forall (via : bool), via = true ->
  forall (g : nat) (Bs : list (list (block name bytes))) (c : name),
  Forall (file_ok name bytes is_empty) Bs -> Forall (fun B => (List.length B <= g)%nat) Bs ->
  engine_dbase name ent bytes name_eqb decode ent_bases is_empty empty_bytes via FirstWins g Bs c
  = multi_spec name ent bytes name_eqb decode ent_bases Bs c.
Proof. exact engine_dbase_first. Qed.

(** the overwriting merge (dict.update) answers with the LAST file that defines the class ... *)
Theorem c16_multi_overwrite_is_last_file :
  forall (name ent bytes : Type) (name_eqb : name -> name -> bool),
  (forall a b, name_eqb a b = true <-> a = b) ->
  forall (decode : list name -> bytes -> list ent),
  (forall cs data, List.length (decode cs data) = List.length cs) ->
  forall (ent_bases : ent -> list name) (is_empty : bytes -> bool) (empty_bytes : bytes),
  is_empty empty_bytes = true ->
  forall (via : bool), via = true ->
  forall (g : nat) (Bs : list (list (block name bytes))) (c : name),
  Forall (file_ok name bytes is_empty) Bs -> Forall (fun B => (List.length B <= g)%nat) Bs ->
  engine_dbase name ent bytes name_eqb decode ent_bases is_empty empty_bytes via LastWins g Bs c
  = multi_spec_last name ent bytes name_eqb decode ent_bases Bs c.
Proof. exact engine_dbase_last. Qed.

(** ... so with it the look-up and the whole database disagree on EVERY class whose first and last definitions differ *)
Theorem c16_multi_overwrite_refuted :
  forall (name ent bytes : Type) (name_eqb : name -> name -> bool),
  (forall a b, name_eqb a b = true <-> a = b) ->
  forall (decode : list name -> bytes -> list ent),
  (forall cs data, List.length (decode cs data) = List.length cs) ->
  forall (ent_bases : ent -> list name) (is_empty : bytes -> bool) (empty_bytes : bytes),
  is_empty empty_bytes = true ->
  forall (via : bool), via = true ->
  forall (f g : nat) (Bs : list (list (block name bytes))) (c : name),
  Forall (file_ok name bytes is_empty) Bs ->
  Forall (fun B => (List.length B <= f)%nat) Bs -> Forall (fun B => (List.length B <= g)%nat) Bs ->
  multi_spec name ent bytes name_eqb decode ent_bases Bs c <> multi_spec_last name ent bytes name_eqb decode ent_bases Bs c ->
  fst (run_defs name ent bytes name_eqb decode ent_bases is_empty empty_bytes via f (map (init name ent bytes) Bs) [c])
  <> [engine_dbase name ent bytes name_eqb decode ent_bases is_empty empty_bytes via LastWins g Bs c].
Proof. exact multi_overwrite_differs. Qed.

(** the shortcut `if len(databases) == 1: return databases[0].get_fgd()` is the merge of one database, whatever the merge does *)
Theorem c16_engine_dbase_single_shortcut :
  forall (name ent bytes : Type) (name_eqb : name -> name -> bool),
  (forall a b, name_eqb a b = true <-> a = b) ->
  forall (decode : list name -> bytes -> list ent),
  (forall cs data, List.length (decode cs data) = List.length cs) ->
  forall (ent_bases : ent -> list name) (is_empty : bytes -> bool) (empty_bytes : bytes),
  is_empty empty_bytes = true ->
  forall (via : bool), via = true ->
  forall (mode : merge_mode) (g : nat) (B : list (block name bytes)) (c : name),
  file_ok name bytes is_empty B -> (List.length B <= g)%nat ->
  engine_dbase name ent bytes name_eqb decode ent_bases is_empty empty_bytes via mode g [B] c
  = engine_dbase_single name ent bytes name_eqb decode ent_bases is_empty empty_bytes via g B c.
Proof. exact engine_dbase_one. Qed.

(** Non-vacuity and refutation on two concrete files: the added file (first) redefines class 2 and adds class 5 (an alias of 2,
    resolved INSIDE the added file); the bundled file is [xb_file] with data 10.. .  Definitions are (class, stored bases) and
    carry the block data in the class component (class + 100 * data) so that the two definitions of class 2 differ. *)
Definition mb_ent : Type := (N * list N)%type.
Definition mb_bases (c : N) : list N := match c with 1 => [2] | 2 => [3] | 5 => [2] | _ => [] end.
Definition mb_decode (cs : list N) (data : N) : list mb_ent := map (fun c => (c + 100 * data, mb_bases c)) cs.
Definition mb_added : list (block N N) := [([2; 3], 7); ([5], 8)].
Definition mb_files : list (list (block N N)) := [mb_added; xb_file].
Definition mb_lazy (qs : list N) : list (option (mb_ent * list (option mb_ent))) :=
  fst (run_defs N mb_ent N N.eqb mb_decode (fun e => snd e) (N.eqb 0) 0 true 3 (map (init N mb_ent N) mb_files) qs).
Definition mb_eager (m : merge_mode) (c : N) : option (mb_ent * list (option mb_ent)) :=
  engine_dbase N mb_ent N N.eqb mb_decode (fun e => snd e) (N.eqb 0) 0 true m 3 mb_files c.
Example c16_multi_example :
  mb_lazy [2; 1; 5; 4; 9] = map (mb_eager FirstWins) [2; 1; 5; 4; 9]
  /\ mb_lazy [2] = [Some ((702, [3]), [Some (703, [])])]                       (* the added definition, bases from the added file *)
  /\ mb_lazy [1] = [Some ((1001, [2]), [Some (1102, [3])])]                    (* class 1 exists only in the bundled file: its base is the bundled class 2 *)
  /\ mb_eager LastWins 2 = Some ((1102, [3]), [Some (1203, [])])               (* overwritten by the bundled definition *)
  /\ Forall (file_ok N N (N.eqb 0)) mb_files.
Proof.
  repeat split; try (vm_compute; reflexivity).
  repeat constructor; cbn; intuition discriminate.
Qed.
Definition overwrite_merge_breaks : bool :=
  match mb_lazy [2], mb_eager LastWins 2, mb_eager FirstWins 2 with
  | [Some ((a, _), _)], Some ((b, _), _), Some ((c, _), _) => negb (a =? b) && (a =? c)
  | _, _, _ => false
  end.

(** * The type text of keyvalue / input / output lines (Fmt/FgdTypeText.v)
    [kv_type_prog] / [io_type_prog] are read off KVDef._parse / IODef._parse by symbolic execution on every run (which string is
    stripped, casefolded, compared, looked up in VALUE_TYPE_LOOKUP and stored as the custom type), [vt_lookup_tab] is
    VALUE_TYPE_LOOKUP.  [fold] is str.casefold; the three laws hold for ASCII lower-casing ([c16_ascii_casefold_laws]). *)
Definition TARGET_DESTINATION : str := [116; 97; 114; 103; 101; 116; 95; 100; 101; 115; 116; 105; 110; 97; 116; 105; 111; 110].
Definition kv_type_prog_ok : bool := kv_prog_ok kv_type_prog.
Definition io_type_prog_ok : bool := io_prog_ok TARGET_DESTINATION io_type_prog.
Definition kv_unknown_type_kept_verbatim : bool := fallback_verbatim kv_type_prog.
Definition io_unknown_type_kept_verbatim : bool := fallback_verbatim io_type_prog.
Definition type_table_ok : bool := tab_ok lower vt_lookup_tab.
Definition fold_then_fallback_breaks : bool := fold_fallback_breaks.

(** every generated program that passes the obligation equals the hand model (known names matched case-insensitively, a leading
    '*' = report, unknown names kept as written) on ALL token texts *)
Theorem c16_kv_type_program_is_model : forall (fold : str -> str) (tab : list (str * str)),
  (forall s, fold (fold s) = fold s) -> (forall s, fold (strip s) = strip (fold s)) -> (forall s, fold (tl s) = tl (fold s)) ->
  forall p, kv_prog_ok p = true -> forall raw, trun fold tab p raw = spec_kv fold tab raw.
Proof. exact kv_prog_is_model. Qed.
Theorem c16_io_type_program_is_model : forall (fold : str -> str) (tab : list (str * str)),
  (forall s, fold (fold s) = fold s) -> (forall s, fold (strip s) = strip (fold s)) -> (forall s, fold (tl s) = tl (fold s)) ->
  forall special p, io_prog_ok special p = true -> forall raw, trun fold tab p raw = spec_io fold tab special raw.
Proof. exact io_prog_is_model. Qed.
(** export then parse is the identity on a custom type name (stripped, no leading '*', not a spelling of a known type / of
    `ehandle`): the text between the parentheses is the name and it is read back as exactly that name *)
Theorem c16_custom_kv_type_roundtrip : forall (fold : str -> str) (tab : list (str * str)) s,
  strip s = s -> starts_star s = false -> assoc (fold s) tab = None ->
  spec_kv fold tab (kv_type_text (Custom s)) = (false, Custom s).
Proof. exact kv_custom_roundtrip. Qed.
Theorem c16_custom_io_type_roundtrip : forall (fold : str -> str) (tab : list (str * str)) special io_text s,
  strip s = s -> str_eqb s EHANDLE = false -> assoc (fold s) tab = None ->
  spec_io fold tab special (io_type_text io_text (Custom s)) = (false, Custom s).
Proof. exact io_custom_roundtrip. Qed.
(** parse then export is idempotent on known types: whatever spelling was read, the canonical text that is written reads back
    as the same member (keyvalues), resp. the written text is reproduced by the next parse + export (I/O, where types decay) *)
Theorem c16_known_kv_type_idempotent : forall (fold : str -> str) (tab : list (str * str)) raw b c,
  tab_ok fold tab = true -> spec_kv fold tab raw = (b, Known c) -> spec_kv fold tab (kv_type_text (Known c)) = (false, Known c).
Proof. exact kv_known_idempotent. Qed.
Theorem c16_known_io_type_idempotent : forall (fold : str -> str) (tab : list (str * str)) special (io_text decay : str -> str) raw c,
  (forall c, spec_io fold tab special (io_text c) = (false, Known (decay c))) -> (forall c, io_text (decay c) = io_text c) ->
  spec_io fold tab special raw = (false, Known c) ->
  let text2 := io_type_text io_text (Known c) in
  io_type_text io_text (snd (spec_io fold tab special text2)) = text2.
Proof. intros fold tab special io_text decay raw c H1 H2 _. cbn [io_type_text]. rewrite H1. cbn. apply H2. Qed.
Theorem c16_ascii_casefold_laws :
  (forall s, lower (lower s) = lower s) /\ (forall s, lower (strip s) = strip (lower s)) /\ (forall s, lower (tl s) = tl (lower s)).
Proof. exact (conj lower_idem (conj lower_strip lower_tl)). Qed.
(** composition for today's source: with the generated programs and table, a custom name survives export -> parse on keyvalue,
    input and output lines, and re-reading what was written for a known type gives the same member *)
Theorem c16_type_text_property :
  kv_type_prog_ok = true -> io_type_prog_ok = true -> type_table_ok = true ->
  (forall s, strip s = s -> starts_star s = false -> assoc (lower s) vt_lookup_tab = None ->
     trun lower vt_lookup_tab kv_type_prog (kv_type_text (Custom s)) = (false, Custom s)) /\
  (forall io_text s, strip s = s -> str_eqb s EHANDLE = false -> assoc (lower s) vt_lookup_tab = None ->
     trun lower vt_lookup_tab io_type_prog (io_type_text io_text (Custom s)) = (false, Custom s)) /\
  (forall raw b c, trun lower vt_lookup_tab kv_type_prog raw = (b, Known c) ->
     trun lower vt_lookup_tab kv_type_prog (kv_type_text (Known c)) = (false, Known c)).
Proof. exact (type_text_property_gen kv_type_prog io_type_prog vt_lookup_tab TARGET_DESTINATION). Qed.
(** the documented I/O type decay, for the generated VALUE_TO_IO_DECAY and the literal spellings of IODef.export: what is written for
    a member reads back as the decayed member, and the next parse + export writes the same text again *)
Definition io_decay_table_ok : bool := io_decay_ok lower vt_lookup_tab TARGET_DESTINATION io_decay_tab io_special_text.
Theorem c16_io_decay_text_fixpoint : forall fold tab sp decay_tab special, io_decay_ok fold tab sp decay_tab special = true ->
  forall c d, In (c, d) decay_tab ->
  let text := io_type_text (io_text_of decay_tab special) (Known c) in
  spec_io fold tab sp text = (false, Known (io_decay_of decay_tab c)) /\
  io_type_text (io_text_of decay_tab special) (snd (spec_io fold tab sp text)) = text.
Proof.
  unfold io_decay_ok. intros fold tab sp decay_tab special H c d I. rewrite forallb_forall in H. specialize (H _ I). cbn [fst] in H.
  unfold io_member_ok in H. cbn [io_type_text].
  destruct (spec_io fold tab sp (io_text_of decay_tab special c)) as [b t] eqn:E.
  destruct b; try discriminate. destruct t as [k|]; try discriminate.
  apply andb_true_iff in H as [H1 H2]. apply tt_str_eqb_eq in H1, H2. subst k.
  split; [reflexivity|]. cbn [snd io_type_text]. exact H2.
Qed.
(** the nearby wrong shape — casefold first, then look up and fall back to the folded text — loses the case of `Locale_ID` *)
Example c16_fold_then_fallback_refuted :
  trun lower [] fold_first_prog (kv_type_text (Custom LOCALE_ID)) = (false, Custom (lower LOCALE_ID)) /\ lower LOCALE_ID <> LOCALE_ID
  /\ fallback_verbatim fold_first_prog = false.
Proof. split; [vm_compute; reflexivity | split; [discriminate | vm_compute; reflexivity]]. Qed.
(** the hypotheses of [c16_custom_kv_type_roundtrip] are satisfiable with a table that knows `integer` and `int` *)
Example c16_type_text_example :
  let tab := [([105; 110; 116], [105; 110; 116; 101; 103; 101; 114]); ([105; 110; 116; 101; 103; 101; 114], [105; 110; 116; 101; 103; 101; 114])] in
  tab_ok lower tab = true /\
  spec_kv lower tab [32; 42; 73; 78; 84; 32] = (true, Known [105; 110; 116; 101; 103; 101; 114]) /\
  spec_kv lower tab LOCALE_ID = (false, Custom LOCALE_ID).
Proof. vm_compute. auto. Qed.

(** * Grouping the entities into blocks (SM/FgdBlocks.v)
    [gen_bcfg] is read off _engine_db.build_blocks on every run: the three size tests and where blocks without entities leave
    all_blocks.  For EVERY configuration that does not drop the (still empty) first overflow block before the leftovers are put
    into it — whatever the size tests, sizes, block limit, order of the overlapping pairs and iteration order of the set of
    unplaced entities — every entity is in exactly as many blocks as it occurs in the entity list: once.  serialise() writes the
    class names and the data of every block of that list ([serialise_writes_every_entity], read off the two loops). *)
Definition blocks_cfg_ok : bool := bcfg_ok gen_bcfg.
Definition blocks_empty_dropped_at_end : bool := drop_empty_after_leftovers gen_bcfg.
Definition blocks_all_written : bool := serialise_writes_every_entity.
Theorem c16_every_entity_in_exactly_one_block : forall (cfg : bcfg) (size : N -> N) (maxsz : N) (all : list N) (pairs : list (N * N)) (order : list N),
  bcfg_ok cfg = true -> nodupN all = true -> pairs_ok all pairs = true ->
  (forall x, count_occ N.eq_dec order x = count_occ N.eq_dec (leftovers all (pair_loop cfg size maxsz pairs)) x) ->
  forall x, count_occ N.eq_dec (List.concat (build_with cfg size maxsz pairs order)) x = count_occ N.eq_dec all x.
Proof. exact build_with_places_every_entity. Qed.
Theorem c16_no_empty_block_is_written : forall (cfg : bcfg) (size : N -> N) (maxsz : N) (pairs : list (N * N)) (order : list N),
  drop_empty_after_leftovers cfg = true -> Forall (fun b => b <> []) (build_with cfg size maxsz pairs order).
Proof.
  intros cfg size maxsz pairs order H. unfold build_with. rewrite H. apply Forall_forall. intros b I. apply filter_In in I as [_ I].
  destruct b; [discriminate | congruence].
Qed.
(** the defect repaired by bdb271a: the empty overflow block leaves the list before the leftovers are put into it.
    Entities 1..3 of size 1, limit 10, one overlapping pair (1, 2): entity 3 is in no block. *)
Definition early_drop_cfg : bcfg :=
  {| merge_fits := N.leb; add_fits := N.ltb; ovf_full := fun a b => N.leb b a; drop_empty_before_leftovers := true; drop_empty_after_leftovers := false |}.
Example c16_early_drop_refuted :
  build early_drop_cfg (fun _ => 1) 10 [1; 2; 3] [(1, 2)] = [[1; 2]] /\
  build gen_bcfg (fun _ => 1) 10 [1; 2; 3] [(1, 2)] = (if blocks_cfg_ok then [[1; 2]; [3]] else build gen_bcfg (fun _ => 1) 10 [1; 2; 3] [(1, 2)]).
Proof. split; vm_compute; reflexivity. Qed.
Definition early_drop_breaks : bool := negb (memN 3 (List.concat (build early_drop_cfg (fun _ => 1) 10 [1; 2; 3] [(1, 2)]))).
(** the hypotheses are satisfiable, merges and overflow splits included: 6 entities of size 4, limit 10 *)
Example c16_blocks_example :
  let all := [1; 2; 3; 4; 5; 6] in let pairs := [(1, 2); (3, 4); (2, 3); (1, 4)] in
  nodupN all = true /\ pairs_ok all pairs = true /\
  build {| merge_fits := N.leb; add_fits := N.ltb; ovf_full := fun a b => N.leb b a; drop_empty_before_leftovers := false;
           drop_empty_after_leftovers := true |} (fun _ => 4) 10 all pairs = [[1; 2]; [3; 4]; [5; 6]].
Proof. vm_compute. auto. Qed.

(** * The keyword that opens an entity definition and the top-level dispatch of FGD.parse_file (Fmt/FgdKindKw.v)
    [pf_directives], [pf_token_folded], [entity_kind_values], [kind_writer_ops] are read off FGD.parse_file, EntityTypes and
    EntityDef.export on every run. *)
Definition kind_keywords_read_back : bool := kinds_read_back pf_token_folded pf_directives entity_kind_values kind_writer_ops.
Definition unfolded_dispatch_breaks : bool := negb (kinds_read_back false pf_directives entity_kind_values kind_writer_ops).
Theorem c16_kind_keyword_roundtrip : forall folded directives kinds ops,
  kinds_read_back folded directives kinds ops = true ->
  forall v, In v kinds -> kw_dispatch folded directives kinds (kind_written ops v) = KKind v.
Proof.
  unfold kinds_read_back. intros folded directives kinds ops H v I. rewrite forallb_forall in H. specialize (H v I).
  destruct (kw_dispatch folded directives kinds (kind_written ops v)); try discriminate H. apply tt_str_eqb_eq in H. congruence.
Qed.
(** `@PointClass` is what the writer makes of `pointclass`; compared without casefold it is not an entity kind *)
Example c16_kind_keyword_example :
  let ops := [WTitle; WReplace [99; 108; 97; 115; 115] [67; 108; 97; 115; 115]] in
  let pc := [112; 111; 105; 110; 116; 99; 108; 97; 115; 115] in
  kind_written ops pc = [64; 80; 111; 105; 110; 116; 67; 108; 97; 115; 115] /\
  kw_dispatch true [[64; 105]] [pc] (kind_written ops pc) = KKind pc /\ kw_dispatch false [[64; 105]] [pc] (kind_written ops pc) = KError.
Proof. vm_compute. auto. Qed.

(** * What a copy shares with the cached definition (SM/FgdCopyShare.v)
    EntityDef.engine_def() and FGD.engine_dbase() return deepcopy() results of the definitions the engine database caches, so a
    history "look up, change the answer in place, look up again / load the whole database" gives the same definitions only if
    EntityDef.__deepcopy__ (hand-written, field by field) re-creates every mutable object a caller can reach.
    [entity_copy_plan] is read off the source on every run: for every attribute the shape its annotation promises and the
    expression that produces the copy's value (KVDef.copy / IODef.copy followed into their constructor calls).
    For EVERY shape, expression and value of that shape: if [isolates] accepts the pair, no object of the copy is an object of
    the original, so no in-place change of anything reachable from the copy changes the original. *)
Definition copy_field_isolates (f : string) : bool :=
  match find (fun p => String.eqb (fst p) f) entity_copy_plan with Some (_, (t, e)) => isolates e t | None => false end.
Definition entity_copy_isolates : bool := plan_isolates (map snd entity_copy_plan).
(** [answer_copies]: what EntityDef.engine_def and the two return statements of FGD.engine_dbase hand out — `deepcopy(..)` of the
    cached object (which runs EntityDef.__deepcopy__ for every definition) or the cached object itself *)
Definition answers_are_deep_copies : bool := forallb (fun p => isolates (snd p) TAny) answer_copies.
Definition state_isolated : bool := entity_copy_isolates && answers_are_deep_copies.
Theorem c16_copy_is_fresh : forall base v e t, has_type t v = true -> isolates e t = true ->
  Forall (fun a => base <= a) (addrs (do_copy base e v)).
Proof. exact copy_is_fresh. Qed.
Theorem c16_copy_isolated : forall base e t v, has_type t v = true -> isolates e t = true ->
  Forall (fun a => a < base) (addrs v) ->
  forall a new, In a (addrs (do_copy base e v)) -> update a new v = v.
Proof. exact copy_isolated. Qed.
Theorem c16_entity_copy_isolated : forall p : plan, plan_isolates p = true ->
  forall t e, In (t, e) p -> forall base v, has_type t v = true -> Forall (fun a => a < base) (addrs v) ->
  forall a new, In a (addrs (do_copy base e v)) -> update a new v = v.
Proof.
  unfold plan_isolates. intros p Hp t e Hin base v Ht Hold a new Ha. rewrite forallb_forall in Hp.
  specialize (Hp (t, e) Hin). cbn [fst snd] in Hp. exact (copy_isolated base e t v Ht Hp Hold a new Ha).
Qed.
(** the two wrong shapes that were met.  (1) the I/O maps are copied with `io_map.copy()`: the IODef objects (address 3) are
    shared, renaming the copy's input renames the cached one.  (2) `copy.resources = self.resources` (repaired by 3cb0d87): the
    list itself (address 1) is shared, an append through the copy is an append to the cached definition. *)
Definition io_shape : ftype := TColl (TColl (TObj [TImm; TImm; TImm])).
Definition io_value : val := VMut 1 [VMut 2 [VMut 3 [VImm 7; VImm 0; VImm 9]]].
Example c16_shared_io_objects_refuted :
  has_type io_shape io_value = true /\ isolates (CMap CShallow) io_shape = false
  /\ In 3 (addrs (do_copy 100 (CMap CShallow) io_value)) /\ update 3 [VImm 8; VImm 0; VImm 9] io_value <> io_value
  /\ isolates (CMap (CMap (CObj [CShare; CShare; CShare]))) io_shape = true
  /\ addrs (do_copy 100 (CMap (CMap (CObj [CShare; CShare; CShare]))) io_value) = [101; 102; 103].
Proof. repeat split; try (vm_compute; reflexivity); try discriminate. vm_compute. auto. Qed.
Example c16_shared_resources_list_refuted :
  let v := VMut 1 [VImm 4; VImm 5] in
  has_type (TColl TImm) v = true /\ isolates CShare (TColl TImm) = false /\ In 1 (addrs (do_copy 100 CShare v))
  /\ update 1 [VImm 4; VImm 5; VImm 6] v <> v /\ isolates CShallow (TColl TImm) = true /\ addrs (do_copy 100 CShallow v) = [101].
Proof. cbv zeta. repeat split; try (vm_compute; reflexivity); try discriminate. vm_compute. auto. Qed.
Definition shared_io_objects_break : bool := negb (isolates (CMap CShallow) io_shape) && negb (isolates CShare (TColl TImm)).

(** * The whole property in one statement, for today's source
    The hypotheses are the named booleans over the objects that translate/c16_fgd.py regenerates from the source on every run; the
    check discharges each of them, and their conjunction [c16_property_hypotheses], by vm_compute (instance obligations).  The
    conclusion instantiates the parts above at those objects:
    text — a whole entity definition as written (header, keyvalue / spawnflag / choices / I/O lines, @resources) is read back, with
    [gen_line_cfg]; the type between the parentheses with [kv_type_prog] / [io_type_prog] / [vt_lookup_tab] (custom names verbatim,
    known names idempotent); the kind keyword with the dispatch chain of FGD.parse_file;
    binary — every entity is in exactly one block for [gen_bcfg] (records, blocks, header: c16_ent_bin_roundtrip,
    c16_block_bin_roundtrip, c16_db_header_roundtrip are unconditional in the generated objects except for [bin_tables_ok]);
    lazy — every history of one-at-a-time look-ups over a list of databases = the merged whole database, in the modes read from
    the source. *)
Definition entity_text_roundtrip_at (cfg : line_cfg) : Prop :=
  forall (tag_norm : str -> str) (tags_valid : list str -> bool) (vt : Type) (vt_text : vt -> str) (vt_lookup : str -> option (bool * vt))
         (vt_is_bool vt_is_flags vt_is_choices : vt -> bool) (io_text : vt -> str) (io_lookup : str -> option vt) (io_decay : vt -> vt)
         (dec : N -> str) (undec : str -> option N) (pow2 : N -> bool) (rt : Type) (rt_text : rt -> str)
         (rt_lookup : str -> option rt)
         (H : Type) (known : str -> bool) (hparse : str -> list str -> option H) (hunknown : str -> list str -> H),
  (forall v, vt_lookup (vt_text v) = Some (false, v)) -> (forall v, io_lookup (io_text v) = Some (io_decay v)) ->
  (forall n, undec (dec n) = Some n) -> (forall t, rt_lookup (rt_text t) = Some t) ->
  known KW_BASE = true -> known KW_ALIASOF = false ->
  forall (label custom alias : bool) (bases : list str) (forms : list hform) (hidden : bool) (hs : list H) (cls : str) (secs : list str)
         (items : list (nat * item vt)) (res : resources rt) (rest : list tok),
  bases_ok bases -> Forall2 (form_ok H known hparse hunknown) forms hs -> strip cls = cls ->
  Forall (item_wf tag_norm tags_valid vt vt_is_bool vt_is_flags vt_is_choices dec pow2 cfg label) (map snd items) ->
  match res with Some l => Forall (riwf tag_norm tags_valid rt) l | None => True end ->
  entity_read tag_norm tags_valid vt vt_lookup vt_is_bool vt_is_flags vt_is_choices io_lookup dec undec pow2 rt rt_lookup H known hparse hunknown
    (entity_toks vt vt_text vt_is_bool vt_is_flags io_text dec cfg rt rt_text label custom alias bases forms hidden cls secs items res ++ rest)
  = Some (mk_head H (match bases with [] => false | _ => alias && custom end) bases hs cls (List.concat secs),
          with_res vt rt (fold_left (add_item vt vt_is_bool io_decay cfg rt custom) (map snd items) (mk_body vt rt [] [] [] None))
                   (if custom then res else None),
          rest).
Definition multi_lazy_equals_eager_at (via : bool) (mode : merge_mode) : Prop :=
  forall (name ent bytes : Type) (name_eqb : name -> name -> bool),
  (forall a b, name_eqb a b = true <-> a = b) ->
  forall (decode : list name -> bytes -> list ent),
  (forall cs data, List.length (decode cs data) = List.length cs) ->
  forall (ent_bases : ent -> list name) (is_empty : bytes -> bool) (empty_bytes : bytes),
  is_empty empty_bytes = true ->
  forall (f g : nat) (Bs : list (list (block name bytes))) (qs : list name),
  Forall (file_ok name bytes is_empty) Bs ->
  Forall (fun B => (List.length B <= f)%nat) Bs -> Forall (fun B => (List.length B <= g)%nat) Bs ->
  fst (run_defs name ent bytes name_eqb decode ent_bases is_empty empty_bytes via f (map (init name ent bytes) Bs) qs)
  = map (engine_dbase name ent bytes name_eqb decode ent_bases is_empty empty_bytes via mode g Bs) qs.
Definition c16_property_hypotheses : bool :=
  line_cfg_ok gen_line_cfg && kv_type_prog_ok && io_type_prog_ok && type_table_ok && kind_keywords_read_back
  && blocks_cfg_ok && lazy_via_get_ent && multi_modes_agree && helper_args_ok && state_isolated.
Fact and10_true (a b c d e f g h i j : bool) : a && b && c && d && e && f && g && h && i && j = true ->
  a = true /\ b = true /\ c = true /\ d = true /\ e = true /\ f = true /\ g = true /\ h = true /\ i = true /\ j = true.
Proof. intros H. repeat (apply andb_prop in H as [H ?]). repeat split; assumption. Qed.
Fact line_cfg_ok_parts (c : line_cfg) : line_cfg_ok c = true -> colons_before_desc_without_default c = 2%nat /\ res_block_if_defined c = true.
Proof.
  unfold line_cfg_ok. intros H. apply andb_true_iff in H as [H R]. apply andb_true_iff in H as [H _]. split; [apply Nat.eqb_eq; exact H | exact R].
Qed.
Fact merge_is_first_eq (m : merge_mode) : merge_is_first m = true -> m = FirstWins.
Proof. destruct m; [reflexivity | discriminate]. Qed.
Theorem c16_property : c16_property_hypotheses = true ->
  entity_text_roundtrip_at gen_line_cfg
  /\ ((forall s, strip s = s -> starts_star s = false -> assoc (lower s) vt_lookup_tab = None ->
         trun lower vt_lookup_tab kv_type_prog (kv_type_text (Custom s)) = (false, Custom s)) /\
      (forall io_text s, strip s = s -> str_eqb s EHANDLE = false -> assoc (lower s) vt_lookup_tab = None ->
         trun lower vt_lookup_tab io_type_prog (io_type_text io_text (Custom s)) = (false, Custom s)) /\
      (forall raw b c, trun lower vt_lookup_tab kv_type_prog raw = (b, Known c) ->
         trun lower vt_lookup_tab kv_type_prog (kv_type_text (Known c)) = (false, Known c)))
  /\ (forall v, In v entity_kind_values ->
        kw_dispatch pf_token_folded pf_directives entity_kind_values (kind_written kind_writer_ops v) = KKind v)
  /\ (forall (size : N -> N) (maxsz : N) (all : list N) (pairs : list (N * N)) (order : list N),
        nodupN all = true -> pairs_ok all pairs = true ->
        (forall x, count_occ N.eq_dec order x = count_occ N.eq_dec (leftovers all (pair_loop gen_bcfg size maxsz pairs)) x) ->
        forall x, count_occ N.eq_dec (List.concat (build_with gen_bcfg size maxsz pairs order)) x = count_occ N.eq_dec all x)
  /\ multi_lazy_equals_eager_at lazy_via_get_ent engine_dbase_merge
  /\ (forall args, args_ok args -> paren_args_with gen_args_cfg (join_cs args) = args)
  /\ (forall f t e, In (f, (t, e)) entity_copy_plan -> forall base v, has_type t v = true -> Forall (fun a => a < base) (addrs v) ->
        forall a new, In a (addrs (do_copy base e v)) -> update a new v = v).
Proof.
  (* unfolded in the goal, so that every hypothesis is used at the type it is introduced with: a named boolean used at its
     unfolded type is converted by evaluating the whole test, twice *)
  unfold c16_property_hypotheses, kind_keywords_read_back, blocks_cfg_ok, multi_modes_agree, helper_args_ok, state_isolated.
  intros H. destruct (and10_true _ _ _ _ _ _ _ _ _ _ H) as (L & K & I & T & W & B & V & M & A & S). clear H.
  apply andb_true_iff in A as [A _]. apply andb_true_iff in S as [S _]. apply andb_true_iff in M as [M _].
  destruct (line_cfg_ok_parts _ L) as [C2 R]. apply merge_is_first_eq in M.
  split; [|split; [|split; [|split; [|split; [|split]]]]].
  7: { intros f t e Hin. apply (c16_entity_copy_isolated (map snd entity_copy_plan) S t e). apply (in_map snd _ _ Hin). }
  6: { intros. apply c16_helper_args_program_roundtrip; assumption. }
  - unfold entity_text_roundtrip_at. intros. apply c16_entity_text_roundtrip; assumption.
  - exact (c16_type_text_property K I T).
  - apply c16_kind_keyword_roundtrip. exact W.
  - intros. apply build_with_places_every_entity; assumption.
  - rewrite M. unfold multi_lazy_equals_eager_at. intros. apply multi_lazy_equals_eager; assumption.
Qed.

(** Defaults written WITHOUT quotes (Fmt/FgdBare.v): `TStr (default_written k)` of the line model presupposes that the text
    KVDef.export writes is lexed as one token equal to the default.  For a quoted default that is the escape model; for a bare one it
    holds for every test that passes [bare_test_ok] (a character set all of whose members may start a bare word), on ALL strings. *)
Theorem c16_bare_default_is_one_token :
  forall t s, bare_test_ok t = true -> writes_bare t s = true -> one_token s = true.
Proof. exact bare_written_is_one_token. Qed.
(** ... in particular for the test read off today's source *)
Theorem c16_bare_default_of_source_is_one_token :
  bare_test_ok gen_bare_test = true -> forall s, writes_bare gen_bare_test s = true -> one_token s = true.
Proof. intros H s. apply bare_written_is_one_token. exact H. Qed.
(** the nearby wrong shape `try: int(default_str)`: the computed witness is `7 ` (written bare, read back as `7`); `+7` and ` 7` are
    written bare too and are not one token, `1_0` and `--7` are harmless; the digits-and-minus test writes none of them bare *)
Example c16_bare_int_call_refuted :
  bare_witness BIntCall = Some [55; 32]
  /\ writes_bare BIntCall [43; 55] = true /\ one_token [43; 55] = false /\ lex_word [43; 55] = None
  /\ writes_bare BIntCall [32; 55] = true /\ one_token [32; 55] = false
  /\ writes_bare BIntCall [49; 95; 48] = true /\ one_token [49; 95; 48] = true
  /\ writes_bare (BChars digits_minus) [45; 45; 55] = true /\ one_token [45; 45; 55] = true
  /\ writes_bare (BChars digits_minus) [43; 55] = false /\ writes_bare (BChars digits_minus) [32; 55] = false
  /\ bare_witness (BChars digits_minus) = None.
Proof. repeat split; vm_compute; reflexivity. Qed.
