(** C19 — all filesystem backends resolve names alike; chains honour priority.
    The model is SM/FsChain.v, FsChainAdd.v, FsChainForms.v, FsChainRead.v, FsChainWhole.v, FsChainMixed.v,
    FsChainProperty.v and SM/FsState.v (definitions only); proofs of more than a few lines are in the other SM/FsChain*.v
    files and SM/FsStateProofs.v, and the theorems here cite them.

    The theorems are generic over a [backend] record (lists of normalisation operations).  The records of today's
    source are regenerated into Gen/FsWalk_gen.v on every run and the premises [backend_keys_ok], [walk_ok] (and
    the chain parameters) are discharged for them by kernel-checked instance obligations in checks/c19.py. *)
From Coq Require Import List NArith Bool Permutation.
From SV Require Import SM.FsChain SM.FsChainProofs SM.FsChainRel SM.FsChainWitness SM.FsChainRaw SM.FsChainCompose SM.FsChainComplete SM.FsChainNorm SM.FsChainForms SM.FsChainFormsProofs SM.FsChainWhole SM.FsChainWholeProofs SM.FsChainRead SM.FsChainReadProofs SM.FsChainMixed SM.FsChainMixedProofs SM.FsChainAdd SM.FsChainAddProofs SM.FsChainWalkGen SM.FsChainNoise SM.FsChainNoiseRaw SM.FsChainProperty SM.FsChainPropertyProofs SM.FsState SM.FsStateProofs.
Import ListNotations.
Open Scope N_scope.

(** ** Lookup: every backend with recognised key functions implements one specification map. *)

(** Today's source: every query function converts the slashes, normalises the path and folds the case
    ([backend_keys_norm]).  Then two backends given the same files agree on _get_file, _file_exists and open_bin for
    *every* query string, and all equal the specification map (folded name -> last stored file) at the normalised
    query: redundant separators, "." and ".." segments, either slash and letter case are all insignificant. *)
Theorem c19_lookup_agree_all : forall b1 b2 fs q,
  backend_keys_norm b1 = true -> backend_keys_norm b2 = true -> clean_fs fs = true ->
  lookup b1 fs q = lookup b2 fs q
  /\ exists_ b1 fs q = exists_ b2 fs q
  /\ open_ b1 fs q = open_ b2 fs q
  /\ open_ b1 fs q = lookup b1 fs q
  /\ lookup b1 fs q = spec_lookup fs (normpath (slash q))
  /\ exists_ b1 fs q = match spec_lookup fs (normpath (slash q)) with Some _ => true | None => false end.
Proof. exact lookup_agree_all. Qed.

(** Any recognised form (with or without normpath, before or after the slash conversion): for every query, the file
    served is the specification's file for the query as that backend pre-normalises it. *)
Theorem c19_lookup_norm : forall b fs q,
  store_ops_ok (b_store b) = true -> key_ops_ok (b_get b) = true -> clean_fs fs = true ->
  lookup b fs q = spec_lookup fs (prenorm (norm_kind (b_get b)) q).
Proof. exact lookup_norm. Qed.

(** Hence backends of different recognised forms (the pinned tree: Virtual normalised on '/' only, Zip and VPK not at
    all) still agree on every query that normpath leaves alone, with either slash. *)
Theorem c19_lookup_agree : forall b1 b2 fs q,
  backend_keys_ok b1 = true -> backend_keys_ok b2 = true -> clean_fs fs = true -> stable q ->
  lookup b1 fs q = lookup b2 fs q
  /\ exists_ b1 fs q = exists_ b2 fs q
  /\ open_ b1 fs q = open_ b2 fs q
  /\ open_ b1 fs q = lookup b1 fs q
  /\ lookup b1 fs q = spec_lookup fs q.
Proof. exact lookup_agree. Qed.

(** ... but not on the others: the forms of the pinned tree disagree on "./x", and the pinned Virtual form
    distinguishes the two slashes (".\\x" is not found although "./x" is). *)
Theorem c19_lookup_unnormalised_refuted :
  let fs := [([120], [1])] in
  lookup pinned_virtual fs [46; 47; 120] = Some ([120], [1]) /\ lookup pinned_zip fs [46; 47; 120] = None
  /\ lookup pinned_vpk fs [46; 47; 120] = None /\ lookup pinned_virtual fs [46; 92; 120] = None
  /\ backend_keys_norm pinned_virtual = false /\ backend_keys_norm pinned_zip = false
  /\ backend_keys_norm fixed_virtual = true /\ lookup fixed_virtual fs [46; 92; 120] = Some ([120], [1]).
Proof. repeat split; reflexivity. Qed.

(** Which spellings that identifies: normpath drops the empty segments (doubled and trailing slashes) and the "."
    segments of a relative path (".." segments are resolved too, shown by computation and correspondence only) ... *)
Theorem c19_normpath_noise : forall segs,
  segs <> [] -> forallb nosl segs = true -> no_dotdot segs = true ->
  is_prefix [SL] (join_with SL segs) = false -> denoise segs <> [] ->
  normpath (join_with SL segs) = join_with SL (denoise segs).
Proof. exact normpath_noise. Qed.
(** ... so two spellings with the same segments up to that noise, with either slash, are one name for every backend
    of today's form ("./sub//x/.", "sub\\x" and "sub/x"). *)
Theorem c19_lookup_noise_insensitive : forall b fs q q' segs segs',
  backend_keys_norm b = true -> clean_fs fs = true ->
  slash q = join_with SL segs -> slash q' = join_with SL segs' ->
  segs <> [] -> forallb nosl segs = true -> no_dotdot segs = true -> is_prefix [SL] (slash q) = false ->
  segs' <> [] -> forallb nosl segs' = true -> no_dotdot segs' = true -> is_prefix [SL] (slash q') = false ->
  denoise segs <> [] -> denoise segs = denoise segs' ->
  lookup b fs q = lookup b fs q' /\ exists_ b fs q = exists_ b fs q' /\ open_ b fs q = open_ b fs q'.
Proof.
  intros b fs q q' segs segs' Hb Hc Hq Hq' H1 H2 H3 H4 H1' H2' H3' H4' Hd He.
  rewrite Hq in H4. rewrite Hq' in H4'.
  assert (E : normpath (slash q) = normpath (slash q')).
  { rewrite Hq, Hq', (normpath_noise segs H1 H2 H3 H4 Hd), (normpath_noise segs' H1' H2' H3' H4'); [rewrite He; reflexivity|].
    rewrite <- He. exact Hd. }
  rewrite !lookup_slashnorm, !exists_slashnorm, !open_slashnorm, E by assumption. repeat split; reflexivity.
Qed.
Example c19_noise_example :
  let segs := [[46]; [115]; []; [120]; [46]] in
  join_with SL segs = [46; 47; 115; 47; 47; 120; 47; 46] /\ denoise segs = [[115]; [120]]
  /\ normpath (join_with SL segs) = [115; 47; 120]
  /\ normpath [115; 47; 46; 46; 47; 115; 47; 120] = [115; 47; 120].
Proof. exact noise_example. Qed.

(** Letter case and the two slash characters are insignificant in a query. *)
Theorem c19_lookup_case_slash_insensitive : forall fs q q', nkey q = nkey q' -> spec_lookup fs q = spec_lookup fs q'.
Proof. exact spec_lookup_variant. Qed.

(** A hit is a stored file whose folded name is the folded query; a miss means there is none. *)
Theorem c19_lookup_sound : forall fs q e, spec_lookup fs q = Some e -> In e fs /\ nkey (fst e) = nkey q.
Proof. exact spec_lookup_sound. Qed.
Theorem c19_lookup_complete : forall fs q, spec_lookup fs q = None -> forall e, In e fs -> nkey (fst e) <> nkey q.
Proof.
  unfold spec_lookup. intros fs q H e He Hk. apply in_rev in He.
  pose proof (find_none _ _ H e He) as Hf. cbn in Hf. rewrite Hk, eqb_str_refl in Hf. discriminate.
Qed.

(** Clean stored names and their case/slash variants are left alone by normpath (the premise above is satisfiable). *)
Theorem c19_clean_normpath : forall s, clean s = true -> normpath s = s.
Proof. exact clean_normpath. Qed.

(** Without names differing only in case, the iteration order of the container is irrelevant. *)
Theorem c19_lookup_order_irrelevant : forall fs fs' q,
  Permutation fs fs' -> NoDup (map (fun e => nkey (fst e)) fs) -> spec_lookup fs q = spec_lookup fs' q.
Proof.
  intros fs fs' q HP Hnd. unfold spec_lookup. apply find_perm_unique.
  - rewrite <- !Permutation_rev. exact HP.
  - intros x y Hx Hy Hpx Hpy. apply in_rev in Hx, Hy. apply eqb_str_eq in Hpx, Hpy.
    apply (NoDup_map_inj_in (fun e => nkey (fst e)) fs x y Hnd Hx Hy). congruence.
Qed.

(** With case-duplicates the order decides the winner (carved out above; VPK iterates grouped by extension and
    folder, so its winner can differ from the insertion-ordered backends). *)
Theorem c19_lookup_order_matters_for_case_duplicates : exists fs fs' q,
  Permutation fs fs' /\ clean_fs fs = true /\ spec_lookup fs q <> spec_lookup fs' q.
Proof.
  exists [([97], [1]); ([65], [2])], [([65], [2]); ([97], [1])], [97].
  split; [apply perm_swap|]. split; [reflexivity|]. vm_compute. discriminate.
Qed.

(** The directory backend (exact names) agrees with the others on exact-case names. *)
Theorem c19_raw_agree : forall fs e,
  clean_fs fs = true -> NoDup (map (fun e => nkey (fst e)) fs) -> In e fs ->
  raw_lookup fs (fst e) = Some e /\ spec_lookup fs (fst e) = Some e.
Proof. exact raw_lookup_agree. Qed.

(** The directory backend as translated (the name goes through [ops], then abspath): a query that - slashes converted,
    redundant parts removed - is the exact stored name finds that file in the directory backend and in every folding
    backend of today's form. *)
Theorem c19_raw_agrees_with_folded : forall b ops fs e q,
  backend_keys_norm b = true -> raw_ops_ok ops = true -> clean_fs fs = true ->
  NoDup (map (fun e => nkey (fst e)) fs) -> In e fs -> normpath (slash q) = fst e ->
  raw_lookup_ops ops fs q = Some e /\ lookup b fs q = Some e /\ exists_ b fs q = true /\ open_ b fs q = Some e.
Proof. exact raw_agrees_with_folded. Qed.
(** Its walk lists exactly the stored files below the normalised folder (the empty folder: all), and every listed
    name looks up to that file. *)
Theorem c19_raw_walk_exact : forall ops fs folder e,
  In e (raw_walk ops fs folder) <-> In e fs /\ path_prefix (raw_folder ops folder) (fst e).
Proof. exact raw_walk_exact. Qed.
Theorem c19_raw_walk_root : forall ops fs, raw_ops_ok ops = true -> raw_walk ops fs [] = fs.
Proof.
  intros ops fs Ho. unfold raw_walk, raw_folder. rewrite (raw_ops_sem ops [] Ho). apply filter_all. reflexivity.
Qed.
Theorem c19_raw_walk_lookup_closed : forall ops ops' fs folder e,
  raw_ops_ok ops = true -> clean_fs fs = true -> NoDup (map (fun e => nkey (fst e)) fs) ->
  In e (raw_walk ops' fs folder) -> raw_lookup_ops ops fs (fst e) = Some e.
Proof. exact raw_walk_lookup_closed. Qed.
(** Without the conversion (the pinned tree) a backslashed exact-case name is not found. *)
Example c19_raw_examples :
  let fs := [([115; 47; 120], [1]); ([116], [2])] in
  raw_ops_ok [OSlash] = true
  /\ raw_lookup_ops [OSlash] fs [115; 92; 120] = Some ([115; 47; 120], [1])
  /\ raw_lookup_ops [] fs [115; 92; 120] = None
  /\ raw_lookup_ops [OSlash] fs [46; 92; 115; 47; 47; 120] = Some ([115; 47; 120], [1])
  /\ raw_walk [OSlash] fs [46; 47; 115; 92] = [([115; 47; 120], [1])]
  /\ raw_walk [OSlash] fs [46] = fs.
Proof. exact raw_examples. Qed.

(** ** walk_folder *)

(** For the sound forms, walking a folder lists exactly the files located inside it ... *)
Theorem c19_walk_exact : forall b fs folder e,
  walk_ok b = true -> clean_fs fs = true ->
  (In e (walk b fs folder) <-> In e (entries b fs) /\ path_prefix (folder_key b folder) (nkey (fst e))).
Proof. exact walk_exact. Qed.

(** ... where the entries are exactly the files the specification map holds, ... *)
Theorem c19_entries_spec : forall b fs e,
  store_ops_ok (b_store b) = true -> clean_fs fs = true ->
  (In e (entries b fs) <-> spec_lookup fs (fst e) = Some e).
Proof. exact entries_spec. Qed.

(** ... the empty folder means all files, ... *)
Theorem c19_walk_empty_all : forall b fs, walk_ok b = true -> walk b fs [] = entries b fs.
Proof. exact walk_empty_all. Qed.

(** ... every listed name can be looked up and yields that file, and no name is listed twice. *)
Theorem c19_walk_lookup_closed : forall b fs folder e,
  walk_ok b = true -> key_ops_ok (b_get b) = true -> clean_fs fs = true ->
  In e (walk b fs folder) -> lookup b fs (fst e) = Some e.
Proof. exact walk_lookup_closed. Qed.
Theorem c19_walk_nodup : forall b fs folder,
  walk_ok b = true -> clean_fs fs = true -> NoDup (map (fun e => nkey (fst e)) (walk b fs folder)).
Proof. exact walk_nodup. Qed.

(** The forms of the pinned tree (as translated from it) are refuted: witnesses computed by the kernel.
    The repaired forms are [fixed_virtual] / [fixed_zip] (SM/FsChainWitness.v). *)

(** String prefix without a folder boundary: walk_folder("mat") lists "materials/x". *)
Theorem c19_walk_plain_prefix_refuted :
  forall b, In b [pinned_virtual; pinned_zip; pinned_vpk] ->
  folder_plain_prefix b = true
  /\ In (s_materials_x, []) (walk b [(s_materials_x, [])] s_mat)
  /\ ~ path_prefix s_mat (nkey s_materials_x).
Proof.
  assert (N : ~ path_prefix s_mat (nkey s_materials_x)).
  { intros [H|[r H]]; [discriminate|]. vm_compute in H. discriminate. }
  intros b [<-|[<-|[<-|[]]]]; (split; [reflexivity|]); (split; [vm_compute; left; reflexivity|exact N]).
Qed.

(** VirtualFileSystem: the root folder normalises to "." and nothing but dot-files is listed. *)
Theorem c19_walk_virtual_root_refuted :
  folder_root_is_dot pinned_virtual = true /\ walk pinned_virtual [(s_materials_x, [])] [] = [].
Proof. split; reflexivity. Qed.

(** VPKFileSystem (and VirtualFileSystem) compare case-sensitively: a file in "Mat" is not listed for "mat"
    although the lookup of "mat/x" finds it. *)
Theorem c19_walk_case_sensitive_refuted :
  forall b, In b [pinned_virtual; pinned_vpk] ->
  walk b [(s_Mat_x, [])] s_mat = [] /\ lookup b [(s_Mat_x, [])] (s_mat ++ [47; 120]) = Some (s_Mat_x, []).
Proof. intros b [<-|[<-|[]]]; split; reflexivity. Qed.

(** A loop over the container's own directory index ([VPK.fileinfos(folder=...)], which compares the directory names
    as stored) hides a folder stored with capitals; a loop over the container itself lists case-duplicates that the
    lookup cannot tell apart.  Both shapes are recognised by the translator and rejected by [walk_ok]. *)
Theorem c19_walk_prefilter_case_refuted :
  prefilter_case_sensitive prefilter_vpk = true /\ walk_ok prefilter_vpk = false
  /\ walk prefilter_vpk [(s_Mat_x, [])] s_mat = []
  /\ lookup prefilter_vpk [(s_Mat_x, [])] (s_mat ++ [47; 120]) = Some (s_Mat_x, [])
  /\ walk prefilter_vpk [(s_Mat_x, [])] [] = [(s_Mat_x, [])].
Proof. repeat split; reflexivity. Qed.
Theorem c19_walk_container_duplicates_refuted :
  walk_ok container_vpk = false
  /\ walk container_vpk [(s_Mat_x, [1]); (s_mat ++ [47; 120], [2])] s_mat = [(s_Mat_x, [1]); (s_mat ++ [47; 120], [2])]
  /\ lookup container_vpk [(s_Mat_x, [1]); (s_mat ++ [47; 120], [2])] s_Mat_x = Some (s_mat ++ [47; 120], [2]).
Proof. repeat split; reflexivity. Qed.

(** The repaired forms satisfy the premises (the theorems above are not vacuous). *)
Example c19_premises_satisfiable :
  walk_ok fixed_virtual = true /\ backend_keys_ok fixed_virtual = true
  /\ walk_ok fixed_zip = true /\ backend_keys_ok fixed_zip = true
  /\ clean_fs [(s_materials_x, [1]); (s_Mat_x, [2])] = true
  /\ walk fixed_virtual [(s_materials_x, [1]); (s_Mat_x, [2])] s_mat = [(s_Mat_x, [2])]
  /\ walk fixed_zip [(s_materials_x, [1]); (s_Mat_x, [2])] [] = [(s_materials_x, [1]); (s_Mat_x, [2])].
Proof. repeat split; reflexivity. Qed.

(** ** FileSystemChain *)

(** _get_file returns the file of the first member that has the name. *)
Theorem c19_chain_first_match : forall ms q f,
  chain_get ms q = Some f <->
  exists pre m post, ms = pre ++ m :: post /\ asks q m = Some f /\ Forall (fun m' => asks q m' = None) pre.
Proof. exact chain_first_match. Qed.
Theorem c19_chain_miss : forall ms q, chain_get ms q = None <-> Forall (fun m => asks q m = None) ms.
Proof. exact chain_get_none. Qed.

(** Priority insertion (index 0) shadows every existing member; plain insertion is shadowed by all of them. *)
Theorem c19_chain_priority_first : forall m ms q,
  chain_get (add_sys 0 true m ms) q = match asks q m with Some f => Some f | None => chain_get ms q end.
Proof. reflexivity. Qed.
Theorem c19_chain_append_last : forall i m ms q,
  chain_get (add_sys i false m ms) q = match chain_get ms q with Some f => Some f | None => asks q m end.
Proof.
  intros i m ms q. unfold add_sys, asks. rewrite chain_get_app. cbn [chain_get].
  destruct (chain_get ms q); [reflexivity|]. destruct (m_lookup m _); reflexivity.
Qed.

(** [add_sys] as translated (what each branch does with the new member): today's branches are the ones above; with
    the branches swapped a priority member would be consulted last (witness). *)
Theorem c19_chain_add_sys_today : forall priority m ms,
  add_sys2 (InsertAt 0) Append priority m ms = add_sys 0 priority m ms.
Proof. intros [] m ms; reflexivity. Qed.
(** Today's [add_sys] (priority: insert(0, ...), otherwise append) is [add_sys 0]; with the branches swapped a
    priority member is consulted last. *)
Theorem c19_chain_add_sys_swapped_refuted :
  let m1 := member_of fixed_zip [([120], [1])] [] in
  let m2 := member_of fixed_zip [([120], [2])] [] in
  chain_get (add_sys2 Append (InsertAt 0) true m2 [m1]) [120] = Some ([120], [1])
  /\ chain_get (add_sys2 (InsertAt 0) Append true m2 [m1]) [120] = Some ([120], [2]).
Proof. split; reflexivity. Qed.

(** A subfolder-restricted member is asked for "<prefix>/<name>", an unrestricted one for the name ... *)
Theorem c19_chain_prefix_relative : forall p q,
  clean p = true -> is_prefix [SL] q = false -> full_name p q = slash p ++ SL :: slash q.
Proof. exact chain_prefix_relative. Qed.
Theorem c19_chain_no_prefix : forall q, full_name [] q = slash q.
Proof. exact chain_no_prefix. Qed.
(** ... so it serves [q] exactly when its file set holds "<prefix>/<q>" (up to case and slashes). *)
Theorem c19_chain_member_lookup : forall b fs p q,
  backend_keys_ok b = true -> clean_fs fs = true -> clean p = true -> is_prefix [SL] q = false ->
  normpath (slash p ++ SL :: slash q) = slash p ++ SL :: slash q ->
  chain_get [member_of b fs p] q = spec_lookup fs (p ++ SL :: q).
Proof. exact chain_member_lookup. Qed.

(** The de-duplicated walk lists each name once, only names some member lists, every such name, and keeps the
    entry of the first (highest-priority) member. *)
Theorem c19_chain_walk_dedup : forall rm dops ms folder,
  let key := fun x : str * file => apply_ops dops (fst x) in
  let rep := chain_walk_repeat rm ms folder in
  let res := chain_walk rm dops ms folder in
  NoDup (map key res)
  /\ (forall x, In x res -> In x rep)
  /\ (forall x, In x rep -> exists y, In y res /\ key y = key x)
  /\ (forall l1 x l2, rep = l1 ++ x :: l2 -> (forall y, In y l1 -> key y <> key x) -> In x res).
Proof. exact chain_walk_dedup. Qed.
Theorem c19_chain_walk_dedup_casefold : forall rm ms folder,
  NoDup (map (fun x : str * file => fold (fst x)) (chain_walk rm [OFold] ms folder)).
Proof. intros rm ms folder. apply (chain_walk_dedup rm [OFold] ms folder). Qed.

(** The names a (repaired) chain walk lists are relative to the member's prefix: for a clean stored name lying under
    the prefix up to case and slash kind, dropping the prefix's segments leaves [rest] with
    fold(prefix) "/" fold(rest) = fold(name) ... *)
Theorem c19_chain_walk_relative : forall orig p,
  clean_name orig = true -> clean (slash p) = true ->
  is_prefix (nkey p ++ [SL]) (nkey orig) = true ->
  nkey orig = nkey p ++ SL :: nkey (drop_segs orig p).
Proof. exact drop_segs_relative. Qed.
(** ... so asking the same member for the listed name asks for the key of the stored file. *)
Theorem c19_chain_walk_relative_lookup : forall orig p,
  clean_name orig = true -> clean (slash p) = true -> clean p = true ->
  is_prefix (nkey p ++ [SL]) (nkey orig) = true ->
  is_prefix [SL] (drop_segs orig p) = false ->
  nkey (full_name p (drop_segs orig p)) = nkey orig.
Proof.
  intros orig p Ho Hsp Hp Hpre Hq. rewrite (chain_prefix_relative p _ Hp Hq), (drop_segs_relative orig p Ho Hsp Hpre).
  rewrite nkey_sep, nkey_slash. f_equal. f_equal. apply nkey_slash.
Qed.

(** os.path.relpath compares segments exactly: a member restricted to "Mat" that holds "mat/x" is listed by the
    pinned chain walk as "../mat/x" instead of "x" (dropping the prefix's segments gives "x"). *)
Theorem c19_chain_relpath_case_refuted :
  let m := member_of fixed_zip [([109; 97; 116; 47; 120], [])] [77; 97; 116] in
  map fst (chain_walk_repeat RelPath [m] []) = [[46; 46; 47; 109; 97; 116; 47; 120]]
  /\ map fst (chain_walk_repeat RelDropSegs [m] []) = [[120]].
Proof. split; reflexivity. Qed.

(** A de-duplication that stores into a dict unconditionally lists each name once but with the File of the *last*
    member; the visited-set form lists the File the chain's lookup returns. *)
Theorem c19_chain_walk_overwrite_refuted :
  let m1 := member_of fixed_zip [([120], [1])] [] in
  let m2 := member_of fixed_zip [([120], [2])] [] in
  chain_walk_mode DedupOverwrite RelDropSegs [OFold] [m1; m2] [] = [([120], ([120], [2]))]
  /\ chain_get [m1; m2] [120] = Some ([120], [1])
  /\ chain_walk_mode DedupSkip RelDropSegs [OFold] [m1; m2] [] = [([120], ([120], [1]))].
Proof. repeat split; reflexivity. Qed.

(** ** Composition: the chain's walk and the chain's lookup tell the same story.
    For a chain (any list of members, i.e. any ordering / priority insertion) whose members are sound backends
    ([walk_ok], [backend_keys_ok]) over clean file sets with empty or clean prefixes, and an empty or clean folder:
    every (path, File) listed by the de-duplicated walk is exactly what [chain[path]] returns - the listed name can be
    looked up, and it yields the File of the first member that has the name. *)
Theorem c19_chain_walk_lookup_closed : forall dops ms folder x,
  dedup_ops_ok dops = true -> Forall sound_member ms -> okp folder ->
  In x (chain_walk RelDropSegs dops ms folder) ->
  chain_get ms (fst x) = Some (snd x).
Proof. exact chain_walk_lookup_closed. Qed.
Theorem c19_chain_walk_first_member : forall dops ms folder x,
  dedup_ops_ok dops = true -> Forall sound_member ms -> okp folder ->
  In x (chain_walk RelDropSegs dops ms folder) ->
  exists pre m post, ms = pre ++ m :: post /\ asks (fst x) m = Some (snd x) /\ Forall (fun m' => asks (fst x) m' = None) pre.
Proof.
  intros dops ms folder x Hd Hms Hfo Hin. apply chain_first_match. exact (chain_walk_lookup_closed dops ms folder x Hd Hms Hfo Hin).
Qed.
(** What a restricted member lists for a folder: the surviving files whose folded name is prefix "/" rest with the folder
    a path prefix of rest (prefix and folder each empty or clean, either slash, any case). *)
Theorem c19_walk_member : forall b fs p folder e,
  walk_ok b = true -> clean_fs fs = true -> okp p -> okp folder ->
  (In e (walk b fs (full_name p folder)) <->
   In e (entries b fs) /\ exists R, under p (nkey (fst e)) R /\ path_prefix (nkey folder) R).
Proof. exact walk_member. Qed.
Example c19_compose_premises_satisfiable :
  okp [] /\ okp [109; 97; 116] /\ okp [77; 92; 120] /\ dedup_ops_ok [OFold] = true.
Proof. exact compose_premises_satisfiable. Qed.

(** ... and conversely the walk is complete: whatever the chain serves under a clean name lying inside the folder is
    listed (up to letter case) with the very File the lookup returns; the chain's lookup itself ignores case and
    slash kind of a clean name. *)
Theorem c19_chain_walk_complete : forall dops ms folder q f,
  dedup_ops_ok dops = true -> Forall sound_member ms -> okp folder ->
  clean_name q = true -> path_prefix (nkey folder) (nkey q) ->
  chain_get ms q = Some f ->
  exists x, In x (chain_walk RelDropSegs dops ms folder) /\ nkey (fst x) = nkey q /\ snd x = f.
Proof. exact chain_walk_complete. Qed.
Theorem c19_chain_get_variant : forall ms q q',
  Forall sound_member ms -> clean_name q = true -> clean_name q' = true -> nkey q = nkey q' ->
  chain_get ms q = chain_get ms q'.
Proof. exact chain_get_variant. Qed.

(** ** Every public lookup form; the bytes handed out. *)

(** [name in chain] ([_file_exists]): inherited from [FileSystem] it tries [_get_file]; an override that loops over the
    members, joins the caller's name with each member's own prefix (slashes converted or not, the join skipped for
    an empty prefix or not) and asks the member's own [_file_exists] answers exactly when [chain[name]] finds a file
    - for every chain: any ordering, restricted members that miss before members that hit.  [open_bin(name)],
    [open_str(name)], [chain[name]] and [iter(chain)] are only accepted by the translator as delegations to
    [_get_file] / [walk_folder('')] ([chain_open]). *)
Theorem c19_chain_exists_agrees : forall em ms q,
  exists_mode_ok em = true -> Forall xmember_ok ms ->
  chain_exists em ms q = is_some (chain_get (map x_base ms) q).
Proof. exact chain_exists_agrees. Qed.
(** Members built from backends of today's form satisfy the premise. *)
Theorem c19_chain_exists_agrees_backends : forall em ms q,
  exists_mode_ok em = true ->
  Forall (fun m => exists b fs p, m = xmember_of b fs p /\ backend_keys_norm b = true /\ clean_fs fs = true) ms ->
  chain_exists em ms q = is_some (chain_get (map x_base ms) q)
  /\ is_some (chain_open (map x_base ms) q) = is_some (chain_get (map x_base ms) q).
Proof.
  intros em ms q Hok Hms. split; [|reflexivity]. apply chain_exists_agrees; [exact Hok|].
  eapply Forall_impl; [|exact Hms]. intros m [b [fs [p [-> [Hk Hc]]]]]. apply xmember_of_ok; assumption.
Qed.
(** A loop that re-assigns the name it joins (seeded c19_3) asks the members after a restricted one for the wrong
    name: [chain["x"]] finds the file, ["x" in chain] says no. *)
Theorem c19_chain_exists_carried_name_refuted :
  exists_mode_ok (ExLoop true true [OSlash]) = false
  /\ chain_get (map x_base carry_witness) [120] = Some ([120], [1])
  /\ chain_exists (ExLoop true true [OSlash]) carry_witness [120] = false
  /\ chain_exists (ExLoop false true [OSlash]) carry_witness [120] = true
  /\ chain_exists ExViaGet carry_witness [120] = true
  /\ Forall xmember_ok carry_witness.
Proof.
  split; [vm_compute; reflexivity|]. split; [vm_compute; reflexivity|]. split; [vm_compute; reflexivity|].
  split; [vm_compute; reflexivity|]. split; [vm_compute; reflexivity|].
  unfold carry_witness. apply Forall_cons; [|apply Forall_cons; [|apply Forall_nil]];
    apply xmember_of_ok; vm_compute; reflexivity.
Qed.

(** "Return the same bytes": what the VPK backend's [open_bin]/[open_str] read is an expression over the [FileInfo]
    (translated from the source).  One recognised as whole ([FileInfo.read()], or the preload only under a test that
    there is no rest) yields the stored bytes for every split between preload and rest and for both homes of the rest:
    preload only, directory tail, numbered archive, single-file VPK ... *)
Theorem c19_vpk_content_whole_all_placements : forall c limit in_dir data,
  cexpr_whole false c = true -> ceval c (vf_place limit in_dir data) = data.
Proof. exact ceval_whole_all_placements. Qed.
(** ... so the VPK backend returns, for every query string, the bytes every other backend of today's form returns. *)
Theorem c19_vpk_open_same_bytes : forall c limit in_dir b1 b2 fs q,
  cexpr_whole false c = true -> backend_keys_norm b1 = true -> backend_keys_norm b2 = true -> clean_fs fs = true ->
  open_bytes c limit in_dir b1 fs q = option_map snd (open_ b2 fs q)
  /\ open_bytes c limit in_dir b1 fs q = option_map snd (lookup b2 fs q).
Proof. exact open_bytes_same. Qed.
(** Reading the preload alone whenever the file lives in the directory file (seeded c19_4) drops the directory tail. *)
Theorem c19_vpk_preload_shortcut_refuted :
  let c := CIfDir CPreload CRead in
  cexpr_whole false c = false
  /\ ceval c (vf_place 2 true [1; 2; 3]) = [1; 2]
  /\ ceval c (vf_place 2 false [1; 2; 3]) = [1; 2; 3]
  /\ ceval c (vf_place 3 true [1; 2; 3]) = [1; 2; 3]
  /\ ceval CRead (vf_place 2 true [1; 2; 3]) = [1; 2; 3]
  /\ cexpr_whole false (CIfNoTail CPreload CRead) = true
  /\ open_bytes c 2 true fixed_zip [([120], [1; 2; 3])] [120] = Some [1; 2]
  /\ option_map snd (open_ fixed_zip [([120], [1; 2; 3])] [120]) = Some [1; 2; 3].
Proof. vm_compute. repeat split; reflexivity. Qed.

(** ** The chain sentence of the property as one statement over members of any kind. *)

(** [chain_spec] is written from the property text alone: the members in priority order as (files, subfolder); the
    first one whose files contain subfolder/name - up to letter case, either slash, redundant segments - gives the
    content.  Every public lookup form of a chain is that function: the File of [chain[q]] / [_get_file(q)], what
    [open_bin(q)] / [open_str(q)] resolve, the answer of [q in chain] / [_file_exists(q)] in every sound shape, and the
    bytes read from the handle - for every query string, every ordering of members of whatever backend kind (VPK
    members keeping the bytes in any placement, read through an expression recognised as whole), restricted members
    that miss before members that hit. *)
Theorem c19_chain_every_form_spec : forall em ms q,
  exists_mode_ok em = true -> Forall kmember_ok ms ->
  chain_get (map k_member ms) q = chain_spec (map k_spec ms) q
  /\ chain_open (map k_member ms) q = chain_spec (map k_spec ms) q
  /\ chain_exists em (map k_xmember ms) q = is_some (chain_spec (map k_spec ms) q)
  /\ chain_read ms q = option_map snd (chain_spec (map k_spec ms) q).
Proof. exact chain_every_form_spec. Qed.
(** Hence "all filesystem backends resolve names alike" holds through chains: two chains whose members hold the same
    files under the same subfolders in the same order answer every lookup form alike, whatever kind each member is
    and wherever a VPK member keeps the bytes. *)
Theorem c19_chain_backend_kind_unobservable : forall em1 em2 ms1 ms2 q,
  exists_mode_ok em1 = true -> exists_mode_ok em2 = true ->
  Forall kmember_ok ms1 -> Forall kmember_ok ms2 -> map k_spec ms1 = map k_spec ms2 ->
  chain_get (map k_member ms1) q = chain_get (map k_member ms2) q
  /\ chain_exists em1 (map k_xmember ms1) q = chain_exists em2 (map k_xmember ms2) q
  /\ chain_read ms1 q = chain_read ms2 q.
Proof.
  intros em1 em2 ms1 ms2 q H1 H2 Hm1 Hm2 E.
  destruct (chain_every_form_spec em1 ms1 q H1 Hm1) as [A1 [_ [B1 C1]]].
  destruct (chain_every_form_spec em2 ms2 q H2 Hm2) as [A2 [_ [B2 C2]]].
  rewrite A1, A2, B1, B2, C1, C2, E. repeat split; reflexivity.
Qed.
(** The specification's two laws: the first member that has the name wins; a member that misses changes nothing. *)
Theorem c19_chain_spec_first : forall fs p r q e,
  spec_lookup fs (normpath (slash (pjoin p q))) = Some e -> chain_spec ((fs, p) :: r) q = Some e.
Proof. intros fs p r q e H. cbn [chain_spec]. rewrite H. reflexivity. Qed.
Theorem c19_chain_spec_skip : forall fs p r q,
  spec_lookup fs (normpath (slash (pjoin p q))) = None -> chain_spec ((fs, p) :: r) q = chain_spec r q.
Proof. intros fs p r q H. cbn [chain_spec]. rewrite H. reflexivity. Qed.
(** With the preload shortcut of seeded c19_4 the kind of a member is observable through a chain (the hypotheses of
    the theorem above are satisfiable: both witness chains without the shortcut are [kmember_ok]). *)
Theorem c19_chain_read_preload_shortcut_refuted :
  map k_spec [kw_zip; kw_mem] = map k_spec [kw_zip; kw_vpk (CIfDir CPreload CRead)]
  /\ chain_read [kw_zip; kw_mem] [120] = Some [1; 2; 3]
  /\ chain_read [kw_zip; kw_vpk (CIfDir CPreload CRead)] [120] = Some [1; 2]
  /\ chain_read [kw_zip; kw_vpk CRead] [120] = Some [1; 2; 3]
  /\ Forall kmember_ok [kw_zip; kw_mem] /\ Forall kmember_ok [kw_zip; kw_vpk CRead].
Proof.
  split; [reflexivity|]. split; [vm_compute; reflexivity|]. split; [vm_compute; reflexivity|].
  split; [vm_compute; reflexivity|].
  split; repeat apply Forall_cons; try apply Forall_nil; (split; [vm_compute; reflexivity|split; [vm_compute; reflexivity|cbn; auto]]).
Qed.

(** The walk of such a chain: every entry [walk_folder(folder)] lists (empty or clean folder and subfolders) is the
    specification's answer for the listed name - the name can be looked up in every form and reading it yields the
    listed file's bytes, i.e. those of the first member that has the name ... *)
Theorem c19_chain_walk_every_entry_spec : forall em dops ms folder x,
  exists_mode_ok em = true -> dedup_ops_ok dops = true -> Forall kmember_walk_ok ms -> okp folder ->
  In x (chain_walk RelDropSegs dops (map k_member ms) folder) ->
  chain_spec (map k_spec ms) (fst x) = Some (snd x)
  /\ chain_get (map k_member ms) (fst x) = Some (snd x)
  /\ chain_exists em (map k_xmember ms) (fst x) = true
  /\ chain_read ms (fst x) = Some (snd (snd x)).
Proof.
  intros em dops ms folder x Hem Hd Hms Hfo Hin. destruct (kmembers_sound ms Hms) as [Hs Hk].
  pose proof (chain_walk_lookup_closed dops (map k_member ms) folder x Hd Hs Hfo Hin) as Hget.
  destruct (chain_every_form_spec em ms (fst x) Hem Hk) as [A [_ [B C]]].
  rewrite A in Hget. rewrite B, C, Hget. repeat split; try reflexivity. rewrite <- Hget. exact A.
Qed.
(** ... and whatever the specification serves under a clean name inside the folder is listed (up to letter case) with
    that very file; [iter(chain)] = [walk_folder('')] lists every clean name the chain serves. *)
Theorem c19_chain_walk_lists_spec : forall dops ms folder q f,
  dedup_ops_ok dops = true -> Forall kmember_walk_ok ms -> okp folder ->
  clean_name q = true -> path_prefix (nkey folder) (nkey q) ->
  chain_spec (map k_spec ms) q = Some f ->
  exists x, In x (chain_walk RelDropSegs dops (map k_member ms) folder) /\ nkey (fst x) = nkey q /\ snd x = f.
Proof.
  intros dops ms folder q f Hd Hms Hfo Hq Hin Hspec. destruct (kmembers_sound ms Hms) as [Hs Hk].
  apply (chain_walk_complete dops (map k_member ms) folder q f Hd Hs Hfo Hq Hin).
  rewrite (chain_get_spec ms q Hk). exact Hspec.
Qed.
Theorem c19_chain_iter_lists_spec : forall dops ms q f,
  dedup_ops_ok dops = true -> Forall kmember_walk_ok ms -> clean_name q = true ->
  chain_spec (map k_spec ms) q = Some f ->
  exists x, In x (chain_walk RelDropSegs dops (map k_member ms) []) /\ nkey (fst x) = nkey q /\ snd x = f.
Proof.
  intros dops ms q f Hd Hms Hq Hspec. apply (c19_chain_walk_lists_spec dops ms [] q f Hd Hms); try assumption; left; reflexivity.
Qed.

(** ** The container's reader [FileInfo.read()] as translated from vpk.py. *)

(** A reader recognised as whole ([rexpr_whole]: the preload alone only where there is no rest; otherwise the preload
    followed by exactly the [arch_len] bytes at [offset] of the home the rest lives in - displacements 0 and 0, the
    directory block iff [arch_index is None]) returns the stored bytes for every split between preload and rest, both
    homes, and wherever in its home the rest lies ([before], [after] arbitrary). *)
Theorem c19_vpk_reader_whole_all_placements : forall e before after limit in_dir data,
  rexpr_whole None false e = true -> reval e (rfile_of before after limit in_dir data) = data.
Proof.
  intros e before after limit in_dir data H. rewrite (rexpr_whole_sound e None false _ H); [apply rfile_of_whole|].
  split; discriminate.
Qed.
(** The VPK backend's content expression evaluated over the translated reader: whole over whole hands out the stored
    bytes (so [c19_vpk_open_same_bytes], which takes [file.read()] as "preload ++ rest", applies to today's source). *)
Theorem c19_vpk_open_through_reader : forall rd c before after limit in_dir data,
  rexpr_whole None false rd = true -> cexpr_whole false c = true ->
  ceval_r rd c (rfile_of before after limit in_dir data) = data.
Proof. exact open_through_reader_all_placements. Qed.
(** A reader that slices the directory block one byte short is not recognised, and loses the last byte of a file whose
    rest is kept there - also through a backend that opens with [file.read()]. *)
Theorem c19_vpk_reader_short_refuted :
  rexpr_whole None false reader_today = true /\ rexpr_whole None false reader_short = false
  /\ reval reader_short (rfile_of [9] [8] 1 true [1; 2; 3]) = [1; 2]
  /\ reval reader_today (rfile_of [9] [8] 1 true [1; 2; 3]) = [1; 2; 3]
  /\ ceval_r reader_short CRead (rfile_of [9] [8] 1 true [1; 2; 3]) = [1; 2].
Proof.
  split; [exact reader_today_whole|]. destruct reader_short_refuted as [A [B [C _]]]. destruct open_through_short_reader_refuted as [D _].
  repeat split; assumption.
Qed.

(** ** Chains that also contain the directory backend (exact-case names). *)

(** Members are folding backends of any kind or directory backends ([MRaw ops fs p], [ops] = what reaches
    [_resolve_path]).  On every query that is exact for the directory members - for each of them the name it is asked
    for (subfolder joined with the query, slashes converted, redundant parts removed) is a stored name of it or matches
    none of its names even up to case - the chain's lookup is the specification [chain_spec] ... *)
Theorem c19_chain_with_directory_members_spec : forall ms q,
  Forall (mmember_ok q) ms -> mchain_get ms q = chain_spec (map m_spec ms) q.
Proof.
  intros ms q. induction 1 as [|m r Hm _ IH]; [reflexivity|].
  cbn [map mchain_get chain_spec]. destruct m as [k|ops fs p]; cbn [m_get m_spec mmember_ok] in *.
  - unfold k_spec. rewrite (k_lookup_spec k q Hm). destruct (spec_lookup _ _); [reflexivity|exact IH].
  - destruct Hm as [Ho [Hc [Hnd Hx]]]. rewrite (raw_member_spec ops fs p q Ho Hc Hnd Hx).
    destruct (spec_lookup _ _); [reflexivity|exact IH].
Qed.
(** ... so a directory member and a folding member holding the same files are interchangeable on such queries ... *)
Theorem c19_chain_directory_kind_unobservable : forall ms1 ms2 q,
  Forall (mmember_ok q) ms1 -> Forall (mmember_ok q) ms2 -> map m_spec ms1 = map m_spec ms2 ->
  mchain_get ms1 q = mchain_get ms2 q.
Proof.
  intros ms1 ms2 q H1 H2 E. rewrite (c19_chain_with_directory_members_spec ms1 q H1), (c19_chain_with_directory_members_spec ms2 q H2), E. reflexivity.
Qed.
(** ... and the premise is needed: asked for "a" a directory member holding "A" misses where a folding member hits
    ("for exact-case names" in the property text); asked for "A" both serve the file. *)
Theorem c19_chain_directory_case_refuted :
  map m_spec mixed_raw = map m_spec mixed_fold
  /\ mchain_get mixed_raw [97] = None /\ mchain_get mixed_fold [97] = Some ([65], [1])
  /\ mchain_get mixed_raw [65] = Some ([65], [1]) /\ mchain_get mixed_fold [65] = Some ([65], [1])
  /\ Forall (mmember_ok [65]) mixed_raw.
Proof. exact mchain_case_needs_exact_refuted. Qed.

(** ** The glue around the anchored functions. *)

(** [add_sys] over a whole program.  Whatever the sequence of calls: when the method always inserts ([guard_ok]: no
    return before the insertion) - first for priority, last otherwise ([actions_ok]) - the chain is the priority
    members latest first followed by the others in the order they were added; every member that was added is mounted. *)
Theorem c19_chain_history_order : forall (A : Type) g (same : A -> A -> bool) prio plain (h : list (bool * A)),
  guard_ok g = true -> actions_ok prio plain = true ->
  build_chain g same prio plain h = priority_order h.
Proof. intros A. exact build_chain_priority_order. Qed.
Theorem c19_chain_history_mounts_all : forall (A : Type) g (same : A -> A -> bool) prio plain (h : list (bool * A)) m,
  guard_ok g = true -> actions_ok prio plain = true ->
  In m (map snd h) -> In m (build_chain g same prio plain h).
Proof.
  intros A g same prio plain h m Hg Ha Hin. rewrite (build_chain_priority_order g same prio plain h Hg Ha).
  apply In_priority_order. exact Hin.
Qed.
(** ... hence the chain sentence of the property for the chain a program ends up with: every lookup form is the
    specification applied to the members in priority order (members of any backend kind, any subfolders). *)
Theorem c19_chain_history_spec : forall g same prio plain em (h : list (bool * kmember)) q,
  guard_ok g = true -> actions_ok prio plain = true -> exists_mode_ok em = true ->
  Forall kmember_ok (map snd h) ->
  let ms := build_chain g same prio plain h in
  let sp := map k_spec (priority_order h) in
  chain_get (map k_member ms) q = chain_spec sp q
  /\ chain_open (map k_member ms) q = chain_spec sp q
  /\ chain_exists em (map k_xmember ms) q = is_some (chain_spec sp q)
  /\ chain_read ms q = option_map snd (chain_spec sp q).
Proof.
  intros g same prio plain em h q Hg Ha Hem Hms. cbv zeta. rewrite (build_chain_priority_order g same prio plain h Hg Ha).
  apply chain_every_form_spec; [exact Hem|]. apply Forall_priority_order. exact Hms.
Qed.
(** A guard `if (sys, prefix) in self.systems: return` (seeded c19_5) compares members the way [FileSystem.__eq__] does -
    kind and path label: a second archive mounted under the label of the first is dropped (its name is missing although
    a member that was added has it) and a priority re-add does not promote the member. *)
Theorem c19_chain_add_guard_refuted :
  chain_spec (map d_spec (priority_order hist_twins)) [121] = Some ([121], [2])
  /\ chain_spec (map d_spec (build_chain AddSkipMounted same_label (InsertAt 0) Append hist_twins)) [121] = None
  /\ chain_spec (map d_spec (build_chain AddAlways same_label (InsertAt 0) Append hist_twins)) [121] = Some ([121], [2])
  /\ chain_spec (map d_spec (priority_order hist_promote)) [120] = Some ([120], [2])
  /\ chain_spec (map d_spec (build_chain AddSkipMounted same_label (InsertAt 0) Append hist_promote)) [120] = Some ([120], [1]).
Proof. vm_compute. repeat split. Qed.

(** The names [RawFileSystem.walk_folder] lists, as translated ([raw_rel]): with the relative path of the joined file
    name the listing is [raw_walk] - every listed name is a stored name and [c19_raw_walk_exact] / [..._lookup_closed]
    speak about what is listed. *)
Theorem c19_raw_walk_lists_stored_names : forall r ops fs folder,
  raw_rel_ok r = true ->
  raw_walk_rel r ops fs folder = raw_walk ops fs folder /\ (forall e, In e (raw_walk_rel r ops fs folder) -> In e fs).
Proof.
  intros r ops fs folder H. split; [destruct r; [apply raw_walk_rel_file|discriminate]|].
  intros e. apply raw_walk_rel_lists_stored. exact H.
Qed.
(** Joining the directory's relative path with the file name afterwards (seeded c19_6) lists a root file "x" as "./x":
    not a stored name, and in a chain the de-duplicated walk lists the name twice. *)
Theorem c19_raw_walk_dirjoin_refuted :
  map fst (raw_walk_rel RawRelDirJoin [OSlash] rootfile []) = [[46; 47; 120]]
  /\ map fst (raw_walk_rel RawRelFile [OSlash] rootfile []) = [[120]]
  /\ map fst (chain_walk RelDropSegs [OFold] (chain_dir_mem RawRelDirJoin) []) = [[46; 47; 120]; [120]]
  /\ map fst (chain_walk RelDropSegs [OFold] (chain_dir_mem RawRelFile) []) = [[120]]
  /\ chain_get (chain_dir_mem RawRelDirJoin) [120] = Some ([120], [1]).
Proof. vm_compute. repeat split. Qed.

(** The known finding case-duplicate-winner-vpk-differs cannot be repaired inside VPKFileSystem: "the file stored last
    wins" ([spec_lookup], what the in-memory and zip backends do) is not a function of any container that gives the
    same result for the two insertion orders of "a/x" and "A/x" - and VPK.write_dirfile sorts (the check confirms on
    every run that the two archives are byte-identical). *)
Theorem c19_case_duplicate_winner_needs_order : forall (C : Type) (container : list file -> C) (serve : C -> str -> option file),
  container [dup_a; dup_A] = container [dup_A; dup_a] ->
  ~ (forall fs q, serve (container fs) q = spec_lookup fs q).
Proof. intros C. exact winner_needs_order. Qed.

(** ** The walk of chains that also contain directories. *)

(** What the chain needs from a member, for one folder ([walk_member_ok] = [lists_sound] /\ [lists_complete]): every file
    it lists below "prefix joined with folder" has a clean listed name inside the folder that the member, asked for it,
    answers with that very file; and every clean name inside the folder that the member serves is listed under a name
    with the same folded key.  From that interface alone: every (path, File) of the de-duplicated walk is what the
    chain's lookup returns for the path - the file of the first member that has the name. *)
Theorem c19_chain_walk_from_member_interface : forall dops ms folder x,
  dedup_ops_ok dops = true -> Forall (walk_member_ok folder) ms ->
  In x (chain_walk RelDropSegs dops ms folder) ->
  chain_get ms (fst x) = Some (snd x).
Proof. intros dops ms folder. exact (chain_walk_lookup_closed_at (nkey folder) dops ms folder). Qed.
(** Folding backends with a sound walk form satisfy the interface (empty or clean prefix and folder), and so does the
    directory backend as translated - listed names are the stored names, the folder goes through the translated
    operations - when the folder is exact for it ([folder_exact]: every stored file lying below prefix/folder up to
    letter case lies below it exactly). *)
Theorem c19_members_satisfy_walk_interface : forall m folder,
  okp folder -> gmember_ok folder m -> walk_member_ok folder m.
Proof. intros m folder Hf [H|H]; [apply sound_member_walk_ok|apply raw_member_walk_ok]; assumption. Qed.
(** Hence for chains of in-memory, zip, VPK *and directory* members in any order: the de-duplicated walk lists only
    what the lookup serves under the listed name. *)
Theorem c19_chain_walk_with_directory_members : forall dops ms folder x,
  dedup_ops_ok dops = true -> okp folder -> Forall (gmember_ok folder) ms ->
  In x (chain_walk RelDropSegs dops ms folder) ->
  chain_get ms (fst x) = Some (snd x).
Proof.
  intros dops ms folder x Hd Hfo Hms. apply (chain_walk_lookup_closed_at (nkey folder)); [exact Hd|].
  eapply Forall_impl; [|exact Hms]. intros m. apply c19_members_satisfy_walk_interface. exact Hfo.
Qed.
(** The exactness premise is needed ("for exact-case names"): a directory holding "sub/x" in front of a zip holding
    "sub/x", walked as "Sub": the zip's file is listed, the lookup of the listed name returns the directory's. *)
Theorem c19_chain_walk_directory_folder_case_refuted :
  chain_walk RelDropSegs [OFold] dir_then_zip [83; 117; 98] = [(subx, (subx, [2]))]
  /\ chain_get dir_then_zip subx = Some (subx, [1])
  /\ chain_walk RelDropSegs [OFold] dir_then_zip [115; 117; 98] = [(subx, (subx, [1]))].
Proof. vm_compute. repeat split. Qed.
Example c19_chain_walk_mixed_premises_satisfiable : Forall (gmember_ok [115; 117; 98]) dir_then_zip /\ okp [115; 117; 98].
Proof. exact walk_mixed_premises_satisfiable. Qed.

(** ** Subfolder prefixes and folder arguments in any spelling. *)

(** [spells p p0]: [p] is relative, has no ".." segment, and its segments without the empty and "." ones are those of
    [p0], either slash ("d/", "./d", "d/.", "d\\.\\e//" ...).  Spellings of one path have one normal form, the name a
    member is asked for has the same normal form under either spelling of its prefix, and the chain drops the same
    number of segments from a listed path. *)
Theorem c19_spellings_one_normal_form : forall p p0 q q0,
  spells p p0 -> spells q q0 ->
  normpath (slash p) = normpath (slash p0)
  /\ normpath (slash (full_name p q)) = normpath (slash (full_name p0 q0))
  /\ (forall x, drop_segs x p = drop_segs x p0).
Proof.
  intros p p0 q q0 Hp Hq. split; [apply spells_normpath; exact Hp|]. split; [apply spells_full_name; assumption|].
  intros x. apply spells_drop_segs. exact Hp.
Qed.
(** Hence the composition for members of today's form (queries and the walk's folder go through normpath after the slash
    conversion: [backend_keys_norm], [walk_norm]) mounted under *any spelling* of an empty or clean subfolder and walked
    with any spelling of an empty or clean folder: every (path, File) listed is what the chain's lookup returns. *)
Theorem c19_chain_walk_any_spelling : forall dops ms f f0 x,
  dedup_ops_ok dops = true -> Forall (noisy_member f f0) ms ->
  In x (chain_walk RelDropSegs dops ms f) ->
  chain_get ms (fst x) = Some (snd x).
Proof.
  intros dops ms f f0 x Hd Hms. apply (chain_walk_lookup_closed_spelt dops ms f f0 x Hd).
  eapply Forall_impl; [|exact Hms]. intros m Hm. left. exact Hm.
Qed.
(** ... also with directory members among them (cleanly spelt, exact folder). *)
Theorem c19_chain_walk_any_member : forall dops ms f f0 x,
  dedup_ops_ok dops = true -> Forall (any_member f f0) ms ->
  In x (chain_walk RelDropSegs dops ms f) ->
  chain_get ms (fst x) = Some (snd x).
Proof.
  intros dops ms f f0 x Hd Hms. apply (chain_walk_lookup_closed_spelt dops ms f f0 x Hd).
  eapply Forall_impl; [|exact Hms]. apply any_member_is_spelt.
Qed.
(** ... and with directory members under any spelling too (their exactness is asked of the clean spellings): the
    directory backend resolves names through normpath after the slash conversion as well. *)
Theorem c19_chain_walk_any_member_any_spelling : forall dops ms f f0 x,
  dedup_ops_ok dops = true -> Forall (any_member_spelt f f0) ms ->
  In x (chain_walk RelDropSegs dops ms f) ->
  chain_get ms (fst x) = Some (snd x).
Proof. exact chain_walk_lookup_closed_spelt. Qed.
Example c19_spelling_examples :
  spells [46; 47; 100] [100] /\ spells [100; 47] [100] /\ spells [100; 47; 46] [100]
  /\ spells [100; 92; 46; 92; 101; 47; 47] [100; 47; 101] /\ spells [46] [] /\ spells [46; 47] [] /\ spells [] []
  /\ ~ spells [100; 47; 46; 46] [].
Proof. exact spells_examples. Qed.

(** ** The property as one statement. *)

(** [source_cfg] is everything the translator reads off filesys.py / vpk.py (three backend records, the VPK content
    expressions and reader, the directory backend's operations and listed-name shape, add_sys's guard and branch actions,
    the _file_exists mode, the de-duplication mode / key / relative-name mode); [source_ok] the conjunction of the named
    recognisers.  For every configuration that passes: [backends_agree] (sentence 1: same names, same bytes, case / slash
    kind / redundant segments insignificant, the directory for exact-case names), [walks_exact] (sentence 2: a walk lists
    exactly the files inside the folder, the empty folder all, every listed name looks up to that file) and
    [chains_honour_priority] (sentence 3: after any sequence of add_sys calls every lookup form is the specification over
    the members in priority order; the de-duplicated walk - members under any spelling of their subfolder, directories
    included - lists each name once, with the file the lookup returns).  The check instantiates it at today's generated
    configuration on every run. *)
Theorem c19_property : forall s, source_ok s = true -> property_holds s.
Proof.
  intros s Hs. split; [apply backends_agree_holds; exact Hs|]. split; [apply walks_exact_holds; exact Hs|].
  apply chains_honour_priority_holds. exact Hs.
Qed.
Example c19_property_hypotheses_satisfiable : source_ok witness_cfg = true.
Proof. exact source_ok_satisfiable. Qed.

(** ** Programs, not single calls - what walks and lookups leave behind. *)

(** The theorems above describe one call.  They describe a history of calls if no call stores anything a later call
    reads.  translate/c19_state.py takes a census of every store the walk / lookup methods of filesys.py (and the reading
    side of vpk.py) make into [self], a class, a module-level container or a mutable default, and where the store stands
    relative to the [yield]s (Gen/FsState_gen.v); SM/FsState.v gives it a meaning.  A walk is a generator whose consumer
    takes all items ([None]) or n items and drops it ([Some n]: [break], [any()], [next(iter(fs))], an exception in the
    loop body, [close()]).  For code that stores nothing, and for code that stores a folder's listing only after its
    scan has finished, a complete walk lists the complete listing after any history of walks ... *)
Theorem c19_walk_history_irrelevant : forall (F : Type) (scan : str -> list F) (keyf : str -> str),
  (forall a b, keyf a = keyf b -> scan a = scan b) ->
  forall d h folder, d <> WalkMemoWhileYielding -> walk_after F scan keyf d h folder = scan folder.
Proof. exact walk_history_irrelevant. Qed.
(** ... and every walk of the history hands its consumer a prefix of the complete listing. *)
Theorem c19_walk_history_every_walk_is_a_prefix : forall (F : Type) (scan : str -> list F) (keyf : str -> str),
  (forall a b, keyf a = keyf b -> scan a = scan b) ->
  forall d h folder k, d <> WalkMemoWhileYielding ->
  fst (walk_step F scan keyf d (run_walks F scan keyf d [] h) folder k) = consume F k (scan folder).
Proof. exact walk_history_every_walk_is_a_prefix. Qed.
(** The memo that is registered before the scan and filled while the generator yields (seeded fault c19_7): one walk
    given up after its first item, and the complete walk of that folder lists one file of two. *)
Theorem c19_walk_memo_while_yielding_refuted :
  exists (scan : str -> list N) (h : list (str * option nat)) (folder : str),
    (forall a b : str, a = b -> scan a = scan b)
    /\ walk_after N scan (fun s => s) WalkMemoWhileYielding h folder <> scan folder
    /\ walk_after N scan (fun s => s) WalkMemoWhileYielding h folder = [1%N].
Proof.
  exists (fun _ => [1%N; 2%N]), [([], Some 1%nat)], []. split; [intros; reflexivity|].
  split; [vm_compute; discriminate | vm_compute; reflexivity].
Qed.
(** A store with a [yield] still to come puts the code into the refuted class; no store at all into the stateless one. *)
Theorem c19_census_decides_discipline : forall stores,
  (no_stores stores = true -> discipline_of stores = WalkStateless)
  /\ (existsb is_before_yield stores = true -> discipline_of stores = WalkMemoWhileYielding).
Proof. exact (fun stores => conj (discipline_of_clean stores) (discipline_of_before_yield stores)). Qed.
(** For the backends of the model: with an empty census of the walk methods, after any history the complete walk is
    [walk b fs folder], the listing sentence 2 of the property is proved about. *)
Theorem c19_backend_walk_history : forall c b fs h folder,
  walk_keeps_no_state c = true ->
  walk_after file (walk b fs) (fun s => s) (discipline_of (cs_walk c)) h folder = walk b fs folder.
Proof. intros c b fs h folder. apply walk_history_no_state. Qed.
(** Chains: with an empty census of the lookup methods, after any history of lookups, add_sys calls and direct edits of
    the public list [systems], a lookup is [chain_get] over the members then mounted. *)
Theorem c19_chain_lookup_history : forall c ms h q,
  lookups_keep_no_state c = true ->
  chain_lookup_after (lookup_discipline_of (cs_lookup c)) ms h q = chain_get (members_after ms h) q.
Proof. exact chain_lookup_history. Qed.
(** Lookups that remember the index of the member a name was found in (seeded fault c19_8): the name is in the second
    and third of three members, it is looked up, [systems.pop(0)], it is looked up again - the third member answers. *)
Theorem c19_chain_position_memo_refuted :
  let ms := [empty_member; has_x fileA; has_x fileB] in
  let h := [CLookup [120%N]; CEdit (@tl member)] in
  chain_lookup_after LookupRemembersPosition ms h [120%N] = Some fileB
  /\ chain_get (members_after ms h) [120%N] = Some fileA
  /\ chain_lookup_after LookupStateless ms h [120%N] = Some fileA.
Proof. vm_compute. repeat split. Qed.
(** Through add_sys (which resets the positions) the same removal is answered correctly: the fault needs the edit of
    the public list. *)
Theorem c19_chain_position_memo_add_sys_resets :
  let ms := [empty_member; has_x fileA; has_x fileB] in
  let h := [CLookup [120%N]; CAddSys (@tl member)] in
  chain_lookup_after LookupRemembersPosition ms h [120%N] = chain_get (members_after ms h) [120%N].
Proof. vm_compute. reflexivity. Qed.

(** The property over programs: for every configuration the translators can produce - the code shapes ([source_ok])
    and the census of stores ([state_ok]: every group empty) - the three sentences hold for every single call, and
    histories of walks / lookups / edits do not change what the calls answer. *)
Theorem c19_property_over_histories : forall s c,
  source_ok s = true -> state_ok c = true -> property_holds s /\ histories_irrelevant c.
Proof.
  intros s c Hs Hc. split; [apply c19_property; exact Hs|apply histories_irrelevant_for_clean_census; exact Hc].
Qed.
Example c19_property_over_histories_hypotheses_satisfiable :
  source_ok witness_cfg = true /\ state_ok witness_census = true.
Proof. exact (conj source_ok_satisfiable state_ok_satisfiable). Qed.
