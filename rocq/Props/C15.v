(** C15 — VTF save/read round trip: pixel codecs, mipmap table, bounds checks, mipmap generation, frame life cycle,
    container, particle sheets, pixel access paths.  The statements of the property; the longer proofs are in the
    Fmt/Vtf*Proofs.v file next to each model (Fmt/VtfPixelExpr.v, VtfLayout.v, VtfFrameSM.v, VtfFrameRaise.v,
    VtfContainer.v, VtfSides.v, VtfWholeFile.v, VtfAccess.v, VtfBluescreen.v, VtfFrameCodec.v), the facts about the
    generated objects in Fmt/VtfGenProofs.v and Fmt/VtfAccessGenProofs.v, the whole property in Fmt/VtfC15WholeProofs.v.

    Pixel codecs.  A [codec] is what translate/c15_pixel.py reads out of _py_vtf_readwrite.py for one format
    (Gen/PixelCodecs_gen.v).  The theorems are generic in the codec; for every generated codec the check
    discharges the closed boolean premises [rt_ok codec_F spec_F = true] and [sf_ok codec_F canon_F = true]
    in the kernel (vm_compute).  The conclusions quantify over ALL pixels / ALL stored values whose components
    are bytes: 2^32 pixels, 2^(8*bpp) stored values - by proof (symbolic bit evaluation proved sound), not by
    enumeration. *)
From Coq Require Import ZArith NArith List Bool.
From SV Require Import Fmt.VtfPixelExpr Fmt.VtfPixelExprProofs Fmt.VtfLayout Fmt.VtfLayoutProofs.
From SV Require Import Gen.PixelCodecs_gen Gen.VtfLayout_gen Fmt.VtfGenProofs.
From SV Require Import Fmt.VtfFrameSM Fmt.VtfFrameSMProofs Gen.VtfFrameSM_gen.
From SV Require Import Fmt.VtfFrameRaise Fmt.VtfFrameRaiseProofs.
From SV Require Import Bin.Struct Fmt.VtfContainer Fmt.VtfContainerProofs Gen.VtfContainer_gen.
From SV Require Import Fmt.VtfSides Fmt.VtfSidesProofs.
From SV Require Import Fmt.VtfWholeFile Fmt.VtfWholeFileProofs Fmt.VtfSheetProofs.
From SV Require Import Fmt.VtfAccess Fmt.VtfAccessProofs Gen.VtfAccess_gen Fmt.VtfAccessGenProofs.
From SV Require Import Fmt.VtfBluescreen Fmt.VtfBluescreenProofs.
From SV Require Import Fmt.VtfFrameCodec Fmt.VtfFrameCodecProofs Fmt.VtfPixelsInFileProofs.
Import ListNotations.

(** ** Pixels *)
Open Scope N_scope.

(** Loading what was saved gives exactly the specified quantisation [q] of the input (for the 8-bit formats
    [q] is the identity on the used channels), every stored value is a legal byte, [bpp] bytes per pixel. *)
Theorem c15_load_of_save_is_quantisation : forall c q, rt_ok c q = true ->
  forall p, bytes p ->
    run (load_e c) (run (save_e c) p) = run q p
    /\ bytes (run (save_e c) p) /\ length (run (save_e c) p) = bpp c.
Proof. exact rt_sound. Qed.

(** Storing loaded pixels again changes nothing: save(load d) = canon d on every stored value (canon = identity
    except for the don't-care X bits), and save(load(save p)) = save p for every pixel. *)
Theorem c15_stored_fixpoint : forall c canon, sf_ok c canon = true ->
  (forall d, bytes d -> run (save_e c) (run (load_e c) d) = run canon d /\ bytes (run (load_e c) d))
  /\ (forall p, bytes p -> run (save_e c) (run (load_e c) (run (save_e c) p)) = run (save_e c) p).
Proof. exact sf_sound. Qed.

(** What the specification tuples mean, as functions on numbers. *)
Theorem c15_spec_565 : forall r g b a, run spec_565 [r; g; b; a] = [quant 5 r; quant 6 g; quant 5 b; 255].
Proof. reflexivity. Qed.
Theorem c15_spec_4444 : forall r g b a, run spec_4444 [r; g; b; a] = [quant 4 r; quant 4 g; quant 4 b; quant 4 a].
Proof. reflexivity. Qed.
Theorem c15_spec_5551 : forall r g b a, run spec_5551 [r; g; b; a] = [quant 5 r; quant 5 g; quant 5 b; alpha1 a].
Proof. reflexivity. Qed.
Theorem c15_spec_x5551 : forall r g b a, run spec_x5551 [r; g; b; a] = [quant 5 r; quant 5 g; quant 5 b; 255].
Proof. reflexivity. Qed.
Theorem c15_spec_i8 : forall r g b a, run spec_i8 [r; g; b; a] = [grey r g b; grey r g b; grey r g b; 255].
Proof. reflexivity. Qed.
Theorem c15_spec_ia88 : forall r g b a, run spec_ia88 [r; g; b; a] = [grey r g b; grey r g b; grey r g b; a].
Proof. reflexivity. Qed.
Theorem c15_spec_rgba : forall r g b a, run spec_rgba [r; g; b; a] = [r; g; b; a].
Proof. reflexivity. Qed.
Theorem c15_spec_rgb : forall r g b a, run spec_rgb [r; g; b; a] = [r; g; b; 255].
Proof. reflexivity. Qed.
Theorem c15_spec_a8 : forall r g b a, run spec_a8 [r; g; b; a] = [0; 0; 0; a].
Proof. reflexivity. Qed.
Theorem c15_spec_uv88 : forall r g b a, run spec_uv88 [r; g; b; a] = [r; g; 0; 255].
Proof. reflexivity. Qed.

(** [quant n] ("drop the LSBs, duplicate the MSBs into them") keeps the top n bits, is idempotent and stays a
    byte; the grey value is the floor of the mean and exact on grey input. Domain: all 256 bytes, n in 4,5,6,8. *)
Theorem c15_quant_facts : forall n, In n [4; 5; 6; 8] -> forall x, x < 256 ->
  N.shiftr (quant n x) (8 - n) = N.shiftr x (8 - n) /\ quant n (quant n x) = quant n x /\ quant n x < 256.
Proof.
  intros n Hn. cbn in Hn. destruct Hn as [<-|[<-|[<-|[<-|[]]]]]; apply quant_facts_sym; vm_compute; reflexivity.
Qed.
Theorem c15_grey_is_floor_mean : forall r g b, 3 * grey r g b <= r + g + b < 3 * grey r g b + 3.
Proof. exact grey_is_floor_mean. Qed.
Theorem c15_grey_exact_on_grey : forall v, grey v v v = v.
Proof. exact grey_of_grey. Qed.

(** The premises are satisfiable (non-vacuity): the identity codec. *)
Example c15_rt_ok_inhabited : rt_ok {| bpp := 4; save_e := ident 4; load_e := ident 4 |} spec_rgba = true
                              /\ sf_ok {| bpp := 4; save_e := ident 4; load_e := ident 4 |} (ident 4) = true.
Proof. split; vm_compute; reflexivity. Qed.

(** Known defect of the pinned tree (recorded, not repaired): compress565 and decomp565 use opposite channel
    orders.  Stated about a verbatim copy of the pinned codec, so that it stays true after a repair.
    A round trip through RGB565/BGR565 is the quantisation with R and B exchanged ... *)
Theorem c15_565_pinned_swaps_r_and_b :
  rt_ok pinned_rgb565 spec_565_rb_swapped = true /\ rt_ok pinned_bgr565 spec_565_rb_swapped = true.
Proof. split; vm_compute; reflexivity. Qed.
(** ... hence neither the documented quantisation nor a fixed point of storing again. *)
Theorem c15_565_pinned_refuted :
  exists p, bytes p /\ run (load_e pinned_rgb565) (run (save_e pinned_rgb565) p) <> run spec_565 p
            /\ run (load_e pinned_bgr565) (run (save_e pinned_bgr565) p) <> run spec_565 p
            /\ run (save_e pinned_rgb565) (run (load_e pinned_rgb565) (run (save_e pinned_rgb565) p)) <> run (save_e pinned_rgb565) p.
Proof.
  exists [255; 0; 0; 255]. split.
  - unfold bytes. repeat constructor.
  - repeat split; vm_compute; discriminate.
Qed.

(** ** Mipmap table (all power-of-two sizes 2^a x 2^b, by induction) *)
(** With the loop of [VTF.__init__] as read from the source and [mipmap_count] = number of levels created:
    the table has the levels 0..min(a,b), level i of size 2^(a-i) x 2^(b-i); the declared count equals the number
    of levels; and [save]/[read] walk exactly these levels with exactly these sizes. *)
Theorem c15_mip_table_consistent : forall cfg, mip_loop_ok cfg = true -> mip_count_ok cfg = true ->
  forall a b fuel, (Nat.min a b < fuel)%nat ->
    let '(created, last) := init_loop cfg fuel 0 (2 ^ N.of_nat a) (2 ^ N.of_nat b) in
    created = ideal_levels a b
    /\ declared_count cfg last = N.of_nat (length created)
    /\ read_levels (2 ^ N.of_nat a) (2 ^ N.of_nat b) (length created) = rev created.
Proof. exact mip_table_consistent. Qed.

Theorem c15_mip_levels_halved : forall a b i, (i < Nat.min a b)%nat ->
  2 * 2 ^ N.of_nat (a - S i) = 2 ^ N.of_nat (a - i) /\ 2 * 2 ^ N.of_nat (b - S i) = 2 ^ N.of_nat (b - i).
Proof. exact ideal_levels_halved. Qed.

(** Known defect of the pinned tree (recorded, not repaired): [mipmap_count] is the last index.  What does hold:
    every level below the declared count is written and read back with the right size; exactly the smallest
    level is dropped. *)
Theorem c15_mip_table_pinned : forall cfg, mip_loop_ok cfg = true -> count_delta cfg = 0 ->
  forall a b fuel, (Nat.min a b < fuel)%nat ->
    let '(created, last) := init_loop cfg fuel 0 (2 ^ N.of_nat a) (2 ^ N.of_nat b) in
    created = ideal_levels a b
    /\ declared_count cfg last = N.of_nat (Nat.min a b)
    /\ read_levels (2 ^ N.of_nat a) (2 ^ N.of_nat b) (Nat.min a b) = rev (removelast created).
Proof. exact mip_table_pinned. Qed.
(** 1 x 4: one level is created, zero are declared, nothing is read back. *)
Theorem c15_mip_table_pinned_refuted :
  let '(created, last) := init_loop pinned_mipcfg 8 0 1 4 in
  created = [(0, 1, 4)] /\ declared_count pinned_mipcfg last = 0 /\ read_levels 1 4 0 = [].
Proof. vm_compute. auto. Qed.

(** ** Bounds checks of pixel access *)
Open Scope Z_scope.
Theorem c15_pixel_index_in_bounds : forall ds, bounds_ok ds = true ->
  forall x y w h, rejects ds x y w h = false ->
    0 <= x < w /\ 0 <= y < h /\ 0 <= pixel_off x y w /\ pixel_off x y w + 4 <= 4 * w * h.
Proof. exact accepted_in_bounds. Qed.
(** instantiated with the rejection tests, offset formulas and access widths read from the source *)
Theorem c15_getitem_in_bounds : pixel_offsets_spec -> bounds_ok getitem_reject = true -> Z.leb getitem_span 4 = true ->
  forall x y w h, rejects getitem_reject x y w h = false ->
    0 <= x < w /\ 0 <= y < h /\ 0 <= getitem_off x y w h /\ getitem_off x y w h + getitem_span <= 4 * w * h.
Proof. intros [Hoff _]. exact (item_in_bounds getitem_reject getitem_off getitem_span Hoff). Qed.
Theorem c15_setitem_in_bounds : pixel_offsets_spec -> bounds_ok setitem_reject = true -> Z.leb setitem_span 4 = true ->
  forall x y w h, rejects setitem_reject x y w h = false ->
    0 <= x < w /\ 0 <= y < h /\ 0 <= setitem_off x y w h /\ setitem_off x y w h + setitem_span <= 4 * w * h.
Proof. intros [_ Hoff]. exact (item_in_bounds setitem_reject setitem_off setitem_span Hoff). Qed.
(** The test of the pinned tree ([x > width or y > height]) lets x = width and negative x through. *)
Theorem c15_bounds_pinned_refuted :
  rejects pinned_bounds 2 1 2 2 = false /\ pixel_off 2 1 2 + 4 > 4 * 2 * 2
  /\ rejects pinned_bounds (-1) 0 2 2 = false /\ pixel_off (-1) 0 2 < 0.
Proof. vm_compute. repeat split; congruence. Qed.

(** ** Generated mipmaps: scale_down reads the 2x2 parent block, inside the parent buffer, and the bilinear
    filter writes the floor of its mean (index arithmetic regenerated from the source). *)
Theorem c15_scale_down_block : scale_strides_spec -> forall w h x y, 0 < w -> 0 < h -> 0 <= x < w -> 0 <= y < h ->
    let sw := 2 * w in let sh := 2 * h in
    src_offsets gen_scalecfg sw sh w h x y
    = [texel_off sw (2 * x) (2 * y); texel_off sw (2 * x + 1) (2 * y);
       texel_off sw (2 * x) (2 * y + 1); texel_off sw (2 * x + 1) (2 * y + 1)]
    /\ Forall (fun o => 0 <= o /\ o + 4 <= 4 * sw * sh) (src_offsets gen_scalecfg sw sh w h x y).
Proof. intros [_ [_ gen_scale_spec]]. exact (scale_down_block gen_scalecfg gen_scale_spec). Qed.
Theorem c15_bilinear_is_block_mean : scale_strides_spec -> terms_eqb bilinear_terms block_terms = true -> Z.eqb bilinear_div 4 = true ->
  forall src w h x y ch, 0 < w -> 0 < h -> 0 <= x < w -> 0 <= y < h ->
    let sw := 2 * w in let sh := 2 * h in
    bilinear gen_scalecfg bilinear_terms bilinear_div src sw sh w h x y ch
    = (src (texel_off sw (2 * x) (2 * y) + ch) + src (texel_off sw (2 * x + 1) (2 * y) + ch)
       + src (texel_off sw (2 * x) (2 * y + 1) + ch) + src (texel_off sw (2 * x + 1) (2 * y + 1) + ch)) / 4.
Proof. exact gen_bilinear_is_block_mean. Qed.

(** ** Life cycle of a frame: lazily read frames, cleared frames, compute_mipmaps() and save()
    A [Frame] is a pair (_data, _fileinfo).  The effect of every method of class Frame on the pair is computed from the
    source by translate/c15_frame.py (abstract interpretation of the method bodies) into tables; the check compares
    them with [ideal_load], [ideal_rescale] ... in the kernel.  [chaincfg] is what the translator reads from
    compute_mipmaps(), save() and rescale_from().  [final_chain] is the specification: for every mipmap level of one
    (frame, depth/side): the file's pixels while the level still has its file source, else its data, else (cleared)
    blank for level 0 and the scaled pixels WRITTEN for the level above. *)
Close Scope Z_scope.
Close Scope N_scope.
Theorem c15_save_writes_every_level : forall pix fbytes blank decode encode scale t_load t_rescale cfg,
  efftable_eqb t_load ideal_load = true -> efftable_eqb t_rescale ideal_rescale = true -> chain_ok cfg = true ->
  forall chain,
    save_chain pix fbytes blank decode encode scale t_load t_rescale cfg chain
    = map (fun p => Some (encode p)) (final_chain pix fbytes blank decode scale chain).
Proof. exact chain_written. Qed.

(** A level that still has its file source is written as the (re-encoded) bytes of the file, whatever else is in the
    chain (cleared levels, levels regenerated by compute_mipmaps, loaded levels): frames are only regenerated when cleared. *)
Theorem c15_save_keeps_levels_with_a_file_source : forall pix fbytes blank decode encode scale t_load t_rescale cfg,
  efftable_eqb t_load ideal_load = true -> efftable_eqb t_rescale ideal_rescale = true -> chain_ok cfg = true ->
  forall chain m st b, nth_error chain m = Some st -> f_src st = Some b ->
    nth_error (save_chain pix fbytes blank decode encode scale t_load t_rescale cfg chain) m = Some (Some (encode (decode b))).
Proof. exact chain_keeps_file_levels. Qed.

(** Composed with the codec theorems: if the file source of a level holds bytes that save() wrote in a format whose
    codec passes [sf_ok], a lazy read followed by save() writes exactly these bytes again. *)
Theorem c15_lazy_resave_keeps_bytes : forall c canon, sf_ok c canon = true ->
  forall t_load t_rescale cfg blank scale,
  efftable_eqb t_load ideal_load = true -> efftable_eqb t_rescale ideal_rescale = true -> chain_ok cfg = true ->
  forall chain m st p, nth_error chain m = Some st -> f_src st = Some (enc_frame c p) -> Forall bytes p ->
  nth_error (save_chain frame_pixels frame_pixels blank (dec_frame c) (enc_frame c) scale t_load t_rescale cfg chain) m
  = Some (Some (enc_frame c p)).
Proof.
  intros c canon Hsf t_load t_rescale cfg blank scale Hl Hr Hok chain m st p Hn Hs Hp.
  rewrite (chain_keeps_file_levels _ _ blank (dec_frame c) (enc_frame c) scale t_load t_rescale cfg Hl Hr Hok chain m st _ Hn Hs).
  rewrite (enc_dec_enc c canon Hsf) by exact Hp. reflexivity.
Qed.

(** What the user sees through frame[x, y] / load() / to_PIL() ([view]): reading does not change it; rescale_from()
    does not change it while the frame still has its file source; fill()/copy_from() replace it; __setitem__ edits it. *)
Theorem c15_view_unchanged_by_load : forall pix fbytes blank decode (st : fstate pix fbytes),
  view pix fbytes blank decode (load pix fbytes blank decode st) = view pix fbytes blank decode st.
Proof. intros. destruct st as [[d|] [s|]]; reflexivity. Qed.
Theorem c15_view_rescale_with_source : forall pix fbytes blank decode scaled (st : fstate pix fbytes) b, f_src st = Some b ->
  view pix fbytes blank decode (rescale pix fbytes scaled st) = decode b.
Proof. intros. unfold view, rescale. cbn. rewrite H. reflexivity. Qed.
Theorem c15_view_setitem : forall pix fbytes blank decode modf (st : fstate pix fbytes),
  view pix fbytes blank decode (setitem pix fbytes blank decode modf st) = modf (view pix fbytes blank decode st).
Proof. intros. destruct st as [[d|] [s|]]; reflexivity. Qed.
(** the generated tables, once they pass the comparison, are these operations *)
Theorem c15_frame_method_is_a_modelled_operation : forall pix fbytes t, like_a_modelled_op t = true ->
  forall blank decode newd scaled modf (st : fstate pix fbytes),
    let r := run_table pix fbytes t blank decode newd scaled modf st in
    r = load pix fbytes blank decode st \/ r = clear pix fbytes st \/ r = set_new pix fbytes newd st
    \/ r = rescale pix fbytes scaled st \/ r = setitem pix fbytes blank decode modf st \/ r = detach pix fbytes st.
Proof. exact modelled_op_cases. Qed.
Example c15_chain_ok_inhabited : chain_ok good_cfg = true
  /\ toy_save ideal_rescale good_cfg [lazy 1; lazy 2; cleared] = [Some 1; Some 2; Some 102].
Proof. split; reflexivity. Qed.

(** Defective shapes (toy instance: decode/encode identity, scaling adds 100).
    rescale_from() forgetting the file source: the stored level 1 (value 2) is written as the average of level 0. *)
Theorem c15_rescale_drops_source_refuted :
  efftable_eqb rescale_drops_source ideal_rescale = false
  /\ toy_save rescale_drops_source good_cfg [lazy 1; lazy 2] = [Some 1; Some 101].
Proof. split; reflexivity. Qed.
(** rescale_from() not loading the larger frame (the tree before the repair): the cleared level 2 below a lazily read
    level 1 is made from the average of level 0 parked in level 1 (201), not from the stored level 1 (102). *)
Theorem c15_parent_not_loaded_refuted :
  chain_ok pinned_cfg = false
  /\ toy_save ideal_rescale pinned_cfg [lazy 1; lazy 2; cleared] = [Some 1; Some 2; Some 201].
Proof. split; reflexivity. Qed.

(** ** A call that is REJECTED (raises) and whose exception the caller catches.
    translate/c15_frame.py follows every method of Frame also along the paths that leave it by an exception (explicit raise,
    assert, import, every call that can raise; self.load() contributes the exits of load()) and emits, per abstract pre-state,
    the outcomes reached there ([gen_raise_tables]); [method_raises_cleanly] per method is an instance obligation of every run
    ("every store that changes what the frame shows comes after everything that can raise").
    Then: the frame shows the same pixels as before the call ... *)
Theorem c15_rejected_call_shows_the_same_pixels : forall ts name, method_raises_cleanly ts name = true ->
  forall pix fbytes blank decode newd scaled modf (st : fstate pix fbytes) o,
    In o (find_row (raise_table_of ts name) (present (f_data st)) (present (f_src st))) ->
    view pix fbytes blank decode (apply_outcome pix fbytes o blank decode newd scaled modf st) = view pix fbytes blank decode st.
Proof. exact rejected_call_shows_the_same_pixels. Qed.
(** ... a level that still waits to be read from the file is saved as the (re-encoded) bytes of the file, whatever was
    rejected on it (wrong-length buffer, frame of another size, format without decoder, index out of range) ... *)
Theorem c15_rejected_call_on_lazy_level_then_save : forall pix fbytes blank decode encode scale t_load t_rescale cfg,
  efftable_eqb t_load ideal_load = true -> efftable_eqb t_rescale ideal_rescale = true -> chain_ok cfg = true ->
  forall ts name, method_raises_cleanly ts name = true ->
  forall (chain : list (fstate pix fbytes)) m st b newd scaled modf o,
    nth_error chain m = Some st -> f_src st = Some b ->
    In o (find_row (raise_table_of ts name) (present (f_data st)) true) ->
    nth_error (save_chain pix fbytes blank decode encode scale t_load t_rescale cfg
                 (upd chain m (apply_outcome pix fbytes o (blank m) decode newd scaled modf))) m
    = Some (Some (encode (decode b))).
Proof. exact rejected_call_on_lazy_level_then_save. Qed.
(** ... and for any level in any state, save() writes for the WHOLE chain what it would have written without the call, or
    what it writes after an explicit load() of that level (a cleared level may have been given its blank pixels, as by
    every reading access: it is then no longer regenerated). *)
Theorem c15_rejected_call_then_save : forall pix fbytes blank decode encode scale t_load t_rescale cfg,
  efftable_eqb t_load ideal_load = true -> efftable_eqb t_rescale ideal_rescale = true -> chain_ok cfg = true ->
  forall ts name, method_raises_cleanly ts name = true ->
  forall (chain : list (fstate pix fbytes)) m newd scaled modf o,
    (forall st, nth_error chain m = Some st -> In o (find_row (raise_table_of ts name) (present (f_data st)) (present (f_src st)))) ->
    let after := upd chain m (apply_outcome pix fbytes o (blank m) decode newd scaled modf) in
    save_chain pix fbytes blank decode encode scale t_load t_rescale cfg after
      = save_chain pix fbytes blank decode encode scale t_load t_rescale cfg chain
    \/ save_chain pix fbytes blank decode encode scale t_load t_rescale cfg after
      = save_chain pix fbytes blank decode encode scale t_load t_rescale cfg (upd chain m (load pix fbytes (blank m) decode)).
Proof. exact rejected_call_then_save. Qed.
(** Defective shapes.  copy_from() that forgets the file source in front of its validation (seeded fault c15_8): the
    exit of the size test is not clean, and on the toy chain the stored level 1 (value 2) is written as the average (101). *)
Theorem c15_copy_from_source_dropped_first_refuted :
  raise_table_ok raise_copy_from_source_dropped_first = false
  /\ In (DNoneV, false, SNoneV) (find_row raise_copy_from_source_dropped_first false true)
  /\ toy_after_raise (DNoneV, false, SNoneV) [lazy 1; lazy 2] = [Some 1; Some 101]
  /\ toy_save ideal_rescale good_cfg [lazy 1; lazy 2] = [Some 1; Some 2].
Proof. repeat split; try reflexivity. cbn. auto. Qed.
(** load() that forgets the file source before it reads the stream (the tree before the repair of Frame.load): after a failed
    read the level is written blank (0). *)
Theorem c15_load_source_dropped_first_refuted :
  raise_table_ok raise_load_source_dropped_first = false
  /\ toy_after_raise (DBlank, false, SNoneV) [lazy 1; lazy 2] = [Some 1; Some 0].
Proof. split; reflexivity. Qed.
Example c15_raise_tables_inhabited : method_raises_cleanly raise_example raise_example_name = true.
Proof. exact raise_tables_inhabited. Qed.

(** ** The container: header, resource directory, data blocks, frames (vtf.py: VTF.save / VTF.read) and the
    particle-sheet records.  Every struct.pack / struct.unpack site is regenerated from the source as a [site]
    (format strings and the ORDER of the fields on both sides); the check discharges [site_ok] for each of them. *)
Theorem c15_site_roundtrip : forall s, site_ok s = true ->
  forall vals, fits (fmt_of (w_fmt s)) vals = true ->
  exists bs, pack (fmt_of (w_fmt s)) vals = Some bs
             /\ List.length bs = calcsize (fmt_of (r_fmt s))
             /\ unpack (fmt_of (r_fmt s)) bs = Some vals
             /\ combine (r_fields s) vals = combine (w_fields s) vals
             /\ (r_len s = (-1)%Z \/ r_len s = Z.of_nat (List.length bs)).
Proof. exact site_roundtrip. Qed.
(** Consecutive blocks behind any prefix are found again at the running offsets: resource data, thumbnail, frames. *)
Theorem c15_blocks_at_offsets : forall (blocks : list (list N)) (pre post : list N),
  Forall2 (fun off b => slice (pre ++ List.concat blocks ++ post) off (List.length b) = b)
          (offsets (List.length pre) (map (@List.length N) blocks)) blocks.
Proof. exact blocks_at_offsets. Qed.
(** Frame ordering: reading the frames in the order they were written, with the same sizes, gives every frame its own bytes. *)
Theorem c15_frames_read_back : forall (frames : list (list N)) (pre : list N),
  Forall2 (fun off f => slice (pre ++ List.concat frames) off (List.length f) = f)
          (offsets (List.length pre) (map (@List.length N) frames)) frames.
Proof. exact frames_read_back. Qed.
(** A resource stored out of line: [length][data] at the offset recorded in the directory is read back. *)
Theorem c15_block_read_back : forall F (d pre post blk : list N),
  wf_fmt (f_len F) = true -> fits (f_len F) [VInt (Z.of_nat (List.length d))] = true ->
  block F d = Some blk -> read_block F (pre ++ blk ++ post) (List.length pre) = Some d.
Proof. exact block_read_back. Qed.
(** Texture coordinates of a particle sheet: four 32-bit float patterns in, the same patterns out. *)
Theorem c15_tex_roundtrip : forall S t, wf_fmt (s_tex S) = true -> fits (s_tex S) (map VFloat t) = true ->
  forall pre post, exists bs, pack_tex S t = Some bs /\ read_tex S (pre ++ bs ++ post) (List.length pre) = Some t.
Proof. exact tex_roundtrip. Qed.

(** Resource flags: for the generated flag expressions of the three directory-entry sites of save() and the flag test of
    read(), once they pass [flags_ok] (complete enumeration of the one-byte field): an out-of-line resource is stored with
    bit 0x02 cleared and nothing else changed, an inline one with the bit set; read() fetches the data block for the
    first and takes the value for the second; the stored flags are a fixpoint of saving again. *)
Theorem c15_resource_flags_roundtrip : forall c, flags_ok c = true -> forall f, (0 <= f < 256)%Z ->
  fl_eval (fl_offset c) f = clear2 f /\ fl_eval (fl_inline c) f = set2 f
  /\ ft_eval (fl_test c) (fl_eval (fl_offset c) f) = true /\ ft_eval (fl_test c) (fl_eval (fl_inline c) f) = false
  /\ (0 <= clear2 f < 256)%Z /\ (0 <= set2 f < 256)%Z
  /\ fl_eval (fl_offset c) (clear2 f) = clear2 f /\ fl_eval (fl_inline c) (set2 f) = set2 f.
Proof. exact flags_roundtrip. Qed.
Example c15_flags_ok_inhabited : flags_ok good_flagcfg = true.
Proof. exact flags_ok_inhabited. Qed.
(** the shape of seeded fault c15_4 (`res.flags & 0x02` for out-of-line entries): flags 0x40 are stored as 0, flags 0x42
    as 2, which read() takes for an inline value. *)
Theorem c15_masked_flags_refuted :
  flags_ok masked_flagcfg = false
  /\ fl_eval (fl_offset masked_flagcfg) 64 = 0%Z
  /\ ft_eval (fl_test masked_flagcfg) (fl_eval (fl_offset masked_flagcfg) 66) = false.
Proof. vm_compute. repeat split; reflexivity. Qed.

(** Which sides a file contains.  [sidescfg] is read from VTF._depth_range and its callers: if save() asks for the side
    list of the version it WRITES (and stores a blank frame for a side the object lacks), save() and read() walk the same
    sides for every object version, written version, cubemap or volume. *)
Theorem c15_sides_agree : forall c, sides_ok c = true ->
  forall envmap object written depth, save_sides c envmap object written depth = read_sides c envmap written depth.
Proof. exact sides_agree. Qed.
(** Composition with the loop order and the block layout: every (frame, side, mipmap) that read() visits gets, at the
    offset read() records and with the size read() computes for the level, exactly the bytes save() produced for that
    key - for any object version and written version (save(version=...)), any number of frames, levels, sides, any
    contents, behind any prefix (header, resources, thumbnail). *)
Theorem c15_written_frames_read_back : forall c so ro, sides_ok c = true -> lorder_eqb so ro = true ->
  forall envmap object written depth mips frames (content : key -> list N) (size : nat -> nat) (pre : list N),
    (forall k, List.length (content k) = size (k_mip k)) ->
    Forall (fun ok => slice (pre ++ written_image so mips frames (save_sides c envmap object written depth) content)
                            (fst ok) (size (k_mip (snd ok))) = content (snd ok))
           (read_table ro mips frames (read_sides c envmap written depth) size (List.length pre)).
Proof. exact written_frames_read_back. Qed.
Theorem c15_good_order_covers : forall mips frames sides f s m, (f < frames)%nat -> In s sides -> (m < mips)%nat ->
  In {| k_frame := f; k_side := s; k_mip := m |} (walk good_order mips frames sides key0).
Proof. exact good_order_covers. Qed.
Example c15_sides_ok_inhabited : sides_ok good_sidescfg = true /\ sphere_rule_ok good_sidescfg = true
  /\ save_sides good_sidescfg true 4 5 1 = [0; 1; 2; 3; 4; 5]%nat /\ save_sides good_sidescfg true 5 4 1 = [0; 1; 2; 3; 4; 5; 6]%nat.
Proof. exact sides_ok_inhabited. Qed.
(** the tree before the repair of save() (side list of the object's own version): a 7.4 cubemap with two frames written as
    7.5 - read() is handed the sphere map of frame 0 (toy byte 60) as side 0 of frame 1 *)
Theorem c15_object_version_sides_refuted :
  sides_ok pinned_sidescfg = false
  /\ nth_error (what_read_gets good_order good_order pinned_sidescfg 4 5 2) 6
     = Some ({| k_frame := 1; k_side := 0; k_mip := 0 |}, [60%N]).
Proof. vm_compute. split; reflexivity. Qed.
(** the shape of seeded fault c15_3 (read() walks sides outside, frames inside): side 0 of frame 1 is handed the block of
    side 1 of frame 0 *)
Theorem c15_face_major_read_refuted :
  lorder_eqb good_order [VMipRev; VSide; VFrame] = false
  /\ nth_error (what_read_gets good_order [VMipRev; VSide; VFrame] good_sidescfg 5 5 2) 1
     = Some ({| k_frame := 1; k_side := 0; k_mip := 0 |}, [10%N]).
Proof. vm_compute. split; reflexivity. Qed.

(** ** The whole file *)
(** The container as one statement.  [encode_file] is the file as
    VTF.save lays it out, [decode_file] what VTF.read gets out of it; [F] are the record formats and [G] the flag
    expressions regenerated from the source ([fmts_wf F], [flags_ok G]: instance obligations).  For every file of version
    7.3 or later whose values fit their fields ([vfile_fits]: ids are 3 bytes and not a reserved id, flags a byte, values,
    offsets and lengths 32 bits, the 15 header values fit the header record): the reader gets the version, the header
    values with the real header size, the depth, every resource in order with bit 0x02 of the flags normalised (inline
    values exact, data blocks byte for byte), the particle sheet, and the offsets of the thumbnail and of the first
    frame - and these offsets are exactly where the thumbnail and the frames are. *)
Theorem c15_whole_file_73 : forall F G v low_size file,
  fmts_wf F = true -> flags_ok G = true -> (3 <= v_minor v)%Z -> vfile_fits F G v = true ->
  encode_file F G v = Some file ->
  decode_file F G low_size file
  = Some (v_minor v, set_header_size (v_header v) (hs73 F v), v_depth v, map norm (v_res v), v_sheet v, low_off73 F v, high_off73 F v)
  /\ exists pre, file = pre ++ v_low v ++ List.concat (v_high v) /\ List.length pre = low_off73 F v.
Proof. exact whole_file_73. Qed.
(** Before 7.3: no directory, 15 bytes of padding, the depth only in 7.2 (else it must be 1); read() computes the offsets
    from the header size it reads and the size of the thumbnail. *)
Theorem c15_whole_file_pre73 : forall F G v file,
  fmts_wf F = true -> (v_minor v < 3)%Z -> vfile_fits_old F v = true ->
  encode_file F G v = Some file ->
  decode_file F G (List.length (v_low v)) file
  = Some (v_minor v, set_header_size (v_header v) (hs_old F v), v_depth v, [], None, hs_old F v, (hs_old F v + List.length (v_low v))%nat)
  /\ exists pre, file = pre ++ v_low v ++ List.concat (v_high v) /\ List.length pre = hs_old F v.
Proof. exact whole_file_pre73. Qed.
(** Every fitting file can be written: the premise [encode_file F G v = Some file] above is not a restriction. *)
Theorem c15_encode_total_73 : forall F G v, fmts_wf F = true -> (3 <= v_minor v)%Z -> vfile_fits F G v = true ->
  exists file, encode_file F G v = Some file.
Proof.
  intros F G v HW Hm HF. destruct (encoded_73 F G v HW Hm HF) as (vb & hb & db & cb & eb & bb & _ & _ & _ & _ & _ & _ & E). eauto.
Qed.
Theorem c15_encode_total_pre73 : forall F G v, fmts_wf F = true -> (v_minor v < 3)%Z -> vfile_fits_old F v = true ->
  exists file, encode_file F G v = Some file.
Proof.
  intros F G v HW Hm HF. destruct (encoded_old F G v HW Hm HF) as (vb & hb & db & _ & _ & _ & E). eauto.
Qed.
(** Container, side lists, loop order and block layout composed: a file whose image part is the frames in the order of
    save()'s loop nest over the sides of the version WRITTEN.  read() - walking its own loop nest over the sides of the
    version it finds, from the first-frame offset it decodes - finds for every (frame, side, mipmap) exactly the bytes
    save() produced for that key, the thumbnail at the decoded thumbnail offset, and the metadata as above. *)
Theorem c15_whole_file_with_frames_73 : forall F G v low_size file c so ro,
  fmts_wf F = true -> flags_ok G = true -> (3 <= v_minor v)%Z -> vfile_fits F G v = true ->
  sides_ok c = true -> lorder_eqb so ro = true ->
  forall envmap object depth mips frames (content : key -> list N) (size : nat -> nat),
    (forall k, List.length (content k) = size (k_mip k)) ->
    v_high v = map content (walk so mips frames (save_sides c envmap object (v_minor v) depth) key0) ->
    encode_file F G v = Some file ->
    decode_file F G low_size file
    = Some (v_minor v, set_header_size (v_header v) (hs73 F v), v_depth v, map norm (v_res v), v_sheet v, low_off73 F v, high_off73 F v)
    /\ slice file (low_off73 F v) (List.length (v_low v)) = v_low v
    /\ Forall (fun ok => slice file (fst ok) (size (k_mip (snd ok))) = content (snd ok))
              (read_table ro mips frames (read_sides c envmap (v_minor v) depth) size (high_off73 F v)).
Proof. exact whole_file_with_frames_73. Qed.
Theorem c15_whole_file_with_frames_pre73 : forall F G v file c so ro,
  fmts_wf F = true -> (v_minor v < 3)%Z -> vfile_fits_old F v = true ->
  sides_ok c = true -> lorder_eqb so ro = true ->
  forall envmap object depth mips frames (content : key -> list N) (size : nat -> nat),
    (forall k, List.length (content k) = size (k_mip k)) ->
    v_high v = map content (walk so mips frames (save_sides c envmap object (v_minor v) depth) key0) ->
    encode_file F G v = Some file ->
    decode_file F G (List.length (v_low v)) file
    = Some (v_minor v, set_header_size (v_header v) (hs_old F v), v_depth v, [], None, hs_old F v, (hs_old F v + List.length (v_low v))%nat)
    /\ slice file (hs_old F v) (List.length (v_low v)) = v_low v
    /\ Forall (fun ok => slice file (fst ok) (size (k_mip (snd ok))) = content (snd ok))
              (read_table ro mips frames (read_sides c envmap (v_minor v) depth) size (hs_old F v + List.length (v_low v))%nat).
Proof. exact whole_file_with_frames_pre73. Qed.
(** non-vacuity: the formats of the pinned tree are well formed, the example files (7.4 with an inline resource, a data
    resource, a sheet; 7.2) fit, are encoded (144 / 88 bytes) and decoded as stated *)
Example c15_whole_file_inhabited :
  fmts_wf std_fmts = true /\ vfile_fits std_fmts good_flagcfg (ex_file 4) = true /\ vfile_fits_old std_fmts (ex_file 2) = true
  /\ option_map (@List.length N) (encode_file std_fmts good_flagcfg (ex_file 4)) = Some 144%nat
  /\ option_map (@List.length N) (encode_file std_fmts good_flagcfg (ex_file 2)) = Some 88%nat
  /\ option_map (decode_file std_fmts good_flagcfg 2) (encode_file std_fmts good_flagcfg (ex_file 4))
     = Some (Some (4%Z, set_header_size ex_header 120, 1%Z,
                   [([67; 82; 67]%N, 66%Z, RInline 305419896); ([75; 86; 68]%N, 64%Z, RData [1; 2; 3; 4; 5]%N)],
                   Some [9; 8; 7]%N, 136%nat, 138%nat)).
Proof. exact whole_file_inhabited. Qed.
(** the shape of seeded fault c15_4 on a whole file: the data resource with flags 0x42 comes back as the inline value
    120 - the offset of its data block *)
Theorem c15_whole_file_masked_flags_refuted :
  flags_ok masked_flagcfg = false
  /\ option_map (fun r => match r with Some (_, _, _, res, _, _, _) => res | None => [] end)
       (option_map (decode_file std_fmts masked_flagcfg 2) (encode_file std_fmts masked_flagcfg (ex_file 4)))
     = Some [([67; 82; 67]%N, 66%Z, RInline 305419896); ([75; 86; 68]%N, 2%Z, RInline 120)].
Proof. vm_compute. split; reflexivity. Qed.

(** ** Particle sheets, and where save() records its offsets *)
(** The particle-sheet resource.  [make_sheet] is SheetSequence.make_data,
    [read_sheet] SheetSequence.from_resource, over the four record formats regenerated from the source ([sfmts_wf]:
    instance obligation).  For sheet version 0 or 1, at most 64 sequences with distinct numbers 0..63, every value fitting
    its field ([sheet_fits]: four coordinates per frame for version 1, at least one for version 0, floats as 32-bit
    patterns): reading what was written gives the sequences back - numbers, clamp flags, total times, frame durations
    and texture coordinates, in order; version 0 stores the first coordinate only and the reader repeats it four times. *)
Theorem c15_sheet_roundtrip : forall S, wf_fmt (s_head S) = true -> wf_fmt (s_seq S) = true -> wf_fmt (s_dur S) = true -> wf_fmt (s_tex S) = true ->
  forall ver qs bs, sheet_fits S ver qs = true -> make_sheet S ver qs = Some bs ->
  read_sheet S bs = Some (ver, map (canon_seq ver) qs).
Proof. exact sheet_roundtrip. Qed.
(** ... and inside the whole file: the bytes [decode_file] hands to the sheet reader parse to the sequences *)
Theorem c15_whole_file_sheet_73 : forall F G S v low_size file ver qs sb,
  fmts_wf F = true -> flags_ok G = true -> (3 <= v_minor v)%Z -> vfile_fits F G v = true ->
  sfmts_wf S = true -> sheet_fits S ver qs = true -> make_sheet S ver qs = Some sb -> v_sheet v = Some sb ->
  encode_file F G v = Some file ->
  exists hdr res lo hi, decode_file F G low_size file = Some (v_minor v, hdr, v_depth v, res, Some sb, lo, hi)
                        /\ read_sheet S sb = Some (ver, map (canon_seq ver) qs).
Proof.
  intros F G S v low_size file ver qs sb HW HG Hm HF HS Hfit Hmk Hv Henc.
  destruct (whole_file_73 F G v low_size file HW HG Hm HF Henc) as (Hdec & _).
  unfold sfmts_wf in HS. repeat (apply andb_prop in HS; destruct HS as [HS ?]).
  rewrite Hv in Hdec. do 4 eexists. split; [exact Hdec|].
  apply (sheet_roundtrip S HS H1 H0 H ver qs sb Hfit Hmk).
Qed.
Example c15_sheet_inhabited :
  sfmts_wf std_sfmts = true /\ sheet_fits std_sfmts 1 ex_sheet = true /\ sheet_fits std_sfmts 0 ex_sheet = true
  /\ option_map (read_sheet std_sfmts) (make_sheet std_sfmts 1 ex_sheet) = Some (Some (1%Z, ex_sheet))
  /\ option_map (read_sheet std_sfmts) (make_sheet std_sfmts 0 ex_sheet) = Some (Some (0%Z, map (canon_seq 0) ex_sheet))
  /\ map (canon_seq 0) ex_sheet <> ex_sheet.
Proof. exact sheet_inhabited. Qed.
(** The order of the file-writing events of save() (regenerated as [gen_save_events]; [save_events_ok] is an instance
    obligation): today's order passes; recording the thumbnail offset after the thumbnail was written, or a data-block
    offset after its length, does not. *)
Example c15_save_events_inhabited : save_events_ok good_save_events = true.
Proof. exact save_events_inhabited. Qed.
Theorem c15_late_offsets_refuted : low_high_ok late_low_events = false /\ set_then_block res_key late_block_events = false.
Proof. vm_compute. split; reflexivity. Qed.

(** ** Every pixel access path has the same address map ("every pixel access is bounds-checked")

    A frame's pixels are one flat array; [frame[x, y]], the buffer protocol ([memoryview(frame)], numpy), [to_PIL()],
    [to_tkinter()], the wx converters, the codecs and [scale_down] each have their own idea of rows and columns.
    translate/c15_access.py makes a census of EVERY use of [<frame>._data] in vtf.py (fail-closed) and regenerates, per
    site, what the site uses as number of rows, of columns and of bytes per pixel ([gen_paths]).  [path_ok] - rows = the
    frame's height, columns = its width, 4 bytes - is an instance obligation per site. *)
Open Scope Z_scope.
(** a path that passes accepts exactly [0,width) x [0,height) x [0,4) and addresses byte 4*(y*width + x) + c *)
Theorem c15_path_address_map : forall p, path_ok p = true ->
  forall w h f x y c,
    path_accepts p w h f x y c = inside w h x y c /\ path_off p w h f x y c = canon_off w x y c.
Proof. exact path_address_map. Qed.
(** that byte lies inside the array, and two coordinates of the frame never share a byte *)
Theorem c15_canon_in_buffer : forall w h x y c, inside w h x y c = true -> 0 <= canon_off w x y c < 4 * w * h.
Proof. exact canon_in_buffer. Qed.
Theorem c15_canon_injective : forall w h x y c x' y' c',
  inside w h x y c = true -> inside w h x' y' c' = true ->
  canon_off w x y c = canon_off w x' y' c' -> x = x' /\ y = y' /\ c = c'.
Proof. exact canon_injective. Qed.
(** an item path whose rejection test passes [bounds_exact] accepts EXACTLY the coordinates of the frame
    ([c15_pixel_index_in_bounds] is the "only" half; a test that also rejects coordinates inside the frame fails [bounds_exact]) *)
Theorem c15_item_accepts_exactly : forall ds, bounds_exact ds = true ->
  forall x y w h, rejects ds x y w h = false <-> (0 <= x < w /\ 0 <= y < h).
Proof. exact item_accepts_exactly. Qed.
(** the whole census, instantiated with the generated objects: written through one path and read through any other gives
    the value back at the same coordinate and leaves every other coordinate alone; a coordinate is accepted by one path
    iff it is accepted by every other and by frame[x, y] / frame[x, y] = p; all address the bytes of pixel_off; inside the array *)
Theorem c15_every_pixel_path_agrees :
  pixel_offsets_spec -> forallb path_ok gen_paths = true -> bounds_exact getitem_reject = true -> bounds_exact setitem_reject = true ->
  forall w h,
    (forall p q, In p gen_paths -> In q gen_paths -> forall f g (b : buf) x y c v,
        path_accepts p w h f x y c = path_accepts q w h g x y c
        /\ (path_accepts p w h f x y c = true ->
            bget (bset b (path_off p w h f x y c) v) (path_off q w h g x y c) = v
            /\ forall x' y' c', path_accepts q w h g x' y' c' = true -> (x', y', c') <> (x, y, c) ->
                 bget (bset b (path_off p w h f x y c) v) (path_off q w h g x' y' c') = bget b (path_off q w h g x' y' c')))
    /\ (forall p, In p gen_paths -> forall f x y c, 0 <= c < 4 ->
          (rejects getitem_reject x y w h = false <-> path_accepts p w h f x y c = true)
          /\ (rejects setitem_reject x y w h = false <-> path_accepts p w h f x y c = true)
          /\ path_off p w h f x y c = getitem_off x y w h + c
          /\ path_off p w h f x y c = setitem_off x y w h + c
          /\ (path_accepts p w h f x y c = true -> 0 <= path_off p w h f x y c < 4 * w * h)).
Proof. exact gen_every_pixel_path_agrees. Qed.
(** the shape of seeded fault c15_6 (rows and columns exchanged) on an 8x2 frame: the far corner is refused, a row below
    the frame is accepted, an accepted coordinate addresses another pixel *)
Theorem c15_transposed_path_refuted :
  path_ok transposed_path = false
  /\ inside 8 2 7 1 3 = true /\ path_accepts transposed_path 8 2 0 7 1 3 = false
  /\ inside 8 2 0 2 0 = false /\ path_accepts transposed_path 8 2 0 0 2 0 = true
  /\ path_accepts transposed_path 8 2 0 1 1 0 = true /\ path_off transposed_path 8 2 0 1 1 0 = canon_off 8 3 0 0
  /\ canon_off 8 1 1 0 <> canon_off 8 3 0 0.
Proof. vm_compute. repeat split; congruence. Qed.
Example c15_path_ok_inhabited : path_ok good_path = true.
Proof. exact good_path_ok. Qed.
Theorem c15_rejecting_inside_refuted :
  bounds_exact [(BX, CLt, BZero); (BX, CGe, BWidth); (BY, CLt, BZero); (BY, CGe, BHeight); (BX, CGe, BHeight)] = false
  /\ rejects [(BX, CLt, BZero); (BX, CGe, BWidth); (BY, CLt, BZero); (BY, CGe, BHeight); (BX, CGe, BHeight)] 7 1 8 2 = true.
Proof. vm_compute. split; reflexivity. Qed.
(** every allocation of a pixel array ([_BLANK_PIXEL * n], [colour * n]) makes 4 * width * height bytes *)
Theorem c15_every_allocation_has_4wh_bytes :
  forallb (fun a => alloc_ok 4 (snd a)) gen_allocs = true ->
  forall a, In a gen_allocs -> forall w h f, prod_val (snd a) w h f = 4 * w * h.
Proof. intros H a Ia w h f. rewrite forallb_forall in H. exact (alloc_size 4 (snd a) (H a Ia) w h f). Qed.
Theorem c15_alloc_foreign_refuted : alloc_ok 1 [DW; DW] = false /\ prod_val [DW; DW] 8 2 0 <> 1 * 8 * 2.
Proof. vm_compute. split; congruence. Qed.
(** a whole pixel array is copied from another frame exactly when both have the same width and the same height *)
Theorem c15_every_frame_copy_is_between_equal_sizes :
  forallb (fun g => copy_guard_ok (snd g)) gen_copy_guards = true ->
  forall g, In g gen_copy_guards -> forall w h w' h', guard_rejects (snd g) w h w' h' = false <-> (w = w' /\ h = h').
Proof. intros H g Ig w h w' h'. rewrite forallb_forall in H. exact (copy_guard_exact (snd g) (H g Ig) w h w' h'). Qed.
Theorem c15_copy_guard_width_only_refuted :
  copy_guard_ok [(GSelfW, GSrcW)] = false /\ guard_rejects [(GSelfW, GSrcW)] 8 2 8 4 = false.
Proof. vm_compute. split; reflexivity. Qed.

(** ** The two keyed ("bluescreen") formats

    [save] stores a pixel whose alpha is below 128 as pure blue and any other pixel as its colour; [load] turns a stored
    pure blue into transparent black and anything else into the colour with alpha 255.  The per-pixel [if] statements are
    translated into [ETest] chains ([x < 128] = bit 7 clear, [x == c] = all eight bits agree: valid for bytes) and compared
    with the hand-written codec by [bs_ok] (instance obligation per format; [bgr] = stored as b, g, r). *)
Open Scope N_scope.
Theorem c15_bluescreen_load_of_save : forall bgr c, bs_ok bgr c = true ->
  forall r g b a, r < 256 -> g < 256 -> b < 256 -> a < 256 ->
    run (load_e c) (run (save_e c) [r; g; b; a]) = bluescreen_q r g b a
    /\ run (save_e c) [r; g; b; a] = in_order bgr (bluescreen_stored r g b a)
    /\ bytes (run (save_e c) [r; g; b; a]) /\ length (run (save_e c) [r; g; b; a]) = bpp c.
Proof. exact bs_load_of_save. Qed.
(** 8 bits per used channel: an opaque pixel (alpha >= 128) that is not the key colour keeps r, g, b exactly *)
Theorem c15_bluescreen_exact_on_opaque_non_blue : forall bgr c, bs_ok bgr c = true ->
  forall r g b a, r < 256 -> g < 256 -> b < 256 -> a < 256 -> 128 <= a -> (r, g, b) <> (0, 0, 255) ->
    run (load_e c) (run (save_e c) [r; g; b; a]) = [r; g; b; 255].
Proof.
  intros bgr c H r g b a Hr Hg Hb Ha Ho Hn. destruct (bs_load_of_save bgr c H r g b a Hr Hg Hb Ha) as [E _]. rewrite E.
  unfold bluescreen_q. assert (Ea : a <? 128 = false) by (apply N.ltb_ge; exact Ho). rewrite Ea.
  destruct (N.eqb_spec r 0), (N.eqb_spec g 0), (N.eqb_spec b 255); cbn; try reflexivity. subst. now elim Hn.
Qed.
(** storing loaded pixels again changes nothing, for every three stored bytes; and a second round trip changes nothing *)
Theorem c15_bluescreen_stored_fixpoint : forall bgr c, bs_ok bgr c = true ->
  forall r g b, r < 256 -> g < 256 -> b < 256 ->
    run (save_e c) (run (load_e c) (in_order bgr [r; g; b])) = in_order bgr [r; g; b].
Proof. exact bs_stored_fixpoint. Qed.
Theorem c15_bluescreen_second_round_trip : forall bgr c, bs_ok bgr c = true ->
  forall r g b a, r < 256 -> g < 256 -> b < 256 -> a < 256 ->
    run (save_e c) (run (load_e c) (run (save_e c) [r; g; b; a])) = run (save_e c) [r; g; b; a].
Proof.
  intros bgr c H r g b a Hr Hg Hb Ha. destruct (bs_load_of_save bgr c H r g b a Hr Hg Hb Ha) as [_ [E _]]. rewrite E.
  unfold bluescreen_stored. destruct (a <? 128).
  - apply (bs_stored_fixpoint bgr c H 0 0 255); reflexivity.
  - apply (bs_stored_fixpoint bgr c H r g b Hr Hg Hb).
Qed.
Example c15_bluescreen_inhabited : bs_ok false (bs_codec false) = true /\ bs_ok true (bs_codec true) = true /\ wf (bs_codec false) = true /\ wf (bs_codec true) = true.
Proof. exact bs_ok_inhabited. Qed.
(** the nearby wrong shape (alpha tested on bit 6) is not accepted and stores other bytes; and the documented behaviour is
    NOT the identity on an opaque pure-blue pixel: it comes back transparent black (the format cannot store it) *)
Theorem c15_bluescreen_wrong_bit_refuted :
  bs_ok false {| bpp := 3; save_e := bs_save_bit6; load_e := bs_load false |} = false
  /\ run bs_save_bit6 [1; 2; 3; 64] = [1; 2; 3] /\ bluescreen_stored 1 2 3 64 = [0; 0; 255]
  /\ run bs_save_bit6 [1; 2; 3; 128] = [0; 0; 255]
  /\ bluescreen_q 0 0 255 255 = [0; 0; 0; 0].
Proof. vm_compute. repeat split; reflexivity. Qed.

(** ** From one pixel to every frame of a file

    [encode_frame] / [decode_frame]: a frame is stored as the concatenation of its pixels' stored bytes (the only loop shape
    the codec translator accepts).  The per-pixel laws lifted to frames of any size, then composed with the container: *)
Theorem c15_frame_load_of_save : forall c q, rt_ok c q = true -> (0 < bpp c)%nat ->
  forall ps, Forall bytes ps ->
    decode_frame c (encode_frame c ps) = map (run q) ps
    /\ bytes (encode_frame c ps) /\ length (encode_frame c ps) = (bpp c * length ps)%nat.
Proof. exact frame_load_of_save. Qed.
Theorem c15_frame_stored_fixpoint : forall c q canon, rt_ok c q = true -> sf_ok c canon = true -> (0 < bpp c)%nat ->
  forall ps, Forall bytes ps ->
    encode_frame c (decode_frame c (encode_frame c ps)) = encode_frame c ps.
Proof.
  intros c q canon H Hs Hb ps Hps. rewrite (decode_encode_raw c q H Hb ps Hps). unfold encode_frame.
  rewrite !flat_map_concat_map, map_map. f_equal.
  apply map_ext_in. intros p Hp. rewrite Forall_forall in Hps. destruct (sf_sound c canon Hs) as [_ F]. exact (F p (Hps p Hp)).
Qed.
(** 8 bits per used channel (identity specification): the whole frame comes back unchanged *)
Theorem c15_frame_exact : forall c, rt_ok c spec_rgba = true -> (0 < bpp c)%nat ->
  forall ps, Forall bytes ps -> Forall (fun p => length p = 4%nat) ps -> decode_frame c (encode_frame c ps) = ps.
Proof.
  intros c H Hb ps Hps H4. destruct (frame_load_of_save c spec_rgba H Hb ps Hps) as [E _]. rewrite E.
  rewrite <- (map_id ps) at 2. apply map_ext_in. intros p Hp. rewrite Forall_forall in H4. specialize (H4 p Hp).
  destruct p as [|r [|g [|b [|a [|]]]]]; try discriminate. reflexivity.
Qed.
(** THE PIXEL HALF OF THE PROPERTY IN ONE STATEMENT.  Formats F, flag expressions G, side lists c, loop nests so/ro and the
    codec cd are the objects regenerated from the source; their boolean premises are instance obligations of every run.
    For any object version, written version, cubemap or volume, number of frames and levels, and any pixels: the file
    save() writes is decoded by read(), and for EVERY (frame, side/depth, mipmap) that read() visits, decoding the bytes it
    finds at the offset it computes gives, pixel by pixel, the documented quantisation [q] of the pixels that were saved
    (the identity on the used channels for the 8-bit formats: c15_spec_rgba ...). *)
Theorem c15_saved_pixels_read_back_73 : forall F G v low_size file c so ro cd q,
  fmts_wf F = true -> flags_ok G = true -> (3 <= v_minor v)%Z -> vfile_fits F G v = true ->
  sides_ok c = true -> lorder_eqb so ro = true ->
  rt_ok cd q = true -> (0 < bpp cd)%nat ->
  forall envmap object depth mips frames (pixels : key -> list (list N)) (npix : nat -> nat),
    (forall k, Forall bytes (pixels k)) -> (forall k, List.length (pixels k) = npix (k_mip k)) ->
    v_high v = map (fun k => encode_frame cd (pixels k)) (walk so mips frames (save_sides c envmap object (v_minor v) depth) key0) ->
    encode_file F G v = Some file ->
    (exists meta, decode_file F G low_size file = Some meta)
    /\ Forall (fun ok => decode_frame cd (slice file (fst ok) (bpp cd * npix (k_mip (snd ok)))) = map (run q) (pixels (snd ok)))
              (read_table ro mips frames (read_sides c envmap (v_minor v) depth) (fun m => (bpp cd * npix m)%nat) (high_off73 F v)).
Proof. intros. edestruct pixels_in_file_73 as (D & _ & T); eauto. Qed.
Theorem c15_saved_pixels_read_back_pre73 : forall F G v file c so ro cd q,
  fmts_wf F = true -> (v_minor v < 3)%Z -> vfile_fits_old F v = true ->
  sides_ok c = true -> lorder_eqb so ro = true ->
  rt_ok cd q = true -> (0 < bpp cd)%nat ->
  forall envmap object depth mips frames (pixels : key -> list (list N)) (npix : nat -> nat),
    (forall k, Forall bytes (pixels k)) -> (forall k, List.length (pixels k) = npix (k_mip k)) ->
    v_high v = map (fun k => encode_frame cd (pixels k)) (walk so mips frames (save_sides c envmap object (v_minor v) depth) key0) ->
    encode_file F G v = Some file ->
    (exists meta, decode_file F G (List.length (v_low v)) file = Some meta)
    /\ Forall (fun ok => decode_frame cd (slice file (fst ok) (bpp cd * npix (k_mip (snd ok)))) = map (run q) (pixels (snd ok)))
              (read_table ro mips frames (read_sides c envmap (v_minor v) depth) (fun m => (bpp cd * npix m)%nat)
                          (hs_old F v + List.length (v_low v))%nat).
Proof. intros. edestruct pixels_in_file_pre73 as (D & _ & T); eauto. Qed.
(** non-vacuity of the frame level: the identity codec on a frame of two pixels *)
Example c15_frame_inhabited :
  let c := {| bpp := 4; save_e := ident 4; load_e := ident 4 |} in
  rt_ok c spec_rgba = true /\ decode_frame c (encode_frame c [[1; 2; 3; 4]; [5; 6; 7; 8]]) = [[1; 2; 3; 4]; [5; 6; 7; 8]].
Proof. exact frame_inhabited. Qed.

(** ** The frame table.  Every site of vtf.py that addresses [_frames] with a key (VTF.__init__, read, save,
    compute_mipmaps, get) is regenerated with the ROLE of each key element ([gen_key_sites]; roles from the loop that binds the
    name / the parameter it comes from); [key_ok] per site is an instance obligation. *)
Open Scope Z_scope.
Theorem c15_every_frame_key_agrees :
  forallb (fun k => key_ok (snd k)) gen_key_sites = true ->
  forall p q, In p gen_key_sites -> In q gen_key_sites ->
  forall f s m o o', key_of (snd p) f s m o = [f; s; m] /\ key_of (snd q) f s m o' = key_of (snd p) f s m o.
Proof.
  intros H p q Ip Iq f s m o o'. rewrite forallb_forall in H. exact (key_sites_agree (snd p) (snd q) (H p Ip) (H q Iq) f s m o o').
Qed.
Theorem c15_swapped_key_refuted : key_ok [KMip; KSide; KFrame] = false /\ key_of [KMip; KSide; KFrame] 0 0 1 0 = [1; 0; 0].
Proof. vm_compute. split; reflexivity. Qed.

(** VTF.clear_mipmaps(after=a): the comparison of its loop is regenerated ([gen_clear_after]); exactly the levels with index
    > a are erased (and regenerated from their parents by the chain theorem c15_save_writes_every_level), level a is kept *)
Theorem c15_clear_after_exact : forall c, clear_after_ok c = true -> forall after m, clears c after m = true <-> after < m.
Proof.
  intros c H after m. unfold clear_after_ok in H. apply cmp_eqb_eq in H. subst c. unfold clears. cbn. rewrite Z.ltb_lt. tauto.
Qed.
Theorem c15_clear_after_ge_refuted : clear_after_ok CGe = false /\ clears CGe 0 0 = true.
Proof. vm_compute. split; reflexivity. Qed.

(** ** THE WHOLE PROPERTY IN ONE STATEMENT over the objects regenerated from the source on this run.
    [c15_generated_objects_ok cd q canon] (Fmt/VtfC15WholeProofs.v) is the conjunction of the boolean premises of the part
    theorems, instantiated with the generated record formats and flag expressions, side lists, loop nests, effect tables and
    exits by exception of the Frame methods, chain configuration, pixel paths, bounds tests and filter terms, and one generated
    codec [cd] with its specification [q] ([pixel_offsets_spec] and [scale_strides_spec] are the two facts about generated
    FORMULAS, universally quantified and therefore not booleans: the check discharges them by compiling their ring / lia proofs,
    obligations build:Fmt/VtfGenPixelOffsetIs4TimesYWidthPlusX.vo and build:Fmt/VtfGenScaleDownStridesSelectThe2x2ParentBlock.vo;
    the specification is the identity on the used channels for the formats with 8 bits per channel:
    c15_spec_rgba ...; the documented quantisation otherwise: c15_spec_565 ...) and canonical form [canon].  The check
    discharges it in the kernel for every writable format it has a specification for (instance obligations
    [all_premises_of_c15_property_hold_for_the_generated_objects_and_codec_<format>]; the two 565 formats are carved out by
    the known finding rgb565-rb-swap, the two bluescreen formats have their own theorems above).  Then, for files written by
    the model of save() with these objects: metadata, resources, sheet and thumbnail come back exactly and every frame's
    pixels are the specified quantisation (7.3+ and before); storing loaded pixels again changes nothing; save() writes for
    every mipmap level the file's bytes / the data / the average of the level above, and a rejected call in between changes
    this no more than load() does and leaves what the frame shows untouched; every pixel access path accepts exactly the
    coordinates of the frame and stays inside the array; generated mipmaps have halved sides and are block means.
    Semantic hypotheses that remain (visible inside the definitions): [vfile_fits] / [vfile_fits_old] (values fit their
    fields), the image part is the frames in save()'s loop order, pixels are bytes.  Trusted outside the statement: that
    [encode_file]/[decode_file] model VTF.save/VTF.read (tie: sites, flag trees, side lists, loop nests, event order,
    example files, two-way correspondence) and the classification done by the translators. *)
From SV Require Import Fmt.VtfC15WholeProofs.
Theorem c15_property : pixel_offsets_spec -> scale_strides_spec -> forall cd q canon, c15_generated_objects_ok cd q canon = true ->
  file_round_trip_73 cd q /\ file_round_trip_pre73 cd q /\ stored_again_unchanged cd
  /\ lifecycle_statement /\ access_statement /\ mipmap_statement.
Proof. exact whole_property. Qed.
