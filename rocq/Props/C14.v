(** C14 — DMX export/parse preserves the element graph (binary form, type codes, KeyValues1 bridge).
    The theorems of the property; the longer proofs are in the Fmt/Dmx*Proofs.v files and are cited here.
    Every theorem is generic in the configuration that translate/c14_dmx.py regenerates from dmx.py
    (Gen/DmxCodes_gen.v: [gen_cfg], [gen_kv1]); the check discharges the boolean premises for the generated
    instance on every run. *)
From Coq Require Import NArith ZArith QArith Qabs List Bool.
From SV Require Import Bin.Struct Fmt.DmxCodes Fmt.DmxCodesProofs Fmt.DmxBin Fmt.DmxBinProofs Fmt.DmxKv1 Fmt.DmxKv1Proofs
  Fmt.DmxScalar Fmt.DmxScalarProofs Fmt.DmxTyped Fmt.DmxTypedProofs Text.Str Text.Escape Text.Tokenizer Text.TokGen Fmt.DmxKv2 Fmt.DmxKv2Proofs Fmt.DmxKv2Nested Fmt.DmxKv2NestedProofs Fmt.DmxKv2Inst Num.Dec6 Fmt.DmxValText Fmt.DmxValTextProofs Fmt.DmxHeader Fmt.DmxHeaderProofs Fmt.DmxMembers Fmt.DmxMembersProofs Fmt.DmxMembersParse Fmt.DmxMembersParseProofs Fmt.DmxMembersKv2 Fmt.DmxMembersKv2Proofs Fmt.DmxKv1Sel Fmt.DmxKv1SelProofs Fmt.DmxKv2Graph Fmt.DmxKv2GraphProofs Fmt.DmxKv2GraphUnique Fmt.DmxKv2GraphFuel Fmt.DmxKv2GraphCull Fmt.DmxKv2GraphLink Fmt.DmxKv2GraphWhole Fmt.DmxPropertyBin Fmt.DmxPropertyKv2 Fmt.DmxKv2GraphIso Fmt.DmxKv2GraphCullIds Gen.DmxCodes_gen.
Import ListNotations.

(** The premises of the theorems below, for the configuration generated from today's source.  The check proves
    [c14_instance_premises = true] part by part (named instance obligations) on every run. *)
Definition c14_instance_premises : bool :=
  bin_cfg_ok gen_cfg && kv1_cfg_ok gen_kv1 && scalar_cfg_ok gen_scalar && sizes_match_formats gen_scalar gen_cfg &&
  rtable_ok gen_ref_scalar && rtable_ok gen_ref_array &&
  kv2_tables_ok gen_tables && kv2_opts_ok gen_kv2_opts && vtnames_ok gen_tables gen_fold gen_vtnames &&
  float_text_cfg_ok gen_float_fmt && vec_text_components_ok gen_vec_text_written gen_vec_text_read &&
  color_text_ok gen_color_text_written gen_color_text_read &&
  hdr_bin_ok gen_hdr && hdr_kv2_ok gen_hdr && hdr_modes_ok gen_hdr && cnt_cfg_ok gen_cnt &&
  kv1_sel_ok gen_kv1_reserved_sel gen_kv1_dup_sel && root_rule_ok gen_rootcfg && gen_kv2_name_line_always && id_written_ok gen_kv2_id_written.

(** The boolean hypotheses of [c14_property_binary] and [c14_property_kv2] for the objects generated from today's
    source; the check proves both [= true] on every run (instance obligations [property_binary_premises_hold_today],
    [property_kv2_premises_hold_today]). *)
Definition c14_property_binary_premises : bool :=
  bin_cfg_ok gen_cfg && scalar_cfg_ok gen_scalar && sizes_match_formats gen_scalar gen_cfg && cnt_cfg_ok gen_cnt.
Definition c14_property_kv2_premises : bool :=
  kv2_tables_ok gen_tables && kv2_opts_ok gen_kv2_opts && vtnames_ok gen_tables gen_fold gen_vtnames && root_rule_ok gen_rootcfg.

(** The attribute type byte: encode then decode gives back the value type and the scalar/array flag, for all 14
    types and both shapes. *)
Theorem type_code_roundtrip : forall cfg, codes_ok cfg = true ->
  forall t arr, exists b, encode_code cfg t arr = Some b /\ (b < 256)%N /\ decode_code cfg b = Some (t, arr).
Proof. exact type_code_roundtrip_gen. Qed.

(** With the pinned tree's decode test ([>= ARRAY_OFFSET]) a scalar MATRIX (code 14) does not decode. *)
Theorem type_code_roundtrip_refuted_on_pinned_tree :
  encode_code pinned_cfg TMatrix false = Some 14%N /\ decode_code pinned_cfg 14%N = None.
Proof. vm_compute. split; reflexivity. Qed.

Theorem pinned_tree_fails_named_conditions :
  scalar_codes_not_split pinned_cfg = false /\ encodings_ok pinned_cfg = false /\ stub_ok pinned_cfg = false.
Proof. vm_compute. repeat split. Qed.

(** Binary format, every encoding version (0-5: string table absent / 16-bit / 32-bit counts and indexes, element
    names and scalar strings inline or in the table): parsing the exported body of any expressible document gives
    back the document — element types, names, UUIDs, attribute names and order, value types, scalar/array shape,
    values (bit patterns), references by index (sharing, cycles), NULL and stub references with their UUID text.
    [cenc]/[cdec] are the text codecs; [expressible] asks, per string, that the codec round-trips it without a NUL,
    that counts and indexes fit their field, that references are in range and fixed-width values have their size. *)
Theorem dmx_bin_roundtrip :
  forall (cenc : enc -> str -> bytes) (cdec : enc -> bytes -> option str) (cfg : dmxcfg) (v : N) (d : doc),
    bin_cfg_ok cfg = true -> expressible cenc cdec cfg v d ->
    parse_bin cdec cfg v (export_bin cenc cfg v d) = Some d.
Proof. exact dmx_bin_roundtrip_gen. Qed.

(** Trailing bytes after the body do not matter. *)
Theorem dmx_bin_roundtrip_trailing :
  forall (cenc : enc -> str -> bytes) (cdec : enc -> bytes -> option str) (cfg : dmxcfg) (v : N) (d : doc) (rest : bytes),
    bin_cfg_ok cfg = true -> expressible cenc cdec cfg v d ->
    parse_bin cdec cfg v (export_bin cenc cfg v d ++ rest) = Some d.
Proof. exact dmx_bin_roundtrip_rest. Qed.

(** The premises are satisfiable: a two-element document with a self reference, NULL, a stub, scalar and array
    strings, a 64-byte matrix, an int array and binary blobs is expressible in versions 5 and 1. *)
Theorem dmx_bin_expressible_example :
  expressible idenc iddec good_cfg 5 ex_doc /\ expressible idenc iddec good_cfg 1 ex_doc /\ length ex_doc = 2%nat.
Proof. exact expressible_example. Qed.

(** The stub condition is necessary: writing only the index -2 (pinned tree) loses an expressible document. *)
Theorem dmx_bin_stub_without_uuid_refuted :
  exists d, parse_bin iddec bad_stub_cfg 5 (export_bin idenc bad_stub_cfg 5 d) <> Some d.
Proof. exists stub_doc. vm_compute. discriminate. Qed.

(** KeyValues1 bridge: converting any well-formed Keyvalues tree (only the top node may be a nameless root) to
    elements and back returns the same tree (real names, values, order, inline vs nested, reserved names, duplicates,
    mixed blocks/leaves). *)
Theorem kv1_bridge_roundtrip : forall (fold : kstr -> kstr) (cfg : kv1cfg),
  kv1_cfg_ok cfg = true -> fold_ok fold cfg ->
  forall t, wf_kv t = true -> to_kv1 fold cfg (from_kv1 fold cfg t) = Some t.
Proof. exact kv1_bridge_roundtrip_gen. Qed.

(** A nameless root nested in a block is merged into the parent (Keyvalues.append): excluded by [wf_kv]. *)
Theorem kv1_nested_root_flattened :
  to_kv1 (fun s => s) sample_cfg (from_kv1 (fun s => s) sample_cfg (KBlock (Some [66]%N) [KBlock None [KLeaf [97]%N [98]%N]]))
  = Some (KBlock (Some [66]%N) [KLeaf [97]%N [98]%N]).
Proof. exact kv1_nested_root_is_flattened. Qed.

Theorem kv1_bridge_premises_satisfiable : kv1_cfg_ok sample_cfg = true /\ fold_ok (fun s => s) sample_cfg.
Proof. exact kv1_premises_satisfiable. Qed.

(** * Fixed-width value codecs (TYPE_CONVERT[t, BINARY] / TYPE_CONVERT[BINARY, t]) *)

(** TIME: for binary64 division and multiplication [fdiv]/[fmul] that meet the standard model of rounding at the
    operands used (relative error at most 2^-53 for [k / S] and [(k / S) * S]), every 32-bit tick count [k] survives
    [round((k / S) * S)]: a tick-exact time is written as exactly its tick count, whatever the positive scale [S]. *)
Theorem time_roundtrip : forall (fmul fdiv : Q -> Q -> Q) (S : Z), (0 < S)%Z ->
  std_model_on_ticks fmul fdiv S ->
  forall k, int32_ok k = true -> q_round_he (fmul (fdiv (inject_Z k) (inject_Z S)) (inject_Z S)) = k.
Proof. exact time_ticks_exact. Qed.

(** The hypothesis is satisfiable (exact arithmetic), and the executable binary64 rounding [rn64] meets it and the
    conclusion on a computed grid of 2069 tick counts. *)
Theorem time_roundtrip_premise_satisfiable :
  std_model_on_ticks Qmult Qdiv 10000 /\ (forallb std_model_check tick_grid = true).
Proof. split; [exact std_model_exact|exact std_model_rn64_grid]. Qed.

(** The executable model of binary64 round-to-nearest-even, [rn64] (compared with CPython's float [*] and [/] on every
    run), meets the standard model at every rational: |rn64 x - x| <= 2^-53 |x|. *)
Theorem binary64_rounding_error : forall x : Q, (Qabs (rn64 x - x) <= u53 * Qabs x)%Q.
Proof. exact rn64_error. Qed.

(** Hence TIME needs no hypothesis about floating point inside the model: with [fmul64] / [fdiv64] (= [rn64] of the exact
    product / quotient) every 32-bit tick count survives [round((k / S) * S)], for every positive scale [S]. *)
Theorem time_roundtrip_binary64 : forall S : Z, (0 < S)%Z -> forall k, int32_ok k = true ->
  q_round_he (fmul64 (fdiv64 (inject_Z k) (inject_Z S)) (inject_Z S)) = k.
Proof. exact time_ticks_exact_rn64. Qed.

(** [int()] instead of [round()] is refuted by a computed witness: 3 / 10000.0 is written as 2 ticks. *)
Theorem time_truncation_loses_a_tick :
  q_round RTrunc (fmul64 (fdiv64 3 10000) 10000) = 2%Z /\ q_round RNearestEven (fmul64 (fdiv64 3 10000) 10000) = 3%Z.
Proof. vm_compute. split; reflexivity. Qed.

(** Every fixed-width value representable in its wire type (int32, binary32 patterns, booleans, tick-exact times,
    colour bytes, vectors, angles in [0, 360), quaternions, the 3x3 part of a matrix) is packed by the generated
    struct format into exactly [calcsize] bytes and unpacked to the same value — for every configuration meeting
    the named conditions, with CPython's struct as modelled in Bin/Struct.v. *)
Theorem scalar_codec_roundtrip :
  forall (fmul fdiv : Q -> Q -> Q) (anorm : N -> N) (cfg : scalarcfg),
    scalar_cfg_ok cfg = true -> std_model_on_ticks fmul fdiv (sc_time_div cfg) ->
    (forall b, (b < ANGLE_360)%N -> anorm b = b) ->
    forall t v, sval_rep fdiv cfg t v ->
    exists bs, encode_sval fmul cfg t v = Some bs /\ length bs = calcsize (wire_kinds t) /\
               decode_sval fdiv anorm cfg t bs = Some v.
Proof. exact scalar_codec_roundtrip_gen. Qed.

(** The same with binary64 arithmetic as modelled by [rn64]: only the FrozenAngle normalisation stays a hypothesis. *)
Theorem scalar_codec_roundtrip_binary64 :
  forall (anorm : N -> N) (cfg : scalarcfg),
    scalar_cfg_ok cfg = true -> (forall b, (b < ANGLE_360)%N -> anorm b = b) ->
    forall t v, sval_rep fdiv64 cfg t v ->
    exists bs, encode_sval fmul64 cfg t v = Some bs /\ length bs = calcsize (wire_kinds t) /\
               decode_sval fdiv64 anorm cfg t bs = Some v.
Proof.
  intros anorm cfg Hc Ha. exact (scalar_codec_roundtrip_gen fmul64 fdiv64 anorm cfg Hc (std_model_rn64 _) Ha).
Qed.

Theorem scalar_codec_premises_satisfiable :
  (scalar_cfg_ok pinned_scalar = true) /\ (sizes_match_formats pinned_scalar pinned_cfg = true).
Proof. exact scalar_cfg_example. Qed.

(** The conditions are necessary: a truncating TIME codec and a matrix reader that ignores the padding column
    fail their named condition and lose a representable value. *)
Theorem scalar_truncating_cfg_refuted :
  (time_rounds_to_nearest trunc_scalar = false) /\
  (let t := fdiv64 3 10000 in
   match encode_sval fmul64 trunc_scalar TTime (SvTime t) with
   | Some bs => decode_sval fdiv64 (fun b => b) trunc_scalar TTime bs
   | None => None
   end = Some (SvTime (fdiv64 2 10000))).
Proof. vm_compute. split; reflexivity. Qed.

Theorem scalar_matrix_unpadded_read_refuted :
  (mat_cells_read_where_written bad_mat_scalar = false) /\
  mat_unpack (sc_mat_unpack bad_mat_scalar) (mat_pack (sc_mat_pack bad_mat_scalar) [1;2;3;4;5;6;7;8;9]%N) <> [1;2;3;4;5;6;7;8;9]%N.
Proof. split; [vm_compute; reflexivity|vm_compute; discriminate]. Qed.

(** * Binary DMX with typed values *)

(** Packing every fixed-width value of a typed document ([lower_doc]: TYPE_CONVERT[t, BINARY] per item, as
    [attr.iter_binary()] does) and unpacking ([lift_doc]: TYPE_CONVERT[BINARY, t]) gives the document back, and every
    packed item has exactly the size the SIZES table promises the reader ([sizes_match_formats]). *)
Theorem typed_values_roundtrip :
  forall (fmul fdiv : Q -> Q -> Q) (anorm : N -> N) (scfg : scalarcfg) (cfg : dmxcfg),
    scalar_cfg_ok scfg = true -> sizes_match_formats scfg cfg = true ->
    std_model_on_ticks fmul fdiv (sc_time_div scfg) -> (forall b, (b < ANGLE_360)%N -> anorm b = b) ->
    forall td, tdoc_rep fdiv scfg td ->
    exists d, lower_doc fmul scfg td = Some d /\ lift_doc fdiv anorm scfg d = Some td /\ doc_sized cfg d.
Proof. exact typed_lift_lower. Qed.

(** The binary round trip with values instead of wire bytes: export the packed document in any version that can
    express it, parse, unpack — the typed document comes back (integers, binary32 patterns, booleans, tick-exact
    times, colours, vectors, angles in [0, 360), quaternions, matrices; strings, blobs and references as before). *)
Theorem dmx_bin_typed_roundtrip :
  forall (fmul fdiv : Q -> Q -> Q) (anorm : N -> N) (scfg : scalarcfg) (cfg : dmxcfg),
    scalar_cfg_ok scfg = true -> sizes_match_formats scfg cfg = true ->
    std_model_on_ticks fmul fdiv (sc_time_div scfg) -> (forall b, (b < ANGLE_360)%N -> anorm b = b) ->
    forall (cenc : enc -> DmxBin.str -> bytes) (cdec : enc -> bytes -> option DmxBin.str) (v : N) (td : tdoc) (d : doc),
    bin_cfg_ok cfg = true -> tdoc_rep fdiv scfg td -> lower_doc fmul scfg td = Some d -> expressible cenc cdec cfg v d ->
    match parse_bin cdec cfg v (export_bin cenc cfg v d) with Some d' => lift_doc fdiv anorm scfg d' | None => None end = Some td.
Proof.
  intros fmul fdiv anorm scfg cfg Hs Hsz Hstd Hanorm cenc cdec v td d Hc Hrep Hlow Hex.
  rewrite (dmx_bin_roundtrip_gen cenc cdec cfg v d Hc Hex).
  destruct (typed_lift_lower fmul fdiv anorm scfg cfg Hs Hsz Hstd Hanorm td Hrep) as (d0 & Hl0 & Hu0 & _). congruence.
Qed.

Theorem typed_premises_satisfiable :
  tdoc_rep fdiv64 pinned_scalar ex_tdoc /\
  match lower_doc fmul64 pinned_scalar ex_tdoc with
  | Some [e] => match nth 3 (eattrs e) {| aname := []; adata := VBin (Array []) |} with
                | {| adata := VFix TMatrix (Scalar b) |} => length b = 64%nat
                | _ => False
                end
  | _ => False
  end.
Proof. exact typed_example. Qed.

(** * KeyValues2 *)

(** How [_export_kv2] writes an element value: a decision table (if / elif / else chain over is_null, is_stub,
    uuid-in-roots) that meets the named condition decides exactly as the format needs — NULL as the empty
    reference, stubs and top-level elements by UUID reference, the rest inline — and two such tables agree. *)
Theorem kv2_reference_decision : forall t, rtable_ok t = true ->
  forall is_null is_stub in_roots, decide t is_null is_stub in_roots = Some (ref_spec is_null is_stub in_roots).
Proof.
  intros t H n s r. unfold rtable_ok in H. rewrite forallb_forall in H.
  exact (oaction_eqb_eq _ _ (H (n, s, r) (all_bool3_complete n s r))).
Qed.
Theorem kv2_reference_sites_agree : forall a b, rtables_agree a b = true ->
  forall is_null is_stub in_roots, decide a is_null is_stub in_roots = decide b is_null is_stub in_roots.
Proof.
  intros a b H n s r. unfold rtables_agree in H. rewrite forallb_forall in H.
  exact (oaction_eqb_eq _ _ (H (n, s, r) (all_bool3_complete n s r))).
Qed.
(** Dropping [or child.is_stub] at one site is refuted: a non-root stub would be written inline. *)
Theorem kv2_stub_written_inline_refuted :
  (rtable_ok no_stub_rtable = false) /\ (rtables_agree pinned_rtable no_stub_rtable = false) /\
  decide no_stub_rtable false true false = Some AInline.
Proof. repeat split; reflexivity. Qed.

(** The tokenizer (the real [_get_token] model of C02) run over the text the flat-layout writer emits gives exactly
    the writer's tokens, in order, then EOF: quoted escaped names and values come back as the strings (C02's
    [quoted_embedding]), [CR LF] as one NEWLINE, braces / brackets / commas as themselves, leading tabs vanish. *)
Theorem kv2_tokens_roundtrip : forall (T : tables) (o : opts) (fold : str -> str) (vtnames : list str),
  kv2_tables_ok T = true -> kv2_opts_ok o = true -> vtnames_ok T fold vtnames = true ->
  forall d, doc_ok T vtnames d = true -> tokenize T o (render_doc T d) = Some (toks_of (lex_doc d)).
Proof.
  intros T o fold vtnames HT Ho Hvt d Hd.
  exact (tokenize_lexemes T o HT Ho (lex_doc d) (lex_doc_ok T fold vtnames Hvt d Hd)).
Qed.

(** KeyValues2, flat layout, at the level of the text: parsing the exported text of any document (elements with
    type, id, name; attributes with any name, a type keyword, scalar or array shape, value strings in order, NULL and
    UUID references, empty arrays) gives back the document. *)
Theorem kv2_flat_roundtrip : forall (T : tables) (o : opts) (fold : str -> str) (vtnames : list str),
  kv2_tables_ok T = true -> kv2_opts_ok o = true -> vtnames_ok T fold vtnames = true ->
  forall d, doc_ok T vtnames d = true -> parse_text T o fold vtnames (render_doc T d) = Some d.
Proof. exact kv2_flat_roundtrip_gen. Qed.

(** The fix-up pass: replacing element references by the UUID text of their target and resolving UUID texts against
    the ids of the parsed elements (unknown ids stay stubs) are inverse on every graph with pairwise distinct ids —
    sharing, self references and cycles, NULL and stub references are kept as such. *)
Theorem kv2_link_flatten : forall g, graph_ok g = true -> link (flatten g) = Some g.
Proof. exact link_flatten. Qed.

(** Text and graph together, flat layout: export, tokenize, parse, link gives back the graph. *)
Theorem kv2_flat_graph_roundtrip : forall (T : tables) (o : opts) (fold : str -> str) (vtnames : list str),
  kv2_tables_ok T = true -> kv2_opts_ok o = true -> vtnames_ok T fold vtnames = true ->
  forall g, graph_ok g = true -> doc_ok T vtnames (flatten g) = true ->
  match parse_text T o fold vtnames (render_doc T (flatten g)) with Some d => link d | None => None end = Some g.
Proof. exact kv2_flat_graph_roundtrip_gen. Qed.

Theorem kv2_graph_premises_satisfiable :
  graph_ok ex_gdoc && doc_ok pinned_tables pinned_vtnames (flatten ex_gdoc) = true.
Proof. exact kv2_graph_example. Qed.

(** KeyValues2, nested layout (the default), at the level of the text: elements used once are written as inline
    blocks inside the attribute or element array that holds them, to any depth.  Parsing the exported text with the
    full recursion of [_parse_kv2_element] gives back the tree of blocks, provided no *inline* element has an
    attribute type keyword (any casing, with or without [_array], or [elementid]) as its type name: [ndoc_ok] asks
    [type_is_keyword ty = false] of inline elements only — the writer puts the others at the top level. *)
Theorem kv2_nested_roundtrip : forall (T : tables) (o : opts) (fold : str -> str) (vtnames : list str),
  kv2_tables_ok T = true -> kv2_opts_ok o = true -> vtnames_ok T fold vtnames = true ->
  forall d, ndoc_ok T fold vtnames d = true -> parsen_text T o fold vtnames (rendern_doc T d) = Some d.
Proof. exact kv2_nested_roundtrip_gen. Qed.

Theorem kv2_nested_premises_satisfiable : ndoc_ok pinned_tables (fun s => s) pinned_vtnames ex_ndoc = true.
Proof. exact kv2_nested_example. Qed.

(** The carve-out is real (the repaired defect): an inline element of type "element" inside an element array is read
    as a UUID reference, one of type "int" in a scalar attribute as a typed attribute; neither text parses. *)
Theorem kv2_inline_keyword_type_refuted :
  let bad1 := [NElem [84] None [] [NAttr [97] s_element true [NInline (NElem s_element None [] [])]]]%N in
  let bad2 := [NElem [84] None [] [NAttr [97] s_element false [NInline (NElem [105;110;116] None [] [])]]]%N in
  (ndoc_ok pinned_tables (fun s => s) pinned_vtnames bad1 = false) /\
  (parsen_text pinned_tables pinned_kv2_opts (fun s => s) pinned_vtnames (rendern_doc pinned_tables bad1) = None) /\
  (ndoc_ok pinned_tables (fun s => s) pinned_vtnames bad2 = false) /\
  (parsen_text pinned_tables pinned_kv2_opts (fun s => s) pinned_vtnames (rendern_doc pinned_tables bad2) = None).
Proof. exact kv2_inline_keyword_refuted. Qed.

Theorem kv2_premises_satisfiable :
  kv2_tables_ok pinned_tables && kv2_opts_ok pinned_kv2_opts && vtnames_ok pinned_tables (fun s => s) pinned_vtnames &&
  doc_ok pinned_tables pinned_vtnames ex_kdoc = true.
Proof. exact kv2_premises_example. Qed.
(** A name written without escape_text that contains a quote does not re-tokenise. *)
Theorem kv2_unescaped_name_refuted :
  tokenize pinned_tables pinned_kv2_opts (render_lex pinned_tables [([], LRaw [97; 34; 98]); ([], LNl)])
  <> Some (toks_of [([], LRaw [97; 34; 98]); ([], LNl)]).
Proof. exact kv2_raw_name_refuted. Qed.

(** * The value strings of KeyValues2 *)

(** FLOAT and every component of VEC2 / VEC3 / VEC4 / ANGLE / QUATERNION are written by [_fmt_float]: the decimal the
    text denotes is the binary64 value rounded half-even at six places (C05's exact model of ['%.6f'], Num/Dec6.v),
    i.e. within 5e-7 of the value — "to 6 decimals in text".  [num_den x] is 10^6 |x| as an exact fraction. *)
Theorem kv2_float_text_six_decimals : forall (c : fmt_cfg) (x : dyadic),
  scaled_value (fmt_parts c x) = scaled6 x /\
  (2 * Z.abs (Z.of_N (scaled6 x) * Z.of_N (snd (num_den x)) - Z.of_N (fst (num_den x))) <= Z.of_N (snd (num_den x)))%Z.
Proof. exact float_text_value_gen. Qed.

(** A vector text — the component texts joined by single spaces — splits ([str.split()], any whitespace set that
    contains the space and no character of a decimal) into exactly the component texts, in order and number. *)
Theorem kv2_vector_text_splits : forall (is_ws : N -> bool) (c : fmt_cfg) (xs : list dyadic),
  is_ws SPC = true -> (forall ch, dec_char ch = true -> is_ws ch = false) ->
  parse_parts is_ws (length xs) (vec_text c xs) = Some (map (format6 c) xs).
Proof.
  intros is_ws c xs Hsp Hdec. unfold parse_parts, vec_text. rewrite (split_join is_ws Hsp).
  - now rewrite map_length, Nat.eqb_refl.
  - apply (dec_words is_ws _ Hdec), Forall_map, Forall_forall. intros x _. apply format6_chars.
Qed.

(** INTEGER: [int(str(n)) = n] for every integer; COLOR: the four components come back. *)
Theorem kv2_int_text_roundtrip : forall z : Z, parse_int (int_text z) = Some z.
Proof.
  intros z. destruct z as [|p|p]; [reflexivity| |]; destruct (to_digits_text (Npos p)) as (c & s & E & Hc & Hv); cbn [int_text].
  - rewrite E. unfold parse_int. now rewrite Hc, Hv.
  - unfold parse_int. now rewrite N.eqb_refl, E, Hv.
Qed.
Theorem kv2_color_text_roundtrip : forall (is_ws : N -> bool) (r g b a : N),
  is_ws SPC = true -> (forall ch, dec_char ch = true -> is_ws ch = false) ->
  parse_color is_ws (color_text r g b a) = Some (Z.of_N r, Z.of_N g, Z.of_N b, Z.of_N a).
Proof.
  intros is_ws r g b a Hsp Hdec. unfold parse_color, color_text. rewrite (split_join is_ws Hsp).
  - cbn [map mapM_opt]. now rewrite !kv2_int_text_roundtrip.
  - apply (dec_words is_ws _ Hdec). cbn [map]. repeat constructor; apply int_text_chars.
Qed.

(** BINARY: upper-case hex pairs separated by single spaces parse back ([bytes.fromhex] skips whitespace between bytes). *)
Theorem kv2_hex_text_roundtrip : forall (is_ws : N -> bool),
  is_ws SPC = true -> (forall c, hex_char c = true -> is_ws c = false) ->
  forall bs, Forall (fun b => (b < 256)%N) bs -> parse_hex is_ws (hex_text bs) = Some bs.
Proof. exact hex_text_roundtrip_gen. Qed.

Theorem kv2_value_text_examples :
  (float_text dmx_float_cfg {| dneg := false; dm := 1451; de := (-1)%Z |} = [55; 50; 53; 46; 53]%N) /\
  (float_text dmx_float_cfg {| dneg := true; dm := 0; de := 0%Z |} = [45; 48]%N) /\
  (float_text dmx_float_cfg {| dneg := false; dm := 1; de := (-30)%Z |} = [48]%N) /\
  (float_text_cfg_ok dmx_float_cfg = true).
Proof. exact float_text_examples. Qed.
(** without the separator the components cannot be told apart *)
Theorem kv2_vector_text_needs_separator :
  let xs := [{| dneg := false; dm := 1; de := 0%Z |}; {| dneg := false; dm := 2; de := 0%Z |}] in
  parse_parts (fun c => (c =? 32)%N) 2 (concat (map (format6 dmx_float_cfg) xs)) = None.
Proof. exact vec_text_needs_separator. Qed.

(** * The three unicode modes *)

(** In every mode ('ascii', 'format' = marked with [unicode_] in the header, 'silent' = UTF-8 without marker, to be read
    with [unicode=True]) [Element.parse] decodes strings with the codec the exporter encoded them with, for the binary
    and the KeyValues2 form — for every configuration of marker / codec choices meeting the two named conditions.
    This is what instantiates the codec parameters [cenc] / [cdec] of [dmx_bin_roundtrip] consistently. *)
Theorem unicode_mode_codec_agreement : forall c, hdr_bin_ok c = true -> hdr_kv2_ok c = true ->
  forall m, reader_bin_utf8 c m = hb_utf8 c m /\ reader_kv2_utf8 c m = hk_utf8 c m.
Proof.
  intros c Hb Hk m. unfold hdr_bin_ok, hdr_kv2_ok in *. rewrite forallb_forall in Hb, Hk.
  assert (Hin : In m all_umodes) by (destruct m; cbn; tauto).
  split; apply Bool.eqb_prop; [apply Hb|apply Hk]; exact Hin.
Qed.
Theorem unicode_mode_premises_satisfiable : hdr_bin_ok pinned_hdr && hdr_kv2_ok pinned_hdr && hdr_modes_ok pinned_hdr = true.
Proof. exact hdr_example. Qed.
(** A writer that forgets the marker in 'format' mode is refuted: the reader would decode UTF-8 data as ASCII. *)
Theorem unicode_marker_forgotten_refuted :
  (hdr_bin_ok unmarked_hdr = false) /\ (reader_bin_utf8 unmarked_hdr UFormat = false) /\ (hb_utf8 unmarked_hdr UFormat = true).
Proof. exact hdr_unmarked_refuted. Qed.

(** * The element's dict of members below the binary document

    [Fmt/DmxBin.v] gives an element a name and a list of attribute records.  The implementation holds one ordered dict,
    keyed by the casefolded attribute name, in which the name is the member keyed "name" — removable through the public
    mapping API (clear, del, pop, popitem) and re-addable anywhere (the name setter, an attribute assigned as 'NAME').
    [export_binary] writes a count and then one record per member its loop does not skip; count expression and skip
    tests are read from the source ([cntcfg]). *)

(** The count written is the number of records written, for every dict with pairwise distinct keys — with or without
    the "name" member, wherever it sits.  ([cnt_cfg_ok]: the count is len(elem) - ('name' in elem._members) or the number
    of members keyed other than "name"; both loops skip exactly the key "name"; Element.name reads that member, "" if
    missing.) *)
Theorem attr_count_is_records_written : forall c m, cnt_cfg_ok c = true -> keys_nodup m ->
  count_written c m = Z.of_nat (length (records (cc_write_filter c) m)).
Proof. exact count_is_records. Qed.

(** Every operation of the mapping API (clear, del, pop, popitem, the name setter, item assignment, setdefault — for any
    casefold function) keeps the keys pairwise distinct; hence so does every history on a fresh element. *)
Theorem element_api_keeps_keys_distinct : forall fold m op, keys_nodup m -> keys_nodup (apply_op fold m op).
Proof. exact apply_op_keys_nodup. Qed.
Theorem element_api_history_keys_distinct : forall fold ops name, keys_nodup (run_ops fold ops (init_members name)).
Proof. exact history_keys_nodup. Qed.

(** For every API history on a fresh element the count written equals the records written. *)
Theorem attr_count_is_records_after_any_history : forall c fold ops name, cnt_cfg_ok c = true ->
  let m := run_ops fold ops (init_members name) in
  count_written c m = Z.of_nat (length (records (cc_write_filter c) m)).
Proof. intros c fold ops name Hc m. apply count_is_records; [exact Hc | apply history_keys_nodup]. Qed.

(** The bytes written from the real dicts are the bytes of the document they denote (name = the "name" member or "",
    attributes = the other members in dict order) ... *)
Theorem members_export_is_document_export :
  forall (cenc : enc -> str -> bytes) (cfg : dmxcfg) (cc : cntcfg), cnt_cfg_ok cc = true ->
  forall v rd, Forall (fun r => keys_nodup (r_members r)) rd ->
    export_raw cenc cfg cc v rd = export_bin cenc cfg v (map (abstract cc) rd).
Proof. exact export_raw_is_export_bin. Qed.

(** ... and parse back to it (composition with [dmx_bin_roundtrip]), versions 0-5. *)
Theorem dmx_bin_members_roundtrip :
  forall (cenc : enc -> str -> bytes) (cdec : enc -> bytes -> option str) (cfg : dmxcfg) (cc : cntcfg), cnt_cfg_ok cc = true ->
  forall v rd, bin_cfg_ok cfg = true -> Forall (fun r => keys_nodup (r_members r)) rd ->
    expressible cenc cdec cfg v (map (abstract cc) rd) ->
    parse_bin cdec cfg v (export_raw cenc cfg cc v rd) = Some (map (abstract cc) rd).
Proof. exact members_bin_roundtrip. Qed.

(** Satisfiable: the configuration of the repaired tree, and a two-element graph whose root was cleared and refilled
    (no "name" member) and whose child had its name popped and set again (name member last), versions 5 and 1. *)
Theorem members_premises_satisfiable :
  cnt_cfg_ok good_cnt = true /\
  map (fun r => (has_key s_name (r_members r), length (r_members r))) hist_rdoc = [(false, 2%nat); (true, 2%nat)] /\
  (forall v, v = 5%N \/ v = 1%N ->
     parse_bin iddec good_cfg v (export_raw idenc good_cfg good_cnt v hist_rdoc) = Some (map (abstract good_cnt) hist_rdoc)).
Proof. split; [exact good_cnt_ok | split; [exact (proj1 hist_rdoc_shape) | exact members_roundtrip_example]]. Qed.

(** [len(elem) - 1] (the class of seeded fault c14_3) fails exactly [count_expr_ok]: after "clear, then assign" the count
    is one less than the records, the exported graph is not read back; untouched elements are written as before. *)
Theorem attr_count_minus_one_refuted :
  count_expr_ok minus_one_cnt = false /\ write_filter_ok minus_one_cnt = true /\ collect_filter_ok minus_one_cnt = true /\
  name_getter_ok minus_one_cnt = true /\
  (let m := run_ops (fun s => s) hist_ops (init_members [110]%N) in
   count_written minus_one_cnt m = 1%Z /\ length (records (cc_write_filter minus_one_cnt) m) = 2%nat) /\
  parse_bin iddec good_cfg 5 (export_raw idenc good_cfg minus_one_cnt 5 hist_rdoc) <> Some (map (abstract minus_one_cnt) hist_rdoc) /\
  (forall name, count_written minus_one_cnt (init_members name) = 0%Z).
Proof. vm_compute. repeat split; try discriminate. Qed.

(** A writing loop that tests the attribute's case-preserved name instead of the dict key (a repaired defect
    class): after [elem['NAME'] = 'x'] the only member is keyed "name", the count is 0, one record is written. *)
Theorem attr_loop_on_real_name_refuted :
  write_filter_ok real_name_cnt = false /\ count_expr_ok real_name_cnt = true /\
  (let m := run_ops ascii_lower [OSet [78; 65; 77; 69]%N (VStr (Scalar [120]%N))] (init_members [110]%N) in
   map fst m = [s_name] /\ count_written real_name_cnt m = 0%Z /\ length (records (cc_write_filter real_name_cnt) m) = 1%nat).
Proof. vm_compute. repeat split. Qed.

(** * The dict the readers build

    [Element(name, type, uuid)] starts with the member keyed "name"; parse_bin and _parse_kv2_element store every record
    read by [elem._members[KEY] = Attribute(attr_name, ...)].  The mapping API looks [name.casefold()] up, so KEY must be
    the casefolded name; which expression KEY is at each of the three sites is read from the source ([parsecfg]). *)

(** Built from a document element whose folded attribute names are pairwise distinct and not "name": the name member,
    then one member per record under its casefolded name, in order. *)
Theorem reader_dict_shape : forall fold e, elem_names_ok fold e ->
  parsed_members fold KFolded e =
  (s_name, {| aname := s_name; adata := VStr (Scalar (ename e)) |}) :: map (fun a => (fold (aname a), a)) (eattrs e).
Proof. exact parsed_members_shape. Qed.

(** It is keyed by the casefolded names (the invariant [elem[name]], [in], [del] rely on), keys pairwise distinct, ... *)
Theorem reader_dict_keyed_by_casefolded_names : forall fold e, fold s_name = s_name -> elem_names_ok fold e ->
  keyed_by_fold fold (parsed_members fold KFolded e) /\ keys_nodup (parsed_members fold KFolded e).
Proof.
  intros fold e FN OK. split; [|apply parsed_members_nodup; exact OK]. rewrite (parsed_members_shape fold e OK).
  constructor; [symmetry; exact FN|]. apply Forall_forall. intros ka I. apply in_map_iff in I. destruct I as [a [E _]]. now subst.
Qed.

(** ... [elem[a.name]] finds every attribute [a] that was read, ... *)
Theorem reader_dict_lookup_finds_every_attribute : forall fold e a, elem_names_ok fold e -> In a (eattrs e) ->
  lookup fold (parsed_members fold KFolded e) (aname a) = Some a.
Proof.
  intros fold e a OK I. unfold lookup. apply mget_in; [apply parsed_members_nodup; exact OK|].
  rewrite (parsed_members_shape fold e OK). right. exact (in_map (fun a => (fold (aname a), a)) _ _ I).
Qed.

(** ... and the element denotes the document element it was built from (name, attributes in order). *)
Theorem reader_dict_denotes_the_document_element : forall fold cc e, name_getter_ok cc = true -> elem_names_ok fold e ->
  abstract cc (parsed_relem fold KFolded e) = e.
Proof.
  intros fold cc e NG OK. unfold abstract, view, parsed_relem. cbn [r_type r_uuid r_members].
  rewrite (parsed_members_shape fold e OK). destruct OK as [ND NN].
  erewrite (rname_string cc _ _ _ NG (mget_head _ _ _)) by reflexivity. rewrite records_skip_head.
  rewrite records_name_map by exact NN. rewrite map_map. cbn [snd]. rewrite map_id. now destruct e.
Qed.

(** Every operation of the mapping API keeps the dict keyed by the casefolded names ([fold "name" = "name"]: a run-time
    obligation for str.casefold); hence so does every history on a fresh element. *)
Theorem element_api_keeps_dict_keyed : forall fold m op, fold s_name = s_name -> keyed_by_fold fold m -> keyed_by_fold fold (apply_op fold m op).
Proof. exact apply_op_keyed. Qed.
Theorem element_api_history_dict_keyed : forall fold ops name, fold s_name = s_name -> keyed_by_fold fold (run_ops fold ops (init_members name)).
Proof. exact history_keyed. Qed.

(** Composition (binary, versions 0-5): export the real dicts, parse the bytes, build the dicts — each is the canonical
    form of the dict exported: the name member (or "" if it was missing) first, every other member under its key, in order. *)
Theorem dmx_bin_members_reader_roundtrip :
  forall (cenc : enc -> str -> bytes) (cdec : enc -> bytes -> option str) (cfg : dmxcfg) (cc : cntcfg) (fold : str -> str),
  cnt_cfg_ok cc = true -> bin_cfg_ok cfg = true ->
  forall v rd, Forall (fun r => keys_nodup (r_members r)) rd -> Forall (fun r => keyed_by_fold fold (r_members r)) rd ->
    expressible cenc cdec cfg v (map (abstract cc) rd) ->
    exists d, parse_bin cdec cfg v (export_raw cenc cfg cc v rd) = Some d /\
              map (parsed_members fold KFolded) d = map (fun r => canonical cc (r_members r)) rd.
Proof. exact members_bin_reader_roundtrip. Qed.

(** A reader that stores a record under the name as written fails [parse_keys_ok]: the attribute "Ab" is in the dict
    but [elem["Ab"]] does not find it; with the casefolded key both "Ab" and "aB" find it. *)
Theorem reader_key_as_written_refuted :
  parse_keys_ok {| pk_bin := KAsWritten; pk_kv2_attr := KFolded; pk_kv2_inline := KFolded; pk_init_key := s_name; pk_init_name := s_name |} = false /\
  lookup ascii_lower (parsed_members ascii_lower KAsWritten ab_elem) [65; 98]%N = None /\
  keyed_by_foldb ascii_lower (parsed_members ascii_lower KAsWritten ab_elem) = false /\
  lookup ascii_lower (parsed_members ascii_lower KFolded ab_elem) [65; 98]%N = Some (int_attr [65; 98]%N 5) /\
  lookup ascii_lower (parsed_members ascii_lower KFolded ab_elem) [97; 66]%N = Some (int_attr [65; 98]%N 5) /\
  keyed_by_foldb ascii_lower (parsed_members ascii_lower KFolded ab_elem) = true.
Proof. vm_compute. repeat split. Qed.
Theorem reader_dict_premises_satisfiable : parse_keys_ok good_parse && init_member_ok good_parse = true /\ elem_names_ok ascii_lower ab_elem.
Proof. split; [reflexivity | exact names_ok_example]. Qed.

(** * KeyValues2 at the level of the dict

    [_export_kv2] writes the line ["name" "string" <Element.name>] and then one record per member its loop keeps (skip
    test [attr.name == 'name']: the case-preserved name, read from the source); [_parse_kv2_element] sends a record that
    passes its name test to the [name] setter and stores every other record under KEY. *)

(** What the reader builds from what the writer wrote for a dict keyed by the casefolded names: a name member holding
    Element.name, then every member keyed other than "name" under its key, in order — for either name test and every
    skip test that skips only the member keyed "name" ([kv2_filter_ok]). *)
Theorem kv2_dict_read_of_written : forall fold t cc f (m : members) block_name,
  fold s_name = s_name -> name_getter_ok cc = true -> kv2_filter_ok f = true ->
  keys_nodup m -> keyed_by_fold fold m -> name_is_string m ->
  exists an, adata an = VStr (Scalar (rname cc m)) /\ fold (aname an) = s_name /\
    kv2_read fold t KFolded block_name (kv2_written cc f m) = (s_name, an) :: records (FKeyIs s_name) m.
Proof. exact kv2_read_written. Qed.

(** Hence the element read denotes the element written: same name, same attribute records in the same order ... *)
Theorem kv2_dict_roundtrip : forall fold t cc f (r : relem) block_name,
  fold s_name = s_name -> name_getter_ok cc = true -> kv2_filter_ok f = true ->
  keys_nodup (r_members r) -> keyed_by_fold fold (r_members r) -> name_is_string (r_members r) ->
  abstract cc {| r_type := r_type r; r_uuid := r_uuid r; r_members := kv2_read fold t KFolded block_name (kv2_written cc f (r_members r)) |}
  = abstract cc r.
Proof. exact kv2_members_roundtrip. Qed.

(** ... for every history of the mapping API on a fresh element that leaves the name member, if any, a string. *)
Theorem kv2_dict_roundtrip_after_any_history : forall fold t cc f ops name ty uu block_name,
  fold s_name = s_name -> name_getter_ok cc = true -> kv2_filter_ok f = true ->
  let m := run_ops fold ops (init_members name) in
  name_is_string m ->
  abstract cc {| r_type := ty; r_uuid := uu; r_members := kv2_read fold t KFolded block_name (kv2_written cc f m) |}
  = abstract cc {| r_type := ty; r_uuid := uu; r_members := m |}.
Proof.
  intros fold t cc f ops name ty uu bn FN NG OK m NS.
  apply (kv2_members_roundtrip fold t cc f {| r_type := ty; r_uuid := uu; r_members := m |} bn FN NG OK);
    cbn [r_members]; [apply history_keys_nodup|now apply history_keyed|exact NS].
Qed.

(** [clear(); elem['NAME'] = 'x'; elem['Ab'] = 5]: with the skip test of _export_kv2 the member spelled NAME is written as a
    record too and the reader stores it under "name" again: spelling kept; with the dict-key test of export_binary, or with
    a casefolding name test in the reader, it comes back spelled "name".  All denote the same element. *)
Theorem kv2_dict_name_spelling_example :
  map fst kv2_hist_m = [s_name; [97; 98]%N] /\
  name_is_string kv2_hist_m /\
  option_map aname (mget s_name (kv2_read ascii_lower TExact KFolded [] (kv2_written good_cnt (FRealNameIs s_name) kv2_hist_m))) = Some name_upper /\
  option_map aname (mget s_name (kv2_read ascii_lower TExact KFolded [] (kv2_written good_cnt (FKeyIs s_name) kv2_hist_m))) = Some s_name /\
  option_map aname (mget s_name (kv2_read ascii_lower TFolded KFolded [] (kv2_written good_cnt (FRealNameIs s_name) kv2_hist_m))) = Some s_name /\
  map fst (kv2_read ascii_lower TExact KFolded [] (kv2_written good_cnt (FRealNameIs s_name) kv2_hist_m)) = [s_name; [97; 98]%N].
Proof. vm_compute. repeat split. now exists [120]%N. Qed.

(** A loop that skips a member keyed otherwise fails [kv2_filter_ok] and loses that attribute. *)
Theorem kv2_dict_skip_of_another_key_refuted :
  kv2_filter_ok (FKeyIs [97; 98]%N) = false /\ kv2_filter_ok (FRealNameIs s_name) = true /\ kv2_filter_ok (FKeyIs s_name) = true /\
  map fst (kv2_read ascii_lower TExact KFolded [] (kv2_written good_cnt (FKeyIs [97; 98]%N) kv2_hist_m)) = [s_name].
Proof. vm_compute. repeat split. Qed.

(** * from_kv1: which name of a leaf its two tests read

    [from_kv1_sel] is from_kv1 with the name read by the reserved-name test and by the duplicate-leaf test as parameters
    (casefolded [child.name] / case-preserved [child.real_name]; read from the source).  With both on the casefolded name
    it is [from_kv1], so the bridge theorem holds for it. *)
Theorem kv1_bridge_roundtrip_by_name_selection : forall fold cfg rs ds,
  kv1_cfg_ok cfg = true -> fold_ok fold cfg -> kv1_sel_ok rs ds = true ->
  forall t, wf_kv t = true -> to_kv1 fold cfg (from_kv1_sel fold cfg rs ds t) = Some t.
Proof.
  intros fold cfg rs ds Hc Hf Hs t Hw. destruct rs; [|discriminate]. destruct ds; [|discriminate].
  rewrite from_kv1_sel_folded. apply kv1_bridge_roundtrip; assumption.
Qed.

(** The reserved-name test on the case-preserved name (the class of seeded fault c14_4): block "Entity" { "Name" "Fred" }
    — the leaf is inlined, overwrites the element's own name, and the block comes back named "Fred". *)
Theorem kv1_reserved_test_on_real_name_is_refuted :
  kv1_cfg_ok spelled_cfg = true /\ wf_kv entity_tree = true /\
  to_kv1 kv_lower spelled_cfg (from_kv1_sel kv_lower spelled_cfg NFolded NFolded entity_tree) = Some entity_tree /\
  to_kv1 kv_lower spelled_cfg (from_kv1_sel kv_lower spelled_cfg NReal NFolded entity_tree)
  = Some (KBlock (Some [70; 114; 101; 100]%N) [KLeaf [78; 97; 109; 101]%N [70; 114; 101; 100]%N]).
Proof. vm_compute. repeat split. Qed.

(** The duplicate test on the case-preserved name: "Key" and "KEY" are both inlined under one dict key, one is lost. *)
Theorem kv1_duplicate_test_on_real_name_is_refuted :
  to_kv1 kv_lower spelled_cfg (from_kv1_sel kv_lower spelled_cfg NFolded NFolded dup_tree) = Some dup_tree /\
  to_kv1 kv_lower spelled_cfg (from_kv1_sel kv_lower spelled_cfg NFolded NReal dup_tree) = Some (KBlock (Some [66]%N) [KLeaf [75; 69; 89]%N [50]%N]).
Proof. vm_compute. repeat split. Qed.

(** * The nested KeyValues2 layout, graph to graph

    [export_kv2] counts the uses of every element, makes the exported element, every element used more than once and every
    element whose type is an attribute type keyword a root (a top-level block referred to by UUID) and writes the others
    inline where they are used.  The rule is a generated object ([rootcfg], read from the source); [nest_doc] is the
    graph -> tree of blocks step, [unnest] what the reader registers for a tree of blocks. *)

(** A root rule meeting [root_rule_ok] decides exactly: flat layout, or used twice or more (the exported element
    counts once for itself), or a keyword type, or the exported element. *)
Theorem kv2_root_rule : forall fold vtnames c, root_rule_ok c = true -> forall flat g j,
  is_root fold vtnames c flat g j =
  flat || Nat.leb 2 (occ g j + (if Nat.eqb j 0 then 1 else 0)) || type_is_keyword fold vtnames (ge_type (nth j g dflt_gelem)) || Nat.eqb j 0.
Proof. exact root_rule_spec. Qed.

(** Hence an element written inline is referred to at most once in the whole graph, is not the exported element and
    has no keyword type. *)
Theorem kv2_non_root_used_at_most_once : forall fold vtnames c, root_rule_ok c = true -> forall flat g j,
  is_root fold vtnames c flat g j = false ->
  (occ g j <= 1)%nat /\ j <> 0%nat /\ type_is_keyword fold vtnames (ge_type (nth j g dflt_gelem)) = false /\ flat = false.
Proof. exact non_root_used_at_most_once. Qed.

(** Nothing is invented: for any root predicate, every block of the tree is, read back, an element of the graph — type,
    id, name, attributes in order, every element value naming the id of its target (NULL and stubs as such). *)
Theorem kv2_nest_only_graph_elements : forall g isroot d, nest_doc g isroot false = Some d ->
  forall k, In k (unnest d) -> exists i, (i < length g)%nat /\ k = flat_elem (ids g) (nth i g dflt_gelem).
Proof. exact nest_only_graph_elements. Qed.

(** Every element reachable from the exported one is written (cycles included: a cycle always passes through a root). *)
Theorem kv2_nest_complete : forall g isroot d, isroot 0%nat = true -> g <> [] -> refs_in_range g -> nest_doc g isroot false = Some d ->
  forall j, reach g j -> In (flat_elem (ids g) (nth j g dflt_gelem)) (unnest d).
Proof. exact nest_complete. Qed.

(** A block written inline is never a root: references by id go to top-level blocks (or stubs) only, so leaving the id
    of inline blocks out ([cull_uuid]) loses no reference. *)
Theorem kv2_inline_blocks_are_not_roots : forall g isroot f i, Forall (fun j => isroot j = false) (List.tl (blocks g isroot f i)).
Proof. exact inline_blocks_not_roots. Qed.

(** The graph the fix-up pass builds ([link]) written out again with references by id is the document that was read, for
    every document: [link d] is determined by [d] up to the numbering of its elements (the converse of [kv2_link_flatten]). *)
Theorem kv2_flatten_link : forall d g, link d = Some g -> flatten g = d.
Proof. exact flatten_link. Qed.

(** [cull_uuid]: the tree written is the tree written without the option, with the id of every inline block left out; top-level
    blocks keep theirs.  With [kv2_inline_blocks_are_not_roots] no reference names a block without id. *)
Theorem kv2_cull_uuid_erases_inline_ids_only : forall g isroot,
  nest_doc g isroot true = option_map (map (erase_elem true)) (nest_doc g isroot false).
Proof. exact nest_doc_cull. Qed.

(** The writer's recursion ends: below a root no chain of inline blocks is longer than the number of elements (the blocks of
    different levels are different elements), so the tree of blocks exists. *)
Theorem kv2_nest_total : forall g fold vtnames c, root_rule_ok c = true -> graph_ok g = true ->
  exists d, nest_doc g (is_root fold vtnames c false g) false = Some d.
Proof. exact nest_total. Qed.

(** Sharing: with the root rule no element is written twice (an element that is not a root has one holder; the blocks are
    counted level by level below the roots). *)
Theorem kv2_nest_written_once : forall g fold vtnames c, root_rule_ok c = true -> graph_ok g = true ->
  forall d, nest_doc g (is_root fold vtnames c false g) false = Some d -> written_once d = true.
Proof. exact nest_written_once. Qed.

(** The whole step: what the reader registers is a permutation of the flat document of the graph, the exported element first. *)
Theorem kv2_nest_is_flatten_permuted : forall g fold vtnames c, root_rule_ok c = true -> graph_ok g = true ->
  forall d, g <> [] -> (forall j, (j < length g)%nat -> reach g j) -> nest_doc g (is_root fold vtnames c false g) false = Some d ->
  Permutation.Permutation (unnest d) (flatten g) /\ exists rest, unnest d = flat_elem (ids g) (nth 0 g dflt_gelem) :: rest.
Proof. exact nest_is_flatten_permuted. Qed.

(** The tree of blocks is one the text can carry ([ndoc_ok], the premise of [kv2_nested_roundtrip]): no inline block has a
    keyword type — because such elements are roots. *)
Theorem kv2_nest_carried_by_text : forall g T fold vtnames c, root_rule_ok c = true -> doc_ok T vtnames (flatten g) = true ->
  forall d, g <> [] -> nest_doc g (is_root fold vtnames c false g) false = Some d -> ndoc_ok T fold vtnames d = true.
Proof. exact nest_ndoc_ok. Qed.

(** Example (sharing, a self reference, a cycle through an inline block, depth 2, a stub, NULL): two top-level blocks, four
    elements, each once. *)
Theorem kv2_nest_example :
  graph_ok ex_graph = true /\ root_rule_ok pinned_rootcfg = true /\
  (match nest_doc ex_graph (ex_isroot pinned_rootcfg ex_graph) false with
   | Some d => (length d =? 2)%nat && (length (unnest d) =? 4)%nat && written_once d && ndoc_ok pinned_tables (fun s => s) pinned_vtnames d
   | None => false
   end) = true.
Proof. vm_compute. repeat split. Qed.

(** [count > 2] instead of [count > 1] fails [root_rule_ok]; an element used twice is then written inline twice and the
    reader gets two elements for one (refutation witness for the class "threshold of the use count"). *)
Theorem kv2_late_root_rule_refuted :
  root_rule_ok late_rootcfg = false /\
  (match nest_doc ex_shared (ex_isroot late_rootcfg ex_shared) false with
   | Some d => (length (unnest d) =? 3)%nat && negb (written_once d)
   | None => false
   end) = true /\
  (match nest_doc ex_shared (ex_isroot pinned_rootcfg ex_shared) false with
   | Some d => (length (unnest d) =? 2)%nat && written_once d
   | None => false
   end) = true.
Proof. vm_compute. repeat split. Qed.

(** An inline block starts with the name of the attribute that holds it: without its name line an element with an empty
    name comes back named after the attribute (the class of seeded fault c14_6; obligation [kv2_name_line_written_for_every_element]). *)
Theorem kv2_nameless_inline_block_takes_attribute_name_refuted :
  parsen_tokens (fun s => s) pinned_vtnames nameless_inline_tokens =
  Some [NElem [84%N] None [] [NAttr [99%N] s_element false [NInline (NElem [67%N] None [99%N] [])]]].
Proof. vm_compute. reflexivity. Qed.

(** * The whole property, one statement per encoding *)

(** Binary (versions 0-5).  For every codec pair, every configuration meeting the named conditions and every angle
    normalisation that is the identity below 360: take the real dicts [rd] of the elements (keys pairwise distinct and
    casefolded: every history of the mapping API, theorems 49 and 64) whose values are the packed form of the typed
    values [td] (representable in their wire types), expressible in version [v].  The bytes [export_binary] writes from
    the dicts parse to a document that (1) unpacks to exactly [td] — types, names, UUIDs, attribute names with their
    casing, order, value types, shapes, values, references by index (sharing, cycles), NULL, stubs — and (2) gives the
    reader dicts that are the canonical form of the dicts exported. *)
Theorem c14_property_binary :
  forall (cenc : enc -> DmxBin.str -> bytes) (cdec : enc -> bytes -> option DmxBin.str) (cfg : dmxcfg) (scfg : scalarcfg) (cc : cntcfg)
         (fold : DmxBin.str -> DmxBin.str) (anorm : N -> N),
    bin_cfg_ok cfg = true -> scalar_cfg_ok scfg = true -> sizes_match_formats scfg cfg = true -> cnt_cfg_ok cc = true ->
    (forall b, (b < ANGLE_360)%N -> anorm b = b) ->
    forall (v : N) (rd : rdoc) (td : tdoc),
      Forall (fun r => keys_nodup (r_members r)) rd -> Forall (fun r => keyed_by_fold fold (r_members r)) rd ->
      tdoc_rep fdiv64 scfg td -> lower_doc fmul64 scfg td = Some (map (abstract cc) rd) ->
      expressible cenc cdec cfg v (map (abstract cc) rd) ->
      exists d, parse_bin cdec cfg v (export_raw cenc cfg cc v rd) = Some d /\
                lift_doc fdiv64 anorm scfg d = Some td /\
                map (parsed_members fold KFolded) d = map (fun r => canonical cc (r_members r)) rd.
Proof.
  intros cenc cdec cfg scfg cc fold anorm Hb Hs Hz Hc Ha v rd td Hk Hf Hrep Hlow Hex.
  destruct (members_bin_reader_roundtrip cenc cdec cfg cc fold Hc Hb v rd Hk Hf Hex) as [d [Hp Hm]].
  exists d. split; [assumption|]. split; [|assumption].
  rewrite (members_bin_roundtrip cenc cdec cfg cc Hc v rd Hb Hk Hex) in Hp. injection Hp as <-.
  destruct (typed_lift_lower fmul64 fdiv64 anorm scfg cfg Hs Hz (std_model_rn64 _) Ha td Hrep) as [d' [Hl [Hlift _]]].
  rewrite Hlow in Hl. injection Hl as <-. assumption.
Qed.

Theorem c14_property_binary_premises_satisfiable :
  bin_cfg_ok good_cfg = true /\ scalar_cfg_ok pinned_scalar = true /\ sizes_match_formats pinned_scalar good_cfg = true /\
  cnt_cfg_ok good_cnt = true /\
  Forall (fun r => keys_nodup (r_members r)) hist_rdoc /\ Forall (fun r => keyed_by_fold (fun s => s) (r_members r)) hist_rdoc /\
  tdoc_rep fdiv64 pinned_scalar hist_tdoc /\ lower_doc fmul64 pinned_scalar hist_tdoc = Some (map (abstract good_cnt) hist_rdoc) /\
  expressible idenc iddec good_cfg 5 (map (abstract good_cnt) hist_rdoc).
Proof. exact c14_property_binary_example. Qed.

(** KeyValues2.  For all tokenizer tables / options / casefold / keyword list / root rule meeting the named conditions and
    every element graph [g] (ids pairwise distinct, references in range, stub ids not element ids; strings the format can
    carry: [doc_ok]; every element reachable from the exported one): flat layout — the exported text, tokenized, parsed and
    linked is [g]; nested layout — the tree of blocks [d] the root rule gives is parsed back from its text, contains every
    element exactly once (sharing, cycles: by reference to a top-level block), the exported one first, and the elements
    the reader registers are, up to order, the flat document of [g], whose references resolve to [g]; the graph [g'] the fix-up
    pass builds from them has that document as its flat document — [g'] and [g] are the same graph up to the order in which
    the elements are listed. *)
Theorem c14_property_kv2 :
  forall (T : tables) (o : opts) (fold : Str.str -> Str.str) (vtnames : list Str.str) (c : rootcfg),
    kv2_tables_ok T = true -> kv2_opts_ok o = true -> vtnames_ok T fold vtnames = true -> root_rule_ok c = true ->
    forall g : gdoc, graph_ok g = true -> doc_ok T vtnames (flatten g) = true -> g <> [] -> (forall j, (j < length g)%nat -> reach g j) ->
      match parse_text T o fold vtnames (render_doc T (flatten g)) with Some d => link d | None => None end = Some g /\
      exists d, nest_doc g (is_root fold vtnames c false g) false = Some d /\
        parsen_text T o fold vtnames (rendern_doc T d) = Some d /\
        written_once d = true /\
        Permutation.Permutation (unnest d) (flatten g) /\
        (exists rest, unnest d = flat_elem (ids g) (nth 0 g dflt_gelem) :: rest) /\
        (exists g', link (unnest d) = Some g' /\ flatten g' = unnest d) /\
        link (flatten g) = Some g.
Proof. exact c14_property_kv2_gen. Qed.

Theorem c14_property_kv2_premises_satisfiable :
  kv2_tables_ok pinned_tables && kv2_opts_ok pinned_kv2_opts && vtnames_ok pinned_tables (fun s => s) pinned_vtnames &&
  root_rule_ok pinned_rootcfg && graph_ok ex_graph && doc_ok pinned_tables pinned_vtnames (flatten ex_graph) = true /\
  (forall j, (j < length ex_graph)%nat -> reach ex_graph j).
Proof. exact c14_property_kv2_example. Qed.

(** * "Isomorphic graph" with the isomorphism written out *)

(** Two graphs (ids pairwise distinct, references in range, stub ids not element ids) whose flat documents are permutations
    of each other are isomorphic: the renumbering by id [by_id g g'] (index [i] of [g] goes to the index in [g'] of the
    element with the same id) is injective, keeps the number of elements, and element [by_id i] of [g'] is element [i] of
    [g] with every element reference [j] replaced by [by_id j] — type, id, name, attribute names with their casing, order,
    types, shapes and strings equal, NULL and stubs as such, sharing and cycles carried by the renumbered references. *)
Theorem kv2_permuted_flat_documents_are_isomorphic : forall g g' : gdoc, graph_ok g = true -> graph_ok g' = true ->
  Permutation.Permutation (flatten g') (flatten g) -> graph_iso (by_id g g') g g'.
Proof. exact perm_graph_iso. Qed.

(** [graph_iso] leaves no freedom besides the numbering: an isomorphism that is the identity on indexes relates equal graphs. *)
Theorem kv2_graph_iso_identity : forall g g' : gdoc, graph_iso (fun i => i) g g' -> g' = g.
Proof.
  intros g g' [Hl [Hs _]]. apply (nth_ext g' g dflt_gelem dflt_gelem Hl). intros n Hn. rewrite Hl in Hn.
  destruct (Hs n Hn) as [_ E]. now rewrite E, ren_elem_id.
Qed.

(** What the fix-up pass of [parse_kv2] builds is a graph whenever no id was registered twice: every resolved reference is
    in range and an id that stays a stub is not the id of a registered element. *)
Theorem kv2_fixup_builds_a_graph : forall d g0, link d = Some g0 -> NoDup (map id_text d) -> graph_ok g0 = true.
Proof. exact link_graph_ok. Qed.

(** The whole property for the nested layout with the isomorphism explicit.  Same hypotheses as [c14_property_kv2]: the
    tree of blocks [d] the root rule gives is parsed back from its text; the fix-up pass builds a graph [g'] from the
    elements registered for it; [g'] is isomorphic to the exported graph [g] by the renumbering by id, and the isomorphism
    maps the exported element to the element [Element.parse] returns (the first one). *)
Theorem c14_property_kv2_iso :
  forall (T : tables) (o : opts) (fold : Str.str -> Str.str) (vtnames : list Str.str) (c : rootcfg),
    kv2_tables_ok T = true -> kv2_opts_ok o = true -> vtnames_ok T fold vtnames = true -> root_rule_ok c = true ->
    forall g : gdoc, graph_ok g = true -> doc_ok T vtnames (flatten g) = true -> g <> [] -> (forall j, (j < length g)%nat -> reach g j) ->
      exists d g',
        nest_doc g (is_root fold vtnames c false g) false = Some d /\
        parsen_text T o fold vtnames (rendern_doc T d) = Some d /\
        link (unnest d) = Some g' /\ graph_ok g' = true /\
        graph_iso (by_id g g') g g' /\ by_id g g' 0%nat = 0%nat.
Proof.
  intros T o fold vtnames c HT Ho Hv Hc g Hg Hdoc Hne Hreach.
  destruct (c14_property_kv2_gen T o fold vtnames c HT Ho Hv Hc g Hg Hdoc Hne Hreach) as [_ [d [Hd [Hparse [Honce [Hperm [[rest Hhead] [[g' [Hlink Hflat]] _]]]]]]]].
  assert (Hok : graph_ok g' = true) by (apply (link_graph_ok (unnest d) g' Hlink), nodup_str_iff, Honce).
  rewrite <- Hflat in Hperm, Hhead.
  exists d, g'. split; [exact Hd|]. split; [exact Hparse|]. split; [exact Hlink|]. split; [exact Hok|]. split.
  - exact (perm_graph_iso g g' Hg Hok Hperm).
  - exact (by_id_head g g' rest Hhead).
Qed.

(** Example: read back from the nested layout, the elements of [ex_graph] are listed in the order of the blocks; the
    renumbering is 0, 1, 2, 3 -> 0, 3, 1, 2 (not the identity), and what is read is a graph. *)
Theorem kv2_iso_example :
  match nest_doc ex_graph (ex_isroot pinned_rootcfg ex_graph) false with
  | Some d => match link (unnest d) with
              | Some g' => (map (by_id ex_graph g') [0; 1; 2; 3]%nat, graph_ok g', negb (Nat.eqb (by_id ex_graph g' 1%nat) 1%nat))
              | None => ([], false, false)
              end
  | None => ([], false, false)
  end = ([0; 3; 1; 2]%nat, true, true).
Proof. exact iso_example. Qed.

(** The executable test of [graph_iso] the check runs (kernel-evaluated) on the graph the real [Element.parse] returns for every
    nested-layout case of the correspondence: when it answers [true] the two graphs are isomorphic by that renumbering. *)
Theorem kv2_graph_iso_test_sound : forall s g g', graph_iso_b s g g' = true -> graph_iso s g g'.
Proof. exact graph_iso_b_sound. Qed.

(** * [cull_uuid]: what the option loses *)

(** The tree of blocks written with [cull_uuid] does not depend on the ids of the elements written inline: for any root
    predicate, two graphs with the same types, names and attributes (references included) element by element and the same
    ids for the roots have the same culled export. *)
Theorem kv2_culled_export_ignores_inline_ids : forall (isroot : nat -> bool) (g g2 : gdoc),
  differs_in_inline_ids isroot g g2 -> nest_doc g isroot true = nest_doc g2 isroot true.
Proof. exact culled_export_ignores_inline_ids. Qed.

(** Hence it is the erasure of the unculled tree of any of these graphs: the reader, which gives every block without id
    line a fresh UUID, returns one of them (that step — a fresh UUID per id-less block — is not modelled; the text
    correspondence and the oracle compare the structure). *)
Theorem kv2_culled_export_is_erasure_of_either : forall (isroot : nat -> bool) (g g2 : gdoc),
  differs_in_inline_ids isroot g g2 ->
  nest_doc g isroot true = option_map (map (erase_elem true)) (nest_doc g2 isroot false).
Proof. intros isroot g g2 H. rewrite (culled_export_ignores_inline_ids isroot g g2 H). apply nest_doc_cull. Qed.

(** Example: [ex_graph] with other ids for its two inline elements has the same culled text and another unculled text. *)
Theorem kv2_culled_export_example :
  differs_in_inline_ids (ex_isroot pinned_rootcfg ex_graph) ex_graph ex_graph_relabelled /\
  (let r := ex_isroot pinned_rootcfg ex_graph in
   map r [0; 1; 2; 3]%nat = [true; true; false; false] /\
   ondoc_same (nest_doc ex_graph r true) (nest_doc ex_graph_relabelled r true) = true /\
   ondoc_same (nest_doc ex_graph r false) (nest_doc ex_graph_relabelled r false) = false /\
   match nest_doc ex_graph r true with Some d => negb (str_eqb (rendern_doc pinned_tables d) []) | None => false end = true).
Proof. exact (conj ex_graph_relabelled_differs culled_export_example). Qed.
