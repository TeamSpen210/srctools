(** C02 — escape_text and the tokenizer are exact inverses on every string.
    The statements, each with its proof where that is a few steps from the lemmas of Text/*Proofs.v, otherwise citing
    the lemma that carries it.

    Strings are [list N] (every code point, lone surrogates included).  [T : tables] stands for the constant tables of
    tokenizer.py (ESCAPES, the exclusion sets of the two regexes, _OPERATORS, BARE_DISALLOWED); the theorems hold for
    EVERY table satisfying the boolean conditions named in the premises.  The check regenerates the tables from the
    source on every run (Gen/EscTables_gen.v, instance [TokGen.gen_tables]) and discharges each condition for them by
    [vm_compute] as a named instance obligation. *)
From Coq Require Import List NArith Bool.
From SV Require Import Text.Str Text.Prog Text.ProgProofs Text.Escape Text.EscapeProofs Text.EscPipeline Text.EscPipelineProofs
  Text.Tokenizer Text.TokenizerProofs Text.HsTable Text.HsTableProofs Text.GtTable Text.GtTableProofs Text.OptsAtCall.
Import ListNotations.
Open Scope N_scope.

(** For every string [s], both modes [ml], every option vector with escapes enabled, any starting line number and
    [_last_was_cr] state: tokenizing  "  escape_text(s, ml)  "  gives one STRING token with value [s], then EOF
    for ever ([n] further calls, any [n]); the line counter advances by the number of raw line feeds. *)
Theorem c02_escape_tokenize_inverse : forall T o,
  allow_escapes o = true -> forall ml, tbl_ok T ml = true -> dq_not_operator T = true ->
  forall s n fuel line lcr, (length s + 2 <= fuel)%nat ->
  tokens_flat T o (S n) fuel line lcr (DQ :: escape T ml s ++ [DQ])
  = RTok STRING s (line + raw_lfs T ml s) false :: repeat (RTok EOF [] (line + raw_lfs T ml s) false) n.
Proof. exact escape_tokenize_inverse. Qed.

(** [escape_text] as the translator reads it from the source is a pipeline [p] of whole-string steps (regex
    substitutions with the table callback, [str.replace] calls, each conditional on [multiline]).  If the steps that
    apply in mode [ml] are exactly one substitution whose exclusion string is the one recorded in [T] (the instance
    obligation [escape_text_is_one_table_substitution_*] — false for e.g. "escape everything, then put the line
    feeds back with replace"), the function IS the per-character model ... *)
Theorem c02_escape_text_is_charwise : forall T p ml, single_sub p ml = Some (excl T ml) ->
  forall s, run_pipeline (esc_table T) p ml s = escape T ml s.
Proof. exact pipeline_is_escape. Qed.

(** ... and therefore the inverse law holds for the function as written in the source. *)
Theorem c02_escape_text_tokenize_inverse : forall T p o ml,
  allow_escapes o = true -> single_sub p ml = Some (excl T ml) -> tbl_ok T ml = true -> dq_not_operator T = true ->
  forall s n fuel line lcr, (length s + 2 <= fuel)%nat ->
  tokens_flat T o (S n) fuel line lcr (DQ :: run_pipeline (esc_table T) p ml s ++ [DQ])
  = RTok STRING s (line + raw_lfs T ml s) false :: repeat (RTok EOF [] (line + raw_lfs T ml s) false) n.
Proof.
  intros T p o ml He Hp Hok Hop s n fuel line lcr Hf. rewrite (pipeline_is_escape T p ml Hp s).
  exact (escape_tokenize_inverse T o He ml Hok Hop s n fuel line lcr Hf).
Qed.

(** The shape condition is not decoration: a post-processing pipeline is not a per-character map, and breaks the law
    (backslash 'n' comes back as the empty string: backslash-LF is a line continuation). *)
Theorem c02_postprocessing_refuted :
  is_single_sub pp_pipeline true = false
  /\ run_pipeline pp_table pp_pipeline true [92; 110] = [92; 10]
  /\ tokens_flat {| esc_table := pp_table; excl_single := []; excl_multi := []; bare_disallowed := []; operators := [];
                    casefold := fun c => [c] |}
       {| string_bracket := false; string_parens := true; allow_escapes := true; allow_star_comments := false;
          preserve_comments := false; colon_operator := false; plus_operator := false |}
       1 10 1 false (DQ :: run_pipeline pp_table pp_pipeline true [92; 110] ++ [DQ]) = [RTok STRING [] 1 false].
Proof. vm_compute. repeat split; reflexivity. Qed.

(** Nor is a substitution with a look-ahead ("in multiline mode only a lone CR needs escaping", the alternative CR(?!LF)): it is not
    [single_sub], it leaves the CR of CR LF raw, and the tokenizer folds a raw CR LF inside a string to one LF: the string CR LF
    comes back as LF (computed witness). *)
Theorem c02_lookahead_refuted :
  is_single_sub [(PAlways, PSubLA [10] [(13, 10)])] true = false
  /\ run_pipeline la_table [(PAlways, PSubLA [10] [(13, 10)])] true [13; 10] = [13; 10]
  /\ tokens_flat {| esc_table := la_table; excl_single := []; excl_multi := [10]; bare_disallowed := []; operators := [];
                    casefold := fun c => [c] |}
       {| string_bracket := false; string_parens := true; allow_escapes := true; allow_star_comments := false;
          preserve_comments := false; colon_operator := false; plus_operator := false |}
       1 10 1 false (DQ :: run_pipeline la_table [(PAlways, PSubLA [10] [(13, 10)])] true [13; 10] ++ [DQ]) = [RTok STRING [10] 2 false].
Proof. vm_compute. repeat split; reflexivity. Qed.

(** The same through the reader state of the real class ([_cur_chunk], [_char_index], chunk iterator), for the text
    supplied as one string or cut into arbitrary chunks (empty ones included). *)
Theorem c02_escape_tokenize_inverse_chunked : forall T o ml,
  allow_escapes o = true -> tbl_ok T ml = true -> dq_not_operator T = true ->
  forall s n fuel chunks, (length s + 2 <= fuel)%nat -> concat chunks = DQ :: escape T ml s ++ [DQ] ->
  tokens_chk T o (S n) fuel 1 false (chk_of_chunks chunks)
  = RTok STRING s (1 + raw_lfs T ml s) false :: repeat (RTok EOF [] (1 + raw_lfs T ml s) false) n
  /\ tokens_chk T o (S n) fuel 1 false (chk_of_str (concat chunks))
  = RTok STRING s (1 + raw_lfs T ml s) false :: repeat (RTok EOF [] (1 + raw_lfs T ml s) false) n.
Proof.
  intros T o ml He Hok Hop s n fuel chunks Hf Hc.
  rewrite (tokens_any_chunking T o (S n) fuel chunks).
  rewrite (tokens_chunk_independent T o (S n) fuel 1 false (concat chunks) _ (R_of_str (concat chunks))).
  rewrite Hc. split; exact (escape_tokenize_inverse T o He ml Hok Hop s n fuel 1 false Hf).
Qed.

(** Compositional form: after an opening quote, the escaped text followed by a quote is read back as exactly [s]
    whatever follows it ([rest]), at whatever line, and [rest] is left untouched: the string can be embedded at any
    position of a larger KeyValues / VMF / BSP-entity / DMX-KV2 line. *)
Theorem c02_quoted_embedding : forall T o,
  allow_escapes o = true -> forall ml, tbl_ok T ml = true ->
  forall s f acc line rest, (length s < f)%nat ->
  run_flat (handle_string T o f acc false line) (escape T ml s ++ DQ :: rest)
  = (RTok STRING (rev acc ++ s) (line + raw_lfs T ml s) false, rest).
Proof. exact quoted_embedding. Qed.

(** [_handle_string] as written in the source.  The translator executes the loop body on abstract values and
    emits one row per combination it can distinguish (class of the character, the [last_was_cr] flag, [allow_escapes],
    class of the character after a backslash); [hs_interp] gives any such table a meaning.  If the rows are the model's
    rows (instance obligation [handle_string_rows_are_the_model]), the table's interpretation is the hand model
    [handle_string] for every input, fuel, collected prefix, flag and line ... *)
Theorem c02_handle_string_table_is_model : forall T o rows, hs_rows_ok rows = true ->
  forall f acc lcr line l,
  run_flat (hs_interp T o (tb_of rows) f acc lcr line) l = run_flat (handle_string T o f acc lcr line) l.
Proof. exact hs_rows_interp_is_model. Qed.

(** ... also over the chunked reader state of the real class ... *)
Theorem c02_handle_string_table_is_model_chunked : forall T o rows, hs_rows_ok rows = true ->
  forall f acc lcr line l s, R l s ->
  fst (run_chk (hs_interp T o (tb_of rows) f acc lcr line) s) = fst (run_flat (handle_string T o f acc lcr line) l).
Proof.
  intros T o rows H f acc lcr line l s HR. rewrite <- (hs_rows_interp_is_model T o rows H).
  exact (eq_sym (proj1 (chunk_independent _ l s HR))).
Qed.

(** ... hence the inverse law for BOTH functions as written in the source: the pipeline [p] read from [escape_text]
    and the table [rows] read from [_handle_string]. *)
Theorem c02_inverse_as_written : forall T p o rows ml,
  allow_escapes o = true -> single_sub p ml = Some (excl T ml) -> tbl_ok T ml = true -> hs_rows_ok rows = true ->
  forall s f acc line rest, (length s < f)%nat ->
  run_flat (hs_interp T o (tb_of rows) f acc false line) (run_pipeline (esc_table T) p ml s ++ DQ :: rest)
  = (RTok STRING (rev acc ++ s) (line + raw_lfs T ml s) false, rest).
Proof.
  intros T p o rows ml He Hp Hok Hr s f acc line rest Hf.
  rewrite (hs_rows_interp_is_model T o rows Hr), (pipeline_is_escape T p ml Hp s).
  exact (quoted_embedding T o He ml Hok s f acc line rest Hf).
Qed.

(** The whole property in one statement, for the three functions AS WRITTEN in the source: the pipeline [p] read from
    [escape_text], the decision trees [G] read from [_get_token] / [_handle_comment] (Text/GtTable.v) and the rows read from
    [_handle_string].  Hypotheses, all boolean and all discharged for today's source by named instance obligations:
    escapes are enabled; the steps of [escape_text] in mode [ml] are one table substitution; the table conditions [tbl_ok]; the
    double quote is not an operator; the trees and the rows are the model's.  Then for EVERY string [s], both modes, every
    option vector, any number [n] of further calls and ANY cutting of the text into chunks, tokenizing  "escape_text(s)"  with the
    tokenizer as written gives exactly one STRING token with value [s], then EOF for ever; the same for the text as one string. *)
Theorem c02_property_as_written : forall T p o G rows ml,
  allow_escapes o = true -> single_sub p ml = Some (excl T ml) -> tbl_ok T ml = true -> dq_not_operator T = true ->
  trees_ok G = true -> hs_rows_ok rows = true ->
  forall s n fuel chunks, (length s + 2 <= fuel)%nat -> concat chunks = DQ :: run_pipeline (esc_table T) p ml s ++ [DQ] ->
  itokens_chk (gt_interp T o (steps_of G) (hs_interp T o (tb_of rows)) fuel) (S n) 1 false (chk_of_chunks chunks)
  = RTok STRING s (1 + raw_lfs T ml s) false :: repeat (RTok EOF [] (1 + raw_lfs T ml s) false) n
  /\ itokens_chk (gt_interp T o (steps_of G) (hs_interp T o (tb_of rows)) fuel) (S n) 1 false (chk_of_str (concat chunks))
  = RTok STRING s (1 + raw_lfs T ml s) false :: repeat (RTok EOF [] (1 + raw_lfs T ml s) false) n.
Proof.
  intros T p o G rows ml He Hp Hok Hop HG Hr s n fuel chunks Hf Hc.
  pose proof (hs_rows_interp_is_model T o rows Hr) as Hhs.
  rewrite (gt_trees_trace_is_model_chunked T o G _ HG Hhs (S n) fuel 1 false (concat chunks) _ (R_of_chunks chunks)).
  rewrite (gt_trees_trace_is_model_chunked T o G _ HG Hhs (S n) fuel 1 false (concat chunks) _ (R_of_str (concat chunks))).
  rewrite Hc, (pipeline_is_escape T p ml Hp s).
  split; exact (escape_tokenize_inverse T o He ml Hok Hop s n fuel 1 false Hf).
Qed.

(** The options are public, settable attributes that every call of [tok()] reads when it runs; a trace in which they
    change between calls is a trace with one option vector per call ([tokens_flat_opts]; with the same vector at every call it
    is [tokens_flat]: [OptsAtCall.tokens_flat_opts_const]).  C02 needs escapes to be enabled during ONE call only - the call that
    reads the string: whatever the options were during earlier calls and whatever they become afterwards ... *)
Theorem c02_inverse_options_read_at_call_time : forall T o os ml,
  allow_escapes o = true -> tbl_ok T ml = true -> dq_not_operator T = true ->
  forall s fuel line lcr, (length s + 2 <= fuel)%nat ->
  tokens_flat_opts T (o :: os) fuel line lcr (DQ :: escape T ml s ++ [DQ])
  = RTok STRING s (line + raw_lfs T ml s) false :: map (fun _ => RTok EOF [] (line + raw_lfs T ml s) false) os.
Proof. exact escape_tokenize_inverse_opts. Qed.

(** ... and, per call, for the three functions AS WRITTEN in the source: from any reader state (line, [_last_was_cr]) left by
    earlier calls, the call made with escapes enabled reads  "escape_text(s)"  as STRING [s] and leaves the rest of the input
    untouched (flat, and over the chunked reader state of the real class). *)
Theorem c02_one_call_as_written : forall T p o G rows ml,
  allow_escapes o = true -> single_sub p ml = Some (excl T ml) -> tbl_ok T ml = true -> dq_not_operator T = true ->
  trees_ok G = true -> hs_rows_ok rows = true ->
  forall s f line lcr rest, (length s + 2 <= f)%nat ->
  run_flat (gt_interp T o (steps_of G) (hs_interp T o (tb_of rows)) f line lcr) (DQ :: run_pipeline (esc_table T) p ml s ++ DQ :: rest)
  = (RTok STRING s (line + raw_lfs T ml s) false, rest)
  /\ forall st, R (DQ :: run_pipeline (esc_table T) p ml s ++ DQ :: rest) st ->
     fst (run_chk (gt_interp T o (steps_of G) (hs_interp T o (tb_of rows)) f line lcr) st) = RTok STRING s (line + raw_lfs T ml s) false.
Proof.
  intros T p o G rows ml He Hp Hok Hop HG Hr s f line lcr rest Hf.
  pose proof (hs_rows_interp_is_model T o rows Hr) as Hhs.
  pose proof (get_token_reads_quoted_escape T o ml He Hok Hop s f line lcr rest Hf) as H1.
  rewrite (pipeline_is_escape T p ml Hp s). split.
  - now rewrite (gt_trees_interp_is_model T o G _ HG Hhs).
  - intros st HR. rewrite (gt_trees_interp_is_model_chunked T o G _ HG Hhs f line lcr _ st HR). now rewrite H1.
Qed.

(** The row condition is not decoration: a table whose LF rows ignore the flag is rejected, and its interpretation
    reads CR LF as two line breaks. *)
Theorem c02_handle_string_table_refuted :
  hs_rows_ok hs_rows_bad = false
  /\ forall T o, fst (run_flat (hs_interp T o (tb_of hs_rows_bad) 5 [] false 1) [CR; LF; DQ]) = RTok STRING [LF; LF] 3 false.
Proof. split; [vm_compute; reflexivity | intros T [sb sp [] sc pc co po]; reflexivity]. Qed.

(** Shape of the escaped text: it is the concatenation of units, each a raw character or backslash + symbol ... *)
Theorem c02_escape_units : forall T ml s, concat (map unit_chars (escape_units T ml s)) = escape T ml s.
Proof.
  intros T ml. induction s as [|c s IH]; [reflexivity|].
  cbn [escape_units map concat escape flat_map]. fold (escape_units T ml s). fold (escape T ml s). rewrite IH. f_equal.
  unfold esc_unit, esc_char. destruct (mem c (excl T ml)); [reflexivity|].
  destruct (rlookup c (esc_table T)); reflexivity.
Qed.

(** ... and no raw unit is a double quote (both modes) ... *)
Theorem c02_escape_no_raw_dq : forall T ml, tbl_dq T ml = true ->
  forall s, Forall (fun u => match u with Raw c => c <> DQ | Esc _ => True end) (escape_units T ml s).
Proof. intros T ml H. exact (escape_no_raw T ml DQ H). Qed.

(** ... nor a carriage return (both modes; a raw CR would be folded to LF by the tokenizer). *)
Theorem c02_escape_no_raw_cr : forall T ml, tbl_cr T ml = true ->
  forall s, Forall (fun u => match u with Raw c => c <> CR | Esc _ => True end) (escape_units T ml s).
Proof. intros T ml H. exact (escape_no_raw T ml CR H). Qed.

(** In single-line mode the escaped text contains no line-break character at all, raw or otherwise. *)
Theorem c02_escape_no_raw_linebreak : forall T,
  tbl_lf_single T = true -> tbl_cr T false = true -> tbl_sym_no_linebreak T = true ->
  forall s, ~ In LF (escape T false s) /\ ~ In CR (escape T false s).
Proof. exact escape_no_linebreak_single. Qed.

(** Only the values of ESCAPES are ever changed (used by the exhaustive code-point comparison with escape_text). *)
Theorem c02_escape_identity_elsewhere : forall T ml c, ~ In c (map snd (esc_table T)) -> esc_char T ml c = [c].
Proof. intros T ml c H. unfold esc_char. rewrite (rlookup_None _ _ H). now destruct (mem c (excl T ml)). Qed.

(** Line accounting: no raw line feed when LF must be escaped; otherwise one line per LF of the string. *)
Theorem c02_lines_single : forall T ml, must_escape T ml LF = true -> forall s, raw_lfs T ml s = 0.
Proof.
  intros T ml Hm. induction s as [|c s IH]; [reflexivity|]. cbn [raw_lfs fold_right]. fold (raw_lfs T ml s). rewrite IH.
  unfold raw_lf. destruct (c =? LF) eqn:El; [|reflexivity]. apply N.eqb_eq in El. subst.
  unfold must_escape in Hm. apply negb_true_iff in Hm. now rewrite Hm.
Qed.
Theorem c02_lines_multi : forall T ml, is_raw T ml LF = true ->
  forall s, raw_lfs T ml s = N.of_nat (count_occ N.eq_dec s LF).
Proof.
  intros T ml Hr. induction s as [|c s IH]; [reflexivity|]. cbn [raw_lfs fold_right count_occ]. fold (raw_lfs T ml s).
  rewrite IH. unfold raw_lf. destruct (N.eq_dec c LF) as [->|Hn].
  - rewrite Hr, N.eqb_refl. cbn [andb]. now rewrite Nat2N.inj_succ, N.add_1_l.
  - apply N.eqb_neq in Hn. now rewrite Hn.
Qed.

(** The premises are satisfiable (this is the table of the pinned tree, written out by hand; the check proves the
    same conditions for the table it regenerates from today's source). *)
Definition example_tables : tables := {|
  esc_table := [(110,10);(116,9);(118,11);(98,8);(114,13);(102,12);(97,7);(34,34);(39,39);(47,47);(92,92);(63,63)];
  excl_single := [63;47]; excl_multi := [63;47;10];
  bare_disallowed := [34;39;123;125;59;44;61;91;93;40;41;13;10;9;32];
  operators := [(123, BRACE_OPEN); (125, BRACE_CLOSE); (61, EQUALS); (44, COMMA)];
  casefold := fun c => [c] |}.
Theorem c02_premises_satisfiable :
  tbl_ok example_tables false && tbl_ok example_tables true && dq_not_operator example_tables
  && tbl_lf_single example_tables && tbl_sym_no_linebreak example_tables && is_raw example_tables true LF = true.
Proof. vm_compute. reflexivity. Qed.

(** The conditions are not decoration: without the escape for the double quote the inverse law is false. *)
Definition table_without_dq : tables := {|
  esc_table := [(110,10);(92,92)]; excl_single := []; excl_multi := []; bare_disallowed := []; operators := [];
  casefold := fun c => [c] |}.
Theorem c02_needs_dq_escape :
  let o := {| string_bracket := false; string_parens := true; allow_escapes := true; allow_star_comments := false;
              preserve_comments := false; colon_operator := false; plus_operator := false |} in
  tokens_flat table_without_dq o 1 10 1 false (DQ :: escape table_without_dq false [DQ] ++ [DQ]) = [RTok STRING [] 1 false].
Proof. vm_compute. reflexivity. Qed.
