(** Little-endian byte strings (bytes are [N] values below 256), as used by Python's [struct] with the
    ["<"] prefix.  Definitions and their arithmetic lemmas (the lemmas are the whole point of the file). *)
From Coq Require Import NArith ZArith List Bool Lia.
Import ListNotations.
Open Scope N_scope.

Definition byte_ok (b : N) : Prop := b < 256.
Definition bytes_ok (l : list N) : Prop := Forall byte_ok l.

(** [n] written on [w] bytes, least significant first (high part silently dropped: callers check the range). *)
Fixpoint le_enc (w : nat) (n : N) : list N :=
  match w with
  | O => []
  | S w' => (n mod 256) :: le_enc w' (n / 256)
  end.

Fixpoint le_dec (l : list N) : N :=
  match l with
  | [] => 0
  | b :: r => b + 256 * le_dec r
  end.

Lemma le_enc_length : forall w n, length (le_enc w n) = w.
Proof. induction w; intros; cbn [le_enc length]; auto. Qed.

Lemma le_enc_bytes : forall w n, bytes_ok (le_enc w n).
Proof.
  induction w; intros; cbn [le_enc]; constructor.
  - unfold byte_ok. apply N.mod_lt. discriminate.
  - apply IHw.
Qed.

Lemma pow256_succ : forall w : nat, 256 ^ N.of_nat (S w) = 256 * 256 ^ N.of_nat w.
Proof. intros. rewrite Nnat.Nat2N.inj_succ, N.pow_succ_r'. reflexivity. Qed.

Lemma le_dec_enc : forall w n, n < 256 ^ N.of_nat w -> le_dec (le_enc w n) = n.
Proof.
  induction w; intros n H.
  - cbn in H. cbn [le_enc le_dec]. lia.
  - cbn [le_enc le_dec]. rewrite pow256_succ in H.
    rewrite IHw.
    + pose proof (N.div_mod' n 256). lia.
    + apply N.div_lt_upper_bound; lia.
Qed.

Lemma le_dec_bound : forall l, bytes_ok l -> le_dec l < 256 ^ N.of_nat (length l).
Proof.
  induction l; intros H.
  - cbn. lia.
  - inversion H; subst. cbn [le_dec length]. rewrite pow256_succ.
    specialize (IHl H3). unfold byte_ok in H2. lia.
Qed.

Lemma le_enc_dec : forall l, bytes_ok l -> le_enc (length l) (le_dec l) = l.
Proof.
  induction l; intros H; [reflexivity|].
  inversion H; subst. unfold byte_ok in H2. cbn [length le_enc le_dec].
  rewrite (N.mul_comm 256), N.mod_add, N.div_add by discriminate.
  rewrite N.mod_small, N.div_small, N.add_0_l, IHl by assumption. reflexivity.
Qed.

(** Two's complement: the unsigned image of a signed value on [w] bytes, and back. *)
Definition modulus (w : nat) : Z := (256 ^ Z.of_nat w)%Z.
Definition in_range (signed : bool) (w : nat) (z : Z) : bool :=
  if signed then andb (- (modulus w / 2) <=? z)%Z (z <? modulus w / 2)%Z
  else andb (0 <=? z)%Z (z <? modulus w)%Z.
Definition to_unsigned (w : nat) (z : Z) : N := Z.to_N (z mod modulus w).
Definition of_unsigned (signed : bool) (w : nat) (n : N) : Z :=
  if andb signed (modulus w / 2 <=? Z.of_N n)%Z then (Z.of_N n - modulus w)%Z else Z.of_N n.

Lemma modulus_pos : forall w, (0 < modulus w)%Z.
Proof. intros. unfold modulus. apply Z.pow_pos_nonneg; lia. Qed.

Lemma modulus_N : forall w, Z.of_N (256 ^ N.of_nat w) = modulus w.
Proof. intros. unfold modulus. rewrite N2Z.inj_pow. rewrite nat_N_Z. reflexivity. Qed.

Lemma modulus_even : forall w, (0 < w)%nat -> (modulus w = 2 * (modulus w / 2))%Z.
Proof.
  intros w H. unfold modulus. destruct w; [lia|].
  rewrite Nat2Z.inj_succ, Z.pow_succ_r by lia.
  replace (256 * 256 ^ Z.of_nat w)%Z with ((128 * 256 ^ Z.of_nat w) * 2)%Z by lia.
  rewrite Z.div_mul by lia. lia.
Qed.

Lemma to_unsigned_bound : forall w z, to_unsigned w z < 256 ^ N.of_nat w.
Proof.
  intros. unfold to_unsigned. pose proof (modulus_pos w).
  pose proof (Z.mod_pos_bound z (modulus w) H).
  apply N2Z.inj_lt. rewrite modulus_N, Z2N.id; lia.
Qed.

Lemma of_to_unsigned : forall s w z, (0 < w)%nat -> in_range s w z = true -> of_unsigned s w (to_unsigned w z) = z.
Proof.
  intros s w z Hw H. unfold in_range in H. unfold of_unsigned, to_unsigned.
  pose proof (modulus_pos w) as Hp. pose proof (modulus_even w Hw) as He.
  pose proof (Z.mod_pos_bound z (modulus w) Hp) as Hb.
  rewrite Z2N.id by lia.
  destruct s; cbn [andb].
  - apply andb_prop in H. destruct H as [H1 H2]. apply Z.leb_le in H1. apply Z.ltb_lt in H2.
    destruct (Z.leb_spec (modulus w / 2) (z mod modulus w)).
    + (* negative *) destruct (Z.lt_ge_cases z 0).
      * assert (z mod modulus w = z + modulus w)%Z.
        { symmetry. apply Z.mod_unique_pos with (q := (-1)%Z); lia. }
        lia.
      * rewrite Z.mod_small in H by lia. lia.
    + destruct (Z.lt_ge_cases z 0).
      * assert (z mod modulus w = z + modulus w)%Z.
        { symmetry. apply Z.mod_unique_pos with (q := (-1)%Z); lia. }
        lia.
      * apply Z.mod_small. lia.
  - apply andb_prop in H. destruct H as [H1 H2]. apply Z.leb_le in H1. apply Z.ltb_lt in H2.
    apply Z.mod_small. lia.
Qed.

Lemma to_of_unsigned : forall s w n, (0 < w)%nat -> n < 256 ^ N.of_nat w ->
  in_range s w (of_unsigned s w n) = true /\ to_unsigned w (of_unsigned s w n) = n.
Proof.
  intros s w n Hw H. pose proof (modulus_pos w) as Hp. pose proof (modulus_even w Hw) as He.
  apply N2Z.inj_lt in H. rewrite modulus_N in H. pose proof (N2Z.is_nonneg n) as Hn.
  unfold of_unsigned, in_range, to_unsigned.
  destruct s; cbn [andb].
  - destruct (Z.leb_spec (modulus w / 2) (Z.of_N n)).
    + split.
      * apply andb_true_intro; split; [apply Z.leb_le | apply Z.ltb_lt]; lia.
      * assert ((Z.of_N n - modulus w) mod modulus w = Z.of_N n)%Z.
        { symmetry. apply Z.mod_unique_pos with (q := (-1)%Z); lia. }
        rewrite H1. apply N2Z.id.
    + split.
      * apply andb_true_intro; split; [apply Z.leb_le | apply Z.ltb_lt]; lia.
      * rewrite Z.mod_small by lia. apply N2Z.id.
  - split.
    + apply andb_true_intro; split; [apply Z.leb_le | apply Z.ltb_lt]; lia.
    + rewrite Z.mod_small by lia. apply N2Z.id.
Qed.
