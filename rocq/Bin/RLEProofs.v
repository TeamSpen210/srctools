(** [rle_roundtrip]: decoding inverts encoding for every byte list, alone and in the middle of a lump. *)
From Coq Require Import NArith List Lia PeanoNat.
From SV Require Import Bin.RLE.
Import ListNotations.
Open Scope N_scope.

Lemma omap_app_app : forall (a b : list N) o,
  option_map (app a) (option_map (app b) o) = option_map (app (a ++ b)) o.
Proof. intros. destruct o; cbn [option_map]; [rewrite app_assoc|]; reflexivity. Qed.

Lemma decU_pair : forall k t, decU (0 :: k :: t) = option_map (app (repeat 0 (N.to_nat k))) (decU t).
Proof. intros. cbn [decU]. rewrite N.eqb_refl. reflexivity. Qed.

Lemma decU_nz : forall x t, x <> 0 -> decU (x :: t) = option_map (cons x) (decU t).
Proof. intros x t H. cbn [decU]. apply N.eqb_neq in H. rewrite H. reflexivity. Qed.

Lemma decB_cons : forall want have atb y r, decB want have atb (y :: r) =
  if andb atb (Nat.leb want have) then Some []
  else if y =? 0 then match r with
                      | [] => None
                      | k :: r' => option_map (app (repeat 0 (N.to_nat k))) (decB want (have + N.to_nat k) true r')
                      end
       else option_map (cons y) (decB want (S have) false r).
Proof. reflexivity. Qed.

Lemma decU_pairs : forall q t,
  decU (concat (repeat [0; 255] q) ++ t) = option_map (app (repeat 0 (q * N.to_nat 255))) (decU t).
Proof.
  induction q; intros t.
  - cbn [repeat concat app Nat.mul]. destruct (decU t); reflexivity.
  - cbn [repeat concat]. rewrite <- app_assoc. change ([0; 255] ++ ?x) with (0 :: 255 :: x).
    rewrite decU_pair, IHq, omap_app_app. rewrite <- repeat_app.
    replace (N.to_nat 255 + q * N.to_nat 255)%nat with (S q * N.to_nat 255)%nat by lia. reflexivity.
Qed.

Lemma decU_emit : forall z t, decU (emit z ++ t) = option_map (app (repeat 0 (N.to_nat z))) (decU t).
Proof.
  intros z t. unfold emit. rewrite <- app_assoc, decU_pairs.
  pose proof (N.div_mod' z 255) as E.
  destruct (N.eqb_spec (z mod 255) 0) as [Hz|Hz].
  - cbn [app]. f_equal. f_equal. f_equal. lia.
  - change ([0; z mod 255] ++ t) with (0 :: z mod 255 :: t). rewrite decU_pair, omap_app_app, <- repeat_app.
    f_equal. f_equal. f_equal. lia.
Qed.

Lemma decU_enc : forall l z t,
  decU (enc l z ++ t) = option_map (app (repeat 0 (N.to_nat z) ++ l)) (decU t).
Proof.
  induction l as [|x r IH]; intros z t.
  - cbn [enc]. rewrite decU_emit, app_nil_r. reflexivity.
  - cbn [enc]. destruct (N.eqb_spec x 0) as [Hx|Hx].
    + subst x. rewrite IH. f_equal. f_equal.
      replace (N.to_nat (z + 1)) with (S (N.to_nat z)) by lia.
      cbn [repeat]. rewrite repeat_cons, <- app_assoc. reflexivity.
    + rewrite <- app_assoc, decU_emit. cbn [app decU]. apply N.eqb_neq in Hx. rewrite Hx.
      rewrite IH. cbn [N.to_nat repeat app].
      destruct (decU t); cbn [option_map]; [|reflexivity]. rewrite <- app_assoc. reflexivity.
Qed.

(** Run-length coding loses nothing, whatever the length of the row and of its zero runs. *)
Theorem rle_roundtrip : forall d, rle_decode None 0 (rle_encode d) = Some d.
Proof.
  intros d. unfold rle_decode, rle_encode. cbn [skipn].
  rewrite <- (app_nil_r (enc d 0)), decU_enc. cbn [decU option_map N.to_nat repeat app]. rewrite app_nil_r. reflexivity.
Qed.

Lemma decU_encs : forall ds, exists r, decU (flat_map rle_encode ds) = Some r.
Proof.
  induction ds as [|d ds [r IH]]; [exists []; reflexivity|].
  cbn [flat_map]. unfold rle_encode at 1. rewrite decU_enc, IH. cbn [option_map]. eexists; reflexivity.
Qed.

(** The bounded loop yields, up to the requested length, what the unbounded one yields.  A zero byte takes its count
    with it, so the recursion goes two bytes down: induction on a bound of the length. *)
Lemma decB_prefix_n : forall n l, (List.length l <= n)%nat -> forall want have atb out, decU l = Some out ->
  exists out', decB want have atb l = Some out' /\ firstn (want - have) out' = firstn (want - have) out.
Proof.
  induction n as [|n IH]; intros l Hl want have atb out H;
    (destruct l as [|y r]; [cbn [decU] in H; injection H as <-; exists []; split; reflexivity|]);
    cbn [List.length] in Hl; [lia|].
  rewrite decB_cons. destruct (andb atb (Nat.leb want have)) eqn:Es.
  - exists []. split; [reflexivity|]. apply andb_prop in Es. destruct Es as [_ Es]. apply Nat.leb_le in Es.
    replace (want - have)%nat with O by lia. reflexivity.
  - destruct (N.eqb_spec y 0) as [Hy|Hy].
    + subst y. destruct r as [|k r']; [discriminate|]. rewrite decU_pair in H. cbn [List.length] in Hl.
      destruct (decU r') as [o|] eqn:El; [|discriminate]. cbn [option_map] in H. injection H as <-.
      destruct (IH r' ltac:(lia) want (have + N.to_nat k)%nat true o El) as (o' & E' & F').
      rewrite E'. cbn [option_map]. eexists; split; [reflexivity|].
      rewrite !firstn_app, repeat_length. f_equal.
      replace (want - have - N.to_nat k)%nat with (want - (have + N.to_nat k))%nat by lia. exact F'.
    + rewrite (decU_nz y r Hy) in H.
      destruct (decU r) as [o|] eqn:El; [|discriminate]. cbn [option_map] in H. injection H as <-.
      destruct (IH r ltac:(lia) want (S have) false o El) as (o' & E' & F').
      rewrite E'. cbn [option_map]. eexists; split; [reflexivity|].
      destruct (want - have)%nat as [|m] eqn:Em; [reflexivity|]. cbn [firstn]. f_equal.
      replace m with (want - S have)%nat by lia. exact F'.
Qed.

Lemma decB_prefix : forall l want out, decU l = Some out ->
  exists out', decB want 0 true l = Some out' /\ firstn want out' = firstn want out.
Proof.
  intros l want out H. destruct (decB_prefix_n _ l (Nat.le_refl _) want O true out H) as (o & E & F).
  exists o. rewrite Nat.sub_0_r in F. auto.
Qed.

(** In the lump: a row of exactly [want] bytes, encoded at offset [length pre] and followed by further encoded
    rows, is read back exactly (the reader is given the offset and [want = ceil(clusters/8)]). *)
Theorem rle_roundtrip_in_lump : forall pre d rest,
  rle_decode (Some (List.length d)) (List.length pre) (pre ++ rle_encode d ++ flat_map rle_encode rest) = Some d.
Proof.
  intros pre d rest. unfold rle_decode.
  rewrite skipn_app, skipn_all, Nat.sub_diag. cbn [skipn app].
  destruct (decU_encs rest) as [r Hr].
  assert (HU : decU (rle_encode d ++ flat_map rle_encode rest) = Some (d ++ r)).
  { unfold rle_encode at 1. rewrite decU_enc, Hr. cbn [option_map N.to_nat repeat app]. reflexivity. }
  destruct (decB_prefix _ (List.length d) _ HU) as (o & E & F).
  rewrite E. cbn [option_map]. rewrite F, firstn_app, firstn_all, Nat.sub_diag. cbn [firstn]. rewrite app_nil_r. reflexivity.
Qed.

(** A row that is longer than [want] bytes is cut by the reader (so the writer must not accept it). *)
Example rle_long_row_is_cut : rle_decode (Some 1%nat) 0 (rle_encode [5; 7]) = Some [5].
Proof. vm_compute. reflexivity. Qed.
Example rle_255_split : rle_encode (repeat 0 300%nat ++ [9]) = [0; 255; 0; 45; 9].
Proof. vm_compute. reflexivity. Qed.
