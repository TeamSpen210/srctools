(** Soundness of the index builders: the index returned denotes the item asked for, in the final table too
    (tables only grow at the end), for every sequence of requests. *)
From Coq Require Import NArith List Lia PeanoNat.
From SV Require Import Bin.FindInsert.
Import ListNotations.
Open Scope N_scope.

(** Tables only grow at the end: the new entry is at the old length, the old entries stay where they are. *)
Lemma nth_error_snoc : forall (A : Type) (l r : list A) x, nth_error (l ++ x :: r) (List.length l) = Some x.
Proof. intros. rewrite nth_error_app2 by lia. rewrite Nat.sub_diag. reflexivity. Qed.
Lemma nth_error_ext : forall (A : Type) (l ext : list A) j k, nth_error l j = Some k -> nth_error (l ++ ext) j = Some k.
Proof. intros A l ext j k H. rewrite nth_error_app1; [exact H|]. apply nth_error_Some. rewrite H. discriminate. Qed.

Lemma Forall2_mono : forall (A B : Type) (P Q : A -> B -> Prop) l1 l2, (forall a b, P a b -> Q a b) -> Forall2 P l1 l2 -> Forall2 Q l1 l2.
Proof. intros A B P Q l1 l2 H F. induction F; constructor; auto. Qed.

Definition fi_inv (s : fi_state) : Prop :=
  forall k i, lookup k (index s) = Some i -> nth_error (items s) i = Some k.

Lemma build_from_inv : forall l pre d,
  (forall k i, lookup k d = Some i -> nth_error (pre ++ l) i = Some k) ->
  forall k i, lookup k (build_from (List.length pre) l d) = Some i -> nth_error (pre ++ l) i = Some k.
Proof.
  induction l as [|x l IH]; intros pre d Hd k i H; cbn [build_from] in H.
  - auto.
  - replace (pre ++ x :: l) with ((pre ++ [x]) ++ l) in * by (rewrite <- app_assoc; reflexivity).
    apply (IH (pre ++ [x]) ((x, List.length pre) :: d)).
    + intros k' i' H'. cbn [lookup] in H'. destruct (N.eqb_spec k' x).
      * injection H' as <-. subst k'. rewrite <- app_assoc. apply nth_error_snoc.
      * auto.
    + rewrite app_length. cbn [List.length]. replace (List.length pre + 1)%nat with (S (List.length pre)) by lia. exact H.
Qed.

Lemma fi_init_inv : forall l, fi_inv (fi_init l).
Proof.
  intros l k i H. unfold fi_init in *. cbn [items index] in *.
  apply (build_from_inv l [] []); [intros ? ? E; discriminate E | exact H].
Qed.

Lemma fi_find_sound : forall s k s' i, fi_inv s -> fi_find s k = (s', i) ->
  nth_error (items s') i = Some k /\ fi_inv s' /\ exists ext, items s' = items s ++ ext.
Proof.
  intros s k s' i Hinv H. unfold fi_find in H. destruct (lookup k (index s)) as [j|] eqn:E.
  - injection H as <- <-. split; [auto|]. split; [exact Hinv|]. exists []. rewrite app_nil_r. reflexivity.
  - injection H as <- <-. cbn [items index]. split.
    + apply nth_error_snoc.
    + split.
      * intros k' i' H'. cbn [items index lookup] in *. destruct (N.eqb_spec k' k).
        -- injection H' as <-. subst k'. apply nth_error_snoc.
        -- apply nth_error_ext. auto.
      * eexists; reflexivity.
Qed.

(** Every index handed out during a whole run still denotes its item in the final table. *)
Theorem fi_run_sound : forall ks s s' is, fi_inv s -> fi_run s ks = (s', is) ->
  Forall2 (fun k i => nth_error (items s') i = Some k) ks is /\ fi_inv s' /\ exists ext, items s' = items s ++ ext.
Proof.
  induction ks as [|k r IH]; intros s s' is Hinv H; cbn [fi_run] in H.
  - injection H as <- <-. split; [constructor|]. split; [exact Hinv|]. exists []. rewrite app_nil_r. reflexivity.
  - destruct (fi_find s k) as [s1 i] eqn:E1. destruct (fi_run s1 r) as [s2 is2] eqn:E2. injection H as <- <-.
    destruct (fi_find_sound _ _ _ _ Hinv E1) as (Hn & Hinv1 & ext1 & Hx1).
    destruct (IH _ _ _ Hinv1 E2) as (Hf & Hinv2 & ext2 & Hx2).
    split; [|split; [exact Hinv2|]].
    + constructor; [|exact Hf]. rewrite Hx2. apply nth_error_ext. exact Hn.
    + exists (ext1 ++ ext2). rewrite Hx2, Hx1, app_assoc. reflexivity.
Qed.

(** * find_or_extend *)
Lemma zip_all_eq_firstn : forall sub l, (List.length sub <= List.length l)%nat -> zip_all_eq sub l = true ->
  firstn (List.length sub) l = sub.
Proof.
  induction sub as [|x sub IH]; intros l Hl H; [reflexivity|].
  destruct l as [|y l]; [cbn in Hl; lia|]. cbn [zip_all_eq] in H. apply andb_prop in H. destruct H as [H1 H2].
  apply N.eqb_eq in H1. subst y. cbn [List.length firstn]. f_equal. apply IH; [cbn in Hl; lia | exact H2].
Qed.

Lemma fe_find_sound : forall keys sub keys' i, fe_find true keys sub = (keys', i) ->
  slice keys' i (List.length sub) = sub /\ exists ext, keys' = keys ++ ext.
Proof.
  intros keys sub keys' i H. unfold fe_find in H. destruct sub as [|k sub'].
  - injection H as <- <-. split; [reflexivity|]. exists []. rewrite app_nil_r. reflexivity.
  - destruct (find (fe_match true keys (k :: sub')) (candidates keys k)) as [j|] eqn:E.
    + injection H as <- <-. apply find_some in E. destruct E as [_ E]. unfold fe_match in E.
      apply andb_prop in E. destruct E as [E1 E2]. apply Nat.leb_le in E1.
      split; [|exists []; rewrite app_nil_r; reflexivity].
      unfold slice. apply zip_all_eq_firstn; [rewrite skipn_length; lia | exact E2].
    + injection H as <- <-. split; [|eexists; reflexivity].
      unfold slice. rewrite skipn_app, skipn_all, Nat.sub_diag. cbn [skipn app]. apply firstn_all.
Qed.

(** A slice that delivers all of [sub] lies inside the table, so growing the table at the end leaves it alone. *)
Lemma slice_ext : forall keys ext i sub, slice keys i (List.length sub) = sub -> slice (keys ++ ext) i (List.length sub) = sub.
Proof.
  intros keys ext i sub H. unfold slice in *. pose proof (f_equal (@List.length N) H) as L. rewrite firstn_length in L.
  rewrite skipn_app, firstn_app. replace (List.length sub - List.length (skipn i keys))%nat with O by lia.
  cbn [firstn]. rewrite app_nil_r. exact H.
Qed.

(** With the bound test, every (first, count) pair produced during a run selects exactly the requested
    sub-list of the final table. *)
Theorem fe_run_sound : forall subs keys keys' is, fe_run true keys subs = (keys', is) ->
  Forall2 (fun sub i => slice keys' i (List.length sub) = sub) subs is /\ exists ext, keys' = keys ++ ext.
Proof.
  induction subs as [|s r IH]; intros keys keys' is H; cbn [fe_run] in H.
  - injection H as <- <-. split; [constructor|]. exists []. rewrite app_nil_r. reflexivity.
  - destruct (fe_find true keys s) as [k1 i] eqn:E1. destruct (fe_run true k1 r) as [k2 is2] eqn:E2. injection H as <- <-.
    destruct (fe_find_sound _ _ _ _ E1) as (Hs & ext1 & Hx1).
    destruct (IH _ _ _ E2) as (Hf & ext2 & Hx2).
    split.
    + constructor; [|exact Hf]. rewrite Hx2. apply slice_ext. exact Hs.
    + exists (ext1 ++ ext2). rewrite Hx2, Hx1, app_assoc. reflexivity.
Qed.
