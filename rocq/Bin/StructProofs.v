(** Proofs about the [struct] model: [unpack] inverts [pack] on every value that fits; [pack] refuses every
    out-of-range integer; [Ns] pads short values and silently truncates long ones. *)
From Coq Require Import NArith ZArith List Bool Lia PeanoNat String.
From SV Require Import Bin.LE Bin.Struct.
Import ListNotations.
Open Scope N_scope.

(** Cutting a buffer at the length of its first part. *)
Lemma firstn_length_app : forall (A : Type) (a b : list A), firstn (List.length a) (a ++ b) = a.
Proof. intros. rewrite firstn_app, firstn_all, Nat.sub_diag. apply app_nil_r. Qed.
Lemma skipn_length_app : forall (A : Type) (a b : list A), skipn (List.length a) (a ++ b) = b.
Proof. intros. rewrite skipn_app, skipn_all, Nat.sub_diag. reflexivity. Qed.

Lemma all_bytes_ok : forall l, all_bytes l = true -> bytes_ok l.
Proof.
  induction l; intros H; constructor; cbn [all_bytes forallb] in H; apply andb_prop in H; destruct H as [H1 H2].
  - unfold byte_ok. apply N.ltb_lt. exact H1.
  - apply IHl. exact H2.
Qed.

Lemma pack_int_length : forall s w z a, pack_int s w z = Some a -> List.length a = w.
Proof. unfold pack_int. intros s w z a H. destruct (in_range s w z); [injection H as <-|discriminate]. apply le_enc_length. Qed.

Lemma pack1_length : forall k v a, pack1 k v = Some a -> List.length a = ksize k.
Proof.
  intros k v a H. destruct k, v; cbn [pack1 ksize] in *; try discriminate.
  - eapply pack_int_length; eauto.
  - eapply pack_int_length; eauto.
  - destruct (bits <? 2 ^ 32); [injection H as <-|discriminate]. first [apply le_enc_length | reflexivity].
  - injection H as <-. reflexivity.
  - injection H as <-. reflexivity.
  - injection H as <-. reflexivity.
  - destruct (all_bytes l); [injection H as <-|discriminate]. rewrite app_length, firstn_length, repeat_length. lia.
Qed.

Lemma pack_length : forall f vs bs, pack f vs = Some bs -> List.length bs = calcsize f.
Proof.
  induction f as [|k f IH]; intros vs bs H.
  - cbn [pack] in H. destruct vs; inversion H. reflexivity.
  - destruct k; cbn [pack] in H;
    try (destruct vs as [|v vs']; [discriminate|];
         match type of H with context [pack1 ?k v] => destruct (pack1 k v) as [a|] eqn:E1 end; [|discriminate];
         destruct (pack f vs') as [b|] eqn:E2; [|discriminate]; inversion H; subst;
         rewrite app_length; cbn [calcsize fold_right]; fold (calcsize f);
         rewrite (pack1_length _ _ _ E1), (IH _ _ E2); reflexivity).
    destruct (pack f vs) as [b|] eqn:E2; cbn [option_map] in H; inversion H; subst.
    cbn [List.length calcsize fold_right ksize]. fold (calcsize f). rewrite (IH _ _ E2). reflexivity.
Qed.

(** One field: a fitting value is packed and read back unchanged. *)
Lemma pack1_unpack1 : forall k v, wf_kind k = true -> fits1 k v = true ->
  exists a, pack1 k v = Some a /\ List.length a = ksize k /\ unpack1 k a = v.
Proof.
  intros k v Hw H. destruct k, v; cbn [fits1] in H; try discriminate.
  - cbn [wf_kind] in Hw. apply Nat.ltb_lt in Hw.
    cbn [pack1]. unfold pack_int. rewrite H. eexists; split; [reflexivity|]. split; [apply le_enc_length|].
    cbn [unpack1]. rewrite le_dec_enc by apply to_unsigned_bound. rewrite of_to_unsigned; auto.
  - cbn [pack1]. rewrite H. eexists; split; [reflexivity|]. split; [apply le_enc_length|].
    cbn [unpack1]. apply N.ltb_lt in H. rewrite le_dec_enc; [reflexivity|]. exact H.
  - cbn [pack1]. eexists; split; [reflexivity|]. split; [reflexivity|]. cbn [unpack1 le_dec]. destruct b; reflexivity.
  - apply andb_prop in H. destruct H as [H1 H2]. apply Nat.eqb_eq in H1. cbn [pack1]. rewrite H2.
    eexists; split; [reflexivity|]. subst n. rewrite firstn_all, Nat.sub_diag. cbn [repeat]. rewrite app_nil_r.
    split; [reflexivity|]. reflexivity.
Qed.

Lemma unpack_app : forall k f a b, List.length a = ksize k ->
  unpack (k :: f) (a ++ b) =
  match unpack f b with None => None | Some r => Some (match k with KPad => r | _ => unpack1 k a :: r end) end.
Proof.
  intros k f a b H. cbn [unpack]. rewrite <- H.
  assert (E : (List.length (a ++ b) <? List.length a)%nat = false) by (apply Nat.ltb_ge; rewrite app_length; lia).
  rewrite E, skipn_length_app, firstn_length_app. reflexivity.
Qed.

Theorem unpack_pack : forall f vs, wf_fmt f = true -> fits f vs = true ->
  exists bs, pack f vs = Some bs /\ unpack f bs = Some vs.
Proof.
  induction f as [|k f IH]; intros vs Hw H.
  - destruct vs; [|discriminate]. exists []. split; reflexivity.
  - cbn [wf_fmt forallb] in Hw. apply andb_prop in Hw. destruct Hw as [Hk Hw].
    destruct k;
    try (cbn [fits] in H; destruct vs as [|v vs']; [discriminate|]; apply andb_prop in H; destruct H as [H1 H2];
         destruct (pack1_unpack1 _ _ Hk H1) as (a & Ea & La & Ua);
         destruct (IH _ Hw H2) as (b & Eb & Ub);
         exists (a ++ b); split; [cbn [pack]; rewrite Ea, Eb; reflexivity|];
         rewrite unpack_app by exact La; rewrite Ub, Ua; reflexivity).
    cbn [fits] in H. destruct (IH _ Hw H) as (b & Eb & Ub).
    exists (0 :: b). split; [cbn [pack]; rewrite Eb; reflexivity|].
    change (0 :: b) with ([0] ++ b). rewrite unpack_app by reflexivity. rewrite Ub. reflexivity.
Qed.

(** The same with the size of what was written: the form the readers of fixed-size records use. *)
Corollary unpack_pack_sized : forall f vs, wf_fmt f = true -> fits f vs = true ->
  exists bs, pack f vs = Some bs /\ List.length bs = calcsize f /\ unpack f bs = Some vs.
Proof.
  intros f vs Hw H. destruct (unpack_pack f vs Hw H) as (bs & Hp & Hu).
  exists bs. split; [exact Hp|]. split; [exact (pack_length f vs bs Hp) | exact Hu].
Qed.

(** [pack] of a concatenation of formats is the concatenation of the parts, when the values are split where the
    formats are. *)
Lemma pack_app : forall f1 v1 f2 v2, List.length v1 = nvalues f1 ->
  pack (f1 ++ f2) (v1 ++ v2) = match pack f1 v1, pack f2 v2 with Some a, Some b => Some (a ++ b) | _, _ => None end.
Proof.
  induction f1 as [|k f1 IH]; intros v1 f2 v2 Hl.
  - destruct v1; [|discriminate]. cbn. destruct (pack f2 v2); reflexivity.
  - destruct k; cbn [app pack];
      try (destruct v1 as [|v v1']; [cbn in Hl; discriminate|]; cbn in Hl; injection Hl as Hl;
           cbn [app]; rewrite (IH v1' f2 v2 Hl); destruct (pack1 _ v); [|reflexivity];
           destruct (pack f1 v1'); [|reflexivity]; destruct (pack f2 v2); [rewrite app_assoc; reflexivity|reflexivity]).
    rewrite (IH v1 f2 v2 Hl). destruct (pack f1 v1); cbn; [|reflexivity]. destruct (pack f2 v2); reflexivity.
Qed.

(** [pack] succeeds only when every integer is inside its field's range: out-of-range integers are rejected
    ([struct.error]) whatever the rest of the record holds. *)
Theorem pack_rejects : forall f vs bs, pack f vs = Some bs -> ints_ok f vs = true.
Proof.
  induction f as [|k f IH]; intros vs bs H; [reflexivity|].
  destruct k; cbn [pack] in H; cbn [ints_ok];
  try (destruct vs as [|v vs']; [reflexivity|];
       match type of H with context [pack1 ?k v] => destruct (pack1 k v) as [a|] eqn:E1 end; [|discriminate];
       destruct (pack f vs') as [b|] eqn:E2; [|discriminate];
       rewrite (IH _ _ E2), andb_true_r).
  - destruct v; cbn [int_ok1]; try reflexivity. cbn [pack1] in E1. unfold pack_int in E1.
    destruct (in_range signed w z); [reflexivity|discriminate].
  - reflexivity.
  - reflexivity.
  - reflexivity.
  - destruct (pack f vs) as [b|] eqn:E2; [|discriminate]. eapply IH; eauto.
Qed.

(** * The [Ns] field *)
Lemma pack_s_pads : forall n l, all_bytes l = true -> (List.length l <= n)%nat ->
  pack [KBytes n] [VBytes l] = Some (l ++ repeat 0 (n - List.length l)).
Proof.
  intros n l Hb Hl. cbn [pack pack1]. rewrite Hb. rewrite firstn_all2 by exact Hl. rewrite app_nil_r. reflexivity.
Qed.

(** Silent truncation: a value longer than the field is cut, no error. *)
Lemma pack_s_truncates : forall n l, all_bytes l = true -> (n < List.length l)%nat ->
  pack [KBytes n] [VBytes l] = Some (firstn n l).
Proof.
  intros n l Hb Hl. cbn [pack pack1]. rewrite Hb.
  replace (n - List.length l)%nat with O by lia. cbn [repeat]. rewrite !app_nil_r. reflexivity.
Qed.

Lemma rstrip0_zeros : forall k, rstrip0 (repeat 0 k) = [].
Proof. induction k; cbn [repeat rstrip0]; [reflexivity|]. rewrite IHk. reflexivity. Qed.

Lemma rstrip0_app_zeros : forall l k, rstrip0 (l ++ repeat 0 k) = rstrip0 l.
Proof.
  induction l as [|b l IH]; intros k; cbn [app].
  - apply rstrip0_zeros.
  - cbn [rstrip0]. rewrite IH. reflexivity.
Qed.

Lemma rstrip0_id : forall l, last l 1 <> 0 -> rstrip0 l = l.
Proof.
  induction l as [|b l IH]; intros H; [reflexivity|].
  cbn [rstrip0]. destruct l as [|c l'].
  - cbn [rstrip0]. cbn [last] in H. apply N.eqb_neq in H. rewrite H. reflexivity.
  - assert (Hl : last (c :: l') 1 <> 0) by exact H.
    rewrite (IH Hl). reflexivity.
Qed.

Lemma unpack_bytes : forall bs, unpack [KBytes (List.length bs)] bs = Some [VBytes bs].
Proof. intros bs. cbn [unpack ksize]. rewrite Nat.ltb_irrefl, skipn_all, firstn_all. reflexivity. Qed.

(** A name that is no longer than the field and does not end in NUL survives pack / unpack / rstrip. *)
Theorem s_roundtrip : forall n l, all_bytes l = true -> (List.length l <= n)%nat -> last l 1 <> 0 ->
  exists bs, pack [KBytes n] [VBytes l] = Some bs /\
             option_map (map (fun v => match v with VBytes b => rstrip0 b | _ => [] end)) (unpack [KBytes n] bs) = Some [l].
Proof.
  intros n l Hb Hl Hz. eexists. split; [apply pack_s_pads; assumption|].
  replace n with (List.length (l ++ repeat 0 (n - List.length l))) at 1 by (rewrite app_length, repeat_length; lia).
  rewrite unpack_bytes. cbn [option_map map]. rewrite rstrip0_app_zeros, rstrip0_id by exact Hz. reflexivity.
Qed.

(** ... and a longer one does not: it comes back cut to the field width (the defect class "unguarded Ns"). *)
Theorem s_truncation_loses : forall n l, all_bytes l = true -> (n < List.length l)%nat ->
  exists bs, pack [KBytes n] [VBytes l] = Some bs /\ unpack [KBytes n] bs = Some [VBytes (firstn n l)].
Proof.
  intros n l Hb Hl. exists (firstn n l). split; [apply pack_s_truncates; assumption|].
  replace n with (List.length (firstn n l)) at 1 by (rewrite firstn_length; lia). apply unpack_bytes.
Qed.

(** Non-vacuity. *)
Example fits_example : fits (fmt_of "<3f3fHH4BI5B3xB3xf"%string)
  (repeat (VFloat 1065353216) 6 ++ [VInt 65535; VInt 0] ++ repeat (VInt 255) 4 ++ [VInt 4294967295] ++
   repeat (VInt 7) 5 ++ [VInt 3; VFloat 0]) = true.
Proof. vm_compute. reflexivity. Qed.
Example reject_example : pack (fmt_of "<HhhH"%string) [VInt 65536; VInt 0; VInt 0; VInt 0] = None.
Proof. vm_compute. reflexivity. Qed.
