(** DeferredWrites (model in BspDeferred.v): the file that results from reserving slots, writing on, setting the slots and
    filling them in at the end is the file a two-pass writer would produce - every slot holds the value set LAST for its
    key, every other byte is where the sequential writes put it. *)
From Coq Require Import NArith List PeanoNat Lia.
From SV Require Import Bin.BspDeferred.
Import ListNotations.
Local Open Scope nat_scope.

Section DictLemmas.
Context {V : Type}.
Implicit Types l : list (nat * V).

Lemma dget_dupd : forall l k k' v, dget k (dupd k' v l) = if Nat.eqb k k' then Some v else dget k l.
Proof.
  induction l as [|[k0 v0] r IH]; intros k k' v; cbn [dupd dget].
  - reflexivity.
  - destruct (Nat.eqb_spec k' k0) as [->|Hne]; cbn [dget].
    + destruct (Nat.eqb k k0); reflexivity.
    + rewrite IH. destruct (Nat.eqb_spec k k0) as [->|]; [|reflexivity].
      destruct (Nat.eqb_spec k0 k'); [congruence|reflexivity].
Qed.

Lemma dget_None : forall l k, dget k l = None <-> ~ In k (dkeys l).
Proof.
  induction l as [|[k0 v0] r IH]; intros k; cbn [dget dkeys map fst In].
  - split; [intros _ []|reflexivity].
  - destruct (Nat.eqb_spec k k0) as [->|Hne].
    + split; [discriminate|]. intros H. exfalso. apply H. left. reflexivity.
    + rewrite IH. unfold dkeys. split; [intros H [E|E]; [congruence|exact (H E)]|intros H E; apply H; right; exact E].
Qed.

Lemma dupd_fresh : forall l k v, ~ In k (dkeys l) -> dupd k v l = l ++ [(k, v)].
Proof.
  induction l as [|[k0 v0] r IH]; intros k v H; cbn [dupd app]; [reflexivity|].
  cbn [dkeys map fst In] in H. destruct (Nat.eqb_spec k k0) as [->|Hne]; [exfalso; apply H; left; reflexivity|].
  f_equal. apply IH. intro E. apply H. right. exact E.
Qed.

Lemma dkeys_dupd : forall l k v x, In x (dkeys (dupd k v l)) <-> x = k \/ In x (dkeys l).
Proof.
  induction l as [|[k0 v0] r IH]; intros k v x; cbn [dupd dkeys map fst In].
  - split; [intros [E|[]]; left; congruence|intros [E|[]]; left; congruence].
  - destruct (Nat.eqb_spec k k0) as [->|Hne]; cbn [map fst In].
    + split; [intros [E|E]; [left; congruence|right; right; exact E]|intros [E|[E|E]]; [left; congruence|left; exact E|right; exact E]].
    + fold (dkeys (dupd k v r)). rewrite IH. unfold dkeys. tauto.
Qed.

Lemma NoDup_dkeys_dupd : forall l k v, NoDup (dkeys l) -> NoDup (dkeys (dupd k v l)).
Proof.
  induction l as [|[k0 v0] r IH]; intros k v H; cbn [dupd dkeys map fst].
  - constructor; [intros []|constructor].
  - cbn [dkeys map fst] in H. inversion H as [|? ? Hn Hr]; subst.
    destruct (Nat.eqb_spec k k0) as [->|Hne]; cbn [map fst]; [constructor; assumption|].
    constructor; [|apply IH; exact Hr]. fold (dkeys (dupd k v r)). rewrite dkeys_dupd. intros [E|E]; [congruence|exact (Hn E)].
Qed.

Lemma dget_ddel : forall l k k', k <> k' -> dget k (ddel k' l) = dget k l.
Proof.
  induction l as [|[k0 v0] r IH]; intros k k' H; cbn [ddel dget]; [reflexivity|].
  destruct (Nat.eqb_spec k' k0) as [->|Hne].
  - destruct (Nat.eqb_spec k k0); [congruence|reflexivity].
  - cbn [dget]. rewrite IH by exact H. reflexivity.
Qed.

Lemma dkeys_ddel : forall l k x, NoDup (dkeys l) -> (In x (dkeys (ddel k l)) <-> x <> k /\ In x (dkeys l)).
Proof.
  induction l as [|[k0 v0] r IH]; intros k x H; cbn [ddel dkeys map fst In].
  - tauto.
  - cbn [dkeys map fst] in H. inversion H as [|? ? Hn Hr]; subst. destruct (Nat.eqb_spec k k0) as [->|Hne].
    + fold (dkeys r). split; [intros E; split; [intros ->; exact (Hn E)|right; exact E]|intros [E1 [E2|E2]]; [congruence|exact E2]].
    + cbn [map fst In]. fold (dkeys (ddel k r)). rewrite IH by exact Hr. unfold dkeys. split.
      * intros [E|[E1 E2]]; [split; [congruence|left; exact E]|split; [exact E1|right; exact E2]].
      * intros [E1 [E2|E2]]; [left; exact E2|right; split; assumption].
Qed.

Lemma NoDup_dkeys_ddel : forall l k, NoDup (dkeys l) -> NoDup (dkeys (ddel k l)).
Proof.
  induction l as [|[k0 v0] r IH]; intros k H; cbn [ddel dkeys map fst]; [constructor|].
  cbn [dkeys map fst] in H. inversion H as [|? ? Hn Hr]; subst. destruct (Nat.eqb_spec k k0) as [->|Hne]; [exact Hr|].
  cbn [map fst]. constructor; [|apply IH; exact Hr]. fold (dkeys (ddel k r)). rewrite dkeys_ddel by exact Hr. intros [_ E]. exact (Hn E).
Qed.

Lemma dget_In : forall l k v, NoDup (dkeys l) -> In (k, v) l -> dget k l = Some v.
Proof.
  induction l as [|[k0 v0] r IH]; intros k v H Hin; [destruct Hin|].
  cbn [dkeys map fst] in H. inversion H as [|? ? Hn Hr]; subst. cbn [dget]. destruct Hin as [E|Hin].
  - injection E as -> ->. rewrite Nat.eqb_refl. reflexivity.
  - destruct (Nat.eqb_spec k k0) as [->|Hne]; [|apply IH; assumption].
    exfalso. apply Hn. change k0 with (fst (k0, v)). apply in_map. exact Hin.
Qed.

Lemma dget_app_l : forall l l' k v, dget k l = Some v -> dget k (l ++ l') = Some v.
Proof.
  induction l as [|[k0 v0] r IH]; intros l' k v H; [discriminate|]. cbn [dget app] in *.
  destruct (Nat.eqb k k0); [exact H|apply IH; exact H].
Qed.
End DictLemmas.

(** The file as the sequential writes leave it (slots zero), and the slots in file order. *)
Fixpoint render0 (ops : list dop) : list N :=
  match ops with
  | [] => []
  | DWrite bs :: r => bs ++ render0 r
  | DDefer _ size :: r => repeat 0%N size ++ render0 r
  | DSet _ _ :: r => render0 r
  end.
Fixpoint locs (base : nat) (ops : list dop) : list (nat * (nat * nat)) :=
  match ops with
  | [] => []
  | DWrite bs :: r => locs (base + List.length bs) r
  | DDefer k size :: r => (k, (base, size)) :: locs (base + size) r
  | DSet _ _ :: r => locs base r
  end.

Lemma dkeys_locs : forall ops base, dkeys (locs base ops) = defer_keys ops.
Proof. induction ops as [|[bs|k size|k d] r IH]; intros base; cbn [locs defer_keys dkeys map fst]; [reflexivity|apply IH|f_equal; apply IH|apply IH]. Qed.

Lemma patch_slot : forall (pre rest d : list N) size, List.length d = size ->
  patch (pre ++ repeat 0%N size ++ rest) (List.length pre) d = pre ++ d ++ rest.
Proof.
  intros pre rest d size H. unfold patch. rewrite firstn_app, firstn_all, Nat.sub_diag. cbn [firstn]. rewrite app_nil_r. f_equal. f_equal.
  rewrite skipn_app. rewrite skipn_all2 by lia. cbn [app]. replace (List.length pre + List.length d - List.length pre) with size by lia.
  rewrite skipn_app. rewrite skipn_all2 by (rewrite repeat_length; lia). rewrite repeat_length, Nat.sub_diag. reflexivity.
Qed.

Lemma final_ok : forall ops pre data m, NoDup (defer_keys ops) -> NoDup (dkeys data) ->
  (forall k, In k (dkeys data) -> In k (defer_keys ops)) ->
  (forall k off size, In (k, (off, size)) (locs (List.length pre) ops) -> dget k data = Some (m k) /\ List.length (m k) = size) ->
  dfinal (locs (List.length pre) ops) data (pre ++ render0 ops) = Some (pre ++ render m ops).
Proof.
  induction ops as [|[bs|k size|k d] r IH]; intros pre data m Hnd Hdd Hkeys Hval; cbn [locs render0 render defer_keys] in *.
  - cbn [dfinal]. destruct data as [|[k v] data']; [reflexivity|]. exfalso. apply (Hkeys k). left. reflexivity.
  - rewrite <- app_length. rewrite !app_assoc. apply IH; try assumption. rewrite app_length. exact Hval.
  - inversion Hnd as [|? ? Hk Hr]; subst. cbn [dfinal].
    destruct (Hval k (List.length pre) size (or_introl eq_refl)) as [Hg <-]. rewrite Hg.
    rewrite patch_slot by reflexivity. rewrite <- app_length in *. rewrite !app_assoc.
    apply IH.
    + exact Hr.
    + apply NoDup_dkeys_ddel. exact Hdd.
    + intros x. rewrite dkeys_ddel by exact Hdd. intros [H1 H2]. destruct (Hkeys x H2) as [E|E]; [congruence|exact E].
    + intros k' off' size' Hin.
      assert (Hne : k' <> k).
      { intros ->. apply Hk. rewrite <- (dkeys_locs r (List.length (pre ++ m k))). change k with (fst (k, (off', size'))). apply in_map. exact Hin. }
      rewrite dget_ddel by exact Hne. apply (Hval k' off' size'). right. exact Hin.
  - apply IH; assumption.
Qed.

Lemma run_inv : forall ops s s', drun s ops = Some s' -> NoDup (dkeys (dloc s) ++ defer_keys ops) ->
  dfile s' = dfile s ++ render0 ops /\ dloc s' = dloc s ++ locs (List.length (dfile s)) ops /\
  (forall k, dget k (ddata s') = match last_set ops k with Some d => Some d | None => dget k (ddata s) end) /\
  (NoDup (dkeys (ddata s)) -> NoDup (dkeys (ddata s'))) /\
  (forall k d, dget k (ddata s') = Some d -> dget k (ddata s) = Some d \/ exists off, dget k (dloc s') = Some (off, List.length d)).
Proof.
  induction ops as [|o r IH]; intros s s' H Hnd; cbn [drun] in H.
  - injection H as <-. cbn [render0 locs last_set]. rewrite !app_nil_r. repeat split; auto.
  - destruct (dstep s o) as [s1|] eqn:E; [|discriminate]. destruct o as [bs|k size|k d]; cbn [dstep] in E.
    + injection E as <-. destruct (IH _ _ H) as (A & B & C & D & F); [exact Hnd|]. cbn [dfile dloc ddata] in *.
      cbn [render0 locs last_set defer_keys]. split; [rewrite A, <- app_assoc; reflexivity|]. split; [rewrite B, app_length; reflexivity|]. split; [exact C|]. split; [exact D|exact F].
    + injection E as <-. cbn [defer_keys] in Hnd.
      assert (Hfresh : ~ In k (dkeys (dloc s))).
      { intro Hin. apply NoDup_remove_2 in Hnd. apply Hnd. apply in_or_app. left. exact Hin. }
      destruct (IH _ _ H) as (A & B & C & D & F); cbn [dfile dloc ddata] in *.
      { rewrite dupd_fresh by exact Hfresh. unfold dkeys in *. rewrite map_app. cbn [map fst]. rewrite <- app_assoc. exact Hnd. }
      cbn [render0 locs last_set]. rewrite dupd_fresh in B by exact Hfresh.
      split; [rewrite A, <- app_assoc; reflexivity|]. split; [rewrite B, app_length, repeat_length, <- app_assoc; reflexivity|]. split; [exact C|]. split; [exact D|exact F].
    + destruct (dget k (dloc s)) as [[off size]|] eqn:Eg; [|discriminate].
      destruct (Nat.eqb_spec (List.length d) size) as [Hsz|]; [|discriminate]. injection E as <-.
      destruct (IH _ _ H) as (A & B & C & D & F); cbn [dfile dloc ddata] in *; [exact Hnd|].
      cbn [render0 locs last_set defer_keys]. split; [exact A|]. split; [exact B|]. split; [|split].
      * intros k0. rewrite C. destruct (last_set r k0); [reflexivity|]. rewrite dget_dupd. destruct (Nat.eqb k0 k); reflexivity.
      * intros Hn. apply D. apply NoDup_dkeys_dupd. exact Hn.
      * intros k0 d0 Hg. destruct (F k0 d0 Hg) as [Hold|Hnew]; [|right; exact Hnew].
        rewrite dget_dupd in Hold. destruct (Nat.eqb_spec k0 k) as [->|]; [|left; exact Hold].
        injection Hold as <-. right. exists off. rewrite B. apply dget_app_l. rewrite Hsz. exact Eg.
Qed.

(** The two-pass theorem. *)
Theorem dw_two_pass : forall ops s, NoDup (defer_keys ops) -> drun dempty ops = Some s ->
  (forall k, In k (defer_keys ops) -> last_set ops k <> None) ->
  dwhole ops = Some (render (final_value ops) ops).
Proof.
  intros ops s Hnd Hrun Hset. unfold dwhole. rewrite Hrun.
  destruct (run_inv ops dempty s Hrun) as (A & B & C & D & F); [exact Hnd|]. cbn [dempty dfile dloc ddata app List.length] in *.
  rewrite A, B. apply (final_ok ops [] (ddata s) (final_value ops)).
  - exact Hnd.
  - apply D. constructor.
  - intros k Hin. destruct (dget k (ddata s)) as [d|] eqn:Eg; [|apply dget_None in Eg; contradiction].
    destruct (F k d Eg) as [Hold|[off Hloc]]; [discriminate|]. rewrite B in Hloc.
    rewrite <- (dkeys_locs ops 0). destruct (in_dec Nat.eq_dec k (dkeys (locs 0 ops))) as [Hi|Hni]; [exact Hi|].
    apply dget_None in Hni. congruence.
  - intros k off size Hin.
    assert (Hk : In k (defer_keys ops)).
    { rewrite <- (dkeys_locs ops 0). change k with (fst (k, (off, size))). apply in_map. exact Hin. }
    specialize (Hset k Hk). unfold final_value. rewrite C. destruct (last_set ops k) as [d|] eqn:El; [|contradiction].
    split; [reflexivity|].
    assert (Hg : dget k (ddata s) = Some d) by (rewrite C, El; reflexivity).
    destruct (F k d Hg) as [Hold|[off' Hloc]]; [discriminate|]. rewrite B in Hloc.
    assert (Hn : NoDup (dkeys (locs 0 ops))) by (rewrite dkeys_locs; exact Hnd).
    rewrite (dget_In _ _ _ Hn Hin) in Hloc. injection Hloc as _ <-. reflexivity.
Qed.

(** The visibility lump of one cluster: count, one slot of two offsets, two rows; the slot gets the offsets afterwards. *)
Example dw_example :
  dwhole [DWrite [1%N; 0%N; 0%N; 0%N]; DDefer 0 8; DWrite [7%N]; DWrite [9%N]; DSet 0 [12%N; 0%N; 0%N; 0%N; 13%N; 0%N; 0%N; 0%N]]
  = Some [1%N; 0%N; 0%N; 0%N; 12%N; 0%N; 0%N; 0%N; 13%N; 0%N; 0%N; 0%N; 7%N; 9%N].
Proof. reflexivity. Qed.
