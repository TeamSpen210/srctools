(** C15 — frame-level round trip (Fmt/VtfFrameCodec.v) and its composition with the whole-file theorem. *)
From Coq Require Import ZArith List Lia.
From SV Require Import Fmt.VtfPixelExpr Fmt.VtfPixelExprProofs Fmt.VtfFrameCodec.
Import ListNotations.

Lemma chunks_aux_concat : forall n, (0 < n)%nat -> forall (ls : list (list N)) fuel,
  Forall (fun l => length l = n) ls -> (length ls <= fuel)%nat -> chunks_aux fuel n (concat ls) = ls.
Proof.
  intros n Hn ls. induction ls as [|l r IH]; intros fuel Hl Hf.
  - destruct fuel; reflexivity.
  - inversion Hl as [|? ? Hlen Hr]; subst. destruct fuel as [|f]; [cbn in Hf; lia|].
    cbn [concat chunks_aux]. destruct (l ++ concat r) eqn:E.
    + destruct l; [cbn in Hn; lia | discriminate].
    + rewrite <- E. rewrite firstn_app, firstn_all, Nat.sub_diag, firstn_O, app_nil_r.
      rewrite skipn_app, skipn_all, Nat.sub_diag. cbn [skipn app]. f_equal. apply IH; [assumption | cbn in Hf; lia].
Qed.

Lemma chunks_concat : forall n, (0 < n)%nat -> forall (ls : list (list N)),
  Forall (fun l => length l = n) ls -> chunks n (concat ls) = ls.
Proof.
  intros n Hn ls Hl. unfold chunks. apply chunks_aux_concat; try assumption.
  induction Hl as [|l r Hlen _ IH]; cbn; [lia|]. rewrite app_length. lia.
Qed.

(** A frame that was saved is cut into its pixels' stored bytes again: every pixel is stored as [bpp] bytes. *)
Lemma decode_encode_raw : forall c q, rt_ok c q = true -> (0 < bpp c)%nat -> forall ps, Forall bytes ps ->
  decode_frame c (encode_frame c ps) = map (fun p => run (load_e c) (run (save_e c) p)) ps.
Proof.
  intros c q H Hb ps Hps. unfold decode_frame, encode_frame.
  rewrite flat_map_concat_map, chunks_concat, map_map; [reflexivity|exact Hb|].
  apply Forall_map. revert Hps. apply Forall_impl. intros p Hp. apply (rt_sound c q H p Hp).
Qed.

(** Every pixel of a frame that was saved and loaded is the documented quantisation of the pixel that was saved:
    the per-pixel law for a whole frame of any number of pixels. *)
Theorem frame_load_of_save : forall c q, rt_ok c q = true -> (0 < bpp c)%nat ->
  forall ps, Forall bytes ps ->
    decode_frame c (encode_frame c ps) = map (run q) ps
    /\ bytes (encode_frame c ps) /\ length (encode_frame c ps) = (bpp c * length ps)%nat.
Proof.
  intros c q H Hb ps Hps. rewrite (decode_encode_raw c q H Hb ps Hps).
  pose proof (Forall_impl _ (rt_sound c q H) Hps) as R. unfold encode_frame. split; [|split].
  - apply map_ext_in. intros p Hp. rewrite Forall_forall in R. apply (R p Hp).
  - rewrite flat_map_concat_map. apply Forall_concat, Forall_map. revert R. apply Forall_impl. intros p Hp. apply Hp.
  - clear Hps. induction R as [|p r (_ & _ & Hl) _ IH]; cbn [flat_map length]; [lia|]. rewrite app_length, Hl, IH. lia.
Qed.

Open Scope N_scope.
Example frame_inhabited :
  let c := {| bpp := 4; save_e := ident 4; load_e := ident 4 |} in
  rt_ok c spec_rgba = true /\ decode_frame c (encode_frame c [[1; 2; 3; 4]; [5; 6; 7; 8]]) = [[1; 2; 3; 4]; [5; 6; 7; 8]].
Proof. vm_compute. split; reflexivity. Qed.
