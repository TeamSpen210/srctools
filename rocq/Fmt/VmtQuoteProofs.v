(* VmtQuoteProofs.v -- over the tokenizer model of KV/KvLex.v (bare-string mode, the same loop for every Tokenizer
   configuration without the colon / plus operators): a string that [needs_quotes] lets through is read back as one
   bare string, and a whole parameter line is read back as name, value, newline.  The quoted branch is the raw quoted
   field of Fmt/TextFieldsProofs.v ([raw_safe]: no quote, backslash, line break -- the model un-escapes, Material.parse
   does not, so for the real reader the backslash restriction is not needed). *)
From Coq Require Import List NArith Bool Lia.
From SV Require Import KV.KvBase KV.KvLex KV.KvLexProofs Fmt.TextFields Fmt.TextFieldsProofs Fmt.VmtQuote.
Import ListNotations.
Open Scope N_scope.

Lemma okb_disallowed cfg c : nq_okb cfg = true -> bare_disallowed c = true -> mem c (nq_disallowed cfg) = true.
Proof.
  intros H Hc. unfold nq_okb in H. apply andb_true_iff in H as [_ H]. rewrite forallb_forall in H.
  unfold bare_disallowed, mem in Hc. apply existsb_exists in Hc as [d [Hin Hd]].
  apply N.eqb_eq in Hd. subst d. apply H. exact Hin.
Qed.

Definition all_bare (v : str) : bool := forallb (fun c => negb (bare_disallowed c)) v.

Lemma not_needs_all_bare cfg v : nq_okb cfg = true -> needs_quotes cfg v = false -> v <> [] /\ all_bare v = true.
Proof.
  intros Hok H. destruct v as [|h t].
  - cbn in H. unfold nq_okb in Hok. rewrite H in Hok. discriminate.
  - split; [discriminate|]. cbn [needs_quotes] in H. apply orb_false_iff in H as [_ H].
    unfold all_bare. apply forallb_forall. intros c Hin. apply negb_true_iff.
    destruct (bare_disallowed c) eqn:E; [|reflexivity].
    assert (existsb (fun x => mem x (nq_disallowed cfg)) (h :: t) = true).
    { apply existsb_exists. exists c. split; [exact Hin | apply okb_disallowed; assumption]. }
    congruence.
Qed.

(** the bare loop: characters that are not delimiters accumulate *)
Lemma bare_run E w : all_bare w = true -> forall acc l cr rest,
  lex_run E (mkL (MBare acc) l cr) (w ++ rest) = lex_run E (mkL (MBare (rev w ++ acc)) l cr) rest.
Proof.
  induction w as [|c w IH]; intros H acc l cr rest; [reflexivity|].
  cbn [all_bare forallb] in H. apply andb_true_iff in H as [Hc Hw]. apply negb_true_iff in Hc.
  cbn [app]. erewrite lex_run_cons.
  2:{ unfold lstep; cbn [l_mode l_line l_cr]. rewrite Hc. reflexivity. }
  rewrite tcons_nil, (IH Hw). cbn [rev]. rewrite <- app_assoc. reflexivity.
Qed.

(** a first character that starts a bare string *)
Definition starts_bare (l : N) (h : char) : bool :=
  negb (bare_disallowed h) && negb (h =? 47) && negb (h =? 35) && negb ((h =? 65279) && (l =? 1)).

Lemma norm_step_bare l h : starts_bare l h = true -> norm_step l false h = SOk (mkL (MBare [h]) l false) [].
Proof.
  unfold starts_bare. rewrite !andb_true_iff, !negb_true_iff. intros [[[Hb H47] H35] Hbom].
  pose proof Hb as Hb'. unfold bare_disallowed, mem in Hb. cbn [existsb] in Hb. rewrite !orb_false_iff in Hb.
  destruct Hb as (q34 & q39 & q123 & q125 & q59 & q44 & q61 & q91 & q93 & q40 & q41 & q13 & q10 & q9 & q32 & _).
  unfold norm_step. unfold CR, LF, SP, TAB, DQ in *.
  rewrite q123, q125, q61, q44, q13, q10, q32, q9, H47, q34, q91, q40, Hbom, q93, q41, H35, Hb'. reflexivity.
Qed.

Lemma bare_then E l h t d out l' : all_bare t = true -> starts_bare l h = true -> bare_disallowed d = true ->
  norm_step l false d = SOk (norm l') out ->
  lexes E l ((h :: t) ++ [d]) (TStr (h :: t) :: out) l'.
Proof.
  intros Ht Hst Hd Hn rest. rewrite <- app_assoc. cbn [app].
  erewrite lex_run_cons by exact (norm_step_bare l h Hst).
  rewrite tcons_nil, (bare_run E t Ht). cbn [app].
  erewrite lex_run_cons.
  2:{ unfold lstep; cbn [l_mode l_line l_cr]. rewrite Hd, Hn. cbn [prepend]. reflexivity. }
  rewrite rev_app_distr, rev_involutive. reflexivity.
Qed.

Lemma needs_false_starts cfg l h t : nq_okb cfg = true -> l <> 1 -> needs_quotes cfg (h :: t) = false ->
  starts_bare l h = true /\ all_bare t = true.
Proof.
  intros Hok Hl H. destruct (not_needs_all_bare cfg (h :: t) Hok H) as [_ Hall].
  cbn [all_bare forallb] in Hall. apply andb_true_iff in Hall as [Hh Ht]. split; [|exact Ht].
  cbn [needs_quotes] in H. apply orb_false_iff in H as [Hlead _].
  unfold nq_okb in Hok. rewrite !andb_true_iff in Hok. destruct Hok as [[[_ H47] H35] _].
  unfold starts_bare. rewrite Hh. cbn [andb].
  assert (A : (h =? 47) = false).
  { destruct (h =? 47) eqn:E; [|reflexivity]. apply N.eqb_eq in E. subst h. congruence. }
  assert (B : (h =? 35) = false).
  { destruct (h =? 35) eqn:E; [|reflexivity]. apply N.eqb_eq in E. subst h. congruence. }
  rewrite A, B. apply N.eqb_neq in Hl. rewrite Hl, andb_false_r. reflexivity.
Qed.

(** a name or value written by quote_on_demand, followed by the space / line feed the writer puts after it *)
Definition value_ok (cfg : nqcfg) (v : str) : bool := if needs_quotes cfg v then raw_safe v else true.

Lemma on_demand_then E cfg l v d out l' : nq_okb cfg = true -> l <> 1 -> value_ok cfg v = true ->
  bare_disallowed d = true -> norm_step l false d = SOk (norm l') out ->
  lexes E l (quote_on_demand cfg v ++ [d]) (TStr v :: out) l'.
Proof.
  intros Hok Hl Hv Hd Hstep. unfold quote_on_demand, value_ok in *. destruct (needs_quotes cfg v) eqn:Hn.
  - apply (lexes_app E l _ [TStr v] l); [apply lexes_raw_quoted; exact Hv | apply lexes_char; exact Hstep].
  - destruct v as [|h t]; [destruct (not_needs_all_bare cfg [] Hok Hn) as [C _]; congruence|].
    destruct (needs_false_starts cfg l h t Hok Hl Hn) as [Hs Ht].
    exact (bare_then E l h t d out l' Ht Hs Hd Hstep).
Qed.

(** a string the decision lets through unquoted is read back as that one string (followed by a space) *)
Theorem bare_reads_back E cfg l v : nq_okb cfg = true -> l <> 1 -> needs_quotes cfg v = false ->
  lexes E l (v ++ [SP]) [TStr v] l.
Proof.
  intros Hok Hl Hn. pose proof (on_demand_then E cfg l v SP [] l Hok Hl) as H. unfold quote_on_demand, value_ok in H.
  rewrite Hn in H. apply H; reflexivity.
Qed.

(** the whole parameter line: tab, name, space, value, line feed -> name, value, newline *)
Theorem param_line_reads_back E cfg l name value : nq_okb cfg = true -> l <> 1 ->
  value_ok cfg name = true -> value_ok cfg value = true ->
  lexes E l (param_line cfg name value) [TStr name; TStr value; TNL] (l + 1).
Proof.
  intros Hok Hl Hn Hv. unfold param_line.
  change [TStr name; TStr value; TNL] with ([] ++ [TStr name] ++ [TStr value; TNL]).
  apply lexes_app with (l1 := l); [apply lexes_ws1; reflexivity|].
  rewrite app_assoc. apply lexes_app with (l1 := l).
  - apply on_demand_then; try assumption; reflexivity.
  - apply (on_demand_then E cfg l value LF [TNL]); try assumption; reflexivity.
Qed.

(** * Non-vacuity and refuted variants *)
Definition ref_nq : nqcfg := mkNq true [47; 35] kvlex_delims.
Example ref_nq_ok : nq_okb ref_nq = true. Proof. reflexivity. Qed.
Example ex_param_line :
  lex_all ex_escfg ([97; 10] ++ param_line ref_nq [36; 98] [120; 47; 121; 32; 122])
  = ([TStr [97]; TNL; TStr [36; 98]; TStr [120; 47; 121; 32; 122]; TNL], None).
Proof. vm_compute. reflexivity. Qed.

(** the decision of the pinned tree (before the repair): no test for a leading '/' -- a value "//x" written bare is a comment *)
Definition no_slash_nq : nqcfg := mkNq true [35] kvlex_delims.
Example leading_slash_refuted :
  nq_okb no_slash_nq = false
  /\ fst (lex_all ex_escfg ([97; 10] ++ param_line no_slash_nq [36; 98] [47; 47; 120])) = [TStr [97]; TNL; TStr [36; 98]; TNL].
Proof. split; vm_compute; reflexivity. Qed.
(** a delimiter missing from the table: a value with a comma is split *)
Definition no_comma_nq : nqcfg := mkNq true [47; 35] [34; 39; 123; 125; 59; 61; 91; 93; 40; 41; 13; 10; 9; 32].
Example missing_delimiter_refuted :
  nq_okb no_comma_nq = false
  /\ fst (lex_all ex_escfg ([97; 10] ++ param_line no_comma_nq [36; 98] [49; 44; 50])) <> [TStr [97]; TNL; TStr [36; 98]; TStr [49; 44; 50]; TNL].
Proof. split; vm_compute; [reflexivity | discriminate]. Qed.

(** * The whole file of a parameter-only material *)
(** the shader is written bare on line 1: it has to be a bare string there (not empty, no delimiter, no leading '/', '#', BOM) *)
Definition shader_ok (s : str) : bool := match s with [] => false | h :: t => starts_bare 1 h && all_bare t end.
Definition params_ok (cfg : nqcfg) (ps : list (str * str)) : bool :=
  forallb (fun p => value_ok cfg (fst p) && value_ok cfg (snd p)) ps.

Lemma params_read_back E cfg ps : nq_okb cfg = true -> params_ok cfg ps = true -> forall l, 2 <= l ->
  lexes E l (params_text cfg ps) (param_tokens ps) (l + N.of_nat (length ps)).
Proof.
  intros Hok. induction ps as [|[n v] ps IH]; intros Hps l Hl.
  - cbn [params_text param_tokens flat_map length N.of_nat]. rewrite N.add_0_r. apply lexes_nil.
  - cbn [params_ok forallb fst snd] in Hps. apply andb_true_iff in Hps as [Hnv Hps]. apply andb_true_iff in Hnv as [Hn Hv].
    cbn [params_text param_tokens flat_map fst snd].
    change (TStr n :: TStr v :: TNL :: flat_map (fun p => [TStr (fst p); TStr (snd p); TNL]) ps)
      with ([TStr n; TStr v; TNL] ++ param_tokens ps).
    replace (l + N.of_nat (length ((n, v) :: ps))) with ((l + 1) + N.of_nat (length ps)) by (cbn [length]; lia).
    apply lexes_app with (l1 := l + 1).
    + apply param_line_reads_back; try assumption. lia.
    + apply IH; [exact Hps | lia].
Qed.

Lemma shader_line E s : shader_ok s = true -> lexes E 1 (s ++ [LF]) [TStr s; TNL] 2.
Proof.
  destruct s as [|h t]; [discriminate|]. cbn [shader_ok]. intros H. apply andb_true_iff in H as [Hs Ht].
  apply (bare_then E 1 h t LF [TNL] 2 Ht Hs); reflexivity.
Qed.

(** what every material file starts and ends with: the shader line, the brace line and the parameter lines; the closing brace line *)
Lemma vmt_head_lexes E cfg shader ps : nq_okb cfg = true -> shader_ok shader = true -> params_ok cfg ps = true ->
  lexes E 1 (shader ++ [LF; TAB; 123; LF] ++ params_text cfg ps) ([TStr shader; TNL; TBO; TNL] ++ param_tokens ps)
    (3 + N.of_nat (length ps)).
Proof.
  intros Hok Hs Hps.
  change (lexes E 1 (shader ++ [LF] ++ [TAB] ++ [123] ++ [LF] ++ params_text cfg ps)
            ([TStr shader; TNL] ++ [] ++ [TBO] ++ [TNL] ++ param_tokens ps) (3 + N.of_nat (length ps))).
  rewrite (app_assoc shader [LF]).
  apply lexes_app with (l1 := 2); [apply shader_line; exact Hs|].
  apply lexes_app with (l1 := 2); [apply lexes_ws1; reflexivity|].
  apply lexes_app with (l1 := 2); [apply lexes_bo|].
  apply lexes_app with (l1 := 3); [apply (lexes_lf E 2)|].
  apply params_read_back; try assumption; lia.
Qed.
Lemma vmt_foot_lexes E l : lexes E l [TAB; 125; LF] [TBC; TNL] (l + 1).
Proof.
  change (lexes E l ([TAB] ++ [125] ++ [LF]) ([] ++ [TBC] ++ [TNL]) (l + 1)).
  apply lexes_app with (l1 := l); [apply lexes_ws1; reflexivity|].
  apply lexes_app with (l1 := l); [apply lexes_bc|]. apply lexes_lf.
Qed.

(** every material with a bare shader name and parameters the quoting decision can handle: the written file is lexed,
    without error, to exactly shader / { / the (name, value) pairs in order / } *)
Theorem vmt_file_reads_back E cfg shader ps : nq_okb cfg = true -> shader_ok shader = true -> params_ok cfg ps = true ->
  lex_all E (vmt_file cfg shader ps) = (vmt_tokens shader ps, None).
Proof.
  intros Hok Hs Hps. apply lexes_all with (l' := 3 + N.of_nat (length ps) + 1). unfold vmt_file, vmt_tokens.
  rewrite (app_assoc [LF; TAB; 123; LF]), (app_assoc shader), (app_assoc [TStr shader; TNL; TBO; TNL]).
  eapply lexes_app; [apply vmt_head_lexes; assumption | apply vmt_foot_lexes].
Qed.

(** the token stream determines the material: two parameter-only materials with the same tokens are the same *)
Lemma param_tokens_inj ps qs : param_tokens ps ++ [TBC; TNL] = param_tokens qs ++ [TBC; TNL] -> ps = qs.
Proof.
  revert qs. induction ps as [|[n v] ps IH]; intros [|[n' v'] qs] H; cbn [param_tokens flat_map fst snd app] in H.
  - reflexivity.
  - discriminate.
  - discriminate.
  - injection H as -> -> H. f_equal. apply IH. exact H.
Qed.

Theorem vmt_file_determines_material cfg s1 p1 s2 p2 : nq_okb cfg = true ->
  shader_ok s1 = true -> params_ok cfg p1 = true -> shader_ok s2 = true -> params_ok cfg p2 = true ->
  vmt_file cfg s1 p1 = vmt_file cfg s2 p2 -> s1 = s2 /\ p1 = p2.
Proof.
  intros Hok Hs1 Hp1 Hs2 Hp2 Heq.
  pose proof (vmt_file_reads_back ex_escfg cfg s1 p1 Hok Hs1 Hp1) as H1.
  pose proof (vmt_file_reads_back ex_escfg cfg s2 p2 Hok Hs2 Hp2) as H2.
  rewrite Heq, H2 in H1. assert (Ht : vmt_tokens s2 p2 = vmt_tokens s1 p1) by congruence.
  unfold vmt_tokens in Ht. cbn [app] in Ht. inversion Ht as [[Hs Hp]].
  split; [reflexivity|]. symmetry. apply param_tokens_inj. exact Hp.
Qed.

Example ex_vmt_file :
  shader_ok [97; 98] = true /\ params_ok ref_nq [([36; 98], [120; 32; 121]); ([47; 99], [])] = true
  /\ vmt_file ref_nq [97; 98] [([36; 98], [120; 32; 121]); ([47; 99], [])]
     = [97; 98; 10; 9; 123; 10;  9; 36; 98; 32; 34; 120; 32; 121; 34; 10;  9; 34; 47; 99; 34; 32; 34; 34; 10;  9; 125; 10].
Proof. repeat split; vm_compute; reflexivity. Qed.
(** a shader name with a space is not a bare string: the file is read as two strings on the first line *)
Example shader_with_space_refuted :
  shader_ok [97; 32; 98] = false
  /\ fst (lex_all ex_escfg (vmt_file ref_nq [97; 32; 98] [])) <> vmt_tokens [97; 32; 98] [].
Proof. split; vm_compute; [reflexivity | discriminate]. Qed.
