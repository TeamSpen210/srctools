(** C06: alias identity (axiom-free).  The enumeration of worlds over the atoms of two reference expressions is a
    sound and complete decision procedure for "the two expressions denote the same object in every world". *)
From Coq Require Import List String Bool NArith.
From SV Require Import Fmt.VmfAlias.
Import ListNotations.
Open Scope N_scope.

Lemma reval_in_locs w r : In (reval w r) (rlocs r).
Proof.
  induction r as [l|c IHc a IHa b IHb|k a IHa b IHb]; cbn [reval rlocs].
  - left; reflexivity.
  - destruct (w _); apply in_or_app; [left|right]; assumption.
  - destruct (w _); apply in_or_app; [left|right]; assumption.
Qed.

Lemma reval_ext w w' r : (forall a, In a (ratoms r) -> w a = w' a) -> reval w r = reval w' r.
Proof.
  induction r as [l|c IHc a IHa b IHb|k a IHa b IHb]; cbn [reval ratoms]; intros H; [reflexivity| |].
  - assert (Hsub : forall x, In x (map at_truthy (rlocs c)) \/ In x (ratoms c) \/ In x (ratoms a) \/ In x (ratoms b) -> w x = w' x)
      by (intros x Hx; apply H; rewrite !in_app_iff; exact Hx).
    rewrite (IHc (fun x Hx => Hsub x (or_intror (or_introl Hx)))).
    rewrite (Hsub _ (or_introl (in_map at_truthy _ _ (reval_in_locs w' c)))).
    destruct (w' _); [apply IHa|apply IHb]; intros x Hx; apply Hsub; auto.
  - rewrite (H _ (or_introl eq_refl)).
    destruct (w' _); [apply IHa|apply IHb]; intros x Hx; apply H; right; apply in_or_app; auto.
Qed.

Lemma worlds_cover l : forall w, exists w', In w' (all_worlds l) /\ forall a, In a l -> w' a = w a.
Proof.
  induction l as [|a r IH]; intros w; cbn [all_worlds].
  - exists (fun _ => false). split; [left; reflexivity|]. intros ? [].
  - destruct (IH w) as [w0 [Hin Hag]].
    exists (wupd w0 a (w a)). split.
    + apply in_flat_map. exists w0. split; [exact Hin|]. destruct (w a); [right; left|left]; reflexivity.
    + intros x Hx. unfold wupd. destruct (N.eqb x a) eqn:E.
      * apply N.eqb_eq in E. subst x. reflexivity.
      * destruct Hx as [Hx|Hx]; [subst x; rewrite N.eqb_refl in E; discriminate|]. apply Hag. exact Hx.
Qed.

Theorem alias_same_sound a b : alias_same a b = true -> forall w, reval w a = reval w b.
Proof.
  unfold alias_same. intros H w. rewrite forallb_forall in H.
  destruct (worlds_cover (ratoms a ++ ratoms b) w) as [w' [Hin Hag]].
  specialize (H w' Hin). apply N.eqb_eq in H.
  rewrite (reval_ext w w' a), (reval_ext w w' b); [exact H| |].
  - intros x Hx. symmetry. apply Hag. apply in_or_app; right. exact Hx.
  - intros x Hx. symmetry. apply Hag. apply in_or_app; left. exact Hx.
Qed.

Lemma forallb_false_witness {A} (f : A -> bool) l : forallb f l = false -> exists x, In x l /\ f x = false.
Proof.
  induction l as [|y r IH]; cbn [forallb]; [discriminate|].
  destruct (f y) eqn:E; cbn [andb]; intros H.
  - destruct (IH H) as [x [Hx Hf]]. exists x. split; [right; exact Hx|exact Hf].
  - exists y. split; [left; reflexivity|exact E].
Qed.

(** Identity is what makes content added through one attribute visible through the other. *)
Theorem alias_add_then_read a b : alias_same a b = true ->
  forall (X : Type) w (h : heap X) x, add_then_read w a b h x = h (reval w b) ++ [x].
Proof.
  intros H X w h x. unfold add_then_read, append_at. rewrite (alias_same_sound a b H w). rewrite N.eqb_refl. reflexivity.
Qed.

(** one world in which the objects differ refutes the check *)
Lemma alias_same_false a b w : reval w a <> reval w b -> alias_same a b = false.
Proof. intros Hne. destruct (alias_same a b) eqn:E; [|reflexivity]. destruct Hne. now apply alias_same_sound. Qed.

(** Meaning of the table obligation. *)
Theorem alias_table_meaning fns pairs t : alias_table_ok fns pairs t = true ->
  forall fn p, In fn fns -> In p pairs ->
  exists row, In row t /\ ar_fn row = fn /\ ar_left row = fst p /\ ar_right row = snd p /\
              (forall w, reval w (ar_l row) = reval w (ar_r row)) /\
              (forall (X : Type) w (h : heap X) x, add_then_read w (ar_l row) (ar_r row) h x = h (reval w (ar_r row)) ++ [x]).
Proof.
  unfold alias_table_ok. intros H fn p Hfn Hp.
  apply andb_prop in H. destruct H as [H _]. apply andb_prop in H. destruct H as [H _].
  apply andb_prop in H. destruct H as [Hrows Hall].
  rewrite forallb_forall in Hall. specialize (Hall fn Hfn). rewrite forallb_forall in Hall. specialize (Hall p Hp).
  unfold has_row in Hall. apply existsb_exists in Hall. destruct Hall as [row [Hin Hm]].
  apply andb_prop in Hm. destruct Hm as [Hm Hr]. apply andb_prop in Hm. destruct Hm as [Hf Hl].
  apply String.eqb_eq in Hf, Hl, Hr.
  rewrite forallb_forall in Hrows. specialize (Hrows row Hin). unfold row_ok in Hrows.
  exists row. repeat split; try assumption.
  - apply alias_same_sound. exact Hrows.
  - intros X w h x. apply alias_add_then_read. exact Hrows.
Qed.

(** Non-vacuity: the shape of today's VMF.parse (a dead [is None] guard that installs a new list, then the alias) passes;
    both attributes go through the same conditional. *)
Example alias_example_ok :
  alias_table_ok ["f"%string] [("a"%string, "b.c"%string)]
    [mk_aliasrow "f" "a" "b.c" (RIteO 0 (RLoc 7) (RLoc 5)) (RIteO 0 (RLoc 7) (RLoc 5))] = true.
Proof. vm_compute. reflexivity. Qed.
Example alias_example_or_empty :
  alias_same (RIteT (RIteO 0 (RLoc 7) (RLoc 5)) (RIteO 0 (RLoc 7) (RLoc 5)) (RLoc 9)) (RIteO 0 (RLoc 7) (RLoc 5)) = false.
Proof. vm_compute. reflexivity. Qed.
