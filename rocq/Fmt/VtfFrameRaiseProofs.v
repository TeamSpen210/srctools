(** C15 — proofs about the exits by exception of the Frame methods (Fmt/VtfFrameRaise.v). *)
From Coq Require Import List Bool String.
From SV Require Import Fmt.VtfFrameSM Fmt.VtfFrameSMProofs Fmt.VtfFrameRaise.
Import ListNotations.
Local Open Scope nat_scope.

Section Sem.
Variable pix fbytes : Type.
Notation fstate := (fstate pix fbytes).
Notation view' := (view' pix fbytes).
Notation view := (view pix fbytes).
Notation load := (load pix fbytes).
Notation apply_outcome := (apply_outcome pix fbytes).

(** One exit: what save() will write for the frame ([view']: the file's pixels while the source is there, else the data,
    None for a cleared frame) is what it was, or what it is after an explicit load(). *)
Lemma raise_ok_view' : forall blank decode newd scaled modf (st : fstate) o,
  raise_outcome_ok (present (f_data st)) (present (f_src st)) o = true ->
  let st' := apply_outcome o blank decode newd scaled modf st in
  view' decode st' = view' decode st \/ view' decode st' = view' decode (load blank decode st).
Proof.
  intros blank decode newd scaled modf [[d|] [s|]] [[dd m] ss] H; cbn in H |- *;
    destruct ss; cbn in H; try discriminate; destruct dd, m; cbn in H |- *; try discriminate; auto.
Qed.

(** ... and what the user sees through frame[x, y] / the buffer / to_PIL ([view]) is exactly what it was. *)
Lemma raise_ok_view : forall blank decode newd scaled modf (st : fstate) o,
  raise_outcome_ok (present (f_data st)) (present (f_src st)) o = true ->
  view blank decode (apply_outcome o blank decode newd scaled modf st) = view blank decode st.
Proof.
  intros blank decode newd scaled modf [[d|] [s|]] [[dd m] ss] H; cbn in H |- *;
    destruct ss; cbn in H; try discriminate; destruct dd, m; cbn in H |- *; try discriminate; auto.
Qed.

(** A frame that still waits to be read from the file keeps its file source or has exactly the file's pixels. *)
Lemma raise_ok_lazy_frame : forall blank decode newd scaled modf (st : fstate) b o,
  f_src st = Some b ->
  raise_outcome_ok (present (f_data st)) true o = true ->
  view' decode (apply_outcome o blank decode newd scaled modf st) = Some (decode b).
Proof.
  intros blank decode newd scaled modf st b o Hs H.
  destruct (raise_ok_view' blank decode newd scaled modf st o) as [E | E]; [rewrite Hs; exact H| |];
    rewrite E; unfold VtfFrameSMProofs.view', VtfFrameSM.load; rewrite Hs; reflexivity.
Qed.

Lemma in_find_row : forall (t : efftable) d s o, raise_table_ok t = true -> In o (find_row t d s) ->
  raise_outcome_ok d s o = true.
Proof.
  intros t d s o Ht Hin. unfold find_row in Hin.
  destruct (find _ t) as [r|] eqn:F; [|destruct Hin].
  apply find_some in F. destruct F as [Hr Hk].
  unfold raise_table_ok in Ht. rewrite forallb_forall in Ht. specialize (Ht r Hr).
  unfold raise_row_ok in Ht. rewrite forallb_forall in Ht. specialize (Ht o Hin).
  apply andb_true_iff in Hk. destruct Hk as [Hd Hs]. apply eqb_prop in Hd. apply eqb_prop in Hs. subst. exact Ht.
Qed.

(** * The chain: a raising call on one level changes what save() writes no more than load() of that level does *)
Variable blank : nat -> pix.
Variable decode : fbytes -> pix.
Variable encode : pix -> fbytes.
Variable scale : nat -> pix -> pix.

Lemma final_pixels_view' : forall (c1 c2 : list fstate), map (view' decode) c1 = map (view' decode) c2 ->
  forall m p, final_pixels pix fbytes decode scale m p c1 = final_pixels pix fbytes decode scale m p c2.
Proof.
  induction c1 as [|a c1 IH]; destruct c2 as [|b c2]; cbn [map]; intros E m p; try discriminate; [reflexivity|].
  inversion E as [[Ea Et]]. cbn [final_pixels]. rewrite !level_pixels_view', Ea. f_equal. apply IH. exact Et.
Qed.

Lemma final_chain_view' : forall (c1 c2 : list fstate), map (view' decode) c1 = map (view' decode) c2 ->
  final_chain pix fbytes blank decode scale c1 = final_chain pix fbytes blank decode scale c2.
Proof.
  intros [|a c1] [|b c2] E; cbn [map] in E; try discriminate; [reflexivity|].
  inversion E as [[Ea Et]]. unfold final_chain, VtfFrameSM.view, or_blank. rewrite !level_pixels_view', Ea.
  f_equal. apply final_pixels_view'. exact Et.
Qed.

Lemma map_upd_ext : forall A B (f : A -> B) (g h : A -> A) (l : list A) m,
  (forall x, nth_error l m = Some x -> f (g x) = f (h x)) -> map f (upd l m g) = map f (upd l m h).
Proof.
  induction l as [|x l IH]; intros m H; [reflexivity|].
  destruct m as [|m]; cbn [upd map].
  - f_equal. apply H. reflexivity.
  - f_equal. apply IH. intros y Hy. apply H. exact Hy.
Qed.
Lemma upd_id : forall A (l : list A) m, upd l m (fun x => x) = l.
Proof. induction l as [|x l IH]; intros [|m]; cbn; try reflexivity. f_equal. apply IH. Qed.
Lemma nth_error_upd : forall A (f : A -> A) (l : list A) m, nth_error (upd l m f) m = option_map f (nth_error l m).
Proof. induction l as [|x l IH]; intros [|m]; cbn; try reflexivity. apply IH. Qed.

Variable t_load t_rescale : efftable.
Variable cfg : chaincfg.
Hypothesis Hl : efftable_eqb t_load ideal_load = true.
Hypothesis Hr : efftable_eqb t_rescale ideal_rescale = true.
Hypothesis Hok : chain_ok cfg = true.
Notation save_chain := (save_chain pix fbytes blank decode encode scale t_load t_rescale cfg).
Notation chain_written := (chain_written pix fbytes blank decode encode scale t_load t_rescale cfg Hl Hr Hok).

(** what save() writes depends on the level a call was made on only through what that level holds or will hold *)
Lemma save_chain_upd : forall (chain : list fstate) m g h,
  (forall st, nth_error chain m = Some st -> view' decode (g st) = view' decode (h st)) ->
  save_chain (upd chain m g) = save_chain (upd chain m h).
Proof. intros chain m g h H. rewrite !chain_written. f_equal. apply final_chain_view', map_upd_ext, H. Qed.

(** [t] is the raise table of some method; the call is made on level [m] of the chain, leaves by an exception at an exit
    [o] of the row of the level's state, the caller catches it, and the texture is saved. *)
Theorem rejected_call_then_save : forall ts name, method_raises_cleanly ts name = true ->
  forall (chain : list fstate) m newd scaled modf o,
    (forall st, nth_error chain m = Some st -> In o (find_row (raise_table_of ts name) (present (f_data st)) (present (f_src st)))) ->
    let after := upd chain m (apply_outcome o (blank m) decode newd scaled modf) in
    save_chain after = save_chain chain
    \/ save_chain after = save_chain (upd chain m (load (blank m) decode)).
Proof.
  intros ts name [_ Ht]%andb_prop chain m newd scaled modf o Hin after. subst after.
  rewrite <- (upd_id _ chain m) at 2.
  destruct (nth_error chain m) as [st|] eqn:N.
  - destruct (raise_ok_view' (blank m) decode newd scaled modf st o (in_find_row _ _ _ o Ht (Hin st eq_refl))) as [E | E];
      [left | right]; apply save_chain_upd; intros x Hx; rewrite N in Hx; injection Hx as <-; exact E.
  - left. apply save_chain_upd. intros x Hx. rewrite N in Hx. discriminate.
Qed.

(** For a level that still waits to be read from the file nothing changes at all: the bytes of the file are written. *)
Theorem rejected_call_on_lazy_level_then_save : forall ts name, method_raises_cleanly ts name = true ->
  forall (chain : list fstate) m st b newd scaled modf o,
    nth_error chain m = Some st -> f_src st = Some b ->
    In o (find_row (raise_table_of ts name) (present (f_data st)) true) ->
    nth_error (save_chain (upd chain m (apply_outcome o (blank m) decode newd scaled modf))) m = Some (Some (encode (decode b))).
Proof.
  intros ts name [_ Ht]%andb_prop chain m st b newd scaled modf o N Hs Hin.
  pose proof (in_find_row _ _ _ o Ht Hin) as Hoo.
  pose proof (raise_ok_lazy_frame (blank m) decode newd scaled modf st b o Hs Hoo) as Hv.
  (* as far as save() is concerned the level is still the lazily read frame *)
  set (lazy_b := {| f_data := None; f_src := Some b |} : fstate).
  rewrite (save_chain_upd chain m _ (fun _ => lazy_b)) by (intros x Hx; rewrite N in Hx; injection Hx as <-; exact Hv).
  apply (chain_keeps_file_levels pix fbytes blank decode encode scale t_load t_rescale cfg Hl Hr Hok _ m lazy_b b); [|reflexivity].
  rewrite nth_error_upd, N. reflexivity.
Qed.
End Sem.

Theorem rejected_call_shows_the_same_pixels : forall ts name, method_raises_cleanly ts name = true ->
  forall pix fbytes blank decode newd scaled modf (st : fstate pix fbytes) o,
    In o (find_row (raise_table_of ts name) (present (f_data st)) (present (f_src st))) ->
    view pix fbytes blank decode (apply_outcome pix fbytes o blank decode newd scaled modf st) = view pix fbytes blank decode st.
Proof.
  intros ts name [_ Ht]%andb_prop pix fbytes blank decode newd scaled modf st o Hin.
  apply raise_ok_view. exact (in_find_row _ _ _ o Ht Hin).
Qed.

(** What a defective shape does to a toy texture (decode/encode identity, scaling adds 100): level 1 of a chain is the
    target of a rejected call that leaves by exit [o] *)
Definition toy_after_raise (o : outcome) (chain : list (fstate nat nat)) :=
  toy_save ideal_rescale good_cfg (upd chain 1 (apply_outcome nat nat o 0 (fun b => b) 0 0 (fun p => p))).

Definition raise_example_name : string := "copy_from".
Definition raise_example : list (string * efftable) :=
  [(raise_example_name,
    [((false, false), [(DNoneV, false, SNoneV); (DBlank, false, SNoneV)]); ((false, true), [(DNoneV, false, SKeep); (DBlank, false, SKeep); (DFile, false, SNoneV)]);
     ((true, false), [(DKeep, false, SNoneV)]); ((true, true), [(DKeep, false, SKeep); (DFile, false, SNoneV)])])].
Example raise_tables_inhabited : method_raises_cleanly raise_example raise_example_name = true.
Proof. reflexivity. Qed.
