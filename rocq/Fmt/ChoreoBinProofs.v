(* ChoreoBinProofs.v -- raw fields, records and counted lists of records are read back exactly. *)
From Coq Require Import List NArith Lia.
From SV Require Import Fmt.ChoreoBin.
Import ListNotations.
Open Scope N_scope.

Lemma pow256_succ k : 256 ^ N.of_nat (S k) = 256 * 256 ^ N.of_nat k.
Proof. rewrite Nat2N.inj_succ, N.pow_succ_r'. reflexivity. Qed.

Lemma rd_le w : forall v r, v < 256 ^ N.of_nat w -> rd_n w (le_n w v ++ r) = Some (v, r).
Proof.
  induction w as [|k IH]; intros v r H.
  - cbn in *. assert (v = 0) by lia. subst. reflexivity.
  - rewrite pow256_succ in H. cbn [le_n rd_n app].
    rewrite IH.
    + f_equal. f_equal. pose proof (N.div_mod v 256 ltac:(lia)). lia.
    + apply N.div_lt_upper_bound; lia.
Qed.

Theorem consume_emit : forall ws vals b r, emit ws vals = Some b -> consume ws (b ++ r) = Some (vals, r).
Proof.
  induction ws as [|w ws IH]; intros [|v vals] b r H; cbn [emit] in H; try discriminate.
  - injection H as <-. reflexivity.
  - destruct (N.ltb_spec v (256 ^ N.of_nat w)) as [Hv|]; [|discriminate].
    destruct (emit ws vals) as [b'|] eqn:E; [|discriminate]. injection H as <-.
    cbn [consume]. rewrite <- app_assoc, (rd_le w v _ Hv), (IH _ _ r E). reflexivity.
Qed.

Lemma consume_all ws : forall recs b r, emit_all ws recs = Some b ->
  consume_n (length recs) ws (b ++ r) = Some (recs, r).
Proof.
  induction recs as [|x t IH]; intros b r H; cbn [emit_all] in H.
  - injection H as <-. reflexivity.
  - destruct (emit ws x) as [a|] eqn:Ea; [|discriminate].
    destruct (emit_all ws t) as [c|] eqn:Ec; [|discriminate]. injection H as <-.
    cbn [length consume_n]. rewrite <- app_assoc, (consume_emit _ _ _ _ Ea), (IH c r eq_refl). reflexivity.
Qed.

Theorem consume_counted_emit cw ws recs b r : emit_counted cw ws recs = Some b ->
  consume_counted cw ws (b ++ r) = Some (recs, r).
Proof.
  unfold emit_counted, consume_counted. intros H.
  destruct (N.ltb_spec (N.of_nat (length recs)) (256 ^ N.of_nat cw)) as [Hn|]; [|discriminate].
  destruct (emit_all ws recs) as [c|] eqn:Ec; [|discriminate]. injection H as <-.
  rewrite <- app_assoc, (rd_le cw _ _ Hn), Nat2N.id. apply consume_all. exact Ec.
Qed.

(** non-vacuity: a ramp of two samples '<fB' behind a one-byte count, and a tag list '<hH' *)
Example ex_ramp : emit_counted 1 [4; 1]%nat [[1065353216; 255]; [0; 7]]
                  = Some [2; 0; 0; 128; 63; 255; 0; 0; 0; 0; 7].
Proof. vm_compute. reflexivity. Qed.
Example ex_too_many : emit_counted 1 [1]%nat (repeat [0] 256) = None.
Proof. vm_compute. reflexivity. Qed.

(** * Layouts: the decoder inverts the encoder, for every layout *)

Lemma oapp_Some a b c : oapp a b = Some c -> exists x y, a = Some x /\ b = Some y /\ c = x ++ y.
Proof. destruct a as [x|], b as [y|]; cbn; try discriminate. intros [= <-]. eauto. Qed.

Lemma dec_items_enc (fe : bval -> option (list N)) (fd : list N -> option (bval * list N)) :
  (forall v b r, fe v = Some b -> fd (b ++ r) = Some (v, r)) ->
  forall items b r, enc_items fe items = Some b -> dec_items (length items) fd (b ++ r) = Some (items, r).
Proof.
  intros H. induction items as [|x t IH]; intros b r E; cbn [enc_items] in E.
  - injection E as <-. reflexivity.
  - apply oapp_Some in E as (bx & bt & Ex & Et & ->).
    cbn [length dec_items]. rewrite <- app_assoc, (H _ _ _ Ex), (IH _ r Et). reflexivity.
Qed.

Theorem dec_enc : forall l env v b r, enc l env v = Some b -> dec l env (b ++ r) = Some (v, r).
Proof.
  induction l as [|ws k IHk|ws k IHk|cw item IHi k IHk|item IHi k IHk|s key yes IHy no IHn|c body IHb k IHk];
    intros env v b r E.
  (* a head record and a plain record are written and read alike *)
  2,3: destruct v as [|vals kv| | |]; cbn [enc] in E; try discriminate.
  2,3: apply oapp_Some in E as (x & y & Ex & Ey & ->);
    cbn [dec]; rewrite <- app_assoc, (consume_emit _ _ _ _ Ex), (IHk _ _ _ r Ey); reflexivity.
  - destruct v; cbn [enc] in E; try discriminate. injection E as <-. reflexivity.
  - destruct v as [| |items kv| |]; cbn [enc] in E; try discriminate.
    destruct (N.ltb_spec (N.of_nat (length items)) (256 ^ N.of_nat cw)) as [Hn|]; [|discriminate].
    apply oapp_Some in E as (x & y & Ex & Ey & ->). injection Ex as <-.
    apply oapp_Some in Ey as (bi & bk & Ei & Ek & ->).
    cbn [dec]. rewrite <- !app_assoc, (rd_le cw _ _ Hn), Nat2N.id.
    rewrite (dec_items_enc (enc item []) (dec item []) (fun v b r => IHi [] v b r) _ _ _ Ei).
    rewrite (IHk _ _ _ r Ek). reflexivity.
  - destruct v as [| | |o kv|]; cbn [enc] in E; try discriminate. destruct o as [iv|].
    + apply oapp_Some in E as (x & y & Ex & Ey & ->). injection Ex as <-.
      apply oapp_Some in Ey as (bi & bk & Ei & Ek & ->).
      cbn [dec app]. change (1 =? 0) with false. cbv iota.
      rewrite <- app_assoc, (IHi _ _ _ _ Ei), (IHk _ _ _ r Ek). reflexivity.
    + apply oapp_Some in E as (x & y & Ex & Ey & ->). injection Ex as <-.
      cbn [dec app]. change (0 =? 0) with true. cbv iota. rewrite (IHk _ _ _ r Ey). reflexivity.
  - cbn [enc dec] in *. destruct (sel_val s env =? key); [apply IHy|apply IHn]; exact E.
  - destruct v as [| | | |bv kv]; cbn [enc] in E; try discriminate.
    apply oapp_Some in E as (x & y & Ex & Ey & ->).
    cbn [dec]. rewrite <- app_assoc, (IHb _ _ _ _ Ex), (IHk _ _ _ r Ey). reflexivity.
Qed.

(** second generation: what the decoder returns re-encodes to the same bytes *)
Corollary enc_dec_enc l env v b v' r : enc l env v = Some b -> dec l env (b ++ r) = Some (v', r) -> enc l env v' = Some b.
Proof. intros E D. rewrite (dec_enc _ _ _ _ r E) in D. injection D as <-. exact E. Qed.

(** non-vacuity: a Gesture event with a ramp sample, a relative tag and one flex track with a direction track,
    in a scene (type numbers as in the pinned tree: Gesture 6, Loop 12, Speak 5) *)
Definition ex_flex : bval :=
  BS (BN [3; 3; 0; 1065353216] (BL [BN [0; 255; 0] BE] (BL [BN [1056964608; 7; 513] BE; BN [0; 0; 0] BE] BE))) BE.
Definition ex_event : bval :=
  BN [6; 1; 0; 1073741824; 2; 0; 0]
    (BS (BL [BN [1065353216; 128] BE] BE)
      (BN [1; 0]
        (BS (BL [BN [4; 200] BE] BE) (BS (BL [] BE) (BS (BL [BN [5; 4096] BE] BE) (BS (BL [] BE)
          (BN [1069547520] (BO (Some (BN [6; 7] BE)) (BL [ex_flex] BE))))))))).
Definition ex_scene : bval :=
  BN [1684240994; 4; 123456] (BL [BS ex_event BE] (BL [] (BS (BL [] BE) (BN [0] BE)))).
Example ex_scene_encodes :
  match enc (scene_lay 6 12 5) [] ex_scene with
  | Some b => length b = 98%nat /\ dec (scene_lay 6 12 5) [] b = Some (ex_scene, [])
  | None => False
  end.
Proof. vm_compute. split; reflexivity. Qed.

(** the layouts take exactly the 12 / 2 / 1 paths of the pinned tree *)
Example ex_event_paths : length (paths_of (event_lay 6 12 5)) = 12%nat /\ length (paths_of flex_lay) = 2%nat.
Proof. split; reflexivity. Qed.

(** refuted: the marker written twice (the repaired relative-tag defect): the reader's widths 1,2,2 on the writer's
    1,1,2,2 bytes give other values and leave bytes over *)
Example double_marker_refuted :
  match emit [1; 1; 2; 2]%nat [1; 1; 5; 9] with
  | Some b => consume [1; 2; 2]%nat b = Some ([1; 1281; 2304], [0])
  | None => False
  end /\ paths_eqb [[TW 1; TW 1; TW 2; TW 2]] [[TW 1; TW 2; TW 2]] = false.
Proof. split; vm_compute; reflexivity. Qed.
