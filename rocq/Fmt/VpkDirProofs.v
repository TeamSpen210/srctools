(** Proofs about the VPK directory codec (Fmt/VpkDir.v): load_dirfile inverts write_dirfile. *)
From Coq Require Import List NArith ZArith Bool Lia ZifyBool.
From SV Require Import Fmt.VpkDir.
Import ListNotations.
Open Scope N_scope.

Ltac Zify.zify_post_hook ::= Z.to_euclidean_division_equations.

Lemma len_app a b : len (a ++ b) = len a + len b.
Proof. unfold len. rewrite app_length. lia. Qed.
Lemma len_cons x a : len (x :: a) = 1 + len a.
Proof. unfold len. cbn [length]. lia. Qed.
Lemma len_nil_inv a : len a = 0 -> a = [].
Proof. destruct a; [reflexivity|]. unfold len. cbn [length]. lia. Qed.

(** base-256 digits: the division equation, used once per byte instead of handing div/mod to [lia] *)
Lemma le_digit n : n mod 256 + 256 * (n / 256) = n.
Proof. rewrite N.add_comm. symmetry. apply N.div_mod'. Qed.

Lemma rd16_le16 n r : n < 65536 -> rd16 (le16 n ++ r) = Some (n, r).
Proof.
  intros H. unfold le16, rd16. cbn [app].
  rewrite (N.mod_small (n / 256)) by (apply N.div_lt_upper_bound; [discriminate|exact H]).
  now rewrite le_digit.
Qed.
Lemma rd32_le32 n r : n < 4294967296 -> rd32 (le32 n ++ r) = Some (n, r).
Proof.
  intros H. unfold le32, rd32. cbn [app].
  change 65536 with (256 * 256). change 16777216 with (256 * 256 * 256). rewrite <- !N.div_div by discriminate.
  rewrite (N.mod_small (n / 256 / 256 / 256)) by (do 3 (apply N.div_lt_upper_bound; [discriminate|]); exact H).
  do 2 f_equal. set (q1 := n / 256). set (q2 := q1 / 256).
  transitivity (n mod 256 + 256 * (q1 mod 256 + 256 * (q2 mod 256 + 256 * (q2 / 256)))); [ring|].
  now rewrite !le_digit.
Qed.

Lemma firstn_len_app (a b : bytes) : firstn (N.to_nat (len a)) (a ++ b) = a.
Proof.
  unfold len. rewrite Nat2N.id, firstn_app, firstn_all, Nat.sub_diag. cbn. apply app_nil_r.
Qed.
Lemma skipn_len_app (a b : bytes) : skipn (N.to_nat (len a)) (a ++ b) = b.
Proof.
  unfold len. rewrite Nat2N.id, skipn_app, skipn_all, Nat.sub_diag. reflexivity.
Qed.

(** ---- null-terminated strings ---- *)
Lemma read_cstr_app s r :
  forallb (fun b => negb (b =? 0) && (b <? 256)) s = true -> read_cstr (s ++ 0 :: r) = Some (s, r).
Proof.
  induction s as [|b s IH]; intros H; cbn [app read_cstr].
  - reflexivity.
  - cbn [forallb] in H. apply andb_prop in H as [Hb Hs]. apply andb_prop in Hb as [Hb _].
    destruct (b =? 0); [discriminate|]. now rewrite (IH Hs).
Qed.

Lemma next_str_write s r : str_ok s = true -> next_str (write_cstr s ++ r) = Some (Some s, r).
Proof.
  unfold str_ok. intros H. apply andb_prop in H as [Hs Hsp].
  destruct s as [|a s].
  - reflexivity.
  - unfold write_cstr, next_str. rewrite <- app_assoc. cbn [app]. change (a :: s ++ 0 :: r) with ((a :: s) ++ 0 :: r).
    rewrite (read_cstr_app _ _ Hs). destruct s as [|b s]; [|reflexivity].
    destruct (a =? 32); [discriminate|reflexivity].
Qed.

Lemma next_str_end r : next_str (0 :: r) = Some (None, r).
Proof. reflexivity. Qed.

Lemma write_cstr_len s : (1 <= length (write_cstr s))%nat.
Proof. destruct s; cbn; [lia|]. rewrite app_length. cbn. lia. Qed.

Section codec.
  Variable c : dcfg.
  Hypothesis Hc : dcfg_ok c = true.

  Definition idx_wf (i : info) : Prop := forall x, iidx i = Some x -> x <> c_dir_index c.
  Definition wf_files (fs : list (bytes * info)) : Prop :=
    Forall (fun f => str_ok (fst f) = true /\ idx_wf (snd f)) fs.
  Definition files_fit (fs : list (bytes * info)) : bool := forallb (fun f => entry_fits c (snd f)) fs.
  Definition dirs_fit (ds : list (bytes * list (bytes * info))) : bool := forallb (fun d => files_fit (snd d)) ds.
  Definition wf_dirs (ds : list (bytes * list (bytes * info))) : Prop :=
    Forall (fun d => str_ok (fst d) = true /\ wf_files (snd d)) ds.
  Definition wf_tree (t : tree) : Prop :=
    Forall (fun e => str_ok (fst e) = true /\ wf_dirs (snd e)) t.

  Lemma dec_enc_entry i r :
    entry_fits c i = true -> idx_wf i -> dec_entry c (enc_entry c i ++ r) = Some (norm_info i, r).
  Proof.
    unfold entry_fits, fits16, fits32. intros H Hi.
    repeat (apply andb_prop in H as [H ?]).
    unfold enc_entry, dec_entry. rewrite <- !app_assoc.
    rewrite rd32_le32 by lia. rewrite rd16_le16 by lia. rewrite rd16_le16 by lia.
    rewrite rd32_le32 by lia. rewrite rd32_le32 by lia. rewrite rd16_le16 by lia.
    rewrite N.eqb_refl, firstn_len_app, skipn_len_app. unfold norm_info. f_equal. f_equal. f_equal.
    unfold idx_code. destruct (iidx i) as [x|] eqn:E.
    - destruct (N.eqb_spec x (c_dir_index c)); [exfalso; now apply (Hi x)|reflexivity].
    - now rewrite N.eqb_refl.
  Qed.

  Definition files_body (fs : list (bytes * info)) : bytes :=
    flat_map (fun f => write_cstr (fst f) ++ enc_entry c (snd f)) fs.
  (** what one folder / one extension contributes to the tree: nothing when its dict is empty *)
  Definition dir_bytes (d : bytes * list (bytes * info)) : bytes :=
    match snd d with [] => [] | _ => write_cstr (fst d) ++ enc_files c (snd d) end.
  Definition ext_bytes (e : bytes * list (bytes * list (bytes * info))) : bytes :=
    match snd e with [] => [] | _ => write_cstr (fst e) ++ enc_dirs c (snd e) end.
  Definition dirs_body (ds : list (bytes * list (bytes * info))) : bytes := flat_map dir_bytes ds.
  Definition exts_body (t : tree) : bytes := flat_map ext_bytes t.
  Lemma enc_files_body fs : enc_files c fs = files_body fs ++ [0].
  Proof. reflexivity. Qed.
  Lemma enc_dirs_body ds : enc_dirs c ds = dirs_body ds ++ [0].
  Proof. reflexivity. Qed.
  Lemma enc_tree_body t : enc_tree c t = exts_body t ++ [0].
  Proof. reflexivity. Qed.

  Definition flat_files (e d : bytes) (fs : list (bytes * info)) : list (key * info) :=
    map (fun f => ((e, d, fst f), snd f)) fs.
  Definition flat_dirs (e : bytes) (ds : list (bytes * list (bytes * info))) : list (key * info) :=
    flat_map (fun d => flat_files e (fst d) (snd d)) ds.
  Definition nmap (l : list (key * info)) : list (key * info) := map (fun e => (fst e, norm_info (snd e))) l.

  Lemma nmap_app a b : nmap (a ++ b) = nmap a ++ nmap b.
  Proof. apply map_app. Qed.
  Lemma flat_dirs_cons e d ds : flat_dirs e (d :: ds) = flat_files e (fst d) (snd d) ++ flat_dirs e ds.
  Proof. reflexivity. Qed.

  Lemma dec_enc_files e d fs : forall fuel r,
    wf_files fs -> files_fit fs = true -> (length (files_body fs) < fuel)%nat ->
    dec_files c fuel e d (files_body fs ++ 0 :: r) = Some (nmap (flat_files e d fs), r).
  Proof.
    induction fs as [|f fs IH]; intros fuel r Hwf Hft Hf.
    - destruct fuel; [lia|]. reflexivity.
    - inversion Hwf as [|? ? (Hs & Hidx) Hwf']; subst.
      cbn [files_fit forallb] in Hft. apply andb_prop in Hft as [Hfit Hft].
      unfold files_body in *. cbn [flat_map] in *. rewrite !app_length in Hf.
      pose proof (write_cstr_len (fst f)).
      destruct fuel; [lia|]. cbn [dec_files].
      rewrite <- !app_assoc. rewrite (next_str_write _ _ Hs).
      rewrite (dec_enc_entry _ _ Hfit Hidx).
      rewrite IH by (auto; lia). reflexivity.
  Qed.

  Lemma files_body_len fs : (length (files_body fs) <= length (enc_files c fs))%nat.
  Proof. unfold enc_files, files_body. rewrite app_length. lia. Qed.

  Lemma dec_enc_dirs e ds : forall fuel r,
    wf_dirs ds -> dirs_fit ds = true -> (length (dirs_body ds) < fuel)%nat ->
    dec_dirs c fuel e (dirs_body ds ++ 0 :: r) = Some (nmap (flat_dirs e ds), r).
  Proof.
    induction ds as [|d ds IH]; intros fuel r Hwf Hft Hf.
    - destruct fuel; [lia|]. reflexivity.
    - inversion Hwf as [|? ? (Hs & Hfs) Hwf']; subst.
      cbn [dirs_fit forallb] in Hft. apply andb_prop in Hft as [Hfit Hft].
      rewrite flat_dirs_cons. unfold dirs_body, dir_bytes in *. cbn [flat_map] in *.
      destruct (snd d) as [|f0 fs0] eqn:Ed.
      + apply IH; auto.
      + rewrite !app_length in Hf. pose proof (write_cstr_len (fst d)).
        destruct fuel; [lia|]. cbn [dec_dirs].
        rewrite <- !app_assoc. rewrite (next_str_write _ _ Hs).
        rewrite enc_files_body, <- !app_assoc. cbn [app].
        rewrite dec_enc_files; [|assumption|assumption|rewrite app_length; lia].
        rewrite IH; [|assumption|assumption|].
        * now rewrite nmap_app.
        * lia.
  Qed.

  Lemma exts_body_nil_flat t : exts_body t = [] -> flat_tree t = [].
  Proof.
    induction t as [|e t IH]; intros H; [reflexivity|].
    unfold exts_body, ext_bytes, flat_tree in *. cbn [flat_map] in *.
    destruct (snd e) eqn:Ee.
    - cbn [flat_map app]. apply IH, H.
    - apply app_eq_nil in H as [H _]. pose proof (write_cstr_len (fst e)).
      apply (f_equal (@length N)) in H. rewrite app_length in H. cbn [length] in H. lia.
  Qed.

  Lemma flat_tree_cons e t : flat_tree (e :: t) = flat_dirs (fst e) (snd e) ++ flat_tree t.
  Proof. reflexivity. Qed.

  Lemma exts_body_cons e t : exts_body (e :: t) = ext_bytes e ++ exts_body t.
  Proof. reflexivity. Qed.

  Lemma dec_enc_exts t : forall fuel flen tlen footer,
    wf_tree t -> tree_fits c t = true -> (length (exts_body t) < fuel)%nat -> flen + 1 = tlen + (len footer + 1) ->
    dec_exts c fuel flen tlen (exts_body t ++ 0 :: footer) = Some (nmap (flat_tree t), footer).
  Proof.
    induction t as [|e t IH]; intros fuel flen tlen footer Hwf Hft Hf Hl.
    - destruct fuel; [lia|]. reflexivity.
    - inversion Hwf as [|? ? (Hs & Hds) Hwf']; subst.
      cbn [tree_fits forallb] in Hft. apply andb_prop in Hft as [Hfit Hft].
      rewrite flat_tree_cons. rewrite exts_body_cons in *. unfold ext_bytes in *.
      destruct (snd e) as [|d0 ds0] eqn:Ee.
      + cbn [app flat_dirs flat_map]. apply IH; auto.
      + rewrite !app_length in Hf. pose proof (write_cstr_len (fst e)).
        destruct fuel; [lia|]. cbn [dec_exts].
        rewrite <- !app_assoc. rewrite (next_str_write _ _ Hs).
        rewrite enc_dirs_body, <- !app_assoc. cbn [app].
        rewrite dec_enc_dirs; [|assumption|exact Hfit|rewrite app_length; lia].
        destruct (len (exts_body t ++ 0 :: footer) + tlen =? flen + 1) eqn:Eq.
        * apply N.eqb_eq in Eq. rewrite len_app, len_cons in Eq.
          assert (exts_body t = []) as E0 by (apply len_nil_inv; lia).
          rewrite E0. cbn [app tl]. rewrite (exts_body_nil_flat _ E0), app_nil_r. reflexivity.
        * rewrite IH; [|assumption|assumption| |assumption].
          -- now rewrite nmap_app.
          -- lia.
  Qed.

  (** load_dirfile (write_dirfile (tree, footer)) = (entries in written order, offsets normalised; footer) *)
  Theorem dirtree_roundtrip t footer b :
    wf_tree t -> enc_file c t footer = Some b ->
    dec_file c b = Some (nmap (flat_tree t), footer).
  Proof.
    intros Hwf. unfold enc_file. unfold dcfg_ok in Hc.
    apply andb_prop in Hc as [Hc1 Hterm]. apply andb_prop in Hc1 as [Hsig Hdi].
    destruct (fits32 (c_sig c) && tree_fits c t && fits32 (len (enc_tree c t))) eqn:E; [|discriminate].
    intros Hb. replace b with (le32 (c_sig c) ++ le32 1 ++ le32 (len (enc_tree c t)) ++ enc_tree c t ++ footer) by congruence.
    clear Hb. apply andb_prop in E as [E Hlen]. apply andb_prop in E as [E Hfits]. unfold fits32 in *.
    unfold dec_file. rewrite rd32_le32 by lia. rewrite rd32_le32 by lia. rewrite rd32_le32 by lia.
    rewrite !N.eqb_refl. cbn [andb].
    rewrite enc_tree_body, <- !app_assoc. cbn [app].
    apply dec_enc_exts; [assumption|assumption|rewrite app_length; cbn [length]; lia|].
    rewrite !len_app, !len_cons. change (len []) with 0. lia.
  Qed.
End codec.
