(* TextLinesProofs.v -- every structured line: the tokenizer model reads the rendered text back as exactly the tokens of
   its keywords and field values, whatever the field values are (within vals_ok). *)
From Coq Require Import List NArith Bool.
From SV Require Import KV.KvBase KV.KvLex KV.KvSym KV.KvLexProofs Fmt.TextFieldsProofs Fmt.VmtQuoteProofs Fmt.TextLines.
Import ListNotations.
Open Scope N_scope.

Lemma word_then E l w d : word_ok w = true -> delim_ok d = true -> lexes E l (w ++ [d]) (TStr w :: dtoks d) (dline d l).
Proof.
  destruct w as [|h t]; [discriminate|]. cbn [word_ok]. rewrite !andb_true_iff, !negb_true_iff.
  intros [[[[Hb H47] H35] Hbom] Ht] Hd.
  assert (Hs : starts_bare l h = true).
  { unfold starts_bare. rewrite Hb, H47, H35, Hbom. reflexivity. }
  unfold delim_ok in Hd. rewrite !orb_true_iff, !N.eqb_eq in Hd. unfold dtoks, dline.
  destruct Hd as [[-> | ->] | ->]; cbn [N.eqb Pos.eqb SP TAB LF].
  - apply (bare_then E l h t SP [] l Ht Hs); reflexivity.
  - apply (bare_then E l h t TAB [] l Ht Hs); reflexivity.
  - apply (bare_then E l h t LF [TNL] (l + 1) Ht Hs); reflexivity.
Qed.

Theorem items_lex E ind : esc_ok E = true -> ws_only ind = true -> forall its, items_ok its = true -> forall vs l, vals_ok its vs = true ->
  lexes E l (render E ind its vs) (toks its vs) (lines its l).
Proof.
  intros HE Hind its. induction its as [|i r IH]; intros Hok vs l Hv.
  - apply lexes_nil.
  - destruct i; cbn [items_ok] in Hok; cbn [vals_ok] in Hv; cbn [render toks lines].
    + apply andb_true_iff in Hok as [Hw Hr]. change (toks r vs) with ([] ++ toks r vs).
      apply lexes_app with (l1 := l); [apply lexes_ws; exact Hw | apply IH; assumption].
    + change (toks r vs) with ([] ++ toks r vs).
      apply lexes_app with (l1 := l); [apply lexes_ws; exact Hind | apply IH; assumption].
    + apply lexes_app with (l1 := l + 1); [apply lexes_lf | apply IH; assumption].
    + apply lexes_app with (l1 := l); [apply lexes_bo | apply IH; assumption].
    + apply lexes_app with (l1 := l); [apply lexes_bc | apply IH; assumption].
    + apply andb_true_iff in Hok as [Hs Hr].
      apply lexes_app with (l1 := l); [apply lexes_raw_quoted; exact Hs | apply IH; assumption].
    + destruct vs as [|v vs']; [discriminate|]. apply andb_true_iff in Hv as [Hs Hv].
      apply lexes_app with (l1 := l); [apply lexes_raw_quoted; exact Hs | apply IH; assumption].
    + destruct vs as [|v vs']; [discriminate|].
      apply lexes_app with (l1 := l); [apply lexes_quoted; exact HE | apply IH; assumption].
    + apply andb_true_iff in Hok as [Hwd Hr]. apply andb_true_iff in Hwd as [Hw Hd].
      apply lexes_app with (l1 := dline d l); [apply word_then; assumption | apply IH; assumption].
    + destruct vs as [|v vs']; [discriminate|]. apply andb_true_iff in Hv as [Hw Hv].
      apply andb_true_iff in Hok as [Hd Hr].
      apply lexes_app with (l1 := dline d l); [apply word_then; assumption | apply IH; assumption].
Qed.

(** all lines of a writer at once *)
Corollary lines_lex E ind ls : esc_ok E = true -> ws_only ind = true -> forallb items_ok ls = true ->
  forall its vs l, In its ls -> vals_ok its vs = true -> lexes E l (render E ind its vs) (toks its vs) (lines its l).
Proof.
  intros HE Hind H its vs l Hin Hv. rewrite forallb_forall in H. apply items_lex; auto.
Qed.

(** non-vacuity: the soundscript line `\tsoundlevel "<pair>"\n` and the entry head `"<name>"\n\t{\n` *)
Example ex_soundlevel :
  let its := [IWs [TAB]; IWord [115; 111; 117; 110; 100; 108; 101; 118; 101; 108] SP; IQRaw; INl] in
  items_ok its = true /\ vals_ok its [[57; 53; 44; 32; 49; 49; 48]] = true
  /\ lex_all ex_escfg ([97; 10] ++ render ex_escfg [] its [[57; 53; 44; 32; 49; 49; 48]])
     = ([TStr [97]; TNL; TStr [115; 111; 117; 110; 100; 108; 101; 118; 101; 108]; TStr [57; 53; 44; 32; 49; 49; 48]; TNL], None).
Proof. repeat split; vm_compute; reflexivity. Qed.

(** the unquoted low/high pair `95, 110` (the repaired soundscript defect) is not a bare word: as a bare field it is outside vals_ok *)
Example bare_pair_not_a_word : word_ok [57; 53; 44; 32; 49; 49; 48] = false.
Proof. reflexivity. Qed.

(** a choreo text line with the run-time indent: `{indent}event <type> "<escaped name>"\n`, the name holding a quote *)
Example ex_event_line :
  let its := [IInd; IWord [101; 118; 101; 110; 116] SP; IBare SP; IQEsc; INl] in
  items_ok its = true /\ vals_ok its [[115; 112; 101; 97; 107]; [97; 34; 98]] = true
  /\ lex_all ex_escfg ([97; 10] ++ render ex_escfg [SP; SP] its [[115; 112; 101; 97; 107]; [97; 34; 98]])
     = ([TStr [97]; TNL; TStr [101; 118; 101; 110; 116]; TStr [115; 112; 101; 97; 107]; TStr [97; 34; 98]; TNL], None).
Proof. repeat split; vm_compute; reflexivity. Qed.
