(** Proofs: an overlay record whose generated labels pass [overlay_rec_ok] is read back position by position. *)
From Coq Require Import List ZArith Lia.
From SV Require Import Bin.Struct Bin.StructProofs Fmt.BspFormatsSpec Fmt.BspFormatsProofs Fmt.BspRecords Fmt.BspRecordsProofs
  Fmt.BspOverlayRec.
Import ListNotations.
Open Scope string_scope.
Open Scope list_scope.

(** If the labels read from the source agree, the reader's format [r] is well-formed with exactly one value per label,
    and for ANY assignment of values to labels and any face list of at most [count] indexes: packing the block (the
    writer's values, the padding seen as zero integers) with [r] succeeds with [calcsize r] bytes, and unpacking gives the
    reader every attribute from the position the writer put it in, the faces in order, and zeros behind them. *)
Theorem overlay_record_roundtrip : forall reader count rh rf rt wh wf wt,
  overlay_rec_ok reader count (rh, rf, rt, (wh, wf, wt)) = true ->
  rh = wh /\ rf = wf /\ rt = wt /\
  exists r, parse_fmt reader = Some r /\ wf_fmt r = true /\ nvalues r = (List.length rh + count + List.length rt)%nat /\
    forall (field : slot -> value) (faces : list Z), (List.length faces <= count)%nat ->
      List.length (overlay_values field wh wt faces count) = nvalues r /\
      (fits r (overlay_values field wh wt faces count) = true ->
       exists bs, pack r (overlay_values field wh wt faces count) = Some bs /\ List.length bs = calcsize r /\
                  unpack r bs = Some (overlay_values field rh rt faces count)).
Proof.
  intros reader count rh rf rt wh wf wt H. cbn [overlay_rec_ok] in H.
  destruct (parse_fmt reader) as [r|] eqn:Er; [|discriminate].
  repeat (apply andb_prop in H; let H' := fresh "H" in destruct H as [H H']).
  apply slots_eqb_eq in H. apply strs_eqb_eq in H5. apply slots_eqb_eq in H4. subst wh wf wt.
  apply Nat.eqb_eq in H0.
  split; [reflexivity|]. split; [reflexivity|]. split; [reflexivity|].
  exists r. split; [reflexivity|]. split; [exact H3|]. split; [exact H0|].
  intros field faces Hn. split.
  - unfold overlay_values. rewrite !app_length, !map_length, repeat_length. lia.
  - exact (unpack_pack_sized r _ H3).
Qed.

(** * The bytes the writer emits are the block the reader unpacks *)

Lemma nvalues_cons_pad : forall f, nvalues (KPad :: f) = nvalues f.
Proof. reflexivity. Qed.

Lemma pack_prefix_congr : forall A B X Y, pack A X = pack B Y ->
  forall pre pv, List.length pv = nvalues pre -> pack (pre ++ A) (pv ++ X) = pack (pre ++ B) (pv ++ Y).
Proof. intros A B X Y H pre pv Hl. rewrite !pack_app by exact Hl. rewrite H. reflexivity. Qed.

Lemma pack_pad_zero_ints : forall k t tv,
  pack (repeat KPad (4 * k) ++ t) tv = pack (repeat int32 k ++ t) (repeat (VInt 0) k ++ tv).
Proof.
  induction k as [|k IH]; intros t tv; [reflexivity|].
  replace (4 * S k)%nat with (S (S (S (S (4 * k))))) by lia.
  cbn [repeat app pack]. rewrite IH.
  change (pack1 int32 (VInt 0)) with (Some [0; 0; 0; 0]%N).
  destruct (pack (repeat int32 k ++ t) (repeat (VInt 0) k ++ tv)); reflexivity.
Qed.

Lemma nvalues_repeat_int32 : forall n, nvalues (repeat int32 n) = n.
Proof. induction n; [reflexivity|]. cbn [repeat]. unfold nvalues in *. cbn. rewrite IHn. reflexivity. Qed.

Theorem overlay_writer_block_is_reader_block : forall h t count (fs : list Z) hv tv,
  (List.length fs <= count)%nat -> List.length hv = nvalues h ->
  pack (overlay_writer_fmt h t count (List.length fs)) (hv ++ map VInt fs ++ tv) =
  pack (overlay_reader_fmt h t count) (hv ++ map VInt fs ++ repeat (VInt 0) (count - List.length fs) ++ tv).
Proof.
  intros h t count fs hv tv Hn Hh. unfold overlay_writer_fmt, overlay_reader_fmt.
  replace count with (List.length fs + (count - List.length fs))%nat at 2 by lia.
  rewrite repeat_app, <- app_assoc.
  apply pack_prefix_congr; [|exact Hh].
  apply pack_prefix_congr; [|rewrite map_length, nvalues_repeat_int32; reflexivity].
  apply pack_pad_zero_ints.
Qed.

(** Whole overlay block, from the two obligations about today's source: [overlay_ok] (formats of the four pack calls and
    of the reader for every face count, BspFormatsSpec) and [overlay_rec_ok] (labels).  For every face count [n] the
    writer admits, every assignment of values to labels whose head part has one value per head field: the writer's
    formats for [n] faces concatenate to [h ++ f ++ t]; packing the writer's values with it gives exactly the bytes of
    the reader's format applied to the same values with zeros behind the faces; and if those fit, the reader's unpack
    returns every attribute from its own position, the faces in order, and [count - n] zeros (which the reader slices
    off with the stored face count, [overlay_bits_roundtrip]). *)
Theorem overlay_block_roundtrip : forall reader head tail count wmax rmax ffmts rh rf rt wh wf wt,
  overlay_ok reader head tail count wmax rmax ffmts = true ->
  overlay_rec_ok reader count (rh, rf, rt, (wh, wf, wt)) = true ->
  exists r h t, parse_fmt reader = Some r /\ parse_fmt head = Some h /\ strs_fmt tail = Some t /\
  forall (field : slot -> value) (faces : list Z), (List.length faces <= wmax)%nat -> List.length wh = nvalues h ->
    exists s f, In (List.length faces, s) ffmts /\ parse_fmt s = Some f /\
      pack (h ++ f ++ t) (map field wh ++ map VInt faces ++ map field wt) = pack r (overlay_values field wh wt faces count) /\
      (fits r (overlay_values field wh wt faces count) = true ->
       exists bs, pack (h ++ f ++ t) (map field wh ++ map VInt faces ++ map field wt) = Some bs /\
                  List.length bs = calcsize r /\ unpack r bs = Some (overlay_values field rh rt faces count)).
Proof.
  intros reader head tail count wmax rmax ffmts rh rf rt wh wf wt Hf Hr.
  destruct (overlay_formats _ _ _ _ _ _ _ Hf) as (r & h & t & Er & Eh & Et & -> & Hw & Hn).
  destruct (overlay_record_roundtrip _ _ _ _ _ _ _ _ Hr) as (-> & -> & -> & r' & Er' & Hwf & Hnv & Hrt).
  rewrite Er in Er'. injection Er' as <-.
  exists (overlay_reader_fmt h t count), h, t. split; [exact Er|]. split; [exact Eh|]. split; [exact Et|].
  intros field faces Hlen Hh. destruct (Hn _ Hlen) as (s & f & Hin & Ef & Hcat & _).
  exists s, f. split; [exact Hin|]. split; [exact Ef|].
  assert (Hb : pack (h ++ f ++ t) (map field wh ++ map VInt faces ++ map field wt) =
               pack (overlay_reader_fmt h t count) (overlay_values field wh wt faces count)).
  { rewrite Hcat. unfold overlay_values. apply overlay_writer_block_is_reader_block; [lia|]. rewrite map_length. exact Hh. }
  split; [exact Hb|]. intros Hfit.
  destruct (Hrt field faces ltac:(lia)) as [_ Hgo]. destruct (Hgo Hfit) as (bs & Hp & Hl & Hu).
  exists bs. rewrite Hb. split; [exact Hp|]. split; [exact Hl|exact Hu].
Qed.
