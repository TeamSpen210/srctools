(** C16 — proofs about Fmt/FgdBinEnt.v: what ent_serialise writes, ent_unserialise reads back (records,
    whole blocks, with the block's string dictionary), as a composition of the codec lemmas of Fmt/FgdBinProofs.v. *)
From Coq Require Import List NArith Arith Bool String Lia.
From SV Require Import Fmt.FgdBin Fmt.FgdBinProofs Fmt.FgdBinEnt.
Import ListNotations.
Open Scope N_scope.

Lemma Forall_True {T} (l : list T) : Forall (fun _ => True) l.
Proof. induction l; constructor; auto. Qed.

Section Proofs.
Variable A : Type.
Variable enc : A -> option (N * N).
Variable dec : N * N -> option A.
Hypothesis enc_dec : forall s p, enc s = Some p -> dec p = Some s.
Variable empty : A.
Variables vt_order ft_order : list string.
Hypothesis vt_len : (List.length vt_order < 128)%nat.
Hypothesis ft_len : (List.length ft_order < 128)%nat.
Variables list_type choices_type : string.
Variable kinds : list (string * N).
Variables mask alias_bit : N.
Hypothesis kinds_layout : entflags_ok (map snd kinds) mask alias_bit = true.
Hypothesis kinds_values_distinct : nodup_N (map snd kinds) = true.
Hypothesis kinds_names_distinct : nodup_str (map fst kinds) = true.

Local Notation str_b := (str_b A enc).
Local Notation rd_str := (rd_str A dec).
Local Notation kvdef := (kvdef A).
Local Notation flag_ser := (flag_ser A enc).
Local Notation flag_unser := (flag_unser A dec).
Local Notation kv_ser := (kv_ser A enc vt_order list_type choices_type).
Local Notation kv_unser := (kv_unser A dec empty vt_order list_type).
Local Notation io_ser := (io_ser A enc vt_order).
Local Notation io_unser := (io_unser A dec vt_order).
Local Notation res_ser := (res_ser A enc ft_order).
Local Notation res_unser := (res_unser A dec ft_order).
Local Notation ent_ser := (ent_ser A enc vt_order ft_order list_type choices_type kinds alias_bit).
Local Notation ent_unser := (ent_unser A dec empty vt_order ft_order list_type kinds mask alias_bit).
Local Notation kv_wf := (kv_wf A empty list_type).
Local Notation ent_wf := (ent_wf A empty list_type).

Lemma cat_some a b bs : cat a b = Some bs -> exists x y, a = Some x /\ b = Some y /\ bs = x ++ y.
Proof. destruct a as [x|], b as [y|]; cbn [cat]; try discriminate. intros [= <-]. eauto. Qed.
Lemma cat_all_cons a l bs : cat_all (a :: l) = Some bs -> exists x y, a = Some x /\ cat_all l = Some y /\ bs = x ++ y.
Proof. cbn [cat_all fold_right]. apply cat_some. Qed.
Lemma cat_all_nil bs : cat_all [] = Some bs -> bs = [].
Proof. cbn [cat_all fold_right]. congruence. Qed.

Lemma byte_some n bs : byte n = Some bs -> bs = [n].
Proof. unfold byte. destruct (n <? 256); congruence. Qed.
Lemma rd_byte_ok n bs rest : byte n = Some bs -> rd_byte (bs ++ rest) = Some (n, rest).
Proof. intros H. apply byte_some in H. subst. reflexivity. Qed.
Lemma rd_str_ok s bs rest : str_b s = Some bs -> rd_str (bs ++ rest) = Some (s, rest).
Proof.
  unfold FgdBinEnt.str_b. destruct (enc s) as [[a b]|] eqn:E; cbn [option_map]; [|discriminate]. intros [= <-].
  cbn [fst snd app FgdBinEnt.rd_str]. rewrite (enc_dec _ _ E). reflexivity.
Qed.
Lemma count_some {T} (l : list T) bs : count_b l = Some bs -> bs = [N.of_nat (List.length l)].
Proof. apply byte_some. Qed.
Lemma count_lt {T} (l : list T) bs : count_b l = Some bs -> (List.length l < 256)%nat.
Proof. unfold count_b, byte. destruct (N.ltb_spec (N.of_nat (List.length l)) 256); [lia|discriminate]. Qed.

(** a counted sequence of records *)
Lemma rd_n_ok {T} (ser : T -> option (list N)) (rd : reader T) (P : T -> Prop) :
  (forall x bs rest, P x -> ser x = Some bs -> rd (bs ++ rest) = Some (x, rest)) ->
  forall l bs rest, Forall P l -> cat_all (map ser l) = Some bs -> rd_n (List.length l) rd (bs ++ rest) = Some (l, rest).
Proof.
  intros H. induction l as [|x l IH]; intros bs rest Hl Hs; cbn [map List.length rd_n] in *.
  - apply cat_all_nil in Hs. subst. reflexivity.
  - apply cat_all_cons in Hs as (b1 & b2 & H1 & H2 & ->). inversion Hl as [|? ? Hx Hl']; subst.
    rewrite <- app_assoc, (H x b1 _ Hx H1), (IH b2 rest Hl' H2). reflexivity.
Qed.
(** ... of records that need no side condition *)
Lemma rd_n_all {T} (ser : T -> option (list N)) (rd : reader T) :
  (forall x bs rest, ser x = Some bs -> rd (bs ++ rest) = Some (x, rest)) ->
  forall l bs rest, cat_all (map ser l) = Some bs -> rd_n (List.length l) rd (bs ++ rest) = Some (l, rest).
Proof. intros H l bs rest. apply (rd_n_ok ser rd (fun _ => True)); [intros x b r _; apply H|apply Forall_True]. Qed.
Lemma rd_n_count {T} (l : list T) (rd : reader T) bs : rd_n (N.to_nat (N.of_nat (List.length l))) rd bs = rd_n (List.length l) rd bs.
Proof. rewrite Nat2N.id. reflexivity. Qed.

Lemma flag_roundtrip f bs rest : flag_wf A f -> flag_ser f = Some bs -> flag_unser (bs ++ rest) = Some (f, rest).
Proof.
  destruct f as [[m name] d]. intros [p [Hp Hm]]. cbn [fst] in Hm. subst m. unfold FgdBinEnt.flag_ser.
  destruct ((2 ^ p =? 0) || (128 <=? N.log2 (2 ^ p))); [discriminate|]. intros H.
  apply cat_some in H as (b1 & b2 & H1 & H2 & ->). unfold FgdBinEnt.flag_unser.
  rewrite <- app_assoc, (rd_byte_ok _ _ _ H1), (spawnflag_roundtrip p d Hp), (rd_str_ok _ _ _ H2). reflexivity.
Qed.

Lemma kv_roundtrip k bs rest : kv_wf k -> kv_ser k = Some bs -> kv_unser (bs ++ rest) = Some (k, rest).
Proof.
  destruct k as [name disp ty ro dflt fl]. unfold FgdBinEnt.kv_wf, FgdBinEnt.kv_ser. cbn [kv_type kv_name kv_disp kv_ro kv_default kv_flags].
  intros Hwf. destruct (encode_type vt_order ty) as [i|] eqn:Ei; [|discriminate].
  destruct (encode_decode_type _ _ _ Ei) as [Hd Hi]. intros H.
  apply cat_all_cons in H as (b1 & r1 & H1 & H & ->).
  apply cat_all_cons in H as (b2 & r2 & H2 & H & ->).
  apply cat_all_cons in H as (b3 & r3 & H3 & H & ->).
  apply cat_all_cons in H as (b4 & r4 & H4 & H & ->). apply cat_all_nil in H. subst r4.
  unfold FgdBinEnt.kv_unser. rewrite app_nil_r, <- !app_assoc.
  rewrite (rd_str_ok _ _ _ H1), (rd_str_ok _ _ _ H2), (rd_byte_ok _ _ _ H3).
  destruct (flag7_roundtrip (N.of_nat i) ro) as [-> _]; [lia|]. rewrite Nat2N.id, Hd.
  destruct (String.eqb ty list_type).
  - destruct Hwf as [-> Hfl]. apply cat_some in H4 as (c1 & c2 & Hc1 & Hc2 & ->).
    rewrite <- app_assoc, (rd_byte_ok _ _ _ Hc1), rd_n_count.
    rewrite (rd_n_ok flag_ser flag_unser (flag_wf A) flag_roundtrip fl c2 rest Hfl Hc2). reflexivity.
  - subst fl. destruct (String.eqb ty choices_type); [discriminate|]. rewrite (rd_str_ok _ _ _ H4). reflexivity.
Qed.

Lemma io_roundtrip o bs rest : io_ser o = Some bs -> io_unser (bs ++ rest) = Some (o, rest).
Proof.
  destruct o as [name ty]. unfold FgdBinEnt.io_ser. cbn [io_name io_type].
  destruct (encode_type vt_order ty) as [i|] eqn:Ei; [|discriminate]. destruct (encode_decode_type _ _ _ Ei) as [Hd Hi].
  intros H. apply cat_some in H as (b1 & b2 & H1 & H2 & ->). unfold FgdBinEnt.io_unser.
  rewrite <- app_assoc, (rd_str_ok _ _ _ H1), (rd_byte_ok _ _ _ H2), Nat2N.id, Hd. reflexivity.
Qed.

Lemma pack_flag7_false i : pack_flag7 i false = i.
Proof. unfold pack_flag7. apply N.lor_0_r. Qed.

Lemma res_roundtrip r bs rest : res_ser r = Some bs -> res_unser (bs ++ rest) = Some (r, rest).
Proof.
  destruct r as [f ty tags]. unfold FgdBinEnt.res_ser. cbn [res_file res_type res_tags].
  destruct (encode_type ft_order ty) as [i|] eqn:Ei; [|discriminate]. destruct (encode_decode_type _ _ _ Ei) as [Hd Hi].
  unfold FgdBinEnt.res_unser. destruct tags as [|t tags].
  - intros H. apply cat_some in H as (b1 & b2 & H1 & H2 & ->).
    rewrite <- app_assoc, (rd_byte_ok _ _ _ H1). rewrite <- (pack_flag7_false (N.of_nat i)).
    destruct (flag7_roundtrip (N.of_nat i) false) as [-> _]; [lia|]. rewrite Nat2N.id, Hd, (rd_str_ok _ _ _ H2). reflexivity.
  - intros H.
    apply cat_all_cons in H as (b1 & r1 & H1 & H & ->).
    apply cat_all_cons in H as (b2 & r2 & H2 & H & ->).
    apply cat_all_cons in H as (b3 & r3 & H3 & H & ->).
    apply cat_all_cons in H as (b4 & r4 & H4 & H & ->). apply cat_all_nil in H. subst r4.
    rewrite app_nil_r, <- !app_assoc, (rd_byte_ok _ _ _ H1).
    destruct (flag7_roundtrip (N.of_nat i) true) as [-> _]; [lia|]. rewrite Nat2N.id, Hd, (rd_byte_ok _ _ _ H2), rd_n_count.
    rewrite (rd_n_all str_b rd_str rd_str_ok (t :: tags) b3 _ H3).
    rewrite (rd_str_ok _ _ _ H4). reflexivity.
Qed.

(** what ent_serialise writes for a definition, ent_unserialise reads back, consuming exactly those bytes *)
Theorem ent_roundtrip e bs rest : ent_wf e -> ent_ser e = Some bs -> ent_unser (bs ++ rest) = Some (e, rest).
Proof.
  destruct e as [kind al bases kvs ins outs res]. unfold FgdBinEnt.ent_wf, FgdBinEnt.ent_ser.
  cbn [e_kind e_alias e_bases e_kvs e_ins e_outs e_res]. intros Hwf.
  destruct (flag_of_name kind kinds) as [ty|] eqn:Ek; [|discriminate]. intros H.
  apply cat_all_cons in H as (b0 & r0 & H0 & H & ->).
  apply cat_all_cons in H as (c1 & r1 & C1 & H & ->).
  apply cat_all_cons in H as (c2 & r2 & C2 & H & ->).
  apply cat_all_cons in H as (c3 & r3 & C3 & H & ->).
  apply cat_all_cons in H as (c4 & r4 & C4 & H & ->).
  apply cat_all_cons in H as (c5 & r5 & C5 & H & ->).
  apply cat_all_cons in H as (s1 & t1 & S1 & H & ->).
  apply cat_all_cons in H as (s2 & t2 & S2 & H & ->).
  apply cat_all_cons in H as (s3 & t3 & S3 & H & ->).
  apply cat_all_cons in H as (s4 & t4 & S4 & H & ->).
  apply cat_all_cons in H as (s5 & t5 & S5 & H & ->). apply cat_all_nil in H. subst t5.
  apply byte_some in H0. apply count_some in C1, C2, C3, C4, C5. subst b0 c1 c2 c3 c4 c5.
  rewrite app_nil_r. cbn [app]. unfold FgdBinEnt.ent_unser.
  destruct (entflags_roundtrip (map snd kinds) mask alias_bit ty al kinds_layout (flag_of_name_In _ _ _ Ek)) as [-> _].
  rewrite (flag_table_inverse kinds kind ty kinds_values_distinct kinds_names_distinct Ek).
  rewrite <- !app_assoc, !Nat2N.id.
  rewrite (rd_n_all str_b rd_str rd_str_ok bases s1 _ S1). cbv beta iota.
  rewrite (rd_n_ok kv_ser kv_unser kv_wf kv_roundtrip kvs s2 _ Hwf S2). cbv beta iota.
  rewrite (rd_n_all io_ser io_unser io_roundtrip ins s3 _ S3). cbv beta iota.
  rewrite (rd_n_all io_ser io_unser io_roundtrip outs s4 _ S4). cbv beta iota.
  rewrite (rd_n_all res_ser res_unser res_roundtrip res s5 rest S5).
  reflexivity.
Qed.

(** the records of a whole block, in the order of the block's class names *)
Theorem block_roundtrip es bs rest : Forall ent_wf es ->
  block_ser A enc vt_order ft_order list_type choices_type kinds alias_bit es = Some bs ->
  block_unser A dec empty vt_order ft_order list_type kinds mask alias_bit (List.length es) (bs ++ rest) = Some (es, rest).
Proof.
  intros Hwf H. unfold block_ser, block_unser in *.
  exact (rd_n_ok ent_ser ent_unser ent_wf ent_roundtrip es bs rest Hwf H).
Qed.

(** the writer emits at most 255 of anything it counts and every byte it emits fits a byte where it is an index *)
Lemma ent_ser_counts e bs : ent_ser e = Some bs ->
  (List.length (e_bases A e) < 256 /\ List.length (e_kvs A e) < 256 /\ List.length (e_ins A e) < 256
   /\ List.length (e_outs A e) < 256 /\ List.length (e_res A e) < 256)%nat.
Proof.
  unfold FgdBinEnt.ent_ser. destruct (flag_of_name (e_kind A e) kinds); [|discriminate]. intros H.
  apply cat_all_cons in H as (b0 & r0 & _ & H & _).
  apply cat_all_cons in H as (c1 & r1 & C1 & H & _).
  apply cat_all_cons in H as (c2 & r2 & C2 & H & _).
  apply cat_all_cons in H as (c3 & r3 & C3 & H & _).
  apply cat_all_cons in H as (c4 & r4 & C4 & H & _).
  apply cat_all_cons in H as (c5 & r5 & C5 & _).
  repeat split; eapply count_lt; eassumption.
Qed.
End Proofs.

(** * The file header and the block positions *)
Lemma un32_le32 n : n < 4294967296 -> match le32 n with [a; b; c; d] => un32 a b c d = n | _ => False end.
Proof.
  intros H. unfold le32, un32.
  pose proof (N.div_mod n 256 ltac:(discriminate)) as H1.
  pose proof (N.div_mod (n / 256) 256 ltac:(discriminate)) as H2.
  pose proof (N.div_mod (n / 256 / 256) 256 ltac:(discriminate)) as H3.
  rewrite !N.div_div in H2, H3 by discriminate. change (256 * 256) with 65536 in *.
  rewrite N.div_div in H3 by discriminate. change (65536 * 256) with 16777216 in *.
  lia.
Qed.
Lemma un16_le16 n : match le16 n with [a; b] => a + 256 * b = n | _ => False end.
Proof. unfold le16. pose proof (N.div_mod n 256 ltac:(discriminate)). lia. Qed.

Lemma bpos_roundtrip b bs rest : bpos_ser b = Some bs -> bpos_unser (bs ++ rest) = Some (b, rest).
Proof.
  destruct b as [names off size]. unfold bpos_ser. cbn [bp_names bp_off bp_size].
  destruct (N.ltb_spec (N.of_nat (List.length names)) 65536) as [H1|]; [|discriminate].
  destruct (N.ltb_spec off 4294967296) as [H2|]; [|discriminate].
  destruct (N.ltb_spec size 65536) as [H3|]; [|discriminate]. cbn [andb]. intros [= <-].
  unfold bpos_unser. pose proof (un16_le16 (N.of_nat (List.length names))) as E1. pose proof (un32_le32 off H2) as E2.
  pose proof (un16_le16 size) as E3. unfold le16, le32 in *. cbn [app]. rewrite E1, Nat2N.id.
  rewrite <- !app_assoc. rewrite app_length. rewrite (proj2 (Nat.leb_le _ _)) by lia.
  rewrite skipn_app, skipn_all, Nat.sub_diag. cbn [app skipn]. rewrite E2, E3.
  rewrite firstn_app, firstn_all, Nat.sub_diag. cbn [firstn]. rewrite app_nil_r. reflexivity.
Qed.


Lemma slice_app pre data post : slice (pre ++ data ++ post) (N.of_nat (List.length pre)) (N.of_nat (List.length data)) = data.
Proof.
  unfold slice. rewrite !Nat2N.id, skipn_app, skipn_all, Nat.sub_diag. cbn [app skipn].
  rewrite firstn_app, firstn_all, Nat.sub_diag. cbn [firstn]. apply app_nil_r.
Qed.
