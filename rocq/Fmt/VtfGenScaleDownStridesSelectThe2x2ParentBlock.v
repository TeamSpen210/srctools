(** C15 — compiled by the check as the named obligation
    build:Fmt/VtfGenScaleDownStridesSelectThe2x2ParentBlock.vo : the destination offset, the source offset formula and the
    four strides that translate/c15_pixel.py reads from scale_down (Gen/VtfLayout_gen.v) are, for all sizes, those of the
    2x2 parent block ([scale_spec]); the shape of seeded fault c15_2 (the source HEIGHT as row stride) fails here. *)
From Coq Require Import ZArith Lia.
From SV Require Import Fmt.VtfLayout Gen.VtfLayout_gen Fmt.VtfGenProofs.
Open Scope Z_scope.

Lemma scale_strides_hold : scale_strides_spec.
Proof.
  split; [|split].
  - intros. unfold gen_dst_off, texel_off. ring.
  - intros. unfold gen_src_off2. ring.
  - intros sw sh w h Hs. cbn [horiz_off per_column vert_off per_row gen_scalecfg].
    unfold gen_per_row, gen_vert_off, gen_per_column, gen_horiz_off.
    destruct (Z.eqb_spec w sw), (Z.eqb_spec h sh); cbn [negb]; repeat split; lia.
Qed.
