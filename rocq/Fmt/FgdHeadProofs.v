(** C16 — proofs about Fmt/FgdHead.v: the header of an entity definition, as written, is read back. *)
From Coq Require Import List NArith Arith Bool.
From SV Require Import Fmt.FgdBin Fmt.FgdBinProofs Fmt.FgdLine Fmt.FgdHead.
Import ListNotations.
Open Scope N_scope.

Lemma str_eqb_refl a : str_eqb a a = true.
Proof. induction a as [|x a IH]; [reflexivity|]. cbn [str_eqb]. rewrite N.eqb_refl. exact IH. Qed.
Lemma str_eqb_eq a : forall b, str_eqb a b = true -> a = b.
Proof.
  induction a as [|x a IH]; intros [|y b] E; cbn [str_eqb] in E; try discriminate; [reflexivity|].
  apply andb_true_iff in E as [E1 E2]. apply N.eqb_eq in E1. f_equal; [exact E1|apply IH; exact E2].
Qed.
Lemma str_mem_false x l : ~ In x l -> str_mem x l = false.
Proof.
  induction l as [|y l IH]; intros Hn; [reflexivity|]. cbn [str_mem].
  destruct (str_eqb x y) eqn:E.
  - exfalso. apply Hn. left. symmetry. apply str_eqb_eq. exact E.
  - cbn [orb]. apply IH. intros Hi. apply Hn. right. exact Hi.
Qed.

(** * `', '.join(args)` read back by split(',') + strip *)
Definition spaced (l : list str) : list str := match l with [] => [] | x :: r => x :: map (cons 32) r end.
Lemma join_cs_blank y r : 32 :: join_cs (y :: r) = join_sep COMMA (map (cons 32) (y :: r)).
Proof.
  revert y. induction r as [|z r IH]; intros y; [reflexivity|].
  change (join_cs (y :: z :: r)) with (y ++ COMMA :: 32 :: join_cs (z :: r)).
  change (map (cons 32) (y :: z :: r)) with ((32 :: y) :: map (cons 32) (z :: r)).
  change (join_sep COMMA ((32 :: y) :: map (cons 32) (z :: r)))
    with ((32 :: y) ++ COMMA :: join_sep COMMA (map (cons 32) (z :: r))).
  rewrite <- IH. reflexivity.
Qed.
Lemma join_cs_sep l : join_cs l = join_sep COMMA (spaced l).
Proof.
  destruct l as [|x [|y r]]; [reflexivity|reflexivity|].
  change (join_cs (x :: y :: r)) with (x ++ COMMA :: 32 :: join_cs (y :: r)).
  change (spaced (x :: y :: r)) with (x :: map (cons 32) (y :: r)).
  change (join_sep COMMA (x :: map (cons 32) (y :: r))) with (x ++ COMMA :: join_sep COMMA (map (cons 32) (y :: r))).
  rewrite join_cs_blank. reflexivity.
Qed.
Lemma strip_blank y : strip y = y -> strip (32 :: y) = y.
Proof. intros E. unfold strip. cbn [lstrip]. change (blankc 32) with true. cbn iota. exact E. Qed.
Lemma map_strip_blank r : Forall (fun a => strip a = a) r -> map strip (map (cons 32) r) = r.
Proof. induction 1 as [|y r Hy _ IH]; [reflexivity|]. cbn [map]. rewrite strip_blank by exact Hy. rewrite IH. reflexivity. Qed.
Lemma spaced_nocomma l : Forall (fun a => mem_N COMMA a = false) l -> Forall (fun a => mem_N COMMA a = false) (spaced l).
Proof.
  intros Hl. destruct l as [|x r]; [constructor|]. inversion Hl as [|? ? Hx Hr]; subst. cbn [spaced]. constructor; [exact Hx|].
  clear Hx Hl. induction Hr as [|y r Hy _ IH]; [constructor|]. cbn [map]. constructor; [|exact IH].
  cbn [mem_N]. rewrite Hy. reflexivity.
Qed.
Theorem paren_args_join0 l : args_ok l -> paren_args (join_cs l) = l.
Proof.
  intros [Hl Hne]. unfold paren_args. rewrite join_cs_sep.
  destruct l as [|x r].
  - reflexivity.
  - assert (Hc : Forall (fun a => mem_N COMMA a = false) (x :: r)).
    { eapply Forall_impl; [|exact Hl]. intros a [Ha _]. exact Ha. }
    assert (Hs : Forall (fun a => strip a = a) (x :: r)).
    { eapply Forall_impl; [|exact Hl]. intros a [_ Ha]. exact Ha. }
    rewrite split_join; [|cbn [spaced]; congruence|apply spaced_nocomma; exact Hc].
    cbn [spaced map]. inversion Hs as [|? ? Hx Hr]; subst. rewrite Hx, map_strip_blank by exact Hr.
    destruct r as [|y r]; [|reflexivity].
    destruct x; [exfalso; apply Hne; reflexivity|reflexivity].
Qed.
Lemma arg_ok_args_ok l : Forall arg_ok l -> args_ok l.
Proof.
  intros Hl. split.
  - eapply Forall_impl; [|exact Hl]. intros a [_ Ha]. exact Ha.
  - intros E. subst l. inversion Hl as [|? ? [Hne _] _]; subst. congruence.
Qed.
(** every generated configuration of today's shape computes [paren_args] *)
Theorem paren_args_with_is_model c : args_cfg_ok c = true -> forall s, paren_args_with c s = paren_args s.
Proof.
  destruct c as [sep st f cl]. unfold args_cfg_ok. cbn [ac_sep ac_strip ac_filter ac_clear_sole].
  intros E s. apply andb_true_iff in E as [E Ec]. apply andb_true_iff in E as [E Ef].
  apply andb_true_iff in E as [Es Est]. apply N.eqb_eq in Es. subst sep st cl.
  destruct f; try discriminate. reflexivity.
Qed.

Lemma add_bases_nodup l : forall bs, NoDup (bs ++ l) -> add_bases bs l = bs ++ l.
Proof.
  induction l as [|a l IH]; intros bs Hn; [symmetry; apply app_nil_r|].
  cbn [add_bases]. rewrite str_mem_false.
  - rewrite IH; rewrite <- app_assoc; [reflexivity|exact Hn].
  - apply NoDup_remove_2 in Hn. intros Hi. apply Hn. apply in_or_app. left. exact Hi.
Qed.

Section Proofs.
Variable H : Type.
Variable known : str -> bool.
Variable hparse : str -> list str -> option H.
Variable hunknown : str -> list str -> H.
Hypothesis known_base : known KW_BASE = true.
Hypothesis unknown_aliasof : known KW_ALIASOF = false.

Local Notation head_loop := (head_loop H known hparse hunknown).
Local Notation head_flush := (head_flush H hparse hunknown).
Local Notation head_read := (head_read H known hparse hunknown).
Local Notation form_ok := (form_ok H known hparse hunknown).

Lemma desc_more secs : secs <> [] -> forall d tail, d <> [] ->
  desc_loop (Some d) true (str_toks secs ++ tail) = desc_loop (Some (d ++ secs)) false tail.
Proof.
  induction secs as [|x [|y r] IH]; intros Hne d tail Hd; [congruence|reflexivity|].
  change (str_toks (x :: y :: r)) with (TStr x :: TPlus :: TNl :: str_toks (y :: r)).
  cbn [app desc_loop option_map].
  destruct (d ++ [x]) as [|z dz] eqn:E; [destruct d; discriminate|]. rewrite <- E.
  cbn [desc_loop]. rewrite IH; [|congruence|rewrite E; congruence].
  rewrite <- app_assoc. reflexivity.
Qed.
Lemma desc_written secs rest :
  desc_loop None false (match secs with [] => [] | _ => TColon :: str_toks secs end ++ TNl :: TBrOpen :: rest)
  = Some (concat secs, rest).
Proof.
  destruct secs as [|x [|y r]]; [reflexivity| |].
  - cbn. rewrite app_nil_r. reflexivity.
  - change (str_toks (x :: y :: r)) with (TStr x :: TPlus :: TNl :: str_toks (y :: r)).
    cbn [app desc_loop]. rewrite desc_more; [|congruence|congruence]. reflexivity.
Qed.

Definition pend : Type := option (str * H).
Definition pn (p : pend) : option str := option_map fst p.
Definition fl (p : pend) : list H := match p with Some (_, h) => [h] | None => [] end.
Definition pend_ok (p : pend) : Prop :=
  match p with Some (n, h) => known n = true /\ special n = false /\ hparse n [] = Some h | None => True end.
Lemma special_parts n : special n = false ->
  str_eqb n KW_BASE = false /\ str_eqb n KW_AUTOVIS = false /\ str_eqb n KW_ALIASOF = false.
Proof.
  unfold special. intros E. apply orb_false_iff in E as [E E3]. apply orb_false_iff in E. tauto.
Qed.
Lemma loop_nl ht hc al bs hs r : head_loop ht hc al bs hs (TNl :: r) = head_loop ht hc al bs hs r.
Proof. reflexivity. Qed.
(** a pending helper without arguments is added when the next name arrives *)
Lemma loop_name p : pend_ok p -> forall n al bs hs r,
  head_loop (pn p) None al bs hs (TStr n :: r)
  = if known n then head_loop (Some n) None al bs (hs ++ fl p) r else head_loop None (Some n) al bs (hs ++ fl p) r.
Proof.
  intros Hp n al bs hs r. destruct p as [[n0 h0]|]; cbn [pn option_map fst fl head_loop].
  - destruct Hp as [_ [_ Hh]]. rewrite Hh. unfold set_name. destruct (known n); reflexivity.
  - rewrite app_nil_r. unfold set_name. destruct (known n); reflexivity.
Qed.
(** the helper lines: what is still pending afterwards, together with the helpers read so far, is everything that was written *)
Lemma loop_forms forms hs2 : Forall2 form_ok forms hs2 -> forall p hs, pend_ok p ->
  exists p' hs', pend_ok p' /\ hs' ++ fl p' = hs ++ fl p ++ hs2 /\
    forall al bs tail, head_loop (pn p) None al bs hs (concat (map helper_toks forms) ++ tail) = head_loop (pn p') None al bs hs' tail.
Proof.
  induction 1 as [|f h fs r Hf _ IH]; intros p hs Hp.
  - exists p, hs. rewrite app_nil_r. auto.
  - assert (Hstep : exists p1 hs1, pend_ok p1 /\ hs1 ++ fl p1 = hs ++ fl p ++ [h] /\
              forall al bs tail, head_loop (pn p) None al bs hs (helper_toks f ++ tail) = head_loop (pn p1) None al bs hs1 tail).
    { destruct f as [n|n args].
      - destruct Hf as [Hk [Hs Hh]]. exists (Some (n, h)), (hs ++ fl p). split; [repeat split; assumption|].
        split; [cbn [fl]; rewrite <- app_assoc; reflexivity|]. intros. cbn [helper_toks app].
        rewrite loop_nl, loop_name by exact Hp. rewrite Hk. reflexivity.
      - destruct Hf as [Ha [Hs Hh]]. destruct (special_parts n Hs) as [Hb [Hv Hal]]. exists None, (hs ++ fl p ++ [h]).
        split; [exact I|]. split; [cbn [fl]; rewrite app_nil_r; reflexivity|]. intros. cbn [helper_toks app].
        rewrite loop_nl, loop_name by exact Hp.
        destruct (known n) eqn:Hk; cbn [head_loop]; rewrite paren_args_join0 by exact Ha.
        + rewrite Hb, Hv, Hh, orb_false_r, <- app_assoc. reflexivity.
        + rewrite Hal. cbn iota. rewrite orb_false_r, Hh, <- app_assoc. reflexivity. }
    destruct Hstep as (p1 & hs1 & Hp1 & E1 & S1). destruct (IH p1 hs1 Hp1) as (p' & hs' & Hp' & E' & S').
    exists p', hs'. split; [exact Hp'|]. split; [rewrite E', app_assoc, E1, <- !app_assoc; reflexivity|].
    intros. cbn [map concat]. rewrite <- app_assoc, S1. apply S'.
Qed.

Definition bases_ok (bases : list str) : Prop := Forall arg_ok bases /\ NoDup bases.
(** `base(..)` / `aliasof(..)` in front of the helpers *)
Lemma loop_bases custom alias bases tail : bases_ok bases ->
  head_loop None None false [] []
    (match bases with [] => [] | _ => [TStr (if alias && custom then KW_ALIASOF else KW_BASE); TParen (join_cs bases)] end ++ tail)
  = head_loop None None (match bases with [] => false | _ => alias && custom end) bases [] tail.
Proof.
  intros [Hb Hnd]. destruct bases as [|b0 bases']; [reflexivity|]. set (bases := b0 :: bases') in *. cbn [app].
  destruct (alias && custom); cbn [head_loop]; unfold set_name.
  - rewrite unknown_aliasof. cbn [head_loop]. rewrite paren_args_join0 by exact (arg_ok_args_ok _ Hb). rewrite str_eqb_refl. cbn iota.
    change (str_eqb KW_BASE KW_BASE) with true. cbn iota. cbn [orb]. rewrite (add_bases_nodup bases []) by exact Hnd. reflexivity.
  - rewrite known_base. cbn [head_loop]. rewrite paren_args_join0 by exact (arg_ok_args_ok _ Hb).
    change (str_eqb KW_BASE KW_BASE) with true. cbn iota. cbn [orb]. rewrite (add_bases_nodup bases []) by exact Hnd. reflexivity.
Qed.

Theorem head_roundtrip custom alias bases forms hidden hs cls secs rest :
  bases_ok bases -> Forall2 form_ok forms hs -> strip cls = cls ->
  head_read (head_toks custom alias bases forms hidden cls secs ++ rest)
  = Some (mk_head H (match bases with [] => false | _ => alias && custom end) bases hs cls (concat secs), rest).
Proof.
  intros Hb Hf Hc. unfold head_read, head_toks. rewrite <- !app_assoc. cbn [app]. rewrite (loop_bases custom alias bases _ Hb).
  destruct (loop_forms forms hs Hf None [] I) as (p & hs' & HG & EG & ->). cbn [fl app] in EG.
  assert (Hflush : head_flush (pn p) None hs' = Some hs).
  { destruct p as [[n h]|]; cbn [pn option_map fst head_flush fl] in *.
    - destruct HG as [_ [Hs Hh]]. destruct (special_parts n Hs) as [E1 [E2 _]]. rewrite E1, E2, Hh. cbn [orb]. rewrite EG. reflexivity.
    - rewrite app_nil_r in EG. rewrite EG. reflexivity. }
  assert (Hnl : forall ht al bs hs0 r,
    head_loop ht None al bs hs0 (match forms with [] => if hidden then [TNl] else [] | _ => [TNl] end ++ TEq :: r)
    = Some (ht, None, al, bs, hs0, r)).
  { intros. destruct forms; [destruct hidden|]; reflexivity. }
  rewrite Hnl, Hflush. cbn [skip_nl]. rewrite <- app_assoc. cbn [app]. rewrite desc_written, Hc. reflexivity.
Qed.
End Proofs.
