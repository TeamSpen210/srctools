(* SmdWords.v -- SMD data lines: splitting a written line at whitespace (bytes.split(), what Mesh.parse_smd does with
   the skeleton, time and vertex lines) gives back exactly the written fields, for every line template in which each
   conversion is delimited by whitespace literals.  Model and proofs (own file of C20). *)
From Coq Require Import List NArith Bool.
From SV Require Import Fmt.SmdTpl.
Import ListNotations.
Open Scope N_scope.

(** bytes.split(): maximal runs of non-whitespace *)
Definition flush (cur : list N) : list (list N) := match cur with [] => [] | _ => [rev cur] end.
Fixpoint words_acc (cur : list N) (s : list N) : list (list N) :=
  match s with
  | [] => flush cur
  | c :: r => if is_ws c then flush cur ++ words_acc [] r else words_acc (c :: cur) r
  end.
Definition words (s : list N) : list (list N) := words_acc [] s.

Definition starts_ws (s : list N) : bool := match s with c :: _ => is_ws c | [] => false end.
Fixpoint ends_ws (s : list N) : bool :=
  match s with [] => false | [c] => is_ws c | _ :: t => ends_ws t end.

(** a conversion renders to a non-empty run without whitespace (%i, %.6f always do) *)
Definition wordy (v : list N) : bool := negb (match v with [] => true | _ => false end) && forallb (fun c => negb (is_ws c)) v.

(** every conversion is preceded by the start of the line or a literal ending in whitespace and followed by the end
    of the line or a literal starting with whitespace; no two literals in a row (normal form) *)
Fixpoint delim (prev_ws : bool) (l : line) : bool :=
  match l with
  | [] => true
  | Lit s :: r =>
      match r with Lit _ :: _ => false | _ => true end
      && delim (match s with [] => prev_ws | _ => ends_ws s end) r
  | _ :: r =>
      prev_ws && match r with [] => true | Lit s :: _ => starts_ws s | _ => false end && delim false r
  end.

(** a rendered line: every piece with the text it produced *)
Definition rtext (pv : piece * list N) : list N := match fst pv with Lit s => s | _ => snd pv end.
Definition render (ps : list (piece * list N)) : list N := flat_map rtext ps.
Definition fields (ps : list (piece * list N)) : list (list N) :=
  flat_map (fun pv => match fst pv with Lit s => words s | _ => [snd pv] end) ps.
Definition values_wordy (ps : list (piece * list N)) : bool :=
  forallb (fun pv => match fst pv with Lit _ => true | _ => wordy (snd pv) end) ps.

Definition has_quote (l : line) : bool :=
  existsb (fun p => match p with Lit s => existsb (N.eqb 34) s | _ => false end) l.

Lemma words_acc_app : forall a cur b,
  (b = [] \/ starts_ws b = true \/ ends_ws a = true) -> words_acc cur (a ++ b) = words_acc cur a ++ words b.
Proof.
  induction a as [|c t IH]; intros cur b H.
  - cbn [app]. destruct H as [-> | [H | H]]; [cbn; now rewrite app_nil_r | | discriminate].
    destruct b as [|x r]; [discriminate|]. cbn [starts_ws] in H. unfold words. cbn [words_acc]. rewrite H. reflexivity.
  - cbn [app words_acc].
    destruct t as [|d t'].
    + (* a = [c] *)
      cbn [app]. destruct (is_ws c) eqn:Ec.
      * cbn [words_acc flush]. rewrite <- app_assoc. reflexivity.
      * assert (H' : b = [] \/ starts_ws b = true \/ ends_ws [] = true).
        { destruct H as [H | [H | H]]; [now left | now right; left |]. cbn in H. congruence. }
        apply (IH (c :: cur) b H').
    + assert (H' : b = [] \/ starts_ws b = true \/ ends_ws (d :: t') = true).
      { destruct H as [H | [H | H]]; [now left | now right; left | right; right; exact H]. }
      destruct (is_ws c).
      * rewrite (IH [] b H'), app_assoc. reflexivity.
      * apply (IH (c :: cur) b H').
Qed.

Lemma words_app a b : (a = [] \/ b = [] \/ starts_ws b = true \/ ends_ws a = true) -> words (a ++ b) = words a ++ words b.
Proof.
  intros [-> | H]; [reflexivity|]. unfold words at 1 2. apply words_acc_app. tauto.
Qed.

Lemma words_acc_wordy v : forall cur, forallb (fun c => negb (is_ws c)) v = true -> words_acc cur v = flush (rev v ++ cur).
Proof.
  induction v as [|c t IH]; intros cur H; [reflexivity|].
  cbn [forallb] in H. apply andb_prop in H as [Hc Ht]. apply negb_true_iff in Hc.
  cbn [words_acc]. rewrite Hc, (IH _ Ht). cbn [rev]. rewrite <- app_assoc. reflexivity.
Qed.

Lemma words_wordy v : wordy v = true -> words v = [v].
Proof.
  unfold wordy. intros H. apply andb_prop in H as [Hn Hw]. unfold words. rewrite (words_acc_wordy v [] Hw), app_nil_r.
  destruct v as [|c t]; [discriminate|]. unfold flush.
  destruct (rev (c :: t)) eqn:E; [apply (f_equal (@length N)) in E; rewrite rev_length in E; discriminate|].
  rewrite <- E, rev_involutive. reflexivity.
Qed.

Lemma starts_ws_app s r : starts_ws s = true -> starts_ws (s ++ r) = true.
Proof. destruct s; [discriminate|]. exact (fun H => H). Qed.

(** a conversion's text followed by the end of the line or a literal starting with whitespace is one field *)
Lemma value_then_rest v (ps : list (piece * list N)) : wordy v = true ->
  (match map fst ps with [] => true | Lit s :: _ => starts_ws s | _ => false end) = true ->
  words (v ++ render ps) = v :: words (render ps).
Proof.
  intros Hv Hnext. rewrite words_app, (words_wordy _ Hv); [reflexivity|].
  right. destruct ps as [|[p2 v2] r']; [now left|]. right. left.
  cbn [map fst] in Hnext. destruct p2; try discriminate. apply starts_ws_app. exact Hnext.
Qed.

(** the fields theorem *)
Theorem delimited_line_splits : forall ps prev_ws,
  delim prev_ws (map fst ps) = true -> values_wordy ps = true -> words (render ps) = fields ps.
Proof.
  induction ps as [|[p v] r IH]; intros prev_ws Hd Hv; [reflexivity|].
  cbn [map fst] in Hd. cbn [values_wordy forallb fst snd] in Hv. apply andb_prop in Hv as [Hv Hr].
  change (words (rtext (p, v) ++ render r) = match p with Lit s => words s | _ => [v] end ++ fields r).
  destruct p as [s| |prec|]; cbn [rtext fst snd]; cbn [delim] in Hd.
  (* the three conversions alike *)
  2-4: rewrite !andb_true_iff in Hd; destruct Hd as [[_ Hnext] Hd2].
  2-4: rewrite (value_then_rest _ _ Hv Hnext), (IH _ Hd2 Hr); reflexivity.
  (* literal *)
  apply andb_prop in Hd as [Hn Hd].
  rewrite words_app; [rewrite (IH _ Hd Hr); reflexivity|].
  destruct s as [|c s']; [now left|]. right.
  destruct r as [|[p2 v2] r']; [now left|]. right. right.
  cbn [map fst] in Hd, Hn. destruct p2; [discriminate| | |]; cbn [delim] in Hd;
    apply andb_prop in Hd as [Hd _]; apply andb_prop in Hd as [Hd _]; exact Hd.
Qed.

(** non-vacuity: the skeleton pose line "%i %.6f %.6f %.6f  %.6f %.6f %.6f" and the time line *)
Example ex_pose_line :
  let l := [ConvInt; Lit [32]; ConvFloat 6; Lit [32]; ConvFloat 6; Lit [32]; ConvFloat 6; Lit [32; 32]; ConvFloat 6; Lit [32]; ConvFloat 6; Lit [32]; ConvFloat 6] in
  delim true l = true.
Proof. reflexivity. Qed.
Example ex_time_line :
  delim true [Lit [116; 105; 109; 101; 32]; ConvInt] = true
  /\ words (render [(Lit [116; 105; 109; 101; 32], []); (ConvInt, [49; 50])]) = [[116; 105; 109; 101]; [49; 50]].
Proof. split; reflexivity. Qed.
(** refuted: the pinned vertex line (link count glued to the V coordinate) is not delimited, and two fields merge *)
Example pinned_vertex_line_not_delimited : delim true smd_vertex_line_pinned = false.
Proof. reflexivity. Qed.
Example glued_fields_merge :
  words (render [(ConvFloat 6, [48; 46; 53]); (ConvInt, [50])]) = [[48; 46; 53; 50]].
Proof. reflexivity. Qed.

(** * The nodes line: written as  %i QUOTE %s QUOTE %i , read with re.fullmatch of the pattern
    digits, optional whitespace, a double quote, any run without a double quote, a double quote, optional whitespace,
    an optional minus sign and digits (the pattern itself is [nodes_regex] below, as bytes).
    The classes at every boundary are disjoint, so greedy left-to-right matching is the regular expression's meaning. *)
Definition is_digit (c : N) : bool := (48 <=? c) && (c <=? 57).
Fixpoint span (p : N -> bool) (s : list N) : list N * list N :=
  match s with
  | [] => ([], [])
  | c :: r => if p c then let '(a, b) := span p r in (c :: a, b) else ([], s)
  end.
Definition nodes_regex : list N :=   (* the pattern as bytes, compared with the one found in smd.py *)
  [40;91;48;45;57;93;43;41;92;115;42;34;40;91;94;34;93;42;41;34;92;115;42;40;45;63;91;48;45;57;93;43;41].
Fixpoint smd_bytes_eqb (a b : list N) : bool :=
  match a, b with [], [] => true | x :: a', y :: b' => (x =? y) && smd_bytes_eqb a' b' | _, _ => false end.
Definition opt_minus (s : list N) : list N * list N :=
  match s with c :: t => if c =? 45 then ([45], t) else ([], s) | [] => ([], s) end.
Definition parse_nodes (s : list N) : option (list N * list N * list N) :=
  let '(d1, r1) := span is_digit s in
  match d1 with [] => None | _ =>
    let '(_, r2) := span is_ws r1 in
    match r2 with
    | [] => None
    | q :: r3 =>
        if negb (q =? 34) then None else
        let '(nm, r4) := span (fun c => negb (c =? 34)) r3 in
        match r4 with
        | [] => None
        | q2 :: r5 =>
            if negb (q2 =? 34) then None else
            let '(_, r6) := span is_ws r5 in
            let '(sign, r7) := opt_minus r6 in
            let '(d2, r8) := span is_digit r7 in
            match d2, r8 with
            | _ :: _, [] => Some (d1, nm, sign ++ d2)
            | _, _ => None
            end
        end
    end
  end.

Definition all_digits (s : list N) : bool := negb (match s with [] => true | _ => false end) && forallb is_digit s.
Definition int_text (s : list N) : bool := all_digits (snd (opt_minus s)).   (* %i *)
Definition ws_only (s : list N) : bool := forallb is_ws s.
(** the shape of the written line: %i, whitespace then a quote, %s, a quote then whitespace, %i *)
Definition nodes_line_shape (l : line) : bool :=
  match l with
  | [ConvInt; Lit a; ConvStr; Lit b; ConvInt] =>
      match rev a, b with
      | q :: ra, q2 :: tb => (q =? 34) && (q2 =? 34) && ws_only ra && ws_only tb
      | _, _ => false
      end
  | _ => false
  end.

Lemma span_all p s r : forallb p s = true -> (match r with [] => true | c :: _ => negb (p c) end) = true ->
  span p (s ++ r) = (s, r).
Proof.
  induction s as [|c s IH]; intros Hs Hr.
  - cbn [app]. destruct r as [|c r]; [reflexivity|]. cbn [span]. apply negb_true_iff in Hr. rewrite Hr. reflexivity.
  - cbn [forallb] in Hs. apply andb_prop in Hs as [Hc Hs]. cbn [app span]. rewrite Hc, (IH Hs Hr). reflexivity.
Qed.

Lemma digit_not_ws c : is_digit c = true -> is_ws c = false.
Proof.
  unfold is_digit, is_ws. intros H. apply andb_prop in H as [H1 H2]. apply N.leb_le in H1, H2.
  repeat (apply orb_false_iff; split); apply N.eqb_neq; intros ->; cbv in H1, H2; congruence.
Qed.
Lemma digit_not_minus c : is_digit c = true -> (c =? 45) = false.
Proof.
  unfold is_digit. intros H. apply andb_prop in H as [H1 H2]. apply N.leb_le in H1. apply N.eqb_neq. intros ->. cbv in H1. congruence.
Qed.

(** every line of that shape is read back by the regular expression: bone index, name, parent *)
Theorem nodes_line_reads_back a b idx nm par :
  nodes_line_shape [ConvInt; Lit a; ConvStr; Lit b; ConvInt] = true ->
  all_digits idx = true -> forallb (fun c => negb (c =? 34)) nm = true -> int_text par = true ->
  parse_nodes (render [(ConvInt, idx); (Lit a, []); (ConvStr, nm); (Lit b, []); (ConvInt, par)]) = Some (idx, nm, par).
Proof.
  intros Hs Hi Hn Hp. cbn [nodes_line_shape] in Hs.
  destruct (rev a) as [|q ra] eqn:Ea; [discriminate|]. destruct b as [|q2 tb]; [discriminate|].
  rewrite !andb_true_iff in Hs. destruct Hs as [[[Q1 Q2] Wa] Wb]. apply N.eqb_eq in Q1, Q2. subst q q2.
  assert (Ea' : a = rev ra ++ [34]) by (rewrite <- (rev_involutive a), Ea; reflexivity). subst a.
  assert (Wra : forallb is_ws (rev ra) = true).
  { unfold ws_only in Wa. rewrite forallb_forall in *. intros x Hx. apply Wa, in_rev, Hx. }
  unfold render. cbn [flat_map rtext fst snd]. rewrite app_nil_r.
  unfold all_digits in Hi. apply andb_prop in Hi as [Hne Hd]. unfold parse_nodes.
  rewrite <- !app_assoc. cbn [app].
  rewrite (span_all is_digit idx _ Hd).
  2:{ destruct (rev ra) as [|w t] eqn:E; cbn [app]; [reflexivity|].
      cbn [forallb] in Wra. apply andb_prop in Wra as [Hw _]. apply negb_true_iff.
      destruct (is_digit w) eqn:Dw; [|reflexivity]. rewrite (digit_not_ws _ Dw) in Hw. discriminate. }
  destruct idx as [|i0 idx']; [discriminate|].
  rewrite (span_all is_ws (rev ra) _ Wra) by reflexivity. cbn [N.eqb Pos.eqb negb].
  rewrite (span_all (fun c => negb (c =? 34)) nm _ Hn) by reflexivity. cbn [N.eqb Pos.eqb negb].
  unfold int_text in Hp.
  assert (Hfirst : (match par with [] => true | c :: _ => negb (is_ws c) end) = true).
  { destruct par as [|p0 pr]; [reflexivity|]. apply negb_true_iff. unfold opt_minus in Hp.
    destruct (N.eqb_spec p0 45) as [->|_]; [reflexivity|].
    cbn [snd] in Hp. unfold all_digits in Hp. cbn [forallb] in Hp. apply andb_prop in Hp as [_ H].
    apply andb_prop in H as [H _]. apply digit_not_ws, H. }
  rewrite (span_all is_ws tb par Wb Hfirst).
  destruct (opt_minus par) as [sign r7] eqn:Eo. cbn [snd] in Hp.
  unfold all_digits in Hp. apply andb_prop in Hp as [Hpn Hpd].
  rewrite <- (app_nil_r r7), (span_all is_digit r7 [] Hpd) by reflexivity.
  destruct r7 as [|x r7']; [discriminate|].
  f_equal. f_equal. unfold opt_minus in Eo. destruct par as [|p0 pr]; [injection Eo as <- <-; reflexivity|].
  destruct (p0 =? 45) eqn:E45.
  - apply N.eqb_eq in E45. subst p0. injection Eo as <- <-. reflexivity.
  - injection Eo as <- E1 E2. subst. reflexivity.
Qed.

Example ex_nodes_line :
  parse_nodes (render [(ConvInt, [49; 50]); (Lit [32; 34], []); (ConvStr, [98; 32; 120]); (Lit [34; 32], []); (ConvInt, [45; 49])])
  = Some ([49; 50], [98; 32; 120], [45; 49]).
Proof. reflexivity. Qed.
(** a quote inside the name is not representable *)
Example nodes_name_with_quote_refuted :
  parse_nodes (render [(ConvInt, [49]); (Lit [32; 34], []); (ConvStr, [97; 34; 98]); (Lit [34; 32], []); (ConvInt, [48])]) = None.
Proof. reflexivity. Qed.
