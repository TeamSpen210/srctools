(** Proofs for Fmt/DmxMembersParse.v: the shape of the dict a reader builds ([parsed_members_shape]; that it is keyed by
    the casefolded attribute names, finds every attribute under its name and denotes the document element it was built
    from is read off it in Props/C14.v), and — composed with the export theorems of DmxMembersProofs.v — that it is the
    canonical form of the dict that was exported. *)
From Coq Require Import NArith ZArith List Bool.
From SV Require Import Fmt.DmxCodes Fmt.DmxBin Fmt.DmxBinLemmas Fmt.DmxMembers Fmt.DmxMembersProofs Fmt.DmxMembersParse.
Import ListNotations.

Lemma mset_new : forall k a m, ~ In k (map fst m) -> mset k a m = m ++ [(k, a)].
Proof.
  induction m as [|[k' a'] r IH]; cbn [mset map fst In app]; intro H; [reflexivity|].
  destruct (str_eqb k k') eqn:E.
  - apply str_eqb_true in E. subst. exfalso. apply H. now left.
  - f_equal. apply IH. intro X. apply H. now right.
Qed.

(** ** Dicts keyed by the casefolded names *)
Lemma records_keyed : forall fold f m, keyed_by_fold fold m -> keyed_by_fold fold (records f m).
Proof. intros fold f m. apply incl_Forall, incl_filter. Qed.

(** The keys are determined by the attributes. *)
Lemma keyed_rebuild : forall fold m, keyed_by_fold fold m -> map (fun a => (fold (aname a), a)) (map snd m) = m.
Proof.
  intros fold m KB. induction KB as [|[k a] m E _ IH]; [reflexivity|].
  cbn [map snd fst] in *. rewrite IH, <- E. reflexivity.
Qed.
Lemma keyed_keys : forall fold m, keyed_by_fold fold m -> map (fun a => fold (aname a)) (map snd m) = map fst m.
Proof. intros fold m KB. rewrite <- (keyed_rebuild fold m KB) at 2. rewrite !map_map. reflexivity. Qed.

(** ** The dict a reader builds *)
Lemma fold_store_append : forall fold attrs pre,
  NoDup (map fst pre ++ map (fun a => fold (aname a)) attrs) ->
  fold_left (store fold KFolded) attrs pre = pre ++ map (fun a => (fold (aname a), a)) attrs.
Proof.
  induction attrs as [|a r IH]; intros pre H; cbn [fold_left map].
  - now rewrite app_nil_r.
  - unfold store at 2. cbn [key_of]. rewrite mset_new.
    + rewrite IH.
      * rewrite <- app_assoc. reflexivity.
      * rewrite map_app. cbn [map fst]. rewrite <- app_assoc. exact H.
    + cbn [map] in H. apply NoDup_remove_2 in H. intro X. apply H. apply in_or_app. now left.
Qed.

Lemma names_ok_nodup : forall fold e, elem_names_ok fold e -> NoDup (s_name :: map (fun a => fold (aname a)) (eattrs e)).
Proof.
  intros fold e [ND NN]. constructor; [|exact ND].
  intro X. apply in_map_iff in X. destruct X as [a [E I]]. rewrite Forall_forall in NN. exact (NN a I E).
Qed.

(** The dict built from a document element: the name member, then one member per record under its casefolded name. *)
Theorem parsed_members_shape : forall fold e, elem_names_ok fold e ->
  parsed_members fold KFolded e =
  (s_name, {| aname := s_name; adata := VStr (Scalar (ename e)) |}) :: map (fun a => (fold (aname a), a)) (eattrs e).
Proof.
  intros fold e OK. unfold parsed_members, init_members. rewrite fold_store_append; [reflexivity|].
  apply names_ok_nodup. exact OK.
Qed.

Lemma parsed_members_nodup : forall fold e, elem_names_ok fold e -> keys_nodup (parsed_members fold KFolded e).
Proof.
  intros fold e OK. rewrite (parsed_members_shape fold e OK). unfold keys_nodup. cbn [map fst]. rewrite map_map.
  apply names_ok_nodup. exact OK.
Qed.

Lemma records_name_map : forall fold (attrs : list attr), Forall (fun a => fold (aname a) <> s_name) attrs ->
  records (FKeyIs s_name) (map (fun a => (fold (aname a), a)) attrs) = map (fun a => (fold (aname a), a)) attrs.
Proof.
  intros fold attrs NN. apply records_key_absent. intro X. rewrite map_map in X. cbn [fst] in X.
  apply in_map_iff in X. destruct X as [a [E I]]. rewrite Forall_forall in NN. exact (NN a I E).
Qed.

(** The attributes of the element a well-keyed dict denotes meet [elem_names_ok]. *)
Lemma abstract_names_ok : forall fold cc r, keys_nodup (r_members r) -> keyed_by_fold fold (r_members r) ->
  elem_names_ok fold (abstract cc r).
Proof.
  intros fold cc r ND KB. unfold elem_names_ok, abstract, view. cbn [eattrs].
  pose proof (records_keyed fold (FKeyIs s_name) _ KB) as KR. split.
  - rewrite (keyed_keys fold _ KR). apply records_nodup. exact ND.
  - apply Forall_forall. intros a I. apply in_map_iff in I. destruct I as [ka [<- I]].
    unfold keyed_by_fold in KR. rewrite Forall_forall in KR. rewrite <- (KR ka I).
    apply filter_In in I. destruct I as [_ S]. apply negb_true_iff, str_eqb_false in S. exact S.
Qed.

(** Export a dict, read the document back, build the dict: the canonical form of the exported dict. *)
Theorem reader_dict_is_canonical : forall fold cc (r : relem),
  keys_nodup (r_members r) -> keyed_by_fold fold (r_members r) ->
  parsed_members fold KFolded (abstract cc r) = canonical cc (r_members r).
Proof.
  intros fold cc r ND KB. rewrite (parsed_members_shape fold _ (abstract_names_ok fold cc r ND KB)).
  unfold canonical, abstract, view. cbn [ename eattrs]. f_equal. apply keyed_rebuild, records_keyed, KB.
Qed.

(** Every API history on a fresh element keeps the dict keyed by the casefolded names. *)
Lemma mset_keyed : forall fold k a m, k = fold (aname a) -> keyed_by_fold fold m -> keyed_by_fold fold (mset k a m).
Proof.
  intros fold k a m E. induction m as [|[k' a'] r IH]; intro KB; cbn [mset].
  - constructor; [exact E|constructor].
  - inversion KB as [|? ? H1 H2]; subst. destruct (str_eqb (fold (aname a)) k') eqn:Q.
    + apply str_eqb_true in Q. constructor; [cbn [fst snd]; now rewrite <- Q|exact H2].
    + constructor; [exact H1|now apply IH].
Qed.
Theorem apply_op_keyed : forall fold m op, fold s_name = s_name -> keyed_by_fold fold m -> keyed_by_fold fold (apply_op fold m op).
Proof.
  intros fold m op FN KB. destruct op; cbn [apply_op].
  - constructor.
  - exact (incl_Forall (mdel_incl _ m) KB).
  - exact (incl_Forall (mdel_incl _ m) KB).
  - exact (incl_Forall (removelast_incl _ m) KB).
  - destruct (mget s_name m) eqn:G.
    + (* the setter keeps the attribute object, hence its case-preserved name *)
      apply mset_keyed; [|exact KB]. unfold keyed_by_fold in KB. rewrite Forall_forall in KB.
      exact (KB _ (mget_some_in _ _ _ G)).
    + unfold keyed_by_fold. apply Forall_app. split; [exact KB|]. constructor; [cbn; now rewrite FN|constructor].
  - apply mset_keyed; [reflexivity|exact KB].
  - destruct (has_key (fold name) m); [exact KB|]. unfold keyed_by_fold. apply Forall_app. split; [exact KB|].
    constructor; [reflexivity|constructor].
Qed.

Theorem history_keyed : forall fold ops name, fold s_name = s_name -> keyed_by_fold fold (run_ops fold ops (init_members name)).
Proof.
  intros fold ops name FN. apply run_ops_invariant; [intros m op; apply apply_op_keyed; exact FN|].
  constructor; [cbn; now rewrite FN|constructor].
Qed.

(** Composition: for every API history on fresh elements, the dict the reader builds from the exported bytes is the
    canonical form of the dict that was exported (binary, versions 0-5). *)
Theorem members_bin_reader_roundtrip :
  forall (cenc : enc -> str -> bytes) (cdec : enc -> bytes -> option str) (cfg : dmxcfg) (cc : cntcfg) (fold : str -> str),
  cnt_cfg_ok cc = true -> bin_cfg_ok cfg = true ->
  forall v rd, Forall (fun r => keys_nodup (r_members r)) rd -> Forall (fun r => keyed_by_fold fold (r_members r)) rd ->
    expressible cenc cdec cfg v (map (abstract cc) rd) ->
    exists d, parse_bin cdec cfg v (export_raw cenc cfg cc v rd) = Some d /\
              map (parsed_members fold KFolded) d = map (fun r => canonical cc (r_members r)) rd.
Proof.
  intros cenc cdec cfg cc fold CC BC v rd ND KB EX. exists (map (abstract cc) rd). split.
  - now apply members_bin_roundtrip.
  - rewrite map_map. apply map_ext_in. intros r I. rewrite Forall_forall in ND, KB.
    apply reader_dict_is_canonical; [now apply ND|now apply KB].
Qed.

(** A reader that stores a record under the name as written (no casefold): the attribute "Ab" is not found by elem["Ab"]. *)
Definition ab_elem : elem := {| etype := [84]%N; ename := [110]%N; euuid := []; eattrs := [int_attr [65; 98]%N 5] |}.

Example names_ok_example : elem_names_ok ascii_lower ab_elem.
Proof. split; [repeat constructor; intros []|repeat constructor; discriminate]. Qed.
