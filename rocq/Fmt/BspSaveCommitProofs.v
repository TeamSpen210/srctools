(** C11: proofs about the commit order of save() (Fmt/BspSaveCommit.v). *)
From Coq Require Import List Bool.
From SV Require Import Fmt.BspSaveCommit.
Import ListNotations.

Lemma run_none_finishes : forall evs s, snd (sc_run evs None s) = true.
Proof. induction evs as [|e r IH]; intros s; cbn; auto. destruct e; apply IH. Qed.

(** Where nothing can raise, the run finishes; the view is dropped if a drop is listed, stored if a store is. *)
Lemma no_raise_run : forall evs fail s, no_raise evs = true ->
  sc_run evs fail s = ({| cached := cached s && negb (existsb (fun e => match e with EvDrop => true | _ => false end) evs);
                          stored := stored s || existsb (fun e => match e with EvStore => true | _ => false end) evs |}, true).
Proof.
  induction evs as [|e r IH]; intros fail s H; cbn [sc_run existsb].
  - rewrite andb_true_r, orb_false_r. destruct s; reflexivity.
  - destruct e; try discriminate; cbn [no_raise] in H; rewrite (IH fail _ H); cbn [cached stored orb andb negb].
    + rewrite andb_false_r. reflexivity.
    + rewrite orb_true_r. reflexivity.
Qed.

(** If [commit_ok]: whichever raising point raises, the view is still in the cache when save() gives up - nothing was stored
    either, the object is as it was; and when nothing raises the view has left the cache and its bytes are in the lump. *)
Theorem commit_ok_sound : forall evs, commit_ok evs = true ->
  (forall k, let '(s, finished) := sc_run evs (Some k) sc_init in finished = false -> cached s = true /\ stored s = false) /\
  (let '(s, finished) := sc_run evs None sc_init in finished = true /\ cached s = false /\ stored s = true).
Proof.
  unfold commit_ok. intros evs.
  assert (G : forall fail, commit_ok_from evs = true ->
              let '(s, finished) := sc_run evs fail sc_init in
              (finished = false -> cached s = true /\ stored s = false) /\ (finished = true -> cached s = false /\ stored s = true)).
  { induction evs as [|e r IH]; intros fail H; cbn in H; try discriminate.
    destruct e.
    - apply andb_true_iff in H. destruct H as [Hn Hs]. cbn [sc_run]. rewrite (no_raise_run r fail _ Hn), Hs. cbn.
      split; [discriminate|]. intros _. split; reflexivity.
    - cbn. destruct fail as [[|k]|].
      + split; [auto|discriminate].
      + apply (IH (Some k) H).
      + apply (IH None H).
    - apply andb_true_iff in H. destruct H as [Hn Hs]. cbn [sc_run]. rewrite (no_raise_run r fail _ Hn), Hs. cbn.
      split; [discriminate|]. intros _. split; reflexivity. }
  intros H. split.
  - intros k. specialize (G (Some k) H). destruct (sc_run evs (Some k) sc_init) as [s f]. tauto.
  - specialize (G None H). pose proof (run_none_finishes evs sc_init) as Hf.
    destruct (sc_run evs None sc_init) as [s f]. cbn in Hf. subst f. destruct G as [_ G]. destruct (G eq_refl). auto.
Qed.
