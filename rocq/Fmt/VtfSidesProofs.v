(** C15 — proofs about the frame order and the side lists (Fmt/VtfSides.v). *)
From Coq Require Import ZArith List Lia.
From SV Require Import Fmt.VtfContainer Fmt.VtfContainerProofs Fmt.VtfSides.
Import ListNotations.
Local Open Scope nat_scope.

Lemma lvar_eqb_eq : forall a b, lvar_eqb a b = true -> a = b.
Proof. destruct a, b; cbn; intros; congruence. Qed.
Lemma lorder_eqb_eq : forall a b, lorder_eqb a b = true -> a = b.
Proof.
  induction a as [|x a IH]; destruct b as [|y b]; cbn; intros H; try discriminate; [reflexivity|].
  apply andb_prop in H. destruct H as [H1 H2]. apply lvar_eqb_eq in H1. apply IH in H2. congruence.
Qed.

(** save() and read() walk the same sides, whatever version the object was made for and whatever version is written. *)
Theorem sides_agree : forall c, sides_ok c = true ->
  forall envmap object written depth, save_sides c envmap object written depth = read_sides c envmap written depth.
Proof.
  intros c H envmap object written depth. unfold sides_ok in H. apply andb_prop in H. destruct H as [H _].
  unfold save_sides, read_sides. destruct (sd_save c); [|discriminate]. destruct (sd_read c); reflexivity.
Qed.

Lemma Forall2_map_r : forall (A B C : Type) (P : A -> C -> Prop) (f : B -> C) (la : list A) (lb : list B),
  Forall2 P la (map f lb) -> Forall2 (fun a b => P a (f b)) la lb.
Proof.
  intros A B C P f la lb. revert la. induction lb as [|b lb IH]; intros la H; inversion H; subst; constructor; auto.
Qed.

(** Every frame of a written file is read back: if the two loop nests have the same order and the side list is taken
    from the version written, then for every (frame, side, mipmap) read() visits, the bytes at the offset it records,
    of the size it computes for that level, are exactly the bytes save() produced for that key - for any object
    version, written version, number of frames / levels, depth, cubemap or not, any contents and any prefix
    (header, resources, thumbnail). *)
Theorem written_frames_read_back : forall c so ro, sides_ok c = true -> lorder_eqb so ro = true ->
  forall envmap object written depth mips frames (content : key -> list N) (size : nat -> nat) (pre : list N),
    (forall k, List.length (content k) = size (k_mip k)) ->
    Forall (fun ok => slice (pre ++ written_image so mips frames (save_sides c envmap object written depth) content)
                            (fst ok) (size (k_mip (snd ok))) = content (snd ok))
           (read_table ro mips frames (read_sides c envmap written depth) size (List.length pre)).
Proof.
  intros c so ro Hc Ho envmap object written depth mips frames content size pre Hsz.
  apply lorder_eqb_eq in Ho. subst ro. rewrite (sides_agree c Hc). unfold written_image, read_table.
  set (ks := walk so mips frames (read_sides c envmap written depth) key0).
  pose proof (frames_read_back (map content ks) pre) as H.
  rewrite map_map in H.
  replace (map (fun x => List.length (content x)) ks) with (map (fun k => size (k_mip k)) ks) in H
    by (apply map_ext; intros; symmetry; apply Hsz).
  apply Forall2_map_r in H.
  revert H. generalize (offsets (List.length pre) (map (fun k => size (k_mip k)) ks)).
  generalize (pre ++ List.concat (map content ks)). intros img offs H.
  induction H as [|o k offs' ks' Hk _ IH]; cbn [combine]; constructor; auto.
  cbn [fst snd]. rewrite <- Hsz. exact Hk.
Qed.

(** the good order visits every key of the ranges *)
Theorem good_order_covers : forall mips frames sides f s m, f < frames -> In s sides -> m < mips ->
  In {| k_frame := f; k_side := s; k_mip := m |} (walk good_order mips frames sides key0).
Proof.
  intros mips frames sides f s m Hf Hs Hm. unfold good_order. cbn [walk].
  apply in_flat_map. exists m. split; [apply in_rev; rewrite rev_involutive; apply in_seq; lia|].
  apply in_flat_map. exists f. split; [apply in_seq; lia|].
  apply in_flat_map. exists s. split; [exact Hs|]. cbn. left. reflexivity.
Qed.

Example sides_ok_inhabited : sides_ok good_sidescfg = true /\ sphere_rule_ok good_sidescfg = true
  /\ save_sides good_sidescfg true 4 5 1 = [0; 1; 2; 3; 4; 5] /\ save_sides good_sidescfg true 5 4 1 = [0; 1; 2; 3; 4; 5; 6].
Proof. vm_compute. repeat split; reflexivity. Qed.

(** toy contents: the block of key (f, s, m) is the single byte 100 f + 10 s + m *)
Definition toy_content (k : key) : list N := [N.of_nat (100 * k_frame k + 10 * k_side k + k_mip k)].
Definition what_read_gets (so ro : list lvar) (c : sidescfg) (object written : Z) (frames : nat) : list (key * list N) :=
  map (fun ok => (snd ok, slice (written_image so 1 frames (save_sides c true object written 1) toy_content) (fst ok) 1))
      (read_table ro 1 frames (read_sides c true written 1) (fun _ => 1) 0).
