From Coq Require Import List String PeanoNat.
From SV Require Import Bin.Struct Bin.StructProofs Fmt.BspFormatsProofs Fmt.BspRecordsProofs Fmt.BspSpriteDict.
Import ListNotations.

(** Every class that goes through the dictionary: both sides name the same attribute component in every slot, use one
    well-formed format with exactly that many values, and for ANY assignment of values to the components that fits the
    format the entry is read back slot by slot. *)
Theorem sprite_dict_roundtrip : forall wf rf entries, sprite_dict_ok (wf, rf) entries = true ->
  forall c w r, In (c, w, r) entries ->
  w = r /\ exists f, parse_fmt wf = Some f /\ parse_fmt rf = Some f /\ nvalues f = List.length w /\
  forall field : string -> value, fits f (map field w) = true ->
    exists bs, pack f (map field w) = Some bs /\ unpack f bs = Some (map field r).
Proof.
  intros wf rf entries H c w r Hin. unfold sprite_dict_ok in H. apply andb_prop in H. destruct H as [_ H].
  rewrite forallb_forall in H. specialize (H _ Hin). cbn [fst snd] in H. unfold sprite_entry_ok in H.
  apply andb_prop in H. destruct H as [H Hf]. apply andb_prop in H. destruct H as [He _]. apply strs_eqb_eq in He. subst r.
  split; [reflexivity|]. destruct (parse_fmt wf) as [f|]; [|discriminate]. destruct (parse_fmt rf) as [g|]; [|discriminate].
  apply andb_prop in Hf. destruct Hf as [Hf Hn]. apply andb_prop in Hf. destruct Hf as [Hfg Hw]. apply fmt_eqb_eq in Hfg. subst g.
  exists f. split; [reflexivity|]. split; [reflexivity|]. split; [apply Nat.eqb_eq; exact Hn|].
  intros field Hfit. exact (unpack_pack f (map field w) Hw Hfit).
Qed.
