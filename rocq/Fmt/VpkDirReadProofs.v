(** The program of load_dirfile means [dec_file_v] (Fmt/VpkDirRead.v, Fmt/VpkDirV2.v). *)
From Coq Require Import List NArith Bool.
From SV Require Import Fmt.VpkDir Fmt.VpkDirProofs Fmt.VpkDirV2 Fmt.VpkDirProg Fmt.VpkDirProgProofs Fmt.VpkDirRead.
Import ListNotations.
Open Scope N_scope.

Section exec.
  Variable c : dcfg.

  Lemma frun_pinned r :
    match frun c (r_file_body rprog_pinned) (frame0 r) with
    | Some fr => match f_out fr with Some i => Some (i, f_rest fr) | None => None end
    | None => None
    end = dec_entry c r.
  Proof.
    unfold dec_entry, frame0.
    cbv beta iota delta [rprog_pinned r_file_body entry_fields_pinned frun fop_step fentry rdw
                         f_rest f_crc f_plen f_ai f_off f_alen f_term f_idx f_out].
    change (4 =? 4) with true. change (2 =? 4) with false. change (2 =? 2) with true. cbv beta iota.
    destruct (rd32 r) as [[crc r1]|]; [|reflexivity].
    destruct (rd16 r1) as [[plen r2]|]; [|reflexivity].
    destruct (rd16 r2) as [[ai r3]|]; [|reflexivity].
    destruct (rd32 r3) as [[off r4]|]; [|reflexivity].
    destruct (rd32 r4) as [[alen r5]|]; [|reflexivity].
    destruct (rd16 r5) as [[term r6]|]; [|reflexivity].
    destruct (term =? c_term c); reflexivity.
  Qed.

  Lemma rfiles_pinned fuel ext dir : forall s,
    rfiles c rprog_pinned fuel ext dir s
    = match dec_files c fuel ext dir (r_rest s) with Some (es, r') => Some (upd s (r_acc s ++ es) r') | None => None end.
  Proof.
    induction fuel as [|f IH]; intros s; [reflexivity|].
    cbn [rfiles dec_files]. destruct (next_str (r_rest s)) as [[[name|] r]|]; [| |reflexivity].
    - pose proof (frun_pinned r) as H.
      destruct (frun c (r_file_body rprog_pinned) (frame0 r)) as [fr|].
      + destruct (f_out fr) as [i|]; rewrite <- H; [|reflexivity].
        rewrite IH. cbn [upd r_rest r_acc].
        destruct (dec_files c f ext dir (f_rest fr)) as [[es r'']|]; [|reflexivity].
        cbn [upd r_sig r_ver r_tlen r_flen r_foot r_break r_version]. now rewrite <- app_assoc.
      + now rewrite <- H.
    - now rewrite app_nil_r.
  Qed.

  Lemma rdirs_pinned fuel ext : forall s,
    rdirs c rprog_pinned fuel ext s
    = match dec_dirs c fuel ext (r_rest s) with Some (es, r') => Some (upd s (r_acc s ++ es) r') | None => None end.
  Proof.
    induction fuel as [|f IH]; intros s; [reflexivity|].
    cbn [rdirs dec_dirs]. destruct (next_str (r_rest s)) as [[[dir|] r]|]; [| |reflexivity].
    - cbn [rprog_pinned r_dir_pre r_dir_post orun obind]. change (r_rest (upd s (r_acc s) r)) with r.
      rewrite rfiles_pinned. change (r_rest (upd s (r_acc s) r)) with r.
      destruct (dec_files c (S (length r)) ext dir r) as [[es r']|]; [|reflexivity].
      cbn [obind]. rewrite IH. cbn [upd r_rest r_acc].
      destruct (dec_dirs c f ext r') as [[es' r'']|]; [|reflexivity].
      cbn [upd r_sig r_ver r_tlen r_flen r_foot r_break r_version]. now rewrite <- app_assoc.
    - now rewrite app_nil_r.
  Qed.

  Lemma rexts_pinned fuel : forall s, r_break s = false ->
    rexts c rprog_pinned fuel s
    = match dec_exts c fuel (r_flen s) (r_tlen s) (r_rest s) with Some (es, r') => Some (upd s (r_acc s ++ es) r') | None => None end.
  Proof.
    induction fuel as [|f IH]; intros s Hb; [reflexivity|].
    cbn [rexts dec_exts]. destruct (next_str (r_rest s)) as [[[ext|] r]|]; [| |reflexivity].
    - cbn [rprog_pinned r_ext_pre r_ext_post orun obind]. change (r_rest (upd s (r_acc s) r)) with r.
      rewrite rdirs_pinned. change (r_rest (upd s (r_acc s) r)) with r.
      destruct (dec_dirs c (S (length r)) ext r) as [[es r']|]; [|reflexivity].
      cbn [obind rop_step upd r_rest r_acc r_sig r_ver r_tlen r_flen r_foot r_break r_version].
      destruct (len r' + r_tlen s =? r_flen s + 1).
      + cbn [obind r_break r_rest r_acc r_sig r_ver r_tlen r_flen r_foot r_version]. unfold upd. now rewrite Hb.
      + cbn [obind r_break upd]. rewrite Hb. rewrite IH by exact Hb. cbn [upd r_rest r_acc r_flen r_tlen r_sig r_ver r_foot r_break r_version].
        destruct (dec_exts c f (r_flen s) (r_tlen s) r') as [[es' r'']|]; [|reflexivity].
        cbn [upd r_sig r_ver r_tlen r_flen r_foot r_break r_version]. now rewrite <- app_assoc.
    - now rewrite app_nil_r.
  Qed.

  Lemma orun_cons o r s : orun c (o :: r) s = obind (rop_step c s o) (orun c r).
  Proof. reflexivity. Qed.

  (* The header steps are taken one at a time ([orun_cons]), each test decided before the next step is unfolded: unfolding [orun] over
     the whole list first nests every later step under the undecided tests of the earlier ones, and [cbn] is slow on that term (as it
     is on [rhdr] over the three stuck reads, hence [cbv] there). *)
  Theorem rexec_pinned bs : rexec c rprog_pinned bs = dec_file_v c bs.
  Proof.
    unfold rexec, dec_file_v. cbn [rprog_pinned r_before r_after].
    rewrite orun_cons. cbv beta iota delta [rop_step rhdr]. cbn [r_rest r_sig r_ver r_tlen r_flen r_acc r_foot r_break r_version]. change (rdw 4) with rd32.
    destruct (rd32 bs) as [[sig r1]|]; [|reflexivity]. cbn [r_rest r_sig r_ver r_tlen r_flen r_acc r_foot r_break r_version].
    destruct (rd32 r1) as [[ver r2]|]; [|reflexivity]. cbn [r_rest r_sig r_ver r_tlen r_flen r_acc r_foot r_break r_version].
    destruct (rd32 r2) as [[tlen r3]|]; [|reflexivity]. cbn [obind r_rest r_sig r_ver r_tlen r_flen r_acc r_foot r_break r_version].
    rewrite orun_cons. cbn [rop_step r_sig]. destruct (sig =? c_sig c); cbn [negb obind]; [|reflexivity].
    rewrite orun_cons. cbn [rop_step r_ver existsb].
    destruct (ver =? 1) eqn:E1; [apply N.eqb_eq in E1; subst ver|destruct (ver =? 2) eqn:E2; [apply N.eqb_eq in E2; subst ver|reflexivity]];
      cbn [orb obind].
    - cbn [orun rop_step obind N.leb N.compare Pos.compare Pos.compare_cont upd r_rest r_sig r_ver r_tlen r_flen r_acc r_foot r_break r_version].
      rewrite rexts_pinned by reflexivity. cbn [r_rest r_sig r_ver r_tlen r_flen r_acc r_foot r_break r_version app].
      destruct (dec_exts c (S (length r3)) (len r3) tlen r3) as [[es f]|]; reflexivity.
    - cbn [orun rop_step obind N.leb N.compare Pos.compare Pos.compare_cont upd rskip r_rest r_sig r_ver r_tlen r_flen r_acc r_foot r_break r_version].
      change (rdw 4) with rd32.
      destruct (rd32 r3) as [[h1 r4]|]; [|reflexivity]. destruct (rd32 r4) as [[h2 r5]|]; [|reflexivity].
      destruct (rd32 r5) as [[h3 r6]|]; [|reflexivity]. destruct (rd32 r6) as [[h4 r7]|]; [|reflexivity].
      cbn [upd obind r_rest r_sig r_ver r_tlen r_flen r_acc r_foot r_break r_version].
      rewrite rexts_pinned by reflexivity. cbn [r_rest r_sig r_ver r_tlen r_flen r_acc r_foot r_break r_version app].
      destruct (dec_exts c (S (length r7)) (len r7) tlen r7) as [[es f]|]; reflexivity.
  Qed.
End exec.

(** Every program accepted by [rprog_ok] loads exactly what [dec_file_v] decodes (or raises exactly when it fails), on every input. *)
Theorem rprog_ok_is_dec_file_v p : rprog_ok p = true -> forall c bs, rexec c p bs = dec_file_v c bs.
Proof.
  unfold rprog_ok. destruct (rprog_eq_dec p rprog_pinned) as [->|]; [|discriminate]. intros _ c bs. apply rexec_pinned.
Qed.

(** What the translated writer writes, the translated reader reads: for accepted programs, every well-formed tree and footer. *)
Theorem programs_roundtrip wp rp : wprog_ok wp = true -> rprog_ok rp = true -> forall c, dcfg_ok c = true -> forall t footer b,
  wf_tree c t -> wexec c footer wp t = Some b -> rexec c rp b = Some (1, nmap (flat_tree t), footer).
Proof.
  intros Hw Hr c Hc t footer b Hwf Hb.
  rewrite (VpkDirProgProofs.wprog_ok_is_enc_file wp Hw) in Hb. rewrite (rprog_ok_is_dec_file_v rp Hr).
  apply dec_file_v_v1. now apply (dirtree_roundtrip c Hc t footer b).
Qed.

Definition ex_v2 : bytes := le32 1437209140 ++ le32 2 ++ le32 (len (enc_tree VpkDirProgProofs.ex_c VpkDirProgProofs.ex_t)) ++ le32 9 ++ le32 8 ++ le32 7 ++ le32 6
                            ++ enc_tree VpkDirProgProofs.ex_c VpkDirProgProofs.ex_t ++ [5; 6].
Definition ex_dirfile : bytes := match enc_file VpkDirProgProofs.ex_c VpkDirProgProofs.ex_t [5; 6] with Some b => b | None => [] end.

