(** Proofs about the visibility row size expression and the rows of the visibility lump. *)
From Coq Require Import ZArith List Lia.
From SV Require Import Bin.RLE Bin.RLEProofs Fmt.BspVisRow.
Import ListNotations.
Open Scope Z_scope.

Lemma div_slope_some : forall so c s', div_slope so c = Some s' ->
  exists s, so = Some s /\ 0 < c /\ s = c * s'.
Proof.
  intros so c s' H. destruct so as [s|]; [|discriminate]. cbn [div_slope] in H.
  destruct (0 <? c) eqn:Ec; [|discriminate]. destruct (s mod c =? 0) eqn:Em; [|discriminate].
  cbn [andb] in H. injection H as <-. apply Z.ltb_lt in Ec. apply Z.eqb_eq in Em.
  exists s. split; [reflexivity|]. split; [exact Ec|].
  pose proof (Z.div_mod s c ltac:(lia)). lia.
Qed.

Lemma floor_shift : forall x c q k, 0 < c -> (x + c * q * k) / c = x / c + q * k.
Proof. intros. replace (x + c * q * k) with (x + (q * k) * c) by lia. apply Z.div_add. lia. Qed.

Lemma ceil_shift : forall x c q k, 0 < c -> - ((- (x + c * q * k)) / c) = - ((- x) / c) + q * k.
Proof.
  intros. replace (- (x + c * q * k)) with (- x + (- (q * k)) * c) by lia.
  rewrite Z.div_add by lia. lia.
Qed.

Theorem slope_sound : forall e s, slope e = Some s -> forall n k, reval e (n + 8 * k) = reval e n + s * k.
Proof.
  induction e as [|c|a IHa b IHb|a IHa b IHb|a IHa|a IHa c|a IHa c|a IHa k0|a IHa c]; intros s H n k; cbn [slope] in H; cbn [reval].
  - injection H as <-. reflexivity.
  - injection H as <-. lia.
  - destruct (slope a) as [x|]; [|discriminate]. destruct (slope b) as [y|]; [|discriminate]. injection H as <-.
    rewrite (IHa x eq_refl), (IHb y eq_refl). lia.
  - destruct (slope a) as [x|]; [|discriminate]. destruct (slope b) as [y|]; [|discriminate]. injection H as <-.
    rewrite (IHa x eq_refl), (IHb y eq_refl). lia.
  - destruct (slope a) as [x|]; [|discriminate]. cbn [option_map] in H. injection H as <-. rewrite (IHa x eq_refl). lia.
  - destruct (slope a) as [x|]; [|discriminate]. cbn [option_map] in H. injection H as <-. rewrite (IHa x eq_refl). lia.
  - apply div_slope_some in H. destruct H as (x & Ex & Hc & ->). rewrite (IHa _ Ex).
    apply floor_shift. exact Hc.
  - destruct (0 <=? k0) eqn:Ek; [|discriminate]. apply Z.leb_le in Ek.
    apply div_slope_some in H. destruct H as (x & Ex & Hc & ->). rewrite (IHa _ Ex).
    rewrite !Z.shiftr_div_pow2 by exact Ek. apply floor_shift. exact Hc.
  - apply div_slope_some in H. destruct H as (x & Ex & Hc & ->). rewrite (IHa _ Ex).
    apply ceil_shift. exact Hc.
Qed.

(** The decision procedure is sound for every cluster count. *)
Theorem rowsize_all : forall e, rowsize_ok e = true -> forall n, 0 <= n -> reval e n = ceil8Z n.
Proof.
  intros e H n Hn. unfold rowsize_ok in H. destruct (slope e) as [s|] eqn:Es; [|discriminate].
  apply andb_prop in H. destruct H as [H1 H]. apply Z.eqb_eq in H1. subst s.
  pose proof (Z.div_mod n 8 ltac:(lia)) as Dm. pose proof (Z.mod_pos_bound n 8 ltac:(lia)) as Hr.
  set (q := n / 8) in *. set (r := n mod 8) in *.
  replace n with (r + 8 * q) by lia. rewrite (slope_sound e 1 Es).
  assert (C : ceil8Z (r + 8 * q) = ceil8Z r + 1 * q).
  { unfold ceil8Z. replace (r + 8 * q + 7) with (r + 7 + q * 8) by lia. rewrite Z.div_add by lia. lia. }
  rewrite C. f_equal.
  rewrite forallb_forall in H. apply Z.eqb_eq, H. cbn [In]. lia.
Qed.

Lemma ceil8_Z : forall n : nat, ceil8Z (Z.of_nat n) = Z.of_nat (ceil8 n).
Proof.
  intros n. unfold ceil8Z, ceil8. rewrite Nat2Z.inj_div, Nat2Z.inj_add. reflexivity.
Qed.

Theorem rowsize_is_ceil8 : forall e, rowsize_ok e = true -> forall n : nat, reval e (Z.of_nat n) = Z.of_nat (ceil8 n).
Proof. intros e H n. rewrite <- ceil8_Z. apply rowsize_all; [exact H | lia]. Qed.

(** Both forms used by the source today are accepted, the seeded variant is refuted at 0 and at every multiple of 8. *)
Example rowsize_ceil_div_ok : rowsize_ok (RCeilDiv RVar 8) = true.
Proof. vm_compute. reflexivity. Qed.
Example rowsize_add7_shr3_ok : rowsize_ok (RShr (RAdd RVar (RConst 7)) 3) = true.
Proof. vm_compute. reflexivity. Qed.
Example rowsize_shr3_plus1_refuted :
  rowsize_ok (RAdd (RShr RVar 3) (RConst 1)) = false /\
  reval (RAdd (RShr RVar 3) (RConst 1)) 8 = 2 /\ ceil8Z 8 = 1 /\
  firstn 3 (rowsize_witnesses (RAdd (RShr RVar 3) (RConst 1))) = [0; 8; 16].
Proof. vm_compute. repeat split; reflexivity. Qed.

(** * Rows in the lump: every row is found again through its stored offset *)
Theorem vis_rows_roundtrip : forall w rows hdr,
  Forall (fun r => List.length r = w) rows ->
  map (fun off => rle_decode (Some w) off (hdr ++ flat_map rle_encode rows)) (vis_offsets (List.length hdr) rows) = map Some rows.
Proof.
  intros w rows. induction rows as [|r rs IH]; intros hdr Hall; [reflexivity|].
  inversion Hall as [|? ? Hr Hrs]; subst. cbn [vis_offsets map flat_map]. f_equal.
  - apply rle_roundtrip_in_lump.
  - specialize (IH (hdr ++ rle_encode r) Hrs). rewrite app_length in IH. rewrite <- app_assoc in IH. exact IH.
Qed.

(** The lump as a whole: the writer insists on rows of [ew(count)] bytes, the reader decodes [er(count)] bytes
    at every stored offset; when both expressions pass [rowsize_ok] every row comes back. *)
Theorem visibility_roundtrip : forall er ew (n : nat) hdr rows,
  rowsize_ok er = true -> rowsize_ok ew = true ->
  Forall (fun r => Z.of_nat (List.length r) = reval ew (Z.of_nat n)) rows ->
  map (fun off => rle_decode (Some (Z.to_nat (reval er (Z.of_nat n)))) off (hdr ++ flat_map rle_encode rows))
      (vis_offsets (List.length hdr) rows) = map Some rows.
Proof.
  intros er ew n hdr rows Hr Hw Hall.
  rewrite (rowsize_is_ceil8 er Hr n), Nat2Z.id. apply vis_rows_roundtrip.
  eapply Forall_impl; [|exact Hall]. cbn beta. intros r E. rewrite (rowsize_is_ceil8 ew Hw n) in E. lia.
Qed.
