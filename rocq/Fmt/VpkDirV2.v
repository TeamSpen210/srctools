(** VPK version 2 directory files on the reading side (vpk.py [load_dirfile]): the header has four more '<I' fields
    (data_size, ext_md5_size, dir_md5_size, sig_size) which are read and ignored; the tree length counts from after them;
    everything after the tree is [footer_data].  ([write_dirfile] refuses version 2 before touching the file.)
    [dec_file_v] extends [VpkDir.dec_file] to both versions and also returns [VPK.version]. *)
From Coq Require Import List NArith Bool Lia.
From SV Require Import Fmt.VpkDir Fmt.VpkDirProofs.
Import ListNotations.
Open Scope N_scope.

Section v2.
  Variable c : dcfg.

  Definition tag (v : N) (o : option (list (key * info) * bytes)) : option (N * list (key * info) * bytes) :=
    match o with Some (es, f) => Some (v, es, f) | None => None end.

  Definition dec_file_v (bs : bytes) : option (N * list (key * info) * bytes) :=
    match rd32 bs with None => None | Some (sig, r1) =>
    match rd32 r1 with None => None | Some (ver, r2) =>
    match rd32 r2 with None => None | Some (tlen, r3) =>
      if negb (sig =? c_sig c) then None
      else if ver =? 1 then tag 1 (dec_exts c (S (length r3)) (len r3) tlen r3)
      else if ver =? 2 then
        match rd32 r3 with None => None | Some (_, r4) =>
        match rd32 r4 with None => None | Some (_, r5) =>
        match rd32 r5 with None => None | Some (_, r6) =>
        match rd32 r6 with None => None | Some (_, r7) =>
          tag 2 (dec_exts c (S (length r7)) (len r7) tlen r7)
        end end end end
      else None
    end end end.

  (** the version-2 file with the same tree and trailing bytes as [enc_file] would write for version 1 *)
  Definition enc_file_v2 (t : tree) (h1 h2 h3 h4 : N) (footer : bytes) : option bytes :=
    let tb := enc_tree c t in
    if fits32 (c_sig c) && tree_fits c t && fits32 (len tb)
    then Some (le32 (c_sig c) ++ le32 2 ++ le32 (len tb) ++ le32 h1 ++ le32 h2 ++ le32 h3 ++ le32 h4 ++ tb ++ footer)
    else None.

  (** [dec_file] is [dec_file_v] restricted to version 1 *)
  Lemma dec_file_of_v bs :
    dec_file c bs = match dec_file_v bs with Some (v, es, f) => if v =? 1 then Some (es, f) else None | None => None end.
  Proof.
    unfold dec_file, dec_file_v. destruct (rd32 bs) as [[sig r1]|]; [|reflexivity].
    destruct (rd32 r1) as [[ver r2]|]; [|reflexivity]. destruct (rd32 r2) as [[tlen r3]|]; [|reflexivity].
    destruct (sig =? c_sig c); cbn [negb andb]; [|reflexivity].
    destruct (ver =? 1); [destruct (dec_exts c (S (length r3)) (len r3) tlen r3) as [[es f]|]; reflexivity|].
    destruct (ver =? 2); [|reflexivity].
    destruct (rd32 r3) as [[h1 r4]|]; [|reflexivity]. destruct (rd32 r4) as [[h2 r5]|]; [|reflexivity].
    destruct (rd32 r5) as [[h3 r6]|]; [|reflexivity]. destruct (rd32 r6) as [[h4 r7]|]; [|reflexivity].
    destruct (dec_exts c (S (length r7)) (len r7) tlen r7) as [[es f]|]; reflexivity.
  Qed.

  Lemma dec_file_v_v1 bs es f : dec_file c bs = Some (es, f) -> dec_file_v bs = Some (1, es, f).
  Proof.
    rewrite dec_file_of_v. destruct (dec_file_v bs) as [[[v es'] f']|]; [|discriminate].
    destruct (N.eqb_spec v 1) as [->|]; [|discriminate]. now intros [= -> ->].
  Qed.

  (** the four extra header fields are skipped: a version-2 file decodes to exactly what the version-1 file with the same
      tree length, tree and trailing bytes decodes to *)
  Lemma dec_file_v2_header_skipped sig tlen h1 h2 h3 h4 rest :
    sig < 4294967296 -> tlen < 4294967296 -> h1 < 4294967296 -> h2 < 4294967296 -> h3 < 4294967296 -> h4 < 4294967296 ->
    dec_file_v (le32 sig ++ le32 2 ++ le32 tlen ++ le32 h1 ++ le32 h2 ++ le32 h3 ++ le32 h4 ++ rest)
    = tag 2 (dec_file c (le32 sig ++ le32 1 ++ le32 tlen ++ rest)).
  Proof.
    intros Hs Ht H1 H2 H3 H4. unfold dec_file_v, dec_file.
    rewrite !rd32_le32 by lia. cbn [N.eqb Pos.eqb].
    rewrite ?rd32_le32 by lia.
    destruct (sig =? c_sig c); cbn [negb andb]; reflexivity.
  Qed.
End v2.
