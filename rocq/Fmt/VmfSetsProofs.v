(** C06: canonical order of membership lines (axiom-free). *)
From Coq Require Import List String Bool ZArith Lia Permutation Sorted.
From SV Require Import Fmt.VmfSets.
Import ListNotations.
Open Scope Z_scope.

Lemma insert_perm x l : Permutation (x :: l) (insert x l).
Proof.
  induction l as [|y r IH]; cbn [insert]; [apply Permutation_refl|].
  destruct (x <=? y); [apply Permutation_refl|].
  eapply perm_trans; [apply perm_swap|]. apply perm_skip. exact IH.
Qed.
Lemma isort_perm l : Permutation l (isort l).
Proof.
  induction l as [|x r IH]; cbn [isort]; [apply perm_nil|].
  eapply perm_trans; [apply perm_skip; exact IH|apply insert_perm].
Qed.

Lemma insert_sorted x l : StronglySorted Z.le l -> StronglySorted Z.le (insert x l).
Proof.
  induction 1 as [|y r Hs IH Hall]; cbn [insert].
  - constructor; constructor.
  - destruct (x <=? y) eqn:E.
    + constructor; [constructor; assumption|]. constructor; [lia|].
      rewrite Forall_forall in *. intros z Hz. specialize (Hall z Hz). lia.
    + constructor; [exact IH|]. rewrite Forall_forall in *. intros z Hz.
      apply (Permutation_in _ (Permutation_sym (insert_perm x r))) in Hz. destruct Hz as [<-|Hz]; [lia|auto].
Qed.
Lemma isort_sorted l : StronglySorted Z.le (isort l).
Proof. induction l; cbn [isort]; [constructor|apply insert_sorted; assumption]. Qed.

(** Two sorted lists with the same elements (as multisets) are equal. *)
Lemma sorted_perm_eq l1 : forall l2, StronglySorted Z.le l1 -> StronglySorted Z.le l2 -> Permutation l1 l2 -> l1 = l2.
Proof.
  induction l1 as [|a r1 IH]; intros l2 H1 H2 P.
  - apply Permutation_nil in P. auto.
  - destruct l2 as [|b r2]; [apply Permutation_sym, Permutation_nil in P; discriminate|].
    inversion H1 as [|? ? S1 A1]; subst. inversion H2 as [|? ? S2 A2]; subst.
    assert (a = b).
    { rewrite Forall_forall in A1, A2.
      assert (Hb : In b (a :: r1)) by (apply (Permutation_in _ (Permutation_sym P)); left; reflexivity).
      assert (Ha : In a (b :: r2)) by (apply (Permutation_in _ P); left; reflexivity).
      destruct Hb as [->|Hb]; [reflexivity|]. destruct Ha as [->|Ha]; [reflexivity|].
      specialize (A1 b Hb). specialize (A2 a Ha). lia. }
    subst b. f_equal. apply IH; trivial. apply Permutation_cons_inv with a. exact P.
Qed.

(** The text written for a set in canonical order does not depend on the iteration order: whatever history built the set,
    and whatever order the re-parsed set iterates in, the same lines are written -- the second export repeats the first. *)
Theorem members_canonical s1 s2 : NoDup s1 -> NoDup s2 -> same_set s1 s2 ->
  write_members true s1 = write_members true s2.
Proof.
  intros N1 N2 E. cbn [write_members]. apply sorted_perm_eq; try apply isort_sorted.
  eapply perm_trans; [apply Permutation_sym, isort_perm|]. eapply perm_trans; [|apply isort_perm].
  apply NoDup_Permutation; assumption.
Qed.

(** Nothing is lost or invented: the lines are the elements of the set. *)
Theorem members_content s : same_set (write_members true s) s.
Proof. intros x. cbn [write_members]. split; apply Permutation_in; [apply Permutation_sym|]; apply isort_perm. Qed.

Theorem member_loops_ok_sound l : member_loops_ok l = true -> forall x, In x l -> ml_sorted x = true.
Proof. unfold member_loops_ok. rewrite forallb_forall. auto. Qed.
