(** C16 — proofs about Fmt/FgdLine.v: every line the writers emit re-parses to the field values. *)
From Coq Require Import List NArith Arith Bool Lia.
From SV Require Import Fmt.FgdLine.
Import ListNotations.
Open Scope N_scope.

(** * _read_colon_list on what _write_longstring produced *)
Lemma snoc_last_app l a v : snoc_last (l ++ [a]) v = l ++ [a ++ v].
Proof.
  induction l as [|x l IH]; [reflexivity|]. cbn [app].
  assert (H : forall y r, snoc_last (x :: y :: r) v = x :: snoc_last (y :: r) v) by reflexivity.
  destruct (l ++ [a]) as [|y r] eqn:E; [destruct l; discriminate|]. rewrite H, IH. reflexivity.
Qed.
Lemma nil_b_app {T} (l : list T) x : nil_b (l ++ [x]) = false.
Proof. destruct l; reflexivity. Qed.

(** the sections after the first one, each behind '+' NEWLINE, are appended to the last string *)
Lemma rcl_more secs : forall l a rest,
  rcl (l ++ [a]) false false (concat (map (fun s => [TPlus; TNl; TStr s]) secs) ++ rest)
  = rcl (l ++ [a ++ concat secs]) false false rest.
Proof.
  induction secs as [|s secs IH]; intros l a rest; cbn [map concat app].
  - rewrite app_nil_r. reflexivity.
  - cbn [rcl]. rewrite nil_b_app. cbn [orb]. cbn [rcl]. rewrite snoc_last_app, IH, app_assoc. reflexivity.
Qed.
Lemma str_toks_cons x secs : str_toks (x :: secs) = TStr x :: concat (map (fun s => [TPlus; TNl; TStr s]) secs).
Proof.
  revert x. induction secs as [|s secs IH]; intros x; [reflexivity|].
  change (str_toks (x :: s :: secs)) with (TStr x :: TPlus :: TNl :: str_toks (s :: secs)). rewrite IH. reflexivity.
Qed.
(** a '+'-joined string where a string is allowed reads as the concatenation of its sections *)
Lemma rcl_str secs l rest : secs <> [] ->
  rcl l true false (str_toks secs ++ rest) = rcl (l ++ [concat secs]) false false rest.
Proof.
  destruct secs as [|x secs]; [congruence|]. intros _. rewrite str_toks_cons. cbn [app rcl concat].
  apply rcl_more.
Qed.
Lemma rcl_colon_str secs l rest : secs <> [] ->
  rcl l false false (TColon :: str_toks secs ++ rest) = rcl (l ++ [concat secs]) false false rest.
Proof. intros H. cbn [rcl]. apply rcl_str, H. Qed.

(** where the list ends: at a NEWLINE not followed by '+', or at '=' / '[' / ']' *)
Definition ends_line (rest : list tok) : Prop := match rest with TPlus :: _ => False | _ => True end.
Lemma rcl_end_nl l rest : ends_line rest -> rcl l false false (TNl :: rest) = Some (l, TNl :: rest).
Proof. intros H. cbn [rcl]. destruct rest as [|[]]; try reflexivity. destruct H. Qed.

Section Proofs.
Variable tag_norm : str -> str.
Variable tags_valid : list str -> bool.
Local Notation read_tags_aux := (read_tags_aux tag_norm tags_valid).
Local Notation read_tags := (read_tags tag_norm tags_valid).
Local Notation opt_tags := (opt_tags tag_norm tags_valid).

Definition tag_ok (t : str) : Prop := tag_norm t = t.
Lemma read_tag1 t acc rest : tag_ok t -> read_tags_aux acc false (tag_toks1 t ++ rest) = read_tags_aux (acc ++ [t]) false rest.
Proof.
  unfold tag_ok, tag_toks1. intros H. destruct t as [|c r]; cbn [app FgdLine.read_tags_aux]; [rewrite H; reflexivity|].
  destruct (c =? PLUSC) eqn:E; cbn [app FgdLine.read_tags_aux].
  - apply N.eqb_eq in E. subst c. rewrite H. reflexivity.
  - rewrite H. reflexivity.
Qed.
Lemma read_tag_list tags : forall acc rest, Forall tag_ok tags -> tags <> [] ->
  read_tags_aux acc false (tag_list_toks tags ++ TBrClose :: rest)
  = if tags_valid (acc ++ tags) then Some (acc ++ tags, rest) else None.
Proof.
  induction tags as [|t tags IH]; intros acc rest Hok Hne; [congruence|].
  inversion Hok as [|? ? Ht Hts]; subst. destruct tags as [|t2 tags].
  - cbn [tag_list_toks]. rewrite read_tag1 by exact Ht. cbn [FgdLine.read_tags_aux]. reflexivity.
  - change (tag_list_toks (t :: t2 :: tags)) with (tag_toks1 t ++ TComma :: tag_list_toks (t2 :: tags)).
    rewrite <- app_assoc, read_tag1 by exact Ht. cbn [app FgdLine.read_tags_aux].
    rewrite IH by (auto; discriminate). rewrite <- app_assoc. reflexivity.
Qed.
(** `[tags]` written for a non-empty valid tag set reads back; nothing is written for the empty set, and then the
    reader must not find a '[' *)
Definition no_bracket (rest : list tok) : Prop := match rest with TBrOpen :: _ => False | _ => True end.
Lemma opt_tags_ok tags rest : Forall tag_ok tags -> tags_valid tags = true -> (tags = [] -> no_bracket rest) ->
  opt_tags (tags_toks tags ++ rest) = Some (tags, rest).
Proof.
  intros Hok Hv Hr. destruct tags as [|t tags].
  - cbn [tags_toks app]. specialize (Hr eq_refl). unfold FgdLine.opt_tags. destruct rest as [|[]]; try reflexivity. destruct Hr.
  - unfold tags_toks. cbn [app FgdLine.opt_tags]. unfold FgdLine.read_tags. rewrite <- app_assoc. cbn [app].
    rewrite read_tag_list by (auto; discriminate). cbn [app]. rewrite Hv. reflexivity.
Qed.

(** the tags a reader sees: none when the plain syntax was written *)
Definition seen_tags (custom : bool) (tags : list str) : list str := if custom then tags else [].
Definition tags_wf (tags : list str) : Prop := Forall tag_ok tags /\ tags_valid tags = true.
(** the `[tags]` the writers put behind a name or at the end of an item line (extended syntax only) *)
Definition opt_tag_toks (custom : bool) (tags : list str) : list tok := if custom then tags_toks tags else [].
Lemma opt_tags_written custom tags rest : tags_wf tags -> no_bracket rest ->
  opt_tags (opt_tag_toks custom tags ++ rest) = Some (seen_tags custom tags, rest).
Proof.
  intros [Hok Hv] Hr. unfold opt_tag_toks, seen_tags. destruct custom; [apply opt_tags_ok; [exact Hok|exact Hv|intros _; exact Hr]|].
  cbn [app]. unfold FgdLine.opt_tags. destruct rest as [|[]]; try reflexivity. destruct Hr.
Qed.

Variable vt : Type.
Variable vt_text : vt -> str.
Variable vt_lookup : str -> option (bool * vt).
Variables vt_is_bool vt_is_flags vt_is_choices : vt -> bool.
Variable io_text : vt -> str.
Variable io_lookup : str -> option vt.
Variable io_decay : vt -> vt.                  (* VALUE_TO_IO_DECAY *)
Variable dec : N -> str.
Variable undec : str -> option N.
Variable pow2 : N -> bool.
Variable cfg : line_cfg.
Hypothesis vt_lookup_text : forall v, vt_lookup (vt_text v) = Some (false, v).
Hypothesis io_lookup_text : forall v, io_lookup (io_text v) = Some (io_decay v).
Hypothesis undec_dec : forall n, undec (dec n) = Some n.
Hypothesis two_colons : colons_before_desc_without_default cfg = 2%nat.

Local Notation kvline := (kvline vt).
Local Notation kv_toks := (kv_toks vt vt_text vt_is_bool vt_is_flags dec cfg).
Local Notation kv_parse := (kv_parse tag_norm tags_valid vt vt_lookup vt_is_bool vt_is_flags vt_is_choices dec undec pow2).
Local Notation default_written := (default_written vt vt_is_bool cfg).
Local Notation yes_no := (yes_no vt vt_is_bool).
Local Notation parse_flag := (parse_flag dec undec pow2).
Local Notation flag_item_toks := (flag_item_toks dec).

(** the fields after the type and the readonly/report words: kv_vals and the token taken as `has_equal` *)
Definition fields_toks (k : kvline) : list tok :=
  (if vt_is_flags (l_type vt k) then [] else TColon :: str_toks (l_disp vt k))
  ++ (if nil_b (default_written k)
      then (if nil_b (concat (l_desc vt k)) then [] else repeat TColon (colons_before_desc_without_default cfg))
      else TColon :: TStr (default_written k) :: (if nil_b (concat (l_desc vt k)) then [] else [TColon]))
  ++ (if nil_b (concat (l_desc vt k)) then [] else str_toks (l_desc vt k)).

Definition stop_tok (t : tok) : Prop := match t with TNl | TEq => True | _ => False end.
Definition vals_of (k : kvline) : list str :=
  [concat (l_disp vt k)]
  ++ (if nil_b (default_written k) then (if nil_b (concat (l_desc vt k)) then [] else [[]; concat (l_desc vt k)])
      else default_written k :: (if nil_b (concat (l_desc vt k)) then [] else [concat (l_desc vt k)])).

Lemma nil_b_concat_ne (l : list str) : nil_b (concat l) = false -> l <> [].
Proof. destruct l; [discriminate|discriminate]. Qed.

(** for a keyvalue that is not a spawnflags list: the colon list reads as display name, default, description *)
Lemma fields_read (k : kvline) t rest : vt_is_flags (l_type vt k) = false -> l_disp vt k <> [] ->
  (t = TEq \/ (t = TNl /\ ends_line rest)) ->
  rcl [] false false (fields_toks k ++ t :: rest) = Some (vals_of k, t :: rest).
Proof.
  intros Hf Hd Ht. unfold fields_toks, vals_of. rewrite Hf. rewrite <- !app_assoc. cbn [app].
  rewrite (rcl_colon_str (l_disp vt k) [] _ Hd). cbn [app].
  assert (Hend : forall l, rcl l false false (t :: rest) = Some (l, t :: rest)).
  { intros l. destruct Ht as [->|[-> He]]; [reflexivity|apply rcl_end_nl, He]. }
  destruct (nil_b (default_written k)) eqn:Edw.
  - destruct (nil_b (concat (l_desc vt k))) eqn:Eds; cbn [app].
    + apply Hend.
    + rewrite two_colons. cbn [repeat app rcl]. rewrite (rcl_str (l_desc vt k) _ _ (nil_b_concat_ne _ Eds)). cbn [app]. apply Hend.
  - cbn [app rcl]. destruct (nil_b (concat (l_desc vt k))) eqn:Eds; cbn [app].
    + apply Hend.
    + cbn [rcl]. rewrite (rcl_str (l_desc vt k) _ _ (nil_b_concat_ne _ Eds)). cbn [app]. apply Hend.
Qed.

Definition head_toks (custom : bool) (k : kvline) : list tok :=
  (if custom then tags_toks (l_tags vt k) else [])
  ++ TParen (vt_text (l_type vt k)) :: (if l_ro vt k then [TStr KW_READONLY] else []) ++ (if l_report vt k then [TStr KW_REPORT] else []).
Definition list_toks (label custom : bool) (k : kvline) : list tok :=
  match l_list vt k with
  | NoList => []
  | Flags items => TEq :: TNl :: TBrOpen :: TNl :: concat (map (flag_item_toks label custom) items) ++ [TBrClose]
  | Choices items => TEq :: TNl :: TBrOpen :: TNl :: concat (map (choice_item_toks custom) items) ++ [TBrClose]
  end.
Lemma kv_toks_split label custom k :
  kv_toks label custom k = TStr (l_name vt k) :: head_toks custom k ++ fields_toks k ++ list_toks label custom k ++ [TNl].
Proof.
  unfold FgdLine.kv_toks, head_toks, fields_toks, list_toks. cbn [app]. f_equal. rewrite <- !app_assoc. cbn [app].
  rewrite <- !app_assoc. reflexivity.
Qed.


(** what the head of the line (tags, type, readonly, report) leaves for the field reader; [nxt] is what follows *)
Definition not_word (rest : list tok) : Prop := match rest with TStr _ :: _ => False | _ => True end.
Local Notation kv_rest := (kv_rest tag_norm tags_valid vt vt_is_bool vt_is_flags vt_is_choices dec undec pow2).
Lemma head_read custom k nxt : tags_wf (l_tags vt k) -> not_word nxt ->
  kv_parse (l_name vt k) (head_toks custom k ++ nxt)
  = kv_rest (l_name vt k) (seen_tags custom (l_tags vt k)) (l_type vt k) (l_ro vt k) (l_report vt k) nxt.
Proof.
  intros Ht Hn.
  unfold FgdLine.kv_parse, head_toks. rewrite <- app_assoc. cbn [app].
  rewrite (opt_tags_written custom _ (TParen _ :: _) Ht I), vt_lookup_text.
  destruct (l_ro vt k), (l_report vt k); cbn [app orb].
  - change (str_eqb (lower KW_READONLY) KW_READONLY) with true. cbn iota.
    change (str_eqb (lower KW_REPORT) KW_REPORT) with true. cbn iota. reflexivity.
  - change (str_eqb (lower KW_READONLY) KW_READONLY) with true. cbn iota.
    destruct nxt as [|[] nxt]; try reflexivity. destruct Hn.
  - change (str_eqb (lower KW_REPORT) KW_READONLY) with false. cbn iota.
    change (str_eqb (lower KW_REPORT) KW_REPORT) with true. cbn iota. reflexivity.
  - destruct nxt as [|[] nxt]; try reflexivity; destruct Hn.
Qed.

Lemma nil_b_true {T} (l : list T) : nil_b l = true -> l = [].
Proof. destruct l; [reflexivity|discriminate]. Qed.
Lemma yes_no_nil ty : yes_no ty [] = [].
Proof. unfold FgdLine.yes_no. destruct (vt_is_bool ty); reflexivity. Qed.

(** what is read back: long strings as one section, the default as written, no tags in the plain syntax *)
Definition kv_norm (custom : bool) (k : kvline) (l : vlist) : kvline :=
  mk_kvl vt (l_name vt k) (seen_tags custom (l_tags vt k)) (l_type vt k) (l_ro vt k) (l_report vt k)
         [concat (l_disp vt k)] (default_written k) [concat (l_desc vt k)] l.

(** the common part of every keyvalue that writes a display name: after the colon list the parser holds [vals_of k] *)
Lemma kv_rest_fields (k : kvline) tags t rest :
  vt_is_flags (l_type vt k) = false -> l_disp vt k <> [] -> yes_no (l_type vt k) (default_written k) = default_written k ->
  (t = TEq \/ (t = TNl /\ ends_line rest)) ->
  kv_rest (l_name vt k) tags (l_type vt k) (l_ro vt k) (l_report vt k) (fields_toks k ++ t :: rest)
  = let mk l := mk_kvl vt (l_name vt k) tags (l_type vt k) (l_ro vt k) (l_report vt k)
                       [concat (l_disp vt k)] (default_written k) [concat (l_desc vt k)] l in
    let is_eq := match t with TEq => true | _ => false end in
    if vt_is_choices (l_type vt k) then
      (if is_eq then match colon_array tag_norm tags_valid parse_choice rest with Some (items, r) => Some (mk (Choices items), r) | None => None end else None)
    else if is_eq then None else Some (mk NoList, rest).
Proof.
  intros Hf Hd Hy Ht. pose proof (fields_read k t rest Hf Hd Ht) as Hr.
  unfold FgdLine.kv_rest. unfold fields_toks in *. rewrite Hf in *. cbn [app] in *.
  unfold read_colon_list. cbn [rcl] in Hr. rewrite Hr. unfold vals_of.
  destruct (nil_b (default_written k)) eqn:Edw.
  - apply nil_b_true in Edw. destruct (nil_b (concat (l_desc vt k))) eqn:Eds; cbn [app].
    + apply nil_b_true in Eds. rewrite Eds, Edw, yes_no_nil. reflexivity.
    + rewrite Edw, yes_no_nil. reflexivity.
  - destruct (nil_b (concat (l_desc vt k))) eqn:Eds; cbn [app].
    + apply nil_b_true in Eds. rewrite Eds, Hy. reflexivity.
    + rewrite Hy. reflexivity.
Qed.

(** Keyvalue lines without a value list: every line KVDef.export writes — with or without tags, readonly, report,
    display name and description split into any number of '+' sections, default present or not, description present
    or not — is read back by KVDef._parse as the same name, tags, type, flags, display name, default and description,
    and the parser stops exactly at the end of the line. *)
Theorem kv_plain_roundtrip label custom (k : kvline) rest :
  tags_wf (l_tags vt k) -> vt_is_flags (l_type vt k) = false -> vt_is_choices (l_type vt k) = false -> l_list vt k = NoList ->
  l_disp vt k <> [] -> yes_no (l_type vt k) (default_written k) = default_written k -> ends_line rest ->
  kv_parse (l_name vt k) (tl (kv_toks label custom k) ++ rest) = Some (kv_norm custom k NoList, rest).
Proof.
  intros Ht Hf Hc Hl Hd Hy He. rewrite kv_toks_split. cbn [tl]. unfold list_toks. rewrite Hl. cbn [app].
  rewrite <- !app_assoc. rewrite head_read; [|exact Ht|unfold fields_toks; rewrite Hf; exact I].
  cbn [app]. rewrite (kv_rest_fields k _ TNl rest Hf Hd Hy (or_intror (conj eq_refl He))). cbn zeta. rewrite Hc. reflexivity.
Qed.

Local Notation parse_array := (parse_array tag_norm tags_valid).
Local Notation colon_array := (colon_array tag_norm tags_valid).
Definition next_ok (rest : list tok) : Prop := match rest with TStr _ :: _ | TBrClose :: _ => True | _ => False end.
Lemma next_ok_ends rest : next_ok rest -> ends_line rest.
Proof. destruct rest as [|[]]; cbn; auto. Qed.
Lemma next_ok_skip rest : next_ok rest -> skip_nl rest = rest.
Proof. destruct rest as [|[]]; cbn; tauto. Qed.
Lemma parse_array_nl {T} f (item : str -> list str -> list str -> option T) acc ts :
  parse_array f item acc (TNl :: ts) = parse_array f item acc ts.
Proof. destruct f; reflexivity. Qed.

Section Items.
Variables X T : Type.
Variable item : str -> list str -> list str -> option T.
Variable itoks : X -> list tok.          (* the tokens of one item line without its NEWLINE *)
Variable ires : X -> T.
Variable iwf : X -> Prop.
Hypothesis itoks_first : forall it, iwf it -> exists v r, itoks it = TStr v :: r.
Hypothesis step : forall it acc f rest, iwf it -> next_ok rest ->
  parse_array (S f) item acc (itoks it ++ TNl :: rest) = parse_array f item (acc ++ [ires it]) (TNl :: rest).

Lemma items_next_ok items rest : Forall iwf items -> next_ok (concat (map (fun it => itoks it ++ [TNl]) items) ++ TBrClose :: rest).
Proof.
  destruct items as [|it items]; cbn [map concat app]; [intros _; exact I|]. intros H. inversion H as [|? ? Hit _]; subst.
  destruct (itoks_first it Hit) as [v [r ->]]. exact I.
Qed.
Lemma parse_items items : forall acc f rest, Forall iwf items -> (length items < f)%nat ->
  parse_array f item acc (concat (map (fun it => itoks it ++ [TNl]) items) ++ TBrClose :: rest)
  = Some (acc ++ map ires items, rest).
Proof.
  induction items as [|it items IH]; intros acc f rest Hwf Hf.
  - cbn [map concat app]. destruct f; [cbn [length] in Hf; lia|]. cbn. rewrite app_nil_r. reflexivity.
  - inversion Hwf as [|? ? Hit Hrest]; subst. destruct f as [|f]; [cbn [length] in Hf; lia|].
    cbn [map concat]. rewrite <- !app_assoc. cbn [app].
    rewrite step; [|exact Hit|apply items_next_ok, Hrest]. rewrite parse_array_nl.
    rewrite IH; [|exact Hrest|cbn [length] in Hf; lia]. cbn [map]. rewrite <- app_assoc. reflexivity.
Qed.
Lemma concat_len items : Forall iwf items -> (length items <= length (concat (map (fun it => itoks it ++ [TNl]) items)))%nat.
Proof.
  induction items as [|it items IH]; intros H; cbn [map concat length]; [lia|]. inversion H; subst.
  rewrite !app_length. cbn [length]. specialize (IH H3). lia.
Qed.
(** ` =` NEWLINE `[` NEWLINE items `]` *)
Lemma array_read items rest : Forall iwf items ->
  colon_array item (TNl :: TBrOpen :: TNl :: concat (map (fun it => itoks it ++ [TNl]) items) ++ TBrClose :: rest)
  = Some (map ires items, rest).
Proof.
  intros H. unfold FgdLine.colon_array. cbn [skip_nl]. rewrite parse_array_nl.
  rewrite parse_items; [reflexivity|exact H|]. cbn [length]. rewrite app_length. pose proof (concat_len items H). lia.
Qed.
End Items.

Lemma rcl_before_tags l custom tags rest : ends_line rest ->
  rcl l false false (opt_tag_toks custom tags ++ TNl :: rest) = Some (l, opt_tag_toks custom tags ++ TNl :: rest).
Proof.
  intros He. unfold opt_tag_toks. destruct custom; [|apply rcl_end_nl, He].
  destruct tags as [|t tags]; [apply rcl_end_nl, He|reflexivity].
Qed.

(** choices items *)
Definition citoks (custom : bool) (it : str * list str * list str) : list tok :=
  let '(v, name, tags) := it in TStr v :: TColon :: str_toks name ++ opt_tag_toks custom tags.
Definition cires (custom : bool) (it : str * list str * list str) : str * list str * list str :=
  let '(v, name, tags) := it in (v, [concat name], seen_tags custom tags).
Definition ciwf (it : str * list str * list str) : Prop := let '(v, name, tags) := it in name <> [] /\ tags_wf tags.
Lemma choice_toks_eq custom it : choice_item_toks custom it = citoks custom it ++ [TNl].
Proof. destruct it as [[v name] tags]. unfold choice_item_toks, citoks, opt_tag_toks. cbn [app]. rewrite <- app_assoc. reflexivity. Qed.
Lemma choice_step custom it acc f rest : ciwf it -> next_ok rest ->
  parse_array (S f) parse_choice acc (citoks custom it ++ TNl :: rest)
  = parse_array f parse_choice (acc ++ [cires custom it]) (TNl :: rest).
Proof.
  destruct it as [[v name] tags]. intros [Hn Ht] Hr. unfold citoks, cires. cbn [app FgdLine.parse_array skip_nl].
  unfold read_colon_list. rewrite <- app_assoc, (rcl_colon_str name [] _ Hn). cbn [app].
  rewrite (rcl_before_tags _ custom tags rest (next_ok_ends _ Hr)), (opt_tags_written custom tags (TNl :: rest) Ht I). reflexivity.
Qed.

(** spawnflag items *)
Local Notation labelled := (labelled dec).
Local Notation label_of := (label_of dec).
Local Notation unlabel := (unlabel dec).
Definition fitoks (label custom : bool) (it : N * list str * bool * list str) : list tok :=
  let '(v, name, d, tags) := it in
  TStr (dec v) :: TColon :: str_toks (labelled label v name) ++ TColon :: TStr (if d then S1 else S0) :: opt_tag_toks custom tags.
Definition fires (custom : bool) (it : N * list str * bool * list str) : N * list str * bool * list str :=
  let '(v, name, d, tags) := it in (v, [concat name], d, seen_tags custom tags).
(** the name does not start with a blank (the reader strips after a label) and, when no label is written, does not
    itself start with `[value]` *)
Definition fiwf (label : bool) (it : N * list str * bool * list str) : Prop :=
  let '(v, name, d, tags) := it in
  pow2 v = true /\ name <> [] /\ lstrip (concat name) = concat name
  /\ (label = false -> prefix (label_of v) (concat name) = None) /\ tags_wf tags.
Lemma flag_toks_eq label custom it : flag_item_toks label custom it = fitoks label custom it ++ [TNl].
Proof.
  destruct it as [[[v name] d] tags]. unfold FgdLine.flag_item_toks, fitoks, opt_tag_toks. cbn [app].
  rewrite <- app_assoc. cbn [app]. reflexivity.
Qed.
Lemma prefix_app p s : prefix p (p ++ s) = Some s.
Proof. induction p as [|x p IH]; cbn [app prefix]; [reflexivity|]. rewrite N.eqb_refl. exact IH. Qed.
Lemma labelled_ne label v name : name <> [] -> labelled label v name <> [].
Proof. unfold FgdLine.labelled. destruct label, name; congruence. Qed.
Lemma unlabel_labelled label v name : name <> [] -> lstrip (concat name) = concat name ->
  (label = false -> prefix (label_of v) (concat name) = None) -> unlabel v (concat (labelled label v name)) = concat name.
Proof.
  intros Hn Hl Hp. unfold FgdLine.unlabel, FgdLine.labelled. destruct label.
  - destruct name as [|x r]; [congruence|]. cbn [concat]. rewrite <- !app_assoc. cbn [app].
    rewrite prefix_app. change (32 :: x ++ concat r) with (32 :: concat (x :: r)).
    cbn [lstrip]. change (blankc 32) with true. cbn iota. exact Hl.
  - rewrite (Hp eq_refl). reflexivity.
Qed.
Lemma flag_step label custom it acc f rest : fiwf label it -> next_ok rest ->
  parse_array (S f) parse_flag acc (fitoks label custom it ++ TNl :: rest)
  = parse_array f parse_flag (acc ++ [fires custom it]) (TNl :: rest).
Proof.
  destruct it as [[[v name] d] tags]. intros [Hp [Hn [Hl [Hx Ht]]]] Hr. unfold fitoks, fires.
  cbn [app FgdLine.parse_array skip_nl]. unfold read_colon_list.
  rewrite <- app_assoc, (rcl_colon_str _ [] _ (labelled_ne label v name Hn)). cbn [app rcl].
  rewrite (rcl_before_tags _ custom tags rest (next_ok_ends _ Hr)), (opt_tags_written custom tags (TNl :: rest) Ht I).
  unfold FgdLine.parse_flag. rewrite undec_dec, Hp, (unlabel_labelled label v name Hn Hl Hx).
  destruct d; reflexivity.
Qed.

Lemma citoks_first custom it : ciwf it -> exists v r, citoks custom it = TStr v :: r.
Proof. destruct it as [[v name] tags]. intros _. unfold citoks. eauto. Qed.
Lemma fitoks_first label custom it : fiwf label it -> exists v r, fitoks label custom it = TStr v :: r.
Proof. destruct it as [[[v name] d] tags]. intros _. unfold fitoks. eauto. Qed.

(** Choices keyvalues: the line and its value list read back, every item with its value, display name and tags *)
Theorem kv_choices_roundtrip label custom (k : kvline) items rest :
  tags_wf (l_tags vt k) -> vt_is_flags (l_type vt k) = false -> vt_is_choices (l_type vt k) = true ->
  l_list vt k = Choices items -> Forall ciwf items ->
  l_disp vt k <> [] -> yes_no (l_type vt k) (default_written k) = default_written k ->
  kv_parse (l_name vt k) (tl (kv_toks label custom k) ++ rest)
  = Some (kv_norm custom k (Choices (map (cires custom) items)), TNl :: rest).
Proof.
  intros Ht Hf Hc Hl Hi Hd Hy. rewrite kv_toks_split. cbn [tl]. unfold list_toks. rewrite Hl.
  rewrite <- !app_assoc. rewrite head_read; [|exact Ht|unfold fields_toks; rewrite Hf; exact I].
  cbn [app]. rewrite (kv_rest_fields k _ TEq _ Hf Hd Hy (or_introl eq_refl)). cbn zeta. rewrite Hc.
  rewrite (map_ext _ _ (choice_toks_eq custom)). rewrite <- !app_assoc. cbn [app].
  rewrite (array_read _ _ parse_choice (citoks custom) (cires custom) ciwf (citoks_first custom)
             (choice_step custom) items _ Hi). reflexivity.
Qed.

(** Spawnflags keyvalues (no display name, default or description of their own) *)
Theorem kv_flags_roundtrip label custom (k : kvline) items rest :
  tags_wf (l_tags vt k) -> vt_is_flags (l_type vt k) = true -> vt_is_choices (l_type vt k) = false ->
  l_list vt k = Flags items -> Forall (fiwf label) items ->
  default_written k = [] -> concat (l_desc vt k) = [] ->
  kv_parse (l_name vt k) (tl (kv_toks label custom k) ++ rest)
  = Some (mk_kvl vt (l_name vt k) (seen_tags custom (l_tags vt k)) (l_type vt k) (l_ro vt k) (l_report vt k)
                 [l_name vt k] [] [[]] (Flags (map (fires custom) items)), TNl :: rest).
Proof.
  intros Ht Hf Hc Hl Hi Hd Hs. rewrite kv_toks_split. cbn [tl]. unfold list_toks, fields_toks. rewrite Hl, Hf, Hd, Hs.
  cbn [nil_b app]. rewrite <- !app_assoc. rewrite head_read; [|exact Ht|exact I].
  cbn [app]. unfold FgdLine.kv_rest. rewrite Hf, Hc, yes_no_nil.
  rewrite (map_ext _ _ (flag_toks_eq label custom)). rewrite <- !app_assoc. cbn [app].
  rewrite (array_read _ _ parse_flag (fitoks label custom) (fires custom) (fiwf label) (fitoks_first label custom)
             (flag_step label custom) items _ Hi). reflexivity.
Qed.

Local Notation io_toks := (io_toks vt io_text).
Local Notation io_parse := (io_parse tag_norm tags_valid vt io_lookup).
Theorem io_roundtrip custom (o : ioline vt) rest : tags_wf (o_tags vt o) -> ends_line rest ->
  io_parse (io_toks custom o ++ rest)
  = Some (mk_iol vt (o_name vt o) (seen_tags custom (o_tags vt o)) (io_decay (o_type vt o)) [concat (o_desc vt o)], rest).
Proof.
  intros Ht He. unfold FgdLine.io_toks, FgdLine.io_parse. cbn [app skip_nl].
  rewrite <- !app_assoc. cbn [app]. rewrite (opt_tags_written custom _ (TParen _ :: _) Ht I), io_lookup_text. unfold read_colon_list.
  destruct (nil_b (concat (o_desc vt o))) eqn:Ed.
  - apply nil_b_true in Ed. cbn [app]. rewrite (rcl_end_nl [] rest He), Ed. reflexivity.
  - cbn [app]. rewrite <- app_assoc. rewrite (rcl_colon_str _ [] _ (nil_b_concat_ne _ Ed)). cbn [app]. rewrite (rcl_end_nl _ rest He). reflexivity.
Qed.

Variable rt : Type.
Variable rt_text : rt -> str.
Variable rt_lookup : str -> option rt.
Hypothesis rt_lookup_text : forall t, rt_lookup (rt_text t) = Some t.
Local Notation res_toks := (res_toks cfg rt rt_text).
Local Notation res_loop := (res_loop tag_norm tags_valid rt rt_lookup).
Local Notation res_read := (res_read tag_norm tags_valid rt rt_lookup).
Local Notation res_item_toks := (res_item_toks rt rt_text).
Definition riwf (it : rt * str * list str) : Prop := tags_wf (snd it).

Lemma res_skip_nl g acc more : res_loop (S g) acc (TNl :: more) = res_loop g acc more.
Proof. reflexivity. Qed.
Lemma res_step_plain g acc t file more :
  res_loop (S g) acc (TStr (rt_text t) :: TStr file :: TNl :: more) = res_loop g (acc ++ [(t, file, [])]) more.
Proof. cbn [FgdLine.res_loop]. rewrite rt_lookup_text. reflexivity. Qed.
Lemma res_step_tags g acc t file tags more : Forall tag_ok tags -> tags_valid tags = true -> tags <> [] ->
  res_loop (S g) acc (TStr (rt_text t) :: TStr file :: TBrOpen :: tag_list_toks tags ++ TBrClose :: TNl :: more)
  = res_loop g (acc ++ [(t, file, tags)]) (TNl :: more).
Proof.
  intros Hok Hv Hne. cbn [FgdLine.res_loop]. rewrite rt_lookup_text. cbn [skip_nl]. unfold FgdLine.read_tags.
  rewrite (read_tag_list tags [] _ Hok Hne). cbn [app]. rewrite Hv. reflexivity.
Qed.

Lemma res_items items : forall acc f rest, Forall riwf items -> (2 * length items < f)%nat ->
  res_loop f acc (concat (map res_item_toks items) ++ TBrClose :: rest) = Some (acc ++ items, rest).
Proof.
  induction items as [|[[t file] tags] items IH]; intros acc f rest Hwf Hf.
  - destruct f; [cbn [length] in Hf; lia|]. cbn. rewrite app_nil_r. reflexivity.
  - inversion Hwf as [|? ? [Hok Hv] Hrest]; subst. cbn [snd] in Hok, Hv.
    destruct f as [|g]; [cbn [length] in Hf; lia|].
    cbn [map concat FgdLine.res_item_toks]. rewrite <- !app_assoc. cbn [app].
    destruct tags as [|tg tags].
    + cbn [tags_toks app]. rewrite res_step_plain.
      rewrite IH; [rewrite <- app_assoc; reflexivity|exact Hrest|cbn [length] in Hf; lia].
    + unfold tags_toks. cbn [app]. rewrite <- !app_assoc. cbn [app].
      rewrite (res_step_tags g acc t file (tg :: tags) _ Hok Hv) by discriminate.
      destruct g as [|g]; [cbn [length] in Hf; lia|]. rewrite res_skip_nl.
      rewrite IH; [rewrite <- app_assoc; reflexivity|exact Hrest|cbn [length] in Hf; lia].
Qed.

Lemma res_items_len items : (2 * length items <= length (concat (map res_item_toks items)))%nat.
Proof.
  induction items as [|[[t file] tags] items IH]; cbn [map concat length]; [lia|].
  unfold FgdLine.res_item_toks at 1. cbn [app length]. rewrite !app_length. cbn [length]. lia.
Qed.

(** what the entity loop reads from what EntityDef.export wrote for the resources (extended syntax), up to the
    entity's closing bracket: [None] (`resources == ()`, nothing written) stays undefined, a defined list — empty or
    not — comes back as that list *)
Theorem res_roundtrip res rest : res_block_if_defined cfg = true ->
  match res with Some l => Forall riwf l | None => True end ->
  res_read (res_toks true res ++ TBrClose :: rest)
  = Some (res, match res with Some _ => TNl :: TBrClose :: rest | None => TBrClose :: rest end).
Proof.
  intros Hc Hwf. destruct res as [l|]; [|reflexivity].
  unfold FgdLine.res_toks. rewrite Hc. cbn [andb orb app]. unfold FgdLine.res_read. cbn [skip_nl].
  change (str_eqb (lower AT_RESOURCES) AT_RESOURCES) with true. cbn iota.
  unfold FgdLine.res_parse. cbn [skip_nl]. rewrite res_skip_nl.
  rewrite <- app_assoc. cbn [app]. rewrite res_items; [reflexivity|exact Hwf|].
  cbn [length]. rewrite app_length. pose proof (res_items_len l). cbn [length]. lia.
Qed.
End Proofs.
