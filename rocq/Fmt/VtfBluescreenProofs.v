(** C15 — proofs about the bluescreen codecs (Fmt/VtfBluescreen.v). *)
From Coq Require Import NArith Arith List Bool Lia.
From SV Require Import Fmt.VtfPixelExpr Fmt.VtfPixelExprProofs Fmt.VtfBluescreen.
Import ListNotations.
Open Scope N_scope.

Lemma eval_eq_chain : forall rho x c k yes no,
  eval rho (eq_chain x c k yes no) = if agree (eval rho x) c k then eval rho yes else eval rho no.
Proof.
  intros rho x c k yes no. induction k as [|k IH]; [reflexivity|].
  cbn [eq_chain agree]. destruct (N.testbit c (N.of_nat k)) eqn:Ec; cbn [eval]; rewrite IH;
    destruct (N.testbit (eval rho x) (N.of_nat k)); cbn; reflexivity.
Qed.

(** the chain compares the low [k] bits; for numbers below 2^k that is all of them *)
Lemma agree_spec : forall v c k, agree v c k = true <-> forall i, i < N.of_nat k -> N.testbit v i = N.testbit c i.
Proof.
  intros v c k. induction k as [|k IH]; cbn [agree].
  - split; [intros _ i Hi; lia|reflexivity].
  - rewrite andb_true_iff, IH, eqb_true_iff. split.
    + intros [E H] i Hi. destruct (N.eq_dec i (N.of_nat k)) as [->|]; [exact E|apply H; lia].
    + intros H. split; [apply H; lia|intros i Hi; apply H; lia].
Qed.
Lemma agree_eqb : forall v c k, v < 2 ^ N.of_nat k -> c < 2 ^ N.of_nat k -> agree v c k = (v =? c).
Proof.
  intros v c k Hv Hc. apply eq_true_iff_eq. rewrite agree_spec, N.eqb_eq. split.
  - intros H. apply N.bits_inj. intros i. destruct (N.lt_ge_cases i (N.of_nat k)) as [Hi|Hi]; [exact (H i Hi)|].
    rewrite (lt_pow2_high v _ Hv i Hi), (lt_pow2_high c _ Hc i Hi). reflexivity.
  - intros -> i _. reflexivity.
Qed.

(** for a byte, [x < 128] is "bit 7 is clear" *)
Lemma testbit7 : forall a, a < 256 -> N.testbit a 7 = negb (a <? 128).
Proof.
  intros a Ha. destruct (N.testbit a 7) eqn:E; symmetry.
  - apply negb_true_iff, N.ltb_ge, N.le_ngt. intros H. rewrite (lt_pow2_high a 7 H 7 (N.le_refl 7)) in E. discriminate.
  - apply negb_false_iff, N.ltb_lt, (high_lt_pow2 a 7). intros i Hi.
    destruct (N.eq_dec i 7) as [->|]; [exact E|apply (lt_pow2_high a 8 Ha); lia].
Qed.

Lemma eval_is_key : forall rho c0 c1 c2 yes no, bytes rho -> c0 < 256 -> c1 < 256 -> c2 < 256 ->
  eval rho (is_key c0 c1 c2 yes no)
  = if (lookup rho 0 =? c0) && (lookup rho 1 =? c1) && (lookup rho 2 =? c2) then eval rho yes else eval rho no.
Proof.
  intros rho c0 c1 c2 yes no Hb H0 H1 H2. unfold is_key, eq_byte. rewrite !eval_eq_chain. cbn [eval].
  rewrite !(agree_eqb _ _ 8) by (try assumption; apply (lookup_byte rho _ Hb)).
  destruct (lookup rho 0 =? c0), (lookup rho 1 =? c1), (lookup rho 2 =? c2); reflexivity.
Qed.

Lemma exprs_eqb_eq : forall l1 l2, exprs_eqb l1 l2 = true -> l1 = l2.
Proof.
  induction l1 as [|a r IH]; intros [|b r2] H; cbn in H; try discriminate; [reflexivity|].
  apply andb_true_iff in H. destruct H as [H1 H2]. apply expr_eqb_eq in H1. apply IH in H2. now subst.
Qed.
Lemma codec_eqb_eq : forall c d, codec_eqb c d = true -> bpp c = bpp d /\ save_e c = save_e d /\ load_e c = load_e d.
Proof.
  intros c d H. unfold codec_eqb in H. apply andb_true_iff in H. destruct H as [H H3]. apply andb_true_iff in H. destruct H as [H1 H2].
  apply Nat.eqb_eq in H1. apply exprs_eqb_eq in H2, H3. auto.
Qed.

(** what [save] stores *)
Lemma bs_save_run : forall bgr r g b a, a < 256 ->
  run (bs_save bgr) [r; g; b; a] = in_order bgr (bluescreen_stored r g b a).
Proof.
  intros bgr r g b a Ha. unfold bs_save, run, bluescreen_stored, in_order.
  destruct bgr; cbn [map eval vA vR vG vB lookup nth]; rewrite (testbit7 a Ha); destruct (a <? 128); reflexivity.
Qed.

(** what [load] makes of three stored bytes (given in r, g, b order) *)
Lemma bs_load_run : forall bgr r g b, r < 256 -> g < 256 -> b < 256 ->
  run (bs_load bgr) (in_order bgr [r; g; b])
  = if (r =? 0) && (g =? 0) && (b =? 255) then [0; 0; 0; 0] else [r; g; b; 255].
Proof.
  intros bgr r g b Hr Hg Hb. unfold bs_load, run, in_order.
  destruct bgr; cbn [map rev app]; rewrite !eval_is_key by first [reflexivity | repeat constructor; assumption];
    cbn [eval lookup nth]; destruct (r =? 0), (g =? 0), (b =? 255); reflexivity.
Qed.

(** Load after save is the documented behaviour, three legal bytes are stored per pixel. *)
Theorem bs_load_of_save : forall bgr c, bs_ok bgr c = true ->
  forall r g b a, r < 256 -> g < 256 -> b < 256 -> a < 256 ->
    run (load_e c) (run (save_e c) [r; g; b; a]) = bluescreen_q r g b a
    /\ run (save_e c) [r; g; b; a] = in_order bgr (bluescreen_stored r g b a)
    /\ bytes (run (save_e c) [r; g; b; a]) /\ length (run (save_e c) [r; g; b; a]) = bpp c.
Proof.
  intros bgr c H r g b a Hr Hg Hb Ha. destruct (codec_eqb_eq _ _ H) as [E1 [E2 E3]]. rewrite E1, E2, E3. cbn [bs_codec bpp save_e load_e].
  rewrite (bs_save_run bgr r g b a Ha). unfold bluescreen_stored, bluescreen_q.
  destruct (a <? 128) eqn:Ea.
  - rewrite (bs_load_run bgr 0 0 255) by reflexivity. cbn. repeat split; try reflexivity.
    + destruct bgr; cbn; repeat constructor.
    + destruct bgr; reflexivity.
  - rewrite (bs_load_run bgr r g b Hr Hg Hb). repeat split; try reflexivity.
    + destruct bgr; cbn; repeat constructor; assumption.
    + destruct bgr; reflexivity.
Qed.

(** Storing loaded pixels again changes nothing: save(load d) = d for every three stored bytes. *)
Theorem bs_stored_fixpoint : forall bgr c, bs_ok bgr c = true ->
  forall r g b, r < 256 -> g < 256 -> b < 256 ->
    run (save_e c) (run (load_e c) (in_order bgr [r; g; b])) = in_order bgr [r; g; b].
Proof.
  intros bgr c H r g b Hr Hg Hb. destruct (codec_eqb_eq _ _ H) as [E1 [E2 E3]]. rewrite E2, E3. cbn [bs_codec save_e load_e].
  rewrite (bs_load_run bgr r g b Hr Hg Hb).
  destruct (N.eqb_spec r 0), (N.eqb_spec g 0), (N.eqb_spec b 255); cbn [andb];
    try (rewrite bs_save_run by reflexivity; unfold bluescreen_stored; cbn; reflexivity).
  subst. rewrite bs_save_run by reflexivity. reflexivity.
Qed.

Example bs_ok_inhabited : bs_ok false (bs_codec false) = true /\ bs_ok true (bs_codec true) = true /\ wf (bs_codec false) = true /\ wf (bs_codec true) = true.
Proof. vm_compute. repeat split; reflexivity. Qed.
