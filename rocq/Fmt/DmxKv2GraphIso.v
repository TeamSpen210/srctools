(** C14 — "the same graph" made explicit for the nested KeyValues2 layout.  Two graphs whose flat documents are
    permutations of each other are isomorphic: the map [sigma] that sends index [i] of [g] to the index in [g'] of the
    element with the same id is injective, and element [sigma i] of [g'] is element [i] of [g] with every element
    reference [j] replaced by [sigma j] — same type, id, name, attributes in order with their types and shapes, strings,
    NULL and stubs untouched.  The graph the fix-up pass of [parse_kv2] builds is a graph ([graph_ok]: references in range,
    unresolved ids stay stubs) whenever no id was registered twice.  Composed with the root rule / block tree / text
    theorems ([c14_property_kv2_iso] in Props/C14.v): the graph read back from the nested layout is isomorphic to the
    exported one, and the isomorphism fixes the exported element. *)
From Coq Require Import NArith List Bool Lia PeanoNat Permutation.
From SV Require Import Text.Str Fmt.DmxKv2 Fmt.DmxKv2Proofs Fmt.DmxKv2NestedProofs
  Fmt.DmxKv2Graph Fmt.DmxKv2GraphProofs Fmt.DmxKv2GraphUnique Fmt.DmxKv2GraphLink Fmt.DmxKv2GraphWhole.
Import ListNotations.
Open Scope nat_scope.

(** * Renumbering *)
Definition ren_item (s : nat -> nat) (it : gitem) : gitem :=
  match it with GRef (GElem i) => GRef (GElem (s i)) | _ => it end.
Definition ren_attr (s : nat -> nat) (a : gattr) : gattr :=
  {| ga_name := ga_name a; ga_type := ga_type a; ga_arr := ga_arr a; ga_items := map (ren_item s) (ga_items a) |}.
Definition ren_elem (s : nat -> nat) (e : gelem) : gelem :=
  {| ge_type := ge_type e; ge_id := ge_id e; ge_name := ge_name e; ge_attrs := map (ren_attr s) (ge_attrs e) |}.

(** [s] is an isomorphism from [g] onto [g']: same number of elements, injective on the indexes of [g], and element
    [s i] of [g'] is element [i] of [g] with its references renumbered by [s] *)
Definition graph_iso (s : nat -> nat) (g g' : gdoc) : Prop :=
  length g' = length g /\
  (forall i, i < length g -> s i < length g' /\ nth (s i) g' dflt_gelem = ren_elem s (nth i g dflt_gelem)) /\
  (forall i j, i < length g -> j < length g -> s i = s j -> i = j).

(** index of the first occurrence *)
Fixpoint idx (u : str) (l : list str) : nat :=
  match l with [] => 0 | x :: r => if str_eqb u x then 0 else S (idx u r) end.

(** the renumbering by id *)
Definition by_id (g g' : gdoc) (i : nat) : nat := idx (nth i (ids g) []) (ids g').

Lemma idx_in u l : In u l -> idx u l < length l /\ nth (idx u l) l [] = u.
Proof.
  induction l as [|x r IH]; intros H; [destruct H|]. cbn [idx]. destruct (str_eqb u x) eqn:E.
  - apply str_eqb_eq in E. subst x. cbn [length nth]. split; [lia|reflexivity].
  - destruct H as [H|H]; [subst x; rewrite str_eqb_refl in E; discriminate|].
    destruct (IH H) as [A B]. cbn [length nth]. split; [lia|exact B].
Qed.

Lemma ids_of_flatten (h : gdoc) : map id_text (flatten h) = ids h.
Proof. unfold flatten, ids. rewrite map_map. apply map_ext. intros e. reflexivity. Qed.

(** two lists with equal images, part by part determined by the other *)
Lemma map_eq_pointwise {A B C} (f : A -> C) (f' : B -> C) (h : A -> B) (P : A -> bool) (Q : B -> bool) :
  (forall x y, P x = true -> Q y = true -> f' y = f x -> y = h x) ->
  forall l l', forallb P l = true -> forallb Q l' = true -> map f' l' = map f l -> l' = map h l.
Proof.
  intros Hpt. induction l as [|x l IH]; intros [|y l'] Hl Hl' E; cbn [map] in E; try discriminate E; [reflexivity|].
  cbn [forallb] in Hl, Hl'. apply andb_prop in Hl. apply andb_prop in Hl'. destruct Hl as [Hx Hl]. destruct Hl' as [Hy Hl'].
  injection E as E1 E2. cbn [map]. f_equal; [now apply Hpt|now apply IH].
Qed.

(** * Graphs with permuted flat documents are isomorphic *)
Section Iso.
Variables g g' : gdoc.
Hypothesis Hg : graph_ok g = true.
Hypothesis Hg' : graph_ok g' = true.
Hypothesis Hp : Permutation (flatten g') (flatten g).

Notation s := (by_id g g').

Lemma ids_perm : Permutation (ids g') (ids g).
Proof. rewrite <- !ids_of_flatten. now apply Permutation_map. Qed.

Lemma nodup_g : NoDup (ids g).
Proof. exact (proj1 (graph_ok_parts g Hg)). Qed.
Lemma nodup_g' : NoDup (ids g').
Proof. exact (proj1 (graph_ok_parts g' Hg')). Qed.

Lemma s_spec i : i < length g -> s i < length g' /\ nth (s i) (ids g') [] = nth i (ids g) [].
Proof.
  intros Hi. assert (Hin : In (nth i (ids g) []) (ids g')).
  { apply (Permutation_in _ (Permutation_sym ids_perm)). apply nth_In. now rewrite ids_length. }
  destruct (idx_in _ _ Hin) as [A B]. rewrite ids_length in A. split; assumption.
Qed.

Lemma item_iso it it' : gitem_ok (ids g) it = true -> gitem_ok (ids g') it' = true ->
  flat_item (ids g') it' = flat_item (ids g) it -> it' = ren_item s it.
Proof.
  intros A B E. destruct it as [t|[k| |u]]; destruct it' as [t'|[k'| |u']]; cbn [flat_item] in E; try discriminate E.
  - injection E as ->. reflexivity.
  - (* element / element *)
    cbn [gitem_ok] in A, B. apply Nat.ltb_lt in A. apply Nat.ltb_lt in B. rewrite ids_length in A.
    injection E as E. destruct (s_spec k A) as [L N]. cbn [ren_item]. do 2 f_equal.
    apply (proj1 (NoDup_nth (ids g') []) nodup_g'); [assumption|now rewrite ids_length|]. now rewrite N.
  - (* element / stub: the id of an element of [g] is an id of [g'] *)
    exfalso. cbn [gitem_ok] in A, B. apply Nat.ltb_lt in A. injection E as E. apply negb_true_iff in B.
    assert (In u' (ids g')).
    { apply (Permutation_in _ (Permutation_sym ids_perm)). rewrite E. now apply nth_In. }
    apply existsb_str_in in H. congruence.
  - reflexivity.
  - (* stub / element *)
    exfalso. cbn [gitem_ok] in A, B. apply Nat.ltb_lt in B. injection E as E. apply negb_true_iff in A.
    assert (In u (ids g)).
    { apply (Permutation_in _ ids_perm). rewrite <- E. now apply nth_In. }
    apply existsb_str_in in H. congruence.
  - injection E as ->. reflexivity.
Qed.

Lemma attr_iso a a' : forallb (gitem_ok (ids g)) (ga_items a) = true -> forallb (gitem_ok (ids g')) (ga_items a') = true ->
  flat_attr (ids g') a' = flat_attr (ids g) a -> a' = ren_attr s a.
Proof.
  intros A B E. destruct a as [an at_ arr its]. destruct a' as [an' at_' arr' its']. unfold flat_attr in E. unfold ren_attr.
  cbn [ga_name ga_type ga_arr ga_items] in *. injection E as -> -> -> E. f_equal.
  exact (map_eq_pointwise _ _ _ _ _ item_iso its its' A B E).
Qed.

Definition attrs_okb (l : list str) (attrs : list gattr) : bool := forallb (fun a => forallb (gitem_ok l) (ga_items a)) attrs.

Lemma elem_iso e e' : attrs_okb (ids g) (ge_attrs e) = true -> attrs_okb (ids g') (ge_attrs e') = true ->
  flat_elem (ids g') e' = flat_elem (ids g) e -> e' = ren_elem s e.
Proof.
  intros A B E. destruct e as [ty id nm attrs]. destruct e' as [ty' id' nm' attrs']. unfold flat_elem in E. unfold ren_elem.
  cbn [ge_type ge_id ge_name ge_attrs] in *. injection E as -> -> -> E. f_equal.
  exact (map_eq_pointwise _ _ _ _ _ attr_iso attrs attrs' A B E).
Qed.

Lemma graph_ok_attrs (h : gdoc) e : graph_ok h = true -> In e h -> attrs_okb (ids h) (ge_attrs e) = true.
Proof.
  unfold graph_ok. intros H He. apply andb_prop in H. destruct H as [_ H]. rewrite forallb_forall in H. exact (H e He).
Qed.

Theorem perm_graph_iso : graph_iso s g g'.
Proof.
  split; [|split].
  - apply Permutation_length in Hp. unfold flatten in Hp. now rewrite !map_length in Hp.
  - intros i Hi. destruct (s_spec i Hi) as [L N]. split; [exact L|].
    assert (Hin : In (flat_elem (ids g) (nth i g dflt_gelem)) (flatten g')).
    { apply (Permutation_in _ (Permutation_sym Hp)). unfold flatten. apply in_map. now apply nth_In. }
    unfold flatten in Hin. apply in_map_iff in Hin. destruct Hin as [e' [E He']].
    destruct (In_nth g' e' dflt_gelem He') as [j [Lj Ej]].
    assert (Hid : ge_id e' = ge_id (nth i g dflt_gelem)).
    { apply (f_equal ke_id) in E. cbn [flat_elem ke_id] in E. now injection E. }
    assert (j = s i).
    { apply (proj1 (NoDup_nth (ids g') []) nodup_g'); [now rewrite ids_length|now rewrite ids_length|].
      rewrite N, !nth_ids, Ej. exact Hid. }
    subst j. rewrite Ej. apply elem_iso; [|now apply graph_ok_attrs|exact E].
    apply graph_ok_attrs; [exact Hg|now apply nth_In].
  - intros i j Hi Hj E. destruct (s_spec i Hi) as [_ Ni]. destruct (s_spec j Hj) as [_ Nj].
    apply (ids_inj g nodup_g i j Hi Hj). now rewrite <- Ni, <- Nj, E.
Qed.

End Iso.

(** the isomorphism fixes the exported element when the flat document of [g'] starts with it *)
Lemma by_id_head (g g' : gdoc) rest : flatten g' = flat_elem (ids g) (nth 0 g dflt_gelem) :: rest -> by_id g g' 0 = 0.
Proof.
  intros E. destruct g' as [|e' r]; [discriminate E|]. apply (f_equal (map id_text)) in E. unfold flatten in E.
  cbn [map id_text flat_elem ke_id] in E. injection E as E _.
  unfold by_id. rewrite nth_ids, <- E. unfold ids. cbn [map idx]. now rewrite str_eqb_refl.
Qed.

Lemma ren_item_id it : ren_item (fun i => i) it = it.
Proof. destruct it as [t|[k| |u]]; reflexivity. Qed.
Lemma ren_elem_id e : ren_elem (fun i => i) e = e.
Proof.
  destruct e as [ty id nm attrs]. unfold ren_elem. cbn [ge_type ge_id ge_name ge_attrs]. f_equal.
  rewrite <- (map_id attrs) at 2. apply map_ext. intros [an at_ arr its]. unfold ren_attr. cbn [ga_name ga_type ga_arr ga_items]. f_equal.
  rewrite <- (map_id its) at 2. apply map_ext. apply ren_item_id.
Qed.

(** * The graph the fix-up pass builds is a graph *)
Lemma last_index_none_inv u : forall l base, last_index u l base = None -> existsb (str_eqb u) l = false.
Proof.
  induction l as [|x r IH]; intros base H; [reflexivity|]. cbn [last_index] in H.
  destruct (last_index u r (S base)) as [j|] eqn:E; [discriminate|]. destruct (str_eqb u x) eqn:Ex; [discriminate|].
  cbn [existsb]. rewrite Ex. cbn [orb]. exact (IH (S base) E).
Qed.
Lemma link_item_ok l it : gitem_ok l (link_item l it) = true.
Proof.
  destruct it as [t| |u]; cbn [link_item gitem_ok]; try reflexivity.
  destruct (last_index u l 0) as [i|] eqn:E; cbn [gitem_ok].
  - apply Nat.ltb_lt. apply last_index_sound in E. lia.
  - apply negb_true_iff. exact (last_index_none_inv u l 0 E).
Qed.

Theorem link_graph_ok d g0 : link d = Some g0 -> NoDup (map id_text d) -> graph_ok g0 = true.
Proof.
  unfold link. destruct (all_ids d) as [l|] eqn:E; [|discriminate]. intros H Hn. injection H as <-.
  pose proof (all_ids_text d l E) as Hl.
  unfold graph_ok. rewrite map_map. cbn [ge_id]. change (map (fun x : kelem => match ke_id x with Some u => u | None => [] end) d) with (map id_text d).
  rewrite Hl. rewrite <- Hl at 1. rewrite (proj2 (nodup_str_iff _) Hn). cbn [andb].
  apply forallb_forall. intros e He. apply in_map_iff in He. destruct He as [k [<- _]]. cbn [ge_attrs].
  apply forallb_forall. intros a Ha. apply in_map_iff in Ha. destruct Ha as [ka [<- _]]. unfold link_attr. cbn [ga_items].
  apply forallb_forall. intros it Hit. apply in_map_iff in Hit. destruct Hit as [ki [<- _]]. apply link_item_ok.
Qed.

(** example: the graph read back from the nested text of [ex_graph] lists the elements in the order of the blocks
    (0, 2, 3, 1) and the renumbering by id is not the identity *)
Example iso_example :
  match nest_doc ex_graph (ex_isroot pinned_rootcfg ex_graph) false with
  | Some d => match link (unnest d) with
              | Some g' => (map (by_id ex_graph g') [0; 1; 2; 3], graph_ok g', negb (Nat.eqb (by_id ex_graph g' 1) 1))
              | None => ([], false, false)
              end
  | None => ([], false, false)
  end = ([0; 3; 1; 2], true, true).
Proof. vm_compute. reflexivity. Qed.

(** * An executable test of [graph_iso] (run by the check on the graphs the real parser returns) *)
Fixpoint list_eqb {A} (f : A -> A -> bool) (a b : list A) : bool :=
  match a, b with [], [] => true | x :: a', y :: b' => f x y && list_eqb f a' b' | _, _ => false end.
Definition gref_eqb (a b : gref) : bool :=
  match a, b with GElem i, GElem j => Nat.eqb i j | GNull, GNull => true | GStub u, GStub v => str_eqb u v | _, _ => false end.
Definition gitem_eqb (a b : gitem) : bool :=
  match a, b with GStr x, GStr y => str_eqb x y | GRef r, GRef q => gref_eqb r q | _, _ => false end.
Definition gattr_eqb (a b : gattr) : bool :=
  str_eqb (ga_name a) (ga_name b) && str_eqb (ga_type a) (ga_type b) && Bool.eqb (ga_arr a) (ga_arr b) && list_eqb gitem_eqb (ga_items a) (ga_items b).
Definition gelem_eqb (a b : gelem) : bool :=
  str_eqb (ge_type a) (ge_type b) && str_eqb (ge_id a) (ge_id b) && str_eqb (ge_name a) (ge_name b) && list_eqb gattr_eqb (ge_attrs a) (ge_attrs b).
Fixpoint nat_nodup (l : list nat) : bool :=
  match l with [] => true | x :: r => negb (existsb (Nat.eqb x) r) && nat_nodup r end.
Definition graph_iso_b (s : nat -> nat) (g g' : gdoc) : bool :=
  Nat.eqb (length g') (length g) &&
  forallb (fun i => Nat.ltb (s i) (length g') && gelem_eqb (nth (s i) g' dflt_gelem) (ren_elem s (nth i g dflt_gelem))) (seq 0 (length g)) &&
  nat_nodup (map s (seq 0 (length g))).

Lemma list_eqb_eq {A} (f : A -> A -> bool) : (forall x y, f x y = true -> x = y) -> forall a b, list_eqb f a b = true -> a = b.
Proof.
  intros Hf. induction a as [|x a IH]; intros [|y b] H; cbn [list_eqb] in H; try discriminate; [reflexivity|].
  apply andb_prop in H. destruct H as [H1 H2]. f_equal; [now apply Hf|now apply IH].
Qed.
Lemma gitem_eqb_eq a b : gitem_eqb a b = true -> a = b.
Proof.
  destruct a as [x|[i| |u]]; destruct b as [y|[j| |v]]; cbn [gitem_eqb gref_eqb]; intros H; try discriminate; try reflexivity.
  - apply str_eqb_eq in H. now subst.
  - apply Nat.eqb_eq in H. now subst.
  - apply str_eqb_eq in H. now subst.
Qed.
Lemma gattr_eqb_eq a b : gattr_eqb a b = true -> a = b.
Proof.
  destruct a as [n t r l]; destruct b as [n' t' r' l']. unfold gattr_eqb. cbn [ga_name ga_type ga_arr ga_items]. intros H.
  rewrite !andb_true_iff in H. destruct H as [[[H1 H2] H3] H4].
  apply str_eqb_eq in H1. apply str_eqb_eq in H2. apply Bool.eqb_prop in H3. apply (list_eqb_eq _ gitem_eqb_eq) in H4. now subst.
Qed.
Lemma gelem_eqb_eq a b : gelem_eqb a b = true -> a = b.
Proof.
  destruct a as [t i n l]; destruct b as [t' i' n' l']. unfold gelem_eqb. cbn [ge_type ge_id ge_name ge_attrs]. intros H.
  rewrite !andb_true_iff in H. destruct H as [[[H1 H2] H3] H4].
  apply str_eqb_eq in H1. apply str_eqb_eq in H2. apply str_eqb_eq in H3. apply (list_eqb_eq _ gattr_eqb_eq) in H4. now subst.
Qed.
Lemma nat_nodup_NoDup l : nat_nodup l = true -> NoDup l.
Proof.
  induction l as [|x l IH]; intros H; [constructor|]. cbn [nat_nodup] in H. apply andb_prop in H. destruct H as [Hx Hl].
  constructor; [|now apply IH]. intros Hin. apply negb_true_iff in Hx.
  assert (existsb (Nat.eqb x) l = true) by (apply existsb_exists; exists x; split; [assumption|apply Nat.eqb_refl]). congruence.
Qed.

Theorem graph_iso_b_sound s g g' : graph_iso_b s g g' = true -> graph_iso s g g'.
Proof.
  unfold graph_iso_b. intros H. apply andb_prop in H. destruct H as [H H3]. apply andb_prop in H. destruct H as [H1 H2].
  apply Nat.eqb_eq in H1. rewrite forallb_forall in H2. apply nat_nodup_NoDup in H3. split; [exact H1|split].
  - intros i Hi. specialize (H2 i). rewrite in_seq in H2. specialize (H2 ltac:(lia)). apply andb_prop in H2. destruct H2 as [A B].
    apply Nat.ltb_lt in A. apply gelem_eqb_eq in B. split; assumption.
  - intros i j Hi Hj E.
    assert (Li : i < length (map s (seq 0 (length g)))) by (now rewrite map_length, seq_length).
    assert (Lj : j < length (map s (seq 0 (length g)))) by (now rewrite map_length, seq_length).
    apply (proj1 (NoDup_nth (map s (seq 0 (length g))) 0) H3 i j Li Lj).
    rewrite !(nth_indep _ 0 (s 0)) by assumption. rewrite !map_nth, !seq_nth by assumption. exact E.
Qed.

Example graph_iso_b_example :
  match nest_doc ex_graph (ex_isroot pinned_rootcfg ex_graph) false with
  | Some d => match link (unnest d) with Some g' => graph_iso_b (by_id ex_graph g') ex_graph g' | None => false end
  | None => false
  end = true /\
  (* a reference redirected to another element is not an isomorphic graph *)
  graph_iso_b (by_id ex_shared ex_shared) ex_shared ex_shared = true /\
  graph_iso_b (by_id ex_shared [nth 0 ex_shared dflt_gelem; {| ge_type := [85%N]; ge_id := [98%N]; ge_name := [];
      ge_attrs := [ {| ga_name := [107%N]; ga_type := s_element; ga_arr := false; ga_items := [GRef (GElem 0)] |} ] |}])
    ex_shared [nth 0 ex_shared dflt_gelem; {| ge_type := [85%N]; ge_id := [98%N]; ge_name := [];
      ge_attrs := [ {| ga_name := [107%N]; ga_type := s_element; ga_arr := false; ga_items := [GRef (GElem 0)] |} ] |}] = false.
Proof. vm_compute. repeat split. Qed.
