(* ScenesImageProofs.v -- properties of the scenes.image container model. *)

From Coq Require Import List NArith Lia Bool Sorted Permutation.
From SV Require Import Fmt.ScenesImage Fmt.ScenesImageCfg.
Import ListNotations.
Local Open Scope N_scope.

(** * Generic list facts *)

Lemma skipn_app_exact {A : Type} (a b : list A) : skipn (length a) (a ++ b) = b.
Proof. induction a as [|x a IH]; cbn [length app skipn]; auto. Qed.

Lemma firstn_app_exact {A : Type} (a b : list A) : firstn (length a) (a ++ b) = a.
Proof. induction a as [|x a IH]; cbn [length app firstn]; f_equal; auto. Qed.

Lemma skipn_add {A : Type} (n m : nat) (l : list A) :
  skipn (n + m) l = skipn m (skipn n l).
Proof.
  revert l; induction n as [|n IH]; intros l.
  - reflexivity.
  - destruct l as [|x l]; cbn [Nat.add skipn].
    + destruct m; reflexivity.
    + apply IH.
Qed.

Lemma lenN_nil {A : Type} : lenN (@nil A) = 0.
Proof. reflexivity. Qed.

Lemma lenN_cons {A : Type} (x : A) (l : list A) : lenN (x :: l) = 1 + lenN l.
Proof. unfold lenN. cbn [length]. lia. Qed.

Lemma lenN_app {A : Type} (a b : list A) : lenN (a ++ b) = lenN a + lenN b.
Proof. unfold lenN. rewrite app_length. lia. Qed.

Lemma to_nat_lenN {A : Type} (l : list A) : N.to_nat (lenN l) = length l.
Proof. unfold lenN. apply Nat2N.id. Qed.

Lemma seek_eq (file : list N) (off : N) : seek file off = skipn (N.to_nat off) file.
Proof.
  unfold seek, lenN.
  destruct (N.leb_spec off (N.of_nat (length file))); [reflexivity|].
  symmetry; apply skipn_all2; lia.
Qed.

Lemma take_eq (n : N) (l : list N) : take n l = firstn (N.to_nat n) l.
Proof.
  unfold take, lenN.
  destruct (N.leb_spec n (N.of_nat (length l))); [reflexivity|].
  symmetry; apply firstn_all2; lia.
Qed.

Lemma take_ok (b r : list N) : take (lenN b) (b ++ r) = b.
Proof. rewrite take_eq, to_nat_lenN. apply firstn_app_exact. Qed.

(** Moving a cursor over a known segment. *)
Lemma skipn_advance (file : list N) (off off' : N) (a rest : list N) :
  skipn (N.to_nat off) file = a ++ rest ->
  off' = off + lenN a ->
  skipn (N.to_nat off') file = rest.
Proof.
  intros H ->. rewrite N2Nat.inj_add, to_nat_lenN, skipn_add, H.
  apply skipn_app_exact.
Qed.

Lemma skipn_lenN_le (file : list N) (n : nat) (a b : list N) :
  skipn n file = a ++ b -> lenN a <= lenN file.
Proof.
  intros H. apply (f_equal (@length N)) in H.
  rewrite skipn_length, app_length in H. unfold lenN. lia.
Qed.

Lemma mapM_ext_Forall2 {A B : Type} (f : A -> option B) (l : list A) (r : list B) :
  Forall2 (fun a b => f a = Some b) l r -> mapM f l = Some r.
Proof.
  induction 1 as [|a b l r Hab _ IH]; cbn [mapM]; [reflexivity|].
  rewrite Hab, IH. reflexivity.
Qed.

(** * Little-endian integers *)

Lemma le32_arith (n : N) :
  n < 4294967296 ->
  n mod 256 + 256 * ((n / 256) mod 256) + 65536 * ((n / 65536) mod 256)
  + 16777216 * ((n / 16777216) mod 256) = n.
Proof.
  intros H. change 65536 with (256 * 256). change 16777216 with (256 * 256 * 256). rewrite <- !N.div_div by lia.
  rewrite (N.mod_small (n / 256 / 256 / 256)) by (rewrite !N.div_div by lia; apply N.div_lt_upper_bound; lia).
  (* linear once the quotients and remainders are read as unknowns *)
  pose proof (N.div_mod' n 256). pose proof (N.div_mod' (n / 256) 256). pose proof (N.div_mod' (n / 256 / 256) 256). lia.
Qed.

Lemma le32_length (n : N) : length (le32 n) = 4%nat.
Proof. reflexivity. Qed.

Lemma lenN_le32 (n : N) : lenN (le32 n) = 4.
Proof. reflexivity. Qed.

Lemma le32_bytes (n : N) : Forall (fun b => b < 256) (le32 n).
Proof. unfold le32. repeat constructor; apply N.mod_lt; lia. Qed.

Lemma rd32_le32 (n : N) (r : list N) :
  n < 4294967296 -> rd32 (le32 n ++ r) = Some (n, r).
Proof.
  intros H. unfold le32. cbn [app]. unfold rd32.
  rewrite (le32_arith n H). reflexivity.
Qed.

Theorem le32_de32 (n : N) (rest : list N) :
  n < 2 ^ 32 -> de32 (le32 n ++ rest) = Some n.
Proof.
  change (2 ^ 32) with 4294967296. intros H. unfold de32. rewrite rd32_le32 by assumption.
  reflexivity.
Qed.

Lemma de32_short (b : list N) : (length b < 4)%nat -> de32 b = None.
Proof.
  intros H. do 4 (destruct b as [|? b]; [reflexivity|]).
  cbn [length] in H. lia.
Qed.

(** From here on [le32] is handled through the lemmas above only. *)
Arguments le32 : simpl never.

Lemma lenN_flat_le32 (xs : list N) : lenN (flat_map le32 xs) = 4 * lenN xs.
Proof.
  induction xs as [|x xs IH]; [reflexivity|].
  cbn [flat_map]. rewrite lenN_app, lenN_cons, IH, lenN_le32. lia.
Qed.

Lemma read_ints_ok (xs r : list N) :
  Forall (fun x => x < 4294967296) xs ->
  read_ints (length xs) (flat_map le32 xs ++ r) = Some xs.
Proof.
  induction 1 as [|x xs Hx _ IH]; cbn [length flat_map read_ints]; [reflexivity|].
  rewrite <- app_assoc, rd32_le32 by assumption. cbv beta iota.
  rewrite IH. reflexivity.
Qed.

(** * The sort

    [sort_by_crc] is the stable insertion sort [sort_by] of ScenesImageCfg.v at the key [e_crc]; what is needed of
    either is proved once, for any key. *)

Lemma StronglySorted_map {A B : Type} (f : A -> B) (R : B -> B -> Prop) (l : list A) :
  StronglySorted (fun a b => R (f a) (f b)) l -> StronglySorted R (map f l).
Proof.
  induction 1 as [|a l Hs IH Ha]; cbn [map]; constructor; [exact IH|].
  apply Forall_map. exact Ha.
Qed.

Section Sort.
  Context {A : Type} (key : A -> N).
  Definition key_le (a b : A) : Prop := key a <= key b.

  Lemma insert_by_perm x l : Permutation (x :: l) (insert_by key x l).
  Proof.
    induction l as [|h t IH]; cbn [insert_by]; [apply Permutation_refl|].
    destruct (key x <=? key h); [apply Permutation_refl|].
    eapply perm_trans; [apply perm_swap|]. apply perm_skip. exact IH.
  Qed.

  Lemma sort_by_perm l : Permutation l (sort_by key l).
  Proof.
    induction l as [|x t IH]; [apply perm_nil|]. cbn [sort_by fold_right].
    eapply perm_trans; [apply perm_skip; exact IH|]. apply insert_by_perm.
  Qed.

  Lemma insert_by_sorted x l : StronglySorted key_le l -> StronglySorted key_le (insert_by key x l).
  Proof.
    induction 1 as [|h t Hs IH Hh]; cbn [insert_by].
    - constructor; constructor.
    - destruct (N.leb_spec (key x) (key h)) as [Hle|Hlt].
      + constructor; [constructor; assumption|]. constructor; [exact Hle|].
        eapply Forall_impl; [|exact Hh]. unfold key_le. intros a Ha. lia.
      + constructor; [exact IH|].
        eapply Permutation_Forall; [apply insert_by_perm|]. constructor; [unfold key_le; lia|exact Hh].
  Qed.

  Lemma sort_by_sorted l : StronglySorted key_le (sort_by key l).
  Proof. induction l as [|x t IH]; [constructor|]. cbn [sort_by fold_right]. apply insert_by_sorted. exact IH. Qed.

  Lemma sort_by_keys_sorted l : StronglySorted N.le (map key (sort_by key l)).
  Proof. apply StronglySorted_map. apply sort_by_sorted. Qed.

  (** two sorted lists with the same distinct keys are the same list *)
  Lemma sorted_perm_unique : forall l1 l2, StronglySorted key_le l1 -> StronglySorted key_le l2 ->
    NoDup (map key l1) -> Permutation l1 l2 -> l1 = l2.
  Proof.
    induction l1 as [|a l1 IH]; intros l2 S1 S2 ND P.
    - apply Permutation_nil in P. subst. reflexivity.
    - destruct l2 as [|b l2]; [apply Permutation_sym, Permutation_nil in P; discriminate|].
      inversion S1 as [|? ? S1' F1]; subst. inversion S2 as [|? ? S2' F2]; subst.
      cbn [map] in ND. inversion ND as [|? ? Hnin ND']; subst.
      assert (Hab : a = b).
      { assert (Ia : In a (b :: l2)) by (eapply Permutation_in; [exact P|left; reflexivity]).
        assert (Ib : In b (a :: l1)) by (eapply Permutation_in; [apply Permutation_sym; exact P|left; reflexivity]).
        destruct Ia as [E|Ia]; [symmetry; exact E|]. destruct Ib as [E|Ib]; [exact E|].
        rewrite Forall_forall in F1, F2. pose proof (F1 _ Ib) as L1. pose proof (F2 _ Ia) as L2.
        unfold key_le in *. assert (K : key a = key b) by lia.
        exfalso. apply Hnin. rewrite K. apply in_map. exact Ib. }
      subst b. f_equal. apply IH; try assumption. eapply Permutation_cons_inv; exact P.
  Qed.

  Lemma sort_by_perm_unique l1 l2 : Permutation l1 l2 -> NoDup (map key l1) -> sort_by key l1 = sort_by key l2.
  Proof.
    intros P ND. apply sorted_perm_unique; try apply sort_by_sorted.
    - eapply Permutation_NoDup; [|exact ND]. apply Permutation_map, sort_by_perm.
    - eapply perm_trans; [apply Permutation_sym, sort_by_perm|]. eapply perm_trans; [exact P|apply sort_by_perm].
  Qed.
End Sort.

(** sorting commutes with a map that preserves the key *)
Lemma sort_by_map {A B : Type} (f : A -> B) (kb : B -> N) (ka : A -> N) :
  (forall a, kb (f a) = ka a) -> forall l, sort_by kb (map f l) = map f (sort_by ka l).
Proof.
  intros H. induction l as [|x t IH]; [reflexivity|]. cbn [map sort_by fold_right].
  fold (sort_by kb (map f t)) (sort_by ka t). rewrite IH. clear IH.
  induction (sort_by ka t) as [|h r IH]; cbn [map insert_by]; [reflexivity|].
  rewrite !H. destruct (ka x <=? ka h); cbn [map]; [reflexivity|]. rewrite IH. reflexivity.
Qed.

Lemma insert_by_crc e l : insert_by e_crc e l = insert_crc e l.
Proof. induction l as [|h t IH]; cbn [insert_by insert_crc]; [reflexivity|]. rewrite IH. reflexivity. Qed.

Lemma sort_by_crc_eq es : sort_by e_crc es = sort_by_crc es.
Proof.
  induction es as [|e t IH]; [reflexivity|]. cbn [sort_by sort_by_crc fold_right].
  fold (sort_by e_crc t) (sort_by_crc t). rewrite IH. apply insert_by_crc.
Qed.

Theorem sort_by_crc_perm (es : list entry) : Permutation es (sort_by_crc es).
Proof. rewrite <- sort_by_crc_eq. apply sort_by_perm. Qed.

Theorem sort_by_crc_strongly_sorted (es : list entry) :
  StronglySorted (fun a b => e_crc a <= e_crc b) (sort_by_crc es).
Proof. rewrite <- sort_by_crc_eq. apply (sort_by_sorted e_crc). Qed.

Theorem sort_by_crc_sorted (es : list entry) :
  Sorted (fun a b => e_crc a <= e_crc b) (sort_by_crc es).
Proof. apply StronglySorted_Sorted, sort_by_crc_strongly_sorted. Qed.

Lemma sort_by_crc_length (es : list entry) :
  length (sort_by_crc es) = length es.
Proof. symmetry. apply Permutation_length, sort_by_crc_perm. Qed.

(** Stability: entries with equal crc keep their relative order. *)
Lemma insert_crc_filter (c : N) (e : entry) (l : list entry) :
  filter (fun x => e_crc x =? c) (insert_crc e l)
  = filter (fun x => e_crc x =? c) (e :: l).
Proof.
  induction l as [|h t IH]; [reflexivity|].
  cbn [insert_crc].
  destruct (N.leb_spec (e_crc e) (e_crc h)) as [Hle|Hlt]; [reflexivity|].
  cbn [filter] in *. rewrite IH.
  destruct (N.eqb_spec (e_crc h) c), (N.eqb_spec (e_crc e) c);
    try reflexivity.
  lia.
Qed.

Theorem sort_by_crc_stable (c : N) (es : list entry) :
  filter (fun x => e_crc x =? c) (sort_by_crc es)
  = filter (fun x => e_crc x =? c) es.
Proof.
  induction es as [|e t IH]; [reflexivity|].
  cbn [sort_by_crc fold_right]. rewrite insert_crc_filter.
  cbn [filter]. fold (sort_by_crc t). rewrite IH. reflexivity.
Qed.

(** * Reader lemmas, one per section of the file *)

(** ** The string pool *)

Lemma scan0_ok (s r : list N) :
  Forall (fun b => b <> 0) s ->
  forall fuel, (length s < fuel)%nat -> scan0 fuel (s ++ 0 :: r) = Some s.
Proof.
  induction 1 as [|b s Hb _ IH]; intros fuel Hf;
    (destruct fuel as [|fuel]; [cbn [length] in Hf; lia|]);
    cbn [app scan0 length] in *.
  - reflexivity.
  - destruct (N.eqb_spec b 0) as [E|_]; [contradiction|].
    rewrite IH by lia. reflexivity.
Qed.

Lemma lenN_str_bytes (s : list N) : lenN (str_bytes s) = lenN s + 1.
Proof. unfold str_bytes. rewrite lenN_app. reflexivity. Qed.

Lemma str_offsets_length (pool : list (list N)) :
  forall start, length (str_offsets start pool) = length pool.
Proof.
  induction pool as [|s t IH]; intros start; cbn [str_offsets length]; auto.
Qed.

Lemma lenN_str_offsets (pool : list (list N)) (start : N) :
  lenN (str_offsets start pool) = lenN pool.
Proof. unfold lenN. rewrite str_offsets_length. reflexivity. Qed.

Lemma str_offsets_bound (pool : list (list N)) :
  forall start bound,
    start + lenN (flat_map str_bytes pool) < bound ->
    Forall (fun o => o < bound) (str_offsets start pool).
Proof.
  induction pool as [|s t IH]; intros start bound H;
    cbn [str_offsets flat_map] in *; constructor.
  - lia.
  - apply IH. rewrite lenN_app in H. lia.
Qed.

Lemma read_strs_ok (file : list N) (pool : list (list N)) :
  forall start R,
    Forall str_ok pool ->
    0 < start ->
    skipn (N.to_nat start) file = flat_map str_bytes pool ++ R ->
    mapM (read_str file) (str_offsets start pool) = Some pool.
Proof.
  induction pool as [|s t IH]; intros start R Hok Hpos Hsk; [reflexivity|].
  cbn [str_offsets mapM flat_map] in *.
  pose proof (Forall_inv Hok) as Hs. pose proof (Forall_inv_tail Hok) as Ht.
  rewrite <- app_assoc in Hsk.
  assert (read_str file start = Some s) as ->.
  { unfold read_str. destruct (N.eqb_spec start 0) as [E|_]; [lia|].
    rewrite seek_eq, Hsk. unfold str_bytes. rewrite <- app_assoc. cbn [app].
    apply scan0_ok.
    - unfold str_ok in Hs. eapply Forall_impl; [|exact Hs].
      cbv beta. intros a Ha. lia.
    - apply (f_equal (@length N)) in Hsk. rewrite skipn_length in Hsk.
      unfold str_bytes in Hsk. rewrite !app_length in Hsk.
      cbn [length] in Hsk. lia. }
  rewrite (IH (start + lenN (str_bytes s)) R); [reflexivity|exact Ht|lia|].
  eapply skipn_advance; [exact Hsk|reflexivity].
Qed.

(** ** The entry table *)

Definition rec_ok (r : rawrec) : Prop :=
  let '(c, d, s, o) := r in
  c < 4294967296 /\ d < 4294967296 /\ s < 4294967296 /\ o < 4294967296.

Lemma lenN_rec_bytes (r : rawrec) : lenN (rec_bytes r) = 16.
Proof. destruct r as [[[c d] s] o]. reflexivity. Qed.

Lemma lenN_flat_rec_bytes (rs : list rawrec) :
  lenN (flat_map rec_bytes rs) = 16 * lenN rs.
Proof.
  induction rs as [|r rs IH]; [reflexivity|].
  cbn [flat_map]. rewrite lenN_app, lenN_cons, IH, lenN_rec_bytes. lia.
Qed.

Lemma read_recs_ok (rs : list rawrec) (r : list N) :
  Forall rec_ok rs ->
  read_recs (length rs) (flat_map rec_bytes rs ++ r) = Some rs.
Proof.
  induction 1 as [|[[[c d] s] o] rs (Hc & Hd & Hs & Ho) _ IH];
    cbn [length flat_map read_recs rec_bytes]; [reflexivity|].
  rewrite <- !app_assoc.
  do 4 (rewrite rd32_le32 by assumption; cbv beta iota).
  rewrite IH. reflexivity.
Qed.

Lemma recs_length (v : N) (es : list entry) :
  forall soff doff, length (recs v es soff doff) = length es.
Proof.
  induction es as [|e t IH]; intros soff doff; cbn [recs length]; auto.
Qed.

Lemma lenN_recs (v : N) (es : list entry) (soff doff : N) :
  lenN (recs v es soff doff) = lenN es.
Proof. unfold lenN. rewrite recs_length. reflexivity. Qed.

Lemma recs_ok (v : N) (es : list entry) :
  forall soff doff,
    Forall (fun e => e_crc e < 4294967296) es ->
    soff + lenN (flat_map (summary v) es) < 4294967296 ->
    doff + lenN (flat_map e_blob es) < 4294967296 ->
    Forall rec_ok (recs v es soff doff).
Proof.
  induction es as [|e t IH]; intros soff doff Hc Hs Hd;
    cbn [recs flat_map] in *; constructor; rewrite lenN_app in *.
  - pose proof (Forall_inv Hc) as Hc0. cbv beta in Hc0.
    unfold rec_ok. repeat split; lia.
  - apply IH; [exact (Forall_inv_tail Hc)|lia|lia].
Qed.

Lemma map_crc_recs (v : N) (es : list entry) :
  forall soff doff,
    map (fun r : rawrec => let '(c, _, _, _) := r in c) (recs v es soff doff)
    = map e_crc es.
Proof.
  induction es as [|e t IH]; intros soff doff; cbn [recs map]; [reflexivity|].
  rewrite IH. reflexivity.
Qed.

(** ** Summaries, blobs *)

Lemma lenN_summary (v : N) (e : entry) :
  lenN (summary v e)
  = 8 + (if v =? 3 then 4 else 0) + 4 * lenN (e_sounds e).
Proof.
  unfold summary. rewrite !lenN_app, lenN_flat_le32, !lenN_le32.
  destruct (v =? 3); [rewrite lenN_le32|rewrite lenN_nil]; lia.
Qed.

Lemma read_summary_ok (v : N) (e : entry) (r : list N) :
  e_dur e < 4294967296 ->
  e_last e < 4294967296 ->
  Forall (fun i => i < 4294967296) (e_sounds e) ->
  lenN (e_sounds e) < 4294967296 ->
  read_summary v (summary v e ++ r)
  = Some (e_dur e, (if v =? 3 then e_last e else e_dur e), e_sounds e).
Proof.
  intros Hd Hl Hs Hn. unfold read_summary, summary.
  assert (Hcnt : (lenN (e_sounds e) <=? lenN (flat_map le32 (e_sounds e) ++ r)) = true)
    by (apply N.leb_le; rewrite lenN_app, lenN_flat_le32; lia).
  (* the two versions differ by one field; what follows it is read the same way *)
  destruct (v =? 3); cbn [app]; rewrite <- !app_assoc;
    repeat (rewrite rd32_le32 by assumption; cbv beta iota);
    rewrite Hcnt, to_nat_lenN, read_ints_ok by assumption; reflexivity.
Qed.

Lemma lookup_all_ok (pool : list (list N)) (idx : list N) :
  Forall (fun i => i < lenN pool) idx ->
  mapM (lookup pool) idx = Some (map (fun i => nth (N.to_nat i) pool []) idx).
Proof.
  induction 1 as [|i idx Hi _ IH]; cbn [mapM map]; [reflexivity|].
  unfold lookup at 1. destruct (N.ltb_spec i (lenN pool)); [|lia].
  rewrite IH. reflexivity.
Qed.

Lemma read_entry_ok (file : list N) (v : N) (pool : list (list N)) (e : entry)
    (soff doff : N) (Bs R : list N) :
  entry_ok (lenN pool) e ->
  lenN file < 4294967296 ->
  lenN pool < 4294967296 ->
  doff < 2147483648 ->
  skipn (N.to_nat soff) file = summary v e ++ Bs ->
  skipn (N.to_nat doff) file = e_blob e ++ R ->
  read_entry file v pool (e_crc e, doff, lenN (e_blob e), soff)
  = Some (to_pentry v pool e).
Proof.
  intros (Hc & Hd & Hl & Hs) Hf Hp Hdo Hsum Hblob.
  unfold read_entry. cbv beta iota.
  rewrite seek_eq, Hsum.
  rewrite read_summary_ok; try assumption.
  - cbv beta iota. rewrite (lookup_all_ok pool (e_sounds e) Hs).
    destruct (N.leb_spec 2147483648 doff) as [Hbad|_]; [lia|].
    rewrite seek_eq, Hblob, take_ok. reflexivity.
  - eapply Forall_impl; [|exact Hs]. cbv beta. intros a Ha. lia.
  - pose proof (skipn_lenN_le _ _ _ _ Hsum) as Hle.
    rewrite lenN_summary in Hle. lia.
Qed.

Lemma read_entries_ok (file : list N) (v : N) (pool : list (list N)) (es : list entry) :
  forall soff doff Bs R,
    Forall (entry_ok (lenN pool)) es ->
    lenN file < 4294967296 ->
    lenN pool < 4294967296 ->
    doff + lenN (flat_map e_blob es) < 2147483648 ->
    skipn (N.to_nat soff) file = flat_map (summary v) es ++ Bs ->
    skipn (N.to_nat doff) file = flat_map e_blob es ++ R ->
    mapM (read_entry file v pool) (recs v es soff doff)
    = Some (map (to_pentry v pool) es).
Proof.
  induction es as [|e t IH]; intros soff doff Bs R Hok Hf Hp Hdo Hsum Hblob;
    [reflexivity|].
  cbn [recs mapM map flat_map] in *.
  rewrite lenN_app in Hdo.
  rewrite <- app_assoc in Hsum, Hblob.
  rewrite (read_entry_ok file v pool e soff doff _ _
             (Forall_inv Hok) Hf Hp ltac:(lia) Hsum Hblob).
  rewrite (IH _ _ Bs R (Forall_inv_tail Hok) Hf Hp).
  - reflexivity.
  - lia.
  - eapply skipn_advance; [exact Hsum|reflexivity].
  - eapply skipn_advance; [exact Hblob|reflexivity].
Qed.

(** ** Header *)

Lemma lenN_sec_header (v a b c : N) : lenN (sec_header v a b c) = 20.
Proof. reflexivity. Qed.

Lemma parse_header_ok (v a b c : N) (r : list N) :
  v < 4294967296 -> a < 4294967296 -> b < 4294967296 -> c < 4294967296 ->
  parse_header (sec_header v a b c ++ r) = Some (v, a, b, c, r).
Proof.
  intros Hv Ha Hb Hc. unfold sec_header, magic.
  rewrite <- !app_assoc. cbn [app]. unfold parse_header.
  change ((86 =? 86) && (83 =? 83) && (73 =? 73) && (70 =? 70)) with true.
  cbv beta iota.
  do 4 (rewrite rd32_le32 by assumption; cbv beta iota).
  reflexivity.
Qed.

(** * The whole file *)

(** The writer after sorting. *)
Definition layout (v : N) (pool : list (list N)) (l : list entry) : list N :=
  let npool := lenN pool in
  let nent := lenN l in
  let strs := flat_map str_bytes pool in
  let str_start := 20 + 4 * npool in
  let scene_off := str_start + lenN strs in
  let sums := flat_map (summary v) l in
  let blobs := flat_map e_blob l in
  let soff := scene_off + 16 * nent in
  let doff := soff + lenN sums in
  sec_header v nent npool scene_off
  ++ flat_map le32 (str_offsets str_start pool)
  ++ strs
  ++ flat_map rec_bytes (recs v l soff doff)
  ++ sums
  ++ blobs.

Lemma img_write_layout (v : N) (pool : list (list N)) (es : list entry) :
  img_write v pool es = layout v pool (sort_by_crc es).
Proof. reflexivity. Qed.

Lemma lenN_layout (v : N) (pool : list (list N)) (l : list entry) :
  lenN (layout v pool l)
  = 20 + 4 * lenN pool + lenN (flat_map str_bytes pool) + 16 * lenN l
    + lenN (flat_map (summary v) l) + lenN (flat_map e_blob l).
Proof.
  unfold layout. cbv zeta.
  rewrite !lenN_app, lenN_sec_header, lenN_flat_le32, lenN_flat_rec_bytes.
  rewrite lenN_str_offsets, lenN_recs. lia.
Qed.

Lemma parse_layout (v : N) (pool : list (list N)) (l : list entry) :
  (v = 2 \/ v = 3) ->
  Forall str_ok pool ->
  Forall (entry_ok (lenN pool)) l ->
  lenN (layout v pool l) < 2147483648 ->
  img_parse (layout v pool l) = Some (v, pool, map (to_pentry v pool) l).
Proof.
  intros Hv Hpool Hes Hlen.
  rewrite lenN_layout in Hlen.
  remember (layout v pool l) as file eqn:Hfile.
  assert (HlenF : lenN file
    = 20 + 4 * lenN pool + lenN (flat_map str_bytes pool) + 16 * lenN l
      + lenN (flat_map (summary v) l) + lenN (flat_map e_blob l))
    by (rewrite Hfile; apply lenN_layout).
  unfold layout in Hfile. cbv zeta in Hfile.
  set (strs := flat_map str_bytes pool) in *.
  set (sums := flat_map (summary v) l) in *.
  set (blobs := flat_map e_blob l) in *.
  set (str_start := 20 + 4 * lenN pool) in *.
  set (scene_off := str_start + lenN strs) in *.
  set (soff := scene_off + 16 * lenN l) in *.
  set (doff := soff + lenN sums) in *.
  set (S2 := flat_map le32 (str_offsets str_start pool)) in *.
  set (S4 := flat_map rec_bytes (recs v l soff doff)) in *.
  assert (HS2 : lenN S2 = 4 * lenN pool).
  { unfold S2. rewrite lenN_flat_le32, lenN_str_offsets. reflexivity. }
  assert (HS4 : lenN S4 = 16 * lenN l).
  { unfold S4. rewrite lenN_flat_rec_bytes, lenN_recs. reflexivity. }
  (* cursor positions *)
  assert (K1 : skipn (N.to_nat 20) file = S2 ++ strs ++ S4 ++ sums ++ blobs) by (rewrite Hfile; reflexivity).
  assert (K2 : skipn (N.to_nat str_start) file = strs ++ S4 ++ sums ++ blobs)
    by (eapply skipn_advance; [exact K1|rewrite HS2; reflexivity]).
  assert (K3 : skipn (N.to_nat scene_off) file = S4 ++ sums ++ blobs)
    by (eapply skipn_advance; [exact K2|reflexivity]).
  assert (K4 : skipn (N.to_nat soff) file = sums ++ blobs)
    by (eapply skipn_advance; [exact K3|rewrite HS4; reflexivity]).
  assert (K5 : skipn (N.to_nat doff) file = blobs ++ [])
    by (rewrite app_nil_r; eapply skipn_advance; [exact K4|reflexivity]).
  (* bounds *)
  assert (Hv32 : v < 4294967296) by (destruct Hv; subst v; lia).
  assert (Hso : scene_off <= lenN file) by (unfold scene_off, str_start; lia).
  (* header *)
  unfold img_parse.
  assert (parse_header file
          = Some (v, lenN l, lenN pool, scene_off,
                  S2 ++ strs ++ S4 ++ sums ++ blobs)) as ->.
  { rewrite Hfile. apply parse_header_ok; lia. }
  cbv beta iota. unfold parse_body.
  assert (negb ((v =? 2) || (v =? 3)) = false) as ->
    by (destruct Hv; subst v; reflexivity).
  assert (negb (lenN pool <=? lenN file) = false) as ->
    by (apply negb_false_iff, N.leb_le; lia).
  cbv beta iota.
  (* pool offsets *)
  assert (read_ints (N.to_nat (lenN pool)) (S2 ++ strs ++ S4 ++ sums ++ blobs)
          = Some (str_offsets str_start pool)) as ->.
  { rewrite to_nat_lenN, <- (str_offsets_length pool str_start).
    apply read_ints_ok, str_offsets_bound. fold strs. unfold str_start. lia. }
  (* pool strings *)
  rewrite (read_strs_ok file pool str_start (S4 ++ sums ++ blobs) Hpool);
    [|unfold str_start; lia|exact K2].
  destruct (N.leb_spec 2147483648 scene_off) as [Hbad|_]; [lia|].
  destruct (N.leb_spec 2147483648 (lenN l)) as [Hbad|_]; [lia|].
  assert (negb (lenN l <=? lenN file) = false) as ->
    by (apply negb_false_iff, N.leb_le; lia).
  cbv beta iota.
  (* entry table *)
  rewrite seek_eq, K3.
  assert (read_recs (N.to_nat (lenN l)) (S4 ++ sums ++ blobs)
          = Some (recs v l soff doff)) as ->.
  { rewrite to_nat_lenN, <- (recs_length v l soff doff).
    apply read_recs_ok, recs_ok.
    - eapply Forall_impl; [|exact Hes]. intros a (Ha & _). exact Ha.
    - fold sums. unfold soff, scene_off, str_start. lia.
    - fold blobs. unfold doff, soff, scene_off, str_start. lia. }
  (* entries *)
  rewrite (read_entries_ok file v pool l soff doff blobs [] Hes);
    [reflexivity|lia|lia|fold blobs; unfold doff, soff, scene_off, str_start; lia
    |exact K4|exact K5].
Qed.

(** * image_ok and its boolean twin *)

Lemma str_okb_sound (s : list N) : str_okb s = true -> str_ok s.
Proof.
  unfold str_okb, str_ok. rewrite forallb_forall, Forall_forall. intros H b Hb.
  specialize (H b Hb). rewrite andb_true_iff, !N.ltb_lt in H. exact H.
Qed.

Lemma entry_okb_sound (npool : N) (e : entry) :
  entry_okb npool e = true -> entry_ok npool e.
Proof.
  unfold entry_okb, entry_ok. intros H.
  apply andb_prop in H as [H Hs]. apply andb_prop in H as [H Hl]. apply andb_prop in H as [Hc Hd].
  apply N.ltb_lt in Hc, Hd, Hl. split; [exact Hc|]. split; [exact Hd|]. split; [exact Hl|].
  apply Forall_forall. intros i Hi. rewrite forallb_forall in Hs. apply N.ltb_lt, Hs, Hi.
Qed.

Theorem image_okb_sound (v : N) (pool : list (list N)) (es : list entry) :
  image_okb v pool es = true -> image_ok v pool es.
Proof.
  unfold image_okb, image_ok. intros H.
  apply andb_prop in H as [H Hlen]. apply andb_prop in H as [H He]. apply andb_prop in H as [Hv Hp].
  rewrite forallb_forall in Hp, He. split; [|split; [|split]].
  - apply orb_prop in Hv as [Hv|Hv]; apply N.eqb_eq in Hv; auto.
  - apply Forall_forall. intros s Hs. apply str_okb_sound, Hp, Hs.
  - apply Forall_forall. intros e Hin. apply entry_okb_sound, He, Hin.
  - apply N.ltb_lt. exact Hlen.
Qed.

(** * Round trip *)

Theorem image_roundtrip (version : N) (pool : list (list N)) (es : list entry) :
  image_ok version pool es ->
  img_parse (img_write version pool es)
  = Some (version, pool, map (to_pentry version pool) (sort_by_crc es)).
Proof.
  intros (Hv & Hpool & Hes & Hlen).
  rewrite img_write_layout in *.
  apply parse_layout; try assumption.
  eapply Permutation_Forall; [apply sort_by_crc_perm|exact Hes].
Qed.

(** Header and pool alone, with the number of entries. *)
Corollary image_roundtrip_pool (version : N) (pool : list (list N)) (es : list entry) :
  image_ok version pool es ->
  exists ps, img_parse (img_write version pool es) = Some (version, pool, ps)
             /\ length ps = length es.
Proof.
  intros H. eexists; split; [apply image_roundtrip; exact H|].
  rewrite map_length. apply sort_by_crc_length.
Qed.

(** * The parsed table is sorted by crc *)

Lemma map_p_crc_to_pentry (v : N) (pool : list (list N)) (l : list entry) :
  map p_crc (map (to_pentry v pool) l) = map e_crc l.
Proof. rewrite map_map. reflexivity. Qed.

Theorem image_sorted_by_crc (version : N) (pool : list (list N)) (es : list entry) :
  image_ok version pool es ->
  exists ps,
    img_parse (img_write version pool es) = Some (version, pool, ps)
    /\ StronglySorted N.le (map p_crc ps)
    /\ Sorted N.le (map p_crc ps)
    /\ Permutation (map e_crc es) (map p_crc ps).
Proof.
  intros H. eexists. split; [apply image_roundtrip; exact H|].
  rewrite map_p_crc_to_pentry.
  assert (S : StronglySorted N.le (map e_crc (sort_by_crc es))).
  { apply StronglySorted_map. apply sort_by_crc_strongly_sorted. }
  split; [exact S|]. split; [apply StronglySorted_Sorted; exact S|].
  apply Permutation_map, sort_by_crc_perm.
Qed.

(** * Codec: the payloads through any inverse pair standing for LZMA *)

Section Codec.
  Variables (store unstore : list N -> list N).
  Hypothesis unstore_store : forall d, unstore (store d) = d.

  (** An entry whose [e_blob] is the (uncompressed) payload becomes the
      entry actually written. *)
  Definition store_entry (e : entry) : entry :=
    mkEntry (e_crc e) (e_dur e) (e_last e) (e_sounds e) (store (e_blob e)).

  Definition unstore_pentry (p : pentry) : pentry :=
    mkPentry (p_crc p) (p_dur p) (p_last p) (p_sounds p) (unstore (p_blob p)).

  Lemma sort_by_crc_store (es : list entry) :
    sort_by_crc (map store_entry es) = map store_entry (sort_by_crc es).
  Proof. rewrite <- !sort_by_crc_eq. apply sort_by_map. reflexivity. Qed.

  Lemma unstore_to_pentry (v : N) (pool : list (list N)) (e : entry) :
    unstore_pentry (to_pentry v pool (store_entry e)) = to_pentry v pool e.
  Proof.
    unfold unstore_pentry, to_pentry, store_entry.
    cbn [p_crc p_dur p_last p_sounds p_blob e_crc e_dur e_last e_sounds e_blob].
    rewrite unstore_store. reflexivity.
  Qed.

  Theorem image_payload_roundtrip (version : N) (pool : list (list N))
      (es : list entry) :
    image_ok version pool (map store_entry es) ->
    exists ps,
      img_parse (img_write version pool (map store_entry es))
      = Some (version, pool, ps)
      /\ map unstore_pentry ps = map (to_pentry version pool) (sort_by_crc es)
      /\ map (fun p => unstore (p_blob p)) ps = map e_blob (sort_by_crc es).
  Proof.
    intros H. eexists. split; [apply image_roundtrip; exact H|].
    rewrite sort_by_crc_store, !map_map. split.
    - apply map_ext. intros e. apply unstore_to_pentry.
    - apply map_ext. intros e.
      cbn [to_pentry store_entry p_blob e_blob]. apply unstore_store.
  Qed.
End Codec.

(** * The DeferredWrites-faithful writer *)

Lemma recs_py_eq (v : N) (l : list entry) :
  no_adj_dup l = true ->
  forall soff doff, recs_py v l soff doff = recs v l soff doff.
Proof.
  induction l as [|e t IH]; intros H soff doff; [reflexivity|].
  cbn [no_adj_dup recs_py recs] in *.
  apply andb_prop in H as [H1 H2].
  apply negb_true_iff in H1. rewrite H1, (IH H2). reflexivity.
Qed.

Theorem img_write_py_eq (version : N) (pool : list (list N)) (es : list entry) :
  crcs_distinctb es = true ->
  img_write_py version pool es = img_write version pool es.
Proof.
  intros H. unfold img_write_py, img_write. cbv zeta.
  rewrite (recs_py_eq version (sort_by_crc es) H). reflexivity.
Qed.

Corollary image_roundtrip_py (version : N) (pool : list (list N)) (es : list entry) :
  image_ok version pool es ->
  crcs_distinctb es = true ->
  img_parse (img_write_py version pool es)
  = Some (version, pool, map (to_pentry version pool) (sort_by_crc es)).
Proof.
  intros H D. rewrite (img_write_py_eq version pool es D).
  apply image_roundtrip. exact H.
Qed.

(** * Concrete witnesses (hypotheses are satisfiable) *)

Definition ex_pool : list (list N) := [[97; 46; 119; 97; 118]; [98; 98]].

Definition ex_entries : list entry :=
  [ mkEntry 3000000000 1500 1200 [1; 0] [98; 118; 99; 100; 0; 255; 7];
    mkEntry 17 250 200 [0] [1; 2; 3] ].

Example ex_ok3 : image_okb 3 ex_pool ex_entries = true.
Proof. vm_compute. reflexivity. Qed.

Example ex_ok2 : image_okb 2 ex_pool ex_entries = true.
Proof. vm_compute. reflexivity. Qed.

Example ex_image_ok3 : image_ok 3 ex_pool ex_entries.
Proof. apply image_okb_sound. vm_compute. reflexivity. Qed.

Example ex_roundtrip3 :
  img_parse (img_write 3 ex_pool ex_entries)
  = Some (3, ex_pool,
          [ mkPentry 17 250 200 [[97; 46; 119; 97; 118]] [1; 2; 3];
            mkPentry 3000000000 1500 1200 [[98; 98]; [97; 46; 119; 97; 118]]
                     [98; 118; 99; 100; 0; 255; 7] ]).
Proof. vm_compute. reflexivity. Qed.

Example ex_roundtrip2 :
  img_parse (img_write 2 ex_pool ex_entries)
  = Some (2, ex_pool,
          [ mkPentry 17 250 250 [[97; 46; 119; 97; 118]] [1; 2; 3];
            mkPentry 3000000000 1500 1500 [[98; 98]; [97; 46; 119; 97; 118]]
                     [98; 118; 99; 100; 0; 255; 7] ]).
Proof. vm_compute. reflexivity. Qed.

(** Byte-exact agreement with the Python writer.  The three byte lists below
    are the output of [save_scenes_image_sync] (pinned tree) for the same
    pool/entries, entries built with raw [(data, pool)] payloads that LZMA
    does not shrink. *)
Example ex_bytes3 :
  img_write 3 ex_pool ex_entries
  = [ 86; 83; 73; 70; 3; 0; 0; 0; 2; 0; 0; 0; 2; 0; 0; 0; 37; 0; 0; 0;
      28; 0; 0; 0; 34; 0; 0; 0; 97; 46; 119; 97; 118; 0; 98; 98; 0; 17; 0; 0;
      0; 105; 0; 0; 0; 3; 0; 0; 0; 69; 0; 0; 0; 0; 94; 208; 178; 108; 0; 0;
      0; 7; 0; 0; 0; 85; 0; 0; 0; 250; 0; 0; 0; 200; 0; 0; 0; 1; 0; 0;
      0; 0; 0; 0; 0; 220; 5; 0; 0; 176; 4; 0; 0; 2; 0; 0; 0; 1; 0; 0;
      0; 0; 0; 0; 0; 1; 2; 3; 98; 118; 99; 100; 0; 255; 7 ].
Proof. vm_compute. reflexivity. Qed.

Example ex_bytes2 :
  img_write 2 ex_pool ex_entries
  = [ 86; 83; 73; 70; 2; 0; 0; 0; 2; 0; 0; 0; 2; 0; 0; 0; 37; 0; 0; 0;
      28; 0; 0; 0; 34; 0; 0; 0; 97; 46; 119; 97; 118; 0; 98; 98; 0; 17; 0; 0;
      0; 97; 0; 0; 0; 3; 0; 0; 0; 69; 0; 0; 0; 0; 94; 208; 178; 100; 0; 0;
      0; 7; 0; 0; 0; 81; 0; 0; 0; 250; 0; 0; 0; 1; 0; 0; 0; 0; 0; 0;
      0; 220; 5; 0; 0; 2; 0; 0; 0; 1; 0; 0; 0; 0; 0; 0; 0; 1; 2; 3;
      98; 118; 99; 100; 0; 255; 7 ].
Proof. vm_compute. reflexivity. Qed.

Example ex_bad_magic : img_parse (0 :: tl (img_write 3 ex_pool ex_entries)) = None.
Proof. vm_compute. reflexivity. Qed.

Example ex_bad_version : img_parse (img_write 4 ex_pool ex_entries) = None.
Proof. vm_compute. reflexivity. Qed.

(** With two entries sharing a crc the literal DeferredWrites writer does
    NOT round-trip: the first of the two keeps zeroed table slots, so the
    reader decodes the file header as its summary. *)
Definition ex_dup : list entry :=
  [ mkEntry 5 10 9 [0] [1; 1]; mkEntry 5 20 19 [1] [2; 2; 2] ].

Example ex_dup_ok : image_okb 3 ex_pool ex_dup = true /\ crcs_distinctb ex_dup = false.
Proof. vm_compute. split; reflexivity. Qed.

(** Output of the Python writer for [ex_dup]: note the 12 zero bytes after
    the first crc (offset 41). *)
Example ex_dup_bytes_py :
  img_write_py 3 ex_pool ex_dup
  = [ 86; 83; 73; 70; 3; 0; 0; 0; 2; 0; 0; 0; 2; 0; 0; 0; 37; 0; 0; 0;
      28; 0; 0; 0; 34; 0; 0; 0; 97; 46; 119; 97; 118; 0; 98; 98; 0; 5; 0; 0;
      0; 0; 0; 0; 0; 0; 0; 0; 0; 0; 0; 0; 0; 5; 0; 0; 0; 103; 0; 0;
      0; 3; 0; 0; 0; 85; 0; 0; 0; 10; 0; 0; 0; 9; 0; 0; 0; 1; 0; 0;
      0; 0; 0; 0; 0; 20; 0; 0; 0; 19; 0; 0; 0; 1; 0; 0; 0; 1; 0; 0;
      0; 1; 1; 2; 2; 2 ].
Proof. vm_compute. reflexivity. Qed.

(** Python: IndexError while parsing that file; the ideal writer is fine. *)
Example ex_dup_py_parse : img_parse (img_write_py 3 ex_pool ex_dup) = None.
Proof. vm_compute. reflexivity. Qed.

Example ex_dup_ideal_parse :
  img_parse (img_write 3 ex_pool ex_dup)
  = Some (3, ex_pool, map (to_pentry 3 ex_pool) ex_dup).
Proof. vm_compute. reflexivity. Qed.
