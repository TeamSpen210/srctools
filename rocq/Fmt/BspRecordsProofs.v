(** Proofs: a record whose generated field orders pass [record_ok] is read back field by field, in every layout table
    it applies to; bit-field packing is inverted by shift and mask. *)
From Coq Require Import List String NArith Bool PeanoNat Lia.
From SV Require Import Bin.Struct Bin.StructProofs Fmt.BspFormatsSpec Fmt.BspFormatsProofs Fmt.BspRecords.
Import ListNotations.
Open Scope string_scope.
Open Scope list_scope.

Lemma strs_eqb_eq : forall a b, strs_eqb a b = true -> a = b.
Proof.
  induction a as [|x a IH]; intros [|y b] H; cbn [strs_eqb] in H; try discriminate; [reflexivity|].
  apply andb_prop in H. destruct H as [H1 H2]. apply String.eqb_eq in H1. apply IH in H2. subst. reflexivity.
Qed.
Lemma slots_eqb_eq : forall a b, slots_eqb a b = true -> a = b.
Proof.
  induction a as [|x a IH]; intros [|y b] H; cbn [slots_eqb] in H; try discriminate; [reflexivity|].
  apply andb_prop in H. destruct H as [H1 H2]. apply strs_eqb_eq in H1. apply IH in H2. subst. reflexivity.
Qed.

Lemma assoc_in : forall (A : Type) k (l : list (string * A)) v, assoc k l = Some v -> In (k, v) l.
Proof.
  induction l as [|[k' v'] l IH]; intros v H; cbn [assoc] in H; [discriminate|].
  destruct (String.eqb k k') eqn:E.
  - injection H as <-. apply String.eqb_eq in E. subst. left. reflexivity.
  - right. apply IH. exact H.
Qed.

(** The record as a whole: both sides name the same attribute in every position, the struct format has exactly that
    many values in every applicable layout table, every writing alternative uses that format, and for ANY assignment
    of values to the labels that fits the format the bytes written are read back as the same values under the same
    labels. *)
Theorem record_roundtrip : forall layouts sts name sname lays rs ws,
  record_ok layouts sts (name, sname, lays, rs, ws) = true ->
  rs = ws /\
  forall lname, In lname lays ->
  exists lay f n appl ralts walts,
    stream_named sname sts = Some (n, appl, ralts, walts) /\ In (lname, lay) layouts /\
    record_fmt layouts sts sname lname = Some f /\ wf_fmt f = true /\ nvalues f = List.length rs /\
    (forall ra, In ra ralts -> alt_fmt lay ra = Some f) /\ (forall wa, In wa walts -> alt_fmt lay wa = Some f) /\
    forall field : slot -> value, fits f (map field ws) = true ->
      exists bs, pack f (map field ws) = Some bs /\ List.length bs = calcsize f /\ unpack f bs = Some (map field rs).
Proof.
  intros layouts sts name sname lays rs ws H. cbn [record_ok] in H.
  repeat (apply andb_prop in H; let H' := fresh "H" in destruct H as [H H']).
  apply slots_eqb_eq in H. subst ws. split; [reflexivity|].
  intros lname Hin. rewrite forallb_forall in H0. specialize (H0 lname Hin).
  apply andb_prop in H0. destruct H0 as [Happ Hn].
  unfold stream_ok_named in H1. unfold stream_appl in Happ. unfold record_fmt in Hn |- *.
  destruct (stream_named sname sts) as [[[[n appl] ralts] walts]|] eqn:Es; [|discriminate].
  destruct ralts as [|r0 rr]; [destruct (assoc lname layouts); discriminate|].
  destruct (assoc lname layouts) as [lay|] eqn:El; [|discriminate].
  destruct (alt_fmt lay r0) as [f|] eqn:Ef; [|discriminate]. apply Nat.eqb_eq in Hn.
  apply assoc_in in El.
  destruct (stream_ok_in_one_fmt _ _ _ _ _ (stream_ok_at _ _ _ _ _ H1 lname lay El Happ)) as (f' & Hwf & Hr & Hw).
  rewrite (Hr r0 (or_introl eq_refl)) in Ef. injection Ef as ->.
  exists lay, f, n, appl, (r0 :: rr), walts. split; [reflexivity|]. split; [exact El|].
  split; [reflexivity|]. split; [exact Hwf|]. split; [exact Hn|]. split; [exact Hr|]. split; [exact Hw|].
  intros field Hfit. exact (unpack_pack_sized f (map field rs) Hwf Hfit).
Qed.

(** * Bit fields *)
Open Scope N_scope.

Lemma high_bits_of_small : forall lo k m, lo < 2 ^ k -> k <= m -> N.testbit lo m = false.
Proof.
  intros lo k m Hlo Hm. rewrite <- (N.mod_small lo (2 ^ k) Hlo). apply N.mod_pow2_bits_high. exact Hm.
Qed.

Theorem bitpack_roundtrip : forall k hi lo, lo < 2 ^ k ->
  bit_hi k (bitpack k hi lo) = hi /\ bit_lo k (bitpack k hi lo) = lo.
Proof.
  intros k hi lo Hlo. unfold bit_hi, bit_lo, bitpack. split; apply N.bits_inj; intros n.
  - rewrite N.shiftr_spec', N.lor_spec, N.shiftl_spec_high' by lia.
    replace (n + k - k) with n by lia. rewrite (high_bits_of_small lo k (n + k) Hlo) by lia. apply orb_false_r.
  - rewrite N.land_spec, N.lor_spec. destruct (N.lt_ge_cases n k) as [Hn|Hn].
    + rewrite N.shiftl_spec_low by exact Hn. rewrite N.ones_spec_low by exact Hn. cbn [orb]. apply andb_true_r.
    + rewrite N.ones_spec_high by exact Hn. rewrite (high_bits_of_small lo k n Hlo Hn). apply andb_false_r.
Qed.

(** The reader's mask [(1 << k) - 1] is [N.ones k]. *)
Lemma mask_is_ones : forall k, N.shiftl 1 k - 1 = N.ones k.
Proof. intros k. rewrite N.shiftl_1_l, N.ones_equiv, N.sub_1_r. reflexivity. Qed.

(** Overlays: with equal constants on both sides and a face count below [2^k] both attributes come back. *)
Theorem overlay_bits_roundtrip : forall rs rm ws maxf, overlay_bits_ok (rs, rm, ws) maxf = true ->
  forall order cnt, (cnt <= maxf)%nat ->
  let x := bitpack (N.of_nat ws) order (N.of_nat cnt) in
  bit_hi (N.of_nat rs) x = order /\ bit_lo (N.of_nat rm) x = N.of_nat cnt.
Proof.
  intros rs rm ws maxf H order cnt Hc. cbn [overlay_bits_ok] in H.
  apply andb_prop in H. destruct H as [H H3]. apply andb_prop in H. destruct H as [H1 H2].
  apply Nat.eqb_eq in H1. apply Nat.eqb_eq in H2. subst rs rm. apply N.ltb_lt in H3.
  apply bitpack_roundtrip. lia.
Qed.

(** Faces: count below the flag bit, the flag bit itself. *)
Theorem face_prim_bits_roundtrip : forall rmask rflag wmax wflag, face_prim_bits_ok (rmask, rflag, wmax, wflag) = true ->
  forall cnt (flag : bool), cnt <= wmax ->
  let x := N.lor cnt (if flag then wflag else 0) in
  N.land x rmask = cnt /\ (negb (N.land x rflag =? 0)) = flag.
Proof.
  intros rmask rflag wmax wflag H cnt flag Hc. cbn [face_prim_bits_ok] in H.
  apply andb_prop in H. destruct H as [H Hpow]. apply andb_prop in H. destruct H as [H Hones].
  apply andb_prop in H. destruct H as [H Hdisj]. apply andb_prop in H. destruct H as [H Hsucc].
  apply andb_prop in H. destruct H as [Hmax Hflag].
  apply N.eqb_eq in Hpow, Hones, Hdisj, Hsucc, Hmax, Hflag. subst wmax wflag.
  set (k := N.log2 rflag) in *.
  assert (Hlt : cnt < 2 ^ k) by (rewrite <- Hpow, <- Hsucc; lia).
  cbn zeta. rewrite N.lor_comm.
  replace (if flag then rflag else 0) with (N.shiftl (if flag then 1 else 0) k)
    by (destruct flag; [rewrite N.shiftl_1_l; symmetry; exact Hpow | apply N.shiftl_0_l]).
  pose proof (bitpack_roundtrip k (if flag then 1 else 0) cnt Hlt) as [Bh Bl]. unfold bitpack, bit_hi, bit_lo in Bh, Bl.
  split.
  - rewrite Hones. exact Bl.
  - assert (T : N.testbit (N.lor (N.shiftl (if flag then 1 else 0) k) cnt) k = flag).
    { replace k with (0 + k) at 2 by lia. rewrite <- N.shiftr_spec', Bh. destruct flag; reflexivity. }
    rewrite Hpow.
    destruct flag.
    + apply negb_true_iff. apply N.eqb_neq. intros E.
      assert (F : N.testbit (N.land (N.lor (N.shiftl 1 k) cnt) (2 ^ k)) k = false) by (rewrite E; apply N.bits_0).
      rewrite N.land_spec, T, N.pow2_bits_true in F. discriminate.
    + apply negb_false_iff. apply N.eqb_eq. apply N.bits_inj. intros n. rewrite N.bits_0, N.land_spec.
      destruct (N.eq_dec n k) as [->|Hn]; [rewrite T; reflexivity|].
      rewrite N.pow2_bits_false by congruence. apply andb_false_r.
Qed.
