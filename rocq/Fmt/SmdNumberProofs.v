(** Proofs about the SMD bone numbering (Fmt/SmdNumber.v). *)
From Coq Require Import List NArith PeanoNat Lia Permutation.
Import ListNotations.
From SV Require Import Fmt.SmdNumber.
Open Scope N_scope.

Definition inv (idx : list (N * nat)) (names : list N) : Prop :=
  forall k i, lookup k idx = Some i -> nth_error names i = Some k.

Lemma inv_push : forall idx names k, inv idx names -> inv ((k, List.length names) :: idx) (names ++ [k]).
Proof.
  intros idx names k H k' i L. cbn [lookup] in L. destruct (k' =? k) eqn:E.
  - injection L as <-. apply N.eqb_eq in E. subst k'. rewrite nth_error_app2 by lia. rewrite Nat.sub_diag. reflexivity.
  - specialize (H k' i L). rewrite nth_error_app1; [exact H|]. apply nth_error_Some. rewrite H. discriminate.
Qed.

Lemma omap_app_nil : forall (x : option (list (N * option N))), option_map (app []) x = x.
Proof. intros [x|]; reflexivity. Qed.

Lemma omap_comp : forall (a b : list (N * option N)) x,
  option_map (app a) (option_map (app b) x) = option_map (app (a ++ b)) x.
Proof. intros a b [x|]; cbn; [rewrite app_assoc|]; reflexivity. Qed.

Lemma omap_cons : forall (e : N * option N) (a : list (N * option N)) x,
  option_map (cons e) (option_map (app a) x) = option_map (app (e :: a)) x.
Proof. intros e a [x|]; reflexivity. Qed.

(** one pass: the bones it numbers ([done], in order) and the ones it leaves are the bones it was given; the reader takes the
    lines of the pass and gives back exactly the records of [done] *)
Lemma pass_spec : forall todo idx next names rem idx' next' ls,
  next = List.length names -> inv idx names ->
  pass todo idx next = (rem, idx', next', ls) ->
  exists done,
    Permutation (done ++ rem) todo /\
    next' = List.length (names ++ map bkey done) /\ inv idx' (names ++ map bkey done) /\
    forall tail, read_nodes names (ls ++ tail) =
                 option_map (app (map bone_rec done)) (read_nodes (names ++ map bkey done) tail).
Proof.
  induction todo as [|b r IH]; intros idx next names rem idx' next' ls Hn Hinv H; cbn [pass] in H.
  - injection H as <- <- <- <-. exists []. cbn [map app List.length]. rewrite app_nil_r.
    repeat split; try assumption; try reflexivity. intro tail. rewrite omap_app_nil. reflexivity.
  - destruct (ready idx b) as [pi|] eqn:R.
    + destruct (pass r ((bkey b, next) :: idx) (S next)) as [[[rem1 idx1] next1] ls1] eqn:P. injection H as <- <- <- <-.
      subst next.
      assert (Hlen : S (List.length names) = List.length (names ++ [bkey b])) by (rewrite app_length; cbn; lia).
      destruct (IH _ _ (names ++ [bkey b]) _ _ _ _ Hlen (inv_push idx names (bkey b) Hinv) P)
        as (done & Hp & Hn' & Hi' & Hr).
      exists (b :: done). cbn [map]. rewrite <- app_assoc in Hn', Hi', Hr. cbn [app] in Hn', Hi', Hr.
      split; [cbn [app]; constructor; exact Hp|]. split; [exact Hn'|]. split; [exact Hi'|].
      intro tail. cbn [app read_nodes]. rewrite Nat.eqb_refl. cbn [negb].
      unfold ready in R. destruct (bpar b) as [p|] eqn:Bp.
      * destruct (lookup p idx) as [i|] eqn:L; [|discriminate]. injection R as <-.
        rewrite (Hinv p i L). rewrite Hr. rewrite omap_cons. unfold bone_rec at 2. rewrite Bp. reflexivity.
      * injection R as <-. rewrite Hr. rewrite omap_cons. unfold bone_rec at 2. rewrite Bp. reflexivity.
    + destruct (pass r idx next) as [[[rem1 idx1] next1] ls1] eqn:P. injection H as <- <- <- <-.
      destruct (IH _ _ names _ _ _ _ Hn Hinv P) as (done & Hp & Hn' & Hi' & Hr).
      exists done. split; [apply Permutation_sym, Permutation_cons_app, Permutation_sym; exact Hp|].
      split; [exact Hn'|]. split; [exact Hi'|]. exact Hr.
Qed.

Lemma passes_spec : forall fuel todo idx next names ls,
  next = List.length names -> inv idx names ->
  passes fuel todo idx next = Some ls ->
  exists perm, Permutation perm todo /\
    forall tail, read_nodes names (ls ++ tail) =
                 option_map (app (map bone_rec perm)) (read_nodes (names ++ map bkey perm) tail).
Proof.
  induction fuel as [|f IH]; intros todo idx next names ls Hn Hinv H; destruct todo as [|b r]; cbn [passes] in H;
    try discriminate.
  (* nothing left to number, with or without fuel *)
  1,2: injection H as <-; exists []; split; [constructor|]; intro tail; cbn [map app]; rewrite app_nil_r, omap_app_nil; reflexivity.
  destruct (pass (b :: r) idx next) as [[[rem idx1] next1] ls1] eqn:P.
  destruct (Nat.eqb (List.length rem) (List.length (b :: r))); [discriminate|].
  destruct (passes f rem idx1 next1) as [ls2|] eqn:Q; [|discriminate]. cbn [option_map] in H. injection H as <-.
  destruct (pass_spec _ _ _ names _ _ _ _ Hn Hinv P) as (done & Hp & Hn' & Hi' & Hr).
  destruct (IH _ _ _ (names ++ map bkey done) _ Hn' Hi' Q) as (perm2 & Hp2 & Hr2).
  exists (done ++ perm2). split.
  - eapply Permutation_trans; [apply Permutation_app_head; exact Hp2 | exact Hp].
  - intro tail. rewrite <- app_assoc. rewrite Hr, Hr2, omap_comp. rewrite !map_app, app_assoc. reflexivity.
Qed.

(** The nodes section reads back: whenever [Mesh.export] writes the section (no [ValueError]), the reader accepts every line
    (numbers consecutive from 0, every parent number defined by an earlier line) and returns, in file order, exactly the
    (name, parent name) records of the bones of [todo] -- each bone once, none invented, parents by NAME as in the mesh. *)
Theorem number_reads_back : forall bs ls, number bs = Some ls ->
  exists perm, Permutation perm (dedupe bs) /\ read_nodes [] ls = Some (map bone_rec perm).
Proof.
  intros bs ls H. unfold number in H.
  assert (I0 : inv [] []) by (intros k i E; discriminate E).
  destruct (passes_spec _ _ _ _ [] _ eq_refl I0 H) as (perm & Hp & Hr).
  exists perm. split; [exact Hp|]. specialize (Hr []). rewrite app_nil_r in Hr. rewrite Hr. cbn [read_nodes option_map].
    rewrite app_nil_r. reflexivity.
Qed.

(** with pairwise distinct keys (what the reader can represent: its result is keyed by the name) nothing is dropped *)
Lemma dedupe_aux_id : forall bs seen, NoDup (map bkey bs) -> (forall b, In b bs -> ~ In (bkey b) seen) -> dedupe_aux seen bs = bs.
Proof.
  induction bs as [|b r IH]; intros seen Hnd Hs; [reflexivity|]. cbn [dedupe_aux].
  destruct (existsb (N.eqb (bkey b)) seen) eqn:E.
  - apply existsb_exists in E. destruct E as (k & Hk & Ek). apply N.eqb_eq in Ek. subst k. exfalso. exact (Hs b (or_introl eq_refl) Hk).
  - f_equal. cbn [map] in Hnd. inversion Hnd as [|? ? Hnot Hnd']; subst. apply IH; [exact Hnd'|].
    intros b' Hb' [Hin|Hin]; [apply Hnot; rewrite Hin; apply in_map; exact Hb' | exact (Hs b' (or_intror Hb') Hin)].
Qed.

Theorem number_reads_back_distinct : forall bs ls, NoDup (map bkey bs) -> number bs = Some ls ->
  exists perm, Permutation perm bs /\ read_nodes [] ls = Some (map bone_rec perm).
Proof.
  intros bs ls Hnd H. destruct (number_reads_back bs ls H) as (perm & Hp & Hr). exists perm. split; [|exact Hr].
  unfold dedupe in Hp. rewrite dedupe_aux_id in Hp; [exact Hp | exact Hnd | intros b _ []].
Qed.

(** examples: children before parents in the dict, a cycle, a parent outside the mesh, and two bones under one key (the class of
    the case-folding comparison: the second bone and the distinction between the parents of "muzzle" are gone) *)
Example ex_children_first :
  number [mkBone 3 (Some 2); mkBone 2 (Some 1); mkBone 1 None] =
  Some [(0%nat, 1, None); (1%nat, 2, Some 0%nat); (2%nat, 3, Some 1%nat)].
Proof. reflexivity. Qed.
Example ex_same_pass : number [mkBone 1 None; mkBone 2 (Some 1); mkBone 3 (Some 2)] =
  Some [(0%nat, 1, None); (1%nat, 2, Some 0%nat); (2%nat, 3, Some 1%nat)].
Proof. reflexivity. Qed.
Example ex_cycle : number [mkBone 1 (Some 2); mkBone 2 (Some 1)] = None.
Proof. reflexivity. Qed.
Example ex_parent_outside : number [mkBone 1 None; mkBone 2 (Some 9)] = None.
Proof. reflexivity. Qed.
Theorem number_equal_keys_merge_refuted :
  number [mkBone 0 None; mkBone 1 (Some 0); mkBone 1 (Some 0); mkBone 3 (Some 1)] =
  Some [(0%nat, 0, None); (1%nat, 1, Some 0%nat); (2%nat, 3, Some 1%nat)] /\
  ~ NoDup (map bkey [mkBone 0 None; mkBone 1 (Some 0); mkBone 1 (Some 0); mkBone 3 (Some 1)]).
Proof.
  split; [reflexivity|]. intro H. cbn in H. inversion H as [|? ? _ H1]; subst. inversion H1 as [|? ? Hn _]; subst. apply Hn. left. reflexivity.
Qed.
