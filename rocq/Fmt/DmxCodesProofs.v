(** Proofs about the DMX type-code model (Fmt/DmxCodes.v). *)
From Coq Require Import NArith List Bool Lia.
From SV Require Import Fmt.DmxCodes.
Import ListNotations.
Open Scope N_scope.

Lemma all_vtypes_complete : forall t, In t all_vtypes.
Proof. destruct t; cbn; auto 15. Qed.

(** The tag of a type is its position in [all_vtypes]. *)
Lemma vtype_of_tag : forall t, nth (N.to_nat (vtype_tag t)) all_vtypes TElement = t.
Proof. destruct t; reflexivity. Qed.

Lemma vtype_eqb_eq : forall a b, vtype_eqb a b = true -> a = b.
Proof. intros a b H. apply N.eqb_eq in H. rewrite <- (vtype_of_tag a), H. apply vtype_of_tag. Qed.

Lemma forall_vtypes : forall (f : vtype -> bool), forallb f all_vtypes = true -> forall t, f t = true.
Proof. intros f H t. rewrite forallb_forall in H. apply H, all_vtypes_complete. Qed.

Lemma opt_test_some : forall A (o : option A) f, opt_test o f = true -> exists a, o = Some a /\ f a = true.
Proof. intros A [a|] f H; cbn in H; [eauto | discriminate]. Qed.

(** The attribute type byte written by export_binary is read back by parse_bin as the same (type, array?) pair,
    for every configuration satisfying the five named table conditions. *)
Theorem type_code_roundtrip_gen : forall cfg, codes_ok cfg = true ->
  forall t arr, exists b, encode_code cfg t arr = Some b /\ b < 256 /\ decode_code cfg b = Some (t, arr).
Proof.
  intros cfg Hok t arr. unfold codes_ok in Hok.
  apply andb_prop in Hok as [Hok Hfit]. apply andb_prop in Hok as [Hok Har].
  apply andb_prop in Hok as [Hok Hsc]. apply andb_prop in Hok as [_ Hinv].
  apply forall_vtypes with (t := t) in Hinv, Hsc, Har, Hfit.
  apply opt_test_some in Hinv. destruct Hinv as (c & Hc & Hinv).
  apply opt_test_some in Hinv. destruct Hinv as (t' & Ht' & Heq). apply vtype_eqb_eq in Heq. subst t'.
  rewrite Hc in Hsc, Har, Hfit. cbn [opt_test] in Hsc, Har, Hfit.
  apply N.ltb_lt in Hfit.
  unfold encode_code. rewrite Hc. destruct arr.
  - exists (c + array_offset cfg). split; [reflexivity|]. split; [exact Hfit|].
    unfold decode_code. rewrite Har.
    replace (c + array_offset cfg <? array_offset cfg) with false by (symmetry; apply N.ltb_ge; lia).
    replace (c + array_offset cfg - array_offset cfg) with c by lia. rewrite Ht'. reflexivity.
  - exists c. split; [reflexivity|]. split; [lia|].
    unfold decode_code. apply negb_true_iff in Hsc. rewrite Hsc, Ht'. reflexivity.
Qed.

