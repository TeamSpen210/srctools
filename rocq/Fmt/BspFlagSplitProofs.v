(** Proofs for Fmt/BspFlagSplit.v: parts that tile the bits of an integer are put together again by the reader. *)
From Coq Require Import List NArith Bool Lia.
From SV Require Import Fmt.BspFlagSplit.
Import ListNotations.
Open Scope N_scope.

Lemma shifts_eqb_eq : forall a b, shifts_eqb a b = true -> a = b.
Proof.
  induction a as [|x a IH]; intros [|y b] H; try discriminate; [reflexivity|].
  cbn in H. apply andb_prop in H. destruct H as [H1 H2]. apply N.eqb_eq in H1. subst. f_equal. apply IH. exact H2.
Qed.

Lemma split_read_cons : forall v p ps,
  split_read (split_write v (p :: ps)) (map fst (p :: ps)) =
  N.lor (N.shiftl (fpart_val v p) (fst p)) (split_read (split_write v ps) (map fst ps)).
Proof. reflexivity. Qed.

Lemma parts_from_recombine : forall parts s v, parts_from s parts = true ->
  split_read (split_write v parts) (map fst parts) = N.shiftl (N.shiftr v s) s.
Proof.
  induction parts as [|[s1 m1] rest IH]; intros s v H; [discriminate|].
  destruct rest as [|[s2 m2] rest'].
  - cbn [parts_from] in H. destruct m1 as [m|]; [discriminate|]. apply N.eqb_eq in H. subst s1.
    cbn. unfold fpart_val. cbn. apply N.lor_0_r.
  - cbn [parts_from] in H. destruct m1 as [m|]; [|discriminate].
    apply andb_prop in H. destruct H as [H Hrest]. apply andb_prop in H. destruct H as [H Hm]. apply andb_prop in H. destruct H as [Hs Hlt].
    apply N.eqb_eq in Hs. apply N.ltb_lt in Hlt. apply N.eqb_eq in Hm. subst s1 m.
    rewrite split_read_cons. unfold fpart_val at 1. cbn [fst snd].
    rewrite (IH s2 v Hrest).
    apply N.bits_inj. intro n. rewrite N.lor_spec.
    destruct (N.lt_ge_cases n s) as [Hn|Hn].
    + rewrite !N.shiftl_spec_low by lia. reflexivity.
    + rewrite (N.shiftl_spec_high' _ _ _ Hn). rewrite (N.shiftl_spec_high' (N.shiftr v s) _ _ Hn).
      rewrite N.land_spec, !N.shiftr_spec'. replace (n - s + s) with n by lia.
      destruct (N.lt_ge_cases n s2) as [Hn2|Hn2].
      * rewrite N.shiftl_spec_low by lia. rewrite N.ones_spec_low by lia. rewrite andb_true_r, orb_false_r. reflexivity.
      * rewrite (N.shiftl_spec_high' _ _ _ Hn2). rewrite N.shiftr_spec'. replace (n - s2 + s2) with n by lia.
        rewrite N.ones_spec_high by lia. rewrite andb_false_r. reflexivity.
Qed.
