(** C14 — proofs about the KeyValues2 value strings (Fmt/DmxValText.v), on top of C05's Num/Dec6Proofs.v. *)
From Coq Require Import ZArith NArith List Bool Lia.
From SV Require Import Num.Dec6 Num.Dec6Proofs Fmt.DmxValText.
Import ListNotations.
Open Scope N_scope.

(** * split / join *)
Section Split.
  Variable is_ws : N -> bool.
  Hypothesis Hsp : is_ws SPC = true.
  Definition word (x : list N) : Prop := x <> [] /\ Forall (fun c => is_ws c = false) x.

  Lemma split_word : forall x cur rest, Forall (fun c => is_ws c = false) x ->
    split_ws is_ws cur (x ++ rest) = split_ws is_ws (rev x ++ cur) rest.
  Proof.
    induction x as [|c x IH]; intros cur rest H; [reflexivity|]. inversion H as [|? ? Hc Hx]; subst.
    cbn [app split_ws]. rewrite Hc, IH by exact Hx. cbn [rev]. now rewrite <- app_assoc.
  Qed.

  Lemma split_tail : forall l x, word x -> Forall word l ->
    split_ws is_ws (rev x) (flat_map (fun y => SPC :: y) l) = x :: l.
  Proof.
    induction l as [|y l IH]; intros x [Hne Hx] Hl.
    - cbn [flat_map split_ws]. destruct (rev x) eqn:E; [|now rewrite <- E, rev_involutive].
      exfalso. apply Hne. rewrite <- (rev_involutive x), E. reflexivity.
    - inversion Hl as [|? ? Hy Hl']; subst. cbn [flat_map app split_ws]. rewrite Hsp.
      destruct (rev x) eqn:E.
      + exfalso. apply Hne. rewrite <- (rev_involutive x), E. reflexivity.
      + rewrite <- E, rev_involutive. f_equal. destruct Hy as [Hyne Hyw].
        rewrite (split_word y [] _ Hyw), app_nil_r. apply IH; [split; assumption|assumption].
  Qed.

  Theorem split_join : forall l, Forall word l -> split_ws is_ws [] (join_sp l) = l.
  Proof.
    intros [|x l] H; [reflexivity|]. inversion H as [|? ? Hx Hl]; subst. cbn [join_sp].
    destruct Hx as [Hne Hw]. rewrite (split_word x [] _ Hw), app_nil_r. apply split_tail; [split; assumption|assumption].
  Qed.
End Split.

(** * ['%.6f'] text *)
Lemma all_digits_dec l : all_digits l = true -> Forall (fun c => dec_char c = true) (map ch l).
Proof.
  induction l as [|d r IH]; intros H; [constructor|]. cbn [all_digits forallb] in H. apply andb_prop in H. destruct H as [Hd Hr].
  cbn [map]. constructor; [|now apply IH]. unfold dec_char. now rewrite (is_digit_ch d Hd).
Qed.

Lemma to_digits_chars q : map ch (to_digits q) <> [] /\ Forall (fun ch => dec_char ch = true) (map ch (to_digits q)).
Proof.
  destruct (to_digits_shape q) as (Hd & Hnl & _). split; [destruct (to_digits q); discriminate | now apply all_digits_dec].
Qed.

Lemma format6_chars c x : format6 c x <> [] /\ Forall (fun ch => dec_char ch = true) (format6 c x).
Proof.
  unfold format6. rewrite render_eq. destruct (fmt_parts_fields c x) as [-> ->].
  destruct (to_digits_chars (scaled6 x / 1000000)) as [Hne Hd].
  assert (Hf : all_digits (frac_of c x) = true).
  { unfold frac_of. destruct (strips c); [apply rstrip0_all_digits|]; apply fixed_all_digits. }
  split.
  - destruct (map ch (to_digits (scaled6 x / 1000000))); [contradiction|]. destruct (pneg (fmt_parts c x)); discriminate.
  - apply Forall_app. split; [destruct (pneg (fmt_parts c x)); repeat constructor|]. apply Forall_app. split; [exact Hd|].
    destruct (frac_of c x); [constructor|]. constructor; [reflexivity | now apply all_digits_dec].
Qed.

(** The decimal the text denotes is the value rounded half-even at six places: within 5e-7 of the value
    ([num / den] = 10^6 |x| exactly). *)
Theorem float_text_value_gen c x :
  scaled_value (fmt_parts c x) = scaled6 x /\
  (2 * Z.abs (Z.of_N (scaled6 x) * Z.of_N (snd (num_den x)) - Z.of_N (fst (num_den x))) <= Z.of_N (snd (num_den x)))%Z.
Proof. split; [apply format6_value|apply scaled6_error]. Qed.

(** Texts made of decimal characters are words for any [is_ws] that holds of none of them. *)
Lemma dec_words (is_ws : N -> bool) l : (forall ch, dec_char ch = true -> is_ws ch = false) ->
  Forall (fun t => t <> [] /\ Forall (fun ch => dec_char ch = true) t) l -> Forall (word is_ws) l.
Proof.
  intros Hdec. apply Forall_impl. intros t [Hne Hch]. split; [exact Hne|]. revert Hch. apply Forall_impl. exact Hdec.
Qed.

(** * INTEGER and COLOR *)
Lemma dec_val_digits : forall l acc, all_digits l = true -> dec_val acc (map ch l) = Some (fold_left (fun a d => a * 10 + d) l acc).
Proof.
  induction l as [|d r IH]; intros acc H; [reflexivity|]. cbn [all_digits forallb] in H. apply andb_prop in H. destruct H as [Hd Hr].
  cbn [map dec_val fold_left]. unfold digit_val. rewrite (is_digit_ch d Hd). unfold ch. replace (48 + d - 48) with d by lia.
  now apply IH.
Qed.
(** The digits of [q] are a text that does not start with '-' and reads back as [q]. *)
Lemma to_digits_text q : exists c s, map ch (to_digits q) = c :: s /\ (c =? 45) = false /\ dec_val 0 (c :: s) = Some q.
Proof.
  destruct (to_digits_shape q) as (Hd & Hnl & _). pose proof (dec_val_digits _ 0 Hd) as Hv.
  fold (intval (to_digits q)) in Hv. rewrite to_digits_value in Hv.
  destruct (to_digits q) as [|d r]; [discriminate|]. exists (ch d), (map ch r). repeat split; [|exact Hv].
  cbn [all_digits forallb] in Hd. apply andb_prop in Hd. now apply ch_not_minus.
Qed.

Lemma int_text_chars z : int_text z <> [] /\ Forall (fun ch => dec_char ch = true) (int_text z).
Proof.
  destruct z as [|p|p]; cbn [int_text]; [split; [discriminate | repeat constructor] | apply to_digits_chars |].
  split; [discriminate|]. constructor; [reflexivity | apply to_digits_chars].
Qed.

(** * BINARY *)
Lemma hex_val_hexd n : n < 16 -> hex_val (hexd n) = Some n /\ hex_char (hexd n) = true.
Proof.
  intros H. unfold hexd, hex_val, hex_char. destruct (N.ltb_spec n 10).
  - replace ((48 <=? 48 + n) && (48 + n <=? 57)) with true by lia.
    split; [f_equal; lia|reflexivity].
  - replace ((48 <=? 55 + n) && (55 + n <=? 57)) with false by lia.
    replace ((65 <=? 55 + n) && (55 + n <=? 70)) with true by lia.
    split; [f_equal; lia|reflexivity].
Qed.

Theorem hex_text_roundtrip_gen (is_ws : N -> bool) : is_ws SPC = true -> (forall c, hex_char c = true -> is_ws c = false) ->
  forall bs, Forall (fun b => b < 256) bs -> parse_hex is_ws (hex_text bs) = Some bs.
Proof.
  intros Hsp Hhex.
  assert (Hbyte : forall b rest, b < 256 -> parse_hex is_ws (hex_byte b ++ rest) =
                    match parse_hex is_ws rest with Some r => Some (b :: r) | None => None end).
  { intros b rest Hb. unfold hex_byte. cbn [app parse_hex].
    assert (H1 : b / 16 < 16) by (apply N.div_lt_upper_bound; lia).
    assert (H2 : b mod 16 < 16) by (apply N.mod_lt; lia).
    destruct (hex_val_hexd _ H1) as [Hv1 Hc1]. destruct (hex_val_hexd _ H2) as [Hv2 _].
    rewrite (Hhex _ Hc1), Hv1, Hv2. destruct (parse_hex is_ws rest); [|reflexivity].
    f_equal. f_equal. pose proof (N.div_mod b 16 ltac:(lia)). lia. }
  assert (Htail : forall l, Forall (fun b => b < 256) l ->
            parse_hex is_ws (flat_map (fun y => SPC :: y) (map hex_byte l)) = Some l).
  { induction l as [|b l IH]; intros H; [reflexivity|]. inversion H as [|? ? Hb Hl]; subst.
    cbn [map flat_map]. change (SPC :: hex_byte b ++ ?x) with (SPC :: (hex_byte b ++ x)).
    cbn [app parse_hex]. rewrite Hsp. change (hexd (b / 16) :: hexd (b mod 16) :: ?x) with (hex_byte b ++ x).
    rewrite (Hbyte b _ Hb), (IH Hl). reflexivity. }
  intros [|b bs] H; [reflexivity|]. inversion H as [|? ? Hb Hl]; subst.
  unfold hex_text. cbn [map join_sp]. rewrite (Hbyte b _ Hb), (Htail bs Hl). reflexivity.
Qed.
Example hex_text_example : hex_text [0; 171; 255] = [48;48; 32; 65;66; 32; 70;70] /\ hex_text [] = [].
Proof. split; reflexivity. Qed.

(** * Examples / refutations *)
Example float_text_examples :
  float_text dmx_float_cfg {| dneg := false; dm := 1451; de := (-1)%Z |} = [55; 50; 53; 46; 53] /\        (* 725.5 *)
  float_text dmx_float_cfg {| dneg := true; dm := 0; de := 0%Z |} = [45; 48] /\                           (* -0.0 -> "-0" *)
  float_text dmx_float_cfg {| dneg := false; dm := 1; de := (-30)%Z |} = [48] /\                          (* 2^-30 -> "0" *)
  float_text_cfg_ok dmx_float_cfg = true.
Proof. vm_compute. repeat split; reflexivity. Qed.
(** a vector text written without a separator does not split into its components *)
Example vec_text_needs_separator :
  let xs := [{| dneg := false; dm := 1; de := 0%Z |}; {| dneg := false; dm := 2; de := 0%Z |}] in
  parse_parts (fun c => c =? 32) 2 (concat (map (format6 dmx_float_cfg) xs)) = None.
Proof. vm_compute. reflexivity. Qed.
