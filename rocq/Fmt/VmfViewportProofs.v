(** C06: the planar axis of a 2D viewport survives (axiom-free). *)
From Coq Require Import List Bool ZArith.
From SV Require Import Fmt.VmfViewport.
Import ListNotations.
Open Scope Z_scope.

Lemma getc_write tbl a u v x : getc (vp_write tbl a u v) x = slot_val u v (slot_at (tbl a) x).
Proof. unfold vp_write, slot_at. destruct (tbl a) as [[s1 s2] s3]. now destruct x. Qed.

(** of three different axes, the one that passes a test is the only hit *)
Lemma filter_one_axis (f : ax -> bool) a b c :
  ax_eqb b a = false -> ax_eqb c a = false -> ax_eqb b c = false -> f a = true -> f b = false -> f c = false ->
  filter f [AX; AY; AZ] = [a].
Proof. destruct a, b, c; try discriminate; intros _ _ _ Ha Hb Hc; cbn [filter]; now rewrite Ha, Hb, Hc. Qed.

(** If the generated tables pass [vp_ok], every 2D viewport whose u and v are not marker values re-reads as itself:
    the written vector holds a marker at [a], u and v at the two other axes, so [a] is the only hit of the first tier. *)
Theorem vp_roundtrip tiers tbl inv : vp_ok tiers tbl inv = true ->
  forall t1 r, tiers = t1 :: r ->
  forall a u v, in_tier t1 u = false -> in_tier t1 v = false ->
  vp_read tiers inv (vp_write tbl a u v) = Some (a, u, v).
Proof.
  intros Hok t1 r -> a u v Hu Hv. cbn [vp_ok] in Hok.
  apply andb_true_iff in Hok as [Hok _]. apply andb_true_iff in Hok as [Hok Hz]. apply andb_true_iff in Hok as [Hx Hy].
  assert (Ha : axis_ok t1 tbl inv a = true) by (destruct a; assumption). clear Hx Hy Hz.
  unfold axis_ok in Ha. destruct (inv a) as [ua va] eqn:Ei.
  apply andb_true_iff in Ha as [Ha Duv]. apply andb_true_iff in Ha as [Ha Dva]. apply andb_true_iff in Ha as [Ha Dua].
  apply andb_true_iff in Ha as [Ha Hvs]. apply andb_true_iff in Ha as [Hm Hus]. apply negb_true_iff in Duv, Dva, Dua.
  set (p := vp_write tbl a u v).
  assert (Gm : in_tier t1 (getc p a) = true).
  { unfold p. rewrite getc_write. destruct (slot_at (tbl a) a); try discriminate. exact Hm. }
  assert (Gu : getc p ua = u) by (unfold p; rewrite getc_write; now destruct (slot_at (tbl a) ua)).
  assert (Gv : getc p va = v) by (unfold p; rewrite getc_write; now destruct (slot_at (tbl a) va)).
  unfold vp_read. cbn [vp_choose]. unfold hits.
  rewrite (filter_one_axis _ a ua va Dua Dva Duv Gm) by now rewrite ?Gu, ?Gv.
  now rewrite Ei, Gu, Gv.
Qed.

(** The pinned tree's tables, and the defect of the reader (a zero accepted as marker in the same tier as +-65536). *)
Definition ex_tbl (a : ax) : slots :=
  match a with AX => (SMark 65536, SU, SV) | AY => (SU, SMark (-65536), SV) | AZ => (SU, SV, SMark 65536) end.
Definition ex_inv (a : ax) : ax * ax := match a with AX => (AY, AZ) | AY => (AX, AZ) | AZ => (AX, AY) end.
Definition ex_tiers : list (list Z) := [[-65536; 65536]; [0]].
Definition ex_tiers_zero_first : list (list Z) := [[-65536; 65536; 0]].

