(** Proofs for Fmt/DmxMembersKv2.v: what the KeyValues2 reader builds from what the writer wrote for a dict denotes the
    same element (name, attribute records in order), for every dict keyed by the casefolded names — hence for every
    history of the mapping API — whatever the spelling of the name member, for either name test and any skip test that
    skips only the member keyed "name". *)
From Coq Require Import NArith ZArith List Bool.
From SV Require Import Fmt.DmxCodes Fmt.DmxBin Fmt.DmxBinLemmas Fmt.DmxMembers Fmt.DmxMembersProofs
  Fmt.DmxMembersParse Fmt.DmxMembersParseProofs Fmt.DmxMembersKv2.
Import ListNotations.

Section Fold.
  Variable fold : str -> str.
  Hypothesis FN : fold s_name = s_name.
  Variable t : nametest.
  Variable v : str.

  Definition key (a : attr) : str := fold (aname a).
  Definition nonname (a : attr) : bool := negb (str_eqb (key a) s_name).

  Lemma is_name_key : forall a, is_name fold t (aname a) = true -> key a = s_name.
  Proof.
    intros a H. unfold key. destruct t; cbn [is_name] in H; apply str_eqb_true in H; [now rewrite H|exact H].
  Qed.

  (** One record whose key is "name" (the name line, or a member spelled otherwise) replaces the name member, through the
      setter or through the store; the member holds [v] again. *)
  Lemma read_rec_name : forall a an rest, fold (aname an) = s_name -> key a = s_name -> adata a = VStr (Scalar v) ->
    exists an', adata an' = VStr (Scalar v) /\ fold (aname an') = s_name /\
      kv2_read_rec fold t KFolded ((s_name, an) :: rest) a = (s_name, an') :: rest.
  Proof.
    intros a an rest KA KN DA. unfold kv2_read_rec. destruct (is_name fold t (aname a)).
    - rewrite DA. cbn [apply_op mget]. rewrite str_eqb_refl. cbn [mset]. rewrite str_eqb_refl.
      exists {| aname := aname an; adata := VStr (Scalar v) |}. repeat split. exact KA.
    - unfold store. cbn [key_of]. fold (key a). rewrite KN. cbn [mset]. rewrite str_eqb_refl.
      exists a. repeat split; assumption.
  Qed.

  (** A record with a new key other than "name" is appended. *)
  Lemma read_rec_other : forall a an rest, str_eqb (key a) s_name = false -> ~ In (key a) (map fst rest) ->
    kv2_read_rec fold t KFolded ((s_name, an) :: rest) a = (s_name, an) :: rest ++ [(key a, a)].
  Proof.
    intros a an rest KE NI. unfold kv2_read_rec. destruct (is_name fold t (aname a)) eqn:IS.
    - apply is_name_key in IS. rewrite IS, str_eqb_refl in KE. discriminate.
    - unfold store. cbn [key_of]. fold (key a). cbn [mset]. rewrite KE, mset_new by exact NI. reflexivity.
  Qed.

  Lemma read_fold : forall l rest an,
    adata an = VStr (Scalar v) -> fold (aname an) = s_name ->
    (forall ka, In ka rest -> fst ka <> s_name) ->
    NoDup (map fst rest ++ map key (filter nonname l)) ->
    (forall a, In a l -> key a = s_name -> adata a = VStr (Scalar v)) ->
    exists an', adata an' = VStr (Scalar v) /\ fold (aname an') = s_name /\
      fold_left (kv2_read_rec fold t KFolded) l ((s_name, an) :: rest)
      = (s_name, an') :: rest ++ map (fun a => (key a, a)) (filter nonname l).
  Proof.
    induction l as [|a l IH]; intros rest an DA KA NR ND NV; cbn [fold_left filter map] in *.
    - exists an. now rewrite app_nil_r.
    - assert (NVl : forall b, In b l -> key b = s_name -> adata b = VStr (Scalar v)) by (intros b I; apply NV; now right).
      assert (NN : nonname a = negb (str_eqb (key a) s_name)) by reflexivity. rewrite NN in *.
      destruct (str_eqb (key a) s_name) eqn:KE; cbn [negb] in *.
      + apply str_eqb_true in KE.
        destruct (read_rec_name a an rest KA KE (NV a (or_introl eq_refl) KE)) as (an' & DA' & KA' & ->).
        apply IH; assumption.
      + cbn [map] in ND. rewrite read_rec_other; [|exact KE|].
        2:{ apply NoDup_remove_2 in ND. intro X. apply ND. apply in_or_app. now left. }
        destruct (IH (rest ++ [(key a, a)]) an DA KA) as [an' [D' [K' E']]].
        * intros ka I. apply in_app_or in I. destruct I as [I|[<-|[]]]; [now apply NR|]. cbn [fst]. now apply str_eqb_false.
        * rewrite map_app. cbn [map fst]. rewrite <- app_assoc. exact ND.
        * exact NVl.
        * exists an'. split; [exact D'|split; [exact K'|]]. rewrite E'. cbn [map]. now rewrite <- app_assoc.
  Qed.
End Fold.

Lemma filter_ok_skips_name_key : forall fold f ka, fold s_name = s_name -> kv2_filter_ok f = true ->
  fst ka = fold (aname (snd ka)) -> skipped f ka = true -> fst ka = s_name.
Proof.
  intros fold f ka FN OK KB S. destruct f as [k|k|]; cbn [kv2_filter_ok skipped] in *; try discriminate.
  - apply str_eqb_true in OK. apply str_eqb_true in S. congruence.
  - apply str_eqb_true in OK. apply str_eqb_true in S. rewrite KB, S, OK. exact FN.
Qed.

(** the records with a key other than "name" among those the writer keeps are all members keyed other than "name" *)
Lemma kept_nonname : forall fold f m, fold s_name = s_name -> kv2_filter_ok f = true -> keyed_by_fold fold m ->
  filter (nonname fold) (map snd (records f m)) = map snd (records (FKeyIs s_name) m).
Proof.
  intros fold f m FN OK KB. induction m as [|ka r IH]; [reflexivity|].
  inversion KB as [|? ? K1 K2]; subst. rewrite !records_cons. specialize (IH K2).
  destruct (skipped f ka) eqn:S.
  - pose proof (filter_ok_skips_name_key fold f ka FN OK K1 S) as E. unfold skipped at 1. rewrite E, str_eqb_refl. exact IH.
  - cbn [map filter]. unfold nonname at 1, key. rewrite <- K1. unfold skipped at 1.
    destruct (str_eqb (fst ka) s_name); cbn [negb]; [exact IH|cbn [map]; now rewrite IH].
Qed.

(** What the reader builds from what the writer wrote: a name member holding Element.name, then every member keyed other
    than "name" under its key, in order. *)
Theorem kv2_read_written : forall fold t cc f (m : members) block_name,
  fold s_name = s_name -> name_getter_ok cc = true -> kv2_filter_ok f = true ->
  keys_nodup m -> keyed_by_fold fold m -> name_is_string m ->
  exists an, adata an = VStr (Scalar (rname cc m)) /\ fold (aname an) = s_name /\
    kv2_read fold t KFolded block_name (kv2_written cc f m) = (s_name, an) :: records (FKeyIs s_name) m.
Proof.
  intros fold t cc f m bn FN NG OK ND KB NS.
  unfold kv2_read, kv2_written, init_members. cbn [fold_left]. set (v := rname cc m).
  (* the name line replaces the name member the block starts with *)
  destruct (read_rec_name fold t v {| aname := s_name; adata := VStr (Scalar v) |} {| aname := s_name; adata := VStr (Scalar bn) |}
              [] FN FN eq_refl) as (an0 & D0 & K0 & ->).
  pose proof (records_keyed fold (FKeyIs s_name) m KB) as KR.
  destruct (read_fold fold FN t v (map snd (records f m)) [] an0 D0 K0) as [an [DA [KA E]]].
  - intros ka [].
  - cbn [map app]. rewrite (kept_nonname fold f m FN OK KB). unfold key.
    rewrite (keyed_keys fold _ KR). apply records_nodup. exact ND.
  - (* a record kept by the writer whose key is "name" is the name member: a scalar string equal to Element.name *)
    intros a I KN. apply in_map_iff in I. destruct I as [ka [<- I]]. apply (incl_filter _ m) in I.
    unfold keyed_by_fold in KB. rewrite Forall_forall in KB. unfold key in KN. rewrite <- (KB ka I) in KN.
    assert (G : mget s_name m = Some (snd ka)) by (apply mget_in; [exact ND | rewrite <- KN; now destruct ka]).
    unfold name_is_string in NS. rewrite G in NS. destruct NS as [s Hs]. rewrite Hs. f_equal. f_equal.
    symmetry. exact (rname_string cc m _ s NG G Hs).
  - exists an. split; [exact DA|split; [exact KA|]]. rewrite E. cbn [app]. f_equal.
    rewrite (kept_nonname fold f m FN OK KB). unfold key. apply keyed_rebuild. exact KR.
Qed.

Lemma records_idem : forall f m, records f (records f m) = records f m.
Proof.
  intros f m. unfold records. induction m as [|ka r IH]; [reflexivity|]. cbn [filter].
  destruct (negb (skipped f ka)) eqn:S; [cbn [filter]; rewrite S; now rewrite IH|exact IH].
Qed.

(** Hence the element read denotes the element written: same name, same attribute records in the same order. *)
Theorem kv2_members_roundtrip : forall fold t cc f (r : relem) block_name,
  fold s_name = s_name -> name_getter_ok cc = true -> kv2_filter_ok f = true ->
  keys_nodup (r_members r) -> keyed_by_fold fold (r_members r) -> name_is_string (r_members r) ->
  abstract cc {| r_type := r_type r; r_uuid := r_uuid r; r_members := kv2_read fold t KFolded block_name (kv2_written cc f (r_members r)) |}
  = abstract cc r.
Proof.
  intros fold t cc f r bn FN NG OK ND KB NS.
  destruct (kv2_read_written fold t cc f (r_members r) bn FN NG OK ND KB NS) as [an [DA [KA E]]].
  unfold abstract, view. cbn [r_type r_uuid r_members]. rewrite E. f_equal.
  - exact (rname_string cc _ an _ NG (mget_head _ _ _) DA).
  - rewrite records_skip_head. now rewrite records_idem.
Qed.

(** Examples.  [elem['NAME'] = 'x'; elem['Ab'] = 5] after [clear()]: the loop of _export_kv2 ([attr.name == 'name']) keeps
    the member spelled NAME, the reader stores it under "name" again: spelling kept.  With the dict-key test of
    export_binary the member is skipped and the name line alone restores it, spelled "name".  Both denote the same element. *)
Definition name_upper : str := [78; 65; 77; 69]%N.
Definition kv2_hist : list mop := [OClear; OSet name_upper (VStr (Scalar [120]%N)); OSet [65; 98]%N (VFix TInt (Scalar [5; 0; 0; 0]%N))].
Definition kv2_hist_m : members := run_ops ascii_lower kv2_hist (init_members [110]%N).

