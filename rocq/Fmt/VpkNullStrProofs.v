(** Proofs about Fmt/VpkNullStr.v: the reader shapes accepted by [reader_ok] are the model reader [read_cstr] of Fmt/VpkDir.v on
    every input; round trip of every representable string of any length; the one-block reader is refuted for every block size. *)
From Coq Require Import List NArith Bool Lia.
From SV Require Import Fmt.VpkDir Fmt.VpkDirProofs SM.Vpk SM.VpkProofs Fmt.VpkNullStr.
Import ListNotations.
Open Scope N_scope.

Definition lift (acc : bytes) (x : option (bytes * bytes)) : option (bytes * bytes) :=
  match x with Some (s, r) => Some (acc ++ s, r) | None => None end.

Lemma lift_nil x : lift [] x = x.
Proof. destruct x as [[s r]|]; reflexivity. Qed.

Lemma lift_lift a b x : lift a (lift b x) = lift (a ++ b) x.
Proof. destruct x as [[s r]|]; cbn; [now rewrite app_assoc|reflexivity]. Qed.

Lemma rev_rev_append (c racc : bytes) : rev (rev_append c racc) = rev racc ++ c.
Proof. now rewrite rev_append_rev, rev_app_distr, rev_involutive. Qed.

(** ---- one byte at a time ---- *)
Lemma accum_loop_1 : forall bs fuel racc, (length bs < fuel)%nat ->
  accum_loop fuel 1 racc bs = lift (rev racc) (read_cstr bs).
Proof.
  induction bs as [|b r IH]; intros fuel racc Hf; (destruct fuel as [|f]; [cbn in Hf; lia|]).
  - reflexivity.
  - cbn [accum_loop firstn skipn read_cstr bytes_eqb]. rewrite andb_true_r.
    destruct (b =? 0) eqn:E.
    + cbn. now rewrite app_nil_r.
    + rewrite IH by (cbn in Hf; lia). rewrite rev_rev_append.
      destruct (read_cstr r) as [[s r']|]; cbn; [|reflexivity].
      now rewrite <- app_assoc.
Qed.

(** ---- blocks ---- *)
Lemma find0_some : forall bs n e, find0 (firstn n bs) = Some e ->
  read_cstr bs = Some (firstn e bs, skipn (S e) bs).
Proof.
  induction bs as [|b r IH]; intros n e H.
  - destruct n; discriminate.
  - destruct n as [|n]; [discriminate|]. cbn [firstn find0] in H. cbn [read_cstr].
    destruct (b =? 0).
    + injection H as <-. reflexivity.
    + destruct (find0 (firstn n r)) as [e'|] eqn:F; [|discriminate]. injection H as <-.
      rewrite (IH _ _ F). reflexivity.
Qed.

Lemma find0_none : forall bs n, find0 (firstn n bs) = None ->
  read_cstr bs = lift (firstn n bs) (read_cstr (skipn n bs)).
Proof.
  induction bs as [|b r IH]; intros n H.
  - destruct n; reflexivity.
  - destruct n as [|n].
    + cbn [firstn skipn]. now rewrite lift_nil.
    + cbn [firstn find0] in H. cbn [read_cstr firstn skipn].
      destruct (b =? 0); [discriminate|].
      destruct (find0 (firstn n r)) eqn:F; [discriminate|].
      rewrite (IH _ F). destruct (read_cstr (skipn n r)) as [[s r']|]; reflexivity.
Qed.

Lemma block_loop_ok : forall fuel n bs racc, (0 < n)%nat -> (length bs < fuel)%nat ->
  block_loop fuel n racc bs = lift (rev racc) (read_cstr bs).
Proof.
  induction fuel as [|f IH]; intros n bs racc Hn Hf; [lia|].
  cbn [block_loop]. destruct (find0 (firstn n bs)) as [e|] eqn:F.
  - now rewrite (find0_some _ _ _ F).
  - rewrite (find0_none _ _ F). destruct (firstn n bs) as [|x c] eqn:C.
    + destruct bs as [|b r]; [now rewrite skipn_nil|]. destruct n; [lia|discriminate].
    + assert (length (skipn n bs) < f)%nat.
      { assert (length (firstn n bs) + length (skipn n bs) = length bs)%nat
          by (rewrite <- app_length, firstn_skipn; reflexivity).
        rewrite C in H. cbn in H. lia. }
      rewrite IH by assumption. now rewrite rev_rev_append, lift_lift.
Qed.

(** The accepted reader shapes are the model reader, on every input (well-formed or not). *)
Theorem reader_ok_is_read_cstr r : reader_ok r = true -> forall bs, read_cstr_r r bs = read_cstr bs.
Proof.
  destruct r as [n|n|n|n]; cbn [reader_ok]; intros H bs; [|discriminate| |discriminate].
  - apply N.eqb_eq in H. subst n. unfold read_cstr_r. change (N.to_nat 1) with 1%nat.
    rewrite accum_loop_1 by lia. apply lift_nil.
  - apply N.ltb_lt in H. unfold read_cstr_r. rewrite block_loop_ok by lia. apply lift_nil.
Qed.

Lemma ncodec_ok_parts k : ncodec_ok k = true ->
  reader_ok (nc_reader k) = true /\ nc_term k = [0] /\ nc_blank_r k = [32] /\ nc_blank_w k = [32; 0].
Proof.
  unfold ncodec_ok. intros H.
  apply andb_prop in H as [H _]. apply andb_prop in H as [H _]. apply andb_prop in H as [H Hw].
  apply andb_prop in H as [H Hb]. apply andb_prop in H as [Hr Ht].
  apply bytes_eqb_eq in Ht, Hb, Hw. rewrite Ht, Hb in Hw. auto.
Qed.

(** With [ncodec_ok], both functions are the ones the directory codec Fmt/VpkDir.v is defined and proved with. *)
Theorem ncodec_ok_is_model k : ncodec_ok k = true ->
  (forall s, write_cstr_k k s = write_cstr s) /\ (forall bs, next_str_k k bs = next_str bs).
Proof.
  intros H. destruct (ncodec_ok_parts _ H) as (Hr & Ht & Hb & Hw). split.
  - intros [|a s]; unfold write_cstr_k, write_cstr; now rewrite ?Hw, ?Ht.
  - intros bs. unfold next_str_k, next_str. rewrite (reader_ok_is_read_cstr _ Hr), Hb.
    destruct (read_cstr bs) as [[s r]|]; [|reflexivity].
    destruct s as [|a [|b s]]; cbn [bytes_eqb]; try reflexivity.
    + rewrite andb_true_r. destruct (a =? 32); reflexivity.
    + now rewrite andb_false_r.
Qed.

(** Round trip of one string: every representable string (no NUL, bytes < 256, not the single space), of any length, followed by
    anything. *)
Theorem nullstr_roundtrip k : ncodec_ok k = true -> forall s rest, str_ok s = true ->
  next_str_k k (write_cstr_k k s ++ rest) = Some (Some s, rest).
Proof.
  intros H s rest Hs. destruct (ncodec_ok_is_model _ H) as [Hw Hn]. rewrite Hw, Hn. now apply next_str_write.
Qed.

Theorem nullstr_end k : ncodec_ok k = true -> forall rest, next_str_k k (0 :: rest) = Some (None, rest).
Proof. intros H rest. destruct (ncodec_ok_is_model _ H) as [_ Hn]. now rewrite Hn. Qed.

Lemma write_cstr_k_len k : ncodec_ok k = true -> forall s, (1 <= length (write_cstr_k k s))%nat.
Proof. intros H s. destruct (ncodec_ok_is_model _ H) as [Hw _]. rewrite Hw. apply write_cstr_len. Qed.

(** Round trip of a whole section: the generator yields exactly the strings written, in order, and leaves the file just after
    the section's terminator. *)
Lemma iter_k_section k : ncodec_ok k = true -> forall l rest fuel, forallb str_ok l = true ->
  (length l < fuel)%nat -> iter_k fuel k (write_section_k k l ++ rest) = Some (l, rest).
Proof.
  intros H. induction l as [|s l IH]; intros rest fuel Hl Hf; (destruct fuel as [|f]; [cbn in Hf; lia|]).
  - unfold write_section_k. cbn [flat_map app iter_k]. now rewrite (nullstr_end _ H).
  - cbn [forallb] in Hl. apply andb_prop in Hl as [Hs Hl].
    unfold write_section_k in *. cbn [flat_map iter_k]. rewrite <- !app_assoc.
    rewrite (nullstr_roundtrip _ H _ _ Hs). rewrite app_assoc. rewrite IH by (cbn in Hf; try assumption; lia). reflexivity.
Qed.

Theorem nullstr_section_roundtrip k : ncodec_ok k = true -> forall l rest, forallb str_ok l = true ->
  iter_nullstr_k k (write_section_k k l ++ rest) = Some (l, rest).
Proof.
  intros H l rest Hl. unfold iter_nullstr_k. apply iter_k_section; try assumption.
  rewrite app_length. unfold write_section_k. rewrite app_length. cbn [length].
  enough (length l <= length (flat_map (write_cstr_k k) l))%nat by lia.
  clear Hl. induction l as [|s l IH]; cbn [flat_map length]; [lia|].
  rewrite app_length. pose proof (write_cstr_k_len _ H s). lia.
Qed.

(** ---- refutations ---- *)
Lemma find0_nonzero s : forallb (fun b => negb (b =? 0)) s = true -> find0 s = None.
Proof.
  induction s as [|b s IH]; cbn; [reflexivity|]. intros H. apply andb_prop in H as [Hb Hs].
  destruct (b =? 0); [discriminate|]. now rewrite IH.
Qed.

(** A reader that looks at one block of [n] bytes only: every NUL-free string of [n] or more bytes, which the writer accepts and the
    model reader reads, makes it raise — for every block size (seeded fault c13_4 is [n = 256]). *)
Theorem block_reader_refuted n s rest :
  forallb (fun b => negb (b =? 0)) s = true -> (N.to_nat n <= length s)%nat ->
  read_cstr_r (RBlock n) (s ++ 0 :: rest) = None.
Proof.
  intros Hs Hn. unfold read_cstr_r, block_once.
  rewrite firstn_app. replace (N.to_nat n - length s)%nat with 0%nat by lia. cbn [firstn]. rewrite app_nil_r.
  rewrite find0_nonzero; [reflexivity|].
  rewrite <- (firstn_skipn (N.to_nat n) s) in Hs. rewrite forallb_app in Hs. now apply andb_prop in Hs as [Hs _].
Qed.

Example block_256_refuted :
  let s := repeat 97 256 in
  str_ok s = true /\ next_str (write_cstr s ++ [7]) = Some (Some s, [7])
  /\ next_str_k (ncodec_block 256) (write_cstr_k (ncodec_block 256) s ++ [7]) = None
  /\ ncodec_ok (ncodec_block 256) = false
  /\ next_str_k (ncodec_block 256) (write_cstr_k (ncodec_block 256) (repeat 97 255) ++ [7]) = Some (Some (repeat 97 255), [7]).
Proof. vm_compute. repeat split; reflexivity. Qed.

(** Reading two bytes at a time in the accumulate shape never sees a lone NUL inside the file. *)
Example accum_2_refuted :
  read_cstr [97; 0; 98; 0] = Some ([97], [98; 0]) /\ read_cstr_r (RAccum 2) [97; 0; 98; 0] = None
  /\ reader_ok (RAccum 2) = false /\ reader_ok (RAccum 0) = false.
Proof. vm_compute. repeat split; reflexivity. Qed.

(** Non-vacuity: the pinned shape and a looping block reader satisfy the premises. *)
Example ncodec_pinned_ok : ncodec_ok ncodec_pinned = true
  /\ reader_ok (RBlockLoop 256) = true
  /\ iter_nullstr_k ncodec_pinned (write_section_k ncodec_pinned [[116; 120; 116]; []; repeat 101 300] ++ [1; 2])
     = Some ([[116; 120; 116]; []; repeat 101 300], [1; 2]).
Proof. vm_compute. repeat split; reflexivity. Qed.

