(** C14 — proofs about the fixed-width value codecs (Fmt/DmxScalar.v). *)
From Coq Require Import NArith ZArith QArith Qround Qabs Qpower Lqa Lia List Bool String Ascii PeanoNat.
From SV Require Import Bin.LE Bin.Struct Bin.StructProofs Fmt.DmxCodes Fmt.DmxScalar.
Import ListNotations.

(** * Rounding *)
Lemma inject_Z_lt_inv a b : (inject_Z a < inject_Z b)%Q -> (a < b)%Z.
Proof. intros H. rewrite Zlt_Qlt. exact H. Qed.

Lemma q_round_he_error x : (Qabs (inject_Z (q_round_he x) - x) <= 1 # 2)%Q.
Proof.
  pose proof (Qfloor_le x) as Hf1. pose proof (Qlt_floor x) as Hf2.
  rewrite inject_Z_plus in Hf2. change (inject_Z 1) with 1%Q in Hf2.
  unfold q_round_he. apply Qabs_Qle_condition.
  match goal with |- context [Qcompare ?a ?b] => destruct (Qcompare_spec a b) as [C|C|C] end.
  - destruct (Z.even (Qfloor x)); [|rewrite inject_Z_plus; change (inject_Z 1) with 1%Q]; lra.
  - lra.
  - rewrite inject_Z_plus. change (inject_Z 1) with 1%Q. lra.
Qed.

(** A rational within 1/2 of an integer rounds to that integer: the two integers are less than 1 apart. *)
Lemma q_round_he_near : forall x k, (Qabs (x - inject_Z k) < 1 # 2)%Q -> q_round_he x = k.
Proof.
  intros x k H. apply Qabs_diff_Qlt_condition in H.
  pose proof (q_round_he_error x) as E. apply Qabs_diff_Qle_condition in E.
  assert (B : (k < q_round_he x + 1 < k + 2)%Z).
  { rewrite !Zlt_Qlt, !inject_Z_plus. change (inject_Z 1) with 1%Q. change (inject_Z 2) with 2%Q. lra. }
  lia.
Qed.

Lemma int32_ok_iff k : int32_ok k = true <-> (- 2 ^ 31 <= k < 2 ^ 31)%Z.
Proof.
  unfold int32_ok, in_range, modulus. change (256 ^ Z.of_nat 4 / 2)%Z with (2 ^ 31)%Z.
  rewrite andb_true_iff, Z.leb_le, Z.ltb_lt. reflexivity.
Qed.

(** * The TIME codec on tick-exact values *)
(** A relative error bound is unchanged by scaling both sides. *)
Lemma rel_err_scale u d q s : (0 < s -> Qabs (d - q) <= u * Qabs q -> Qabs (d * s - q * s) <= u * Qabs (q * s))%Q.
Proof.
  intros Hs H. setoid_replace (d * s - q * s)%Q with ((d - q) * s)%Q by ring.
  rewrite !Qabs_Qmult, (Qabs_pos s), Qmult_assoc by lra. apply Qmult_le_compat_r; [exact H|lra].
Qed.

Section Time.
  Variable fmul fdiv : Q -> Q -> Q.
  Variable S : Z.
  Hypothesis S_pos : (0 < S)%Z.
  Definition u53 : Q := 1 # (2 ^ 53).
  Lemma u53_pow : (u53 == 2 ^ (-53))%Q.
  Proof. reflexivity. Qed.
  (** What is assumed of IEEE binary64 division and multiplication (the "standard model" of round-to-nearest,
      relative error at most 2^-53), only at the operands the codec uses: [k / S] and [(k / S) * S] for a 32-bit [k]
      (no overflow or underflow can occur there). *)
  Definition std_model_on_ticks : Prop :=
    forall k, int32_ok k = true ->
      let q := (inject_Z k / inject_Z S)%Q in
      let d := fdiv (inject_Z k) (inject_Z S) in
      (Qabs (d - q) <= u53 * Qabs q)%Q /\
      (Qabs (fmul d (inject_Z S) - d * inject_Z S) <= u53 * Qabs (d * inject_Z S))%Q.
  Hypothesis Hstd : std_model_on_ticks.

  Lemma int32_bound k : int32_ok k = true -> (Qabs (inject_Z k) <= 2 ^ 31)%Q.
  Proof.
    intros H. apply int32_ok_iff in H. apply Qabs_Qle_condition. change (2 ^ 31)%Q with (inject_Z (2 ^ 31)).
    rewrite <- inject_Z_opp, <- !Zle_Qle. lia.
  Qed.

  (** [round((k / S) * S) = k] in floating point, for every 32-bit tick count. *)
  Theorem time_ticks_exact : forall k, int32_ok k = true ->
    q_round_he (fmul (fdiv (inject_Z k) (inject_Z S)) (inject_Z S)) = k.
  Proof.
    intros k Hk. apply q_round_he_near.
    destruct (Hstd k Hk) as [Hd Hm]. cbv zeta in Hd, Hm.
    set (s := inject_Z S) in *. set (kq := inject_Z k) in *.
    assert (Hs : (0 < s)%Q). { change (inject_Z 0 < inject_Z S)%Q. rewrite <- Zlt_Qlt. exact S_pos. }
    (* the exact product p = d * s is within u |k| of k, since (k / s) * s = k *)
    apply (rel_err_scale _ _ _ s Hs) in Hd.
    setoid_replace (kq / s * s)%Q with kq in Hd by (field; lra).
    set (p := (fdiv kq s * s)%Q) in *.
    (* |m - k| <= |m - p| + |p - k| <= u |p| + u |k|, where |p| <= |k| + u |k| and |k| <= 2^31 *)
    setoid_replace (fmul (fdiv kq s) s - kq)%Q with ((fmul (fdiv kq s) s - p) + (p - kq))%Q by ring.
    eapply Qle_lt_trans; [apply Qabs_triangle|].
    pose proof (Qabs_triangle_reverse p kq) as Hp. pose proof (int32_bound k Hk) as Hb. fold kq in Hb.
    rewrite u53_pow in *. lra.
  Qed.
End Time.

(** * The executable binary64 rounding [rn64] meets the standard model: |rn64 x - x| <= 2^-53 |x| for every rational
    (no exponent range in the model: overflow and subnormal results cannot occur at the operands of the codec). *)
Local Open Scope Q_scope.
Lemma pow2_pos e : (0 <= e)%Z -> (0 < 2 ^ e)%Z.
Proof. intros. apply Z.pow_pos_nonneg; lia. Qed.
(** The rational power [2 ^ e] in terms of the integer powers the model computes with. *)
Lemma pow2_inj e : (0 <= e)%Z -> inject_Z (2 ^ e) == 2 ^ e.
Proof. apply (Zpower_Qpower 2). Qed.
Lemma pow2_neg e : (e < 0)%Z -> 2 ^ e == / inject_Z (2 ^ (- e)).
Proof. intros H. rewrite pow2_inj by lia. rewrite <- Qpower_opp, Z.opp_involutive. reflexivity. Qed.

Lemma scaled_pow n d e : (0 < d)%Z -> scaled n d e * 2 ^ e == n # Z.to_pos d.
Proof.
  intros Hd. pose proof (Qpower_0_lt 2 e eq_refl) as Hp. unfold scaled. destruct (Z.leb_spec 0 e).
  - rewrite <- pow2_inj by assumption. pose proof (pow2_pos e H). unfold Qeq, Qmult, inject_Z. cbn [Qnum Qden].
    rewrite Pos.mul_1_r. rewrite !Z2Pos.id by nia. ring.
  - rewrite pow2_neg in * by assumption.
    setoid_replace (n * 2 ^ (- e) # Z.to_pos d) with ((n # Z.to_pos d) * inject_Z (2 ^ (- e))).
    + field. intros E. rewrite E in Hp. revert Hp. apply Qlt_irrefl.
    + unfold Qeq, Qmult, inject_Z. cbn [Qnum Qden]. rewrite Pos.mul_1_r. ring.
Qed.

Definition P52 (n d e : Z) : Prop := 2 ^ 52 <= scaled n d e.

Lemma P52_step n d e : (0 < d)%Z -> (Qfloor (scaled n d e) <? 2 ^ 53)%Z = false -> P52 n d (e + 1).
Proof.
  intros Hd H. apply Z.ltb_ge in H. rewrite Zle_Qle in H. change (inject_Z (2 ^ 53)) with (2 ^ 53) in H.
  pose proof (Qfloor_le (scaled n d e)) as Hf.
  pose proof (scaled_pow n d e Hd) as H1. pose proof (scaled_pow n d (e + 1) Hd) as H2.
  rewrite Qpower_plus in H2 by discriminate. pose proof (Qpower_0_lt 2 e eq_refl) as Ht.
  assert (E : scaled n d e * 2 ^ e == (2 * scaled n d (e + 1)) * 2 ^ e) by (rewrite H1, <- H2; ring).
  apply Qmult_inj_r in E; [|lra]. unfold P52. lra.
Qed.

Lemma P52_e0 n d : (0 < n)%Z -> (0 < d)%Z -> P52 n d (Z.log2 n - Z.log2 d - 53).
Proof.
  intros Hn Hd. unfold P52, scaled. change (2 ^ 52) with (inject_Z (2 ^ 52)).
  pose proof (Z.log2_spec n Hn) as [Hn1 Hn2]. pose proof (Z.log2_spec d Hd) as [Hd1 Hd2].
  pose proof (Z.log2_nonneg n) as Ln. pose proof (Z.log2_nonneg d) as Ld.
  set (ln := Z.log2 n) in *. set (ld := Z.log2 d) in *.
  destruct (Z.leb_spec 0 (ln - ld - 53)) as [He|He].
  - pose proof (pow2_pos (ln - ld - 53) He) as Hp.
    unfold Qle, inject_Z. cbn [Qnum Qden]. rewrite Z2Pos.id by nia.
    assert (E : (2 ^ ln = 2 ^ 52 * 2 ^ (Z.succ ld) * 2 ^ (ln - ld - 53))%Z).
    { rewrite <- !Z.pow_add_r by lia. f_equal. lia. }
    nia.
  - pose proof (pow2_pos (- (ln - ld - 53)) ltac:(lia)) as Hp.
    unfold Qle, inject_Z. cbn [Qnum Qden]. rewrite Z2Pos.id by lia.
    assert (E : (2 ^ ln * 2 ^ (- (ln - ld - 53)) = 2 ^ 52 * 2 ^ (Z.succ ld))%Z).
    { rewrite <- !Z.pow_add_r by lia. f_equal. lia. }
    nia.
Qed.

Lemma pick_P52 n d : (0 < d)%Z -> forall k e, P52 n d e -> P52 n d (pick_exp n d k e).
Proof.
  intros Hd. induction k as [|k IH]; intros e He; cbn [pick_exp]; [exact He|].
  destruct (Qfloor (scaled n d e) <? 2 ^ 53)%Z eqn:E; [exact He|]. apply IH. now apply P52_step.
Qed.

Lemma rn64_pos_error n d : (0 < n)%Z -> (0 < d)%Z ->
  Qabs (rn64_pos n d - (n # Z.to_pos d)) <= u53 * (n # Z.to_pos d).
Proof.
  intros Hn Hd. unfold rn64_pos.
  set (e := pick_exp n d 3 (Z.log2 n - Z.log2 d - 53)).
  assert (HP : P52 n d e) by (apply pick_P52; [exact Hd|now apply P52_e0]). unfold P52 in HP.
  set (sc := scaled n d e) in *. set (m := q_round_he sc).
  pose proof (scaled_pow n d e Hd) as Hx. fold sc in Hx. pose proof (Qpower_0_lt 2 e eq_refl) as Ht.
  assert (Hres : (if (0 <=? e)%Z then inject_Z (m * 2 ^ e) else m # Z.to_pos (2 ^ (- e))) == inject_Z m * 2 ^ e).
  { destruct (Z.leb_spec 0 e).
    - now rewrite inject_Z_mult, pow2_inj.
    - pose proof (pow2_pos (- e) ltac:(lia)). rewrite pow2_neg, Qmake_Qdiv by assumption. rewrite Z2Pos.id by lia. reflexivity. }
  rewrite Hres, <- Hx.
  setoid_replace (inject_Z m * 2 ^ e - sc * 2 ^ e) with ((inject_Z m - sc) * 2 ^ e) by ring.
  rewrite Qabs_Qmult, (Qabs_pos (2 ^ e)), Qmult_assoc by lra.
  (* |m - sc| <= 1/2 <= 2^-53 sc, since 2^52 <= sc *)
  pose proof (q_round_he_error sc) as Hm. fold m in Hm.
  apply Qmult_le_compat_r; [|lra]. rewrite u53_pow. lra.
Qed.

Lemma rn64_error x : Qabs (rn64 x - x) <= u53 * Qabs x.
Proof.
  destruct x as [n d]. unfold rn64. cbn [Qnum Qden].
  assert (Hp : forall p, Qabs (rn64_pos (Zpos p) (Zpos d) - (Zpos p # d)) <= u53 * Qabs (Zpos p # d)).
  { intros p. rewrite (Qabs_pos (Zpos p # d)) by (unfold Qle; cbn; lia).
    exact (rn64_pos_error (Zpos p) (Zpos d) eq_refl eq_refl). }
  destruct n as [|p|p].
  - unfold u53, Qle; cbn; lia.
  - apply Hp.
  - setoid_replace (Z.neg p # d) with (- (Zpos p # d)) by reflexivity.
    setoid_replace (- rn64_pos (Z.pos p) (Z.pos d) - - (Z.pos p # d)) with (- (rn64_pos (Z.pos p) (Z.pos d) - (Z.pos p # d))) by ring.
    rewrite !Qabs_opp. apply Hp.
Qed.

(** the executable binary64 operations meet the standard model at every operand *)
Lemma rn64_Qred_error x : Qabs (rn64 (Qred x) - x) <= u53 * Qabs x.
Proof.
  pose proof (rn64_error (Qred x)) as H. pose proof (Qred_correct x) as E. set (r := Qred x) in *. now rewrite <- E.
Qed.
Lemma fmul64_error a b : Qabs (fmul64 a b - a * b) <= u53 * Qabs (a * b).
Proof. apply rn64_Qred_error. Qed.
Lemma fdiv64_error a b : Qabs (fdiv64 a b - a / b) <= u53 * Qabs (a / b).
Proof. apply rn64_Qred_error. Qed.

Theorem std_model_rn64 S : std_model_on_ticks fmul64 fdiv64 S.
Proof. intros k _. cbv zeta. split; [apply fdiv64_error|apply fmul64_error]. Qed.

(** Hence, with binary64 arithmetic as modelled by [rn64], every 32-bit tick count survives the TIME codec, for any
    positive scale. *)
Theorem time_ticks_exact_rn64 (S : Z) : (0 < S)%Z -> forall k, int32_ok k = true ->
  q_round_he (fmul64 (fdiv64 (inject_Z k) (inject_Z S)) (inject_Z S)) = k.
Proof. intros HS. exact (time_ticks_exact fmul64 fdiv64 S HS (std_model_rn64 S)). Qed.
Local Close Scope Q_scope.

(** The hypothesis is satisfiable: exact arithmetic meets it trivially, and the executable binary64 rounding [rn64]
    meets it at every tick count of a computed grid (all |k| <= 1000, powers of two and the int32 bounds). *)
Example std_model_exact : std_model_on_ticks Qmult Qdiv 10000.
Proof.
  assert (H0 : forall x y, (Qabs (x - x) <= u53 * Qabs y)%Q).
  { intros x y. setoid_replace (x - x)%Q with 0%Q by ring.
    apply Qmult_le_0_compat; [unfold u53, Qle; simpl; lia|apply Qabs_nonneg]. }
  intros k _. cbv zeta. split; apply H0.
Qed.

Definition std_model_check (k : Z) : bool :=
  let q := (inject_Z k / 10000)%Q in
  let d := fdiv64 (inject_Z k) 10000 in
  match Qcompare (Qabs (d - q)) (u53 * Qabs q) with Gt => false | _ => true end &&
  match Qcompare (Qabs (fmul64 d 10000 - d * 10000)) (u53 * Qabs (d * 10000)) with Gt => false | _ => true end &&
  (q_round_he (fmul64 d 10000) =? k)%Z.
Definition tick_grid : list Z :=
  map (fun n => Z.of_nat n - 1000)%Z (seq 0 2001) ++ map (fun n => 2 ^ Z.of_nat n)%Z (seq 0 31) ++
  map (fun n => - 2 ^ Z.of_nat n)%Z (seq 0 32) ++ [2147483647; 2147483646; 1999999999; 123456789; -987654321]%Z.
(** The three tests of [std_model_check] are [std_model_rn64] and [time_ticks_exact_rn64] at scale 10000. *)
Lemma std_model_check_int32 k : int32_ok k = true -> std_model_check k = true.
Proof.
  intros Hk. destruct (std_model_rn64 10000 k Hk) as [Hd Hm]. cbv zeta in Hd, Hm.
  apply (proj1 (Qle_alt _ _)) in Hd, Hm. unfold std_model_check. cbv zeta. change 10000%Q with (inject_Z 10000).
  rewrite (time_ticks_exact_rn64 10000 eq_refl k Hk), Z.eqb_refl.
  destruct (Qcompare _ _); [| |congruence]; (destruct (Qcompare _ _); [reflexivity|reflexivity|congruence]).
Qed.
Lemma tick_grid_int32 k : In k tick_grid -> int32_ok k = true.
Proof.
  unfold tick_grid. intros H. repeat (apply in_app_or in H; destruct H as [H|H]);
    try (apply in_map_iff in H; destruct H as (n & <- & Hn); apply in_seq in Hn; apply int32_ok_iff).
  - lia.
  - pose proof (Z.pow_le_mono_r 2 (Z.of_nat n) 30). lia.
  - pose proof (Z.pow_le_mono_r 2 (Z.of_nat n) 31). lia.
  - revert k H. apply forallb_forall. reflexivity.
Qed.
Example std_model_rn64_grid : forallb std_model_check tick_grid = true.
Proof. apply forallb_forall. intros k Hk. apply std_model_check_int32, tick_grid_int32, Hk. Qed.

(** * The typed codecs *)
Lemma kind_eqb_eq : forall a b, kind_eqb a b = true -> a = b.
Proof.
  intros a b H. destruct a, b; cbn [kind_eqb] in H; try discriminate; try reflexivity.
  - apply andb_prop in H. destruct H as [H1 H2]. apply Bool.eqb_prop in H1. apply Nat.eqb_eq in H2. now subst.
  - apply Nat.eqb_eq in H. now subst.
Qed.
Lemma fmt_eqb_eq' : forall a b, fmt_eqb a b = true -> a = b.
Proof.
  induction a as [|x a IH]; intros [|y b] H; cbn [fmt_eqb] in H; try discriminate; [reflexivity|].
  apply andb_prop in H. destruct H as [H1 H2]. apply kind_eqb_eq in H1. apply IH in H2. now subst.
Qed.

Lemma in_fixed_types t : is_var_type t = false -> In t fixed_types.
Proof. destruct t; cbn; intros H; try discriminate; tauto. Qed.

Lemma layout_fmt cfg t : formats_match_wire_layout cfg = true -> is_var_type t = false ->
  exists f, format_of cfg t = Some f /\ fmt_of f = wire_kinds t.
Proof.
  intros H Ht. unfold formats_match_wire_layout in H. rewrite forallb_forall in H.
  specialize (H t (in_fixed_types t Ht)). unfold opt_test in H.
  destruct (format_of cfg t) as [f|]; [|discriminate]. exists f. split; [reflexivity|]. now apply fmt_eqb_eq'.
Qed.

Lemma fits_floats : forall l, forallb f32_ok l = true -> fits (repeat KFloat (List.length l)) (map VFloat l) = true.
Proof.
  induction l as [|b l IH]; intros H; [reflexivity|].
  cbn [forallb] in H. apply andb_prop in H. destruct H as [Hb Hl].
  cbn [List.length repeat map fits fits1]. unfold f32_ok in Hb. rewrite Hb. cbn [andb]. now apply IH.
Qed.
Lemma floats_of_map : forall l, floats_of (map VFloat l) = Some l.
Proof. induction l as [|b l IH]; [reflexivity|]. cbn [map floats_of fold_right] in *. unfold floats_of in IH. now rewrite IH. Qed.
Lemma wf_repeat k n : wf_kind k = true -> wf_fmt (repeat k n) = true.
Proof. intros H. induction n; [reflexivity|]. cbn [repeat wf_fmt forallb]. rewrite H. exact IHn. Qed.
Lemma wf_wire_kinds t : wf_fmt (wire_kinds t) = true.
Proof. destruct t; reflexivity. Qed.

(** MATRIX: unpacking the packed slots gives back the nine cells. *)
Lemma mat_roundtrip cfg m : mat_cfg_ok cfg = true -> List.length m = 9%nat ->
  mat_unpack (sc_mat_unpack cfg) (mat_pack (sc_mat_pack cfg) m) = m.
Proof.
  intros H Hm. unfold mat_cfg_ok in H. apply andb_prop in H. destruct H as [H Hr]. apply andb_prop in H. destruct H as [_ Hc].
  assert (Hcell : forall rc, In rc all_cells ->
            match find_cell (fst rc) (snd rc) (sc_mat_unpack cfg) with
            | Some i => nth (N.to_nat i) (mat_pack (sc_mat_pack cfg) m) 0%N
            | None => if (fst rc =? snd rc)%N then ONE32 else ZERO32
            end = nth (cell_index (fst rc) (snd rc)) m 0%N).
  { intros rc Hin. unfold mat_cells_read_where_written in Hc. rewrite forallb_forall in Hc. specialize (Hc rc Hin).
    destruct (find_cell (fst rc) (snd rc) (sc_mat_unpack cfg)) as [i|]; [|discriminate].
    destruct (nth_error (sc_mat_pack cfg) (N.to_nat i)) as [s|] eqn:En; [|discriminate].
    unfold mat_pack.
    match goal with |- context [nth _ (map ?f _) _] => pose proof (map_nth_error f _ _ En) as Hn end.
    apply nth_error_nth with (d := 0%N) in Hn. rewrite Hn.
    destruct s as [r c| |]; cbn [mslot_is] in Hc; try discriminate.
    apply andb_prop in Hc. destruct Hc as [E1 E2]. apply N.eqb_eq in E1, E2. now subst. }
  unfold mat_unpack. rewrite (map_ext_in _ (fun rc => nth (cell_index (fst rc) (snd rc)) m 0%N) _ Hcell).
  do 10 (destruct m as [|? m]; try discriminate). reflexivity.
Qed.

Lemma mat_pack_ok cfg m : mat_cfg_ok cfg = true -> forallb f32_ok m = true ->
  List.length (mat_pack (sc_mat_pack cfg) m) = 16%nat /\ forallb f32_ok (mat_pack (sc_mat_pack cfg) m) = true.
Proof.
  intros H Hm. unfold mat_cfg_ok in H. apply andb_prop in H. destruct H as [H _]. apply andb_prop in H. destruct H as [H16 _].
  unfold mat_slots_16 in H16. apply Nat.eqb_eq in H16. unfold mat_pack. rewrite map_length. split; [exact H16|].
  rewrite forallb_forall. intros b Hb. apply in_map_iff in Hb. destruct Hb as [s [<- _]].
  destruct s as [r c| |]; try reflexivity.
  destruct (nth_in_or_default (cell_index r c) m 0%N) as [Hi|Hd]; [|rewrite Hd; reflexivity].
  rewrite forallb_forall in Hm. now apply Hm.
Qed.

Section Codec.
  Variable fmul fdiv : Q -> Q -> Q.
  Variable anorm : N -> N.
  Variable cfg : scalarcfg.
  Hypothesis Hcfg : scalar_cfg_ok cfg = true.
  (** binary64 arithmetic at the operands of the TIME codec (see [std_model_on_ticks]) *)
  Hypothesis Hstd : std_model_on_ticks fmul fdiv (sc_time_div cfg).
  (** FrozenAngle's normalisation leaves a non-negative component below 360.0 alone *)
  Hypothesis Hanorm : forall b, (b < ANGLE_360)%N -> anorm b = b.

  Lemma cfg_parts : formats_match_wire_layout cfg = true /\ time_cfg_ok cfg = true /\ mat_cfg_ok cfg = true.
  Proof.
    pose proof Hcfg as H. unfold scalar_cfg_ok in H.
    apply andb_prop in H. destruct H as [H Hm]. apply andb_prop in H. destruct H as [H Ht].
    apply andb_prop in H. destruct H as [H _]. apply andb_prop in H. destruct H as [_ Hl]. auto.
  Qed.

  Lemma clamp_id z : byte_val_ok z = true -> clamp_color z = z.
  Proof. unfold byte_val_ok, clamp_color. intros H. apply andb_prop in H. destruct H as [H1 H2]. apply Z.leb_le in H1, H2. lia. Qed.
  Lemma byte_in_range z : byte_val_ok z = true -> in_range false 1 z = true.
  Proof.
    unfold byte_val_ok, in_range, modulus. intros H. apply andb_prop in H. destruct H as [H1 H2].
    apply Z.leb_le in H1, H2. change (256 ^ Z.of_nat 1)%Z with 256%Z. apply andb_true_intro. split; [apply Z.leb_le|apply Z.ltb_lt]; lia.
  Qed.
  Lemma below_360_f32 l : forallb (fun b => (b <? ANGLE_360)%N) l = true -> forallb f32_ok l = true.
  Proof.
    intros H. rewrite forallb_forall in *. intros b Hb. specialize (H b Hb). apply N.ltb_lt in H.
    unfold f32_ok. apply N.ltb_lt. unfold ANGLE_360 in H. change (2 ^ 32)%N with 4294967296%N. lia.
  Qed.
  Lemma anorm_map l : forallb (fun b => (b <? ANGLE_360)%N) l = true -> map anorm l = l.
  Proof.
    induction l as [|b l IH]; intros H; [reflexivity|]. cbn [forallb] in H. apply andb_prop in H. destruct H as [Hb Hl].
    cbn [map]. rewrite Hanorm by (now apply N.ltb_lt). now rewrite IH.
  Qed.

  (** A value whose fields fit the wire layout and are read back to it survives the codec. *)
  Lemma codec_via_fields t v vs : is_var_type t = false -> to_fields fmul cfg t v = Some vs ->
    fits (wire_kinds t) vs = true -> of_fields fdiv anorm cfg t vs = Some v ->
    exists bs, encode_sval fmul cfg t v = Some bs /\ List.length bs = calcsize (wire_kinds t) /\
               decode_sval fdiv anorm cfg t bs = Some v.
  Proof.
    intros Ht Hto Hfit Hof. destruct cfg_parts as [Hlay _]. destruct (layout_fmt cfg t Hlay Ht) as [f [Ef Ek]].
    destruct (unpack_pack (wire_kinds t) vs (wf_wire_kinds t) Hfit) as [bs [Hp Hu]].
    exists bs. unfold encode_sval, decode_sval. rewrite Ef, Hto, Ek, Hp, Hu. repeat split; try assumption.
    eapply pack_length; exact Hp.
  Qed.

  (** The types made of [arity t] binary32 components: VEC2, VEC3, VEC4, QUATERNION, and ANGLE where the reader normalises. *)
  Lemma vec_roundtrip t l : (0 < arity t)%nat -> List.length l = arity t /\ forallb f32_ok l = true ->
    (t = TAngle -> map anorm l = l) ->
    exists bs, encode_sval fmul cfg t (SvVec l) = Some bs /\ List.length bs = calcsize (wire_kinds t) /\
               decode_sval fdiv anorm cfg t bs = Some (SvVec l).
  Proof.
    intros Ha [Hl Hf] Hn. apply (codec_via_fields t (SvVec l) (map VFloat l)).
    - destruct t; cbn [arity] in Ha; try lia; reflexivity.
    - destruct t; cbn [arity] in Ha; try lia; cbn [to_fields]; now rewrite Hl.
    - replace (wire_kinds t) with (repeat KFloat (List.length l)); [now apply fits_floats|].
      rewrite Hl. destruct t; cbn [arity] in Ha; try lia; reflexivity.
    - destruct t; cbn [arity] in Ha; try lia; cbn [of_fields]; rewrite floats_of_map, Hl; cbn [Nat.eqb arity];
        try reflexivity.
      now rewrite Hn.
  Qed.

  (** Every fixed-width value representable in its wire type is packed into exactly [calcsize] bytes and unpacked to
      the same value: integers, binary32 patterns, booleans, tick-exact times (through binary64 scaling and
      [round]), colours, vectors, angles in [0, 360), quaternions, and the 3x3 part of the padded 4x4 matrix. *)
  Theorem scalar_codec_roundtrip_gen : forall t v, sval_rep fdiv cfg t v ->
    exists bs, encode_sval fmul cfg t v = Some bs /\
               List.length bs = calcsize (wire_kinds t) /\
               decode_sval fdiv anorm cfg t bs = Some v.
  Proof.
    destruct cfg_parts as [_ [Htime Hmat]].
    intros t v Hrep.
    destruct t, v; cbn [sval_rep] in Hrep; try contradiction.
    - (* INTEGER *) eapply codec_via_fields; [reflexivity|reflexivity| |reflexivity]. cbn [wire_kinds fits fits1]. unfold int32_ok in Hrep. now rewrite Hrep.
    - (* FLOAT *) eapply codec_via_fields; [reflexivity|reflexivity| |reflexivity]. cbn [wire_kinds fits fits1]. unfold f32_ok in Hrep. now rewrite Hrep.
    - (* BOOL *) eapply codec_via_fields; reflexivity.
    - (* TIME *)
      destruct Hrep as [k [Hk ->]].
      unfold time_cfg_ok in Htime. apply andb_prop in Htime. destruct Htime as [Hr Hs].
      unfold time_rounds_to_nearest in Hr. unfold time_scales_agree in Hs. apply andb_prop in Hs. destruct Hs as [Hs Hpos].
      apply Z.eqb_eq in Hs. apply Z.ltb_lt in Hpos. rewrite Hs in Hpos.
      assert (Ek : q_round (sc_time_round cfg) (fmul (fdiv (inject_Z k) (inject_Z (sc_time_div cfg))) (inject_Z (sc_time_mul cfg))) = k).
      { destruct (sc_time_round cfg); try discriminate. cbn [q_round]. rewrite Hs.
        exact (time_ticks_exact fmul fdiv (sc_time_div cfg) Hpos Hstd k Hk). }
      eapply codec_via_fields; [reflexivity| cbn [to_fields]; rewrite Ek; reflexivity | | reflexivity].
      cbn [wire_kinds fits fits1]. unfold int32_ok in Hk. now rewrite Hk.
    - (* COLOR *)
      do 3 (apply andb_prop in Hrep; destruct Hrep as [Hrep ?]).
      eapply codec_via_fields; [reflexivity|reflexivity| |].
      + cbn [wire_kinds repeat fits fits1]. now rewrite !byte_in_range by assumption.
      + cbn [of_fields]. now rewrite !clamp_id by assumption.
    - (* VEC2 *) apply vec_roundtrip; [cbn; lia|exact Hrep|discriminate].
    - (* VEC3 *) apply vec_roundtrip; [cbn; lia|exact Hrep|discriminate].
    - (* VEC4 *) apply vec_roundtrip; [cbn; lia|exact Hrep|discriminate].
    - (* ANGLE *) destruct Hrep as [Hl Hf].
      apply vec_roundtrip; [cbn; lia|split; [exact Hl|now apply below_360_f32]|intros _; now apply anorm_map].
    - (* QUATERNION *) apply vec_roundtrip; [cbn; lia|exact Hrep|discriminate].
    - (* MATRIX *) destruct Hrep as [Hl Hf]. destruct (mat_pack_ok cfg l Hmat Hf) as [H16 Hf16].
      eapply codec_via_fields; [reflexivity| cbn [to_fields]; rewrite Hl; reflexivity | |].
      + change (wire_kinds TMatrix) with (repeat KFloat 16). rewrite <- H16. now apply fits_floats.
      + cbn [of_fields]. rewrite floats_of_map, H16. cbn [Nat.eqb]. now rewrite mat_roundtrip.
  Qed.
End Codec.

(** The premises hold for the hand copy of the pinned configuration, and a value of every type is representable. *)
Example scalar_cfg_example : scalar_cfg_ok pinned_scalar = true /\ sizes_match_formats pinned_scalar pinned_cfg = true.
Proof. vm_compute. split; reflexivity. Qed.

(** A matrix layout that reads a cell from a padding slot fails its condition and loses the cell. *)
Definition bad_mat_scalar : scalarcfg := {|
  sc_formats := sc_formats pinned_scalar; sc_splat := sc_splat pinned_scalar;
  sc_time_round := RNearestEven; sc_time_mul := 10000; sc_time_div := 10000;
  sc_mat_pack := sc_mat_pack pinned_scalar;
  sc_mat_unpack := [(0,0,0); (0,1,1); (0,2,2); (1,0,3); (1,1,4); (1,2,5); (2,0,6); (2,1,7); (2,2,8)]%N |}.
