(** C14 — [nest_doc] is total: below a root no chain of inline blocks is longer than the number of elements, because the blocks of
    different levels are different elements (Fmt/DmxKv2GraphUnique.v); the fuel [length g + 1] is enough. *)
From Coq Require Import NArith List Bool Lia.
From SV Require Import Fmt.DmxKv2 Fmt.DmxKv2Graph Fmt.DmxKv2GraphProofs Fmt.DmxKv2GraphUnique.
Import ListNotations.
Open Scope nat_scope.

Section Fuel.
Variable g : gdoc.
Variable isroot : nat -> bool.
Notation n := (length g).
Hypothesis Hrange : refs_in_range g.
Hypothesis HU : NoDup (K g isroot (seq 0 n)).

Lemma failing_child f i : i < n -> nest_elem g isroot false (S f) i = None ->
  exists j, In j (kids g isroot i) /\ nest_elem g isroot false f j = None.
Proof.
  intros Li H. rewrite nest_elem_S in H. destruct (nth_error g i) as [e|] eqn:Ne; [|apply nth_error_None in Ne; lia].
  destruct (map_opt _ (ge_attrs e)) as [attrs|] eqn:Ha; [discriminate|].
  destruct (map_opt_none _ _ Ha) as [a [Hin Hf]]. unfold attr_fn in Hf.
  destruct (map_opt _ (ga_items a)) as [its|] eqn:Hi; [discriminate|].
  destruct (map_opt_none _ _ Hi) as [it [Hit Hnone]].
  destruct it as [s|[j| |u]]; cbn [item_fn] in Hnone; try discriminate.
  destruct (isroot j) eqn:Rj; [discriminate|]. destruct (nest_elem g isroot false f j) eqn:Nj; [discriminate|].
  exists j. split; [|exact Nj]. apply kids_spec. split; [exact Rj|]. exists a. now rewrite (nth_error_nth _ _ dflt_gelem Ne).
Qed.

(** a block that fails with fuel [f] heads a chain of [f] levels, each with a block in it *)
Lemma failing_levels : forall f l i, In i l -> i < n -> nest_elem g isroot false f i = None -> f <= length (lv_union g isroot f l).
Proof.
  induction f as [|f IH]; intros l i Hi Li H; [lia|].
  destruct (failing_child f i Li H) as [j [Hj Hn]].
  assert (HjK : In j (K g isroot l)) by (apply in_flat_map; now exists i).
  specialize (IH (K g isroot l) j HjK (kids_range g isroot Hrange i j Hj) Hn).
  cbn [lv_union]. rewrite app_length. destruct l; [destruct Hi|]. cbn [length]. lia.
Qed.

Theorem nest_elem_enough_fuel r : r < n -> isroot r = true -> nest_elem g isroot false (S n) r <> None.
Proof.
  intros Lr Rr H. pose proof (failing_levels (S n) [r] r (or_introl eq_refl) Lr H) as Hlen.
  assert (Hnd : NoDup (lv_union g isroot (S n) [r])).
  { apply (lv_nodup g isroot Hrange HU).
    - constructor; [intros []|constructor].
    - intros x [<-|[]]. assumption.
    - intros m x [<-|[]] Hx. pose proof (lv_nonroot g isroot m (K g isroot [r]) (K_nonroot g isroot [r]) r Hx). congruence. }
  assert (Hinc : incl (lv_union g isroot (S n) [r]) (seq 0 n)).
  { apply (in_range_incl g). apply (lv_range g isroot Hrange). intros x [<-|[]]. assumption. }
  pose proof (NoDup_incl_length Hnd Hinc) as Hle. rewrite seq_length in Hle. lia.
Qed.

Theorem nest_doc_total : exists d, nest_doc g isroot false = Some d.
Proof.
  destruct (nest_doc g isroot false) as [d|] eqn:E; [now exists d|]. exfalso.
  destruct (map_opt_none _ _ E) as [r [Hr Nr]]. unfold root_list in Hr. apply filter_In in Hr. destruct Hr as [Hr Rr].
  apply in_seq in Hr. apply (nest_elem_enough_fuel r); [lia|assumption|assumption].
Qed.
End Fuel.
