(** Proofs about the KeyValues1 <-> DMX bridge model (Fmt/DmxKv1.v). *)
From Coq Require Import NArith List Bool.
From SV Require Import Fmt.DmxKv1.
Import ListNotations.

Lemma kstr_eqb_eq : forall a b, kstr_eqb a b = true <-> a = b.
Proof.
  induction a as [|x a IH]; destruct b as [|y b]; cbn; split; intros H; try reflexivity; try discriminate.
  - apply andb_prop in H. destruct H as [H1 H2]. apply N.eqb_eq in H1. apply IH in H2. now subst.
  - inversion H; subst. rewrite N.eqb_refl. cbn. now apply IH.
Qed.
Lemma kstr_eqb_refl : forall a, kstr_eqb a a = true.
Proof. intros a. now apply kstr_eqb_eq. Qed.
Lemma kstr_eqb_neq : forall a b, kstr_eqb a b = false <-> a <> b.
Proof. intros a b. rewrite <- kstr_eqb_eq. symmetry. apply not_true_iff_false. Qed.
Lemma kmem_In : forall s l, kmem s l = true <-> In s l.
Proof.
  intros s l. unfold kmem. rewrite existsb_exists. split.
  - intros (x & Hx & E). apply kstr_eqb_eq in E. now subst.
  - intros H. exists s. split; [exact H | apply kstr_eqb_refl].
Qed.
Lemma kmem_false : forall s l, kmem s l = false <-> ~ In s l.
Proof. intros s l. rewrite <- kmem_In. symmetry. apply not_true_iff_false. Qed.

(** Induction principle for the nested tree type. *)
Fixpoint kv_ind' (P : kv -> Prop)
    (Hl : forall n v, P (KLeaf n v))
    (Hb : forall on ch, Forall P ch -> P (KBlock on ch)) (t : kv) : P t :=
  match t with
  | KLeaf n v => Hl n v
  | KBlock on ch =>
      Hb on ch ((fix go (l : list kv) : Forall P l :=
                   match l with
                   | [] => Forall_nil P
                   | x :: r => Forall_cons x (kv_ind' P Hl Hb x) (go r)
                   end) ch)
  end.

Definition keys (m : list member) : list kstr := map fst m.

Lemma keys_fresh_cons : forall k k' v (m : list member),
  ~ In k (keys ((k', v) :: m)) -> kstr_eqb k k' = false /\ ~ In k (keys m).
Proof.
  intros k k' v m H. apply not_in_cons in H. destruct H as [Hne H]. now apply kstr_eqb_neq in Hne.
Qed.

Lemma dset_fresh : forall k v m, ~ In k (keys m) -> dset k v m = m ++ [(k, v)].
Proof.
  induction m as [|[k' v'] m IH]; intros H; [reflexivity|].
  apply keys_fresh_cons in H. destruct H as [E H]. cbn [dset app]. now rewrite E, IH.
Qed.

Lemma dget_app_fresh : forall k m m', ~ In k (keys m) -> dget k (m ++ m') = dget k m'.
Proof.
  induction m as [|[k' v'] m IH]; intros m' H; [reflexivity|].
  apply keys_fresh_cons in H. destruct H as [E H]. cbn [dget app]. now rewrite E, IH.
Qed.

Lemma dappend_fresh : forall k x n acc m, ~ In k (keys m) ->
  dappend k x (m ++ [(k, (n, inr acc))]) = m ++ [(k, (n, inr (acc ++ [x])))].
Proof.
  induction m as [|[k' [n' v']] m IH]; intros H; cbn [dappend app].
  - now rewrite kstr_eqb_refl.
  - apply keys_fresh_cons in H. destruct H as [E H]. now rewrite E, IH.
Qed.

Lemma existsb_none : forall {A} (f : A -> bool) l, existsb f l = false -> forall x, In x l -> f x = false.
Proof.
  intros A f l H x Hin. apply not_true_is_false. intros Hx.
  rewrite (proj2 (existsb_exists f l)) in H; [discriminate|]. now exists x.
Qed.

Lemma andb3_prop : forall a b c, a && b && c = true -> a = true /\ b = true /\ c = true.
Proof. intros [] [] []; intuition. Qed.

(** [kv1_cfg_ok] spelled out. *)
Lemma kv1_cfg_ok_spec : forall cfg, kv1_cfg_ok cfg = true ->
  (t_leaf cfg <> t_block cfg /\ t_leaf cfg <> t_root cfg /\ t_block cfg <> t_root cfg) /\
  (k_value_r cfg = k_value_w cfg /\ k_subkeys_r cfg = k_subkeys_w cfg /\ k_name_r cfg = c_name) /\
  (In c_name (reserved cfg) /\ In (k_subkeys_w cfg) (reserved cfg) /\ k_subkeys_w cfg <> c_name).
Proof.
  intros cfg H. apply andb3_prop in H as (Ht & Hk & Hr).
  apply andb3_prop in Ht as (H1 & H2 & H3). apply andb3_prop in Hk as (H4 & H5 & H6).
  apply andb3_prop in Hr as (H7 & H8 & H9).
  apply negb_true_iff, kstr_eqb_neq in H1, H2, H3, H9. apply kstr_eqb_eq in H4, H5, H6. apply kmem_In in H7, H8.
  repeat split; assumption.
Qed.

Section Proofs.
  Variable fold : kstr -> kstr.
  Variable cfg : kv1cfg.
  Hypothesis Hcfg : kv1_cfg_ok cfg = true.
  Hypothesis Hfold : fold_ok fold cfg.

  Notation scan := (fold_left (scan_step fold cfg)).

  (** Invariants of the first loop. *)
  Lemma scan_has_block : forall ch st, has_block (scan ch st) = has_block st || existsb is_block ch.
  Proof.
    induction ch as [|c ch IH]; intros st; cbn [fold_left existsb]; [now rewrite orb_false_r|].
    rewrite IH. destruct c as [n v|on l]; cbn [scan_step is_block].
    - destruct (kmem (fold n) (leaf_names st)); cbn; reflexivity.
    - cbn. now rewrite orb_true_r.
  Qed.
  Lemma scan_has_leaf : forall ch st, has_leaf (scan ch st) = has_leaf st || existsb (fun c => negb (is_block c)) ch.
  Proof.
    induction ch as [|c ch IH]; intros st; cbn [fold_left existsb]; [now rewrite orb_false_r|].
    rewrite IH. destruct c as [n v|on l]; cbn [scan_step is_block negb].
    - destruct (kmem (fold n) (leaf_names st)); cbn; now rewrite orb_true_r.
    - cbn. reflexivity.
  Qed.

  Definition leaf_fnames (ch : list kv) : list kstr :=
    flat_map (fun c => match c with KLeaf n _ => [fold n] | KBlock _ _ => [] end) ch.

  (** If the loop ends with no_inline unset, the folded leaf names are pairwise distinct, distinct from the names
      seen before, and none is reserved. *)
  Lemma scan_no_inline : forall ch st, no_inline (scan ch st) = false ->
    no_inline st = false /\ NoDup (leaf_fnames ch) /\
    (forall x, In x (leaf_fnames ch) -> ~ In x (leaf_names st) /\ ~ In x (reserved cfg)).
  Proof.
    induction ch as [|c ch IH]; intros st H; cbn [fold_left] in H.
    - cbn. repeat split; [exact H | constructor | contradiction | contradiction].
    - apply IH in H. destruct H as (Hni & Hnd & Hfresh).
      destruct c as [n v|on l]; cbn [scan_step] in Hni, Hfresh |- *.
      + cbn [leaf_fnames flat_map app].
        destruct (kmem (fold n) (leaf_names st)) eqn:Em; cbn in Hni; [discriminate|].
        destruct (kmem (fold n) (reserved cfg)) eqn:Er; [discriminate|].
        cbn [leaf_names] in Hfresh.
        apply kmem_false in Em. apply kmem_false in Er.
        split; [exact Hni|]. split.
        * constructor; [|exact Hnd]. intros Hin. apply Hfresh in Hin. destruct Hin as [Hin _]. apply Hin. now left.
        * intros x [Hx|Hx]; [subst; tauto|].
          apply Hfresh in Hx. destruct Hx as [Hx1 Hx2]. split; [|exact Hx2]. intros Hin. apply Hx1. now right.
      + cbn [leaf_fnames flat_map app]. cbn [leaf_names] in Hfresh. cbn in Hni. tauto.
  Qed.

  (** Second loop, nested case: every child is appended to the subkeys array. *)
  Lemma place_all_sub : forall (f : kv -> el) ch no_inl pre n0 acc,
    (forall c, In c ch -> no_inl || is_block c = true) ->
    ~ In (fold (k_subkeys_w cfg)) (keys pre) ->
    fold_left (place fold cfg no_inl) (map (fun c => (c, f c)) ch)
              (pre ++ [(fold (k_subkeys_w cfg), (n0, inr acc))]) =
    pre ++ [(fold (k_subkeys_w cfg), (n0, inr (acc ++ map f ch)))].
  Proof.
    intros f. induction ch as [|c ch IH]; intros no_inl pre n0 acc Hall Hpre; cbn [map fold_left].
    - now rewrite app_nil_r.
    - unfold place at 2. rewrite (Hall c (or_introl eq_refl)), dappend_fresh by exact Hpre.
      rewrite IH; [|intros c' Hc'; apply Hall; now right|exact Hpre].
      now rewrite <- app_assoc.
  Qed.

  (** Second loop, inline case: every child is a leaf with a fresh key and is appended as a string attribute. *)
  Definition inline_members (ch : list kv) : list member :=
    flat_map (fun c => match c with KLeaf n v => [(fold n, (n, inl v))] | KBlock _ _ => [] end) ch.

  Lemma place_all_inline : forall (f : kv -> el) ch pre,
    (forall c, In c ch -> is_block c = false) ->
    NoDup (leaf_fnames ch) -> (forall x, In x (leaf_fnames ch) -> ~ In x (keys pre)) ->
    fold_left (place fold cfg false) (map (fun c => (c, f c)) ch) pre = pre ++ inline_members ch.
  Proof.
    intros f. induction ch as [|c ch IH]; intros pre Hall Hnd Hfresh; cbn [map fold_left].
    - cbn. now rewrite app_nil_r.
    - destruct c as [n v|on l]; [|specialize (Hall _ (or_introl eq_refl)); discriminate].
      unfold place at 2. cbn [is_block orb].
      cbn [leaf_fnames flat_map app] in Hnd, Hfresh. inversion Hnd as [|? ? Hn1 Hn2]; subst.
      rewrite dset_fresh by (apply Hfresh; now left).
      rewrite IH.
      + cbn [inline_members flat_map app]. now rewrite <- app_assoc.
      + intros c' Hc'. apply Hall. now right.
      + exact Hn2.
      + intros x Hx. unfold keys. rewrite map_app. cbn. rewrite in_app_iff. intros [Hin|[Hin|[]]].
        * apply (Hfresh x); [now right | exact Hin].
        * subst. contradiction.
  Qed.

  (** to_kv1's member loop, written as named functions (they are local fixes in the model). *)
  Notation tk := (to_kv1 fold cfg).
  Definition mp_el (f : el -> option kv) : list el -> option (list kv) :=
    fix mp (l : list el) : option (list kv) :=
      match l with
      | [] => Some []
      | x :: l' => match f x, mp l' with Some a, Some b => Some (a :: b) | _, _ => None end
      end.
  Definition go_members (f : el -> option kv) : list member -> option (list kv * option (list kv)) :=
    fix go (ms : list member) : option (list kv * option (list kv)) :=
      match ms with
      | [] => Some ([], None)
      | (_, (an, v)) :: r =>
          match go r with
          | None => None
          | Some (ls, sub) =>
              if kstr_eqb an (k_subkeys_r cfg) then
                match v with
                | inr l => match mp_el f l with
                           | Some kl => Some (ls, Some (match sub with Some s => s | None => kl end))
                           | None => None
                           end
                | inl _ => None
                end
              else if kstr_eqb an (k_name_r cfg) then Some (ls, sub)
              else match v with inl s => Some (KLeaf an s :: ls, sub) | inr _ => None end
          end
      end.
  Lemma to_kv1_unfold : forall ty ms, tk (El ty ms) =
    if kstr_eqb ty (t_leaf cfg) then
      match el_name ms, dget (fold (k_value_r cfg)) ms with
      | Some n, Some (_, inl v) => Some (KLeaf n v)
      | _, _ => None
      end
    else if kstr_eqb ty (t_block cfg) || kstr_eqb ty (t_root cfg) then
      match go_members tk ms with
      | Some (ls, sub) =>
          let kids := ls ++ match sub with Some s => flatten_roots s | None => [] end in
          if kstr_eqb ty (t_block cfg)
          then match el_name ms with Some n => Some (KBlock (Some n) kids) | None => None end
          else Some (KBlock None kids)
      | None => None
      end
    else None.
  Proof. reflexivity. Qed.

  Lemma wf_children : forall on ch, wf_kv (KBlock on ch) = true -> Forall (fun c => named c = true /\ wf_kv c = true) ch.
  Proof.
    intros on ch. cbn [wf_kv]. induction ch as [|c ch IH]; intros H; [constructor|].
    apply andb_prop in H. destruct H as [H H2]. apply andb_prop in H. destruct H as [H0 H1].
    constructor; [split; assumption | apply IH; exact H2].
  Qed.
  Lemma flatten_named : forall ch, Forall (fun c => named c = true /\ wf_kv c = true) ch -> flatten_roots ch = ch.
  Proof.
    induction 1 as [|c ch [Hn _] _ IH]; [reflexivity|]. unfold flatten_roots in *. cbn [flat_map]. rewrite IH.
    destruct c as [n v|[n|] l]; cbn in *; [reflexivity | reflexivity | discriminate].
  Qed.

  Lemma to_kv1_leaf : forall n v, tk (from_kv1 fold cfg (KLeaf n v)) = Some (KLeaf n v).
  Proof.
    intros n v. destruct (kv1_cfg_ok_spec cfg Hcfg) as (_ & (Hv & _ & _) & _). destruct Hfold as (_ & _ & Hfv).
    cbn [from_kv1]. rewrite to_kv1_unfold. rewrite kstr_eqb_refl.
    unfold new_members. rewrite dset_fresh by (cbn; intros [E|[]]; congruence).
    unfold el_name. cbn [app dget]. rewrite kstr_eqb_refl, Hv.
    rewrite (proj2 (kstr_eqb_neq _ _) Hfv). now rewrite kstr_eqb_refl.
  Qed.

  (** A block or root element as [from_kv1] builds it converts back once its members after 'name' do: the type test
      picks the branch that matches [on], and 'name' itself yields the block's name and no child. *)
  Lemma to_kv1_block : forall on r ls sub,
    go_members tk r = Some (ls, sub) ->
    tk (El (match on with Some _ => t_block cfg | None => t_root cfg end)
           (new_members (match on with Some n => n | None => [] end) ++ r)) =
    Some (KBlock on (ls ++ match sub with Some s => flatten_roots s | None => [] end)).
  Proof.
    intros on r ls sub Hgo.
    destruct (kv1_cfg_ok_spec cfg Hcfg) as ((Hlb & Hlr & Hbr) & (_ & Hs & Hn) & (_ & _ & Hsn)).
    rewrite to_kv1_unfold. unfold el_name. cbn [new_members app go_members dget].
    rewrite Hgo, Hs, Hn, kstr_eqb_refl, (proj2 (kstr_eqb_neq c_name (k_subkeys_w cfg))) by congruence.
    destruct on as [n|].
    - rewrite kstr_eqb_refl, (proj2 (kstr_eqb_neq (t_block cfg) (t_leaf cfg))) by congruence. reflexivity.
    - rewrite kstr_eqb_refl, (proj2 (kstr_eqb_neq (t_root cfg) (t_leaf cfg))),
        (proj2 (kstr_eqb_neq (t_root cfg) (t_block cfg))) by congruence. reflexivity.
  Qed.

  (** Inlined leaves come back as the leaves they were: none of them is called 'name' or 'subkeys'. *)
  Lemma go_members_inline : forall f ch,
    (forall c, In c ch -> is_block c = false) ->
    (forall x, In x (leaf_fnames ch) -> ~ In x (reserved cfg)) ->
    go_members f (inline_members ch) = Some (ch, None).
  Proof.
    destruct (kv1_cfg_ok_spec cfg Hcfg) as (_ & (_ & Hs & Hn) & (Hrn & Hrs & _)). destruct Hfold as (Hfn & Hfs & _).
    intros f. induction ch as [|c ch IH]; intros Hleaves Hres; [reflexivity|].
    destruct c as [n v|on l]; [|specialize (Hleaves _ (or_introl eq_refl)); discriminate].
    cbn [inline_members flat_map app go_members]. fold (inline_members ch). rewrite IH.
    - assert (Hn' : ~ In (fold n) (reserved cfg)) by (apply Hres; cbn; now left).
      rewrite (proj2 (kstr_eqb_neq n (k_subkeys_r cfg))) by (intros ->; rewrite Hs, Hfs in Hn'; contradiction).
      rewrite (proj2 (kstr_eqb_neq n (k_name_r cfg))) by (intros ->; rewrite Hn, Hfn in Hn'; contradiction).
      reflexivity.
    - intros c Hc. apply Hleaves. now right.
    - intros x Hx. apply Hres. cbn [leaf_fnames flat_map app]. now right.
  Qed.

  Lemma mp_el_map : forall (f : kv -> el) ch, Forall (fun c => tk (f c) = Some c) ch -> mp_el tk (map f ch) = Some ch.
  Proof. induction 1 as [|c ch Hc _ IH]; cbn [map mp_el]; [reflexivity|]. now rewrite Hc, IH. Qed.

  Theorem kv1_bridge_roundtrip_gen : forall t, wf_kv t = true -> tk (from_kv1 fold cfg t) = Some t.
  Proof.
    induction t as [n v|on ch IH] using kv_ind'; intros Hwf; [apply to_kv1_leaf|].
    apply wf_children in Hwf.
    assert (Hkids : Forall (fun c => tk (from_kv1 fold cfg c) = Some c) ch).
    { rewrite Forall_forall in *. intros c Hc. apply (IH c Hc). now apply Hwf. }
    destruct (kv1_cfg_ok_spec cfg Hcfg) as (_ & (_ & Hs & _) & (Hrn & _ & Hsn)). destruct Hfold as (_ & Hfs & _).
    cbn [from_kv1].
    set (st := fold_left (scan_step fold cfg) ch (scan_init)).
    set (no_inl := no_inline st || has_block st && has_leaf st).
    set (nm := match on with Some n => n | None => [] end).
    destruct (no_inl || has_block st) eqn:Huse.
    - (* nested: everything goes to subkeys *)
      assert (Hall : forall c, In c ch -> no_inl || is_block c = true).
      { (* unless [no_inl] holds there is a block child, hence no leaf child *)
        intros c Hc. destruct no_inl eqn:Eni; [reflexivity|]. cbn in Huse |- *.
        subst no_inl. apply orb_false_iff in Eni. destruct Eni as [_ Eni]. rewrite Huse in Eni. cbn in Eni.
        subst st. rewrite scan_has_leaf in Eni. apply (existsb_none _ _ Eni) in Hc. now apply negb_false_iff in Hc. }
      rewrite dset_fresh by (cbn; intros [E|[]]; congruence).
      rewrite (place_all_sub (from_kv1 fold cfg) ch no_inl (new_members nm) (k_subkeys_w cfg) [] Hall)
        by (cbn; intros [E|[]]; congruence).
      rewrite Hfs, (to_kv1_block on _ [] (Some ch)).
      + cbn [app]. now rewrite (flatten_named ch Hwf).
      + cbn [go_members app]. now rewrite Hs, kstr_eqb_refl, (mp_el_map _ _ Hkids).
    - (* inline: no blocks, no duplicates, no reserved names *)
      apply orb_false_iff in Huse. destruct Huse as [Hni Hhb]. rewrite Hni.
      subst no_inl. apply orb_false_iff in Hni. destruct Hni as [Hni _].
      subst st. rewrite scan_has_block in Hhb. apply scan_no_inline in Hni. destruct Hni as (_ & Hnd & Hfresh).
      rewrite (place_all_inline (from_kv1 fold cfg) ch (new_members nm) (existsb_none _ _ Hhb) Hnd).
      2:{ intros x Hx. apply Hfresh in Hx. destruct Hx as [_ Hx]. cbn. intros [E|[]]. subst. contradiction. }
      rewrite (to_kv1_block on _ ch None).
      + now rewrite app_nil_r.
      + apply go_members_inline; [exact (existsb_none _ _ Hhb) | apply Hfresh].
  Qed.
End Proofs.

(** The premises can be met (non-vacuity): constants with the shape of the generated ones, keys shortened to one
    letter, and the identity standing in for casefold.  The generated constants themselves are tested by
    [kv1_cfg_ok gen_kv1] in Props/C14.v. *)
Definition sample_cfg : kv1cfg := {|
  t_block := [68; 109]%N; t_leaf := [68; 76]%N; t_root := [68; 82]%N;
  reserved := [c_name; [115]%N]; k_value_w := [118]%N; k_subkeys_w := [115]%N;
  k_value_r := [118]%N; k_subkeys_r := [115]%N; k_name_r := c_name |}.
Example kv1_premises_satisfiable : kv1_cfg_ok sample_cfg = true /\ fold_ok (fun s => s) sample_cfg.
Proof. split; [reflexivity|]. unfold fold_ok; cbn. repeat split; try reflexivity. unfold c_name. discriminate. Qed.

(** Without the reserved-name rule the bridge loses a leaf called "name": the rule is necessary. *)
Definition no_reserved_cfg : kv1cfg := {|
  t_block := [68; 109]%N; t_leaf := [68; 76]%N; t_root := [68; 82]%N;
  reserved := []; k_value_w := [118]%N; k_subkeys_w := [115]%N;
  k_value_r := [118]%N; k_subkeys_r := [115]%N; k_name_r := c_name |}.
Example kv1_reserved_rule_needed :
  to_kv1 (fun s => s) no_reserved_cfg (from_kv1 (fun s => s) no_reserved_cfg (KBlock (Some [66]%N) [KLeaf c_name [120]%N]))
  <> Some (KBlock (Some [66]%N) [KLeaf c_name [120]%N]).
Proof. vm_compute. discriminate. Qed.

(** A root (name None) nested inside a block is merged into its parent by Keyvalues.append: [wf_kv] is necessary. *)
Example kv1_nested_root_is_flattened :
  to_kv1 (fun s => s) sample_cfg (from_kv1 (fun s => s) sample_cfg (KBlock (Some [66]%N) [KBlock None [KLeaf [97]%N [98]%N]]))
  = Some (KBlock (Some [66]%N) [KLeaf [97]%N [98]%N]).
Proof. vm_compute. reflexivity. Qed.
