(** Proofs about the work-list loops of the lump writers (model in BspWorklist.v). *)
From Coq Require Import NArith List Bool PeanoNat Lia.
From SV Require Import Bin.FindInsert Bin.FindInsertProofs Fmt.BspWorklist.
Import ListNotations.
Local Open Scope nat_scope.

(** Every item of the table is known to the index (so a known object is never appended a second time). *)
Definition fi_cov (s : fi_state) : Prop := forall k, In k (items s) -> lookup k (index s) <> None.

Lemma build_from_cov : forall l i d k, (In k l \/ lookup k d <> None) -> lookup k (build_from i l d) <> None.
Proof.
  induction l as [|x l IH]; intros i d k H; cbn [build_from].
  - destruct H as [[]|H]; exact H.
  - apply IH. destruct H as [[->|H]|H].
    + right. cbn [lookup]. rewrite N.eqb_refl. discriminate.
    + left. exact H.
    + right. cbn [lookup]. destruct (N.eqb k x); [discriminate|exact H].
Qed.

Lemma fi_init_cov : forall l, fi_cov (fi_init l).
Proof. intros l k H. unfold fi_init. cbn [items index]. apply build_from_cov. left. exact H. Qed.

(** The table invariant of the loops: indexes are right, every item is indexed, no object twice. *)
Definition wl_inv (s : fi_state) : Prop := fi_inv s /\ fi_cov s /\ NoDup (items s).

Lemma NoDup_snoc : forall (l : list N) k, NoDup l -> ~ In k l -> NoDup (l ++ [k]).
Proof.
  intros l k Hn Hk. apply (NoDup_Add (Add_app k l [])). rewrite app_nil_r. split; assumption.
Qed.

Lemma fi_find_step : forall s k s' i, wl_inv s -> fi_find s k = (s', i) ->
  wl_inv s' /\ nth_error (items s') i = Some k /\
  exists ext, items s' = items s ++ ext /\ (forall x, In x ext -> x = k).
Proof.
  intros s k s' i (Hi & Hc & Hn) H.
  destruct (fi_find_sound _ _ _ _ Hi H) as (Hnth & Hi' & _).
  unfold fi_find in H. destruct (lookup k (index s)) as [j|] eqn:E.
  - injection H as <- <-. split; [split; [exact Hi|split; [exact Hc|exact Hn]]|]. split; [exact Hnth|].
    exists []. rewrite app_nil_r. split; [reflexivity|intros x []].
  - injection H as <- <-. split; [split; [exact Hi'|split]|].
    + intros k' Hin. cbn [items index lookup] in *. destruct (N.eqb_spec k' k) as [->|Hne]; [discriminate|].
      apply in_app_or in Hin. destruct Hin as [Hin|[->|[]]]; [apply Hc; exact Hin|congruence].
    + cbn [items]. apply NoDup_snoc; [exact Hn|]. intro Hx. apply (Hc _ Hx). exact E.
    + split; [exact Hnth|]. cbn [items]. exists [k]. split; [reflexivity|]. intros x [->|[]]. reflexivity.
Qed.

Lemma fi_run_step : forall ks s s' is, wl_inv s -> fi_run s ks = (s', is) ->
  wl_inv s' /\ Forall2 (fun k i => nth_error (items s') i = Some k) ks is /\
  exists ext, items s' = items s ++ ext /\ (forall x, In x ext -> In x ks).
Proof.
  induction ks as [|k r IH]; intros s s' is Hinv H; cbn [fi_run] in H.
  - injection H as <- <-. split; [exact Hinv|]. split; [constructor|]. exists []. rewrite app_nil_r. split; [reflexivity|intros x []].
  - destruct (fi_find s k) as [s1 i] eqn:E1. destruct (fi_run s1 r) as [s2 is2] eqn:E2. injection H as <- <-.
    destruct (fi_find_step _ _ _ _ Hinv E1) as (Hinv1 & Hn & ext1 & Hx1 & Hk1).
    destruct (IH _ _ _ Hinv1 E2) as (Hinv2 & Hf & ext2 & Hx2 & Hk2).
    split; [exact Hinv2|]. split.
    + constructor; [|exact Hf]. rewrite Hx2. apply nth_error_ext. exact Hn.
    + exists (ext1 ++ ext2). split; [rewrite Hx2, Hx1, app_assoc; reflexivity|].
      intros x Hin. apply in_app_or in Hin. destruct Hin as [Hin|Hin]; [left; symmetry; apply Hk1; exact Hin|right; apply Hk2; exact Hin].
Qed.

Section Closure.
Variable kids : N -> list N.
Variable roots : list N.

(** What holds between two steps of the loop: [pos] records written, for the first [pos] objects of the table, and the
    indexes in them denote the referred objects in the CURRENT table (hence in every later one: tables only grow). *)
Definition refs_ok (tbl : list N) (r : wrecord) : Prop :=
  Forall2 (fun k j => nth_error tbl j = Some k) (kids (fst r)) (snd r).

Record loop_inv (s : fi_state) (pos : nat) (out : list wrecord) : Prop := {
  li_tbl : wl_inv s;
  li_out : map fst out = firstn pos (items s);
  li_pos : pos <= List.length (items s);
  li_refs : Forall (refs_ok (items s)) out;
  li_roots : exists ext, items s = roots ++ ext;
  li_reach : forall o, In o (items s) -> reach kids roots o }.

Lemma refs_ok_ext : forall tbl ext r, refs_ok tbl r -> refs_ok (tbl ++ ext) r.
Proof.
  intros tbl ext r H. unfold refs_ok in *. eapply Forall2_mono; [|exact H]. intros k j. apply nth_error_ext.
Qed.

(** One more step through a list that has meanwhile grown at the end. *)
Lemma firstn_snoc_ext : forall (l ext : list N) pos o, nth_error l pos = Some o ->
  firstn (S pos) (l ++ ext) = firstn pos l ++ [o].
Proof.
  induction l as [|x l IH]; intros ext pos o H; destruct pos; cbn in *; try discriminate.
  - injection H as ->. reflexivity.
  - f_equal. apply IH. exact H.
Qed.

Lemma loop_step : forall s pos out o s' idx, loop_inv s pos out -> nth_error (items s) pos = Some o ->
  fi_run s (kids o) = (s', idx) -> loop_inv s' (S pos) (out ++ [(o, idx)]).
Proof.
  intros s pos out o s' idx [Ht Ho Hp Hr [ext0 Hx0] Hre] Hn E.
  destruct (fi_run_step _ _ _ _ Ht E) as (Ht' & Hf & ext & Hx & Hk).
  assert (Hlt : pos < List.length (items s)) by (apply nth_error_Some; rewrite Hn; discriminate).
  constructor.
  - exact Ht'.
  - unfold wrecord in *. rewrite map_app, Ho, Hx. symmetry. apply firstn_snoc_ext. exact Hn.
  - rewrite Hx, app_length. lia.
  - apply Forall_app. split.
    + rewrite Hx. eapply Forall_impl; [|exact Hr]. intros r. apply refs_ok_ext.
    + constructor; [|constructor]. exact Hf.
  - exists (ext0 ++ ext). rewrite Hx, Hx0, app_assoc. reflexivity.
  - intros x Hin. rewrite Hx in Hin. apply in_app_or in Hin. destruct Hin as [Hin|Hin]; [apply Hre; exact Hin|].
    apply reach_kid with o; [|apply Hk; exact Hin]. apply Hre. eapply nth_error_In. exact Hn.
Qed.

Lemma wl_live_inv : forall fuel s pos out s' out', loop_inv s pos out -> wl_live kids fuel s pos out = (s', out', true) ->
  loop_inv s' (List.length (items s')) out'.
Proof.
  induction fuel as [|f IH]; intros s pos out s' out' Hinv H; cbn [wl_live] in H; [discriminate|].
  destruct (nth_error (items s) pos) as [o|] eqn:En.
  - destruct (fi_run s (kids o)) as [s1 idx] eqn:E. eapply IH; [|exact H]. eapply loop_step; eassumption.
  - injection H as <- <-. apply nth_error_None in En. destruct Hinv as [Ht Ho Hp Hr Hx Hre].
    assert (pos = List.length (items s)) as -> by lia. constructor; assumption.
Qed.

Lemma loop_inv_init : forall s, wl_inv s -> items s = roots -> loop_inv s 0 [].
Proof.
  intros s Ht Hr. constructor; [exact Ht|reflexivity|lia|constructor|exists []; rewrite app_nil_r; exact Hr|].
  intros o Hin. apply reach_root. rewrite <- Hr. exact Hin.
Qed.

(** The closure theorem: when the loop over the live list ends,
    - there is exactly one record per table entry, record [i] is the record of object [i] ([map fst out = items s']);
    - the listed roots kept their positions; no object occurs twice (one index per object);
    - every index in every record resolves, the way the reader resolves it, to the object that was referred to;
    - the table holds exactly the objects reachable from the roots. *)
Theorem wl_live_closure : forall fuel s s' out, wl_inv s -> items s = roots -> wl_live kids fuel s 0 [] = (s', out, true) ->
  map fst out = items s' /\ NoDup (items s') /\ (exists ext, items s' = roots ++ ext) /\
  (forall i o idx, nth_error out i = Some (o, idx) ->
     nth_error (items s') i = Some o /\ Forall2 (fun k j => resolve out j = Some k) (kids o) idx) /\
  (forall o, In o (items s') <-> reach kids roots o).
Proof.
  intros fuel s s' out Ht Hr H. pose proof (wl_live_inv _ _ _ _ _ _ (loop_inv_init _ Ht Hr) H) as [Ht' Ho _ Hrf Hx Hre].
  rewrite firstn_all in Ho. unfold wrecord in *. split; [exact Ho|]. split; [apply Ht'|]. split; [exact Hx|]. split.
  - intros i o idx Hn. split.
    + rewrite <- Ho. rewrite nth_error_map, Hn. reflexivity.
    + rewrite Forall_forall in Hrf. specialize (Hrf _ (nth_error_In _ _ Hn)). unfold refs_ok in Hrf. cbn [fst snd] in Hrf.
      eapply Forall2_mono; [|exact Hrf]. intros k j Hj. unfold resolve, wrecord. rewrite <- Hj, <- Ho. symmetry. apply nth_error_map.
  - intros o. split; [apply Hre|]. intros Hreach. induction Hreach as [o Hin|p o _ IHp Hin].
    + destruct Hx as [ext ->]. apply in_or_app. left. exact Hin.
    + apply In_nth_error in IHp. destruct IHp as [i Hi]. rewrite <- Ho in Hi. rewrite nth_error_map in Hi.
      destruct (nth_error out i) as [[p' idx]|] eqn:En; [|discriminate]. cbn in Hi. injection Hi as ->.
      rewrite Forall_forall in Hrf. specialize (Hrf _ (nth_error_In _ _ En)). unfold refs_ok in Hrf. cbn [fst snd] in Hrf.
      clear - Hrf Hin. induction Hrf as [|k j ks js Hkj _ IH]; [destruct Hin|].
      destruct Hin as [->|Hin]; [eapply nth_error_In; exact Hkj|apply IH; exact Hin].
Qed.
End Closure.

(** * The loop ends: with finitely many reachable objects, [S |U|] steps suffice *)
Section Termination.
Variable kids : N -> list N.
Variable roots : list N.
Variable U : list N.
Hypothesis U_covers : forall o, reach kids roots o -> In o U.

Lemma wl_live_ends : forall fuel s pos out, loop_inv kids roots s pos out -> fuel + pos > List.length U ->
  exists s' out', wl_live kids fuel s pos out = (s', out', true).
Proof.
  induction fuel as [|f IH]; intros s pos out Hinv Hf.
  - exfalso. destruct Hinv as [(_ & _ & Hnd) _ Hp _ _ Hre].
    assert (List.length (items s) <= List.length U) by (apply NoDup_incl_length; [exact Hnd|intros x Hx; apply U_covers, Hre, Hx]). lia.
  - cbn [wl_live]. destruct (nth_error (items s) pos) as [o|] eqn:En.
    + destruct (fi_run s (kids o)) as [s1 idx] eqn:E. apply IH; [eapply loop_step; eassumption|lia].
    + eauto.
Qed.

Theorem wl_live_total : forall s, wl_inv s -> items s = roots ->
  exists s' out, wl_live kids (S (List.length U)) s 0 [] = (s', out, true) /\
    map fst out = items s' /\ NoDup (items s') /\ (exists ext, items s' = roots ++ ext) /\
    (forall i o idx, nth_error out i = Some (o, idx) ->
       nth_error (items s') i = Some o /\ Forall2 (fun k j => resolve out j = Some k) (kids o) idx) /\
    (forall o, In o (items s') <-> reach kids roots o).
Proof.
  intros s Ht Hr. destruct (wl_live_ends (S (List.length U)) s 0 [] (loop_inv_init kids roots s Ht Hr)) as (s' & out & H); [lia|].
  exists s', out. split; [exact H|]. eapply wl_live_closure; eassumption.
Qed.
End Termination.

(** The snapshot loop loses the objects met through references ([c11_worklist_snapshot_refuted], Props/C11.v): object 0
    refers to the unlisted object 1. *)
Definition kids01 (o : N) : list N := if N.eqb o 0 then [1%N] else [].

(** * Entries read from the source *)
Lemma wl_snap_nokids : forall l s out, wl_snap (fun _ => []) l s out = (s, out ++ map (fun o => (o, [])) l).
Proof.
  induction l as [|o l IH]; intros s out; cbn [wl_snap map fi_run].
  - rewrite app_nil_r. reflexivity.
  - rewrite IH, <- app_assoc. reflexivity.
Qed.

(** An entry that passes [wl_entry_ok] denotes a loop after which every table entry has its record, at its own index, and
    every reference the body turned into an index of this table resolves to the referred object. *)
Theorem wl_entry_closure : forall fn tbl k inside after kids fuel s s' out,
  wl_entry_ok (fn, tbl, k, inside, after) = true -> wl_inv s -> wl_exec k inside kids fuel s = (s', out, true) ->
  map fst out = items s' /\ NoDup (items s') /\ (exists ext, items s' = items s ++ ext) /\
  forall i o idx, nth_error out i = Some (o, idx) ->
    nth_error (items s') i = Some o /\ Forall2 (fun r j => resolve out j = Some r) (if inside then kids o else []) idx.
Proof.
  intros fn tbl k inside after kids fuel s s' out Hok Ht H. unfold wl_entry_ok in Hok. apply andb_true_iff in Hok. destruct Hok as [_ Hk].
  destruct k; unfold wl_exec in H.
  - destruct (wl_live_closure _ (items s) fuel s s' out Ht eq_refl H) as (A & B & C & D & _).
    split; [exact A|]. split; [exact B|]. split; [exact C|]. intros i o idx Hn. destruct (D i o idx Hn) as [D1 D2]. split; [exact D1|].
    destruct inside; exact D2.
  - destruct inside; [discriminate|]. rewrite wl_snap_nokids in H. cbn [app] in H. injection H as <- <-.
    split; [rewrite map_map; cbn [fst]; apply map_id|]. split; [apply Ht|]. split; [exists []; rewrite app_nil_r; reflexivity|].
    intros i o idx Hn. rewrite nth_error_map in Hn. destruct (nth_error (items s) i) as [x|] eqn:E; [|discriminate].
    cbn in Hn. injection Hn as <- <-. split; [reflexivity|constructor].
Qed.

(** * Rebuild order *)
Theorem order_ok_sound : forall order edges, order_ok order edges = true ->
  forall a b, In (a, b) edges -> exists i j, pos_of a order = Some i /\ pos_of b order = Some j /\ i < j.
Proof.
  intros order edges H a b Hin. unfold order_ok in H. rewrite forallb_forall in H. specialize (H _ Hin).
  unfold edge_ok in H. cbn [fst snd] in H. destruct (pos_of a order) as [i|]; [|discriminate]. destruct (pos_of b order) as [j|]; [|discriminate].
  exists i, j. split; [reflexivity|]. split; [reflexivity|]. apply Nat.ltb_lt. exact H.
Qed.
