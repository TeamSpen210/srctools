(** Proofs about Fmt/DmxKv1Sel.v: with both tests on the casefolded name the generalised converter is [from_kv1], so the
    bridge theorem applies; a reserved-name test on the case-preserved name is refuted (seeded fault c14_4). *)
From Coq Require Import NArith List Bool.
From SV Require Import Fmt.DmxKv1 Fmt.DmxKv1Proofs Fmt.DmxKv1Sel.
Import ListNotations.

Lemma scan_sel_folded : forall fold cfg ch st,
  fold_left (scan_step_sel fold cfg NFolded NFolded) ch st = fold_left (scan_step fold cfg) ch st.
Proof. induction ch as [|c ch IH]; intros st; [reflexivity|]. cbn [fold_left]. rewrite IH. destruct c; reflexivity. Qed.

Theorem from_kv1_sel_folded : forall fold cfg t, from_kv1_sel fold cfg NFolded NFolded t = from_kv1 fold cfg t.
Proof.
  intros fold cfg. induction t as [n v | on ch IH] using kv_ind'; [reflexivity|].
  cbn [from_kv1_sel from_kv1]. rewrite scan_sel_folded.
  assert (E : map (fun c => (c, from_kv1_sel fold cfg NFolded NFolded c)) ch = map (fun c => (c, from_kv1 fold cfg c)) ch).
  { apply map_ext_in. intros c Hin. rewrite Forall_forall in IH. rewrite (IH c Hin). reflexivity. }
  rewrite E. reflexivity.
Qed.

(** constants with the real reserved spellings: "name", "subkeys", "value" *)
Definition spelled_cfg : kv1cfg := {|
  t_block := [68; 109]%N; t_leaf := [68; 76]%N; t_root := [68; 82]%N;
  reserved := [c_name; [115; 117; 98; 107; 101; 121; 115]%N]; k_value_w := [118; 97; 108; 117; 101]%N;
  k_subkeys_w := [115; 117; 98; 107; 101; 121; 115]%N;
  k_value_r := [118; 97; 108; 117; 101]%N; k_subkeys_r := [115; 117; 98; 107; 101; 121; 115]%N; k_name_r := c_name |}.
(** block "Entity" { "Name" "Fred" } *)
Definition entity_tree : kv := KBlock (Some [69; 110; 116; 105; 116; 121]%N) [KLeaf [78; 97; 109; 101]%N [70; 114; 101; 100]%N].

(** the duplicate test on the case-preserved name: "Key" and "KEY" are both inlined and one of them is lost *)
Definition dup_tree : kv := KBlock (Some [66]%N) [KLeaf [75; 101; 121]%N [49]%N; KLeaf [75; 69; 89]%N [50]%N].
