(* ScenesImageCfgProofs.v -- the configured scenes.image writer is the hand model; sort site; pool order. *)
From Coq Require Import List NArith Lia Bool Arith Sorted Permutation.
From SV Require Import Fmt.ScenesImage Fmt.ScenesImageProofs Fmt.ScenesImageCfg.
Import ListNotations.
Local Open Scope N_scope.

(** * Decidable equalities are sound *)

Lemma eattr_eqb_eq a b : eattr_eqb a b = true -> a = b.
Proof. destruct a, b; cbn; congruence. Qed.
Lemma hsrc_eqb_eq a b : hsrc_eqb a b = true -> a = b.
Proof. destruct a, b; cbn; congruence. Qed.
Lemma esrc_eqb_eq a b : esrc_eqb a b = true -> a = b.
Proof. destruct a, b; cbn; try congruence. intros H; apply eattr_eqb_eq in H; congruence. Qed.
Lemma ssrc_eqb_eq a b : ssrc_eqb a b = true -> a = b.
Proof. destruct a, b; cbn; try congruence. intros H; apply eattr_eqb_eq in H; congruence. Qed.
Lemma sndsrc_eqb_eq a b : sndsrc_eqb a b = true -> a = b.
Proof. destruct a, b; cbn; congruence. Qed.
Lemma sortkey_eqb_eq a b : sortkey_eqb a b = true -> a = b.
Proof. destruct a, b; cbn; try congruence. intros H; apply eattr_eqb_eq in H; congruence. Qed.
Lemma sfld_eqb_eq a b : sfld_eqb a b = true -> a = b.
Proof. destruct a, b; cbn; try congruence. intros H; apply Nat.eqb_eq in H; congruence. Qed.
Lemma bytes_eqb_eq a : forall b, bytes_eqb a b = true -> a = b.
Proof.
  induction a as [|x a IH]; intros [|y b]; cbn; try congruence.
  intros H. apply andb_prop in H as [H1 H2]. apply N.eqb_eq in H1. f_equal; auto.
Qed.
Lemma bytes_eqb_refl a : bytes_eqb a a = true.
Proof. induction a as [|x a IH]; cbn; [reflexivity|]. rewrite N.eqb_refl, IH. reflexivity. Qed.

(** * struct.pack over an accepted format *)

Definition fits (k0 : sfld) (v : fval) : Prop :=
  match k0, v with
  | SU, VN n => n < 4294967296 | SI, VN n => n < 2147483648 | SS w, VB b => length b = w | _, _ => False
  end.
Definition enc (v : fval) : list N := match v with VN n => le32 n | VB b => b end.

Lemma pack_one_ok k k0 v : accepts k k0 = true -> fits k0 v -> pack_one k v = Some (enc v).
Proof.
  destruct k0 as [| |w0], k as [| |w], v as [n|b]; cbn; try discriminate; try contradiction; intros Ha H.
  - destruct (N.ltb_spec n 4294967296); [reflexivity|lia].
  - destruct (N.ltb_spec n 4294967296); [reflexivity|lia].
  - destruct (N.ltb_spec n 2147483648); [reflexivity|lia].
  - apply Nat.eqb_eq in Ha. subst w. rewrite H, Nat.eqb_refl. reflexivity.
Qed.

Lemma pack_fields_ok {S : Type} (eqb : S -> S -> bool) (val : S -> option fval) :
  (forall a b, eqb a b = true -> a = b) ->
  forall l l0 vals, accepts_list eqb l l0 = true ->
    Forall2 (fun p v => val (snd p) = Some v /\ fits (fst p) v) l0 vals ->
    pack_fields val l = Some (flat_map enc vals).
Proof.
  intros Heq. induction l as [|[k s] t IH]; intros [|[k0 s0] t0] vals Ha HF; cbn in Ha; try discriminate.
  - inversion HF; reflexivity.
  - apply andb_prop in Ha as [Ha Ht]. apply andb_prop in Ha as [Hk Hs]. apply Heq in Hs; subst s0.
    inversion HF as [|p v l' vs [Hv Hf] HF']; subst. cbn [fst snd] in *.
    cbn [pack_fields flat_map]. rewrite Hv, (pack_one_ok _ _ _ Hk Hf), (IH _ _ Ht HF'). reflexivity.
Qed.

Lemma accepts_size k k0 : accepts k k0 = true -> fld_size k = fld_size k0.
Proof.
  destruct k0, k; cbn; try discriminate; try reflexivity. intros H; apply Nat.eqb_eq in H; subst; reflexivity.
Qed.

Lemma accepts_list_size {S : Type} (eqb : S -> S -> bool) :
  forall l l0, accepts_list eqb l l0 = true -> fmt_size l = fmt_size l0.
Proof.
  induction l as [|[k s] t IH]; intros [|[k0 s0] t0] Ha; cbn in Ha; try discriminate; [reflexivity|].
  apply andb_prop in Ha as [Ha Ht]. apply andb_prop in Ha as [Hk _].
  cbn [fmt_size fold_right fst]. fold (fmt_size t) (fmt_size t0). rewrite (accepts_size _ _ Hk), (IH _ Ht). reflexivity.
Qed.

Lemma concatM_ok {A : Type} (f : A -> option (list N)) (g : A -> list N) (P : A -> Prop) :
  (forall a, P a -> f a = Some (g a)) -> forall l, Forall P l -> concatM f l = Some (flat_map g l).
Proof.
  intros H. induction 1 as [|a l Ha _ IH]; cbn [concatM flat_map]; [reflexivity|].
  rewrite (H _ Ha), IH. reflexivity.
Qed.

(** * Splitting the obligations *)

Lemma icfg_okb_split c : icfg_okb c = true ->
  magic_okb c = true /\ hdr_okb c = true /\ ent_okb c = true /\ sum_okb c = true /\ snd_okb c = true /\
  pooloff_okb c = true /\ version_okb c = true /\ sort_table_okb c = true /\ sort_pool_okb c = true /\ flags_okb c = true.
Proof. unfold icfg_okb. rewrite !andb_true_iff. tauto. Qed.

Lemma long_version_w c : icfg_okb c = true -> ic_long_version_w c = 3.
Proof.
  intros H. apply icfg_okb_split in H as (_ & _ & _ & _ & _ & _ & H & _).
  unfold version_okb in H. rewrite !andb_true_iff in H. destruct H as [[H _] _]. apply N.eqb_eq in H. exact H.
Qed.

(** under the obligations both input forms are ordered by checksum, when the table is written and when the pool is filled *)
Lemma table_order c (d : bool) kes : icfg_okb c = true ->
  order_g ekey (if d then ic_sort_dict c else ic_sort_iter c) kes = sort_by e_crc (map snd kes).
Proof.
  intros H. apply icfg_okb_split in H as (_ & _ & _ & _ & _ & _ & _ & H & _).
  unfold sort_table_okb in H. rewrite !andb_true_iff in H. destruct H as [[Hd Hi] Ha].
  apply eattr_eqb_eq in Ha. rewrite Ha in *. apply sortkey_eqb_eq in Hd, Hi.
  destruct d; [rewrite Hd|rewrite Hi]; reflexivity.
Qed.
Lemma pool_order c (d : bool) kes : icfg_okb c = true ->
  order_g skey (if d then ic_pool_sort_dict c else ic_pool_sort_iter c) kes = sort_by s_crc (map snd kes).
Proof.
  intros H. apply icfg_okb_split in H as (_ & _ & _ & _ & _ & _ & _ & _ & H & _).
  unfold sort_pool_okb in H. apply andb_prop in H as [Hd Hi]. apply sortkey_eqb_eq in Hd, Hi.
  destruct d; [rewrite Hd|rewrite Hi]; reflexivity.
Qed.

(** * The sort site *)

(** the table is sorted by whatever attribute is stored in it, whenever the sort key is that attribute *)
Theorem table_sorted_by_stored_attribute (a : eattr) (kes : list (N * entry)) :
  StronglySorted N.le (map (ekey a) (order_g ekey (SKAttr a) kes)).
Proof. cbn [order_g]. apply sort_by_keys_sorted. Qed.

(** * The configured writer is the hand model *)

Definition entry_fits (v : N) (e : entry) : Prop :=
  e_crc e < 4294967296 /\ e_dur e < 4294967296 /\ (v = 3 -> e_last e < 2147483648) /\
  Forall (fun i => i < 2147483648) (e_sounds e).

Lemma snd_pack_ok c idx : icfg_okb c = true -> Forall (fun i => i < 2147483648) idx ->
  concatM (fun i => pack_fields (sndval i) (ic_snd_w c)) idx = Some (flat_map le32 idx).
Proof.
  intros H. apply icfg_okb_split in H as (_ & _ & _ & _ & H & _).
  unfold snd_okb in H. apply andb_prop in H as [H _].
  apply concatM_ok. intros i Hi.
  rewrite (pack_fields_ok sndsrc_eqb (sndval i) sndsrc_eqb_eq _ _ [VN i] H).
  - cbn [flat_map enc]. rewrite app_nil_r. reflexivity.
  - repeat constructor. exact Hi.
Qed.

Lemma summary_g_ok c v e : icfg_okb c = true -> (v = 2 \/ v = 3) -> entry_fits v e ->
  lenN (e_sounds e) < 2147483648 -> summary_g c v e = Some (summary v e).
Proof.
  intros H Hv (Hc & Hd & Hl & Hs) Hn. unfold summary_g, summary.
  rewrite (snd_pack_ok c _ H Hs), (long_version_w c H).
  apply icfg_okb_split in H as (_ & _ & _ & H & _).
  unfold sum_okb in H. rewrite !andb_true_iff in H. destruct H as [[[HL _] HS] _].
  destruct Hv as [-> | ->]; cbn [N.eqb Pos.eqb].
  - rewrite (pack_fields_ok ssrc_eqb (sval e) ssrc_eqb_eq _ _ [VN (e_dur e); VN (lenN (e_sounds e))] HS).
    + cbn [flat_map enc]. rewrite app_nil_r. cbn [app]. rewrite <- !app_assoc. reflexivity.
    + repeat constructor; assumption.
  - rewrite (pack_fields_ok ssrc_eqb (sval e) ssrc_eqb_eq _ _ [VN (e_dur e); VN (e_last e); VN (lenN (e_sounds e))] HL).
    + cbn [flat_map enc]. rewrite app_nil_r. rewrite <- !app_assoc. reflexivity.
    + repeat constructor; cbn [fst snd fits]; auto.
Qed.

Lemma recs_g_ok c v es : icfg_okb c = true -> (v = 2 \/ v = 3) ->
  forall soff doff,
    Forall (entry_fits v) es ->
    soff + lenN (flat_map (summary v) es) < 2147483648 ->
    doff + lenN (flat_map e_blob es) < 2147483648 ->
    recs_g c v es soff doff = Some (flat_map rec_bytes (recs v es soff doff)).
Proof.
  intros H Hv. induction es as [|e t IH]; intros soff doff Hf Hs Hd; [reflexivity|].
  cbn [recs_g recs flat_map] in *. rewrite !lenN_app in *.
  pose proof (Forall_inv Hf) as He. pose proof (lenN_summary v e) as Ls.
  assert (Hn : lenN (e_sounds e) < 2147483648) by (destruct (v =? 3); lia).
  rewrite (summary_g_ok c v e H Hv He Hn).
  rewrite (IH _ _ (Forall_inv_tail Hf)) by lia.
  pose proof H as H'. apply icfg_okb_split in H' as (_ & _ & H' & _).
  unfold ent_okb in H'. apply andb_prop in H' as [H' _].
  destruct He as (Hc & _).
  rewrite (pack_fields_ok esrc_eqb _ esrc_eqb_eq _ _ [VN (e_crc e); VN doff; VN (lenN (e_blob e)); VN soff] H').
  - cbn [flat_map enc rec_bytes]. rewrite app_nil_r, <- !app_assoc. reflexivity.
  - repeat constructor; cbn [fst snd fits]; lia.
Qed.

Lemma sums_g_ok c v l : icfg_okb c = true -> (v = 2 \/ v = 3) -> Forall (entry_fits v) l ->
  lenN (flat_map (summary v) l) < 2147483648 ->
  concatM (summary_g c v) l = Some (flat_map (summary v) l).
Proof.
  intros H Hv Hf. induction Hf as [|e t He _ IH]; intros Hb; [reflexivity|].
  cbn [concatM flat_map] in *. rewrite lenN_app in Hb. pose proof (lenN_summary v e) as Ls.
  rewrite (summary_g_ok c v e H Hv He) by (destruct (v =? 3); lia).
  rewrite IH by lia. reflexivity.
Qed.

Lemma layout_g_ok c v pool l : icfg_okb c = true -> (v = 2 \/ v = 3) -> Forall (entry_fits v) l ->
  lenN (layout v pool l) < 2147483648 ->
  layout_g c v pool l = Some (layout v pool l).
Proof.
  intros H Hv Hf Hlen. rewrite lenN_layout in Hlen.
  pose proof H as Hs. apply icfg_okb_split in Hs as (Hm & Hh & He & _ & _ & Hp & _).
  unfold magic_okb in Hm. apply andb_prop in Hm as [Hm _]. apply bytes_eqb_eq in Hm.
  unfold hdr_okb in Hh. apply andb_prop in Hh as [Hh _].
  unfold ent_okb in He. apply andb_prop in He as [He _].
  unfold pooloff_okb in Hp. apply andb_prop in Hp as [Hp Hslot]. apply Nat.eqb_eq in Hslot.
  unfold layout_g, layout. cbv zeta.
  rewrite (accepts_list_size _ _ _ Hh), (accepts_list_size _ _ _ He), Hslot, Hm.
  change (fmt_size ref_hdr) with 20. change (fmt_size ref_ent) with 16. change (N.of_nat 4) with 4.
  set (strs := flat_map str_bytes pool) in *.
  set (str_start := 20 + 4 * lenN pool) in *.
  set (scene_off := str_start + lenN strs) in *.
  rewrite (pack_fields_ok hsrc_eqb _ hsrc_eqb_eq _ _
             [VB magic; VN v; VN (lenN l); VN (lenN pool); VN scene_off] Hh).
  2:{ repeat constructor; cbn [fst snd fits]; try reflexivity; try (unfold scene_off, str_start; lia). }
  rewrite (concatM_ok _ le32 (fun o => o < 2147483648)).
  2:{ intros o Ho. apply (pack_one_ok _ SI (VN o) Hp). exact Ho. }
  2:{ apply str_offsets_bound. fold strs. unfold str_start. lia. }
  rewrite (sums_g_ok c v l H Hv Hf) by lia.
  rewrite (recs_g_ok c v l H Hv _ _ Hf) by (unfold scene_off, str_start; lia).
  cbn [flat_map enc]. unfold sec_header. rewrite app_nil_r, <- !app_assoc. reflexivity.
Qed.

Lemma image_ok_entry_fits v pool es : image_ok_w v pool es -> Forall (entry_fits v) es.
Proof.
  intros [(Hv & Hpool & Hes & Hlen) Hl]. rewrite Forall_forall in *. intros e He.
  destruct (Hes e He) as (Hc & Hd & _ & Hi). repeat split; try assumption.
  - intros E. apply (Hl E e He).
  - eapply Forall_impl; [|exact Hi]. cbv beta. intros i Hi'.
    rewrite img_write_layout, lenN_layout in Hlen. lia.
Qed.

Theorem save_g_is_img_write c is_dict version pool kes :
  icfg_okb c = true -> image_ok_w version pool (map snd kes) ->
  img_save_g c is_dict version pool kes = Some (img_write version pool (map snd kes)).
Proof.
  intros H Hok. unfold img_save_g.
  rewrite (table_order c is_dict kes H), sort_by_crc_eq, img_write_layout. pose proof (image_ok_entry_fits _ _ _ Hok) as Hf.
  destruct Hok as [(Hv & _ & _ & Hlen) _].
  apply layout_g_ok; try assumption.
  eapply Permutation_Forall; [apply sort_by_crc_perm|exact Hf].
Qed.

Theorem save_g_roundtrip c is_dict version pool kes :
  icfg_okb c = true -> image_ok_w version pool (map snd kes) ->
  exists b, img_save_g c is_dict version pool kes = Some b /\
    img_parse b = Some (version, pool, map (to_pentry version pool) (sort_by_crc (map snd kes))).
Proof.
  intros H Hok. eexists. split; [apply save_g_is_img_write; assumption|].
  apply image_roundtrip. exact (proj1 Hok).
Qed.

Theorem save_g_table_sorted c is_dict version pool kes :
  icfg_okb c = true -> image_ok_w version pool (map snd kes) ->
  exists b ps, img_save_g c is_dict version pool kes = Some b /\ img_parse b = Some (version, pool, ps) /\
    StronglySorted N.le (map p_crc ps) /\ Permutation (map (fun ke => e_crc (snd ke)) kes) (map p_crc ps).
Proof.
  intros H Hok. destruct (image_sorted_by_crc version pool (map snd kes) (proj1 Hok)) as (ps & P & S & _ & Pm).
  exists (img_write version pool (map snd kes)), ps. split; [apply save_g_is_img_write; assumption|].
  split; [exact P|]. split; [exact S|]. rewrite map_map in Pm. exact Pm.
Qed.

(** * The string pool *)

Lemma index_of_Some s pool i : index_of s pool = Some i -> nth i pool [] = s /\ (i < length pool)%nat.
Proof.
  revert i. induction pool as [|h t IH]; intros i; cbn [index_of]; [discriminate|].
  destruct (bytes_eqb s h) eqn:E.
  - intros [= <-]. apply bytes_eqb_eq in E. subst. cbn. split; [reflexivity|lia].
  - destruct (index_of s t) as [j|]; cbn [option_map]; [|discriminate].
    intros [= <-]. destruct (IH j eq_refl) as [A B]. cbn [nth length]. split; [exact A|lia].
Qed.

Lemma index_of_In s pool : In s pool -> exists i, index_of s pool = Some i.
Proof.
  induction pool as [|h t IH]; [intros []|]. intros [->|Hin]; cbn [index_of].
  - rewrite bytes_eqb_refl. eexists; reflexivity.
  - destruct (bytes_eqb s h); [eexists; reflexivity|]. destruct (IH Hin) as [i ->]. eexists; reflexivity.
Qed.

Lemma index_of_None s pool : index_of s pool = None -> ~ In s pool.
Proof. intros H Hin. destruct (index_of_In s pool Hin) as [i E]. congruence. Qed.

Lemma pidx_ok pool s : In s pool -> nth (N.to_nat (pidx pool s)) pool [] = s /\ pidx pool s < lenN pool.
Proof.
  intros Hin. unfold pidx. destruct (index_of_In s pool Hin) as [i E]. rewrite E, Nat2N.id.
  destruct (index_of_Some _ _ _ E) as [A B]. split; [exact A|unfold lenN; lia].
Qed.

Lemma add_pool_incl pool s x : In x pool -> In x (add_pool pool s).
Proof. unfold add_pool. destruct (index_of s pool); [auto|]. intros; apply in_or_app; left; assumption. Qed.
Lemma add_pool_adds pool s : In s (add_pool pool s).
Proof.
  unfold add_pool. destruct (index_of s pool) as [i|] eqn:E.
  - destruct (index_of_Some _ _ _ E) as [A B]. rewrite <- A. apply nth_In. exact B.
  - apply in_or_app; right; left; reflexivity.
Qed.
Lemma fold_add_incl l : forall pool x, In x pool -> In x (fold_left add_pool l pool).
Proof. induction l as [|s t IH]; intros pool x H; cbn [fold_left]; [exact H|]. apply IH, add_pool_incl, H. Qed.
Lemma fold_add_adds l : forall pool x, In x l -> In x (fold_left add_pool l pool).
Proof.
  induction l as [|s t IH]; intros pool x; [intros []|]. intros [->|H]; cbn [fold_left].
  - apply fold_add_incl, add_pool_adds.
  - apply IH, H.
Qed.
Lemma fill_pool_incl es : forall pool x, In x pool -> In x (fill_pool pool es).
Proof.
  unfold fill_pool. induction es as [|e t IH]; intros pool x H; cbn [fold_left]; [exact H|].
  apply IH. unfold fill_entry. apply fold_add_incl, H.
Qed.
Lemma fill_pool_sounds es : forall pool e x, In e es -> In x (s_sounds e) -> In x (fill_pool pool es).
Proof.
  unfold fill_pool. induction es as [|h t IH]; intros pool e x; [intros []|]. intros [->|He] Hx; cbn [fold_left].
  - apply (fill_pool_incl t). unfold fill_entry. apply fold_add_adds, in_or_app. left; exact Hx.
  - eapply IH; eassumption.
Qed.

(** with every sound in the pool, reading the stored indexes back gives the sounds *)
Lemma to_pentry_resolve version pool e : Forall (fun x => In x pool) (s_sounds e) ->
  to_pentry version pool (resolve pool e) = to_pentry_s version e.
Proof.
  intros H. unfold to_pentry, to_pentry_s, resolve. cbn [e_crc e_dur e_last e_sounds e_blob]. f_equal.
  rewrite map_map. induction H as [|x l Hx _ IH]; cbn [map]; [reflexivity|].
  rewrite (proj1 (pidx_ok pool x Hx)), IH. reflexivity.
Qed.

Lemma order_s_perm k (kes : list (N * sentry)) : Permutation (map snd kes) (order_g skey k kes).
Proof.
  destruct k as [a| |]; cbn [order_g].
  - apply sort_by_perm.
  - apply Permutation_map, sort_by_perm.
  - apply Permutation_refl.
Qed.

Theorem save_s_roundtrip c is_dict version pool0 kes :
  icfg_okb c = true ->
  let pool := pool_g c is_dict pool0 kes in
  image_ok_w version pool (map (resolve pool) (map snd kes)) ->
  exists b, img_save_s c is_dict version pool0 kes = Some b /\
    img_parse b = Some (version, pool, map (to_pentry_s version) (sort_by s_crc (map snd kes))).
Proof.
  intros H pool Hok. unfold img_save_s. fold pool.
  assert (Em : map snd (map (fun ke : N * sentry => (fst ke, resolve pool (snd ke))) kes) = map (resolve pool) (map snd kes))
    by (rewrite !map_map; reflexivity).
  destruct (save_g_roundtrip c is_dict version pool _ H ltac:(rewrite Em; exact Hok)) as (b & Hb & Hp).
  exists b. split; [exact Hb|]. rewrite Hp, Em. f_equal. f_equal.
  rewrite <- sort_by_crc_eq, (sort_by_map (resolve pool) e_crc s_crc) by reflexivity.
  rewrite map_map. apply map_ext_in. intros e He. apply to_pentry_resolve.
  rewrite Forall_forall. intros x Hx. unfold pool, pool_g.
  eapply fill_pool_sounds; [|exact Hx].
  eapply Permutation_in; [apply order_s_perm|].
  eapply Permutation_in; [apply Permutation_sym, sort_by_perm|exact He].
Qed.

(** the file does not depend on the order (or the form: dict / iterable, whatever the dict keys are) in which the
    caller passes the entries, as long as no two share a checksum *)
Theorem save_s_order_independent c d1 d2 version pool0 kes1 kes2 :
  icfg_okb c = true -> Permutation (map snd kes1) (map snd kes2) -> NoDup (map s_crc (map snd kes1)) ->
  img_save_s c d1 version pool0 kes1 = img_save_s c d2 version pool0 kes2.
Proof.
  intros H P ND. unfold img_save_s, img_save_g, pool_g.
  rewrite !(pool_order c _ _ H), !(table_order c _ _ H). rewrite (sort_by_perm_unique s_crc _ _ P ND).
  set (pool := fill_pool pool0 (sort_by s_crc (map snd kes2))).
  rewrite !map_map. cbn [snd].
  rewrite <- !(map_map snd (resolve pool)), !(sort_by_map (resolve pool) e_crc s_crc) by reflexivity.
  rewrite (sort_by_perm_unique s_crc _ _ P ND). reflexivity.
Qed.

(** * Non-vacuity and refuted variants *)

Example ref_cfg_ok : icfg_okb ref_cfg = true.
Proof. vm_compute. reflexivity. Qed.

Example ex_save_s_parses :
  match img_save_s ref_cfg true 3 [] [(30, ex_s1); (10, ex_s2); (20, ex_s3)] with
  | Some b => img_parse b = Some (3, [[99]; [97]; [121]; [98]; [120]],
                                  map (to_pentry_s 3) [ex_s2; ex_s3; ex_s1])
  | None => False
  end.
Proof. vm_compute. reflexivity. Qed.

Example ex_image_ok_w :
  let pool := pool_g ref_cfg true [] [(30, ex_s1); (10, ex_s2); (20, ex_s3)] in
  image_ok_w 3 pool (map (resolve pool) [ex_s1; ex_s2; ex_s3]).
Proof.
  split.
  - apply image_okb_sound. vm_compute. reflexivity.
  - intros _. repeat constructor.
Qed.

(** the seeded-fault class "table ordered by the dict key": when the keys are stale (entries renamed after insertion)
    the written table is not sorted by the stored checksum, and the file is not what the list form gives *)
Example dict_key_cfg_rejected : sort_table_okb cfg_dict_key = false /\ sort_pool_okb cfg_dict_key = false.
Proof. split; vm_compute; reflexivity. Qed.
Example sort_by_dict_key_refuted :
  (* stored under 5 and 7, checksums 30 and 10 *)
  parsed_crcs (img_save_s cfg_dict_key true 3 [] [(5, ex_s1); (7, ex_s2)]) = Some [30; 10]
  /\ img_save_s cfg_dict_key true 3 [] [(5, ex_s1); (7, ex_s2)] <> img_save_s cfg_dict_key false 3 [] [(5, ex_s1); (7, ex_s2)].
Proof. split; [vm_compute; reflexivity|vm_compute; discriminate]. Qed.

(** the pinned tree (before the repair): pool filled in the caller's order, table sorted afterwards: equal images
    passed in different orders give different files *)
Example pool_unsorted_cfg_rejected : sort_pool_okb cfg_pool_unsorted = false /\ sort_table_okb cfg_pool_unsorted = true.
Proof. split; vm_compute; reflexivity. Qed.
Example pool_in_caller_order_refuted :
  img_save_s cfg_pool_unsorted false 3 [] [(0, ex_s1); (0, ex_s2)]
  <> img_save_s cfg_pool_unsorted false 3 [] [(0, ex_s2); (0, ex_s1)].
Proof. vm_compute. discriminate. Qed.

(** a table sorted by another attribute than the one stored in it *)
Example sort_by_other_attribute_refuted :
  sort_table_okb cfg_sort_other = false /\
  parsed_crcs (img_save_s cfg_sort_other false 3 [] [(0, ex_s1); (0, ex_s2)]) = Some [30; 10].
Proof. split; vm_compute; reflexivity. Qed.

(** the signed last-speak field: a value the hand model would write cannot be packed *)
Example last_speak_signed : summary_g ref_cfg 3 (mkEntry 1 5 2147483648 [] []) = None
                            /\ summary_g ref_cfg 2 (mkEntry 1 5 2147483648 [] []) = Some (summary 2 (mkEntry 1 5 2147483648 [] [])).
Proof. split; vm_compute; reflexivity. Qed.
