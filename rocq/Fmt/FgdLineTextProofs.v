(** C16 — the character level (Fmt/LongString.v) joined to the token level (Fmt/FgdLine.v): the STRING tokens that
    the sections written by _write_longstring denote, and the keyvalue line built from them. *)
From Coq Require Import List NArith Arith Bool.
From SV Require Import Fmt.LongString Fmt.LongStringProofs Fmt.FgdLine Fmt.FgdLineProofs.
Import ListNotations.
Open Scope N_scope.

(** the value of the STRING token of one written section: Tokenizer._handle_string on the characters between the quotes *)
Definition section_value (t : esc_table) (sec : LongString.str) : LongString.str :=
  match run t Plain sec with Some (_, o) => o | None => [] end.
(** the STRING tokens of a text as _write_longstring writes it (one per '+' section) *)
Definition token_sections (t : esc_table) (excl : list N) (cfg : ls_cfg) (ext : bool) (text : LongString.str) : list LongString.str :=
  map (section_value t) (sections cfg (fgd_escape t excl ext text)).

Lemma forall2_values t secs outs : Forall2 (fun s o => run t Plain s = Some (Plain, o)) secs outs -> map (section_value t) secs = outs.
Proof. induction 1 as [|s o secs outs Hs _ IH]; [reflexivity|]. cbn [map]. unfold section_value at 1. rewrite Hs, IH. reflexivity. Qed.

(** every section is a complete string body (the automaton ends outside an escape), there is at least one, and the
    token values concatenate to the text *)
Theorem token_sections_spec t excl : table_ok t excl = true -> forall cfg ext text, cfg_ok cfg = true ->
  (ext = false -> std_safe text = true) ->
  token_sections t excl cfg ext text <> []
  /\ List.concat (token_sections t excl cfg ext text) = text
  /\ Forall (fun sec => exists o, run t Plain sec = Some (Plain, o)) (sections cfg (fgd_escape t excl ext text)).
Proof.
  intros Ht cfg ext text Hcfg Hsafe. destruct (escaped_sections t excl Ht cfg ext text Hcfg Hsafe) as [[outs [HF Hc]] _].
  unfold token_sections. rewrite (forall2_values t _ _ HF).
  split; [|split; [exact Hc|]].
  - pose proof (sections_nonempty cfg (fgd_escape t excl ext text) Hcfg) as Hne. inversion HF; subst; [congruence|discriminate].
  - clear Hc. induction HF as [|s o secs outs Hs _ IH]; constructor; eauto.
Qed.

Section KvText.
Variable tag_norm : FgdLine.str -> FgdLine.str.
Variable tags_valid : list FgdLine.str -> bool.
Variable vt : Type.
Variable vt_text : vt -> FgdLine.str.
Variable vt_lookup : FgdLine.str -> option (bool * vt).
Variables vt_is_bool vt_is_flags vt_is_choices : vt -> bool.
Variable dec : N -> FgdLine.str.
Variable undec : FgdLine.str -> option N.
Variable pow2 : N -> bool.
Variable lcfg : line_cfg.
Hypothesis vt_lookup_text : forall v, vt_lookup (vt_text v) = Some (false, v).
Hypothesis two_colons : colons_before_desc_without_default lcfg = 2%nat.
Variable t : esc_table.
Variable excl : list N.
Hypothesis table : table_ok t excl = true.
Variable cfg : ls_cfg.
Hypothesis cfg_good : cfg_ok cfg = true.

(** A keyvalue line whose display name and description are written by _write_longstring (any length, any characters
    in the extended syntax; without quote, backslash and CR in the plain syntax): the parser returns exactly the
    display name and the description that were given to the writer. *)
Theorem kv_line_text_roundtrip label custom name tags ty ro rep disp dflt desc rest :
  (custom = false -> std_safe disp = true /\ std_safe desc = true) ->
  let k := mk_kvl vt name tags ty ro rep (token_sections t excl cfg custom disp) dflt (token_sections t excl cfg custom desc) NoList in
  tags_wf tag_norm tags_valid tags -> vt_is_flags ty = false -> vt_is_choices ty = false ->
  yes_no vt vt_is_bool ty (default_written vt vt_is_bool lcfg k) = default_written vt vt_is_bool lcfg k -> ends_line rest ->
  kv_parse tag_norm tags_valid vt vt_lookup vt_is_bool vt_is_flags vt_is_choices dec undec pow2 name
    (List.tl (kv_toks vt vt_text vt_is_bool vt_is_flags dec lcfg label custom k) ++ rest)
  = Some (mk_kvl vt name (seen_tags custom tags) ty ro rep [disp] (default_written vt vt_is_bool lcfg k) [desc] NoList, rest).
Proof.
  intros Hsafe k Ht Hf Hc Hy He.
  assert (Hd : forall x, (custom = false -> std_safe x = true) -> token_sections t excl cfg custom x <> []
                          /\ List.concat (token_sections t excl cfg custom x) = x).
  { intros x Hx. destruct (token_sections_spec t excl table cfg custom x cfg_good Hx) as [H1 [H2 _]]. auto. }
  destruct (Hd disp (fun E => proj1 (Hsafe E))) as [Hd1 Hd2]. destruct (Hd desc (fun E => proj2 (Hsafe E))) as [_ Hs2].
  pose proof (kv_plain_roundtrip tag_norm tags_valid vt vt_text vt_lookup vt_is_bool vt_is_flags vt_is_choices dec undec pow2 lcfg
                vt_lookup_text two_colons label custom k rest Ht Hf Hc eq_refl Hd1 Hy He) as H.
  change (l_name vt k) with name in H. rewrite H. unfold kv_norm. subst k. cbn [l_name l_tags l_type l_ro l_report l_disp l_desc].
  rewrite Hd2, Hs2. reflexivity.
Qed.
End KvText.
