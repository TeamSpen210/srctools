(** C06: proofs about Fmt/VmfGuard.v (axiom-free). *)
From Coq Require Import List String Bool ZArith.
From SV Require Import Fmt.VmfGuard.
Import ListNotations.
Open Scope string_scope.

Lemma optgroup_ok_spec primary g : optgroup_ok primary g = true ->
  exists m, og_guard g = GAnyTruthy m /\ assoc primary (og_arrays g) = Some m /\ In m (og_falsy_default g).
Proof.
  unfold optgroup_ok. destruct (og_guard g) as [m|m|]; try discriminate.
  destruct (assoc primary (og_arrays g)) as [pm|]; try discriminate.
  intros H. apply andb_true_iff in H. destruct H as [E H]. apply String.eqb_eq in E. subst pm.
  exists m. split; [reflexivity|split; [reflexivity|]].
  apply existsb_exists in H. destruct H as (x & Hx & Ex). apply String.eqb_eq in Ex. now subst x.
Qed.

Section Group.
  Variable vert : Type.
  Variable val : Type.
  Variable get : string -> vert -> val.
  Variable truthy : string -> vert -> bool.
  Variable dflt : vert.

  (** If a falsy member is the default one, the guard member survives for every list of vertices: either the group is
      written, or every vertex holds the default, which is what the reader leaves. *)
  Theorem guard_member_survives m :
    (forall v, truthy m v = false -> get m v = get m dflt) ->
    forall vs, map (get m) (parse_group vert dflt (List.length vs) (export_group vert truthy m vs)) = map (get m) vs.
  Proof.
    intros Hd vs. unfold export_group. destruct (existsb (truthy m) vs) eqn:E; [reflexivity|].
    cbn [parse_group]. induction vs as [|v vs IH]; [reflexivity|].
    cbn [existsb] in E. apply orb_false_iff in E. destruct E as [Ev Er].
    cbn [List.length repeat map]. rewrite (Hd v Ev), IH by exact Er. reflexivity.
  Qed.

End Group.

(** The other members of the group do not survive when the guard member is default everywhere (limit of the
    representation), and a guard on another member loses the primary one: vertices = (blend, alpha). *)
Definition ex_get (m : string) (v : Z * Z) : Z := if String.eqb m "blend" then fst v else snd v.
Definition ex_truthy (m : string) (v : Z * Z) : bool := negb (Z.eqb (ex_get m v) 0).

Example optgroup_example :
  optgroup_ok "multiblend" (mk_optgroup [("multiblend", "multi_blend"); ("alphablend", "multi_alpha")] (GAnyTruthy "multi_blend")
                                        ["multi_blend"; "multi_alpha"] ["disp_multiblend"]) = true
  /\ optgroup_ok "multiblend" (mk_optgroup [("multiblend", "multi_blend"); ("colors", "multi_colors")] (GAnyNotNone "multi_colors")
                                           ["multi_blend"] []) = false.
Proof. split; reflexivity. Qed.
