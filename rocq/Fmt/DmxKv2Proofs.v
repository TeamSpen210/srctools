(** C14 — proofs about the KeyValues2 model (Fmt/DmxKv2.v): the reference decision tables, the tokenizer run over the
    writer's lexemes (composing C02's [quoted_embedding]), and the token-level parser. *)
From Coq Require Import NArith List Bool Lia PeanoNat.
From SV Require Import Text.Str Text.Prog Text.Escape Text.EscapeProofs Text.Tokenizer Fmt.DmxKv2.
Import ListNotations.
Open Scope N_scope.

(** * Part 1: decision tables *)
Lemma raction_eqb_eq a b : raction_eqb a b = true -> a = b.
Proof. destruct a, b; cbn; congruence. Qed.
Lemma oaction_eqb_eq a b : oaction_eqb a b = true -> a = b.
Proof. destruct a as [a|], b as [b|]; cbn; try congruence. intros H. f_equal. now apply raction_eqb_eq. Qed.

Lemma all_bool3_complete n s r : In (n, s, r) all_bool3.
Proof. destruct n, s, r; cbn; tauto. Qed.

Theorem reference_tables_example :
  rtable_ok pinned_rtable = true /\ rtables_agree pinned_rtable pinned_rtable = true.
Proof. split; reflexivity. Qed.

(** * Part 2a: small facts *)
Lemma str_eqb_eq : forall a b, str_eqb a b = true -> a = b.
Proof.
  induction a as [|x a IH]; intros [|y b] H; cbn [str_eqb] in H; try discriminate; [reflexivity|].
  apply andb_prop in H. destruct H as [H1 H2]. apply N.eqb_eq in H1. apply IH in H2. now subst.
Qed.
Lemma str_eqb_refl : forall a, str_eqb a a = true.
Proof. induction a as [|x a IH]; [reflexivity|]. cbn [str_eqb]. now rewrite N.eqb_refl. Qed.
Lemma str_eqb_neq a b : a <> b -> str_eqb a b = false.
Proof. intros H. destruct (str_eqb a b) eqn:E; [|reflexivity]. now apply str_eqb_eq in E. Qed.
Lemma tok_eqb_refl t : tok_eqb t t = true.
Proof. unfold tok_eqb. apply N.eqb_refl. Qed.
Lemma tok_eqb_eq a b : tok_eqb a b = true -> a = b.
Proof. unfold tok_eqb. intros H. apply N.eqb_eq in H. destruct a, b; cbn in H; try discriminate; reflexivity. Qed.

Lemma esc_char_length T ml c : (1 <= length (esc_char T ml c))%nat.
Proof. unfold esc_char. destruct (mem c (excl T ml)); [cbn; lia|]. destruct (rlookup c (esc_table T)); cbn; lia. Qed.
Lemma escape_length T ml s : (length s <= length (escape T ml s))%nat.
Proof.
  induction s as [|c s IH]; [cbn; lia|]. unfold escape in *. cbn [flat_map length]. rewrite app_length.
  pose proof (esc_char_length T ml c). lia.
Qed.

(** * Part 2b: the tokenizer over the writer's lexemes *)
Section Lex.
Variable T : tables.
Variable o : opts.
Hypothesis HT : kv2_tables_ok T = true.
Hypothesis Ho : kv2_opts_ok o = true.

Definition blanks (w : str) : bool := forallb (fun c => (c =? TAB) || (c =? SP)) w.
(** a lexeme the writer may emit: blanks before it, and raw texts are texts that escape_text leaves alone *)
Definition lexeme_ok (l : lexeme) : bool :=
  blanks (fst l) && match snd l with LRaw s => str_eqb (escape T false s) s | _ => true end.

Lemma HT_parts :
  tbl_ok T false = true /\
  lookup DQ (operators T) = None /\ lookup CR (operators T) = None /\ lookup LF (operators T) = None /\
  lookup TAB (operators T) = None /\ lookup SP (operators T) = None /\
  lookup LBRACK (operators T) = None /\ lookup RBRACK (operators T) = None /\
  lookup LBRACE (operators T) = Some BRACE_OPEN /\ lookup RBRACE (operators T) = Some BRACE_CLOSE /\
  lookup COMMAC (operators T) = Some COMMA.
Proof.
  pose proof HT as H. unfold kv2_tables_ok in H.
  apply andb_prop in H. destruct H as [H Hc]. apply andb_prop in H. destruct H as [H Hb].
  apply andb_prop in H. destruct H as [H Ha]. apply andb_prop in H. destruct H as [Hok Hn].
  cbn [forallb] in Hn. repeat (apply andb_prop in Hn; destruct Hn as [? Hn]).
  assert (Hnone : forall c, is_none (lookup c (operators T)) = true -> lookup c (operators T) = None).
  { intros c. destruct (lookup c (operators T)); [discriminate|reflexivity]. }
  assert (Hop : forall c k, op_is T c k = true -> lookup c (operators T) = Some k).
  { intros c k. unfold op_is. destruct (lookup c (operators T)) as [k'|]; [|discriminate]. intros E. apply tok_eqb_eq in E. now subst. }
  repeat split; auto.
Qed.
Lemma Ho_parts : allow_escapes o = true /\ string_bracket o = false.
Proof.
  pose proof Ho as H. unfold kv2_opts_ok in H. apply andb_prop in H. destruct H as [H1 H2].
  split; [exact H1|]. now apply negb_true_iff in H2.
Qed.

(** a pending LF after a CR is swallowed *)
Lemma get_token_pending_lf f line l :
  run_flat (get_token T o (S f) line true) (LF :: l) = run_flat (get_token T o f line false) l.
Proof.
  destruct HT_parts as (_ & _ & _ & Hlf & _). cbn [run_flat get_token fnext keep]. rewrite Hlf. reflexivity.
Qed.
Lemma get_token_blank f line lcr c l : ((c =? TAB) || (c =? SP)) = true ->
  run_flat (get_token T o (S f) line lcr) (c :: l) = run_flat (get_token T o f line false) l.
Proof.
  destruct HT_parts as (_ & _ & _ & _ & Htab & Hsp & _). intros Hc.
  apply orb_prop in Hc. destruct Hc as [E|E]; apply N.eqb_eq in E; subst c;
    cbn [run_flat get_token fnext keep]; [rewrite Htab|rewrite Hsp]; reflexivity.
Qed.
Lemma get_token_blanks : forall w f line lcr l, blanks w = true ->
  run_flat (get_token T o (length w + S f) line lcr) (w ++ l)
  = run_flat (get_token T o (S f) line (match w with [] => lcr | _ => false end)) l.
Proof.
  induction w as [|c w IH]; intros f line lcr l Hw; [reflexivity|].
  cbn [blanks forallb] in Hw. apply andb_prop in Hw. destruct Hw as [Hc Hw].
  cbn [length app plus]. rewrite get_token_blank by exact Hc. rewrite IH by exact Hw. now destruct w.
Qed.

Definition pre (lcr : bool) : str := if lcr then [LF] else [].
Definition lcr_after (t : ltok) : bool := match t with LNl => true | _ => false end.
(** what one [_get_token] call returns for a token text at the head of the input, and what is left *)
Lemma get_token_ltok t f line rest :
  match t with LRaw s => str_eqb (escape T false s) s = true | _ => True end ->
  (length (ltok_text T t) < S f)%nat ->
  exists line', run_flat (get_token T o (S f) line false) (ltok_text T t ++ rest)
                = (RTok (fst (ltok_tok t)) (snd (ltok_tok t)) line' (lcr_after t), match t with LNl => LF :: rest | _ => rest end).
Proof.
  destruct HT_parts as (Hok & Hdq & Hcr & Hlf & Htab & Hsp & Hlb & Hrb & Hbo & Hbc & Hco).
  destruct Ho_parts as (Hesc & Hsb).
  assert (Hq : forall s, (length (DQ :: escape T false s ++ [DQ]) < S f)%nat ->
            run_flat (get_token T o (S f) line false) ((DQ :: escape T false s ++ [DQ]) ++ rest)
            = (RTok STRING s (line + raw_lfs T false s) false, rest)).
  { intros s Hlen. cbn [app]. rewrite <- app_assoc. cbn [app].
    rewrite (get_token_quote T o f line false); [|unfold dq_not_operator; now rewrite Hdq].
    rewrite (quoted_embedding T o Hesc false Hok s f [] line rest); [reflexivity|].
    cbn [length] in Hlen. rewrite app_length in Hlen. cbn [length] in Hlen. pose proof (escape_length T false s). lia. }
  intros Hraw Hlen. destruct t as [s|s| | | | | |]; cbn [ltok_text ltok_tok fst snd lcr_after] in *.
  - eexists. apply Hq. exact Hlen.
  - apply str_eqb_eq in Hraw. pose proof (Hq s) as Hq'. rewrite Hraw in Hq'. eexists. apply Hq'. exact Hlen.
  - eexists. cbn [app run_flat get_token fnext keep]. rewrite Hcr. reflexivity.
  - eexists. cbn [app run_flat get_token fnext keep]. rewrite Hbo. reflexivity.
  - eexists. cbn [app run_flat get_token fnext keep]. rewrite Hbc. reflexivity.
  - eexists. cbn [app run_flat get_token fnext keep]. rewrite Hlb. cbn. rewrite Hsb. reflexivity.
  - eexists. cbn [app run_flat get_token fnext keep]. rewrite Hrb. cbn. rewrite Hsb. reflexivity.
  - eexists. cbn [app run_flat get_token fnext keep]. rewrite Hco. reflexivity.
Qed.

Lemma ltok_text_nonempty t : (1 <= length (ltok_text T t))%nat.
Proof. destruct t; cbn [ltok_text length]; lia. Qed.

(** one lexeme, with the pending LF of a preceding CR LF *)
Lemma get_token_lexeme w t F line lcr rest : lexeme_ok (w, t) = true ->
  (length (pre lcr ++ w ++ ltok_text T t) + 1 <= F)%nat ->
  exists line', run_flat (get_token T o F line lcr) (pre lcr ++ w ++ ltok_text T t ++ rest)
                = (RTok (fst (ltok_tok t)) (snd (ltok_tok t)) line' (lcr_after t), pre (lcr_after t) ++ rest).
Proof.
  intros Hl HF. unfold lexeme_ok in Hl. cbn [fst snd] in Hl. apply andb_prop in Hl. destruct Hl as [Hw Hraw].
  rewrite !app_length in HF. pose proof (ltok_text_nonempty t) as Hne.
  assert (Hmain : forall f, (length w + length (ltok_text T t) + 1 <= f)%nat ->
            exists line', run_flat (get_token T o f line false) (w ++ ltok_text T t ++ rest)
              = (RTok (fst (ltok_tok t)) (snd (ltok_tok t)) line' (lcr_after t), pre (lcr_after t) ++ rest)).
  { intros f Hf.
    replace f with (length w + S (f - length w - 1))%nat by lia.
    rewrite get_token_blanks by exact Hw.
    replace (match w with [] => false | _ => false end) with false by now destruct w.
    destruct (get_token_ltok t (f - length w - 1) line rest) as [line' Hr].
    - destruct t; try exact I. exact Hraw.
    - lia.
    - exists line'. rewrite Hr. f_equal. now destruct t. }
  destruct lcr; cbn [pre app length] in *.
  - destruct F as [|f]; [lia|]. rewrite get_token_pending_lf. apply Hmain. lia.
  - apply Hmain. lia.
Qed.

Lemma render_lex_cons l ls : render_lex T (l :: ls) = fst l ++ ltok_text T (snd l) ++ render_lex T ls.
Proof. unfold render_lex. cbn [flat_map]. now rewrite <- app_assoc. Qed.

(** The whole text: every lexeme gives exactly its token, in order; then EOF. *)
Theorem lex_all_lexemes : forall ls, forallb lexeme_ok ls = true ->
  forall n F line lcr, (length ls < n)%nat -> (length (pre lcr ++ render_lex T ls) + 2 <= F)%nat ->
  lex_all T o n F line lcr (pre lcr ++ render_lex T ls) = Some (toks_of ls).
Proof.
  induction ls as [|[w t] ls IH]; intros Hok n F line lcr Hn HF.
  - destruct n as [|n]; [cbn in Hn; lia|]. cbn [render_lex flat_map toks_of map]. rewrite app_nil_r.
    cbn [lex_all]. destruct lcr; cbn [pre] in *.
    + destruct F as [|[|f]]; [cbn in HF; lia|cbn in HF; lia|]. rewrite get_token_pending_lf. reflexivity.
    + destruct F as [|f]; [cbn in HF; lia|]. reflexivity.
  - cbn [forallb] in Hok. apply andb_prop in Hok. destruct Hok as [Hl Hls].
    destruct n as [|n]; [cbn in Hn; lia|]. cbn [lex_all]. rewrite render_lex_cons. cbn [fst snd].
    rewrite render_lex_cons in HF. cbn [fst snd] in HF. rewrite !app_length in HF.
    destruct (get_token_lexeme w t F line lcr (render_lex T ls) Hl) as [line' Hr].
    { rewrite !app_length. lia. }
    rewrite Hr.
    assert (Hrec : lex_all T o n F line' (lcr_after t) (pre (lcr_after t) ++ render_lex T ls) = Some (toks_of ls)).
    { apply IH; [exact Hls|cbn in Hn; lia|]. rewrite app_length.
      assert (length (pre (lcr_after t)) <= length (ltok_text T t))%nat by (destruct t; cbn; lia). lia. }
    cbn [toks_of map snd]. destruct t; cbn [ltok_tok fst snd]; rewrite Hrec; reflexivity.
Qed.

Lemma render_lex_length ls : (length ls <= length (render_lex T ls))%nat.
Proof.
  induction ls as [|[w t] ls IH]; [cbn; lia|]. rewrite render_lex_cons. cbn [fst snd length]. rewrite !app_length.
  pose proof (ltok_text_nonempty t). lia.
Qed.

Theorem tokenize_lexemes ls : forallb lexeme_ok ls = true -> tokenize T o (render_lex T ls) = Some (toks_of ls).
Proof.
  intros Hok. unfold tokenize. pose proof (render_lex_length ls).
  apply (lex_all_lexemes ls Hok _ _ 1 false); cbn [pre app]; lia.
Qed.
End Lex.

(** * Part 2c: the parser over the writer's tokens *)
Section Parse.
Variable T : tables.
Variable fold : str -> str.
Variable vtnames : list str.
Hypothesis Hvt : vtnames_ok T fold vtnames = true.

Notation tS v := (STRING, v) (only parsing).
Definition tNL : tok * str := (NEWLINE, [LF]).
Definition tBO : tok * str := (BRACE_OPEN, [LBRACE]).
Definition tBC : tok * str := (BRACE_CLOSE, [RBRACE]).
Definition tKO : tok * str := (BRACK_OPEN, [LBRACK]).
Definition tKC : tok * str := (BRACK_CLOSE, [RBRACK]).

Definition nls (l : tl) : bool := forallb (fun x : tok * str => tok_eqb (fst x) NEWLINE) l.

Lemma skip_nl_app p l : nls p = true -> skip_nl (p ++ l) = skip_nl l.
Proof.
  induction p as [|[k v] p IH]; intros H; [reflexivity|]. cbn [nls forallb fst] in H. apply andb_prop in H.
  destruct H as [H1 H2]. cbn [app skip_nl]. rewrite H1. now apply IH.
Qed.
(** a loop whose iteration drops a NEWLINE at the head drops a run of them *)
Lemma loop_skips_nls {A} (f : nat -> tl -> A) : (forall n v r, f (S n) ((NEWLINE, v) :: r) = f n r) ->
  forall p n l, nls p = true -> f (length p + n)%nat (p ++ l) = f n l.
Proof.
  intros Hf. induction p as [|[k v] p IH]; intros n l Hp; [reflexivity|].
  cbn [nls forallb fst] in Hp. apply andb_prop in Hp. destruct Hp as [H1 H2]. apply tok_eqb_eq in H1. subst k.
  cbn [length plus app]. rewrite Hf. now apply IH.
Qed.
Lemma expect_app p want l : nls p = true -> tok_eqb NEWLINE want = false -> expect want (p ++ l) = expect want l.
Proof.
  intros Hp Hw. induction p as [|[k v] p IH]; [reflexivity|]. cbn [nls forallb fst] in Hp. apply andb_prop in Hp.
  destruct Hp as [H1 H2]. cbn [app expect]. apply tok_eqb_eq in H1. subst k. rewrite Hw. cbn. now apply IH.
Qed.

Lemma vt_facts t : mem_str t vtnames = true -> vtname_ok T fold t = true.
Proof.
  intros H. unfold mem_str in H. apply existsb_exists in H. destruct H as [x [Hin Hx]]. apply str_eqb_eq in Hx. subst x.
  pose proof Hvt as H. unfold vtnames_ok in H. repeat (apply andb_prop in H; destruct H as [H ?]).
  rewrite forallb_forall in H. now apply H.
Qed.
Lemma vt_globals : mem_str s_element vtnames = true /\ mem_str s_string vtnames = true /\
  fold s_elementid = s_elementid /\ fold s_string = s_string.
Proof.
  pose proof Hvt as H. unfold vtnames_ok in H. repeat (apply andb_prop in H; destruct H as [H ?]).
  repeat split; try assumption; now apply str_eqb_eq.
Qed.
Lemma vtname_parts t : vtname_ok T fold t = true ->
  fold t = t /\ fold (t ++ s_array) = t ++ s_array /\ ends_with t s_array = false /\
  str_eqb t s_elementid = false /\ str_eqb (t ++ s_array) s_elementid = false.
Proof.
  intros H. unfold vtname_ok in H. repeat (apply andb_prop in H; destruct H as [H ?]).
  repeat split; try (now apply str_eqb_eq); now apply negb_true_iff.
Qed.

Lemma vtname_literals t : vtname_ok T fold t = true -> literal_ok T t = true /\ literal_ok T (t ++ s_array) = true.
Proof. intros H. unfold vtname_ok in H. repeat (apply andb_prop in H; destruct H as [H ?]). now split. Qed.

Lemma ends_with_app t s : ends_with (t ++ s) s = true.
Proof.
  induction t as [|c t IH]; cbn [app].
  - destruct s; cbn [ends_with]; rewrite str_eqb_refl; reflexivity.
  - cbn [ends_with]. rewrite IH. apply orb_true_r.
Qed.
Lemma strip_array t : firstn (length (t ++ s_array) - 6) (t ++ s_array) = t.
Proof.
  rewrite app_length. change (length s_array) with 6%nat. replace (length t + 6 - 6)%nat with (length t + 0)%nat by lia.
  rewrite firstn_app_2. cbn [firstn]. apply app_nil_r.
Qed.

(** ** element-valued and plain items *)
Lemma toks_of_app a b : toks_of (a ++ b) = toks_of a ++ toks_of b.
Proof. apply map_app. Qed.

Definition sep {A} (its : list A) : list lexeme :=
  match its with [] => [([], LNl)] | _ => [([], LComma); ([], LNl)] end.
Lemma lex_items_cons it its : lex_items (it :: its) = lex_ref T2 it ++ sep its ++ lex_items its.
Proof. destruct its; cbn [lex_items sep]; [now rewrite app_nil_r|reflexivity]. Qed.

Lemma skip_comma_sep {A} (its : list A) X : (match its with [] => exists r, X = tKC :: r | _ => True end) ->
  exists p, nls p = true /\ skip_comma (toks_of (sep its) ++ X) = p ++ X /\ (length p <= 1)%nat.
Proof.
  destruct its; intros H.
  - destruct H as [r ->]. exists []. repeat split. cbn. lia.
  - exists [tNL]. repeat split. cbn. lia.
Qed.

(** one iteration of the array loop reads one item *)
Lemma array_step it is_elem acc p X n : nls p = true -> item_ok T is_elem it = true ->
  array_loop (S n) is_elem acc (p ++ toks_of (lex_ref T2 it) ++ X) = array_loop n is_elem (it :: acc) (skip_comma X).
Proof.
  intros Hp Hit. cbn [array_loop]. rewrite skip_nl_app by exact Hp. destruct it as [s| |u]; cbn [item_ok] in Hit.
  - apply negb_true_iff in Hit. subst is_elem. reflexivity.
  - subst is_elem. reflexivity.
  - apply andb_prop in Hit. destruct Hit as [-> Hu]. unfold blank_free_uuid in Hu. apply andb_prop in Hu.
    destruct Hu as [_ Hne]. destruct u; [discriminate|reflexivity].
Qed.

Lemma array_items : forall its is_elem acc p rest n, nls p = true -> forallb (item_ok T is_elem) its = true ->
  (length its < n)%nat ->
  array_loop n is_elem acc (p ++ toks_of (lex_items its) ++ tKC :: rest) = Some (rev acc ++ its, rest).
Proof.
  induction its as [|it its IH]; intros is_elem acc p rest n Hp Hok Hn.
  - destruct n as [|n]; [lia|]. cbn [lex_items toks_of map app array_loop]. rewrite skip_nl_app by exact Hp.
    cbn. now rewrite app_nil_r.
  - destruct n as [|n]; [cbn in Hn; lia|]. cbn [forallb] in Hok. apply andb_prop in Hok. destruct Hok as [Hit Hits].
    rewrite lex_items_cons, !toks_of_app, <- !app_assoc, (array_step it is_elem acc p _ n Hp Hit).
    destruct (skip_comma_sep its (toks_of (lex_items its) ++ tKC :: rest)) as (p' & Hp' & Hsk & _).
    { destruct its; [|exact I]. exists rest. reflexivity. }
    rewrite Hsk, (IH is_elem (it :: acc) p' rest n Hp' Hits) by (cbn in Hn; lia). cbn [rev]. now rewrite <- app_assoc.
Qed.

Lemma lex_items_toks_length its : (length its <= length (toks_of (lex_items its)))%nat.
Proof.
  induction its as [|it its IH]; [cbn; lia|]. rewrite lex_items_cons, !toks_of_app, !app_length.
  assert (1 <= length (toks_of (lex_ref T2 it)))%nat by (destruct it; cbn; lia). cbn [length] in *. lia.
Qed.

(** ** one attribute *)
Lemma attr_parts a : attr_ok T vtnames a = true ->
  mem_str (ka_type a) vtnames = true /\ str_eqb (ka_name a) s_name = false /\
  forallb (item_ok T (is_elem_type (ka_type a))) (ka_items a) = true /\
  (ka_arr a = true \/ exists it, ka_items a = [it]).
Proof.
  intros H. unfold attr_ok in H. repeat (apply andb_prop in H; destruct H as [H ?]).
  repeat split; try assumption; [now apply negb_true_iff|].
  destruct (ka_arr a); [now left|right]. cbn [orb] in *.
  destruct (ka_items a) as [|it [|? ?]]; try discriminate. now exists it.
Qed.

(** the tokens of an attribute: name, type keyword, value tokens, newline; and [read_value] on the value tokens *)
Lemma attr_tokens a : attr_ok T vtnames a = true ->
  exists typetxt vt,
    toks_of (lex_attr a) = (STRING, ka_name a) :: (STRING, typetxt) :: vt ++ [tNL] /\
    fold typetxt = typetxt /\ str_eqb typetxt s_elementid = false /\
    forall rest, read_value vtnames (ka_name a) typetxt (vt ++ tNL :: rest) = Some (a, tNL :: rest).
Proof.
  intros Hok. destruct (attr_parts a Hok) as (Hmem & Hname & Hitems & Hshape).
  destruct (vtname_parts _ (vt_facts _ Hmem)) as (Hf & Hfa & Hend & Hne & Hnea).
  destruct a as [name typ arr items]. cbn [ka_name ka_type ka_arr ka_items] in *.
  destruct arr.
  - (* array *)
    exists (typ ++ s_array), (tNL :: tKO :: tNL :: toks_of (lex_items items) ++ [tKC]).
    unfold lex_attr. cbn [ka_arr ka_name ka_type ka_items].
    split; [|split; [exact Hfa|split; [exact Hnea|]]].
    + rewrite !toks_of_app. cbn [toks_of map app ltok_tok snd]. unfold tNL, tKO, tKC. rewrite <- !app_assoc. reflexivity.
    + intros rest. unfold read_value. rewrite ends_with_app, strip_array, Hmem.
      cbn [app expect tok_eqb tok_tag N.eqb tNL tKO fst]. cbn -[array_loop toks_of].
      rewrite <- app_assoc. cbn [app].
      change (tNL :: toks_of (lex_items items) ++ tKC :: tNL :: rest) with ([tNL] ++ toks_of (lex_items items) ++ tKC :: tNL :: rest).
      rewrite (array_items items (is_elem_type typ) [] [tNL] (tNL :: rest)); [reflexivity|reflexivity|exact Hitems|].
      rewrite !app_length. cbn [length]. pose proof (lex_items_toks_length items). lia.
  - (* scalar *)
    destruct Hshape as [Hd|[it Hit]]; [discriminate|]. subst items. cbn [forallb] in Hitems. apply andb_prop in Hitems.
    destruct Hitems as [Hit _]. unfold lex_attr. cbn [ka_arr ka_name ka_type ka_items].
    destruct (is_elem_type typ) eqn:Ee.
    + assert (typ = s_element) by (now apply str_eqb_eq). subst typ.
      destruct it as [s| |u]; cbn [item_ok] in Hit; try discriminate.
      * exists s_element, [(STRING, [])]. split; [reflexivity|split; [exact Hf|split; [exact Hne|]]].
        intros rest. unfold read_value. rewrite Hend, Hmem, Ee. reflexivity.
      * cbn [andb] in Hit. unfold blank_free_uuid in Hit. apply andb_prop in Hit. destruct Hit as [_ Hnz].
        exists s_element, [(STRING, u)]. split; [reflexivity|split; [exact Hf|split; [exact Hne|]]].
        intros rest. unfold read_value. rewrite Hend, Hmem, Ee. cbn [app expect tok_eqb tok_tag N.eqb].
        cbn -[ref_of]. assert (Er : ref_of u = KRef u) by (destruct u; [discriminate|reflexivity]). now rewrite Er.
    + destruct it as [s| |u]; cbn [item_ok negb] in Hit; try discriminate.
      exists typ, [(STRING, s)]. split; [reflexivity|split; [exact Hf|split; [exact Hne|]]].
      intros rest. unfold read_value. rewrite Hend, Hmem, Ee. reflexivity.
Qed.

Lemma body_skip_nls p n id name acc l : nls p = true ->
  body_loop fold vtnames (length p + n) id name acc (p ++ l) = body_loop fold vtnames n id name acc l.
Proof. apply (loop_skips_nls (fun n l => body_loop fold vtnames n id name acc l)). reflexivity. Qed.

Lemma body_attrs : forall attrs acc id name p rest n, nls p = true -> forallb (attr_ok T vtnames) attrs = true ->
  (length (p ++ toks_of (flat_map lex_attr attrs) ++ tBC :: rest) <= n)%nat ->
  body_loop fold vtnames n id name acc (p ++ toks_of (flat_map lex_attr attrs) ++ tBC :: rest)
  = Some (id, name, rev acc ++ attrs, rest).
Proof.
  induction attrs as [|a attrs IH]; intros acc id name p rest n Hp Hok Hn.
  - rewrite app_length in Hn. cbn [flat_map toks_of map app length] in *.
    replace n with (length p + S (n - length p - 1))%nat by lia. rewrite body_skip_nls by exact Hp.
    cbn [body_loop tBC tok_eqb tok_tag N.eqb]. cbn. now rewrite app_nil_r.
  - cbn [forallb] in Hok. apply andb_prop in Hok. destruct Hok as [Ha Has].
    destruct (attr_tokens a Ha) as (typetxt & vt & Htoks & Hfold & Hnid & Hread).
    destruct (attr_parts a Ha) as (_ & Hname & _).
    cbn [flat_map]. rewrite toks_of_app, Htoks, <- !app_assoc. cbn [app].
    rewrite !app_length in Hn. cbn [flat_map] in Hn. rewrite toks_of_app, Htoks in Hn.
    rewrite !app_length in Hn. cbn [length] in Hn. rewrite !app_length in Hn. cbn [length] in Hn.
    replace n with (length p + S (n - length p - 1))%nat by lia. rewrite body_skip_nls by exact Hp.
    cbn [body_loop]. cbn [tok_eqb tok_tag N.eqb]. cbn -[body_loop read_value str_eqb s_id s_name s_elementid toks_of].
    rewrite Hfold, Hnid, andb_false_r, Hname.
    rewrite <- app_assoc. cbn [app]. rewrite Hread.
    change (tNL :: toks_of (flat_map lex_attr attrs) ++ tBC :: rest) with ([tNL] ++ toks_of (flat_map lex_attr attrs) ++ tBC :: rest).
    rewrite (IH (a :: acc) id name [tNL] rest); [cbn [rev]; now rewrite <- app_assoc|reflexivity|exact Has|].
    rewrite !app_length. cbn [length]. lia.
Qed.

(** ** one element *)
Definition id_toks (e : kelem) : tl :=
  match ke_id e with Some u => [(STRING, s_id); (STRING, s_elementid); (STRING, u); tNL] | None => [] end.
Definition body_toks (e : kelem) (rest : tl) : tl :=
  tNL :: id_toks e ++ [(STRING, s_name); (STRING, s_string); (STRING, ke_name e); tNL] ++
  toks_of (flat_map lex_attr (ke_attrs e)) ++ tBC :: rest.
Lemma elem_toks_rest e rest : toks_of (lex_elem e) ++ rest = (STRING, ke_type e) :: tNL :: tBO :: body_toks e rest.
Proof. unfold lex_elem, body_toks, id_toks. rewrite !toks_of_app, <- !app_assoc. destruct (ke_id e); reflexivity. Qed.
Lemma elem_toks_length e : (3 <= length (toks_of (lex_elem e)))%nat.
Proof. rewrite <- (app_nil_r (toks_of _)), elem_toks_rest. cbn [length]. lia. Qed.

(** the [id] line and the [name] line of an element body, each after the newline that ends the line before *)
Lemma body_id_line n nm acc u r :
  body_loop fold vtnames (S (S n)) None nm acc (tNL :: (STRING, s_id) :: (STRING, s_elementid) :: (STRING, u) :: r)
  = body_loop fold vtnames n (Some u) nm acc r.
Proof.
  destruct vt_globals as (_ & _ & Hfe & _). cbn [body_loop]. cbn [tok_eqb tok_tag N.eqb].
  cbn -[body_loop str_eqb s_id s_elementid]. rewrite Hfe, !str_eqb_refl. reflexivity.
Qed.
Lemma body_name_line n id nm0 acc nm r :
  body_loop fold vtnames (S (S n)) id nm0 acc (tNL :: (STRING, s_name) :: (STRING, s_string) :: (STRING, nm) :: r)
  = body_loop fold vtnames n id nm acc r.
Proof.
  destruct vt_globals as (_ & _ & _ & Hfs). cbn [body_loop]. cbn [tok_eqb tok_tag N.eqb].
  cbn -[body_loop str_eqb s_id s_name s_elementid s_string]. rewrite Hfs, !str_eqb_refl. reflexivity.
Qed.

Lemma body_elem e rest n : elem_ok T vtnames e = true -> (length (body_toks e rest) <= n)%nat ->
  body_loop fold vtnames n None [] [] (body_toks e rest) = Some (ke_id e, ke_name e, ke_attrs e, rest).
Proof.
  unfold body_toks, id_toks.
  intros Hok Hn. unfold elem_ok in Hok. apply andb_prop in Hok. destruct Hok as [_ Hattrs].
  destruct (ke_id e) as [u|]; cbn [app length] in *; rewrite !app_length in Hn; cbn [length] in Hn.
  - do 4 (destruct n as [|n]; [lia|]). rewrite body_id_line, body_name_line.
    apply (body_attrs (ke_attrs e) [] (Some u) (ke_name e) [tNL] rest n eq_refl Hattrs). cbn [app length]. rewrite app_length. cbn [length]. lia.
  - do 2 (destruct n as [|n]; [lia|]). rewrite body_name_line.
    apply (body_attrs (ke_attrs e) [] None (ke_name e) [tNL] rest n eq_refl Hattrs). cbn [app length]. rewrite app_length. cbn [length]. lia.
Qed.

(** ** the document *)
Definition chunk (x : kelem) : tl := tNL :: toks_of (lex_elem x) ++ [tNL].
Lemma chunks_toks es : toks_of (flat_map (fun x => ([], LNl) :: lex_elem x ++ [([], LNl)]) es) = flat_map chunk es.
Proof.
  induction es as [|x es IH]; [reflexivity|]. cbn [flat_map]. rewrite toks_of_app, IH. f_equal.
  unfold chunk. change (([], LNl) :: lex_elem x ++ [([], LNl)]) with ([([], LNl)] ++ lex_elem x ++ [([], LNl)]).
  rewrite !toks_of_app. reflexivity.
Qed.
Lemma doc_toks e es : toks_of (lex_doc (e :: es)) = toks_of (lex_elem e) ++ tNL :: flat_map chunk es.
Proof. unfold lex_doc. rewrite !toks_of_app, chunks_toks. reflexivity. Qed.

Lemma doc_skip_nls p n acc l : nls p = true ->
  doc_loop fold vtnames (length p + n) acc (p ++ l) = doc_loop fold vtnames n acc l.
Proof. apply (loop_skips_nls (fun n l => doc_loop fold vtnames n acc l)). reflexivity. Qed.

(** one element at the head, after newlines: the body gets its own fuel, so any [n] will do *)
Lemma doc_step e p n acc rest : nls p = true -> elem_ok T vtnames e = true ->
  doc_loop fold vtnames (length p + S n) acc (p ++ toks_of (lex_elem e) ++ rest) = doc_loop fold vtnames n (e :: acc) rest.
Proof.
  intros Hp He. rewrite doc_skip_nls by exact Hp. rewrite elem_toks_rest.
  cbn [doc_loop]. cbn [tok_eqb tok_tag N.eqb]. cbn -[doc_loop body_loop body_toks].
  rewrite (body_elem e rest _ He (Nat.le_succ_diag_r _)). now destruct e.
Qed.

Lemma doc_elems : forall es e acc p n, nls p = true -> elem_ok T vtnames e = true ->
  forallb (elem_ok T vtnames) es = true ->
  (length (p ++ toks_of (lex_elem e) ++ tNL :: flat_map chunk es) <= n)%nat ->
  doc_loop fold vtnames n acc (p ++ toks_of (lex_elem e) ++ tNL :: flat_map chunk es) = Some (rev acc ++ e :: es).
Proof.
  induction es as [|e2 es IH]; intros e acc p n Hp He Hes Hn; pose proof (elem_toks_length e);
    rewrite !app_length in Hn; cbn [length] in Hn;
    replace n with (length p + S (n - length p - 1))%nat by lia; rewrite (doc_step e p _ acc _ Hp He).
  - destruct (n - length p - 1)%nat as [|[|m]] eqn:Em; [lia|lia|]. reflexivity.
  - cbn [forallb] in Hes. apply andb_prop in Hes. destruct Hes as [He2 Hes].
    cbn [flat_map] in *. unfold chunk at 1. unfold chunk at 1 in Hn. cbn [app] in *. rewrite <- app_assoc in *. cbn [app] in *.
    change (tNL :: tNL :: toks_of (lex_elem e2) ++ tNL :: flat_map chunk es)
      with ([tNL; tNL] ++ toks_of (lex_elem e2) ++ tNL :: flat_map chunk es).
    rewrite (IH e2 (e :: acc) [tNL; tNL]); [cbn [rev]; now rewrite <- app_assoc|reflexivity|exact He2|exact Hes|].
    cbn [length] in Hn. rewrite !app_length in *. cbn [length] in *. lia.
Qed.

Theorem parse_tokens_doc d : doc_ok T vtnames d = true -> parse_tokens fold vtnames (toks_of (lex_doc d)) = Some d.
Proof.
  intros H. unfold doc_ok in H. apply andb_prop in H. destruct H as [Hne Hall].
  destruct d as [|e es]; [discriminate|]. cbn [forallb] in Hall. apply andb_prop in Hall. destruct Hall as [He Hes].
  unfold parse_tokens. rewrite doc_toks.
  exact (doc_elems es e [] [] _ eq_refl He Hes (Nat.le_succ_diag_r _)).
Qed.
End Parse.

(** * Part 2d: the text round trip of the flat layout *)
Section Roundtrip.
Variable T : tables.
Variable o : opts.
Variable fold : str -> str.
Variable vtnames : list str.
Hypothesis HT : kv2_tables_ok T = true.
Hypothesis Ho : kv2_opts_ok o = true.
Hypothesis Hvt : vtnames_ok T fold vtnames = true.

Lemma forallb_flat_map' {A B} (f : B -> bool) (g : A -> list B) l :
  forallb f (flat_map g l) = forallb (fun x => forallb f (g x)) l.
Proof. induction l as [|x l IH]; [reflexivity|]. cbn [flat_map forallb]. now rewrite forallb_app, IH. Qed.

Lemma literals_ok :
  literal_ok T s_element = true /\ literal_ok T s_elementid = true /\ literal_ok T s_id = true /\
  literal_ok T s_name = true /\ literal_ok T s_string = true /\ literal_ok T [] = true.
Proof.
  pose proof Hvt as H. unfold vtnames_ok in H. repeat (apply andb_prop in H; destruct H as [H ?]).
  match goal with Hl : forallb (literal_ok T) _ = true |- _ => cbn [forallb] in Hl;
    repeat (apply andb_prop in Hl; destruct Hl as [? Hl]) end.
  repeat split; assumption.
Qed.

Lemma lex_ref_ok w it is_elem : blanks w = true -> item_ok T is_elem it = true ->
  forallb (lexeme_ok T) (lex_ref w it) = true.
Proof.
  destruct literals_ok as (Hel & _ & _ & _ & _ & Hnil). intros Hw Hit.
  destruct it as [s| |u]; cbn [lex_ref forallb]; unfold lexeme_ok; cbn [fst snd]; rewrite ?Hw; cbn [andb blanks forallb].
  - reflexivity.
  - unfold literal_ok in Hel, Hnil. now rewrite Hel, Hnil.
  - cbn [item_ok] in Hit. apply andb_prop in Hit. destruct Hit as [_ Hu]. unfold blank_free_uuid in Hu.
    apply andb_prop in Hu. destruct Hu as [Hu _]. unfold literal_ok in Hel, Hu. now rewrite Hel, Hu.
Qed.

Lemma lex_items_ok its is_elem : forallb (item_ok T is_elem) its = true -> forallb (lexeme_ok T) (lex_items its) = true.
Proof.
  induction its as [|it its IH]; intros H; [reflexivity|]. cbn [forallb] in H. apply andb_prop in H. destruct H as [Hit Hits].
  rewrite lex_items_cons, !forallb_app, (lex_ref_ok T2 it is_elem eq_refl Hit), (IH Hits). now destruct its.
Qed.

Lemma lex_attr_ok a : attr_ok T vtnames a = true -> forallb (lexeme_ok T) (lex_attr a) = true.
Proof.
  intros Hok. destruct (attr_parts T vtnames a Hok) as (Hmem & _ & Hitems & Hshape).
  destruct (vtname_literals T fold _ (vt_facts T fold vtnames Hvt _ Hmem)) as [Hlt Hla]. unfold literal_ok in Hlt, Hla.
  destruct a as [name typ arr items]. cbn [ka_name ka_type ka_arr ka_items] in *. unfold lex_attr. cbn [ka_name ka_type ka_arr ka_items].
  destruct arr.
  - cbn [app forallb]. rewrite forallb_app, (lex_items_ok items _ Hitems). unfold lexeme_ok. cbn [fst snd forallb blanks andb].
    now rewrite Hla.
  - destruct Hshape as [Hd|[it ->]]; [discriminate|]. cbn [forallb] in Hitems. apply andb_prop in Hitems. destruct Hitems as [Hit _].
    destruct (is_elem_type typ) eqn:Ee.
    + cbn [forallb]. rewrite forallb_app, (lex_ref_ok [SP] it true eq_refl Hit). reflexivity.
    + destruct it; cbn [item_ok negb] in Hit; try discriminate. unfold lexeme_ok. cbn [fst snd forallb blanks andb].
      now rewrite Hlt.
Qed.

Lemma lex_elem_ok e : elem_ok T vtnames e = true -> forallb (lexeme_ok T) (lex_elem e) = true.
Proof.
  destruct literals_ok as (Hel & Heid & Hid & Hnm & Hst & Hnil). unfold literal_ok in *.
  intros H. unfold elem_ok in H. apply andb_prop in H. destruct H as [Hu Hattrs].
  unfold lex_elem. rewrite !forallb_app, forallb_flat_map'.
  assert (Ha : forallb (fun x => forallb (lexeme_ok T) (lex_attr x)) (ke_attrs e) = true).
  { rewrite forallb_forall in Hattrs. apply forallb_forall. intros a Ha. apply lex_attr_ok. now apply Hattrs. }
  rewrite Ha. unfold lexeme_ok. cbn [fst snd forallb blanks andb]. rewrite Hnm, Hst. cbn [andb].
  destruct (ke_id e) as [u|]; [|reflexivity]. unfold blank_free_uuid in Hu. apply andb_prop in Hu. destruct Hu as [Hu _].
  unfold literal_ok in Hu. cbn [fst snd forallb blanks andb]. now rewrite Hid, Heid, Hu.
Qed.

Lemma lex_doc_ok d : doc_ok T vtnames d = true -> forallb (lexeme_ok T) (lex_doc d) = true.
Proof.
  intros H. unfold doc_ok in H. apply andb_prop in H. destruct H as [_ Hall]. destruct d as [|e es]; [reflexivity|].
  cbn [forallb] in Hall. apply andb_prop in Hall. destruct Hall as [He Hes].
  unfold lex_doc. rewrite !forallb_app, (lex_elem_ok e He), forallb_flat_map'. cbn [forallb andb].
  rewrite forallb_forall in Hes. apply forallb_forall. intros x Hx. cbn [forallb]. rewrite forallb_app, (lex_elem_ok x (Hes x Hx)). reflexivity.
Qed.

(** The text [export_kv2(flat=True)] writes for a document (after the header line), run through the tokenizer and
    the parser of [parse_kv2], gives back the document: element types, ids and names, attribute names (escaped:
    any string), order, type keywords, scalar / array shape, the value strings in order, NULL and UUID references. *)
Theorem kv2_flat_roundtrip_gen : forall d, doc_ok T vtnames d = true ->
  parse_text T o fold vtnames (render_doc T d) = Some d.
Proof.
  intros d Hd. unfold parse_text, render_doc. rewrite (tokenize_lexemes T o HT Ho (lex_doc d) (lex_doc_ok d Hd)).
  exact (parse_tokens_doc T fold vtnames Hvt d Hd).
Qed.
End Roundtrip.

(** * Part 3: the element graph (fix-up pass) *)
Lemma last_index_none u : forall ids base, existsb (str_eqb u) ids = false -> last_index u ids base = None.
Proof.
  induction ids as [|x r IH]; intros base H; [reflexivity|]. cbn [existsb] in H. apply orb_false_iff in H. destruct H as [H1 H2].
  cbn [last_index]. now rewrite IH, H1.
Qed.
Lemma last_index_nth : forall ids i base, nodup_str ids = true -> (i < length ids)%nat ->
  last_index (nth i ids []) ids base = Some (base + i)%nat.
Proof.
  induction ids as [|x r IH]; intros i base Hn Hi; [cbn in Hi; lia|].
  cbn [nodup_str] in Hn. apply andb_prop in Hn. destruct Hn as [Hx Hr]. apply negb_true_iff in Hx.
  destruct i as [|i]; cbn [nth last_index].
  - rewrite (last_index_none x r (S base) Hx), str_eqb_refl. f_equal. lia.
  - cbn [length] in Hi. rewrite (IH i (S base) Hr) by lia. f_equal. lia.
Qed.

Lemma all_ids_flatten ids g : all_ids (map (flat_elem ids) g) = Some (map ge_id g).
Proof. induction g as [|e g IH]; [reflexivity|]. cbn [map all_ids flat_elem ke_id]. now rewrite IH. Qed.

(** The fix-up pass inverts the writer's replacement of element references by UUID text: sharing, cycles (a
    reference is an index, whatever it points to), NULL and stubs are kept. *)
Theorem link_flatten g : graph_ok g = true -> link (flatten g) = Some g.
Proof.
  intros H. unfold graph_ok in H. apply andb_prop in H. destruct H as [Hnd Hall].
  unfold link, flatten. rewrite all_ids_flatten. f_equal. set (ids := map ge_id g) in *.
  rewrite map_map. rewrite <- (map_id g) at 2. apply map_ext_in. intros e He.
  rewrite forallb_forall in Hall. specialize (Hall e He).
  destruct e as [ty id nm attrs]. cbn [flat_elem ke_type ke_id ke_name ke_attrs ge_type ge_id ge_name ge_attrs] in *.
  f_equal. rewrite map_map. rewrite <- (map_id attrs) at 2. apply map_ext_in. intros a Ha.
  rewrite forallb_forall in Hall. specialize (Hall a Ha).
  destruct a as [an at_ arr its]. unfold link_attr, flat_attr. cbn [ka_name ka_type ka_arr ka_items ga_name ga_type ga_arr ga_items] in *.
  f_equal. rewrite map_map. rewrite <- (map_id its) at 2. apply map_ext_in. intros it Hit.
  rewrite forallb_forall in Hall. specialize (Hall it Hit).
  destruct it as [s|[i| |u]]; cbn [flat_item link_item gitem_ok] in *; try reflexivity.
  - apply Nat.ltb_lt in Hall. now rewrite (last_index_nth ids i 0 Hnd Hall).
  - apply negb_true_iff in Hall. now rewrite (last_index_none u ids 0 Hall).
Qed.

(** Text and graph together: the flat-layout text of a graph, tokenized, parsed and linked, is the graph. *)
Theorem kv2_flat_graph_roundtrip_gen (T : tables) (o : opts) (fold : str -> str) (vtnames : list str) :
  kv2_tables_ok T = true -> kv2_opts_ok o = true -> vtnames_ok T fold vtnames = true ->
  forall g, graph_ok g = true -> doc_ok T vtnames (flatten g) = true ->
  match parse_text T o fold vtnames (render_doc T (flatten g)) with Some d => link d | None => None end = Some g.
Proof.
  intros HT Ho Hvt g Hg Hd. rewrite (kv2_flat_roundtrip_gen T o fold vtnames HT Ho Hvt _ Hd). now apply link_flatten.
Qed.

Example kv2_graph_example :
  graph_ok ex_gdoc && doc_ok pinned_tables pinned_vtnames (flatten ex_gdoc) = true.
Proof. vm_compute. reflexivity. Qed.
(** With a duplicated id a reference resolves to the later element: ids must be distinct. *)
Example kv2_duplicate_id_refuted :
  let g := [ {| ge_type := [65]; ge_id := [120]; ge_name := []; ge_attrs :=
                 [ {| ga_name := [114]; ga_type := s_element; ga_arr := false; ga_items := [GRef (GElem 0)] |} ] |};
             {| ge_type := [66]; ge_id := [120]; ge_name := []; ge_attrs := [] |} ] in
  graph_ok g = false /\ link (flatten g) <> Some g.
Proof. split; [reflexivity|vm_compute; discriminate]. Qed.

(** The premises are satisfiable (hand copy of the pinned tables), and the example document parses back by computation. *)
Example kv2_premises_example :
  kv2_tables_ok pinned_tables && kv2_opts_ok pinned_kv2_opts && vtnames_ok pinned_tables (fun s => s) pinned_vtnames &&
  doc_ok pinned_tables pinned_vtnames ex_kdoc = true.
Proof. vm_compute. reflexivity. Qed.
Example kv2_example_parses :
  parse_text pinned_tables pinned_kv2_opts (fun s => s) pinned_vtnames (render_doc pinned_tables ex_kdoc) = Some ex_kdoc.
Proof. vm_compute. reflexivity. Qed.
(** The escape condition matters: a name written without escape_text (as a raw lexeme) that contains a quote does not
    come back (the defect class of the unescaped attribute name). *)
Example kv2_raw_name_refuted :
  tokenize pinned_tables pinned_kv2_opts (render_lex pinned_tables [([], LRaw [97; 34; 98]); ([], LNl)])
  <> Some (toks_of [([], LRaw [97; 34; 98]); ([], LNl)]).
Proof. vm_compute. discriminate. Qed.
