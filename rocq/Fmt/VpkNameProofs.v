(** Proofs about the VPK name resolution model (Fmt/VpkName.v). *)
From Coq Require Import List NArith Bool.
From SV Require Import Fmt.VpkDir Fmt.VpkName Fmt.VpkNameSplit.
Import ListNotations.
Open Scope N_scope.

Section names.
  Variable normpath : bytes -> bytes.

  (** The string form and its 2-tuple (posixpath.split) always resolve alike; the 3-tuple obtained by
      splitting the file name at its last '.' resolves alike unless the file name ends in '.' and contains
      another '.' before it (then the 3-tuple form is split a second time). *)
  Lemma name_forms_agree s :
    let '(h, t) := split_path s in
    let '(n, e) := split_ext t [] in
    file_parts normpath (NPair h t) = file_parts normpath (NStr s)
    /\ ((e = [] -> rsplit1 46 n = None) -> file_parts normpath (NTriple h n e) = file_parts normpath (NStr s)).
  Proof.
    destruct (split_path s) as [h t] eqn:Hs.
    destruct (split_ext t []) as [n e] eqn:He.
    unfold file_parts. rewrite Hs. split; [now rewrite He|].
    intros H. rewrite He. destruct e as [|x e'].
    - unfold split_ext. rewrite (H eq_refl). reflexivity.
    - reflexivity.
  Qed.
End names.

(** Non-vacuity of the premise of [name_forms_agree]: 'a/b.txt'. *)
Lemma name_forms_example :
  file_parts posix_normpath (NStr [97; 47; 98; 46; 116; 120; 116]) = ([116; 120; 116], [97], [98])
  /\ file_parts posix_normpath (NTriple [97] [98] [116; 120; 116]) = ([116; 120; 116], [97], [98])
  /\ file_parts posix_normpath (NPair [97] [98; 46; 116; 120; 116]) = ([116; 120; 116], [97], [98]).
Proof. vm_compute. repeat split; reflexivity. Qed.

(** ---- the same over the split statement read from the source ---- *)
Lemma file_parts_k_last normpath f : file_parts_k normpath (SplitLast 46) f = file_parts normpath f.
Proof. reflexivity. Qed.

(** For every split statement that cuts at the last '.', the three forms resolve alike (the 3-tuple being folder,
    name up to the last '.', extension after it), with the same carve-out as [name_forms_agree]. *)
Lemma name_forms_agree_k normpath k : split_kind_ok k = true -> forall s,
  let '(h, t) := split_path s in
  let '(n, e) := split_ext t [] in
  file_parts_k normpath k (NPair h t) = file_parts_k normpath k (NStr s)
  /\ ((e = [] -> rsplit1 46 n = None) -> file_parts_k normpath k (NTriple h n e) = file_parts_k normpath k (NStr s)).
Proof.
  intros Hk s. destruct k as [c|c|]; [|discriminate|discriminate]. cbn [split_kind_ok] in Hk. apply N.eqb_eq in Hk. subst c.
  exact (name_forms_agree normpath s).
Qed.

