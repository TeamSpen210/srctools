(** Proofs about the command-sequence model (Fmt/CmdSeq.v). *)
From Coq Require Import List ZArith Bool Lia ZifyBool.
Import ListNotations.
From SV Require Fmt.ScenesImageProofs.
From SV Require Import Fmt.CmdSeq.
Open Scope N_scope.


(** ** little endian *)
(** the arithmetic of four little-endian bytes is that of the scenes.image model *)
Lemma rd_u32_le32 : forall n r, n < 4294967296 -> rd_u32 (le32 n ++ r) = Some (n, r).
Proof. intros n r H. unfold le32, rd_u32, de32. cbn [app]. rewrite (ScenesImageProofs.le32_arith n H). reflexivity. Qed.

Lemma le32_length : forall n, length (le32 n) = 4%nat.
Proof. reflexivity. Qed.

Local Opaque le32.

(** ** readers *)
Lemma rd_bytes_app : forall a r n, length a = n -> rd_bytes n (a ++ r) = Some (a, r).
Proof.
  intros a r n <-. unfold rd_bytes. rewrite app_length.
  replace (length a <=? length a + length r)%nat with true by (symmetry; apply Nat.leb_le; lia).
  now rewrite ScenesImageProofs.firstn_app_exact, ScenesImageProofs.skipn_app_exact.
Qed.

Lemma zeros_length : forall k, length (zeros k) = k.
Proof. intros. apply repeat_length. Qed.

(** ** struct: unpack inverts pack *)
Lemma unpack_pack : forall fmt off vals b r,
  pack off fmt vals = Some b -> unpack off fmt (b ++ r) = Some (vals, r).
Proof.
  induction fmt as [|f fmt IH]; intros off vals b r H.
  - destruct vals; [|discriminate]. injection H as <-. reflexivity.
  - destruct f; destruct vals as [|v vals]; try discriminate; destruct v; try discriminate; cbn [pack] in H.
    + destruct (b0 <? 256); [|discriminate].
      destruct (pack (off + 1) fmt vals) eqn:E; [|discriminate]. injection H as <-.
      cbn [unpack app]. now rewrite (IH _ _ _ r E).
    + destruct (i <? 4294967296) eqn:Hi; [|discriminate].
      destruct (pack (off + pad4 off + 4) fmt vals) eqn:E; [|discriminate]. injection H as <-.
      cbn [unpack]. rewrite <- app_assoc.
      rewrite (rd_bytes_app (zeros (pad4 off)) _ (pad4 off) (zeros_length _)).
      rewrite <- app_assoc. rewrite rd_u32_le32 by (apply N.ltb_lt; exact Hi).
      now rewrite (IH _ _ _ r E).
    + destruct (length s =? n)%nat eqn:Hn; [|discriminate]. apply Nat.eqb_eq in Hn.
      destruct (pack (off + n) fmt vals) eqn:E; [|discriminate]. injection H as <-.
      cbn [unpack]. rewrite <- app_assoc. rewrite (rd_bytes_app s _ n Hn).
      now rewrite (IH _ _ _ r E).
Qed.

(** ** strings *)
Definition str_ok (w : nat) (s : list N) : Prop := (length s <= w)%nat /\ Forall (fun c => 0 < c /\ c < 128) s.

Lemma str_okb_ok : forall w s, str_okb w s = true -> str_ok w s.
Proof.
  intros w s H. unfold str_okb in H. apply andb_prop in H as [H1 H2]. split.
  - now apply Nat.leb_le.
  - apply Forall_forall. intros c Hc. rewrite forallb_forall in H2. specialize (H2 c Hc). lia.
Qed.

Lemma str_ok_ascii : forall w s, str_ok w s -> asciib s = true.
Proof.
  intros w s [_ H]. unfold asciib. apply forallb_forall. intros c Hc.
  rewrite Forall_forall in H. specialize (H c Hc). lia.
Qed.

Lemma pad_string_ok : forall w s, str_ok w s -> pad_string s w = Some (s ++ zeros (w - length s)).
Proof.
  intros w s H. unfold pad_string. rewrite (str_ok_ascii w s H).
  destruct H as [H _]. apply Nat.leb_le in H. now rewrite H.
Qed.

Lemma pad_length : forall w s, (length s <= w)%nat -> length (s ++ zeros (w - length s)) = w.
Proof. intros. rewrite app_length, zeros_length. lia. Qed.

Lemma upto_nul_pad : forall s k, Forall (fun c => 0 < c /\ c < 128) s -> upto_nul (s ++ zeros k) = s.
Proof.
  induction s as [|c s IH]; intros k H.
  - destruct k; reflexivity.
  - inversion H as [|? ? Hc Hs]; subst. cbn [app upto_nul].
    replace (c =? 0) with false by lia. now rewrite IH.
Qed.

Lemma strip_pad : forall w s k, str_ok w s -> strip_cstring (s ++ zeros k) = Some s.
Proof.
  intros w s k H. unfold strip_cstring. rewrite (upto_nul_pad s k (proj2 H)).
  now rewrite (str_ok_ascii w s H).
Qed.

Lemma n2b_b2n : forall b, n2b (b2n b) = b.
Proof. destruct b; reflexivity. Qed.

(** ** one command *)
Lemma lookup_specials : forall c v nm, specials_okb c = true -> lookup v (c_specials c) = Some nm ->
  v <> 0 /\ v < 4294967296 /\ str_ok (c_exe_w c) nm.
Proof.
  intros c v nm H. unfold specials_okb in H. induction (c_specials c) as [|[k x] l IH]; [discriminate|].
  cbn [forallb fst snd] in H. apply andb_prop in H as [Hk Hl].
  cbn [lookup]. destruct (v =? k) eqn:E.
  - intros [= <-]. apply N.eqb_eq in E. subst k.
    apply andb_prop in Hk as [Hk Hs]. apply andb_prop in Hk as [Hk1 Hk2].
    repeat split; [lia | lia | apply str_okb_ok in Hs; apply Hs | apply str_okb_ok in Hs; apply Hs].
  - auto.
Qed.

Lemma fmt_eqb_eq : forall a b, fmt_eqb a b = true -> a = b.
Proof.
  induction a as [|x a IH]; destruct b as [|y b]; cbn [fmt_eqb]; intro H; try discriminate; [reflexivity|].
  apply andb_prop in H as [H1 H2]. rewrite (IH b H2). f_equal.
  destruct x, y; cbn in H1; try discriminate; try reflexivity. apply Nat.eqb_eq in H1. now subst.
Qed.

Definition cmd_ok (c : cfg) (x : cmd) : Prop := cmd_okb c x = true.

Lemma b2n_lt : forall b, b2n b < 2.
Proof. intros []; reflexivity. Qed.

Lemma pack_cmd_some : forall a b e exe_p args_p ens_p en sp chk pw nw,
  length exe_p = a -> length args_p = b -> length ens_p = e -> sp < 4294967296 -> chk < 4294967296 ->
  exists bytes, bytes <> [] /\
    pack 0 [FB; FI; FS a; FS b; FI; FI; FS e; FI; FI]
      [VB (b2n en); VI sp; VS exe_p; VS args_p; VI 1; VI chk; VS ens_p; VI (b2n pw); VI (b2n nw)] = Some bytes.
Proof.
  intros a b e exe_p args_p ens_p en sp chk pw nw Ha Hb He Hsp Hchk.
  pose proof (b2n_lt en). pose proof (b2n_lt pw). pose proof (b2n_lt nw).
  cbn [pack].
  replace (b2n en <? 256) with true by lia.
  replace (sp <? 4294967296) with true by lia.
  replace (chk <? 4294967296) with true by lia.
  replace (b2n pw <? 4294967296) with true by lia.
  replace (b2n nw <? 4294967296) with true by lia.
  replace (1 <? 4294967296) with true by reflexivity.
  rewrite Ha, Hb, He, !Nat.eqb_refl. cbn [option_map].
  eexists. split; [|reflexivity]. discriminate.
Qed.

Theorem cmd_roundtrip : forall c x, cfg_okb c = true -> cmd_ok c x ->
  exists b, b <> [] /\ write_cmd c x = Some b /\ forall r, parse_cmd c (c_fmt_v2 c) (b ++ r) = Some (x, r).
Proof.
  intros c x Hc Hx. unfold cfg_okb in Hc. apply andb_prop in Hc as [Hc Hver].
  apply andb_prop in Hc as [Hshape Hspec].
  pose proof (fmt_eqb_eq _ _ Hshape) as Hfmt.
  unfold cmd_ok, cmd_okb in Hx. apply andb_prop in Hx as [Hx Hens].
  apply andb_prop in Hx as [Hexe Hargs].
  apply str_okb_ok in Hargs.
  destruct x as [ex ar en ens pw nw]. cbn [exe args enabled ensure_file use_proc_win no_wait] in *.
  (* the (special, exe text) pair *)
  assert (Hse : exists sp txt, (match ex with
                 | ExeSpecial v => option_map (fun nm => (v, nm)) (lookup v (c_specials c))
                 | ExeStr s => Some (0, s) end) = Some (sp, txt)
              /\ sp < 4294967296 /\ str_ok (c_exe_w c) txt
              /\ (if sp =? 0 then option_map ExeStr (strip_cstring (txt ++ zeros (c_exe_w c - length txt)))
                  else match lookup sp (c_specials c) with Some _ => Some (ExeSpecial sp) | None => None end) = Some ex).
  { destruct ex as [s|v].
    - apply str_okb_ok in Hexe. exists 0, s.
      split; [reflexivity|]. split; [lia|]. split; [exact Hexe|].
      cbn. now rewrite (strip_pad _ _ _ Hexe).
    - destruct (lookup v (c_specials c)) as [nm|] eqn:El; [|discriminate].
      destruct (lookup_specials c v nm Hspec El) as (Hv0 & Hv & Hnm).
      exists v, nm.
      split; [reflexivity|]. split; [exact Hv|]. split; [exact Hnm|].
      replace (v =? 0) with false by lia. now rewrite El. }
  destruct Hse as (sp & txt & Ese & Hsp & Htxt & Hexe_back).
  (* ensure file *)
  assert (Hen : exists chk ens_p, (match ens with
                 | Some e => option_map (fun p => (1, p)) (pad_string e (c_ens_w c))
                 | None => Some (0, zeros (c_ens_w c)) end) = Some (chk, ens_p)
              /\ chk < 4294967296 /\ length ens_p = c_ens_w c
              /\ (if chk =? 0 then Some None else option_map Some (strip_cstring ens_p)) = Some ens).
  { destruct ens as [e|].
    - apply str_okb_ok in Hens. exists 1, (e ++ zeros (c_ens_w c - length e)).
      rewrite (pad_string_ok _ _ Hens).
      split; [reflexivity|]. split; [lia|]. split; [apply pad_length, Hens|].
      cbn. now rewrite (strip_pad _ _ _ Hens).
    - exists 0, (zeros (c_ens_w c)).
      split; [reflexivity|]. split; [lia|]. split; [apply zeros_length | reflexivity]. }
  destruct Hen as (chk & ens_p & Een & Hchk & Hlen_ens & Hens_back).
  destruct (pack_cmd_some _ _ _ _ _ ens_p en sp chk pw nw (pad_length _ _ (proj1 Htxt)) (pad_length _ _ (proj1 Hargs))
              Hlen_ens Hsp Hchk) as (bytes & Hne & Hpack).
  exists bytes. split; [exact Hne|]. split.
  - unfold write_cmd. cbn [exe args enabled ensure_file use_proc_win no_wait].
    rewrite Ese. cbn [obind fst snd]. rewrite (pad_string_ok _ _ Htxt). cbn [obind].
    rewrite (pad_string_ok _ _ Hargs). cbn [obind]. rewrite Een. cbn [obind fst snd].
    rewrite Hfmt. exact Hpack.
  - intros r. unfold parse_cmd. rewrite Hfmt. rewrite (unpack_pack _ _ _ _ r Hpack).
    cbn [obind fst snd]. rewrite Hexe_back. cbn [obind]. rewrite Hens_back. cbn [obind].
    rewrite (strip_pad _ _ _ Hargs). cbn [obind]. now rewrite !n2b_b2n.
Qed.

(** ** command lists *)
(** a counted list with a first element: the count is not zero, and one less counts the rest *)
Lemma lenN_cons {A} : forall (x : A) l, (lenN (x :: l) =? 0) = false /\ lenN (x :: l) - 1 = lenN l.
Proof. intros. unfold lenN. cbn [length]. lia. Qed.

Lemma cmds_roundtrip : forall c l, cfg_okb c = true -> Forall (cmd_ok c) l ->
  exists b, (length l <= length b)%nat /\ write_cmds c l = Some b /\
    forall fuel r, (length l <= fuel)%nat -> parse_cmds fuel c (c_fmt_v2 c) (lenN l) (b ++ r) = Some (l, r).
Proof.
  intros c l Hc. induction l as [|x l IH]; intros Hl.
  - exists []. repeat split; [cbn; lia|]. intros fuel r _. destruct fuel; reflexivity.
  - inversion Hl as [|? ? Hx Hl']; subst. destruct (IH Hl') as (bl & Hlen & Hw & Hp).
    destruct (cmd_roundtrip c x Hc Hx) as (bx & Hne & Hwx & Hpx).
    exists (bx ++ bl). split; [|split].
    + rewrite app_length. destruct bx; [congruence|]. cbn [length]. lia.
    + cbn [write_cmds]. rewrite Hwx. cbn [obind]. rewrite Hw. reflexivity.
    + intros fuel r Hf. destruct fuel as [|f]; [cbn in Hf; lia|].
      cbn [parse_cmds]. rewrite (proj1 (lenN_cons _ l)).
      rewrite <- app_assoc. rewrite Hpx. cbn [obind fst snd].
      rewrite (proj2 (lenN_cons _ l)).
      rewrite Hp by (cbn in Hf; lia). reflexivity.
Qed.

(** ** sequences *)
Definition seq_ok (c : cfg) (s : list N * list cmd) : Prop :=
  str_ok (c_name_w c) (fst s) /\ lenN (snd s) < 4294967296 /\ Forall (cmd_ok c) (snd s).

Lemma seqs_roundtrip : forall c l, cfg_okb c = true -> Forall (seq_ok c) l ->
  exists b, (length l <= length b)%nat /\ write_seqs c l = Some b /\
    forall fuel r, (length l <= fuel)%nat -> parse_seqs fuel c (c_fmt_v2 c) (lenN l) (b ++ r) = Some (l, r).
Proof.
  intros c l Hc. induction l as [|[name cmds] l IH]; intros Hl.
  - exists []. repeat split; [cbn; lia|]. intros fuel r _. destruct fuel; reflexivity.
  - inversion Hl as [|? ? Hx Hl']; subst. destruct (IH Hl') as (bl & Hlen & Hw & Hp).
    destruct Hx as (Hname & Hcnt & Hcmds). cbn [fst snd] in *.
    destruct (cmds_roundtrip c cmds Hc Hcmds) as (bc & Hlc & Hwc & Hpc).
    exists ((name ++ zeros (c_name_w c - length name)) ++ le32 (lenN cmds) ++ bc ++ bl). split; [|split].
    + rewrite !app_length, le32_length. cbn [length]. lia.
    + cbn [write_seqs]. rewrite (pad_string_ok _ _ Hname). cbn [obind].
      replace (lenN cmds <? 4294967296) with true by lia. cbn [obind].
      rewrite Hwc. cbn [obind]. rewrite Hw. reflexivity.
    + intros fuel r Hf. destruct fuel as [|f]; [cbn in Hf; lia|].
      cbn [parse_seqs]. rewrite (proj1 (lenN_cons _ l)).
      rewrite <- app_assoc.
      rewrite (rd_bytes_app _ _ (c_name_w c) (pad_length _ _ (proj1 Hname))). cbn [obind fst snd].
      rewrite (strip_pad _ _ _ Hname). cbn [obind].
      rewrite <- app_assoc. rewrite rd_u32_le32 by exact Hcnt. cbn [obind fst snd].
      rewrite <- !app_assoc. rewrite Hpc.
      2:{ rewrite !app_length, le32_length. lia. }
      cbn [obind fst snd]. rewrite (proj2 (lenN_cons _ l)).
      rewrite Hp by (cbn in Hf; lia). reflexivity.
Qed.

(** ** dict *)
Lemma str_eqb_eq : forall a b, str_eqb a b = true <-> a = b.
Proof.
  induction a as [|x a IH]; destruct b as [|y b]; cbn; split; intro H; try discriminate; try reflexivity.
  - apply andb_prop in H as [H1 H2]. apply N.eqb_eq in H1. apply IH in H2. now subst.
  - injection H as -> ->. rewrite N.eqb_refl. cbn. now apply IH.
Qed.

Lemma nodupb_NoDup : forall l, nodupb l = true -> NoDup l.
Proof.
  induction l as [|x l IH]; intro H; [constructor|].
  cbn [nodupb] in H. apply andb_prop in H as [H1 H2]. constructor; [|auto].
  intro Hin. apply negb_true_iff in H1. assert (existsb (str_eqb x) l = true); [|congruence].
  apply existsb_exists. exists x. split; [exact Hin | now apply str_eqb_eq].
Qed.

Lemma dict_set_fresh : forall k v d, ~ In k (map fst d) -> dict_set k v d = d ++ [(k, v)].
Proof.
  induction d as [|[k' v'] d IH]; intro H; [reflexivity|].
  cbn [dict_set]. destruct (str_eqb k k') eqn:E.
  - apply str_eqb_eq in E. subst. exfalso. apply H. now left.
  - cbn [app]. rewrite IH; [reflexivity|]. intro Hin. apply H. now right.
Qed.

Lemma dict_of_nodup_gen : forall l acc, NoDup (map fst acc ++ map fst l) ->
  fold_left (fun d kv => dict_set (fst kv) (snd kv) d) l acc = acc ++ l.
Proof.
  induction l as [|[k v] l IH]; intros acc H; [now rewrite app_nil_r|].
  cbn [fold_left fst snd]. rewrite dict_set_fresh.
  - rewrite IH; [now rewrite <- app_assoc|].
    rewrite map_app. cbn [map fst]. rewrite <- app_assoc. exact H.
  - cbn [map fst] in H. apply NoDup_remove_2 in H. intro Hin. apply H. apply in_or_app. now left.
Qed.

Lemma dict_of_nodup : forall l, NoDup (map fst l) -> dict_of l = l.
Proof. intros l H. unfold dict_of. now rewrite dict_of_nodup_gen. Qed.

(** ** whole file *)
Definition repr_ok (c : cfg) (v : seqs) : Prop :=
  lenN v < 4294967296 /\ Forall (seq_ok c) v /\ NoDup (map fst v).

Lemma repr_okb_ok : forall c v, repr_okb c v = true -> repr_ok c v.
Proof.
  intros c v H. unfold repr_okb in H. apply andb_prop in H as [H H3].
  apply andb_prop in H as [H1 H2]. split; [lia|]. split; [|now apply nodupb_NoDup].
  apply Forall_forall. intros s Hs. rewrite forallb_forall in H2. specialize (H2 s Hs).
  apply andb_prop in H2 as [H2 Hc]. apply andb_prop in H2 as [Hn Hl].
  split; [now apply str_okb_ok|]. split; [lia|].
  apply Forall_forall. intros x Hx. rewrite forallb_forall in Hc. exact (Hc x Hx).
Qed.

Lemma str_eqb_refl : forall a, str_eqb a a = true.
Proof. intro a. now apply str_eqb_eq. Qed.

Theorem file_roundtrip : forall c v, cfg_okb c = true -> repr_ok c v ->
  exists b, write c v = Some b /\ parse c b = Some v.
Proof.
  intros c v Hc (Hn & Hs & Hd).
  destruct (seqs_roundtrip c v Hc Hs) as (b & Hlen & Hw & Hp).
  exists (c_header c ++ le32 (c_version_bits c) ++ le32 (lenN v) ++ b). split.
  - unfold write. replace (lenN v <? 4294967296) with true by lia. cbn [obind]. rewrite Hw. reflexivity.
  - unfold parse. rewrite (rd_bytes_app _ _ _ eq_refl). cbn [obind fst snd].
    rewrite str_eqb_refl. cbn [obind].
    assert (Hv : version_selects_v2 c = true).
    { unfold cfg_okb in Hc. apply andb_true_iff in Hc. apply Hc. }
    unfold version_selects_v2 in Hv. apply andb_prop in Hv as [Hv1 Hv2].
    rewrite rd_u32_le32 by lia. cbn [obind fst snd].
    apply negb_true_iff in Hv2. rewrite Hv2.
    rewrite rd_u32_le32 by exact Hn. cbn [obind fst snd].
    specialize (Hp (S (length (c_header c ++ le32 (c_version_bits c) ++ le32 (lenN v) ++ b))) []).
    rewrite app_nil_r in Hp. rewrite Hp.
    2:{ rewrite !app_length, !le32_length. lia. }
    cbn [obind fst]. now rewrite dict_of_nodup.
Qed.

Theorem second_generation : forall c v b v', cfg_okb c = true -> repr_ok c v ->
  write c v = Some b -> parse c b = Some v' -> write c v' = Some b.
Proof.
  intros c v b v' Hc Hv Hw Hp. destruct (file_roundtrip c v Hc Hv) as (b' & Hw' & Hp').
  rewrite Hw in Hw'. injection Hw' as <-. rewrite Hp in Hp'. injection Hp' as ->. exact Hw.
Qed.

(** what the reader makes of the four ways a string can fail to be representable *)
Example nul_truncates : strip_cstring ([97; 0; 98] ++ zeros 3) = Some [97].
Proof. reflexivity. Qed.
Example too_long_rejected : pad_string [97; 98; 99] 2 = None.
Proof. reflexivity. Qed.
Example non_ascii_rejected : pad_string [233] 4 = None.
Proof. reflexivity. Qed.
