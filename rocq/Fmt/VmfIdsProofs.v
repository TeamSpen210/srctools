(** C06: proofs about the ID-manager decision lists of Fmt/VmfIds.v (axiom-free). *)
From Coq Require Import List String Bool ZArith Lia ZifyBool.
From SV Require Import Fmt.VmfIds.
Import ListNotations.
Open Scope Z_scope.

Lemma cmp_le_sem c d k : cmp_le (le_of d) c k = cmp_sem c d k.
Proof. destruct c; unfold cmp_le, cmp_sem, le_of; lia. Qed.

Lemma guard_ext o le1 le2 g :
  (forall k, In k (guard_consts g) -> le1 k = le2 k) -> guard_le o le1 g = guard_le o le2 g.
Proof.
  induction g as [c k|a IHa b IHb|a IHa b IHb|a IHa| |]; cbn [guard_le guard_consts]; intros H; trivial.
  - assert (E1 : le1 k = le2 k) by (apply H; cbn; auto).
    assert (E2 : le1 (k - 1) = le2 (k - 1)) by (apply H; cbn; auto).
    destruct c; unfold cmp_le; rewrite ?E1, ?E2; reflexivity.
  - rewrite IHa, IHb; trivial; intros; apply H; apply in_or_app; auto.
  - rewrite IHa, IHb; trivial; intros; apply H; apply in_or_app; auto.
  - rewrite IHa; trivial.
Qed.

Lemma prog_ext o le1 le2 p :
  (forall k, In k (prog_consts p) -> le1 k = le2 k) -> prog_act o le1 p = prog_act o le2 p.
Proof.
  induction p as [|[g a] r IH]; cbn [prog_act]; intros H; trivial.
  unfold prog_consts in H; cbn [flat_map fst] in H.
  rewrite (guard_ext o le1 le2 g) by (intros; apply H; apply in_or_app; auto).
  rewrite IH; trivial. intros; apply H; apply in_or_app; auto.
Qed.

Lemma In_test_points t cs : In t (test_points cs) <-> In t cs \/ exists c, In c cs /\ t = Z.succ c.
Proof.
  unfold test_points. rewrite in_app_iff, in_map_iff. split.
  - intros [H|[c [E H]]]; [left; trivial|right; exists c; auto].
  - intros [H|[c [H E]]]; [left; trivial|right; exists c; auto].
Qed.

(** Between two neighbouring constants nothing changes: every ID has a representative among the test points that compares
    in the same way with every constant. *)
Lemma rep_exists cs : forall c0 d, exists t, In t (test_points (c0 :: cs)) /\
  forall c, In c (c0 :: cs) -> (t <=? c) = (d <=? c).
Proof.
  induction cs as [|c1 r IH]; intros c0 d.
  - destruct (Z_le_gt_dec d c0).
    + exists c0. split; [apply In_test_points; left; cbn; auto|]. intros c [<-|[]]. lia.
    + exists (Z.succ c0). split; [apply In_test_points; right; exists c0; cbn; auto|]. intros c [<-|[]]. lia.
  - destruct (IH c1 d) as [t' [Ht' Hag]].
    destruct (Bool.bool_dec (t' <=? c0) (d <=? c0)) as [E|NE].
    + exists t'. split.
      * apply In_test_points in Ht'. apply In_test_points.
        destruct Ht' as [H|[c [H ->]]]; [left; right; trivial|right; exists c; split; [right; trivial|reflexivity]].
      * intros c [<-|H]; auto.
    + destruct (Z_le_gt_dec d c0).
      * exists c0. split; [apply In_test_points; left; cbn; auto|].
        intros c [<-|H]; [lia|]. specialize (Hag c H). lia.
      * exists (Z.succ c0). split; [apply In_test_points; right; exists c0; cbn; auto|].
        intros c [<-|H]; [lia|]. specialize (Hag c H). lia.
Qed.

Lemma keeps_ext p o le1 le2 :
  (forall k, In k (-1 :: prog_consts p) -> le1 k = le2 k) -> keeps_or_negative p o le1 = keeps_or_negative p o le2.
Proof.
  intros H. unfold keeps_or_negative. rewrite (H (-1)) by (cbn; auto).
  rewrite (prog_ext o le1 le2 p); trivial. intros; apply H; cbn; auto.
Qed.

(** Soundness: a decision list that passes [nid_ok] returns the requested ID for every natural number, whatever the opaque
    conditions. *)
Theorem nid_ok_sound p : nid_ok p = true -> forall d o, 0 <= d -> id_get p o d = AKeep.
Proof.
  intros Hok d o Hd. unfold nid_ok in Hok. rewrite forallb_forall in Hok.
  destruct (rep_exists (prog_consts p) (-1) d) as [t [Ht Hag]].
  specialize (Hok t Ht). apply andb_true_iff in Hok. destruct Hok as [H1 H2].
  assert (E : forall o', keeps_or_negative p o' (le_of d) = keeps_or_negative p o' (le_of t)).
  { intros o'. apply keeps_ext. intros k Hk. unfold le_of. rewrite (Hag k Hk). reflexivity. }
  assert (K : keeps_or_negative p o (le_of d) = true) by (rewrite E; destruct o; assumption).
  unfold keeps_or_negative in K. apply orb_true_iff in K. destruct K as [K|K]; [unfold le_of in K; lia|].
  unfold id_get. destruct (prog_act o (le_of d) p); [reflexivity|discriminate K].
Qed.

(** Completeness: a decision list that fails [nid_ok] renumbers some natural number (a test point is the witness). *)
Theorem nid_ok_complete p : nid_ok p = false -> exists d o, 0 <= d /\ id_get p o d = AOther.
Proof.
  intros H. unfold nid_ok in H.
  assert (E : existsb (fun t => negb (keeps_or_negative p true (le_of t) && keeps_or_negative p false (le_of t)))
                      (test_points (-1 :: prog_consts p)) = true).
  { induction (test_points (-1 :: prog_consts p)) as [|t r IH]; cbn in *; [discriminate|].
    destruct (keeps_or_negative p true (le_of t) && keeps_or_negative p false (le_of t)); cbn in *; auto. }
  apply existsb_exists in E. destruct E as [t [_ Ht]].
  apply negb_true_iff, andb_false_iff in Ht.
  assert (W : forall o, keeps_or_negative p o (le_of t) = false -> 0 <= t /\ id_get p o t = AOther).
  { intros o K. unfold keeps_or_negative in K. apply orb_false_iff in K. destruct K as [K1 K2]. split; [unfold le_of in K1; lia|].
    unfold id_get. destruct (prog_act o (le_of t) p); [discriminate K2|reflexivity]. }
  destruct Ht as [K|K]; [exists t, true|exists t, false]; apply W; exact K.
Qed.

(** Per kind of ID: if the obligation [kind_ok] holds for a manager attribute then the class a VMF gets for it under
    preserve_ids has a program that keeps every natural number, some constructor asks that manager, and every constructor
    that asks it stores the manager's answer as the ID. *)
Theorem kind_ok_sound classes mans sites attr : kind_ok classes mans sites attr = true ->
  exists m p, In m mans /\ im_attr m = attr /\ assoc_s (im_preserve m) classes = Some p /\
    (forall d o, 0 <= d -> id_get p o d = AKeep) /\
    (exists s, In s sites /\ is_manager s = attr) /\
    (forall s, In s sites -> is_manager s = attr -> is_stores_result s = true).
Proof.
  unfold kind_ok. destruct (find _ mans) as [m|] eqn:F; [|discriminate].
  apply find_some in F. destruct F as [Hin Hm]. apply String.eqb_eq in Hm.
  intros H. apply andb_true_iff in H. destruct H as [H H3]. apply andb_true_iff in H. destruct H as [H1 H2].
  unfold manager_keeps in H1. destruct (assoc_s (im_preserve m) classes) as [p|] eqn:A; [|discriminate].
  exists m, p. repeat split; trivial.
  - apply nid_ok_sound; exact H1.
  - apply existsb_exists in H2. destruct H2 as [s [Hs E]]. exists s. split; trivial. apply String.eqb_eq; exact E.
  - intros s Hs E. rewrite forallb_forall in H3. specialize (H3 s Hs). apply orb_true_iff in H3. destruct H3 as [K|K]; trivial.
    apply negb_true_iff in K. apply String.eqb_neq in K. contradiction.
Qed.

(** The method of the pinned tree, the seeded shape ([desired > 0]: keep), and the ordinary IDMan. *)
Definition ex_nullid : idprog := [(GCmp CEq (-1), AOther); (GTrue, AKeep)].
Definition ex_positive_only : idprog := [(GCmp CGt 0, AKeep); (GTrue, AOther)].
Definition ex_idman : idprog := [(GAnd (GCmp CGt 0) (GNot GOpaque), AKeep); (GTrue, AOther)].

