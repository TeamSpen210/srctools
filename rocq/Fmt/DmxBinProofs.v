(** Round trip of the binary DMX model (Fmt/DmxBin.v): for every configuration satisfying [bin_cfg_ok] and every
    document the version can express, [parse_bin (export_bin d) = Some d]. *)
From Coq Require Import NArith ZArith List Bool Lia.
From SV Require Import Fmt.DmxCodes Fmt.DmxCodesProofs Fmt.DmxBin Fmt.DmxBinLemmas.
Import ListNotations.
Local Close Scope N_scope.

(** ** What [bin_cfg_ok] gives *)
Lemma enc_eqb_eq : forall a b, enc_eqb a b = true -> a = b.
Proof. destruct a, b; cbn; intros H; try reflexivity; discriminate H. Qed.

Lemma all_sites_complete : forall s, In s all_sites.
Proof. destruct s; cbn; tauto. Qed.

Lemma bin_cfg_ok_parts : forall cfg, bin_cfg_ok cfg = true ->
  codes_ok cfg = true /\ (forall s, enc_read cfg s = enc_write cfg s) /\ stub_written cfg = StubUuidStr.
Proof.
  intros cfg H. unfold bin_cfg_ok in H.
  apply andb_prop in H. destruct H as [H Hstub].
  apply andb_prop in H. destruct H as [H _].
  apply andb_prop in H. destruct H as [Hcodes Hencs].
  split; [assumption|]. split.
  - intros s. unfold encodings_ok in Hencs. rewrite forallb_forall in Hencs.
    specialize (Hencs s (all_sites_complete s)). apply enc_eqb_eq in Hencs. symmetry. exact Hencs.
  - unfold stub_ok in Hstub. destruct (stub_written cfg); [discriminate | reflexivity].
Qed.

Lemma names_in_db_has_db : forall v, names_in_db v = true -> has_db v = true.
Proof. unfold names_in_db, has_db. intros v H. apply N.leb_le in H. apply N.leb_le. lia. Qed.

(** ** Shapes *)
Lemma with_shape_scalar : forall A (mk : shape A -> aval) (p : parser A) x bs rest,
  p bs = Some (x, rest) -> with_shape mk None p bs = Some (mk (Scalar x), rest).
Proof. intros A mk p x bs rest H. unfold with_shape. cbn [cnt_n rep]. rewrite H. reflexivity. Qed.

Definition shape_cnt {A} (s : shape A) : option nat := if shape_is_arr s then Some (length (items s)) else None.

(** A value of either shape whose items meet [P] is read back, if the item parser reads back what meets [P]. *)
Lemma with_shape_rt : forall A (mk : shape A -> aval) (p : parser A) (w : A -> bytes) (P : A -> Prop) (s : shape A) rest,
  (forall x r, P x -> p (w x ++ r) = Some (x, r)) -> Forall P (items s) ->
  with_shape mk (shape_cnt s) p (flat_map w (items s) ++ rest) = Some (mk s, rest).
Proof.
  intros A mk p w P [x|l] rest Hp H; unfold shape_cnt; cbn [shape_is_arr items] in *.
  - apply with_shape_scalar. cbn [flat_map]. rewrite app_nil_r. apply Hp, (Forall_inv H).
  - unfold with_shape. cbn [cnt_n]. rewrite (rep_flat_map _ p w l rest); [reflexivity|].
    eapply Forall_impl; [|exact H]. intros x Hx r. apply Hp, Hx.
Qed.

Section RT.
  Variable cenc : enc -> str -> bytes.
  Variable cdec : enc -> bytes -> option str.
  Variable cfg : dmxcfg.
  Hypothesis Hcfg : bin_cfg_ok cfg = true.

  Let Hcodes : codes_ok cfg = true := proj1 (bin_cfg_ok_parts cfg Hcfg).
  Let Henc : forall s, enc_read cfg s = enc_write cfg s := proj1 (proj2 (bin_cfg_ok_parts cfg Hcfg)).
  Let Hstub : stub_written cfg = StubUuidStr := proj2 (proj2 (bin_cfg_ok_parts cfg Hcfg)).

  (** [tw] is the table the writer uses, [tr] the one the reader has. *)
  Variable v : N.
  Variables tw tr : list str.
  Variable nel : nat.
  Hypothesis Htab : has_db v = true -> tr = tw.
  Hypothesis Hfit : has_db v = true -> int_fits (db_ind_w v) (length tw).
  Hypothesis Hnel : int_fits 4 nel.

  Lemma tabref_rt : forall s rest, has_db v = true -> In s tw ->
    get_tabref v tr (put_tabref v tw s ++ rest) = Some (s, rest).
  Proof. intros s rest Hdb Hin. rewrite (Htab Hdb). apply get_put_tabref; auto. Qed.

  (** A string stored as a table index or inline, as [db] says (attribute names, element types and names). *)
  Lemma name_rt : forall (db : bool) site s rest,
    (db = true -> has_db v = true) -> (db = true -> In s tw) -> (db = false -> str_ok cenc cdec (enc_write cfg site) s) ->
    (if db then get_tabref v tr ((if db then put_tabref v tw s else put_str cenc (enc_write cfg site) s) ++ rest)
     else get_str cdec (enc_read cfg site) ((if db then put_tabref v tw s else put_str cenc (enc_write cfg site) s) ++ rest))
    = Some (s, rest).
  Proof.
    intros [|] site s rest Hdb Hin Hstr.
    - apply tabref_rt; auto.
    - rewrite Henc. apply get_put_str. auto.
  Qed.

  Lemma eref_rt : forall r rest, ref_ok cenc cdec nel r ->
    get_eref cdec nel (put_eref cenc cfg r ++ rest) = Some (r, rest).
  Proof.
    intros [i| |u] rest Hok; cbn [ref_ok] in Hok; unfold get_eref, put_eref.
    - pose proof (int_fits_4 _ Hnel) as Hnel'.
      rewrite get_int4_put_int4 by lia.
      destruct (Z.eqb_spec (Z.of_N i) (-1)); [lia|]. destruct (Z.eqb_spec (Z.of_N i) (-2)); [lia|].
      destruct (Z.ltb_spec (Z.of_N i) 0); [lia|]. destruct (Nat.ltb_spec (Z.to_nat (Z.of_N i)) nel); [|lia].
      rewrite N2Z.id. reflexivity.
    - rewrite get_int4_put_int4 by lia. reflexivity.
    - rewrite Hstub, <- app_assoc. rewrite get_int4_put_int4 by lia.
      cbn [Z.eqb Pos.eqb]. rewrite get_put_str by assumption. reflexivity.
  Qed.

  Lemma blob_rt : forall b rest, int_fits 4 (length b) -> get_blob (put_blob b ++ rest) = Some (b, rest).
  Proof.
    intros b rest H. unfold get_blob, put_blob. rewrite <- app_assoc, get_int_put_nat by assumption.
    rewrite Nat2Z.id. apply read_upto_app.
  Qed.

  Definition data_cnt (d : aval) : option nat := if data_is_arr d then Some (data_len d) else None.

  Lemma get_data_fix : forall t cnt bs, is_var_type t = false ->
    get_data cdec cfg v tr nel t cnt bs =
    if (match t with TTime => true | _ => false end) && (v <? 3)%N then None
    else match size_of cfg t with
         | Some sz => with_shape (VFix t) cnt (get_bytes (N.to_nat sz)) bs
         | None => None
         end.
  Proof. intros t cnt bs H. destruct t; try discriminate H; reflexivity. Qed.

  Lemma data_rt : forall d rest,
    data_ok cenc cdec cfg v nel d ->
    (forall x, d = VStr (Scalar x) -> names_in_db v = true -> In x tw) ->
    get_data cdec cfg v tr nel (vt d) (data_cnt d) (put_data cenc cfg v tw d ++ rest) = Some (d, rest).
  Proof.
    intros [s|s|s|t s] rest Hok Hin; unfold data_cnt; cbn [vt data_is_arr data_len put_data data_ok] in *.
    - (* elements *)
      destruct Hok as [_ Hok]. cbn [get_data]. eapply (with_shape_rt _ VElem); [apply eref_rt | exact Hok].
    - (* strings *)
      destruct s as [x|l]; cbn [shape_is_arr items get_data] in *.
      + apply with_shape_scalar. destruct (names_in_db v) eqn:En.
        * apply tabref_rt; [apply names_in_db_has_db; assumption | apply (Hin x eq_refl eq_refl)].
        * rewrite Henc. apply get_put_str. apply Hok. reflexivity.
      + destruct Hok as [_ Hok]. rewrite Henc. eapply (with_shape_rt _ VStr _ _ _ (Array l)); [apply get_put_str | exact Hok].
    - (* binary *)
      destruct Hok as [_ Hok]. cbn [get_data]. eapply (with_shape_rt _ VBin); [apply blob_rt | exact Hok].
    - (* fixed width *)
      destruct Hok as (Hvar & Htime & _ & sz & Hsz & Hall).
      rewrite get_data_fix by assumption.
      replace ((match t with TTime => true | _ => false end) && (v <? 3)%N) with false.
      2:{ symmetry. destruct t; try reflexivity. cbn [andb]. apply N.ltb_ge. apply Htime. reflexivity. }
      rewrite Hsz, concat_flat_map_id. eapply (with_shape_rt _ (VFix t)); [apply get_bytes_app | exact Hall].
  Qed.

  Lemma data_ok_arr_fits : forall d, data_ok cenc cdec cfg v nel d -> data_is_arr d = true -> int_fits 4 (data_len d).
  Proof.
    intros [s|s|s|t s] Hok Harr; cbn [data_ok data_is_arr data_len] in *.
    - apply Hok.
    - destruct s; [discriminate | apply Hok].
    - apply Hok.
    - apply Hok.
  Qed.

  Lemma attr_rt : forall a rest,
    attr_ok cenc cdec cfg v nel a ->
    (forall s, In s (attr_strings v a) -> In s tw) ->
    get_attr cdec cfg v tr nel (put_attr cenc cfg v tw a ++ rest) = Some (a, rest).
  Proof.
    intros [nm d] rest [Hnm Hd] Hin. cbn [aname adata] in *.
    unfold attr_strings in Hin. cbn [aname adata] in Hin.
    unfold put_attr, get_attr. cbn [aname adata].
    destruct (type_code_roundtrip_gen cfg Hcodes (vt d) (data_is_arr d)) as (b & Hb & _ & Hdec).
    rewrite Hb. rewrite <- app_assoc, <- app_comm_cons, <- app_assoc.
    assert (Hnin : has_db v = true -> In nm tw) by (intros E; apply Hin; rewrite E; left; reflexivity).
    assert (HD : get_data cdec cfg v tr nel (vt d) (data_cnt d) (put_data cenc cfg v tw d ++ rest) = Some (d, rest)).
    { apply data_rt; [exact Hd|]. intros x -> Hn. apply Hin. rewrite Hn. apply in_or_app. right. left. reflexivity. }
    unfold data_cnt in HD.
    rewrite (name_rt (has_db v) SiteAttrName nm _ (fun E => E) Hnin Hnm), Hdec.
    destruct (data_is_arr d) eqn:Earr.
    - rewrite get_int_put_nat by (apply data_ok_arr_fits; assumption). rewrite Nat2Z.id, HD. reflexivity.
    - cbn [app]. rewrite HD. reflexivity.
  Qed.

  Definition strip (e : elem) : elem := {| etype := etype e; ename := ename e; euuid := euuid e; eattrs := [] |}.

  Lemma head_rt : forall e rest,
    elem_ok cenc cdec cfg v nel e ->
    (forall s, In s (elem_strings v e) -> In s tw) ->
    get_elem_head cdec cfg v tr (put_elem_head cenc cfg v tw e ++ rest) = Some (strip e, rest).
  Proof.
    intros e rest (Hu & _ & Hty & Hnm & _) Hin. unfold elem_strings in Hin.
    unfold get_elem_head, put_elem_head. rewrite <- !app_assoc.
    assert (Hty' : has_db v = true -> In (etype e) tw) by (intros E; apply Hin; rewrite E; left; reflexivity).
    assert (Hnm' : names_in_db v = true -> In (ename e) tw).
    { intros E. apply Hin. rewrite E. apply in_or_app. right. left. reflexivity. }
    rewrite (name_rt (has_db v) SiteElType (etype e) _ (fun E => E) Hty' Hty).
    rewrite (name_rt (names_in_db v) SiteElName (ename e) _ (names_in_db_has_db v) Hnm' Hnm).
    rewrite (get_bytes_app 16 _ _ Hu). reflexivity.
  Qed.

  Lemma elem_attrs_rt : forall e rest,
    elem_ok cenc cdec cfg v nel e ->
    (forall s, In s (elem_strings v e) -> In s tw) ->
    get_elem_attrs cdec cfg v tr nel (put_elem_attrs cenc cfg v tw e ++ rest) = Some (eattrs e, rest).
  Proof.
    intros e rest (_ & Hn & _ & _ & Hall) Hin. unfold elem_strings in Hin.
    unfold get_elem_attrs, put_elem_attrs. rewrite <- app_assoc, get_int_put_nat by assumption.
    rewrite Nat2Z.id. apply rep_flat_map.
    rewrite Forall_forall in Hall |- *. intros a Ha rest'. apply attr_rt; [apply Hall; assumption|].
    intros s Hs. apply Hin. apply in_or_app. right. apply in_or_app. right.
    apply in_flat_map. exists a. split; assumption.
  Qed.
End RT.

Lemma fill_attrs_strip : forall d, fill_attrs (map strip d) (map eattrs d) = d.
Proof. induction d as [|[ty nm u ats] d IH]; cbn [map fill_attrs strip etype ename euuid eattrs]; [reflexivity | rewrite IH; reflexivity]. Qed.

Theorem dmx_bin_roundtrip_rest :
  forall (cenc : enc -> str -> bytes) (cdec : enc -> bytes -> option str) (cfg : dmxcfg) (v : N) (d : doc) (rest : bytes),
    bin_cfg_ok cfg = true ->
    expressible cenc cdec cfg v d ->
    parse_bin cdec cfg v (export_bin cenc cfg v d ++ rest) = Some d.
Proof.
  intros cenc cdec cfg v d rest Hcfg (Hne & Hlen & Hdb & Hall).
  destruct (bin_cfg_ok_parts cfg Hcfg) as (_ & Henc & _).
  unfold parse_bin, export_bin.
  set (tw := strtab v d) in *.
  assert (Hstrs : forall e, In e d -> forall s, In s (elem_strings v e) -> In s tw).
  { intros e He s Hs. apply strtab_in. unfold used_strings. right. apply in_flat_map. exists e. split; assumption. }
  assert (Hfit : has_db v = true -> int_fits (db_ind_w v) (length tw)) by (intros E; apply (Hdb E)).
  assert (Hheads : forall tr, (has_db v = true -> tr = tw) -> forall r,
            rep (get_elem_head cdec cfg v tr) (length d) (flat_map (put_elem_head cenc cfg v tw) d ++ r)
            = Some (map strip d, r)).
  { intros tr Htab r. apply rep_flat_map_gen. rewrite Forall_forall in Hall |- *. intros e He r'.
    apply (head_rt cenc cdec cfg Hcfg v tw tr (length d) Htab Hfit); [apply Hall | apply Hstrs]; assumption. }
  assert (Hattrs : forall tr, (has_db v = true -> tr = tw) -> forall r,
            rep (get_elem_attrs cdec cfg v tr (length d)) (length d) (flat_map (put_elem_attrs cenc cfg v tw) d ++ r)
            = Some (map eattrs d, r)).
  { intros tr Htab r. apply rep_flat_map_gen. rewrite Forall_forall in Hall |- *. intros e He r'.
    apply (elem_attrs_rt cenc cdec cfg Hcfg v tw tr (length d) Htab Hfit Hlen); [apply Hall | apply Hstrs]; assumption. }
  assert (Hfin : match map strip d with [] => None | _ :: _ => Some (fill_attrs (map strip d) (map eattrs d)) end = Some d).
  { rewrite fill_attrs_strip. destruct d; [contradiction | reflexivity]. }
  destruct (has_db v) eqn:Edb.
  - destruct (Hdb eq_refl) as (Hstr & Hcnt & _).
    rewrite <- !app_assoc. rewrite get_int_put_nat by assumption. rewrite Nat2Z.id, Henc.
    rewrite (rep_flat_map _ _ (put_str cenc (enc_write cfg SiteTable))).
    2:{ eapply Forall_impl; [|exact Hstr]. intros s Hs r. apply get_put_str. assumption. }
    rewrite get_int_put_nat by assumption. rewrite Nat2Z.id. cbv zeta.
    rewrite (Hheads tw (fun _ => eq_refl)), (Hattrs tw (fun _ => eq_refl)). exact Hfin.
  - cbn [app]. rewrite <- !app_assoc.
    rewrite get_int_put_nat by assumption. rewrite Nat2Z.id. cbv zeta.
    rewrite (Hheads [] ltac:(discriminate)), (Hattrs [] ltac:(discriminate)). exact Hfin.
Qed.

Theorem dmx_bin_roundtrip_gen :
  forall (cenc : enc -> str -> bytes) (cdec : enc -> bytes -> option str) (cfg : dmxcfg) (v : N) (d : doc),
    bin_cfg_ok cfg = true ->
    expressible cenc cdec cfg v d ->
    parse_bin cdec cfg v (export_bin cenc cfg v d) = Some d.
Proof.
  intros cenc cdec cfg v d Hcfg Hex.
  rewrite <- (app_nil_r (export_bin cenc cfg v d)). apply dmx_bin_roundtrip_rest; assumption.
Qed.

(** ** Non-vacuity: a concrete configuration and document *)
Definition idenc (_ : enc) (s : str) : bytes := s.
Definition iddec (_ : enc) (b : bytes) : option str := Some b.

(** [pinned_cfg] with the three repairs: scalar/array split test [>], the stub UUID string is written, every
    reader uses the file codec like its writer. *)
Definition good_cfg : dmxcfg := {|
  code_table := [(TElement, 1); (TInt, 2); (TFloat, 3); (TBool, 4); (TString, 5); (TBinary, 6); (TTime, 7);
                 (TColor, 8); (TVec2, 9); (TVec3, 10); (TVec4, 11); (TAngle, 12); (TQuat, 13); (TMatrix, 14)]%N;
  array_offset := 14%N;
  split_cmp := CGt;
  size_table := [(TInt, 4); (TFloat, 4); (TBool, 1); (TTime, 4); (TColor, 4); (TVec2, 8); (TVec3, 12); (TVec4, 16);
                 (TAngle, 12); (TQuat, 16); (TMatrix, 64)]%N;
  stub_written := StubUuidStr;
  enc_write := fun _ => EncFile;
  enc_read := fun _ => EncFile;
|}.

Lemma good_cfg_ok : bin_cfg_ok good_cfg = true.
Proof. vm_compute. reflexivity. Qed.

Definition ex_uuid (b : N) : bytes := repeat b 16.
Definition ex_doc : doc :=
  [ {| etype := [68; 109; 69]%N; ename := [114; 111; 111; 116]%N; euuid := ex_uuid 1%N;
       eattrs := [ {| aname := [115; 101; 108; 102]%N; adata := VElem (Scalar (RElem 0%N)) |};
                   {| aname := [107; 105; 100; 115]%N;
                      adata := VElem (Array [RElem 1%N; RNull; RStub [97; 98; 45; 49]%N]) |};
                   {| aname := s_name; adata := VStr (Scalar [114; 111; 111; 116]%N) |};
                   {| aname := [116; 97; 103; 115]%N; adata := VStr (Array [[120]%N; []; [121; 122]%N]) |} ] |};
    {| etype := [68; 109; 69]%N; ename := [99]%N; euuid := ex_uuid 2%N;
       eattrs := [ {| aname := [109]%N; adata := VFix TMatrix (Scalar (repeat 7%N 64)) |};
                   {| aname := [116]%N; adata := VFix TInt (Array [[1; 0; 0; 0]%N; [2; 0; 0; 0]%N]) |};
                   {| aname := [98]%N; adata := VBin (Array [[0; 1; 0; 255]%N; []]) |};
                   {| aname := [110]%N; adata := VElem (Scalar RNull) |} ] |} ].

Lemma idenc_str_ok : forall e s, ~ In 0%N s -> str_ok idenc iddec e s.
Proof. intros e s H. split; [reflexivity | exact H]. Qed.

Ltac no_nul := vm_compute; intuition discriminate.
Ltac fits := unfold int_fits; vm_compute; reflexivity.
Ltac brk :=
  repeat match goal with
         | |- _ /\ _ => split
         | |- Forall _ (_ :: _) => apply Forall_cons
         | |- Forall _ [] => apply Forall_nil
         | |- _ = false -> _ => let Hf := fresh in intros Hf; try discriminate Hf
         | |- exists sz, size_of _ _ = Some sz /\ _ => eexists; split; [vm_compute; reflexivity|]
         | |- _ = TTime -> _ => let Hf := fresh in intros Hf; try discriminate Hf
         end.
Ltac leaf :=
  lazymatch goal with
  | |- int_fits _ _ => fits
  | |- str_ok _ _ _ _ => apply idenc_str_ok; no_nul
  | |- ref_ok _ _ _ _ => cbn [ref_ok]; first [exact I | apply idenc_str_ok; no_nul | vm_compute; lia]
  | |- (_ <= _)%N => vm_compute; discriminate
  | |- _ = _ => reflexivity
  end.
Ltac solve_expressible :=
  unfold expressible; split; [discriminate|]; split; [fits|]; split;
  [ let Hdb := fresh in
    intros Hdb; vm_compute in Hdb;
    first [ discriminate Hdb
          | split; [vm_compute; repeat constructor; no_nul | split; fits] ]
  | repeat (apply Forall_cons || apply Forall_nil);
    unfold elem_ok, attr_ok; cbn [euuid eattrs etype ename aname adata];
    brk; cbn [data_ok items adata aname]; brk; leaf ].

Example expressible_example :
  expressible idenc iddec good_cfg 5 ex_doc /\ expressible idenc iddec good_cfg 1 ex_doc /\ length ex_doc = 2%nat.
Proof.
  split; [|split; [|reflexivity]].
  - solve_expressible.
  - solve_expressible.
Qed.

Example roundtrip_example_v5 : parse_bin iddec good_cfg 5 (export_bin idenc good_cfg 5 ex_doc) = Some ex_doc.
Proof. vm_compute. reflexivity. Qed.

Example roundtrip_example_v1 : parse_bin iddec good_cfg 1 (export_bin idenc good_cfg 1 ex_doc) = Some ex_doc.
Proof. vm_compute. reflexivity. Qed.

(** The same through the general theorem. *)
Example roundtrip_example_by_theorem : forall v, v = 5%N \/ v = 1%N ->
  parse_bin iddec good_cfg v (export_bin idenc good_cfg v ex_doc) = Some ex_doc.
Proof.
  intros v [E|E]; subst v; apply dmx_bin_roundtrip_gen; try exact good_cfg_ok; apply expressible_example.
Qed.

(** ** The stub condition is necessary: without the UUID string after -2 the reader consumes following data. *)
Definition bad_stub_cfg : dmxcfg := {|
  code_table := code_table good_cfg; array_offset := array_offset good_cfg; split_cmp := split_cmp good_cfg;
  size_table := size_table good_cfg; stub_written := StubNothing;
  enc_write := enc_write good_cfg; enc_read := enc_read good_cfg |}.

Definition stub_doc : doc :=
  [ {| etype := [68; 109; 69]%N; ename := [114]%N; euuid := ex_uuid 1%N;
       eattrs := [ {| aname := [107]%N; adata := VElem (Scalar (RStub [97; 98]%N)) |} ] |} ].

(** ... although the document is expressible and the configuration fails only [stub_ok]. *)
Lemma bad_stub_cfg_conditions :
  codes_ok bad_stub_cfg = true /\ encodings_ok bad_stub_cfg = true /\ sizes_ok bad_stub_cfg = true /\
  stub_ok bad_stub_cfg = false.
Proof. vm_compute. repeat split. Qed.

Lemma stub_doc_expressible : expressible idenc iddec bad_stub_cfg 5 stub_doc.
Proof. solve_expressible. Qed.
