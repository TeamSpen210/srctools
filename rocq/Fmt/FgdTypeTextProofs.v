(** C16 — proofs about the type text of keyvalue / input / output lines (Fmt/FgdTypeText.v). *)
From Coq Require Import List NArith Arith Bool Lia.
From SV Require Import Fmt.FgdLine Fmt.FgdTypeText.
Import ListNotations.
Open Scope N_scope.

Lemma tt_str_eqb_eq a : forall b, str_eqb a b = true -> a = b.
Proof.
  induction a as [|x a IH]; intros [|y b] H; cbn in H; try discriminate; auto.
  apply andb_true_iff in H as [H1 H2]. apply N.eqb_eq in H1. subst. f_equal. auto.
Qed.
Lemma tt_str_eqb_refl a : str_eqb a a = true.
Proof. induction a; cbn; auto. rewrite N.eqb_refl. auto. Qed.
Lemma sexpr_eqb_eq a : forall b, sexpr_eqb a b = true -> a = b.
Proof. induction a; intros [] H; cbn in H; try discriminate; auto; f_equal; auto. Qed.

Section Laws.
Variable fold : str -> str.
Variable tab : list (str * str).
Hypothesis fold_idem : forall s, fold (fold s) = fold s.
Hypothesis fold_strip : forall s, fold (strip s) = strip (fold s).
Hypothesis fold_tl : forall s, fold (tl s) = tl (fold s).

(** an expression with a casefold anywhere in it is the casefold of the expression without *)
Lemma seval_norm e raw :
  seval fold e raw = if has_fold e then fold (seval fold (unfold e) raw) else seval fold (unfold e) raw.
Proof.
  induction e; cbn; auto.
  - rewrite IHe. destruct (has_fold e); auto.
  - rewrite IHe. destruct (has_fold e); auto.
  - rewrite IHe. destruct (has_fold e); auto.
Qed.
Lemma seval_nofold e : has_fold e = false -> unfold e = e.
Proof. induction e; cbn; intros; try discriminate; f_equal; auto. Qed.

Lemma lookup_ok_sem k f base raw : lookup_ok k f base = true ->
  seval fold k raw = fold (seval fold base raw) /\ seval fold f raw = seval fold base raw.
Proof.
  unfold lookup_ok. intros H. apply andb_true_iff in H as [H H3]. apply andb_true_iff in H as [H1 H2].
  apply sexpr_eqb_eq in H2, H3. subst f. split; auto.
  rewrite seval_norm, H1, H2. auto.
Qed.

(** every generated keyvalue program that passes the obligation IS the hand model, on all token texts *)
Theorem kv_prog_is_model p : kv_prog_ok p = true -> forall raw, trun fold tab p raw = spec_kv fold tab raw.
Proof.
  destruct p as [| |e thn els]; try discriminate. destruct thn as [k1 f1| |]; try discriminate. destruct els as [k2 f2| |]; try discriminate.
  cbn [kv_prog_ok]. intros H raw. apply andb_true_iff in H as [H H3]. apply andb_true_iff in H as [H1 H2].
  apply sexpr_eqb_eq in H1. subst e.
  destruct (lookup_ok_sem _ _ _ raw H2) as [A1 A2]. destruct (lookup_ok_sem _ _ _ raw H3) as [B1 B2].
  cbn [trun]. rewrite A1, A2, B1, B2. cbn [seval]. unfold spec_kv, classify. cbn [snd]. reflexivity.
Qed.
Theorem io_prog_is_model special p : io_prog_ok special p = true -> forall raw, trun fold tab p raw = spec_io fold tab special raw.
Proof.
  destruct p as [|e lit m rest|]; try discriminate. destruct rest as [k f| |]; try discriminate.
  cbn [io_prog_ok]. intros H raw. apply andb_true_iff in H as [H H4]. apply andb_true_iff in H as [H H3]. apply andb_true_iff in H as [H1 H2].
  apply sexpr_eqb_eq in H1. apply tt_str_eqb_eq in H2, H3. subst e lit m.
  destruct (lookup_ok_sem _ _ _ raw H4) as [A1 A2].
  cbn [trun]. rewrite A1, A2. cbn [seval]. unfold spec_io, classify. reflexivity.
Qed.

(** a program that passes keeps the text of an unknown type untouched by casefold *)
Lemma kv_prog_ok_verbatim p : kv_prog_ok p = true -> fallback_verbatim p = true.
Proof.
  destruct p as [| |e thn els]; try discriminate. destruct thn as [k1 f1| |]; try discriminate. destruct els as [k2 f2| |]; try discriminate.
  cbn [kv_prog_ok fallback_verbatim]. unfold lookup_ok. intros H.
  apply andb_true_iff in H as [H H3]. apply andb_true_iff in H as [_ H2].
  apply andb_true_iff in H2 as [_ H2]. apply andb_true_iff in H3 as [_ H3].
  apply sexpr_eqb_eq in H2, H3. subst. reflexivity.
Qed.

(** * Round trips of the hand model *)
(** object -> text -> object: a custom name that is stripped, does not start with '*' and is not a spelling of a known type *)
Theorem kv_custom_roundtrip s : strip s = s -> starts_star s = false -> assoc (fold s) tab = None ->
  spec_kv fold tab (kv_type_text (Custom s)) = (false, Custom s).
Proof. intros H1 H2 H3. unfold spec_kv, classify. cbn [kv_type_text]. rewrite H1, H2, H3. reflexivity. Qed.
Theorem io_custom_roundtrip special io_text s : strip s = s -> str_eqb s EHANDLE = false -> assoc (fold s) tab = None ->
  spec_io fold tab special (io_type_text io_text (Custom s)) = (false, Custom s).
Proof. intros H1 H2 H3. unfold spec_io, classify. cbn [io_type_text]. rewrite H1, H2, H3. reflexivity. Qed.

Lemma assoc_in k : forall c, assoc k tab = Some c -> exists k', In (k', c) tab.
Proof.
  induction tab as [|[a b] r IH]; cbn; intros c H; try discriminate.
  destruct (str_eqb k a).
  - injection H as <-. eauto.
  - destruct (IH _ H) as [k' ?]. eauto.
Qed.
Lemma classify_known s c : tab_ok fold tab = true -> classify fold tab s = Known c -> canon_ok fold tab c = true.
Proof.
  unfold classify, tab_ok. intros T H. destruct (assoc (fold s) tab) eqn:E; try discriminate. injection H as ->.
  destruct (assoc_in _ _ E) as [k' I]. rewrite forallb_forall in T. apply (T _ I).
Qed.
Lemma canon_reads_back c : canon_ok fold tab c = true -> spec_kv fold tab c = (false, Known c).
Proof.
  unfold canon_ok. intros H. apply andb_true_iff in H as [H H3]. apply andb_true_iff in H as [H1 H2].
  apply tt_str_eqb_eq in H1. apply negb_true_iff in H2. unfold spec_kv, classify. rewrite H1, H2.
  destruct (assoc (fold c) tab); try discriminate. apply tt_str_eqb_eq in H3. subst. reflexivity.
Qed.
(** text -> object -> text -> object: whatever spelling was read (any case, blanks, a leading '*'), a known type is written
    canonically and the canonical text reads back as the same member *)
Theorem kv_known_idempotent raw b c : tab_ok fold tab = true -> spec_kv fold tab raw = (b, Known c) ->
  spec_kv fold tab (kv_type_text (Known c)) = (false, Known c).
Proof.
  intros T H. cbn [kv_type_text]. apply canon_reads_back. unfold spec_kv in H.
  destruct (starts_star (strip raw)); injection H as _ H; eapply classify_known; eauto.
Qed.
End Laws.

(** * str.casefold on ASCII is [lower], which satisfies the three laws *)
Definition lowc (c : N) : N := if (65 <=? c) && (c <=? 90) then c + 32 else c.
Lemma lower_map s : lower s = map lowc s.
Proof. reflexivity. Qed.
Lemma lowc_idem c : lowc (lowc c) = lowc c.
Proof.
  unfold lowc. destruct ((65 <=? c) && (c <=? 90)) eqn:E; [|rewrite E; reflexivity].
  apply andb_true_iff in E as [E1 E2]. apply N.leb_le in E1, E2.
  replace (c + 32 <=? 90) with false by (symmetry; apply N.leb_gt; lia). rewrite andb_false_r. reflexivity.
Qed.
Lemma lowc_blank c : blankc (lowc c) = blankc c.
Proof.
  unfold lowc. destruct ((65 <=? c) && (c <=? 90)) eqn:E; [|reflexivity].
  apply andb_true_iff in E as [E1 E2]. apply N.leb_le in E1, E2. unfold blankc.
  repeat match goal with |- context [?a =? ?b] => destruct (N.eqb_spec a b); try lia end; try reflexivity.
Qed.
Lemma lower_idem s : lower (lower s) = lower s.
Proof. unfold lower. rewrite map_map. apply map_ext. intros c. exact (lowc_idem c). Qed.
Lemma lower_lstrip s : lower (lstrip s) = lstrip (lower s).
Proof.
  induction s as [|c s IH]; auto. change (lower (c :: s)) with (lowc c :: lower s). cbn [lstrip]. rewrite lowc_blank.
  destruct (blankc c); auto.
Qed.
Lemma lower_rev s : lower (rev s) = rev (lower s).
Proof. unfold lower. apply map_rev. Qed.
Lemma lower_strip s : lower (strip s) = strip (lower s).
Proof. unfold strip. rewrite lower_rev, lower_lstrip, lower_rev, lower_lstrip. reflexivity. Qed.
Lemma lower_tl s : lower (tl s) = tl (lower s).
Proof. destruct s; reflexivity. Qed.

(** composition: a program pair and a table that pass the obligations, with ASCII casefold *)
Theorem type_text_property_gen pk pi tab special :
  kv_prog_ok pk = true -> io_prog_ok special pi = true -> tab_ok lower tab = true ->
  (forall s, strip s = s -> starts_star s = false -> assoc (lower s) tab = None ->
     trun lower tab pk (kv_type_text (Custom s)) = (false, Custom s)) /\
  (forall io_text s, strip s = s -> str_eqb s EHANDLE = false -> assoc (lower s) tab = None ->
     trun lower tab pi (io_type_text io_text (Custom s)) = (false, Custom s)) /\
  (forall raw b c, trun lower tab pk raw = (b, Known c) ->
     trun lower tab pk (kv_type_text (Known c)) = (false, Known c)).
Proof.
  intros K I T. repeat split.
  - intros s H1 H2 H3. rewrite (kv_prog_is_model lower tab lower_idem lower_strip lower_tl pk K). apply kv_custom_roundtrip; auto.
  - intros io_text s H1 H2 H3. rewrite (io_prog_is_model lower tab lower_idem lower_strip lower_tl special pi I). apply io_custom_roundtrip; auto.
  - intros raw b c H. rewrite (kv_prog_is_model lower tab lower_idem lower_strip lower_tl pk K) in *. eapply kv_known_idempotent; eauto.
Qed.

