(** Proofs about the archive naming model (Fmt/VpkArchName.v). *)
From Coq Require Import List NArith Bool Lia Arith Decimal.
From SV Require Import Fmt.VpkDir SM.VpkProofs Fmt.VpkArchName.
Import ListNotations.
Open Scope N_scope.

(** ---- the string primitives on  P ++ l ---- *)
Lemma ends_with_app P l s : (length s <= length l)%nat -> ends_with (P ++ l) s = ends_with l s.
Proof.
  intros H. unfold ends_with. rewrite app_length.
  replace (Nat.leb (length s) (length P + length l)) with true by (symmetry; apply Nat.leb_le; lia).
  replace (Nat.leb (length s) (length l)) with true by (symmetry; apply Nat.leb_le; lia).
  rewrite skipn_app. rewrite skipn_all2 by lia. cbn [List.app].
  replace (length P + length l - length s - length P)%nat with (length l - length s)%nat by lia. reflexivity.
Qed.
Lemma drop_last_app P l k : (k <= length l)%nat -> drop_last k (P ++ l) = P ++ drop_last k l.
Proof.
  intros H. unfold drop_last. rewrite app_length, firstn_app. rewrite firstn_all2 by lia.
  replace (length P + length l - k - length P)%nat with (length l - k)%nat by lia. reflexivity.
Qed.
Lemma remove_suffix_app P l s : (length s <= length l)%nat -> remove_suffix (P ++ l) s = P ++ remove_suffix l s.
Proof.
  intros H. unfold remove_suffix. rewrite ends_with_app by exact H.
  destruct (negb (is_nil s) && ends_with l s); [apply drop_last_app, H|reflexivity].
Qed.
Lemma rstrip_set_app cs P l : rstrip_set cs l <> [] -> rstrip_set cs (P ++ l) = P ++ rstrip_set cs l.
Proof.
  intros H. induction P as [|x P IH]; [reflexivity|]. cbn [List.app].
  change (rstrip_set cs (x :: P ++ l)) with (match rstrip_set cs (P ++ l) with [] => if mem x cs then [] else [x] | r' => x :: r' end).
  rewrite IH. destruct (P ++ rstrip_set cs l) eqn:E; [|reflexivity].
  apply app_eq_nil in E. tauto.
Qed.
Lemma ends_with_split f s : ends_with f s = true -> exists P, f = P ++ s.
Proof.
  unfold ends_with. intros H. apply andb_prop in H as [_ H]. apply bytes_eqb_eq in H.
  exists (firstn (length f - length s) f). rewrite <- H at 2. symmetry. apply firstn_skipn.
Qed.
Lemma ends_with_self P s : ends_with (P ++ s) s = true.
Proof.
  unfold ends_with. rewrite app_length. apply andb_true_intro. split; [apply Nat.leb_le; lia|].
  replace (length P + length s - length s)%nat with (length P + 0)%nat by lia.
  rewrite skipn_app, skipn_all2 by lia. replace (length P + 0 - length P)%nat with 0%nat by lia.
  cbn [List.app skipn]. now apply bytes_eqb_eq.
Qed.

(** ---- the symbolic evaluation is sound: an answer holds for every unknown part P of the file name ---- *)
Lemma ssym_sound e : forall lf dp l P,
  ssym lf dp e = Some l -> seval (P ++ lf) (option_map (@List.app N P) dp) e = Some (P ++ l).
Proof.
  induction e as [| |e IH s|e IH k|e IH cs|a IHa b IHb]; intros lf dp l P; cbn [ssym seval].
  - intros [= ->]. reflexivity.
  - intros ->. reflexivity.
  - destruct (ssym lf dp e) as [l0|] eqn:E; [|discriminate]. rewrite (IH _ _ _ P E). cbn [option_map].
    destruct s as [|s0 s']; cbn [is_nil].
    + intros [= ->]. unfold remove_suffix. cbn [is_nil negb andb]. reflexivity.
    + destruct (Nat.leb (length (s0 :: s')) (length l0)) eqn:El; [|discriminate]. intros [= <-].
      apply Nat.leb_le in El. now rewrite remove_suffix_app.
  - destruct (ssym lf dp e) as [l0|] eqn:E; [|discriminate]. rewrite (IH _ _ _ P E). cbn [option_map].
    destruct ((0 <? k) && Nat.leb (N.to_nat k) (length l0)) eqn:Ek; [|discriminate]. intros [= <-].
    apply andb_prop in Ek as [Ek1 Ek2]. apply N.ltb_lt in Ek1. apply Nat.leb_le in Ek2.
    unfold py_drop_last. destruct (N.eqb_spec k 0); [lia|]. now rewrite drop_last_app.
  - destruct (ssym lf dp e) as [l0|] eqn:E; [|discriminate]. rewrite (IH _ _ _ P E). cbn [option_map].
    destruct (rstrip_set cs l0) as [|r0 r] eqn:Er; [discriminate|]. intros [= <-].
    rewrite rstrip_set_app by (rewrite Er; discriminate). now rewrite Er.
  - destruct dp as [d|]; cbn [option_map]; [apply IHa|apply IHb].
Qed.

(** ---- the filename setter ---- *)
Section naming.
  Variable c : ncfg.

  Lemma sym_is_P_inv o : sym_is_P o = true -> o = Some [].
  Proof. destruct o as [[|x l]|]; cbn [sym_is_P]; intros H; try discriminate H; reflexivity. Qed.

  (** [filename = P + '_dir.vpk'] sets [_dir_prefix = P] ... *)
  Lemma dir_prefix_of_dir : setter_ok c = true -> forall P, dir_prefix_of c (P ++ n_suffix c) = Some P.
  Proof.
    intros H P. apply andb_prop in H as [_ H]. apply sym_is_P_inv in H.
    unfold dir_prefix_of. rewrite ends_with_self.
    pose proof (ssym_sound _ _ _ _ P H) as E. cbn [option_map] in E. rewrite List.app_nil_r in E. exact E.
  Qed.
  (** ... and nothing else is a directory file name. *)
  Lemma dir_prefix_of_inv : setter_ok c = true -> forall f p, dir_prefix_of c f = Some p -> f = p ++ n_suffix c.
  Proof.
    intros H f p Hf. pose proof Hf as Hf'. unfold dir_prefix_of in Hf.
    destruct (ends_with f (n_suffix c)) eqn:E; [|discriminate].
    apply ends_with_split in E as [P ->]. rewrite (dir_prefix_of_dir H) in Hf'. congruence.
  Qed.
  Lemma dir_prefix_of_none f : dir_prefix_of c f = None -> setter_ok c = true -> ends_with f (n_suffix c) = false.
  Proof.
    intros Hn H. destruct (ends_with f (n_suffix c)) eqn:E; [|reflexivity].
    apply ends_with_split in E as [P ->]. rewrite (dir_prefix_of_dir H) in Hn. discriminate.
  Qed.

  Lemma site_ok_sound e : site_ok c e = true -> forall P, seval (P ++ n_suffix c) (Some P) e = Some P.
  Proof.
    intros H P. apply sym_is_P_inv in H. pose proof (ssym_sound _ _ _ _ P H) as E.
    cbn [option_map] in E. rewrite !app_nil_r in E. exact E.
  Qed.

  (** The writer and the readers of a numbered archive use the same file name, for every file name of a directory
      VPK and every index; and [get_arch_filename(prefix)] gives back the directory file's own name. *)
  Theorem arch_names_coincide : ncfg_ok c = true -> forall f p i,
    dir_prefix_of c f = Some p ->
    site_name c f (n_writer c) i = Some (arch_filename c p (Some i))
    /\ Forall (fun r => site_name c f r i = Some (arch_filename c p (Some i))) (n_readers c)
    /\ arch_filename c p None = f.
  Proof.
    unfold ncfg_ok. intros H f p i Hf.
    apply andb_prop in H as [H Hnum]. apply andb_prop in H as [H Hsuf]. apply andb_prop in H as [H Hr].
    apply andb_prop in H as [Hset Hw]. apply bytes_eqb_eq in Hsuf.
    pose proof (dir_prefix_of_inv Hset _ _ Hf) as ->.
    unfold site_name. rewrite Hf. split; [|split].
    - now rewrite (site_ok_sound _ Hw).
    - apply Forall_forall. intros r Hin. rewrite forallb_forall in Hr. now rewrite (site_ok_sound _ (Hr _ Hin)).
    - cbn [arch_filename]. now rewrite Hsuf.
  Qed.

  (** A file name that is not a directory VPK has no [_dir_prefix]: FileInfo.write then keeps everything in the file itself. *)
  Theorem singular_has_no_prefix : setter_ok c = true -> forall f,
    ends_with f (n_suffix c) = false -> dir_prefix_of c f = None.
  Proof. intros _ f H. unfold dir_prefix_of. now rewrite H. Qed.
End naming.

(** ---- numbered archive names: one file per index, never the directory file ---- *)
Lemma uint_codes_inj u : forall v, uint_codes u = uint_codes v -> u = v.
Proof.
  induction u; destruct v; cbn [uint_codes]; intros H; try reflexivity; try discriminate;
    injection H as H; f_equal; auto.
Qed.
Fixpoint zeros (k : nat) (u : uint) : uint := match k with O => u | S k' => D0 (zeros k' u) end.
Lemma uint_codes_zeros k u : uint_codes (zeros k u) = repeat 48 k ++ uint_codes u.
Proof. induction k as [|k IH]; cbn [zeros uint_codes repeat List.app]; [reflexivity|now rewrite IH]. Qed.
Lemma of_uint_zeros k u : N.of_uint (zeros k u) = N.of_uint u.
Proof. induction k as [|k IH]; cbn [zeros]; [reflexivity|]. rewrite <- IH. reflexivity. Qed.

Lemma pad_dec_inj w i j : pad w 48 (dec_digits i) = pad w 48 (dec_digits j) -> i = j.
Proof.
  unfold pad, dec_digits. rewrite <- !uint_codes_zeros. intros H. apply uint_codes_inj in H.
  apply (f_equal N.of_uint) in H. rewrite !of_uint_zeros in H. now rewrite !DecimalN.Unsigned.of_to in H.
Qed.
Lemma uint_codes_digit u : Forall (fun x => is_digit x = true) (uint_codes u).
Proof. induction u; cbn [uint_codes]; constructor; auto. Qed.
Lemma dec_digits_nonnil i : dec_digits i <> [].
Proof.
  unfold dec_digits. destruct i as [|p]; cbn [N.to_uint]; [discriminate|].
  pose proof (DecimalPos.Unsigned.to_uint_nonnil p) as H.
  destruct (Pos.to_uint p); [contradiction| | | | | | | | | |]; discriminate.
Qed.
Lemma pad_dec_head w i : exists x r, pad w 48 (dec_digits i) = x :: r /\ is_digit x = true.
Proof.
  unfold pad. destruct (N.to_nat w - length (dec_digits i))%nat as [|k]; cbn [repeat List.app].
  - pose proof (dec_digits_nonnil i) as Hn. pose proof (uint_codes_digit (N.to_uint i)) as Hd. fold (dec_digits i) in Hd.
    destruct (dec_digits i) as [|x r]; [contradiction|]. inversion Hd; subst. eauto.
  - eexists _, _. split; reflexivity.
Qed.
Lemma strip_prefix_app p s r : strip_prefix p s = Some r -> s = p ++ r.
Proof.
  revert s. induction p as [|x p IH]; intros s; cbn [strip_prefix].
  - intros [= ->]. reflexivity.
  - destruct s as [|y s]; [discriminate|]. destruct (N.eqb_spec x y); [|discriminate]. subst. intros H. cbn. f_equal. auto.
Qed.

(** ---- the expected configuration satisfies the condition (non-vacuity), character stripping does not ---- *)
Definition s_dir_vpk : bytes := [95; 100; 105; 114; 46; 118; 112; 107].   (* '_dir.vpk' *)
Definition s_vpk : bytes := [46; 118; 112; 107].                           (* '.vpk' *)
Definition ex_ncfg (reader : sexpr) : ncfg :=
  {| n_suffix := s_dir_vpk; n_setter := SDropLast SName 8; n_writer := SDirPrefix; n_readers := [reader; reader];
     n_dir_suffix := s_dir_vpk; n_sep := [95]; n_fill := 48; n_width := 3; n_ext := s_vpk |}.
Definition reader_today : sexpr := SIfDir SDirPrefix (SRemoveSuffix SName s_vpk).
(** the 'simplification'  self._filename.removesuffix('.vpk').rstrip('_dir') *)
Definition reader_rstrip : sexpr := SRstrip (SRemoveSuffix SName s_vpk) [95; 100; 105; 114].
(** an equivalent rewrite that is accepted: removesuffix('.vpk').removesuffix('_dir') *)
Definition reader_two_suffixes : sexpr := SRemoveSuffix (SRemoveSuffix SName s_vpk) [95; 100; 105; 114].

Lemma ex_ncfg_ok : ncfg_ok (ex_ncfg reader_today) = true /\ ncfg_ok (ex_ncfg reader_two_suffixes) = true.
Proof. vm_compute. split; reflexivity. Qed.

