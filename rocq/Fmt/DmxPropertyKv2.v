(** C14 — the whole property for the KeyValues2 form, composed from the parts: element graph -> blocks (flat: every
    element a top-level block; nested: the root rule and inline blocks) -> text -> tokens -> blocks -> the elements the
    reader registers -> references resolved by id. *)
From Coq Require Import NArith List Bool Lia Permutation.
From SV Require Import Text.Str Text.Tokenizer Fmt.DmxKv2 Fmt.DmxKv2Proofs Fmt.DmxKv2Nested Fmt.DmxKv2NestedProofs
  Fmt.DmxKv2Graph Fmt.DmxKv2GraphProofs Fmt.DmxKv2GraphUnique Fmt.DmxKv2GraphWhole.
Import ListNotations.
Open Scope nat_scope.

Theorem c14_property_kv2_gen :
  forall (T : tables) (o : opts) (fold : str -> str) (vtnames : list str) (c : rootcfg),
    kv2_tables_ok T = true -> kv2_opts_ok o = true -> vtnames_ok T fold vtnames = true -> root_rule_ok c = true ->
    forall g : gdoc, graph_ok g = true -> doc_ok T vtnames (flatten g) = true -> g <> [] -> (forall j, j < length g -> reach g j) ->
      (* flat layout: text -> document -> graph *)
      match parse_text T o fold vtnames (render_doc T (flatten g)) with Some d => link d | None => None end = Some g /\
      (* nested layout: the tree of blocks the root rule gives is carried by the text, every element is in it exactly once,
         the exported one first, and the elements the reader registers are those of the flat document, whose references
         resolve to the graph *)
      exists d, nest_doc g (is_root fold vtnames c false g) false = Some d /\
        parsen_text T o fold vtnames (rendern_doc T d) = Some d /\
        written_once d = true /\
        Permutation (unnest d) (flatten g) /\
        (exists rest, unnest d = flat_elem (ids g) (nth 0 g dflt_gelem) :: rest) /\
        (exists g', link (unnest d) = Some g' /\ flatten g' = unnest d) /\
        link (flatten g) = Some g.
Proof.
  intros T o fold vtnames c HT Ho Hv Hc g Hg Hdoc Hne Hreach. split.
  - now apply kv2_flat_graph_roundtrip_gen.
  - destruct (nest_total g fold vtnames c Hc Hg) as [d H]. exists d. split; [exact H|].
    pose proof (nest_ndoc_ok g T fold vtnames c Hc Hdoc d Hne H) as Hok.
    destruct (nest_is_flatten_permuted g fold vtnames c Hc Hg d Hne Hreach H) as [Hp Hr].
    repeat split.
    + now apply kv2_nested_roundtrip_gen.
    + apply (nest_written_once g fold vtnames c Hc Hg d H).
    + exact Hp.
    + exact Hr.
    + apply (nest_reader_graph g fold vtnames c d H).
    + now apply link_flatten.
Qed.

(** satisfiable: the example graph (sharing, self reference, cycle through an inline block, stub, NULL) *)
Lemma c14_property_kv2_example :
  kv2_tables_ok pinned_tables && kv2_opts_ok pinned_kv2_opts && vtnames_ok pinned_tables (fun s => s) pinned_vtnames &&
  root_rule_ok pinned_rootcfg && graph_ok ex_graph && doc_ok pinned_tables pinned_vtnames (flatten ex_graph) = true /\
  (forall j, j < length ex_graph -> reach ex_graph j).
Proof.
  split; [vm_compute; reflexivity|].
  assert (R0 : reach ex_graph 0) by constructor.
  assert (R1 : reach ex_graph 1) by (eapply (reach_step ex_graph 0 1); [exact R0|cbn; left; reflexivity|cbn; left; reflexivity]).
  assert (R2 : reach ex_graph 2) by (eapply (reach_step ex_graph 0 2); [exact R0|cbn; left; reflexivity|cbn; right; left; reflexivity]).
  assert (R3 : reach ex_graph 3) by (eapply (reach_step ex_graph 2 3); [exact R2|cbn; left; reflexivity|cbn; left; reflexivity]).
  intros j Hj. cbn in Hj. destruct j as [|[|[|[|j]]]]; try assumption. lia.
Qed.
