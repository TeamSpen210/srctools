(** C16 — proofs about Fmt/FgdBody.v: the whole body of an entity, as written, is read back line by line. *)
From Coq Require Import List NArith Arith Bool Lia.
From SV Require Import Fmt.FgdLine Fmt.FgdLineProofs Fmt.FgdBody.
Import ListNotations.
Open Scope N_scope.

Section Proofs.
Variable tag_norm : str -> str.
Variable tags_valid : list str -> bool.
Variable vt : Type.
Variable vt_text : vt -> str.
Variable vt_lookup : str -> option (bool * vt).
Variables vt_is_bool vt_is_flags vt_is_choices : vt -> bool.
Variable io_text : vt -> str.
Variable io_lookup : str -> option vt.
Variable io_decay : vt -> vt.
Variable dec : N -> str.
Variable undec : str -> option N.
Variable pow2 : N -> bool.
Variable cfg : line_cfg.
Variable rt : Type.
Variable rt_text : rt -> str.
Variable rt_lookup : str -> option rt.
Hypothesis vt_lookup_text : forall v, vt_lookup (vt_text v) = Some (false, v).
Hypothesis io_lookup_text : forall v, io_lookup (io_text v) = Some (io_decay v).
Hypothesis undec_dec : forall n, undec (dec n) = Some n.
Hypothesis rt_lookup_text : forall t, rt_lookup (rt_text t) = Some t.
Hypothesis two_colons : colons_before_desc_without_default cfg = 2%nat.
Hypothesis res_defined : res_block_if_defined cfg = true.

Local Notation kvline := (kvline vt).
Local Notation ioline := (ioline vt).
Local Notation item := (item vt).
Local Notation body := (body vt rt).
Local Notation kv_toks := (kv_toks vt vt_text vt_is_bool vt_is_flags dec cfg).
Local Notation kv_parse := (kv_parse tag_norm tags_valid vt vt_lookup vt_is_bool vt_is_flags vt_is_choices dec undec pow2).
Local Notation default_written := (default_written vt vt_is_bool cfg).
Local Notation yes_no := (yes_no vt vt_is_bool).
Local Notation item_toks := (item_toks vt vt_text vt_is_bool vt_is_flags io_text dec cfg).
Local Notation body_toks := (body_toks vt vt_text vt_is_bool vt_is_flags io_text dec cfg rt rt_text).
Local Notation body_parse := (body_parse tag_norm tags_valid vt vt_lookup vt_is_bool vt_is_flags vt_is_choices io_lookup dec undec pow2 rt rt_lookup).
Local Notation body_read := (body_read tag_norm tags_valid vt vt_lookup vt_is_bool vt_is_flags vt_is_choices io_lookup dec undec pow2 rt rt_lookup).
Local Notation tags_wf := (tags_wf tag_norm tags_valid).
Local Notation kv_norm := (kv_norm vt vt_is_bool cfg).

(** a keyvalue name must not be one of the words the entity loop treats specially *)
Definition not_kw (w : str) : Prop :=
  str_eqb (lower w) KW_INPUT = false /\ str_eqb (lower w) KW_OUTPUT = false /\ str_eqb (lower w) AT_RESOURCES = false.

Definition kv_item_wf (label : bool) (k : kvline) : Prop :=
  tags_wf (l_tags vt k) /\ not_kw (l_name vt k) /\
  match l_list vt k with
  | NoList => vt_is_flags (l_type vt k) = false /\ vt_is_choices (l_type vt k) = false /\ l_disp vt k <> []
              /\ yes_no (l_type vt k) (default_written k) = default_written k
  | Choices items => vt_is_flags (l_type vt k) = false /\ vt_is_choices (l_type vt k) = true /\ Forall (ciwf tag_norm tags_valid) items
              /\ l_disp vt k <> [] /\ yes_no (l_type vt k) (default_written k) = default_written k
  | Flags items => vt_is_flags (l_type vt k) = true /\ vt_is_choices (l_type vt k) = false
              /\ Forall (fiwf tag_norm tags_valid dec pow2 label) items /\ default_written k = [] /\ concat (l_desc vt k) = []
  end.
Definition kv_item_norm (custom : bool) (k : kvline) : kvline :=
  match l_list vt k with
  | NoList => kv_norm custom k NoList
  | Choices items => kv_norm custom k (Choices (map (cires custom) items))
  | Flags items => mk_kvl vt (l_name vt k) (seen_tags custom (l_tags vt k)) (l_type vt k) (l_ro vt k) (l_report vt k)
                          [l_name vt k] [] [[]] (Flags (map (fires custom) items))
  end.
(** after a value list the NEWLINE that ends the line is still in the stream *)
Definition kv_extra (k : kvline) : list tok := match l_list vt k with NoList => [] | _ => [TNl] end.

Lemma kv_item_read label custom k rest : kv_item_wf label k -> ends_line rest ->
  kv_parse (l_name vt k) (tl (kv_toks label custom k) ++ rest) = Some (kv_item_norm custom k, kv_extra k ++ rest).
Proof.
  intros [Ht [_ H]] He. unfold kv_item_norm, kv_extra. destruct (l_list vt k) as [|items|items] eqn:El.
  - destruct H as [Hf [Hc [Hd Hy]]]. apply kv_plain_roundtrip; assumption.
  - destruct H as [Hf [Hc [Hi [Hd Hs]]]]. apply kv_flags_roundtrip; assumption.
  - destruct H as [Hf [Hc [Hi [Hd Hy]]]]. apply kv_choices_roundtrip; assumption.
Qed.

Definition item_wf (label : bool) (it : item) : Prop :=
  match it with IKv _ k => kv_item_wf label k | IIn _ o | IOut _ o => tags_wf (o_tags vt o) end.
Definition io_norm (custom : bool) (o : ioline) : ioline :=
  mk_iol vt (o_name vt o) (seen_tags custom (o_tags vt o)) (io_decay (o_type vt o)) [concat (o_desc vt o)].
Definition add_item (custom : bool) (b : body) (it : item) : body :=
  match it with
  | IKv _ k => mk_body vt rt (b_kvs vt rt b ++ [kv_item_norm custom k]) (b_ins vt rt b) (b_outs vt rt b) (b_res vt rt b)
  | IIn _ o => mk_body vt rt (b_kvs vt rt b) (b_ins vt rt b ++ [io_norm custom o]) (b_outs vt rt b) (b_res vt rt b)
  | IOut _ o => mk_body vt rt (b_kvs vt rt b) (b_ins vt rt b) (b_outs vt rt b ++ [io_norm custom o]) (b_res vt rt b)
  end.
Definition item_extra (it : item) : list tok := match it with IKv _ k => kv_extra k | _ => [] end.

Lemma item_step label custom it f b rest : item_wf label it -> ends_line rest ->
  body_parse (S f) b (item_toks label custom it ++ rest) = body_parse f (add_item custom b it) (item_extra it ++ rest).
Proof.
  intros Hwf He. destruct it as [k|o|o]; cbn [FgdBody.item_toks item_extra add_item].
  - pose proof (kv_item_read label custom k rest Hwf He) as Hr. destruct Hwf as [_ [[K1 [K2 K3]] _]].
    rewrite (kv_toks_split vt vt_text vt_is_bool vt_is_flags dec cfg) in *.
    cbn [tl app] in *. cbn [FgdBody.body_parse]. rewrite K1, K2, K3, Hr. reflexivity.
  - cbn [app FgdBody.body_parse]. change (str_eqb (lower KW_INPUT) KW_INPUT) with true. cbn iota.
    rewrite (io_roundtrip _ _ _ _ _ io_decay io_lookup_text custom o rest Hwf He). reflexivity.
  - cbn [app FgdBody.body_parse]. change (str_eqb (lower KW_OUTPUT) KW_INPUT) with false.
    change (str_eqb (lower KW_OUTPUT) KW_OUTPUT) with true. cbn iota.
    rewrite (io_roundtrip _ _ _ _ _ io_decay io_lookup_text custom o rest Hwf He). reflexivity.
Qed.

Lemma item_extra_nl it : item_extra it = repeat TNl (length (item_extra it)).
Proof. destruct it as [k|o|o]; [unfold item_extra, kv_extra; destruct (l_list vt k)|..]; reflexivity. Qed.

Lemma body_skip_nl n : forall f b rest, body_parse (n + f) b (repeat TNl n ++ rest) = body_parse f b rest.
Proof. induction n as [|n IH]; intros f b rest; [reflexivity|]. cbn [repeat app Nat.add FgdBody.body_parse]. apply IH. Qed.

Lemma item_toks_len label custom it : (length (item_extra it) < length (item_toks label custom it))%nat.
Proof.
  destruct it as [k|o|o]; cbn [FgdBody.item_toks item_extra].
  - rewrite (kv_toks_split vt vt_text vt_is_bool vt_is_flags dec cfg).
    cbn [length]. rewrite !app_length. cbn [length]. unfold kv_extra. destruct (l_list vt k); cbn [length]; lia.
  - cbn [length]. lia.
  - cbn [length]. lia.
Qed.

(** what may follow a line: never a '+' *)
Definition line_start (rest : list tok) : Prop := match rest with TNl :: _ | TStr _ :: _ | TBrClose :: _ => True | _ => False end.
Lemma line_start_ends rest : line_start rest -> ends_line rest.
Proof. destruct rest as [|[]]; cbn; auto. Qed.
Lemma item_toks_start label custom it rest : line_start (item_toks label custom it ++ rest).
Proof.
  destruct it as [k|o|o]; cbn [FgdBody.item_toks]; [|exact I|exact I].
  rewrite (kv_toks_split vt vt_text vt_is_bool vt_is_flags dec cfg). exact I.
Qed.
Definition items_toks (label custom : bool) (items : list (nat * item)) : list tok :=
  concat (map (fun p => repeat TNl (fst p) ++ item_toks label custom (snd p)) items).
Lemma items_start label custom items rest : line_start rest -> line_start (items_toks label custom items ++ rest).
Proof.
  intros H. destruct items as [|[n it] items]; [exact H|]. unfold items_toks. cbn [map concat fst snd]. rewrite <- !app_assoc.
  destruct n; [apply item_toks_start|exact I].
Qed.

(** all lines of the body, in order; [f'] = the fuel left, still more than the tokens left *)
Lemma body_items label custom items : forall b f rest, Forall (item_wf label) (map snd items) -> line_start rest ->
  (length (items_toks label custom items ++ rest) < f)%nat ->
  exists f', (length rest < f')%nat /\
    body_parse f b (items_toks label custom items ++ rest) = body_parse f' (fold_left (add_item custom) (map snd items) b) rest.
Proof.
  induction items as [|[n it] items IH]; intros b f rest Hwf Hs Hf.
  - exists f. split; [exact Hf|reflexivity].
  - cbn [map snd] in Hwf. inversion Hwf as [|? ? Hit Hrest]; subst.
    unfold items_toks in *. cbn [map concat fst snd] in *. rewrite <- !app_assoc in *. fold (items_toks label custom items) in *.
    rewrite !app_length, repeat_length in Hf.
    pose proof (item_toks_len label custom it) as Hl.
    assert (Hs' : line_start (items_toks label custom items ++ rest)) by (apply items_start, Hs).
    destruct f as [|f]; [lia|].
    replace (S f) with (n + S (f - n))%nat by lia. rewrite body_skip_nl.
    rewrite (item_step label custom it (f - n) b _ Hit (line_start_ends _ Hs')).
    (* the NEWLINE left by a value list *)
    rewrite (item_extra_nl it).
    replace (f - n)%nat with (length (item_extra it) + (f - n - length (item_extra it)))%nat by lia. rewrite body_skip_nl.
    cbn [fold_left]. apply IH; [exact Hrest|exact Hs|rewrite app_length; lia].
Qed.

(** * The resources and the closing bracket *)
Local Notation res_parse := (res_parse tag_norm tags_valid rt rt_lookup).
Local Notation res_item_toks := (res_item_toks rt rt_text).
Local Notation riwf := (riwf tag_norm tags_valid rt).
Lemma res_parse_block l X : Forall riwf l ->
  res_parse [] (TNl :: TBrOpen :: TNl :: concat (map res_item_toks l) ++ TBrClose :: X) = Some (l, X).
Proof.
  intros Hwf. unfold FgdLine.res_parse. cbn [skip_nl].
  rewrite (res_skip_nl tag_norm tags_valid rt rt_lookup).
  rewrite (res_items tag_norm tags_valid cfg two_colons rt rt_text rt_lookup rt_lookup_text l [] _ X Hwf); [reflexivity|].
  cbn [length]. rewrite app_length. pose proof (res_items_len cfg two_colons rt rt_text l). cbn [length]. lia.
Qed.

Lemma fold_keeps_res custom its : forall b, b_res vt rt (fold_left (add_item custom) its b) = b_res vt rt b.
Proof. induction its as [|it its IH]; intros b; [reflexivity|]. cbn [fold_left]. rewrite IH. destruct it; reflexivity. Qed.

Lemma body_read_nl ts : body_read (TNl :: ts) = body_read ts.
Proof. reflexivity. Qed.

Definition with_res (b : body) (r : resources rt) : body := mk_body vt rt (b_kvs vt rt b) (b_ins vt rt b) (b_outs vt rt b) r.

(** The body of an entity: the keyvalue, input and output lines in the order written (blank / comment lines between
    them), the @resources block and the closing bracket are read back by the loop of EntityDef.parse as the same
    keyvalues, inputs, outputs (each in normal form: long strings joined, tags as read, I/O types decayed) in the same
    order, and the same resources (extended syntax; the plain syntax writes none). *)
Theorem body_roundtrip label custom items (res : resources rt) rest :
  Forall (item_wf label) (map snd items) -> match res with Some l => Forall riwf l | None => True end ->
  body_read (body_toks label custom items res ++ rest)
  = Some (with_res (fold_left (add_item custom) (map snd items) (mk_body vt rt [] [] [] None)) (if custom then res else None), rest).
Proof.
  intros Hwf Hres. unfold FgdBody.body_read, FgdBody.body_toks. fold (items_toks label custom items).
  rewrite <- !app_assoc. cbn [app].
  set (R := res_toks cfg rt rt_text custom res ++ TBrClose :: rest).
  assert (HR : line_start R).
  { unfold R, res_toks. destruct res as [l|]; [|exact I]. destruct (custom && (res_block_if_defined cfg || negb (nil_b l))); exact I. }
  destruct (body_items label custom items (mk_body vt rt [] [] [] None) (S (length (items_toks label custom items ++ R))) R Hwf HR ltac:(lia))
    as [f' [Hf' ->]].
  set (b1 := fold_left (add_item custom) (map snd items) (mk_body vt rt [] [] [] None)).
  assert (Hb1 : b_res vt rt b1 = None) by apply fold_keeps_res. clearbody b1.
  unfold R in *. unfold res_toks in *. destruct res as [l|].
  - rewrite res_defined in *. cbn [orb] in *. destruct custom; cbn [andb] in *.
    + cbn [app] in *. rewrite <- app_assoc in *. cbn [app length] in *.
      destruct f' as [|[|f']]; try lia. cbn [FgdBody.body_parse].
      change (str_eqb (lower AT_RESOURCES) KW_INPUT) with false. change (str_eqb (lower AT_RESOURCES) KW_OUTPUT) with false.
      change (str_eqb (lower AT_RESOURCES) AT_RESOURCES) with true. cbn iota. rewrite Hb1.
      rewrite (res_parse_block l _ Hres). cbn [b_kvs b_ins b_outs b_res].
      rewrite app_length in Hf'. cbn [length] in Hf'. destruct f' as [|[|f']]; try lia. cbn [FgdBody.body_parse].
      unfold with_res. reflexivity.
    + cbn [app length] in *. destruct f' as [|f']; [lia|]. cbn [FgdBody.body_parse]. unfold with_res.
      destruct b1 as [k1 i1 o1 r1]. cbn [b_kvs b_ins b_outs b_res] in *. subst r1. reflexivity.
  - cbn [app length] in *. destruct f' as [|f']; [lia|]. cbn [FgdBody.body_parse]. unfold with_res.
    destruct b1 as [k1 i1 o1 r1]. cbn [b_kvs b_ins b_outs b_res] in *. subst r1. destruct custom; reflexivity.
Qed.
End Proofs.
