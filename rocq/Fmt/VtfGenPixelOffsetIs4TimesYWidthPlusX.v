(** C15 — compiled by the check as the named obligation
    build:Fmt/VtfGenPixelOffsetIs4TimesYWidthPlusX.vo : the offset formulas that translate/c15_pixel.py reads from
    Frame.__getitem__ / Frame.__setitem__ (Gen/VtfLayout_gen.v) compute 4 * (y * width + x) for all arguments. *)
From Coq Require Import ZArith.
From SV Require Import Fmt.VtfLayout Gen.VtfLayout_gen Fmt.VtfGenProofs.
Open Scope Z_scope.

Lemma pixel_offsets_hold : pixel_offsets_spec.
Proof. split; intros; unfold getitem_off, setitem_off, pixel_off; ring. Qed.
