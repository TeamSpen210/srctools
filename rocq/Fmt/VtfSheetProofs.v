(** C15 — the particle-sheet resource: [read_sheet] reads back what [make_sheet] wrote (Fmt/VtfContainer.v),
    for both sheet versions, any number of sequences and frames. *)
From Coq Require Import ZArith List Bool Lia.
From SV Require Import Bin.Struct Fmt.VtfContainer Fmt.VtfContainerProofs Fmt.VtfWholeFile Fmt.VtfWholeFileProofs.
Import ListNotations.
Local Open Scope nat_scope.

Section Sheet.
Variable S : sfmts.
Hypothesis Wh : wf_fmt (s_head S) = true.
Hypothesis Wq : wf_fmt (s_seq S) = true.
Hypothesis Wd : wf_fmt (s_dur S) = true.
Hypothesis Wt : wf_fmt (s_tex S) = true.

Lemma read_tex_skipn : forall t tb rest file off, tex_fits S t = true -> pack_tex S t = Some tb ->
  skipn off file = tb ++ rest ->
  read_tex S file off = Some t /\ skipn (off + calcsize (s_tex S)) file = rest.
Proof.
  intros t tb rest file off Hf Hp Hs. destruct (read_at_skipn _ _ _ _ _ _ Wt Hf Hp Hs) as [R Hs']. split; [|exact Hs'].
  unfold read_tex. rewrite R. cbn [option_map]. rewrite map_map. cbn [getF]. apply f_equal, map_id.
Qed.

(** one frame: the reader's next offset is where the rest begins *)
Lemma frame_read_back : forall ver f fb rest file off, (ver = 0 \/ ver = 1)%Z -> frame_fits S ver f = true ->
  sheet_frame_bytes S ver f = Some fb -> skipn off file = fb ++ rest ->
  let off' := off + calcsize (s_dur S) + (if Z.eqb ver 0 then calcsize (s_tex S) else 4 * calcsize (s_tex S)) in
  skipn off' file = rest
  /\ forall k, read_frames S ver file off (Datatypes.S k)
               = match read_frames S ver file off' k with Some (r, o') => Some (canon_frame ver f :: r, o') | None => None end.
Proof.
  intros ver [dur cs] fb rest file off Hver [[Hfd Hft]%andb_prop Hlen]%andb_prop Hb Hs.
  apply opt_app_Some in Hb. destruct Hb as (db & tb & Ed & Et & ->). rewrite <- app_assoc in Hs.
  destruct (read_at_skipn _ _ _ _ _ _ Wd Hfd Ed Hs) as [Rd S0].
  unfold canon_frame. cbn [sf_coords sf_duration read_frames] in *. rewrite Rd.
  set (o := off + calcsize (s_dur S)) in *.
  destruct Hver as [-> | ->]; cbn [Z.eqb] in *.
  - (* version 0: one coordinate *)
    destruct cs as [|a cs]; [discriminate|]. cbn [firstn map forallb] in *.
    apply opt_concat_cons in Et. destruct Et as (ab & ? & Ea & [= <-] & ->). rewrite app_nil_r in S0.
    apply andb_prop in Hft. destruct Hft as [Ha _].
    destruct (read_tex_skipn a ab _ _ _ Ha Ea S0) as [Ra S1]. rewrite Ra. auto.
  - (* version 1: four coordinates *)
    destruct cs as [|a [|b [|c [|d [|e cs]]]]]; try discriminate. cbn [map forallb] in *.
    apply opt_concat_cons in Et. destruct Et as (ab & ? & Ea & Et & ->).
    apply opt_concat_cons in Et. destruct Et as (bb & ? & Eb & Et & ->).
    apply opt_concat_cons in Et. destruct Et as (cb & ? & Ec & Et & ->).
    apply opt_concat_cons in Et. destruct Et as (dd & ? & Edd & [= <-] & ->).
    rewrite app_nil_r, <- !app_assoc in S0.
    apply andb_prop in Hft. destruct Hft as [Ha [Hb [Hc [Hd _]%andb_prop]%andb_prop]%andb_prop].
    destruct (read_tex_skipn a ab _ _ _ Ha Ea S0) as [Ra S1].
    destruct (read_tex_skipn b bb _ _ _ Hb Eb S1) as [Rb S2]. replace (o + _ + _) with (o + 2 * calcsize (s_tex S)) in S2 by lia.
    destruct (read_tex_skipn c cb _ _ _ Hc Ec S2) as [Rc S3]. replace (o + _ + _) with (o + 3 * calcsize (s_tex S)) in S3 by lia.
    destruct (read_tex_skipn d dd _ _ _ Hd Edd S3) as [Rd' S4]. replace (o + _ + _) with (o + 4 * calcsize (s_tex S)) in S4 by lia.
    rewrite Ra, Rb, Rc, Rd'. auto.
Qed.

(** the frames of one sequence *)
Lemma frames_read_back_sheet : forall ver, (ver = 0 \/ ver = 1)%Z -> forall fs fb rest file off,
  forallb (frame_fits S ver) fs = true -> opt_concat (map (sheet_frame_bytes S ver) fs) = Some fb ->
  skipn off file = fb ++ rest ->
  exists off', read_frames S ver file off (List.length fs) = Some (map (canon_frame ver) fs, off') /\ skipn off' file = rest.
Proof.
  intros ver Hver fs. induction fs as [|f fs IH]; intros fb rest file off Hf Hb Hs.
  - cbn in Hb. injection Hb as <-. exists off. split; [reflexivity|exact Hs].
  - apply opt_concat_cons in Hb. destruct Hb as (b1 & b2 & E1 & E2 & ->). rewrite <- app_assoc in Hs.
    cbn [forallb] in Hf. apply andb_prop in Hf. destruct Hf as [Hf1 Hf2].
    destruct (frame_read_back ver f b1 _ file off Hver Hf1 E1 Hs) as [Hs' R].
    destruct (IH b2 rest file _ Hf2 E2 Hs') as (off' & R' & Hs'').
    exists off'. cbn [List.length map]. rewrite R, R'. auto.
Qed.

Lemma canon_nums : forall ver qs n, existsb (fun q => Z.eqb (sq_num q) n) (map (canon_seq ver) qs) = existsb (fun q => Z.eqb (sq_num q) n) qs.
Proof. intros ver qs n. induction qs as [|q qs IH]; [reflexivity|]. cbn [map existsb canon_seq sq_num]. rewrite IH. reflexivity. Qed.

(** the sequences *)
Lemma seqs_read_back : forall ver, (ver = 0 \/ ver = 1)%Z -> forall qs qb rest file off,
  forallb (seq_fits S ver) qs = true -> nums_distinct qs = true -> opt_concat (map (sheet_seq_bytes S ver) qs) = Some qb ->
  skipn off file = qb ++ rest ->
  read_seqs S ver file off (List.length qs) = Some (map (canon_seq ver) qs).
Proof.
  intros ver Hver qs. induction qs as [|q qs IH]; intros qb rest file off Hf Hd Hb Hs; [reflexivity|].
  apply opt_concat_cons in Hb. destruct Hb as (b1 & b2 & E1 & E2 & ->).
  cbn [forallb nums_distinct] in Hf, Hd. apply andb_prop in Hf, Hd.
  destruct Hf as [[[[Hfq Hlo]%andb_prop Hhi]%andb_prop Hff]%andb_prop Hf2], Hd as [Hd1%negb_true_iff Hd2].
  apply opt_app_Some in E1. destruct E1 as (hb & fb & Eh & Ef & ->). rewrite <- !app_assoc in Hs.
  destruct (read_at_skipn _ _ _ _ _ _ Wq Hfq Eh Hs) as [R Hs1].
  destruct (frames_read_back_sheet ver Hver (sq_frames q) fb _ file _ Hff Ef Hs1) as (off' & Rf & Hs2).
  cbn [List.length read_seqs]. rewrite R. cbv beta iota. rewrite Hlo, Hhi. cbn [andb negb].
  rewrite Nat2Z.id, Rf, (IH b2 rest file off' Hf2 Hd2 E2 Hs2), canon_nums, Hd1. reflexivity.
Qed.

(** The particle sheet: [read_sheet (make_sheet ver qs)] is [qs] - sequence numbers, clamp flags, total times, frame
    durations and texture coordinates as 32-bit patterns, in order; version 0 stores only the first coordinate of a
    frame and the reader repeats it four times ([canon_seq]). *)
Theorem sheet_roundtrip : forall ver qs bs, sheet_fits S ver qs = true -> make_sheet S ver qs = Some bs ->
  read_sheet S bs = Some (ver, map (canon_seq ver) qs).
Proof.
  intros ver qs bs HF Hm. apply andb_prop in HF.
  destruct HF as [[[[Hv Hfh]%andb_prop Hn%Nat.leb_le]%andb_prop Hfq]%andb_prop Hd].
  assert (Hver : (ver = 0 \/ ver = 1)%Z) by (apply orb_prop in Hv; destruct Hv as [E|E]; apply Z.eqb_eq in E; auto).
  unfold make_sheet in Hm. replace (1 <? ver)%Z with false in Hm by (symmetry; apply Z.ltb_ge; lia).
  apply opt_app_Some in Hm. destruct Hm as (hb & qb & Eh & Eq & ->). rewrite <- (app_nil_r qb).
  destruct (read_at_skipn _ _ _ _ (hb ++ qb ++ []) 0 Wh Hfh Eh eq_refl) as [R Hs]. cbn [Nat.add] in Hs.
  unfold read_sheet. rewrite R.
  replace (1 <? ver)%Z with false by (symmetry; apply Z.ltb_ge; lia).
  replace (64 <? Z.of_nat (List.length qs))%Z with false by (symmetry; apply Z.ltb_ge; lia).
  cbn [orb]. rewrite Nat2Z.id, (seqs_read_back ver Hver qs qb [] _ _ Hfq Hd Eq Hs). reflexivity.
Qed.
End Sheet.

Example sheet_inhabited :
  sfmts_wf std_sfmts = true /\ sheet_fits std_sfmts 1 ex_sheet = true /\ sheet_fits std_sfmts 0 ex_sheet = true
  /\ option_map (read_sheet std_sfmts) (make_sheet std_sfmts 1 ex_sheet) = Some (Some (1%Z, ex_sheet))
  /\ option_map (read_sheet std_sfmts) (make_sheet std_sfmts 0 ex_sheet) = Some (Some (0%Z, map (canon_seq 0) ex_sheet))
  /\ map (canon_seq 0) ex_sheet <> ex_sheet.
Proof. vm_compute. repeat split; try reflexivity. discriminate. Qed.
