(** C15 — proofs about the VTF container model (Fmt/VtfContainer.v). *)
From Coq Require Import ZArith List Bool Lia.
From SV Require Import Bin.Struct Bin.StructProofs Fmt.VtfContainer.
Import ListNotations.
Local Open Scope nat_scope.

Lemma kind_eqb_eq : forall a b, kind_eqb a b = true -> a = b.
Proof.
  destruct a, b; cbn; intros H; try discriminate; try reflexivity.
  - apply andb_prop in H. destruct H as [H1 H2]. apply eqb_prop in H1. apply Nat.eqb_eq in H2. congruence.
  - apply Nat.eqb_eq in H. congruence.
Qed.
Lemma fmt_eqb_eq' : forall a b, fmt_eqb a b = true -> a = b.
Proof.
  induction a as [|x a IH]; destruct b as [|y b]; cbn; intros H; try discriminate; [reflexivity|].
  apply andb_prop in H. destruct H as [H1 H2]. apply kind_eqb_eq in H1. apply IH in H2. congruence.
Qed.
Lemma strs_eqb_eq : forall a b, strs_eqb a b = true -> a = b.
Proof.
  induction a as [|x a IH]; destruct b as [|y b]; cbn; intros H; try discriminate; [reflexivity|].
  apply andb_prop in H. destruct H as [H1 H2]. apply String.eqb_eq in H1. apply IH in H2. congruence.
Qed.

(** One pack/unpack site that passes [site_ok]: every tuple of values that fits the format is written as exactly
    [calcsize] bytes, the reader (which asks for that many bytes) gets the same values back, and it binds them to the
    same field names in the same order. *)
Theorem site_roundtrip : forall s, site_ok s = true ->
  forall vals, fits (fmt_of (w_fmt s)) vals = true ->
  exists bs, pack (fmt_of (w_fmt s)) vals = Some bs
             /\ List.length bs = calcsize (fmt_of (r_fmt s))
             /\ unpack (fmt_of (r_fmt s)) bs = Some vals
             /\ combine (r_fields s) vals = combine (w_fields s) vals
             /\ (r_len s = (-1)%Z \/ r_len s = Z.of_nat (List.length bs)).
Proof.
  intros s H vals Hf. unfold site_ok in H.
  repeat (apply andb_prop in H; destruct H as [H ?]).
  apply fmt_eqb_eq' in H5. apply strs_eqb_eq in H3.
  destruct (unpack_pack _ _ H4 Hf) as (bs & Hp & Hu).
  exists bs. rewrite <- H5. repeat split; auto.
  - apply (pack_length _ _ _ Hp).
  - rewrite H3. reflexivity.
  - apply orb_prop in H0. destruct H0 as [E | E]; apply Z.eqb_eq in E; [left; exact E|right].
    rewrite E, <- H5, (pack_length _ _ _ Hp). reflexivity.
Qed.

Lemma firstn_length_app : forall (b r : list N), firstn (List.length b) (b ++ r) = b.
Proof. induction b as [|x b IH]; intros r; cbn; [reflexivity|]. f_equal. apply IH. Qed.
Lemma skipn_length_app : forall (b r : list N), skipn (List.length b) (b ++ r) = r.
Proof. induction b as [|x b IH]; intros r; cbn; auto. Qed.
Lemma skipn_add : forall a b (l : list N), skipn (a + b) l = skipn b (skipn a l).
Proof. induction a as [|a IH]; intros b [|x l]; cbn [skipn Nat.add]; auto. destruct b; reflexivity. Qed.

Lemma slice_app : forall (pre b post : list N), slice (pre ++ b ++ post) (List.length pre) (List.length b) = b.
Proof. intros. unfold slice. rewrite skipn_length_app. apply firstn_length_app. Qed.

(** The reader walks the file with a cursor: where the bytes of a packed record begin, [read_at] returns its values,
    and behind it ([off + calcsize f], as the reader computes the next offset) begins whatever followed the record. *)
Lemma read_at_skipn : forall f vals bs rest file off, wf_fmt f = true -> fits f vals = true -> pack f vals = Some bs ->
  skipn off file = bs ++ rest ->
  read_at f file off = Some vals /\ skipn (off + calcsize f) file = rest.
Proof.
  intros f vals bs rest file off Hw Hf Hp Hs. destruct (unpack_pack _ _ Hw Hf) as (bs' & Hp' & Hu).
  rewrite Hp in Hp'. injection Hp' as <-. unfold read_at, slice.
  rewrite <- (pack_length _ _ _ Hp), skipn_add, Hs, firstn_length_app, skipn_length_app. auto.
Qed.

(** Blocks laid out one after the other behind a prefix are found again at the running offsets - whatever follows.
    This is what the resource directory (offsets of the data blocks), the thumbnail and the frames rely on: the reader
    computes / is told the same offsets and reads the same number of bytes. *)
Theorem blocks_at_offsets : forall (blocks : list (list N)) (pre post : list N),
  Forall2 (fun off b => slice (pre ++ List.concat blocks ++ post) off (List.length b) = b)
          (offsets (List.length pre) (map (@List.length N) blocks)) blocks.
Proof.
  induction blocks as [|b r IH]; intros pre post; cbn [offsets map List.concat]; constructor.
  - rewrite <- app_assoc. apply slice_app.
  - specialize (IH (pre ++ b) post). rewrite app_length in IH.
    rewrite <- !app_assoc in IH. rewrite <- app_assoc. exact IH.
Qed.

(** The frames: [VTF.read] hands frame k the offset [high_off + sum of the sizes of the frames before it] and its size;
    [VTF.save] wrote the frames in the same order with the same sizes: every frame gets back exactly its own bytes. *)
Corollary frames_read_back : forall (frames : list (list N)) (pre : list N),
  Forall2 (fun off f => slice (pre ++ List.concat frames) off (List.length f) = f)
          (offsets (List.length pre) (map (@List.length N) frames)) frames.
Proof. intros. rewrite <- (app_nil_r (List.concat frames)). apply blocks_at_offsets. Qed.

(** A data block [length (4 bytes)] ++ [data] at offset [off] is read back by [read_block]. *)
Theorem block_read_back : forall F (d pre post blk : list N),
  wf_fmt (f_len F) = true -> fits (f_len F) [VInt (Z.of_nat (List.length d))] = true ->
  block F d = Some blk ->
  read_block F (pre ++ blk ++ post) (List.length pre) = Some d.
Proof.
  intros F d pre post blk Hw Hf Hb. unfold block in Hb.
  destruct (unpack_pack _ _ Hw Hf) as (lb & Hp & _). rewrite Hp in Hb. injection Hb as <-.
  destruct (read_at_skipn _ _ lb (d ++ post) (pre ++ (lb ++ d) ++ post) (List.length pre) Hw Hf Hp) as [R S].
  { rewrite skipn_length_app, <- app_assoc. reflexivity. }
  unfold read_block, slice. rewrite R, Nat2Z.id, S, firstn_length_app. reflexivity.
Qed.

(** A texture coordinate and a frame duration of the particle sheet: 32-bit patterns in, same patterns out. *)
Theorem tex_roundtrip : forall S t, wf_fmt (s_tex S) = true -> fits (s_tex S) (map VFloat t) = true ->
  forall pre post, exists bs, pack_tex S t = Some bs /\ read_tex S (pre ++ bs ++ post) (List.length pre) = Some t.
Proof.
  intros S t Hw Hf pre post. destruct (unpack_pack _ _ Hw Hf) as (bs & Hp & Hu).
  exists bs. split; [exact Hp|]. unfold read_tex, read_at. rewrite <- (pack_length _ _ _ Hp), slice_app, Hu.
  cbn [option_map]. rewrite map_map. cbn [getF]. rewrite map_id. reflexivity.
Qed.

(** ** Resource flags: the three places where bit 0x02 is handled agree.
    For a configuration that passes [flags_ok] (complete enumeration of the one-byte field): an out-of-line resource is
    stored with exactly bit 2 cleared, an inline one with exactly bit 2 set, all other bits as given; the reader's test
    sends the first to its data block and takes the second as the value; the normalised flags are stable (saving what
    was read stores the same byte). *)
Lemma in_all_bytes : forall f, (0 <= f < 256)%Z -> In f all_bytes.
Proof.
  intros f H. unfold all_bytes. apply in_map_iff. exists (Z.to_nat f). split; [lia|].
  apply in_seq. lia.
Qed.

(** [clear2] and [set2] touch bit 1 only: bit by bit, and what that means for bytes *)
Lemma testbit_2 : forall i, Z.testbit 2 i = (i =? 1)%Z.
Proof. intros i. change 2%Z with (2 ^ 1)%Z. rewrite Z.pow2_bits_eqb by lia. apply Z.eqb_sym. Qed.

Lemma byte_log2 : forall x, (0 <= x)%Z -> (x < 256 <-> Z.log2 x < 8)%Z.
Proof. intros x Hx. destruct (Z.eq_dec x 0) as [->|Hn]; [cbn; lia|]. apply (Z.log2_lt_pow2 x 8). lia. Qed.

Lemma clear_set_facts : forall f, (0 <= f < 256)%Z ->
  (0 <= clear2 f < 256)%Z /\ (0 <= set2 f < 256)%Z
  /\ Z.land (clear2 f) 2 = 0%Z /\ Z.land (set2 f) 2 = 2%Z
  /\ clear2 (clear2 f) = clear2 f /\ set2 (set2 f) = set2 f.
Proof.
  intros f [H0 H8]. apply (byte_log2 f H0) in H8. unfold clear2, set2.
  assert (Hc : (0 <= Z.land f (Z.lnot 2))%Z) by (apply Z.land_nonneg; auto).
  assert (Hs : (0 <= Z.lor f 2)%Z) by (apply Z.lor_nonneg; lia).
  repeat split; try assumption.
  - (* a set bit at or above 8 would be a bit of f *)
    apply Z.lt_nge. intros H. assert (H' : (8 <= Z.log2 (Z.land f (Z.lnot 2)))%Z) by (apply Z.log2_le_pow2; lia).
    pose proof (Z.bit_log2 (Z.land f (Z.lnot 2)) ltac:(lia)) as B.
    rewrite Z.land_spec, (Z.bits_above_log2 f) in B by lia. discriminate.
  - apply (byte_log2 _ Hs). rewrite Z.log2_lor by lia. change (Z.log2 2) with 1%Z. lia.
  - apply Z.bits_inj'. intros i Hi. rewrite !Z.land_spec, Z.lnot_spec, testbit_2, Z.bits_0 by exact Hi.
    destruct (Z.testbit f i), (i =? 1)%Z; reflexivity.
  - apply Z.bits_inj'. intros i Hi. rewrite Z.land_spec, Z.lor_spec, testbit_2.
    destruct (Z.testbit f i), (i =? 1)%Z; reflexivity.
  - rewrite <- Z.land_assoc, Z.land_diag. reflexivity.
  - rewrite <- Z.lor_assoc, Z.lor_diag. reflexivity.
Qed.

(** what [flags_ok] says of one byte *)
Lemma flags_ok_at : forall c, flags_ok c = true -> forall f, (0 <= f < 256)%Z ->
  fl_eval (fl_offset c) f = clear2 f /\ fl_eval (fl_inline c) f = set2 f
  /\ ft_eval (fl_test c) f = (Z.land f 2 =? 0)%Z.
Proof.
  intros c [[[Ho Hi]%andb_prop Ht]%andb_prop _]%andb_prop f Hf. apply in_all_bytes in Hf.
  unfold offset_flags_ok in Ho. unfold inline_flags_ok in Hi. unfold read_test_ok in Ht.
  rewrite forallb_forall in Ho, Hi, Ht.
  split; [apply Z.eqb_eq, Ho, Hf|]. split; [apply Z.eqb_eq, Hi, Hf|apply eqb_prop, Ht, Hf].
Qed.

Theorem flags_roundtrip : forall c, flags_ok c = true -> forall f, (0 <= f < 256)%Z ->
  fl_eval (fl_offset c) f = clear2 f /\ fl_eval (fl_inline c) f = set2 f
  /\ ft_eval (fl_test c) (fl_eval (fl_offset c) f) = true /\ ft_eval (fl_test c) (fl_eval (fl_inline c) f) = false
  /\ (0 <= clear2 f < 256)%Z /\ (0 <= set2 f < 256)%Z
  /\ fl_eval (fl_offset c) (clear2 f) = clear2 f /\ fl_eval (fl_inline c) (set2 f) = set2 f.
Proof.
  intros c H f Hf. destruct (clear_set_facts f Hf) as (Hc & Hs & A5 & A6 & A7 & A8).
  destruct (flags_ok_at c H f Hf) as (Ho & Hi & _), (flags_ok_at c H _ Hc) as (Hoc & _ & Tc),
    (flags_ok_at c H _ Hs) as (_ & His & Ts).
  rewrite Ho, Hi, Tc, Ts, Hoc, His, A5, A6, A7, A8. repeat split; solve [reflexivity | apply Hc | apply Hs].
Qed.

Example flags_ok_inhabited : flags_ok good_flagcfg = true.
Proof. vm_compute. reflexivity. Qed.
