(** C06 — proofs about the field-level glue models (Fmt/VmfFields.v). *)
From Coq Require Import NArith List Bool Lia ZifyBool.
From SV Require Import Fmt.VmfText Fmt.VmfTextProofs Fmt.VmfFields.
Import ListNotations.
Open Scope N_scope.

(** * Row keys *)
Lemma in_nrange n : forall y, In y (nrange n) <-> y < N.of_nat n.
Proof.
  induction n as [|n IH]; intros y; cbn [nrange].
  - cbn. lia.
  - rewrite in_app_iff, IH. cbn [In]. lia.
Qed.

Definition ROW : list N := [114; 111; 119].
(** the reader of the repaired tree: startswith('row'), int(name[3:]) *)
Definition pinned_rowreader : rowreader := mk_rowreader ROW 3 1 None None.
Theorem pinned_rowreader_ok : rows_recognised pinned_rowreader ROW 17 = true.
Proof. vm_compute. reflexivity. Qed.
(** a reader that accepts a single digit only cannot see row10..row16 of a power-4 displacement *)
Definition one_digit_rowreader : rowreader := mk_rowreader ROW 3 1 (Some 1%nat) None.

(** a reader that looks keys up in a table of 2**4 names does not know row16, the last row of a power-4 displacement
    (17 rows); powers 1..3 (3, 5, 9 rows) are unaffected *)
Definition table16_rowreader : rowreader := mk_rowreader ROW 3 1 None (Some 16).

(** * split / join *)
Lemma split_nonempty c s : split_on c s <> [].
Proof.
  induction s as [|x r IH]; cbn [split_on]; [discriminate|].
  destruct (x =? c); [discriminate|]. destruct (split_on c r); discriminate.
Qed.

Lemma split_nohas c s : has c s = false -> split_on c s = [s].
Proof.
  induction s as [|x r IH]; intros H; [reflexivity|].
  cbn [has existsb] in H. apply orb_false_iff in H as [Hx Hr]. cbn [split_on].
  rewrite N.eqb_sym, Hx. unfold has in IH. now rewrite (IH Hr).
Qed.

Lemma split_app c a b : split_on c (a ++ c :: b) = split_on c a ++ split_on c b.
Proof.
  induction a as [|x a IH]; cbn [app split_on].
  - now rewrite N.eqb_refl.
  - destruct (x =? c); [now rewrite IH|]. rewrite IH.
    destruct (split_on c a) as [|h t] eqn:E; [now apply split_nonempty in E|]. reflexivity.
Qed.

(** a field free of the separator is split off whole *)
Lemma split_field c a b : has c a = false -> split_on c (a ++ c :: b) = a :: split_on c b.
Proof. intros H. now rewrite split_app, (split_nohas c a H). Qed.

Lemma join_split c s : join c (split_on c s) = s.
Proof.
  induction s as [|x r IH]; [reflexivity|]. cbn [split_on].
  destruct (x =? c) eqn:E.
  - apply N.eqb_eq in E. subst. destruct (split_on c r) as [|h t] eqn:E2; [now apply split_nonempty in E2|].
    cbn [join app]. cbn [join] in IH. now rewrite IH.
  - destruct (split_on c r) as [|h t] eqn:E2; [now apply split_nonempty in E2|].
    destruct t as [|h2 t2]; cbn [join app] in *; now rewrite <- IH.
Qed.

Lemma has_app c a b : has c (a ++ b) = has c a || has c b.
Proof. apply existsb_app. Qed.

(** * Output values *)
Theorem out_roundtrip o : outv_ok o = true -> out_parse (out_join o) = Some o.
Proof.
  destruct o as [t i p d ti comma]. unfold outv_ok. cbn [ov_target ov_input ov_params ov_delay ov_times ov_comma].
  intros H. apply andb_true_iff in H as [H Hc].
  repeat (apply andb_true_iff in H as [H ?]).
  repeat match goal with Hx : negb _ = true |- _ => apply negb_true_iff in Hx end.
  unfold out_join, out_parse. cbn [ov_target ov_input ov_params ov_delay ov_times ov_comma join].
  destruct comma.
  - cbn [negb orb] in Hc. repeat (apply andb_true_iff in Hc as [Hc ?]).
    repeat match goal with Hx : negb _ = true |- _ => apply negb_true_iff in Hx end.
    assert (Hesc : has ESC (t ++ COMMA :: i ++ COMMA :: p ++ COMMA :: d ++ COMMA :: ti) = false).
    { unfold has in *. repeat (rewrite existsb_app; cbn [existsb]).
      repeat match goal with Hx : existsb _ _ = false |- _ => rewrite Hx end. reflexivity. }
    rewrite Hesc, (split_field COMMA t), (split_field COMMA i), (split_app COMMA p), (split_field COMMA d),
      (split_nohas COMMA ti) by assumption.
    cbn [app]. rewrite rev_app_distr. cbn [rev app].
    destruct (rev (split_on COMMA p)) as [|x xs] eqn:E.
    + apply (f_equal (@List.length _)) in E. rewrite rev_length in E.
      destruct (split_on COMMA p) eqn:E2; [now apply split_nonempty in E2|discriminate].
    + rewrite <- E, rev_involutive, join_split. reflexivity.
  - assert (Hesc : has ESC (t ++ ESC :: i ++ ESC :: p ++ ESC :: d ++ ESC :: ti) = true).
    { rewrite has_app. cbn [has existsb]. rewrite N.eqb_refl. now rewrite orb_true_r. }
    now rewrite Hesc, !split_field, (split_nohas ESC ti) by assumption.
Qed.

(** Extra commas in the parameter of a comma-form output survive. *)
Example out_comma_params_example :
  let o := mk_outv [97] [105] [120; 44; 121; 44; 44] [48] [45; 49] true in
  outv_ok o = true /\ out_parse (out_join o) = Some o.
Proof. vm_compute. split; reflexivity. Qed.

(** * instance:name;command *)
Lemma split1_app c a b : has c a = false -> split1 c (a ++ c :: b) = Some (a, b).
Proof.
  induction a as [|x a IH]; intros H; cbn [app split1].
  - now rewrite N.eqb_refl.
  - cbn [has existsb] in H. apply orb_false_iff in H as [Hx Ha]. rewrite N.eqb_sym, Hx.
    unfold has in IH. now rewrite (IH Ha).
Qed.

Section Names.
  Variable is_inst : list N -> bool.
  Hypothesis is_inst_prefix : forall x, is_inst (inst_prefix ++ x) = true.

  Theorem name_roundtrip_instance i cmd : i <> [] -> has SEMI i = false ->
    parse_name is_inst (exp_name (Some i) cmd) = Some (Some i, cmd).
  Proof.
    intros Hi Hs. destruct i as [|c i]; [congruence|]. unfold exp_name, parse_name.
    rewrite is_inst_prefix. rewrite app_assoc, split1_app.
    - now rewrite skipn_app, (skipn_all2 inst_prefix) by (cbn; lia).
    - rewrite has_app, Hs. reflexivity.
  Qed.

  (** an empty instance name is written like no instance name (normalisation accepted by the comparison) *)
  Theorem name_empty_instance cmd : exp_name (Some []) cmd = exp_name None cmd.
  Proof. reflexivity. Qed.
End Names.

(** * Fixups *)
(** the index is read from the last two characters of the key, which "replace" in front does not change *)
Lemma last_n_app r a b : (r <= List.length b)%nat -> last_n r (a ++ b) = last_n r b.
Proof.
  intros H. unfold last_n. rewrite app_length, skipn_app, (skipn_all2 a) by lia.
  cbn [app]. f_equal. lia.
Qed.

Lemma index_roundtrip_eq w r n : index_roundtrip w r n = true -> parse_digits (last_n r (fmt_index w n)) = n.
Proof. apply N.eqb_eq. Qed.

Lemma replace_index_1_99 : forall n, 1 <= n <= 99 -> parse_digits (last_n 2 (REPLACE ++ fmt_index 2 n)) = n.
Proof.
  intros n Hn. rewrite last_n_app.
  - exact (index_roundtrip_eq 2 2 n (fixup_index_roundtrip_1_99 n Hn)).
  - unfold fmt_index, pad0. rewrite app_length, repeat_length. apply PeanoNat.Nat.sub_add_le.
Qed.

Theorem fixup_line_roundtrip f : fixup_ok f = true -> parse_fixup_line 2 (fixup_line 2 f) = f.
Proof.
  destruct f as [[var val] id]. unfold fixup_ok, fixup_line, parse_fixup_line. cbn [fx_id fx_var fx_val fst snd].
  intros H. repeat (apply andb_true_iff in H as [H ?]).
  rewrite replace_index_1_99 by lia.
  change (DOLLAR :: var ++ VmfText.SP :: val) with ((DOLLAR :: var) ++ VmfText.SP :: val).
  rewrite split1_app.
  - destruct var as [|c var]; [discriminate|]. cbn [lstrip]. rewrite N.eqb_refl. cbn [lstrip].
    match goal with Hx : negb (c =? DOLLAR) = true |- _ => apply negb_true_iff in Hx; rewrite Hx end. reflexivity.
  - cbn [has existsb]. match goal with Hx : negb (has _ var) = true |- _ => apply negb_true_iff in Hx; unfold has in Hx; rewrite Hx end.
    reflexivity.
Qed.

Section Fix.
  Variable same_var : list N -> list N -> bool.

  Lemma put_fresh k f : forallb (fun g => negb (same_var (fx_var g) (fx_var f))) k = true -> put same_var k f = k ++ [f].
  Proof.
    induction k as [|g k IH]; intros H; [reflexivity|]. cbn [forallb] in H. apply andb_true_iff in H as [Hg Hk].
    apply negb_true_iff in Hg. cbn [put app]. now rewrite Hg, (IH Hk).
  Qed.

  Lemma init_fold : forall rest used k,
    nodup_ids used rest = true -> forallb (fun f => 0 <? fx_id f) rest = true -> vars_fresh same_var k rest = true ->
    exists used', fold_left (init_step same_var) rest (used, k, []) = (used', k ++ rest, []).
  Proof.
    induction rest as [|f r IH]; intros used k Hn Hp Hv.
    - exists used. now rewrite app_nil_r.
    - cbn [nodup_ids forallb vars_fresh] in *. apply andb_true_iff in Hn as [Hf Hr]. apply andb_true_iff in Hp as [Hp Hpr].
      apply andb_true_iff in Hv as [Hv Hvr]. cbn [fold_left init_step]. rewrite Hp, Hf. cbn [andb].
      rewrite (put_fresh k f Hv). destruct (IH (fx_id f :: used) (k ++ [f]) Hr Hpr Hvr) as [u Hu].
      exists u. rewrite Hu. now rewrite <- app_assoc.
  Qed.

  (** distinct positive indexes of distinctly named variables are kept as they are *)
  Theorem fix_init_keeps l : nodup_ids [] l = true -> forallb (fun f => 0 <? fx_id f) l = true ->
    vars_fresh same_var [] l = true -> fix_init same_var l = l.
  Proof.
    intros Hn Hp Hv. unfold fix_init. destruct (init_fold l [] [] Hn Hp Hv) as [u Hu]. now rewrite Hu.
  Qed.

  (** export then parse of up to 99 fixups with distinct indexes 1..99 and distinct names: same variables, values and
      indexes *)
  Theorem fixups_roundtrip l : fixups_ok l = true -> vars_fresh same_var [] l = true ->
    fix_init same_var (map (parse_fixup_line 2) (map (fixup_line 2) l)) = l.
  Proof.
    intros H Hv. unfold fixups_ok in H. apply andb_true_iff in H as [Hok Hn].
    assert (E : map (parse_fixup_line 2) (map (fixup_line 2) l) = l).
    { rewrite map_map. rewrite <- (map_id l) at 2. apply map_ext_in. intros f Hf.
      rewrite forallb_forall in Hok. now apply fixup_line_roundtrip, Hok. }
    rewrite E. apply fix_init_keeps; [exact Hn| |exact Hv].
    rewrite forallb_forall in *. intros f Hf. specialize (Hok f Hf). unfold fixup_ok in Hok.
    repeat (apply andb_true_iff in Hok as [Hok ?]). lia.
  Qed.
End Fix.

(** a duplicated index is re-assigned the lowest unused one (so the parsed map has distinct indexes again) *)
Example fix_init_duplicate_example :
  fix_init (fun a b => nlist_eqb a b) [([97], [49], 1); ([98], [50], 1); ([99], [51], 0)]
  = [([97], [49], 1); ([98], [50], 2); ([99], [51], 3)].
Proof. vm_compute. reflexivity. Qed.
