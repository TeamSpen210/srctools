(* SndStacksProofs.v -- lemmas about Fmt/SndStacks.v: for every census satisfying [guard_okb] / [blocks_okb],
   what Sound.export writes about the operator stacks is a function of the VALUE of the sound only (not of which
   lazy properties were read before, not of an earlier export of the same object), the reader gives the value
   back, and the second generation is identical.  Refuted variants: a presence (`is not None`) test in the guard,
   a guard that forgets a stack. *)
From Coq Require Import List Bool.
From SV Require Import Fmt.SndStacks.
Import ListNotations.

Lemma stk_eqb_refl : forall s, stk_eqb s s = true.
Proof. destruct s; reflexivity. Qed.
Lemma stk_eqb_eq : forall a b, stk_eqb a b = true <-> a = b.
Proof. destruct a, b; simpl; split; intro H; try reflexivity; try discriminate. Qed.

Section Proofs.
Variable A : Type.
Notation snd_t := (sound A).

(** same force flag, same children everywhere: finer than [same_value] *)
Definition eqv (x y : snd_t) : Prop := force x = force y /\ forall s, content x s = content y s.

Lemma eqv_refl : forall x, eqv x x.
Proof. split; auto. Qed.
Lemma eqv_trans : forall x y z, eqv x y -> eqv y z -> eqv x z.
Proof. intros x y z [a b] [c d]. split; [congruence | intro s; rewrite b; apply d]. Qed.

Lemma touch_eqv : forall s x, eqv (touch s x) x.
Proof.
  intros s [f a b c]. unfold touch, eqv, content, get, set.
  destruct s; simpl; [destruct a | destruct b | destruct c]; simpl; split; auto; intros []; reflexivity.
Qed.
Lemma look_eqv : forall p s x, eqv (look p s x) x.
Proof. intros [] s x; simpl; [apply touch_eqv | apply eqv_refl]. Qed.
Lemma touches_eqv : forall ts x, eqv (touches ts x) x.
Proof.
  unfold touches. induction ts as [|s r IH]; intro x; simpl; [apply eqv_refl|].
  eapply eqv_trans; [apply IH | apply touch_eqv].
Qed.

Lemma eqv_same_value : forall x y, eqv x y -> same_value x y.
Proof.
  intros x y [a b]. split; [|exact b]. unfold is_v2. rewrite a. f_equal.
  unfold all_stk; simpl. rewrite !b. reflexivity.
Qed.

(** the value of an emptiness-based term is a function of the sound's value *)
Definition term_val (t : gterm) (x : snd_t) : bool :=
  match t with GForce => force x | GTruthy _ s => nonempty (content x s) | GPresent _ s => present x s end.

(** evaluating a test reads lazy properties only: started from a sound [x] of the same content as [x0], it returns the
    value of the test on [x0] and leaves a sound of the same content *)
Lemma eval_term_spec : forall t x0 x, term_emptiness_based t = true -> eqv x x0 ->
  fst (eval_term t x) = term_val t x0 /\ eqv (snd (eval_term t x)) x0.
Proof.
  intros [|p s|p s] x0 x H E; simpl in *; try discriminate.
  - split; [apply E | exact E].
  - pose proof (eqv_trans _ _ _ (look_eqv p s x) E) as E'. split; [|exact E']. rewrite (proj2 E'). reflexivity.
Qed.

Lemma eval_or_spec : forall g x0 x, forallb term_emptiness_based g = true -> eqv x x0 ->
  fst (eval_or g x) = existsb (fun t => term_val t x0) g /\ eqv (snd (eval_or g x)) x0.
Proof.
  induction g as [|t r IH]; intros x0 x H E; simpl in *; [split; [reflexivity | exact E]|].
  apply andb_prop in H as [Ht Hr].
  destruct (eval_term_spec t x0 x Ht E) as [Hv He].
  destruct (eval_term t x) as [b x']. simpl in Hv, He. subst b.
  destruct (term_val t x0); simpl; [split; [reflexivity | exact He] | apply IH; assumption].
Qed.

(** a guard that passes [guard_okb] computes exactly "this is a version-2 value" *)
Lemma guard_is_v2 : forall g x, guard_okb g = true -> existsb (fun t => term_val t x) g = is_v2 x.
Proof.
  intros g x H. unfold guard_okb in H. apply andb_prop in H as [H Hs].
  apply andb_prop in H as [He Hf].
  apply eq_true_iff_eq. unfold is_v2. rewrite orb_true_iff, !existsb_exists. split.
  - intros [t [Hin Hv]]. destruct t as [|p s|p s].
    + left. exact Hv.
    + right. exists s. split; [destruct s; simpl; auto | exact Hv].
    + unfold guard_no_presence_test in He. rewrite forallb_forall in He. specialize (He _ Hin). discriminate.
  - intros [Hv | [s [_ Hv]]].
    + unfold guard_covers_force in Hf. apply existsb_exists in Hf. destruct Hf as [t [Hin Ht]].
      exists t. split; [exact Hin|]. destruct t; try discriminate. exact Hv.
    + unfold guard_covers_every_stack in Hs. rewrite forallb_forall in Hs.
      assert (Hin : In s all_stk) by (destruct s; simpl; auto).
      specialize (Hs s Hin). apply existsb_exists in Hs. destruct Hs as [t [Hint Ht]].
      exists t. split; [exact Hint|]. destruct t as [|p s'|p s']; try discriminate.
      simpl in Ht. apply stk_eqb_eq in Ht. subst s'. exact Hv.
Qed.

(** the blocks a good census writes: every stack with children, under its own name, in census order *)
Definition blocks_val (ws : list wblock) (x : snd_t) : list (stk * list A) :=
  flat_map (fun w => if nonempty (content x (w_name w)) then [(w_name w, content x (w_name w))] else []) ws.

Lemma blocks_val_eqv : forall ws x y, (forall s, content x s = content y s) -> blocks_val ws x = blocks_val ws y.
Proof. intros ws x y H. unfold blocks_val. apply flat_map_ext. intro w. rewrite H. reflexivity. Qed.

Lemma export_blocks_spec : forall ws x0 x, forallb block_okb ws = true -> eqv x x0 ->
  fst (export_blocks ws x) = blocks_val ws x0 /\ eqv (snd (export_blocks ws x)) x0.
Proof.
  induction ws as [|w r IH]; intros x0 x H E; simpl in *; [split; [reflexivity | exact E]|].
  apply andb_prop in H as [Hw Hr]. unfold block_okb in Hw. apply andb_prop in Hw as [Hg Hsrc].
  apply stk_eqb_eq in Hsrc.
  destruct (w_guard w) as [|p s|p s] eqn:G; try discriminate.
  simpl in Hg. apply stk_eqb_eq in Hg. subst s.
  destruct (eval_term_spec (GTruthy p (w_name w)) x0 x eq_refl E) as [Hv He].
  destruct (eval_term (GTruthy p (w_name w)) x) as [b x1]. simpl in Hv, He. subst b.
  destruct (nonempty (content x0 (w_name w))); [|apply IH; assumption].
  pose proof (eqv_trans _ _ _ (look_eqv (w_pub w) (w_src w) x1) He) as E2.
  destruct (IH x0 _ Hr E2) as [H1 H2].
  destruct (export_blocks r (look (w_pub w) (w_src w) x1)) as [bl x3]. simpl in *.
  rewrite (proj2 E2), Hsrc, H1. split; [reflexivity | exact H2].
Qed.

(** what a good census writes, as a function of the value *)
Definition out_of (ws : list wblock) (x : snd_t) : out A :=
  mkOut (is_v2 x) (if is_v2 x then blocks_val ws x else []).

Lemma export_spec : forall g ws x, guard_okb g = true -> blocks_okb ws = true ->
  fst (export g ws x) = out_of ws x /\ eqv (snd (export g ws x)) x.
Proof.
  intros g ws x Hg Hw. unfold export, out_of.
  assert (Hemp : forallb term_emptiness_based g = true).
  { unfold guard_okb in Hg. apply andb_prop in Hg as [Hg _]. apply andb_true_iff in Hg. tauto. }
  assert (Hb : forallb block_okb ws = true).
  { unfold blocks_okb in Hw. apply andb_prop in Hw as [Hw _]. apply andb_true_iff in Hw. tauto. }
  destruct (eval_or_spec g x x Hemp (eqv_refl x)) as [Hv He]. rewrite (guard_is_v2 g x Hg) in Hv.
  destruct (eval_or g x) as [b x1]. simpl in Hv, He. subst b.
  destruct (is_v2 x); simpl; [|split; [reflexivity | exact He]].
  destruct (export_blocks_spec ws x x1 Hb He) as [H1 H2].
  destruct (export_blocks ws x1) as [bl x2]. simpl in *. rewrite H1. split; [reflexivity | exact H2].
Qed.

Lemma out_of_same_value : forall ws x y, same_value x y -> out_of ws x = out_of ws y.
Proof. intros ws x y [Hv Hc]. unfold out_of. rewrite Hv, (blocks_val_eqv ws x y Hc). reflexivity. Qed.

(** *** the statements *)

(** two sounds of the same value are written identically *)
Theorem export_same_value : forall g ws (x y : snd_t), guard_okb g = true -> blocks_okb ws = true -> same_value x y ->
  fst (export g ws x) = fst (export g ws y).
Proof.
  intros g ws x y Hg Hw H. destruct (export_spec g ws x Hg Hw) as [-> _]. destruct (export_spec g ws y Hg Hw) as [-> _].
  apply out_of_same_value. exact H.
Qed.

(** observer independence: reading the lazy properties, in any order and any number of times, before exporting does
    not change what is written *)
Theorem export_observer_independent : forall g ws ts (x : snd_t), guard_okb g = true -> blocks_okb ws = true ->
  fst (export g ws (touches ts x)) = fst (export g ws x).
Proof. intros. apply export_same_value; auto. apply eqv_same_value, touches_eqv. Qed.

(** exporting the same object again (export itself reads the lazy properties) writes the same *)
Theorem export_again_identical : forall g ws (x : snd_t), guard_okb g = true -> blocks_okb ws = true ->
  fst (export g ws (snd (export g ws x))) = fst (export g ws x).
Proof. intros g ws x Hg Hw. apply export_same_value; auto. apply eqv_same_value. apply (export_spec g ws x Hg Hw). Qed.

Lemma stk_eqb_sym : forall a b, stk_eqb a b = stk_eqb b a.
Proof. destruct a, b; reflexivity. Qed.
Lemma existsb_map_name : forall a r, existsb (stk_eqb a) (map w_name r) = existsb (fun w0 => stk_eqb (w_name w0) a) r.
Proof. induction r as [|w r IH]; simpl; [reflexivity|]. rewrite IH, (stk_eqb_sym a). reflexivity. Qed.

Lemma find_blocks_val : forall ws (x : snd_t) s, nodupb (map w_name ws) = true ->
  find s (blocks_val ws x) = if existsb (fun w => stk_eqb (w_name w) s) ws then content x s else [].
Proof.
  induction ws as [|w r IH]; intros x s H; simpl in *; [reflexivity|].
  apply andb_prop in H as [Hn Hr]. apply negb_true_iff in Hn.
  unfold blocks_val in *. simpl. unfold find in *. rewrite flat_map_app. rewrite (IH x s Hr).
  destruct (stk_eqb (w_name w) s) eqn:E; simpl.
  - apply stk_eqb_eq in E. subst s.
    assert (Hnot : existsb (fun w0 => stk_eqb (w_name w0) (w_name w)) r = false).
    { rewrite <- existsb_map_name. exact Hn. }
    rewrite Hnot, app_nil_r.
    destruct (content x (w_name w)) eqn:C; simpl; [reflexivity|]. rewrite stk_eqb_refl, app_nil_r. reflexivity.
  - destruct (nonempty (content x (w_name w))); simpl; [rewrite E|]; reflexivity.
Qed.

Lemma not_v2_empty : forall (x : snd_t) s, is_v2 x = false -> content x s = [] /\ force x = false.
Proof.
  intros x s H. unfold is_v2 in H. apply orb_false_iff in H. destruct H as [Hf H]. split; [|exact Hf].
  unfold all_stk in H. simpl in H. rewrite !orb_false_iff in H. destruct H as [a [b [c _]]].
  destruct s; [destruct (content x SStart) | destruct (content x SUpdate) | destruct (content x SStop)]; simpl in *; congruence.
Qed.

(** the reader gives the value back *)
Theorem parse_export_same_value : forall g ws (x : snd_t), guard_okb g = true -> blocks_okb ws = true ->
  same_value (parse (fst (export g ws x))) x.
Proof.
  intros g ws x Hg Hw. destruct (export_spec g ws x Hg Hw) as [-> _]. unfold out_of, parse. simpl.
  unfold blocks_okb in Hw. apply andb_prop in Hw as [Hw Hall]. apply andb_prop in Hw as [_ Hnd].
  rewrite forallb_forall in Hall.
  unfold same_value. destruct (is_v2 x) eqn:V.
  - split; [reflexivity|]. intro s. unfold content, get; simpl. rewrite !(find_blocks_val ws x _ Hnd).
    assert (Hs : forall s', existsb (fun w => stk_eqb (w_name w) s') ws = true) by (intro s'; apply Hall; destruct s'; simpl; auto).
    rewrite !Hs. destruct s; reflexivity.
  - split; [reflexivity|]. intro s. destruct (not_v2_empty x s V) as [Hc _]. fold (content x s). rewrite Hc. destruct s; reflexivity.
Qed.

(** ... and writing what was read gives the identical output *)
Theorem second_generation_identical : forall g ws (x : snd_t), guard_okb g = true -> blocks_okb ws = true ->
  fst (export g ws (parse (fst (export g ws x)))) = fst (export g ws x).
Proof. intros. apply export_same_value; auto. apply parse_export_same_value; auto. Qed.
End Proofs.

(** * Non-vacuity and refuted variants *)
Definition ref_guard : list gterm := [GForce; GTruthy true SStart; GTruthy true SStop; GTruthy true SUpdate].
Definition ref_blocks : list wblock :=
  [mkW SStart (GTruthy true SStart) true SStart; mkW SUpdate (GTruthy true SUpdate) true SUpdate; mkW SStop (GTruthy true SStop) true SStop].
Example ref_census_ok : guard_okb ref_guard = true /\ blocks_okb ref_blocks = true.
Proof. split; reflexivity. Qed.
Example ex_export : fst (export ref_guard ref_blocks (mkSnd false None (Some [7; 8]) (Some []))) = mkOut true [(SUpdate, [7; 8])]
  /\ parse (mkOut true [(SUpdate, [7; 8])]) = mkSnd true (Some []) (Some [7; 8]) (Some []).
Proof. split; reflexivity. Qed.

(** the guard of the seeded-fault class: `self._stack_x is not None` -- a version-1 sound whose start stack was
    merely looked at is written as version 2, and what is read back is a different value *)
Definition presence_guard : list gterm := [GForce; GPresent false SStart; GPresent false SUpdate; GPresent false SStop].
Example presence_guard_refuted :
  guard_okb presence_guard = false
  /\ let x := mkSnd (A := nat) false None None None in
     fst (export presence_guard ref_blocks (touch SStart x)) <> fst (export presence_guard ref_blocks x)
     /\ is_v2 (parse (fst (export presence_guard ref_blocks (touch SStart x)))) <> is_v2 (touch SStart x).
Proof. split; [reflexivity|]. simpl. split; discriminate. Qed.

(** a guard that forgets the stop stack: a sound with only that stack loses it *)
Definition forgetful_guard : list gterm := [GForce; GTruthy true SStart; GTruthy true SUpdate].
Example forgetful_guard_refuted :
  guard_okb forgetful_guard = false
  /\ let x := mkSnd false None None (Some [5]) in
     content (parse (fst (export forgetful_guard ref_blocks x))) SStop <> content x SStop.
Proof. split; [reflexivity|]. simpl. discriminate. Qed.

(** a block guarded by a presence test: an empty block appears once the property was read *)
Definition presence_blocks : list wblock :=
  [mkW SStart (GPresent false SStart) true SStart; mkW SUpdate (GTruthy true SUpdate) true SUpdate; mkW SStop (GTruthy true SStop) true SStop].
Example presence_block_refuted :
  blocks_okb presence_blocks = false
  /\ let x := mkSnd (A := nat) true None None None in
     fst (export ref_guard presence_blocks (touch SStart x)) <> fst (export ref_guard presence_blocks x).
Proof. split; [reflexivity|]. simpl. discriminate. Qed.
