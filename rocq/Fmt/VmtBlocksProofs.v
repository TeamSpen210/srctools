(* VmtBlocksProofs.v -- what Fmt/VmtBlocks.v writes for a tree of keyvalues is lexed as the tokens of its templates; for templates of
   the expected shape these are the canonical tokens of the tree, which a recursive-descent reader turns back into the tree. *)
From Coq Require Import List NArith Bool Lia.
From SV Require Import KV.KvBase KV.KvLex KV.KvSym KV.KvLexProofs Fmt.TextFieldsProofs Fmt.TextLines Fmt.TextLinesProofs Fmt.VmtQuote
  Fmt.VmtQuoteProofs Fmt.VmtBlocks.
Import ListNotations.
Open Scope N_scope.

(** induction over keyvalues trees with the children as a [Forall] *)
Fixpoint kvt_rect' (P : kvt -> Prop) (Hl : forall n v, P (KLeaf n v)) (Hn : forall n cs, Forall P cs -> P (KNode n cs)) (t : kvt) : P t :=
  match t with
  | KLeaf n v => Hl n v
  | KNode n cs => Hn n cs ((fix go (l : list kvt) : Forall P l :=
                              match l with [] => Forall_nil P | x :: r => Forall_cons x (kvt_rect' P Hl Hn x) (go r) end) cs)
  end.

Lemma ws_only_app a b : ws_only a = true -> ws_only b = true -> ws_only (a ++ b) = true.
Proof. unfold ws_only. intros Ha Hb. rewrite forallb_app, Ha, Hb. reflexivity. Qed.

Lemma bcfg_okb_split c : bcfg_okb c = true ->
  items_ok (b_open c) = true /\ items_ok (b_close c) = true /\ items_ok (b_leaf c) = true /\ items_ok (b_prox_open c) = true /\
  items_ok (b_prox_close c) = true /\ ws_only (b_step c) = true /\ ws_only (b_top c) = true /\ ws_only (b_prox_ind c) = true /\
  vals_ok (b_close c) [] = true /\ vals_ok (b_prox_open c) [] = true /\ vals_ok (b_prox_close c) [] = true.
Proof. unfold bcfg_okb. rewrite !andb_true_iff. tauto. Qed.

Section Proofs.
Variable E : escfg.
Variable c : bcfg.
Hypothesis HE : esc_ok E = true.
Hypothesis Hc : bcfg_okb c = true.

(** one block, at any indent and line: what _write_block writes is lexed as exactly the tokens of its templates, children included *)
Lemma block_lexes : forall t ind l, ws_only ind = true -> tree_ok c t = true ->
  exists l', lexes E l (write_block E c ind t) (block_toks c t) l'.
Proof.
  destruct (bcfg_okb_split c Hc) as (Ho & Hcl & Hlf & _ & _ & Hst & _ & _ & Hvc & _ & _).
  induction t as [n v | n cs IH] using kvt_rect'; intros ind l Hind Hok; cbn [write_block block_toks tree_ok] in *.
  - eexists. apply items_lex; assumption.
  - apply andb_true_iff in Hok as [Hok Hcv]. apply andb_true_iff in Hok as [Hov Hcs].
    rewrite Forall_forall in IH. rewrite forallb_forall in Hcs.
    destruct (lexes_any_flat_map E (write_block E c (ind ++ b_step c)) (block_toks c) cs
                (fun x Hx l1 => IH x Hx _ l1 (ws_only_app _ _ Hind Hst) (Hcs x Hx)) (lines (b_open c) l)) as (l2 & Hk).
    eexists. eapply lexes_app; [apply items_lex; assumption|]. eapply lexes_app; [exact Hk|]. apply items_lex; assumption.
Qed.

Lemma blocks_lexes : forall ts ind l, ws_only ind = true -> forallb (tree_ok c) ts = true ->
  exists l', lexes E l (blocks_text E c ind ts) (flat_map (block_toks c) ts) l'.
Proof.
  intros ts ind l Hind Hok. rewrite forallb_forall in Hok.
  apply lexes_any_flat_map. intros x Hx l1. apply block_lexes; [exact Hind | apply Hok, Hx].
Qed.

Lemma proxies_lexes : forall ps l, forallb (tree_ok c) ps = true -> exists l', lexes E l (proxies_text E c ps) (proxies_toks c ps) l'.
Proof.
  destruct (bcfg_okb_split c Hc) as (_ & _ & _ & Hpo & Hpc & _ & _ & Hpi & _ & Hvo & Hvc).
  intros [|p ps] l Hok.
  - exists l. apply lexes_nil.
  - unfold proxies_text, proxies_toks. destruct (blocks_lexes (p :: ps) (b_prox_ind c) (lines (b_prox_open c) l) Hpi Hok) as (l2 & H2).
    eexists. eapply lexes_app; [apply items_lex; try assumption; reflexivity|]. eapply lexes_app; [exact H2|].
    apply items_lex; try assumption; reflexivity.
Qed.

(** the whole file of a material with parameters, sub-blocks and proxies: read without error as exactly shader / { / the parameter
    pairs / the tokens of the blocks / the Proxies frame with its blocks / } *)
Theorem vmt_file_b_reads_back : forall q shader ps blocks proxies, nq_okb q = true -> shader_ok shader = true -> params_ok q ps = true ->
  forallb (tree_ok c) blocks = true -> forallb (tree_ok c) proxies = true ->
  lex_all E (vmt_file_b E c q shader ps blocks proxies) = (vmt_tokens_b c shader ps blocks proxies, None).
Proof.
  destruct (bcfg_okb_split c Hc) as (_ & _ & _ & _ & _ & _ & Htop & _).
  intros q shader ps blocks proxies Hq Hs Hps Hb Hp.
  destruct (blocks_lexes blocks (b_top c) (3 + N.of_nat (length ps)) Htop Hb) as (l1 & H1).
  destruct (proxies_lexes proxies l1 Hp) as (l2 & H2).
  apply lexes_all with (l' := l2 + 1). unfold vmt_file_b, vmt_tokens_b.
  rewrite (app_assoc [LF; TAB; 123; LF]), (app_assoc shader), (app_assoc [TStr shader; TNL; TBO; TNL]).
  apply lexes_app with (l1 := 3 + N.of_nat (length ps)); [apply vmt_head_lexes; assumption|].
  apply lexes_app with (l1 := l1); [exact H1|].
  apply lexes_app with (l1 := l2); [exact H2 | apply vmt_foot_lexes].
Qed.
End Proofs.

(** * The shape of the tokens: layout items produce none *)
Lemma toks_strip : forall its vs, toks its vs = toks (strip its) vs.
Proof.
  induction its as [|i r IH]; intros vs; [reflexivity|].
  destruct i; cbn [strip filter is_layout negb toks]; fold (strip r); try (rewrite IH; reflexivity);
    destruct vs; try reflexivity; rewrite IH; reflexivity.
Qed.

Lemma open_shape_toks its n : open_shape its = true -> toks its [n] = [TStr n; TNL; TBO; TNL].
Proof.
  intros H. rewrite toks_strip. unfold open_shape in H. destruct (strip its) as [|i1 r1]; [discriminate|]. destruct i1; try discriminate.
  destruct r1 as [|i2 r2]; [discriminate|]. destruct i2; try discriminate. destruct r2 as [|i3 r3]; [discriminate|]. destruct i3; try discriminate.
  destruct r3 as [|i4 r4]; [discriminate|]. destruct i4; try discriminate. destruct r4; [reflexivity|discriminate].
Qed.
Lemma close_shape_toks its : close_shape its = true -> toks its [] = [TBC; TNL].
Proof.
  intros H. rewrite toks_strip. unfold close_shape in H. destruct (strip its) as [|i1 r1]; [discriminate|]. destruct i1; try discriminate.
  destruct r1 as [|i2 r2]; [discriminate|]. destruct i2; try discriminate. destruct r2; [reflexivity|discriminate].
Qed.
Lemma leaf_shape_toks its n v : leaf_shape its = true -> toks its [n; v] = [TStr n; TStr v; TNL].
Proof.
  intros H. rewrite toks_strip. unfold leaf_shape in H. destruct (strip its) as [|i1 r1]; [discriminate|]. destruct i1; try discriminate.
  destruct r1 as [|i2 r2]; [discriminate|]. destruct i2; try discriminate. destruct r2 as [|i3 r3]; [discriminate|]. destruct i3; try discriminate.
  destruct r3; [reflexivity|discriminate].
Qed.
Lemma prox_word_toks its w : prox_word its = Some w -> toks its [] = [TNL; TStr w; TNL; TBO; TNL].
Proof.
  intros H. rewrite toks_strip. unfold prox_word in H. destruct (strip its) as [|i1 r1]; [discriminate|]. destruct i1; try discriminate.
  destruct r1 as [|i2 r2]; [discriminate|]. destruct i2; try discriminate. destruct r2 as [|i3 r3]; [discriminate|]. destruct i3; try discriminate.
  destruct r3 as [|i4 r4]; [discriminate|]. destruct i4; try discriminate. destruct r4; [|discriminate].
  destruct (d =? LF) eqn:Hd; [|discriminate]. injection H as <-. apply N.eqb_eq in Hd. subst d. reflexivity.
Qed.

Lemma flat_map_Forall_ext {A B} (f g : A -> list B) l : Forall (fun x => f x = g x) l -> flat_map f l = flat_map g l.
Proof. induction 1 as [|x r Hx _ IH]; [reflexivity|]. cbn [flat_map]. now rewrite Hx, IH. Qed.

(** for a configuration of the expected shape the written tokens are the canonical token stream of the tree *)
Theorem block_toks_canonical c : bcfg_shape_okb c = true -> forall t, block_toks c t = kv_toks t.
Proof.
  unfold bcfg_shape_okb. rewrite !andb_true_iff. intros ((((Ho & Hcl) & Hlf) & _) & _).
  induction t as [n v | n cs IH] using kvt_rect'; cbn [block_toks kv_toks].
  - apply leaf_shape_toks; assumption.
  - rewrite (open_shape_toks _ n Ho), (close_shape_toks _ Hcl), (flat_map_Forall_ext _ _ _ IH). reflexivity.
Qed.

Theorem proxies_toks_canonical c : bcfg_shape_okb c = true -> exists w, prox_word (b_prox_open c) = Some w /\
  forall ps, proxies_toks c ps = match ps with [] => [] | _ => [TNL; TStr w; TNL; TBO; TNL] ++ flat_map kv_toks ps ++ [TBC; TNL] end.
Proof.
  intros H. pose proof (block_toks_canonical c H) as Hb. unfold bcfg_shape_okb in H. rewrite !andb_true_iff in H.
  destruct H as ((((_ & _) & _) & Hpc) & Hw). destruct (prox_word (b_prox_open c)) as [w|] eqn:Hpw; [|discriminate].
  exists w. split; [reflexivity|]. intros [|p ps]; [reflexivity|]. unfold proxies_toks.
  rewrite (prox_word_toks _ w Hpw), (close_shape_toks _ Hpc). f_equal. f_equal. apply flat_map_ext, Hb.
Qed.

(** * The reader's side at token level: a recursive-descent reader gives the trees back *)
Definition reads (ts : list tok) (res : list kvt) (r : list tok) : Prop :=
  exists f0, forall f, (f0 <= f)%nat -> read_blocks f ts = Some (res, r).

Lemma reads_close st : reads ([TBC; TNL] ++ st) [] st.
Proof. exists 1%nat. intros [|f] Hf; [lia|]. reflexivity. Qed.

(** a list of blocks up to its closing brace, given that each of them is read *)
Lemma reads_list cs : Forall (fun t => forall st sibs r, reads st sibs r -> reads (kv_toks t ++ st) (t :: sibs) r) cs ->
  forall st, reads (flat_map kv_toks cs ++ [TBC; TNL] ++ st) cs st.
Proof.
  induction 1 as [|x rest Hx _ IH]; intros st; [apply reads_close|].
  cbn [flat_map]. rewrite <- app_assoc. apply Hx, IH.
Qed.

Lemma reads_tree : forall t st sibs r, reads st sibs r -> reads (kv_toks t ++ st) (t :: sibs) r.
Proof.
  induction t as [n v | n cs IH] using kvt_rect'; intros st sibs r (f0 & H0).
  - exists (S f0). intros [|f] Hf; [lia|]. cbn [kv_toks app read_blocks]. rewrite H0 by lia. reflexivity.
  - destruct (reads_list cs IH st) as (f1 & H1). exists (S (Nat.max f0 f1)). intros [|f] Hf; [lia|].
    cbn [kv_toks]. rewrite <- !app_assoc. cbn [app read_blocks]. rewrite H1 by lia. rewrite H0 by lia. reflexivity.
Qed.

(** exactly the trees, and what follows the brace is left *)
Theorem read_blocks_kv : forall ts st, reads (flat_map kv_toks ts ++ [TBC; TNL] ++ st) ts st.
Proof. intros ts. apply reads_list, Forall_forall. intros t _. apply reads_tree. Qed.

(** hence the tokens determine the trees *)
Corollary kv_toks_determine_blocks : forall ts1 ts2 st, flat_map kv_toks ts1 ++ [TBC; TNL] ++ st = flat_map kv_toks ts2 ++ [TBC; TNL] ++ st -> ts1 = ts2.
Proof.
  intros ts1 ts2 st Heq. destruct (read_blocks_kv ts1 st) as (f1 & H1). destruct (read_blocks_kv ts2 st) as (f2 & H2).
  specialize (H1 (Nat.max f1 f2) ltac:(lia)). specialize (H2 (Nat.max f1 f2) ltac:(lia)). rewrite Heq in H1. rewrite H1 in H2. now injection H2.
Qed.

(** * Non-vacuity and refuted variants *)
Example ref_bcfg_ok : bcfg_okb ref_bcfg = true /\ bcfg_shape_okb ref_bcfg = true.
Proof. split; reflexivity. Qed.
Definition ex_tree : kvt := KNode [97] [KLeaf [98] [99; 92; 100]; KNode [101] []].
Example ex_block_text :
  write_block ex_escfg ref_bcfg [9] ex_tree
  = [9; 34; 97; 34; 10; 9; 9; 123; 10;  9; 9; 34; 98; 34; 32; 34; 99; 92; 100; 34; 10;  9; 9; 34; 101; 34; 10; 9; 9; 9; 123; 10; 9; 9; 9; 125; 10;  9; 9; 125; 10].
Proof. reflexivity. Qed.
(** a leaf template that forgets the quotes around the value: not of the shape (a value with a space would be split) *)
Example leaf_without_quotes_refuted :
  bcfg_shape_okb (mkB (b_open ref_bcfg) (b_close ref_bcfg) [IInd; IQRaw; IWs [32]; IBare 10] [9] [9] (b_prox_open ref_bcfg) (b_prox_close ref_bcfg) [9; 9]) = false.
Proof. reflexivity. Qed.
(** a close template without the brace: the configuration is rejected, and the tokens of a block with children no longer close *)
Example close_without_brace_refuted :
  bcfg_shape_okb (mkB (b_open ref_bcfg) [IInd; INl] (b_leaf ref_bcfg) [9] [9] (b_prox_open ref_bcfg) (b_prox_close ref_bcfg) [9; 9]) = false.
Proof. reflexivity. Qed.
