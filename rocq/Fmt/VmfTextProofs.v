(** C06 — proofs about the VMF text model (Fmt/VmfText.v). *)
From Coq Require Import NArith ZArith List String Bool Lia.
From SV Require Import Fmt.VmfText.
Import ListNotations.
Open Scope N_scope.

(** * The scanner inverts escape_text *)
Lemma plain_char_step c : plain_char c = true -> forall acc rest,
  hs acc false (c :: rest) = hs (c :: acc) false rest.
Proof.
  unfold plain_char, mem. cbn [existsb]. intros H acc rest.
  rewrite !orb_false_r, !negb_orb in H.
  apply andb_prop in H as [H1 H]. apply andb_prop in H as [H2 H]. apply andb_prop in H as [H3 H4].
  apply negb_true_iff in H1, H2, H3, H4.
  cbn [hs]. now rewrite H1, H3, H4, H2.
Qed.

(** [escape_text] writes a character in one of three ways; the scanner reads each back as the character.
    First class: left alone although it has an escape letter ('?', '/', and LF in multi-line mode). *)
Lemma excluded_step ml c : mem c (excluded ml) = true -> forall acc rest,
  hs acc false (c :: rest) = hs (c :: acc) false rest.
Proof.
  intros H acc rest. apply existsb_exists in H. destruct H as (x & Hin & E). apply N.eqb_eq in E. subst x.
  destruct ml; cbn [excluded In] in Hin; decompose [or] Hin; subst; try contradiction; reflexivity.
Qed.

(** Second class: written as backslash + letter; the letter is not LF and denotes the character. *)
Lemma rlookup_in : forall c t s, rlookup c t = Some s -> In (s, c) t.
Proof.
  induction t as [|[s' c'] t IH]; intros s H; cbn [rlookup] in H; [discriminate|].
  destruct (c' =? c) eqn:E; [|right; apply IH; exact H].
  injection H as <-. apply N.eqb_eq in E. subst c'. left. reflexivity.
Qed.
Lemma escape_letter c s : rlookup c esc_table = Some s -> lookup s esc_table = Some c /\ (s =? LF) = false.
Proof.
  intros H. apply rlookup_in in H. cbn [esc_table In] in H.
  repeat (destruct H as [H|H]; [injection H as <- <-; split; reflexivity|]). destruct H.
Qed.

(** Third class: no escape letter, so none of quote, backslash, CR, LF (they all have one): written and read verbatim. *)
Lemma rlookup_none : forall c t, rlookup c t = None -> forall x, mem x (map snd t) = true -> (c =? x) = false.
Proof.
  induction t as [|[s' c'] t IH]; intros H x Hx; [discriminate|]. cbn [rlookup] in H. cbn [map snd mem existsb] in Hx.
  destruct (c' =? c) eqn:E; [discriminate|]. apply orb_prop in Hx. destruct Hx as [Hx|Hx]; [|apply IH; assumption].
  apply N.eqb_eq in Hx. subst x. rewrite N.eqb_sym. exact E.
Qed.
Lemma unescaped_plain c : rlookup c esc_table = None -> plain_char c = true.
Proof.
  intros H. unfold plain_char, mem. cbn [existsb].
  rewrite !(rlookup_none c esc_table H) by reflexivity. reflexivity.
Qed.

Lemma step_char ml c : forall acc rest,
  hs acc false (esc_char ml c ++ rest) = hs (c :: acc) false rest.
Proof.
  intros acc rest. unfold esc_char. destruct (mem c (excluded ml)) eqn:Ex; [apply (excluded_step ml); exact Ex|].
  destruct (rlookup c esc_table) as [s|] eqn:Er.
  - destruct (escape_letter c s Er) as [Hl Hn]. cbn [app].
    change (hs acc false (BS :: s :: rest)) with
      (if s =? LF then hs acc false rest else match lookup s esc_table with Some x => hs (x :: acc) false rest | None => hs (s :: BS :: acc) false rest end).
    rewrite Hn, Hl. reflexivity.
  - apply plain_char_step. apply unescaped_plain. exact Er.
Qed.

Lemma hs_escape ml : forall s acc rest,
  hs acc false (escape ml s ++ rest) = hs (rev s ++ acc) false rest.
Proof.
  induction s as [|c s IH]; intros acc rest; [reflexivity|].
  unfold escape in *. cbn [flat_map]. rewrite <- app_assoc, step_char, IH.
  cbn [rev]. now rewrite <- app_assoc.
Qed.

Lemma hs_plain : forall l acc rest, plain l = true ->
  hs acc false (l ++ rest) = hs (rev l ++ acc) false rest.
Proof.
  induction l as [|c l IH]; intros acc rest H; [reflexivity|].
  unfold plain in *. cbn [forallb] in H. apply andb_prop in H as [Hc Hl].
  cbn [app]. rewrite plain_char_step by exact Hc. rewrite IH by exact Hl.
  cbn [rev]. now rewrite <- app_assoc.
Qed.

Lemma hs_seg (e : env) (s : tseg) : seg_ok s = true ->
  (forall f, (s = TIp Num f \/ s = TIp Sep f) -> plain (e f) = true) ->
  forall acc rest, hs acc false (render_seg e s ++ rest) = hs (rev (value_seg e s) ++ acc) false rest.
Proof.
  intros Hok Hnum acc rest. destruct s as [l|c f]; cbn [render_seg value_seg].
  - apply hs_plain. exact Hok.
  - destruct c; cbn [seg_ok] in Hok; try discriminate.
    + apply hs_escape.
    + apply hs_escape.
    + apply hs_plain. apply Hnum. now left.
    + apply hs_plain. apply Hnum. now right.
Qed.

Lemma hs_field (e : env) : forall segs, forallb seg_ok segs = true -> num_fields_plain e segs ->
  forall acc rest, hs acc false (render_field e segs ++ rest) = hs (rev (value_field e segs) ++ acc) false rest.
Proof.
  induction segs as [|s segs IH]; intros Hok Hnum acc rest; [reflexivity|].
  cbn [forallb] in Hok. apply andb_prop in Hok as [Hs Hr].
  unfold render_field, value_field in *. cbn [flat_map]. rewrite <- app_assoc.
  rewrite hs_seg.
  - rewrite IH.
    + now rewrite rev_app_distr, <- app_assoc.
    + exact Hr.
    + intros f [H|H]; apply Hnum; [left|right]; now right.
  - exact Hs.
  - intros f [->| ->]; apply Hnum; [left|right]; now left.
Qed.

(** A quoted field whose pieces are plain literals, escaped strings and numbers scans back to the concatenation
    of its field values, for every content of the string fields. *)
Theorem quoted_field_roundtrip (e : env) segs rest :
  forallb seg_ok segs = true -> num_fields_plain e segs ->
  scan_quoted (render_field e segs ++ DQ :: rest) = Some (value_field e segs, rest).
Proof.
  intros Hok Hnum. unfold scan_quoted. rewrite hs_field by assumption.
  cbn [hs]. rewrite N.eqb_refl. now rewrite app_nil_r, rev_involutive.
Qed.

Lemma num_fields_plain_app e a b : num_fields_plain e (a ++ b) -> num_fields_plain e a /\ num_fields_plain e b.
Proof.
  intros H; split; intros f [Hf|Hf]; apply H; [left|right|left|right]; apply in_or_app; auto.
Qed.

Theorem kv_line_roundtrip (e : env) (s : kvsite) rest :
  site_ok s = true -> num_fields_plain e (ks_key s ++ ks_val s) ->
  scan_kv (render_kv e (ks_key s) (ks_val s) ++ rest)
  = Some (value_field e (ks_key s), value_field e (ks_val s), rest).
Proof.
  intros Hok Hnum. unfold site_ok in Hok. apply andb_prop in Hok as [Hk Hv].
  apply num_fields_plain_app in Hnum as [Nk Nv].
  unfold render_kv, scan_kv. cbn [app]. rewrite N.eqb_refl.
  rewrite <- app_assoc. cbn [app].
  rewrite quoted_field_roundtrip by assumption.
  rewrite !N.eqb_refl. cbn [andb].
  rewrite <- app_assoc. cbn [app].
  now rewrite quoted_field_roundtrip by assumption.
Qed.

(** The hypothesis on the class is necessary: a raw string field holding one double quote does not scan back. *)
Definition raw_site : kvsite := mk_site "" "" 0 [TLit [109]] [TIp RawStr 0].
(** The theorem is not vacuous: an escaped field holding quote, backslash, LF, CR, tab scans back. *)
Example escaped_site_example :
  let s := mk_site "" "" 0 [TLit [109]] [TLit [36]; TIp Esc 0; TLit [32]; TIp EscML 1; TIp Sep 2; TIp Num 3] in
  let e : env := fun f => match f with 0 => [DQ; BS; LF; CR; 9; 110] | 1 => [LF; DQ; 65] | 2 => [27] | _ => [45; 48; 46; 53] end in
  site_ok s = true /\
  scan_kv (render_kv e (ks_key s) (ks_val s) ++ [LF]) = Some ([109], [36; DQ; BS; LF; CR; 9; 110; 32; LF; DQ; 65; 27; 45; 48; 46; 53], [LF]).
Proof. vm_compute. split; reflexivity. Qed.

(** * Displacement shapes *)
Open Scope Z_scope.
Lemma in_zrange : forall n lo y, In y (zrange lo n) <-> lo <= y < lo + Z.of_nat n.
Proof.
  induction n as [|n IH]; intros lo y; cbn [zrange In].
  - lia.
  - rewrite IH. lia.
Qed.

Theorem disp_shapes_sound (sz : Z -> Z) (l : list disp_array) :
  disp_shapes_ok sz l = true ->
  forall a p, In a l -> In p powers ->
  da_rows a (sz p) <= sz p /\
  (forall ar, In ar (da_arity a) -> da_rows a (sz p) * ar = da_rcols a p (sz p)) /\
  forall y, 0 <= y < da_rows a (sz p) ->
  forall ar, In ar (da_arity a) ->
    (da_hi a (sz p) y - da_lo a (sz p) y) * ar = da_rcols a p (sz p)
    /\ da_lo a (sz p) y = sz p * y /\ da_hi a (sz p) y <= sz p * sz p.
Proof.
  intros H a p Ha Hp. unfold disp_shapes_ok in H. rewrite forallb_forall in H. specialize (H a Ha).
  unfold array_ok_all_powers in H. rewrite forallb_forall in H. specialize (H p Hp).
  unfold array_ok in H. cbv zeta in H.
  apply andb_prop in H as [H Hrows]. apply andb_prop in H as [H Hsq].
  repeat (apply andb_prop in H as [H ?]).
  split; [lia|]. split.
  - intros ar Har. rewrite forallb_forall in Hsq. specialize (Hsq ar Har). lia.
  - intros y Hy ar Har.
    rewrite forallb_forall in Hrows.
    assert (Hrow : row_ok sz a p y = true) by (apply Hrows; apply in_zrange; lia).
    unfold row_ok in Hrow. cbv zeta in Hrow. repeat (apply andb_prop in Hrow as [Hrow ?]).
    rewrite forallb_forall in Hrow. specialize (Hrow ar Har). lia.
Qed.

(** * Rounding: the decimal text denotes a number within half a unit of the last place *)
Theorem round_he_error n d : 0 < d -> 2 * Z.abs (round_he n d * d - n) <= d.
Proof.
  intros Hd. unfold round_he.
  pose proof (Z.div_mod n d ltac:(lia)) as Hdm. pose proof (Z.mod_pos_bound n d Hd) as Hb.
  destruct (2 * (n mod d) <? d) eqn:E1; [nia|].
  destruct (d <? 2 * (n mod d)) eqn:E2; [nia|].
  destruct (Z.even (n / d)); nia.
Qed.

(** '%.6f' of x = m/dd (every finite double is such a rational): the printed decimal r/10^6 is within 5e-7 of x.
    Stated cross-multiplied: |r/10^6 - m/dd| <= 1/(2*10^6). *)
Theorem format6_error m dd : 0 < dd ->
  let r := round_he (m * 10^6) dd in 2 * Z.abs (r * dd - m * 10^6) <= dd.
Proof. intros Hd r. apply round_he_error. exact Hd. Qed.

(** '%g' (6 significant digits) of x = m/dd at scale s = sn/sd (s = 10^(e-5), 10^e <= |x|): the printed value r*s is
    within 5e-6*|x| of x.  Cross-multiplied: 2*10^5*|r*s - x| <= |x|. *)
Theorem g6_error m dd sn sd : 0 < dd -> 0 < sn -> 0 < sd ->
  10^5 * (sn * dd) <= Z.abs m * sd ->            (* |x| >= 10^5 * s *)
  let r := round_he (m * sd) (dd * sn) in
  2 * 10^5 * Z.abs (r * (dd * sn) - m * sd) <= Z.abs m * sd.
Proof.
  intros Hd Hn Hs Hx r.
  pose proof (round_he_error (m * sd) (dd * sn) ltac:(nia)) as H. fold r in H.
  replace (sn * dd) with (dd * sn) in Hx by ring. lia.
Qed.

(** * Entity order *)
Theorem entity_order_in_order : forall l, parse_ents InOrder (export_ents l) = l.
Proof.
  induction l as [|[h i] l IH]; [reflexivity|].
  cbn [parse_ents] in *. unfold export_ents, parse_in_order in *. cbn [map flat_map fst snd].
  rewrite IH. now destruct h.
Qed.

Theorem entity_order_fixed_point : forall l, export_ents (parse_ents InOrder (export_ents l)) = export_ents l.
Proof. intros l. now rewrite entity_order_in_order. Qed.

(** * replaceNN index *)
Open Scope N_scope.
Theorem fixup_index_roundtrip_1_99 : forall n, 1 <= n <= 99 -> index_roundtrip 2 2 n = true.
Proof.
  intros n Hn.
  assert (H : forallb (fun k => index_roundtrip 2 2 (N.of_nat k)) (seq 1 99) = true) by (vm_compute; reflexivity).
  rewrite forallb_forall in H. specialize (H (N.to_nat n)). rewrite N2Nat.id in H. apply H.
  apply in_seq. lia.
Qed.
