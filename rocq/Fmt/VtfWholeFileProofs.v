(** C15 — the whole VTF container: [decode_file] reads back what [encode_file] wrote (Fmt/VtfContainer.v).
    Composition of the per-site theorems of VtfContainerProofs.v: signature, version record, header with the patched
    header size, depth, resource directory (inline entries, out-of-line entries with their data blocks, the fixed
    LOW/HIGH entries, the particle sheet), padding before 7.3, and the offsets of the thumbnail and of the first frame;
    then with Fmt/VtfSidesProofs.v: every frame VTF.read visits gets the bytes VTF.save produced for it. *)
From Coq Require Import ZArith List Lia.
From SV Require Import Bin.Struct Bin.StructProofs Fmt.VtfContainer Fmt.VtfContainerProofs Fmt.VtfWholeFile Fmt.VtfSides Fmt.VtfSidesProofs.
Import ListNotations.
Local Open Scope nat_scope.
Lemma opt_app_Some : forall a b l, opt_app a b = Some l -> exists x y, a = Some x /\ b = Some y /\ l = x ++ y.
Proof. intros [x|] [y|] l H; cbn in H; try discriminate. inversion H. eauto. Qed.

Lemma opt_concat_cons : forall x r l, opt_concat (x :: r) = Some l ->
  exists a b, x = Some a /\ opt_concat r = Some b /\ l = a ++ b.
Proof. intros x r l H. apply opt_app_Some in H. exact H. Qed.

Lemma opt_concat_app : forall a b, opt_concat (a ++ b) = opt_app (opt_concat a) (opt_concat b).
Proof.
  induction a as [|x a IH]; intros b.
  - cbn. destruct (opt_concat b); reflexivity.
  - cbn [app opt_concat]. rewrite IH. destruct x, (opt_concat a), (opt_concat b); cbn; rewrite ?app_assoc; reflexivity.
Qed.

Lemma pack_fits : forall f vals, wf_fmt f = true -> fits f vals = true -> exists bs, pack f vals = Some bs.
Proof. intros f vals Hw Hf. destruct (unpack_pack _ _ Hw Hf) as (bs & Hp & _). eauto. Qed.

Lemma pack_entries_total : forall F es, wf_fmt (f_entry F) = true -> forallb (entry_fits F) es = true ->
  exists eb, opt_concat (map (pack_e F) es) = Some eb.
Proof.
  intros F es Hw. induction es as [|[[id fl] x] es IH]; cbn [forallb entry_fits]; [exists []; reflexivity|].
  intros [H1 H2]%andb_prop. destruct (pack_fits _ _ Hw H1) as (a & Ha). destruct (IH H2) as (b & Hb).
  exists (a ++ b). cbn [map opt_concat pack_e]. rewrite Ha, Hb. reflexivity.
Qed.

Lemma pack_entries_length : forall F es eb, opt_concat (map (pack_e F) es) = Some eb ->
  List.length eb = List.length es * calcsize (f_entry F).
Proof.
  intros F es. induction es as [|[[id fl] x] es IH]; intros eb H.
  - inversion H. reflexivity.
  - apply opt_concat_cons in H. destruct H as (a & b & Ha & Hb & ->).
    rewrite app_length, (pack_length _ _ _ Ha), (IH _ Hb). reflexivity.
Qed.

Lemma read_entries_skipn : forall F es eb rest file off, wf_fmt (f_entry F) = true -> forallb (entry_fits F) es = true ->
  opt_concat (map (pack_e F) es) = Some eb -> skipn off file = eb ++ rest ->
  read_entries F file off (List.length es) = Some es.
Proof.
  intros F es. induction es as [|[[id fl] x] es IH]; intros eb rest file off Hw Hf Hp Hs; [reflexivity|].
  apply opt_concat_cons in Hp. destruct Hp as (a & b & Ha & Hb & ->).
  cbn [forallb entry_fits] in Hf. apply andb_prop in Hf. destruct Hf as [Hf1 Hf2].
  rewrite <- app_assoc in Hs. destruct (read_at_skipn _ _ _ _ _ _ Hw Hf1 Ha Hs) as [R Hs'].
  cbn [List.length read_entries]. rewrite R, (IH b rest file _ Hw Hf2 Hb Hs'). reflexivity.
Qed.

Lemma skipn_S_tl : forall (A : Type) n (l : list A), skipn (S n) l = skipn n (tl l).
Proof. intros A n [|x l]; [destruct n|]; reflexivity. Qed.

Lemma res_entries_abs : forall F G rs offs,
  res_entries F G rs offs = (opt_concat (map (pack_e F) (abs_entries G rs offs)), skipn (List.length (data_of rs)) offs).
Proof.
  intros F G rs. induction rs as [|[[id fl] [x|d]] rs IH]; intros offs.
  - reflexivity.
  - cbn [res_entries abs_entries map opt_concat pack_e]. rewrite IH. reflexivity.
  - cbn [res_entries abs_entries map opt_concat pack_e]. rewrite IH.
    unfold data_of. cbn [flat_map snd app List.length]. rewrite skipn_S_tl. reflexivity.
Qed.

Lemma abs_entries_length : forall G rs offs, List.length (abs_entries G rs offs) = List.length rs.
Proof. intros G rs. induction rs as [|[[id fl] [x|d]] rs IH]; intros offs; cbn [abs_entries List.length]; auto. Qed.

Lemma all_entries_length : forall F G v, List.length (all_entries F G v) = n_res v.
Proof.
  intros. unfold all_entries, sheet_entry, n_res. rewrite !app_length, abs_entries_length.
  destruct (v_sheet v); cbn [List.length]; lia.
Qed.

Lemma abs_entries_ids : forall (P : list N -> Prop) G rs offs,
  Forall (fun r => P (fst (fst r))) rs -> Forall (fun e : dentry => P (fst (fst e))) (abs_entries G rs offs).
Proof.
  intros P G rs. induction rs as [|[[id fl] [x|d]] rs IH]; intros offs H; cbn [abs_entries]; [constructor| |];
    inversion H; subst; constructor; auto.
Qed.

Lemma block_length : forall F d blk, block F d = Some blk -> List.length blk = calcsize (f_len F) + List.length d.
Proof.
  intros F d blk H. apply opt_app_Some in H. destruct H as (x & y & Hx & [= <-] & ->).
  rewrite app_length, (pack_length _ _ _ Hx). reflexivity.
Qed.

Lemma blocks_total : forall F ds, wf_fmt (f_len F) = true ->
  forallb (fun d => fits (f_len F) [VInt (Z.of_nat (List.length d))]) ds = true ->
  exists bb, opt_concat (map (block F) ds) = Some bb.
Proof.
  intros F ds Hw. induction ds as [|d ds IH]; cbn [forallb]; [exists []; reflexivity|].
  intros [H1 H2]%andb_prop. destruct (pack_fits _ _ Hw H1) as (a & Ha). destruct (IH H2) as (b & Hb).
  exists ((a ++ d) ++ b). cbn [map opt_concat]. unfold block at 1. rewrite Ha, Hb. reflexivity.
Qed.

Lemma blocks_read_back : forall F, wf_fmt (f_len F) = true -> calcsize (f_len F) = 4 ->
  forall ds bb pre post,
    forallb (fun d => fits (f_len F) [VInt (Z.of_nat (List.length d))]) ds = true ->
    opt_concat (map (block F) ds) = Some bb ->
    Forall2 (fun o d => read_block F (pre ++ bb ++ post) o = Some d)
            (offsets (List.length pre) (map (fun d => 4 + List.length d) ds)) ds
    /\ List.length bb = list_sum (map (fun d => 4 + List.length d) ds).
Proof.
  intros F Hw H4 ds. induction ds as [|d ds IH]; intros bb pre post Hf Hp.
  - inversion Hp. split; [constructor|reflexivity].
  - apply opt_concat_cons in Hp. destruct Hp as (blk & rest & Hb & Hr & ->).
    cbn [forallb] in Hf. apply andb_prop in Hf. destruct Hf as [Hf1 Hf2].
    pose proof (block_length _ _ _ Hb) as Hl. rewrite H4 in Hl.
    destruct (IH rest (pre ++ blk) post Hf2 Hr) as [IH1 IH2].
    rewrite app_length, Hl, <- !app_assoc in IH1.
    cbn [map offsets list_sum]. rewrite <- app_assoc, app_length, Hl, IH2. split; [constructor|reflexivity]; [|exact IH1].
    apply (block_read_back F d pre (rest ++ post) blk Hw Hf1 Hb).
Qed.

(** * what the reader makes of a directory entry *)
Lemma dec_abs : forall F G bs, flags_ok G = true -> forall rs offs,
  Forall (fun r => (0 <= snd (fst r) < 256)%Z) rs ->
  Forall2 (fun o d => read_block F bs o = Some d) (firstn (List.length (data_of rs)) offs) (data_of rs) ->
  map (dec_e F G bs) (abs_entries G rs offs) = map (fun r => Some (norm r)) rs.
Proof.
  intros F G bs HG rs. induction rs as [|[[id fl] [x|d]] rs IH]; intros offs Hfl Hb; [reflexivity| |].
  - inversion Hfl as [|? ? Hf Hfl']; subst. cbn [fst snd] in Hf.
    destruct (flags_roundtrip G HG fl Hf) as (_ & Hi & _ & Ht & _).
    cbn [abs_entries map dec_e norm]. rewrite Ht, Hi. f_equal. apply IH; assumption.
  - inversion Hfl as [|? ? Hf Hfl']; subst. cbn [fst snd] in Hf.
    destruct (flags_roundtrip G HG fl Hf) as (Ho & _ & Ht & _).
    unfold data_of in Hb. cbn [flat_map snd app List.length] in Hb. fold (data_of rs) in Hb.
    destruct offs as [|o offs]; cbn [firstn] in Hb; inversion Hb as [|? ? ? ? Hrd Hb']; subst.
    cbn [abs_entries map dec_e norm hd tl]. rewrite Ht, Nat2Z.id, Hrd, Ho. f_equal. apply IH; assumption.
Qed.

Lemma filter_none : forall (A : Type) (p : A -> bool) l, Forall (fun x => p x = false) l -> filter p l = [].
Proof. intros A p l H. induction H as [|x l Hx _ IH]; cbn [filter]; [reflexivity|]. rewrite Hx. exact IH. Qed.
Lemma filter_all : forall (A : Type) (p : A -> bool) l, Forall (fun x => p x = true) l -> filter p l = l.
Proof. intros A p l H. induction H as [|x l Hx _ IH]; cbn [filter]; [reflexivity|]. rewrite Hx, IH. reflexivity. Qed.
Lemma find_app_none : forall (A : Type) (p : A -> bool) l1 l2, Forall (fun x => p x = false) l1 -> find p (l1 ++ l2) = find p l2.
Proof. intros A p l1 l2 H. induction H as [|x l Hx _ IH]; cbn [find app]; [reflexivity|]. rewrite Hx. exact IH. Qed.
Lemma existsb_map_Some : forall (A : Type) (l : list A),
  existsb (fun r : option A => match r with None => true | _ => false end) (map Some l) = false.
Proof. induction l; cbn; auto. Qed.
Lemma flat_map_map_Some : forall (A : Type) (l : list A),
  flat_map (fun r : option A => match r with Some x => [x] | None => [] end) (map Some l) = l.
Proof. induction l; cbn; [reflexivity|]. f_equal. assumption. Qed.
Lemma Forall2_app_split : forall (A B : Type) (R : A -> B -> Prop) l l1' l2',
  Forall2 R l (l1' ++ l2') -> Forall2 R (firstn (List.length l1') l) l1' /\ Forall2 R (skipn (List.length l1') l) l2'.
Proof.
  intros A B R l l1'. revert l. induction l1' as [|b l1' IH]; intros l l2' H.
  - split; [constructor|exact H].
  - inversion H as [|? ? ? ? Hb Ht]; subst. destruct (IH _ _ Ht). split; [constructor|]; assumption.
Qed.

Lemma user_id_spec : forall id, user_id id = true ->
  bytes_eqb id ID_LOW = false /\ bytes_eqb id ID_HIGH = false /\ bytes_eqb id ID_SHEET = false.
Proof.
  intros id H. unfold user_id in H.
  destruct (bytes_eqb id ID_LOW), (bytes_eqb id ID_HIGH), (bytes_eqb id ID_SHEET); try discriminate; auto.
Qed.

(** the reader's three filters on a directory of user entries [A], the two fixed entries and the sheet entry, if any *)
Lemma filters_dir : forall (A : list dentry) lx hx (S : list dentry),
  Forall (fun e : dentry => user_id (fst (fst e)) = true) A ->
  (S = [] \/ exists sx, S = [(ID_SHEET, 0%Z, sx)]) ->
  let es := A ++ [(ID_LOW, 0%Z, lx); (ID_HIGH, 0%Z, hx)] ++ S in
  filter (fun e : dentry => bytes_eqb (fst (fst e)) ID_LOW) es = [(ID_LOW, 0%Z, lx)]
  /\ filter (fun e : dentry => bytes_eqb (fst (fst e)) ID_HIGH) es = [(ID_HIGH, 0%Z, hx)]
  /\ filter (fun e : dentry => negb (bytes_eqb (fst (fst e)) ID_LOW || bytes_eqb (fst (fst e)) ID_HIGH)) es = A ++ S.
Proof.
  intros A lx hx S HA HS es. subst es. rewrite !filter_app.
  rewrite (filter_none _ (fun e : dentry => bytes_eqb (fst (fst e)) ID_LOW) A),
          (filter_none _ (fun e : dentry => bytes_eqb (fst (fst e)) ID_HIGH) A),
          (filter_all _ (fun e : dentry => negb (bytes_eqb (fst (fst e)) ID_LOW || bytes_eqb (fst (fst e)) ID_HIGH)) A);
    try (eapply Forall_impl; [|exact HA]; intros e He; destruct (user_id_spec _ He) as (E1 & E2 & _); cbv beta;
         rewrite ?E1, ?E2; reflexivity).
  destruct HS as [-> | [sx ->]]; repeat split; reflexivity.
Qed.

(** * the whole file, version 7.3 and later *)
Lemma encode73 : forall F G v, (3 <= v_minor v)%Z ->
  encode_file F G v =
  opt_concat [Some MAGIC; pack (f_version F) [VInt 7; VInt (v_minor v)];
              pack (f_header F) (set_header_size (v_header v) (hs73 F v)); pack (f_depth F) [VInt (v_depth v)];
              opt_app (pack (f_count F) [VInt (Z.of_nat (n_res v))]) (opt_concat (map (pack_e F) (all_entries F G v)));
              opt_concat (map (block F) (res_blocks v)); Some (v_low v); Some (List.concat (v_high v))].
Proof.
  intros F G v Hm. destruct v as [m hd0 dp rs sh lo hi]. cbn [v_minor] in Hm. unfold encode_file. cbn [v_minor].
  replace (3 <=? m)%Z with true by (symmetry; apply Z.leb_le; lia).
  replace (2 <=? m)%Z with true by (symmetry; apply Z.leb_le; lia).
  cbv zeta. rewrite res_entries_abs. unfold all_entries, sheet_entry.
  rewrite map_app, opt_concat_app.
  destruct sh; reflexivity.
Qed.

(** every fitting file is written, as the six packed pieces, the thumbnail and the frames one behind the other *)
Lemma encoded_73 : forall F G v, fmts_wf F = true -> (3 <= v_minor v)%Z -> vfile_fits F G v = true ->
  exists vb hb db cb eb bb,
    pack (f_version F) [VInt 7; VInt (v_minor v)] = Some vb
    /\ pack (f_header F) (set_header_size (v_header v) (hs73 F v)) = Some hb
    /\ pack (f_depth F) [VInt (v_depth v)] = Some db
    /\ pack (f_count F) [VInt (Z.of_nat (n_res v))] = Some cb
    /\ opt_concat (map (pack_e F) (all_entries F G v)) = Some eb
    /\ opt_concat (map (block F) (res_blocks v)) = Some bb
    /\ encode_file F G v = Some (MAGIC ++ vb ++ hb ++ db ++ cb ++ eb ++ bb ++ v_low v ++ List.concat (v_high v)).
Proof.
  intros F G v [[[[[[Wv Wh]%andb_prop Wd]%andb_prop Wc]%andb_prop We]%andb_prop Wl]%andb_prop _]%andb_prop Hm
    [[[[[[Fv Fh]%andb_prop Fd]%andb_prop Fc]%andb_prop Fe]%andb_prop Fb]%andb_prop _]%andb_prop.
  destruct (pack_fits _ _ Wv Fv) as (vb & Ev). destruct (pack_fits _ _ Wh Fh) as (hb & Eh).
  destruct (pack_fits _ _ Wd Fd) as (db & Ed). destruct (pack_fits _ _ Wc Fc) as (cb & Ec).
  destruct (pack_entries_total F _ We Fe) as (eb & Ee). destruct (blocks_total F _ Wl Fb) as (bb & Eb).
  exists vb, hb, db, cb, eb, bb. rewrite (encode73 F G v Hm). cbn [opt_concat]. rewrite Ev, Eh, Ed, Ec, Ee, Eb. cbn [opt_app].
  rewrite app_nil_r, <- app_assoc. auto 8.
Qed.

Definition sheet_res (v : vfile) : list (list N * Z * resval) :=
  match v_sheet v with Some d => [(ID_SHEET, 0%Z, RData d)] | None => [] end.

(** what the reader finds among the decoded resources: the sheet, if any, and the caller's resources *)
Lemma sheet_found : forall v, Forall (fun r : list N * Z * resval => user_id (fst (fst r)) = true) (v_res v) ->
  let res := map norm (v_res v) ++ sheet_res v in
  match find (fun r => bytes_eqb (fst (fst r)) ID_SHEET) res with Some (_, _, RData dta) => Some dta | _ => None end = v_sheet v
  /\ filter (fun r => negb (bytes_eqb (fst (fst r)) ID_SHEET)) res = map norm (v_res v).
Proof.
  intros v Uid res.
  assert (NS : Forall (fun r : list N * Z * resval => bytes_eqb (fst (fst r)) ID_SHEET = false) (map norm (v_res v))).
  { apply Forall_map. eapply Forall_impl; [|exact Uid]. intros [[id fl] [x|d]] Hr; apply (user_id_spec id Hr). }
  subst res. rewrite (find_app_none _ _ _ _ NS), filter_app, (filter_all _ _ (map norm (v_res v))).
  - unfold sheet_res. destruct (v_sheet v); cbn; rewrite app_nil_r; auto.
  - eapply Forall_impl; [|exact NS]. intros r Hr. cbv beta. rewrite Hr. reflexivity.
Qed.

Theorem whole_file_73 : forall F G v low_size file,
  fmts_wf F = true -> flags_ok G = true -> (3 <= v_minor v)%Z -> vfile_fits F G v = true ->
  encode_file F G v = Some file ->
  decode_file F G low_size file
  = Some (v_minor v, set_header_size (v_header v) (hs73 F v), v_depth v, map norm (v_res v), v_sheet v, low_off73 F v, high_off73 F v)
  /\ exists pre, file = pre ++ v_low v ++ List.concat (v_high v) /\ List.length pre = low_off73 F v.
Proof.
  intros F G v low_size file HW HG Hm HF Henc.
  destruct (encoded_73 F G v HW Hm HF) as (vb & hb & db & cb & eb & bb & Ev & Eh & Ed & Ec & Ee & Eb & E).
  rewrite E in Henc. set (bytes := MAGIC ++ _) in Henc. injection Henc as <-. clear E.
  revert HW HF. intros [[[[[[Wv Wh]%andb_prop Wd]%andb_prop Wc]%andb_prop We]%andb_prop Wl]%andb_prop L4%Nat.eqb_eq]%andb_prop
    [[[[[[Fv Fh]%andb_prop Fd]%andb_prop Fc]%andb_prop Fe]%andb_prop Fb]%andb_prop Fu]%andb_prop.
  (* the data blocks start behind the directory, at the header size; the thumbnail behind the blocks *)
  set (P := MAGIC ++ vb ++ hb ++ db ++ cb ++ eb).
  assert (LP : List.length P = hs73 F v).
  { unfold P, hs73. rewrite !app_length, (pack_length _ _ _ Ev), (pack_length _ _ _ Eh), (pack_length _ _ _ Ed),
      (pack_length _ _ _ Ec), (pack_entries_length _ _ _ Ee), all_entries_length. cbn [MAGIC List.length]. lia. }
  destruct (blocks_read_back F Wl L4 (res_blocks v) bb P (v_low v ++ List.concat (v_high v)) Fb Eb) as [RB LB].
  rewrite LP in RB. fold (block_offs F v) in RB.
  replace (P ++ bb ++ v_low v ++ List.concat (v_high v)) with bytes in RB by (unfold P; rewrite <- !app_assoc; reflexivity).
  split.
  2:{ exists (P ++ bb). split; [unfold P; rewrite <- !app_assoc; reflexivity|]. rewrite app_length, LP, LB. reflexivity. }
  (* the reader's cursor through the fixed records and the directory *)
  unfold decode_file. change (negb (bytes_eqb (slice bytes 0 4) [86; 84; 70; 0]%N)) with false. cbv iota.
  destruct (read_at_skipn _ _ _ _ bytes 4 Wv Fv Ev eq_refl) as [-> S1]. cbv beta iota.
  destruct (read_at_skipn _ _ _ _ bytes _ Wh Fh Eh S1) as [-> S2].
  replace (2 <=? v_minor v)%Z with true by (symmetry; apply Z.leb_le; lia).
  replace (3 <=? v_minor v)%Z with true by (symmetry; apply Z.leb_le; lia).
  destruct (read_at_skipn _ _ _ _ bytes _ Wd Fd Ed S2) as [-> S3]. cbn [option_map hd getZ].
  destruct (read_at_skipn _ _ _ _ bytes _ Wc Fc Ec S3) as [-> S4]. cbv beta iota.
  rewrite Nat2Z.id, <- (all_entries_length F G v), (read_entries_skipn F _ eb _ bytes _ We Fe Ee S4).
  (* the three filters; decoding the entries *)
  rewrite forallb_forall, <- Forall_forall in Fu.
  assert (Uid : Forall (fun r : list N * Z * resval => user_id (fst (fst r)) = true) (v_res v)).
  { eapply Forall_impl; [|exact Fu]. intros r [[Hr _]%andb_prop _]%andb_prop. exact Hr. }
  assert (Ufl : Forall (fun r : list N * Z * resval => (0 <= snd (fst r) < 256)%Z) (v_res v)).
  { eapply Forall_impl; [|exact Fu]. intros r [[_ H1%Z.leb_le]%andb_prop H2%Z.ltb_lt]%andb_prop. lia. }
  assert (HS : sheet_entry F v = [] \/ exists sx, sheet_entry F v = [(ID_SHEET, 0%Z, sx)]).
  { unfold sheet_entry. destruct (v_sheet v); eauto. }
  destruct (filters_dir _ (Z.of_nat (low_off73 F v)) (Z.of_nat (high_off73 F v)) _
              (abs_entries_ids (fun id => user_id id = true) G _ (block_offs F v) Uid) HS) as (Fl1 & Fl2 & Fl3).
  unfold all_entries. rewrite Fl1, Fl2, Fl3. clear Fl1 Fl2 Fl3 HS.
  change (map _ (abs_entries G (v_res v) (block_offs F v) ++ sheet_entry F v))
    with (map (dec_e F G bytes) (abs_entries G (v_res v) (block_offs F v) ++ sheet_entry F v)).
  apply (Forall2_app_split _ _ _ _ (data_of (v_res v))) in RB. destruct RB as [RB1 RB2].
  rewrite map_app, (dec_abs F G bytes HG (v_res v) (block_offs F v) Ufl RB1).
  assert (Sh : map (dec_e F G bytes) (sheet_entry F v) = map Some (sheet_res v)).
  { unfold sheet_entry, sheet_res. destruct (v_sheet v) as [sd|]; [|reflexivity].
    inversion RB2 as [|o ? ? ? Hrd]; subst.
    destruct (flags_roundtrip G HG 0%Z ltac:(lia)) as (Ho & _ & Ht & _). rewrite Ho in Ht. change (clear2 0) with 0%Z in Ht.
    cbn [map dec_e hd]. rewrite Ht, Nat2Z.id, Hrd. reflexivity. }
  rewrite Sh, <- (map_map norm Some), <- map_app, existsb_map_Some, flat_map_map_Some.
  destruct (sheet_found v Uid) as [-> ->]. cbn [snd]. rewrite !Nat2Z.id. reflexivity.
Qed.

(** * the whole file before 7.3: no resource directory, 15 bytes of padding, depth only from 7.2 *)

Lemma encode_old : forall F G v, (v_minor v < 3)%Z ->
  encode_file F G v =
  opt_concat [Some MAGIC; pack (f_version F) [VInt 7; VInt (v_minor v)];
              pack (f_header F) (set_header_size (v_header v) (hs_old F v));
              (if (2 <=? v_minor v)%Z then pack (f_depth F) [VInt (v_depth v)] else Some []);
              Some (repeat 0%N 15); Some []; Some (v_low v); Some (List.concat (v_high v))].
Proof.
  intros F G v Hm. destruct v as [m hd0 dp rs sh lo hi]. cbn [v_minor] in Hm. unfold encode_file, hs_old. cbn [v_minor].
  replace (3 <=? m)%Z with false by (symmetry; apply Z.leb_gt; lia).
  cbv zeta. rewrite res_entries_abs. reflexivity.
Qed.

Lemma encoded_old : forall F G v, fmts_wf F = true -> (v_minor v < 3)%Z -> vfile_fits_old F v = true ->
  exists vb hb db,
    pack (f_version F) [VInt 7; VInt (v_minor v)] = Some vb
    /\ pack (f_header F) (set_header_size (v_header v) (hs_old F v)) = Some hb
    /\ (if (2 <=? v_minor v)%Z then pack (f_depth F) [VInt (v_depth v)] else Some []) = Some db
    /\ encode_file F G v = Some (MAGIC ++ vb ++ hb ++ db ++ repeat 0%N 15 ++ v_low v ++ List.concat (v_high v)).
Proof.
  intros F G v [[[[[[Wv Wh]%andb_prop Wd]%andb_prop _]%andb_prop _]%andb_prop _]%andb_prop _]%andb_prop Hm
    [[[[Fv Fh]%andb_prop Fd]%andb_prop _]%andb_prop _]%andb_prop.
  destruct (pack_fits _ _ Wv Fv) as (vb & Ev). destruct (pack_fits _ _ Wh Fh) as (hb & Eh).
  destruct (pack_fits _ _ Wd Fd) as (db & Ed).
  exists vb, hb, (if (2 <=? v_minor v)%Z then db else []). rewrite (encode_old F G v Hm). cbn [opt_concat]. rewrite Ev, Eh.
  destruct (2 <=? v_minor v)%Z; rewrite ?Ed; cbn [opt_app]; rewrite app_nil_r, app_nil_l; auto.
Qed.

Theorem whole_file_pre73 : forall F G v file,
  fmts_wf F = true -> (v_minor v < 3)%Z -> vfile_fits_old F v = true ->
  encode_file F G v = Some file ->
  decode_file F G (List.length (v_low v)) file
  = Some (v_minor v, set_header_size (v_header v) (hs_old F v), v_depth v, [], None, hs_old F v, hs_old F v + List.length (v_low v))
  /\ exists pre, file = pre ++ v_low v ++ List.concat (v_high v) /\ List.length pre = hs_old F v.
Proof.
  intros F G v file HW Hm HF Henc.
  destruct (encoded_old F G v HW Hm HF) as (vb & hb & db & Ev & Eh & Ed & E).
  rewrite E in Henc. set (bytes := MAGIC ++ _) in Henc. injection Henc as <-. clear E.
  revert HW HF. intros [[[[[[Wv Wh]%andb_prop Wd]%andb_prop _]%andb_prop _]%andb_prop _]%andb_prop _]%andb_prop
    [[[[Fv Fh]%andb_prop Fd]%andb_prop Hne]%andb_prop Dep]%andb_prop.
  assert (Ld : List.length db = if (2 <=? v_minor v)%Z then calcsize (f_depth F) else 0).
  { destruct (2 <=? v_minor v)%Z; [apply (pack_length _ _ _ Ed)|injection Ed as <-; reflexivity]. }
  split.
  2:{ exists (MAGIC ++ vb ++ hb ++ db ++ repeat 0%N 15). split; [rewrite <- !app_assoc; reflexivity|].
      unfold hs_old. rewrite !app_length, (pack_length _ _ _ Ev), (pack_length _ _ _ Eh), Ld, repeat_length. cbn [MAGIC List.length]. lia. }
  unfold decode_file. change (negb (bytes_eqb (slice bytes 0 4) [86; 84; 70; 0]%N)) with false. cbv iota.
  destruct (read_at_skipn _ _ _ _ bytes 4 Wv Fv Ev eq_refl) as [-> S1]. cbv beta iota.
  destruct (read_at_skipn _ _ _ _ bytes _ Wh Fh Eh S1) as [-> S2].
  replace (3 <=? v_minor v)%Z with false by (symmetry; apply Z.leb_gt; lia).
  destruct (v_header v) as [|x r]; [discriminate|]. cbn [set_header_size hd getZ]. rewrite Nat2Z.id.
  destruct (2 <=? v_minor v)%Z.
  - destruct (read_at_skipn _ _ _ _ bytes _ Wd Fd Ed S2) as [-> _]. reflexivity.
  - apply Z.eqb_eq in Dep. rewrite Dep. reflexivity.
Qed.

(** * container + frames: the whole file *)
(** Behind any prefix: the thumbnail, then every frame where read()'s table of offsets says. *)
Lemma image_in_file : forall c so ro, sides_ok c = true -> lorder_eqb so ro = true ->
  forall envmap object written depth mips frames (content : key -> list N) (size : nat -> nat) (pre low : list N) high file,
    (forall k, List.length (content k) = size (k_mip k)) ->
    high = map content (walk so mips frames (save_sides c envmap object written depth) key0) ->
    file = pre ++ low ++ List.concat high ->
    slice file (List.length pre) (List.length low) = low
    /\ Forall (fun ok => slice file (fst ok) (size (k_mip (snd ok))) = content (snd ok))
              (read_table ro mips frames (read_sides c envmap written depth) size (List.length pre + List.length low)).
Proof.
  intros c so ro Hc Ho envmap object written depth mips frames content size pre low high file Hsz -> ->.
  split; [apply slice_app|]. rewrite app_assoc, <- app_length. apply written_frames_read_back; assumption.
Qed.

(** A file written by save() for version 7.3+: the image part is the frames in the order of save()'s loop nest over the
    sides of the version written.  Then (1) [decode_file] returns the metadata, resources, sheet and the two offsets as
    in [whole_file_73]; (2) the thumbnail is at the offset returned; (3) for every (frame, side, mipmap) read() visits
    - it walks ITS loop nest over the sides of the version found in the file, starting at the offset returned - the bytes
    at the offset it records, of the size it computes for that level, are the bytes save() produced for that key. *)
Theorem whole_file_with_frames_73 : forall F G v low_size file c so ro,
  fmts_wf F = true -> flags_ok G = true -> (3 <= v_minor v)%Z -> vfile_fits F G v = true ->
  sides_ok c = true -> lorder_eqb so ro = true ->
  forall envmap object depth mips frames (content : key -> list N) (size : nat -> nat),
    (forall k, List.length (content k) = size (k_mip k)) ->
    v_high v = map content (walk so mips frames (save_sides c envmap object (v_minor v) depth) key0) ->
    encode_file F G v = Some file ->
    decode_file F G low_size file
    = Some (v_minor v, set_header_size (v_header v) (hs73 F v), v_depth v, map norm (v_res v), v_sheet v, low_off73 F v, high_off73 F v)
    /\ slice file (low_off73 F v) (List.length (v_low v)) = v_low v
    /\ Forall (fun ok => slice file (fst ok) (size (k_mip (snd ok))) = content (snd ok))
              (read_table ro mips frames (read_sides c envmap (v_minor v) depth) size (high_off73 F v)).
Proof.
  intros F G v low_size file c so ro HW HG Hm HF Hc Ho envmap object depth mips frames content size Hsz Hhigh Henc.
  destruct (whole_file_73 F G v low_size file HW HG Hm HF Henc) as (Hdec & pre & Hfile & Hlen).
  split; [exact Hdec|]. unfold high_off73. rewrite <- Hlen.
  exact (image_in_file c so ro Hc Ho envmap object (v_minor v) depth mips frames content size pre (v_low v) (v_high v) file Hsz Hhigh Hfile).
Qed.

(** the same before 7.3 (no directory: read() computes the offsets from the header size and the thumbnail size) *)
Theorem whole_file_with_frames_pre73 : forall F G v file c so ro,
  fmts_wf F = true -> (v_minor v < 3)%Z -> vfile_fits_old F v = true ->
  sides_ok c = true -> lorder_eqb so ro = true ->
  forall envmap object depth mips frames (content : key -> list N) (size : nat -> nat),
    (forall k, List.length (content k) = size (k_mip k)) ->
    v_high v = map content (walk so mips frames (save_sides c envmap object (v_minor v) depth) key0) ->
    encode_file F G v = Some file ->
    decode_file F G (List.length (v_low v)) file
    = Some (v_minor v, set_header_size (v_header v) (hs_old F v), v_depth v, [], None, hs_old F v, hs_old F v + List.length (v_low v))
    /\ slice file (hs_old F v) (List.length (v_low v)) = v_low v
    /\ Forall (fun ok => slice file (fst ok) (size (k_mip (snd ok))) = content (snd ok))
              (read_table ro mips frames (read_sides c envmap (v_minor v) depth) size (hs_old F v + List.length (v_low v))).
Proof.
  intros F G v file c so ro HW Hm HF Hc Ho envmap object depth mips frames content size Hsz Hhigh Henc.
  destruct (whole_file_pre73 F G v file HW Hm HF Henc) as (Hdec & pre & Hfile & Hlen).
  split; [exact Hdec|]. rewrite <- Hlen.
  exact (image_in_file c so ro Hc Ho envmap object (v_minor v) depth mips frames content size pre (v_low v) (v_high v) file Hsz Hhigh Hfile).
Qed.

(** the hypotheses are satisfiable: an example file of version 7.4 and one of version 7.2 *)
Example whole_file_inhabited :
  fmts_wf std_fmts = true /\ vfile_fits std_fmts good_flagcfg (ex_file 4) = true /\ vfile_fits_old std_fmts (ex_file 2) = true
  /\ option_map (@List.length N) (encode_file std_fmts good_flagcfg (ex_file 4)) = Some 144
  /\ option_map (@List.length N) (encode_file std_fmts good_flagcfg (ex_file 2)) = Some 88
  /\ option_map (decode_file std_fmts good_flagcfg 2) (encode_file std_fmts good_flagcfg (ex_file 4))
     = Some (Some (4%Z, set_header_size ex_header 120, 1%Z,
                   [([67; 82; 67]%N, 66%Z, RInline 305419896); ([75; 86; 68]%N, 64%Z, RData [1; 2; 3; 4; 5]%N)],
                   Some [9; 8; 7]%N, 136, 138)).
Proof. vm_compute. repeat split; reflexivity. Qed.

Example save_events_inhabited : save_events_ok good_save_events = true.
Proof. vm_compute. reflexivity. Qed.
