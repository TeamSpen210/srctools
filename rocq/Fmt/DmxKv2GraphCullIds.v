(** C14 — [cull_uuid]: what the option loses.  The tree of blocks written with [cull_uuid] does not depend on the ids of
    the elements written inline: two graphs that differ only there have the same culled export, which is the erasure
    of the unculled tree of either.  (The reader gives every block without id line a fresh UUID: what it returns is one of
    these graphs.) *)
From Coq Require Import NArith List Bool.
From SV Require Import Fmt.DmxKv2 Fmt.DmxKv2Nested Fmt.DmxKv2Graph Fmt.DmxKv2GraphProofs
  Fmt.DmxKv2GraphCull Fmt.DmxKv2GraphWhole.
Import ListNotations.
Open Scope nat_scope.

Definition same_but_id (e e2 : gelem) : Prop := ge_type e = ge_type e2 /\ ge_name e = ge_name e2 /\ ge_attrs e = ge_attrs e2.
(** [g2] is [g] with possibly other ids for the elements that are not roots *)
Definition differs_in_inline_ids (isroot : nat -> bool) (g g2 : gdoc) : Prop :=
  Forall2 same_but_id g g2 /\ forall i, isroot i = true -> nth i (ids g) [] = nth i (ids g2) [].

Lemma Forall2_nth_error {A B} (R : A -> B -> Prop) l l' : Forall2 R l l' -> forall i,
  match nth_error l i, nth_error l' i with Some a, Some b => R a b | None, None => True | _, _ => False end.
Proof.
  induction 1 as [|x y l l' Hxy Hl IH]; intros [|i]; cbn [nth_error]; try exact I; [exact Hxy|apply IH].
Qed.

Section CullIds.
Variable isroot : nat -> bool.
Variables g g2 : gdoc.
Hypothesis H : differs_in_inline_ids isroot g g2.

Lemma nest_elem_cull_ids : forall f i, nest_elem g isroot true f i = nest_elem g2 isroot true f i.
Proof.
  destruct H as [HF Hid].
  induction f as [|f IH]; intros i; [reflexivity|]. rewrite !nest_elem_S.
  pose proof (Forall2_nth_error _ _ _ HF i) as Hn.
  destruct (nth_error g i) as [e|] eqn:E1; destruct (nth_error g2 i) as [e2|] eqn:E2; try contradiction; [|reflexivity].
  destruct Hn as [Et [En Ea]]. rewrite <- Et, <- En, <- Ea.
  assert (Hit : forall it, item_fn g isroot true f it = item_fn g2 isroot true f it).
  { intros [s|[j| |u]]; cbn [item_fn]; try reflexivity. destruct (isroot j) eqn:Rj; [now rewrite (Hid j Rj)|now rewrite IH]. }
  rewrite (map_opt_ext (attr_fn (item_fn g isroot true f)) (attr_fn (item_fn g2 isroot true f))).
  - destruct (map_opt _ (ge_attrs e)); [|reflexivity].
    destruct (isroot i) eqn:Ri; cbn [andb negb]; [|reflexivity].
    specialize (Hid i Ri). rewrite !nth_ids, (nth_error_nth _ _ _ E1), (nth_error_nth _ _ _ E2) in Hid. now rewrite Hid.
  - intros a _. unfold attr_fn. rewrite (map_opt_ext _ (item_fn g2 isroot true f)) by (intros; apply Hit). reflexivity.
Qed.

Theorem culled_export_ignores_inline_ids : nest_doc g isroot true = nest_doc g2 isroot true.
Proof.
  unfold nest_doc, root_list. rewrite (Forall2_len _ _ _ (proj1 H)). apply map_opt_ext. intros r _. apply nest_elem_cull_ids.
Qed.

End CullIds.

(** example: [ex_graph] with other ids for the two inline elements (2 and 3): another unculled export, the same culled one *)
Definition ex_graph_relabelled : gdoc :=
  map (fun e => if str_eqb (ge_id e) [99%N] then {| ge_type := ge_type e; ge_id := [120%N; 49%N]; ge_name := ge_name e; ge_attrs := ge_attrs e |}
                else if str_eqb (ge_id e) [100%N] then {| ge_type := ge_type e; ge_id := [120%N; 50%N]; ge_name := ge_name e; ge_attrs := ge_attrs e |}
                else e) ex_graph.
Definition ondoc_same (a b : option ndoc) : bool :=
  match a, b with
  | Some x, Some y => str_eqb (rendern_doc pinned_tables x) (rendern_doc pinned_tables y)
  | None, None => true
  | _, _ => false
  end.
Example culled_export_example :
  let r := ex_isroot pinned_rootcfg ex_graph in
  map r [0; 1; 2; 3] = [true; true; false; false] /\
  ondoc_same (nest_doc ex_graph r true) (nest_doc ex_graph_relabelled r true) = true /\
  ondoc_same (nest_doc ex_graph r false) (nest_doc ex_graph_relabelled r false) = false /\
  match nest_doc ex_graph r true with Some d => negb (str_eqb (rendern_doc pinned_tables d) []) | None => false end = true.
Proof. vm_compute. repeat split. Qed.
Lemma ex_graph_relabelled_differs : differs_in_inline_ids (ex_isroot pinned_rootcfg ex_graph) ex_graph ex_graph_relabelled.
Proof.
  split.
  - unfold ex_graph_relabelled. induction ex_graph as [|e l IH]; cbn [map]; constructor; [|exact IH].
    destruct (str_eqb (ge_id e) [99%N]); [|destruct (str_eqb (ge_id e) [100%N])]; repeat split.
  - intros [|[|[|[|i]]]] Hi; try reflexivity; try (vm_compute in Hi; discriminate Hi).
Qed.
