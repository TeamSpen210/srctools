(** Round trip of the PHYSCOLLIDE lump (model in BspPhys.v), generic in the configuration read from bsp.py. *)
From Coq Require Import ZArith List Bool Lia.
From SV Require Import Bin.Struct Bin.StructProofs Fmt.BspPhys.
Import ListNotations.
Local Open Scope nat_scope.

Lemma take_app : forall (a b : list N) n, List.length a = n -> take n (a ++ b) = Some (a, b).
Proof.
  intros a b n H. unfold take. rewrite app_length.
  assert (E : (List.length a + List.length b <? n) = false) by (apply Nat.ltb_ge; lia). rewrite E.
  rewrite <- H, firstn_length_app, skipn_length_app. reflexivity.
Qed.

Lemma bread_app : forall (a b : list N), bread (Z.of_nat (List.length a)) (a ++ b) = (a, b).
Proof.
  intros a b. unfold bread. assert (E : (Z.of_nat (List.length a) <? 0)%Z = false) by (apply Z.ltb_ge; lia). rewrite E.
  rewrite Nat2Z.id, firstn_length_app, skipn_length_app. reflexivity.
Qed.

Lemma hlabel_eqb_eq : forall a b, hlabel_eqb a b = true <-> a = b.
Proof. intros [] []; cbn; split; intro H; try reflexivity; try discriminate. Qed.

Lemma hget_map : forall (f : hlabel -> Z) order l, has l order = true -> hget order (map (fun x => VInt (f x)) order) l = f l.
Proof.
  intros f order l. unfold hget. induction order as [|x r IH]; intro H; [discriminate|].
  cbn [has existsb] in H. cbn [hpos]. destruct (hlabel_eqb l x) eqn:E.
  - apply hlabel_eqb_eq in E. subst x. reflexivity.
  - cbn [orb] in H. cbn [map nth]. apply IH. exact H.
Qed.

Lemma hl_eqb_eq : forall a b, hl_eqb a b = true -> a = b.
Proof.
  induction a as [|x a IH]; intros [|y b] H; try discriminate; [reflexivity|].
  cbn [hl_eqb] in H. apply andb_prop in H. destruct H as [H1 H2]. apply hlabel_eqb_eq in H1. subst y. f_equal. apply IH. exact H2.
Qed.

Lemma pack_ints : forall (zs : list Z), List.length zs = 4 -> forallb i32_ok zs = true ->
  exists bs, pack hdr_fmt (map VInt zs) = Some bs /\ List.length bs = 16 /\ unpack hdr_fmt bs = Some (map VInt zs).
Proof.
  intros zs Hl Hr. apply (unpack_pack_sized hdr_fmt); [reflexivity|].
  destruct zs as [|a [|b [|c [|d [|e r]]]]]; try discriminate. exact Hr.
Qed.

Lemma pack_len : forall z, i32_ok z = true ->
  exists bs, pack len_fmt [VInt z] = Some bs /\ List.length bs = 4 /\ unpack len_fmt bs = Some [VInt z].
Proof.
  intros z H. apply (unpack_pack_sized len_fmt); [reflexivity|].
  cbn [fits len_fmt i32 fits1]. rewrite andb_true_r. exact H.
Qed.

Lemma solids_roundtrip : forall ss, forallb (fun s => i32_ok (Z.of_nat (List.length s))) ss = true ->
  exists bs, write_solids ss = Some bs /\ forall rest, read_solids (List.length ss) (bs ++ rest) = Some (ss, rest).
Proof.
  induction ss as [|s r IH]; intro H.
  - exists []. split; [reflexivity|]. intros rest. reflexivity.
  - cbn [forallb] in H. apply andb_prop in H. destruct H as [Hs Hr]. destruct (IH Hr) as (br & Hw & Hrd).
    destruct (pack_len _ Hs) as (hb & Hp & Hl & Hu).
    exists ((hb ++ s) ++ br). split.
    + cbn [write_solids]. rewrite Hp, Hw. reflexivity.
    + intros rest. cbn [List.length read_solids]. rewrite <- !app_assoc. rewrite (take_app hb _ 4 Hl). rewrite Hu.
      rewrite bread_app. rewrite Hrd. reflexivity.
Qed.

Lemma rstrip0_snoc0 : forall l, last l 1%N <> 0%N -> rstrip0 (l ++ [0%N]) = l.
Proof.
  intros l H. change [0%N] with (repeat 0%N 1). rewrite rstrip0_app_zeros. apply rstrip0_id. exact H.
Qed.

Section Roundtrip.
Variables (order : list hlabel) (sent : Z).
Hypothesis Hlen : List.length order = 4.
Hypothesis Hi : has HIndex order = true.
Hypothesis Hk : has HKvLen order = true.
Hypothesis Hc : has HCount order = true.
Hypothesis Hsent : i32_ok sent = true.

Lemma sentinel_reads : exists bs, sentinel_hdr order sent = Some bs /\ forall fuel rest, read_blocks (S fuel) order sent true (bs ++ rest) = Some [].
Proof.
  unfold sentinel_hdr. set (f := fun l => match l with HIndex => sent | _ => 0%Z end).
  destruct (pack_ints (map f order)) as (bs & Hp & Hl & Hu).
  - rewrite map_length. exact Hlen.
  - rewrite forallb_forall. intros z Hz. apply in_map_iff in Hz. destruct Hz as (l & <- & _). destruct l; cbn; try exact Hsent; reflexivity.
  - rewrite map_map in Hp, Hu. exists bs. split; [exact Hp|]. intros fuel rest. cbn [read_blocks]. rewrite (take_app bs rest 16 Hl). rewrite Hu.
    rewrite (hget_map f order HIndex Hi). cbn [f]. rewrite Z.eqb_refl. reflexivity.
Qed.

(** One block: its bytes are read back as the block, and the reader goes on behind them. *)
Lemma block_reads : forall b, block_wf sent b = true ->
  exists bs, write_block order b = Some bs /\
    forall fuel rest, read_blocks (S fuel) order sent true (bs ++ rest) = option_map (cons b) (read_blocks fuel order sent true rest).
Proof.
  intros b Hb. unfold block_wf in Hb.
  apply andb_prop in Hb. destruct Hb as [Hb Hlast]. apply andb_prop in Hb. destruct Hb as [Hb Hss].
  apply andb_prop in Hb. destruct Hb as [Hb Hct]. apply andb_prop in Hb. destruct Hb as [Hb Hkl].
  apply andb_prop in Hb. destruct Hb as [Hb Hsz]. apply andb_prop in Hb. destruct Hb as [Hns Hix].
  apply negb_true_iff in Hns, Hlast. apply N.eqb_neq in Hlast.
  destruct (pack_ints (map (hval b) order)) as (hb & Hp & Hl & Hu).
  { rewrite map_length. exact Hlen. }
  { rewrite forallb_forall. intros z Hz. apply in_map_iff in Hz. destruct Hz as (l & <- & _). destruct l; cbn [hval]; assumption. }
  rewrite map_map in Hp, Hu.
  destruct (solids_roundtrip (pb_solids b) Hss) as (sb & Hws & Hrs).
  exists ((hb ++ sb) ++ (pb_kvs b ++ [0%N])). split.
  - unfold write_block. rewrite Hp, Hws. reflexivity.
  - intros fuel rest. cbn [read_blocks]. rewrite <- !app_assoc. rewrite (take_app hb _ 16 Hl), Hu.
    rewrite (hget_map (hval b) order HIndex Hi), (hget_map (hval b) order HCount Hc), (hget_map (hval b) order HKvLen Hk).
    cbn [hval]. rewrite Nat2Z.id, Hns, Hrs.
    replace (Z.of_nat (S (List.length (pb_kvs b)))) with (Z.of_nat (List.length (pb_kvs b ++ [0%N]))) by (rewrite app_length; cbn [List.length]; f_equal; lia).
    rewrite app_assoc, bread_app, (rstrip0_snoc0 _ Hlast).
    destruct (read_blocks fuel order sent true rest); [destruct b|]; reflexivity.
Qed.

Theorem phys_roundtrip_ordered : forall bl, forallb (block_wf sent) bl = true ->
  exists bs, write_blocks order sent bl = Some bs /\ read_blocks (S (List.length bl)) order sent true bs = Some bl.
Proof.
  induction bl as [|b r IH]; intro H.
  - destruct sentinel_reads as (bs & Hw & Hr). exists bs. split; [exact Hw|]. specialize (Hr 0 []). rewrite app_nil_r in Hr. exact Hr.
  - cbn [forallb] in H. apply andb_prop in H. destruct H as [Hb Hrest]. destruct (IH Hrest) as (br & Hwr & Hrr).
    destruct (block_reads b Hb) as (bb & Hwb & Hrb).
    exists (bb ++ br). split.
    + cbn [write_blocks]. rewrite Hwb, Hwr. reflexivity.
    + cbn [List.length]. rewrite Hrb, Hrr. reflexivity.
Qed.
End Roundtrip.

(** Generic over the configuration read from the source. *)
Theorem phys_roundtrip : forall wo ro ws rs wseg rseg term strip, phys_cfg_ok (wo, ro, ws, rs, wseg, rseg, term, strip) = true ->
  forall bl, forallb (block_wf ws) bl = true ->
  exists bs, write_blocks wo ws bl = Some bs /\ read_blocks (S (List.length bl)) ro rs strip bs = Some bl.
Proof.
  intros wo ro ws rs wseg rseg term strip H bl Hbl. unfold phys_cfg_ok in H.
  repeat (apply andb_prop in H; destruct H as [H ?]).
  apply hl_eqb_eq in H. subst ro.
  match goal with E : (ws =? rs)%Z = true |- _ => apply Z.eqb_eq in E; subst rs end.
  match goal with E : strip = true |- _ => subst strip end.
  match goal with E : Nat.eqb _ 4 = true |- _ => apply Nat.eqb_eq in E end.
  apply phys_roundtrip_ordered; assumption.
Qed.

(** The block of [c11_physcollide_swapped_header_refuted] (Props/C11.v): the reader takes the count where the writer
    put the text length. *)
Example phys_block : pblock := {| pb_index := 1%Z; pb_solids := [[7%N; 8%N]]; pb_kvs := [65%N] |}.
