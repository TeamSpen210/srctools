(** C14 — the nested KeyValues2 layout, graph to graph: with the root rule of [export_kv2] every element reachable from
    the exported one is written exactly once (sharing and cycles become references by id to top-level blocks), the
    tree of blocks can be carried by the text ([ndoc_ok], so the text theorem applies), and what the reader registers
    is, up to the order of the blocks, the flat document of the graph — whose references resolve to the same
    elements ([link_flatten]). *)
From Coq Require Import NArith List Bool PeanoNat Permutation.
From SV Require Import Text.Str Fmt.DmxKv2 Fmt.DmxKv2Proofs Fmt.DmxKv2Nested Fmt.DmxKv2NestedProofs
  Fmt.DmxKv2Graph Fmt.DmxKv2GraphProofs Fmt.DmxKv2GraphUnique Fmt.DmxKv2GraphFuel Fmt.DmxKv2GraphLink.
Import ListNotations.
Open Scope nat_scope.

Lemma existsb_str_in u l : existsb (str_eqb u) l = true <-> In u l.
Proof.
  split; intros H.
  - apply existsb_exists in H. destruct H as [x [Hx E]]. apply str_eqb_eq in E. now subst x.
  - apply existsb_exists. exists u. split; [assumption|apply str_eqb_refl].
Qed.

Lemma nodup_str_iff l : nodup_str l = true <-> NoDup l.
Proof.
  induction l as [|x l IH]; cbn [nodup_str]; [split; [constructor|reflexivity]|].
  rewrite andb_true_iff, negb_true_iff, IH, <- not_true_iff_false, existsb_str_in. split.
  - intros [Hx Hl]. now constructor.
  - intros Hn. inversion Hn. now split.
Qed.

Lemma NoDup_map_inj_in {A B} (f : A -> B) l : (forall x y, In x l -> In y l -> f x = f y -> x = y) -> NoDup l -> NoDup (map f l).
Proof.
  intros Hinj Hn. induction Hn as [|x l Hx Hl IH]; [constructor|]. cbn [map]. constructor.
  - intros Hin. apply in_map_iff in Hin. destruct Hin as [y [Hy Hin]]. assert (y = x) by (apply Hinj; [now right|now left|assumption]).
    subst y. contradiction.
  - apply IH. intros a b Ha Hb. apply Hinj; now right.
Qed.

(** a test that holds of every part of [l] holds of every part written for it *)
Lemma map_opt_forallb {A B C} (F : A -> option B) (p : A -> C) (P : C -> bool) (Q : B -> bool) :
  (forall x y, F x = Some y -> P (p x) = true -> Q y = true) ->
  forall l r, map_opt F l = Some r -> forallb P (map p l) = true -> forallb Q r = true.
Proof.
  intros HPQ l r H. apply map_opt_Forall2 in H. induction H as [|x y l r Fx _ IH]; intros Hl; [reflexivity|].
  cbn [map forallb] in Hl |- *. apply andb_prop in Hl. destruct Hl as [Hx Hl]. now rewrite (HPQ x y Fx Hx), IH.
Qed.

Section Whole.
Variable g : gdoc.

Lemma graph_ok_parts : graph_ok g = true -> NoDup (ids g) /\ refs_in_range g.
Proof.
  unfold graph_ok. intros H. apply andb_prop in H. destruct H as [Hn Hr]. split; [now apply nodup_str_iff|].
  intros i a j Ha Hj. destruct (Nat.lt_ge_cases i (length g)) as [Li|Li].
  - rewrite forallb_forall in Hr. specialize (Hr (nth i g dflt_gelem) (nth_In g dflt_gelem Li)).
    rewrite forallb_forall in Hr. specialize (Hr a Ha). rewrite forallb_forall in Hr. specialize (Hr _ Hj).
    cbn [gitem_ok] in Hr. apply Nat.ltb_lt in Hr. now rewrite map_length in Hr.
  - rewrite nth_overflow in Ha by assumption. destruct Ha.
Qed.

Lemma ids_flatk l : map id_text (map (fun i => flat_elem (ids g) (nth i g dflt_gelem)) l) = map (fun i => nth i (ids g) []) l.
Proof. rewrite map_map. apply map_ext. intros i. unfold id_text. cbn [flat_elem ke_id]. symmetry. apply nth_ids. Qed.

Lemma ids_inj : NoDup (ids g) -> forall i j, i < length g -> j < length g -> nth i (ids g) [] = nth j (ids g) [] -> i = j.
Proof. intros Hn i j Li Lj. apply (proj1 (NoDup_nth (ids g) []) Hn); now rewrite ids_length. Qed.

(** for any root predicate that makes the exported element a root and under which an element that is not a root is
    held at most once: every element is written once, and the reader registers the flat document up to order *)
Section AnyRoots.
Variable isroot : nat -> bool.
Hypothesis Hg : graph_ok g = true.
Hypothesis HU : NoDup (K g isroot (seq 0 (length g))).

Theorem written_once_any_roots d : nest_doc g isroot false = Some d -> written_once d = true.
Proof.
  intros H. destruct (graph_ok_parts Hg) as [Hn Hr]. unfold written_once. rewrite (unnest_nest g isroot d H).
  unfold flatk. rewrite ids_flatk. apply nodup_str_iff. apply NoDup_map_inj_in.
  - pose proof (all_blocks_in_range g isroot d H) as F. rewrite Forall_forall in F.
    intros x y Hx Hy. apply (ids_inj Hn); now apply F.
  - apply (all_blocks_nodup g isroot Hr HU).
Qed.

Theorem flatten_permuted_any_roots d : isroot 0 = true -> g <> [] -> (forall j, j < length g -> reach g j) ->
  nest_doc g isroot false = Some d ->
  Permutation (unnest d) (flatten g) /\ exists rest, unnest d = flat_elem (ids g) (nth 0 g dflt_gelem) :: rest.
Proof.
  intros R0 Hne Hreach H. destruct (graph_ok_parts Hg) as [Hn Hr]. split.
  - apply NoDup_Permutation.
    + apply (NoDup_map_inv id_text). apply nodup_str_iff. apply (written_once_any_roots d H).
    + apply (NoDup_map_inv id_text). unfold flatten. rewrite map_map. cbn [id_text flat_elem ke_id]. exact Hn.
    + intros k. split; intros Hk.
      * destruct (nest_only_graph_elements g isroot d H k Hk) as [i [Li ->]]. unfold flatten. apply in_map. now apply nth_In.
      * unfold flatten in Hk. apply in_map_iff in Hk. destruct Hk as [e [<- He]]. destruct (In_nth g e dflt_gelem He) as [i [Li <-]].
        apply (nest_complete g isroot d R0 Hne Hr H i (Hreach i Li)).
  - apply (nest_root_first g isroot d R0 Hne H).
Qed.
End AnyRoots.

Section Rule.
Variable T : tables.
Variable fold : str -> str.
Variable vtnames : list str.
Variable c : rootcfg.
Hypothesis Hc : root_rule_ok c = true.
Hypothesis Hg : graph_ok g = true.
Notation isroot := (is_root fold vtnames c false g).

Lemma rule_nodup : NoDup (K g isroot (seq 0 (length g))).
Proof.
  apply non_roots_used_once_nodup. intros j Hj. apply (non_root_used_at_most_once fold vtnames c Hc false g j Hj).
Qed.

(** the writer's recursion ends: the tree of blocks exists *)
Theorem nest_total : exists d, nest_doc g isroot false = Some d.
Proof. destruct (graph_ok_parts Hg) as [_ Hr]. exact (nest_doc_total g isroot Hr rule_nodup). Qed.

(** sharing: no element is written twice *)
Theorem nest_written_once d : nest_doc g isroot false = Some d -> written_once d = true.
Proof. exact (written_once_any_roots isroot Hg rule_nodup d). Qed.

(** the whole step: the reader registers exactly the elements of the graph, each once, the exported one first *)
Theorem nest_is_flatten_permuted d : g <> [] -> (forall j, j < length g -> reach g j) ->
  nest_doc g isroot false = Some d ->
  Permutation (unnest d) (flatten g) /\ exists rest, unnest d = flat_elem (ids g) (nth 0 g dflt_gelem) :: rest.
Proof. exact (flatten_permuted_any_roots isroot Hg rule_nodup d (exported_element_is_root fold vtnames c Hc false g)). Qed.

(** the graph the reader builds from the registered elements: its flat document is what was registered *)
Theorem nest_reader_graph d : nest_doc g isroot false = Some d -> exists g', link (unnest d) = Some g' /\ flatten g' = unnest d.
Proof.
  intros H. rewrite (unnest_nest g isroot d H). unfold link.
  replace (map (flatk g) (all_blocks g isroot)) with (map (flat_elem (ids g)) (map (fun i => nth i g dflt_gelem) (all_blocks g isroot)))
    by (rewrite map_map; reflexivity).
  rewrite all_ids_flatten. eexists. split; [reflexivity|].
  apply flatten_link. unfold link. now rewrite all_ids_flatten.
Qed.

(** the tree of blocks can be carried by the text: no inline block has an attribute type keyword as its type *)
Hypothesis Hdoc : doc_ok T vtnames (flatten g) = true.

Lemma flat_elem_ok i : i < length g -> elem_ok T vtnames (flat_elem (ids g) (nth i g dflt_gelem)) = true.
Proof.
  intros Li. unfold doc_ok in Hdoc. apply andb_prop in Hdoc. destruct Hdoc as [_ H]. rewrite forallb_forall in H.
  apply H. unfold flatten. apply in_map. now apply nth_In.
Qed.

Definition okf (f : nat) : Prop := forall i t top, nest_elem g isroot false f i = Some t -> (top = true \/ isroot i = false) ->
  nelem_ok T fold vtnames top t = true.

Lemma item_okf f is_elem it ni : okf f -> item_fn g isroot false f it = Some ni ->
  item_ok T is_elem (flat_item (ids g) it) = true -> nitem_ok T fold vtnames is_elem ni = true.
Proof.
  intros IH Hi Hit. destruct it as [s|[j| |u]]; cbn [item_fn] in Hi; cbn [flat_item item_ok] in Hit.
  - injection Hi as <-. exact Hit.
  - destruct (isroot j) eqn:Rj.
    + injection Hi as <-. exact Hit.
    + destruct (nest_elem g isroot false f j) as [t|] eqn:Nj; [|discriminate]. injection Hi as <-.
      cbn [nitem_ok]. apply andb_prop in Hit. destruct Hit as [-> _]. apply (IH j t false Nj). now right.
  - injection Hi as <-. exact Hit.
  - injection Hi as <-. exact Hit.
Qed.

Lemma attr_okf f a na : okf f -> attr_fn (item_fn g isroot false f) a = Some na ->
  attr_ok T vtnames (flat_attr (ids g) a) = true -> nattr_ok T fold vtnames na = true.
Proof.
  intros IH Ha Hok. unfold attr_fn in Ha. destruct (map_opt _ (ga_items a)) as [its|] eqn:Hi; [|discriminate]. injection Ha as <-.
  unfold attr_ok in Hok. cbn [flat_attr ka_type ka_name ka_items ka_arr] in Hok.
  apply andb_prop in Hok. destruct Hok as [Hok Hshape]. apply andb_prop in Hok. destruct Hok as [Hok Hitems].
  cbn [nattr_ok]. rewrite (items_ok_forallb T fold vtnames), Hok.
  rewrite (map_opt_forallb _ _ _ _ (fun it ni => item_okf f _ it ni IH) _ _ Hi Hitems).
  rewrite map_length, (Forall2_len _ _ _ (map_opt_Forall2 _ _ _ Hi)) in Hshape. exact Hshape.
Qed.

Lemma nest_okf : forall f, okf f.
Proof.
  induction f as [|f IH]; intros i t top H Htop; [discriminate|].
  destruct (nest_elem_Some g isroot false f i t H) as [Li [attrs [Ha ->]]]. pose proof (flat_elem_ok i Li) as Hok.
  unfold elem_ok in Hok. cbn [flat_elem ke_id ke_attrs] in Hok. apply andb_prop in Hok. destruct Hok as [Hid Hattrs].
  cbn [nelem_ok andb]. rewrite (attrs_ok_forallb T fold vtnames), Hid.
  rewrite (map_opt_forallb _ _ _ _ (fun a na => attr_okf f a na IH) _ _ Ha Hattrs), !andb_true_r.
  (* an element written inline has no keyword type, since such elements are roots *)
  destruct Htop as [->|Hnr]; [reflexivity|].
  destruct (non_root_used_at_most_once fold vtnames c Hc false g i Hnr) as [_ [_ [Hkw _]]].
  rewrite Hkw. apply orb_true_r.
Qed.

Theorem nest_ndoc_ok d : g <> [] -> nest_doc g isroot false = Some d -> ndoc_ok T fold vtnames d = true.
Proof.
  intros Hne H. unfold ndoc_ok. apply andb_true_intro. split.
  - pose proof (exported_element_is_root fold vtnames c Hc false g) as R0.
    destruct (nest_root_first g isroot d R0 Hne H) as [rest Hrest]. destruct d; [discriminate Hrest|reflexivity].
  - apply forallb_forall. intros t Ht. destruct (map_opt_in_result _ _ _ t H Ht) as [i [_ Hi]].
    apply (nest_okf _ i t true Hi). now left.
Qed.
End Rule.
End Whole.

(** * Examples and refutations *)
Definition ex_isroot (c : rootcfg) (g : gdoc) : nat -> bool := is_root (fun s => s) pinned_vtnames c false g.

(** an inline block starts with the name of the attribute that holds it ([_parse_kv2_element(..., attr_name, ...)]): a writer
    that leaves the name line out for an empty name gets the attribute name back (the class of seeded fault c14_6) *)
Open Scope N_scope.
Definition nameless_inline_tokens : tl :=
  [(STRING, [84]); (NEWLINE, [10]); (BRACE_OPEN, [123]); (NEWLINE, [10]);
   (STRING, [99]); (STRING, [67]); (NEWLINE, [10]); (BRACE_OPEN, [123]); (NEWLINE, [10]); (BRACE_CLOSE, [125]); (NEWLINE, [10]);
   (BRACE_CLOSE, [125]); (NEWLINE, [10])].
