(** C06 — proofs about the block-level model (Fmt/VmfBlocks.v): the text a write program produces is lexed by the C01
    tokenizer model into exactly the token stream of the tree the writer was given, and parsed by the C01 parser
    model into exactly that tree. *)
From Coq Require Import NArith List Bool Lia ZifyBool.
From SV Require Import KV.KvBase KV.KvLex KV.KvParse KV.KvSym KV.KvLexProofs KV.KvParseProofs KV.KvRoundtrip.
From SV Require KV.KvSer.
From SV Require Import Fmt.VmfText Fmt.VmfTextProofs Fmt.VmfBlocks.
Import ListNotations.
Open Scope N_scope.

(** * Lexing judgement that forgets line numbers *)
Definition lexesL (E : escfg) (text : list N) (ts : list tok) : Prop :=
  forall l rest, exists l', lex_run E (norm l) (text ++ rest) = tcons ts (lex_run E (norm l') rest).

Lemma lexesL_of_lexes E text ts (g : N -> N) : (forall l, lexes E l text ts (g l)) -> lexesL E text ts.
Proof. intros H l rest. exists (g l). apply H. Qed.

Lemma lexesL_nil E : lexesL E [] [].
Proof. intros l rest. exists l. now rewrite tcons_nil. Qed.

Lemma lexesL_app E a ta b tb : lexesL E a ta -> lexesL E b tb -> lexesL E (a ++ b) (ta ++ tb).
Proof.
  intros Ha Hb l rest. destruct (Ha l (b ++ rest)) as [l1 H1]. destruct (Hb l1 rest) as [l2 H2].
  exists l2. rewrite <- app_assoc, H1, H2. apply tcons_tcons.
Qed.

Lemma lexesL_cast E text ts ts' : ts = ts' -> lexesL E text ts -> lexesL E text ts'.
Proof. now intros ->. Qed.

Lemma lexesL_all E text ts : lexesL E text ts -> lex_all E text = (ts, None).
Proof.
  intros H. destruct (H 1 []) as [l' Hl]. rewrite app_nil_r in Hl. unfold lex_all.
  change lex_init with (norm 1). rewrite Hl. cbn. now rewrite !app_nil_r.
Qed.

Lemma lexesL_ws E w : ws_only w = true -> lexesL E w [].
Proof. intros H. apply (lexesL_of_lexes E w [] (fun l => l)). intros l. now apply lexes_ws. Qed.
Lemma lexesL_lf E : lexesL E [KvBase.LF] [TNL].
Proof. apply (lexesL_of_lexes E _ _ (fun l => l + 1)). intros l. apply lexes_lf. Qed.
Lemma lexesL_bo E : lexesL E [123] [TBO].
Proof. apply (lexesL_of_lexes E _ _ (fun l => l)). intros l. apply lexes_bo. Qed.
Lemma lexesL_bc E : lexesL E [125] [TBC].
Proof. apply (lexesL_of_lexes E _ _ (fun l => l)). intros l. apply lexes_bc. Qed.

(** * The C06 string scanner [hs] is the C01 tokenizer inside a quoted string *)
Lemma lookup_same e t : VmfText.lookup e t = KvLex.lookup e t.
Proof. induction t as [|[s c] t IH]; [reflexivity|]. cbn. now rewrite IH. Qed.

Lemma hs_lex : forall n inp, (length inp <= n)%nat -> forall acc scr v rest l cr,
  VmfText.hs acc scr inp = Some (v, rest) ->
  exists l', lex_run vmf_E (mkL (MStr acc scr) l cr) inp = tcons [TStr v] (lex_run vmf_E (mkL MNorm l' cr) rest).
Proof.
  induction n as [|n IH]; intros inp Hlen acc scr v rest l cr H.
  - destruct inp; [discriminate|cbn in Hlen; lia].
  - destruct inp as [|c r]; [discriminate|]. cbn [VmfText.hs] in H. cbn [length] in Hlen.
    unfold VmfText.DQ, VmfText.CR, VmfText.LF, VmfText.BS in H.
    pose proof (lex_run_cons vmf_E (mkL (MStr acc scr) l cr) c r) as Hstep.
    unfold lstep in Hstep; cbn [l_mode l_line l_cr] in Hstep.
    unfold KvBase.DQ, KvBase.CR, KvBase.LF, KvBase.BS in Hstep.
    destruct (c =? 34) eqn:E1.
    { injection H as <- <-. exists l. exact (Hstep _ _ eq_refl). }
    (* every other character is consumed without a token: one step (two for an escape), then the induction hypothesis *)
    assert (Hsil : forall st', _ = SOk st' [] -> lex_run vmf_E (mkL (MStr acc scr) l cr) (c :: r) = lex_run vmf_E st' r)
      by (intros st' E; exact (eq_trans (Hstep _ _ E) (tcons_nil _))).
    destruct (c =? 13); [|destruct (c =? 10); [destruct scr|destruct (c =? 92)]].
    1-3, 5: rewrite (Hsil _ eq_refl); apply IH; [lia|exact H].
    destruct r as [|e r']; [discriminate|]. cbn [length] in Hlen.
    pose proof (lex_run_cons vmf_E (mkL (MEsc acc) l cr) e r') as Hs2.
    unfold lstep in Hs2; cbn [l_mode l_line l_cr] in Hs2. unfold KvBase.LF, KvBase.BS in Hs2.
    unfold VmfText.LF in H. rewrite lookup_same in H. change (e_table vmf_E) with VmfText.esc_table in Hs2.
    destruct (e =? 10); [|destruct (KvLex.lookup e VmfText.esc_table)];
      destruct (IH r' ltac:(lia) _ _ _ _ l cr H) as [l' Hl']; exists l';
      rewrite (Hsil _ eq_refl); exact (eq_trans (Hs2 _ _ eq_refl) (eq_trans (tcons_nil _) Hl')).
Qed.

(** A quoted field whose body scans back to [v] is one STRING token [v]. *)
Lemma lexesL_quoted body v :
  (forall rest, scan_quoted (body ++ VmfText.DQ :: rest) = Some (v, rest)) ->
  lexesL vmf_E (VmfText.DQ :: body ++ [VmfText.DQ]) [TStr v].
Proof.
  intros H l rest. specialize (H rest). unfold scan_quoted in H.
  destruct (hs_lex _ (body ++ VmfText.DQ :: rest) (le_n _) [] false v rest l false H) as [l' Hl'].
  exists l'. cbn [app]. erewrite lex_run_cons by reflexivity. rewrite tcons_nil, <- app_assoc. cbn [app]. exact Hl'.
Qed.

(** * Bare block names *)
Lemma ident_not_disallowed c : ident_char c = true -> bare_disallowed c = false.
Proof. unfold ident_char, bare_disallowed, KvLex.mem. cbn [existsb]. lia. Qed.

Lemma ident_norm_step c l : ident_char c = true -> norm_step l false c = SOk (mkL (MBare [c]) l false) [].
Proof.
  intros H. unfold norm_step. rewrite (ident_not_disallowed c H).
  (* none of the characters the step looks for is an identifier character *)
  assert (Hne : forall k, ident_char k = false -> (c =? k) = false) by (intros k Hk; apply N.eqb_neq; congruence).
  rewrite !Hne by reflexivity. reflexivity.
Qed.

Lemma bare_run : forall name acc l rest, forallb ident_char name = true ->
  lex_run vmf_E (mkL (MBare acc) l false) (name ++ KvBase.LF :: rest)
  = tcons [TStr (rev acc ++ name); TNL] (lex_run vmf_E (norm (l + 1)) rest).
Proof.
  induction name as [|c name IH]; intros acc l rest H.
  - cbn [app]. erewrite lex_run_cons by reflexivity. now rewrite app_nil_r.
  - cbn [forallb] in H. apply andb_true_iff in H as [Hc Hn]. cbn [app].
    erewrite lex_run_cons.
    2:{ unfold lstep; cbn [l_mode l_line l_cr]. rewrite (ident_not_disallowed c Hc). reflexivity. }
    rewrite tcons_nil, IH by exact Hn. cbn [rev]. now rewrite <- app_assoc.
Qed.

Lemma lexesL_bare name : name <> [] -> forallb ident_char name = true ->
  lexesL vmf_E (name ++ [KvBase.LF]) [TStr name; TNL].
Proof.
  intros Hne H l rest. exists (l + 1). destruct name as [|c name]; [congruence|].
  cbn [forallb] in H. apply andb_true_iff in H as [Hc Hn]. rewrite <- app_assoc. cbn [app].
  erewrite lex_run_cons by (apply ident_norm_step; exact Hc). rewrite tcons_nil.
  now rewrite bare_run by exact Hn.
Qed.

(** * Lines and blocks *)
Lemma ws_only_app a b : ws_only (a ++ b) = ws_only a && ws_only b.
Proof. apply forallb_app. Qed.
Lemma ws_only_tabs d : ws_only (tabs d) = true.
Proof. induction d; [reflexivity|]. cbn. exact IHd. Qed.
Lemma ws_only_indent ind i : ws_only ind = true -> ws_only (indent ind i) = true.
Proof.
  intros H. unfold indent. rewrite ws_only_app, ws_only_tabs, andb_true_r. now destruct (fst i).
Qed.

Lemma nums_plain (nums : list N) (f : N -> list N) segs :
  (forall i, In i nums -> plain (f i) = true) -> forallb (seg_num_in nums) segs = true -> num_fields_plain f segs.
Proof.
  intros Hf Hs x Hx. rewrite forallb_forall in Hs.
  assert (G : VmfText.mem x nums = true) by (destruct Hx as [Hx|Hx]; apply (Hs _ Hx)).
  unfold VmfText.mem in G. rewrite existsb_exists in G. destruct G as [y [Hy E]]. apply N.eqb_eq in E. subst. now apply Hf.
Qed.

Lemma kv_text_shape ind f key val :
  kv_text ind f key val
  = ind ++ (((VmfText.DQ :: render_field f key ++ [VmfText.DQ]) ++ [KvBase.SP] ++ (VmfText.DQ :: render_field f val ++ [VmfText.DQ])) ++ [KvBase.LF]).
Proof.
  unfold kv_text, render_kv. f_equal. cbn [app]. rewrite <- !app_assoc. cbn [app]. reflexivity.
Qed.

Lemma lexesL_kv_line (nums : list N) ind (f : N -> list N) key val :
  ws_only ind = true -> line_ok nums key val = true -> (forall i, In i nums -> plain (f i) = true) ->
  lexesL vmf_E (kv_text ind f key val) [TStr (value_field f key); TStr (value_field f val); TNL].
Proof.
  intros Hw Hl Hf. unfold line_ok in Hl.
  apply andb_true_iff in Hl as [Hl Hnv]. apply andb_true_iff in Hl as [Hl Hnk]. apply andb_true_iff in Hl as [Hk Hv].
  rewrite kv_text_shape.
  eapply lexesL_cast; cycle 1.
  { apply lexesL_app; [apply lexesL_ws; exact Hw|].
    apply lexesL_app; [|apply lexesL_lf].
    apply lexesL_app.
    - apply lexesL_quoted. intros rest. apply quoted_field_roundtrip; [exact Hk|]. now apply (nums_plain nums).
    - apply lexesL_app; [apply lexesL_ws; reflexivity|].
      apply lexesL_quoted. intros rest. apply quoted_field_roundtrip; [exact Hv|]. now apply (nums_plain nums). }
  reflexivity.
Qed.

Lemma plain_scan name : plain name = true -> forall rest, scan_quoted (name ++ VmfText.DQ :: rest) = Some (name, rest).
Proof.
  intros H rest. unfold scan_quoted. rewrite hs_plain by exact H. cbn [hs]. rewrite N.eqb_refl.
  now rewrite app_nil_r, rev_involutive.
Qed.

Lemma lexesL_name name q : name_ok name q = true -> lexesL vmf_E (name_text name q ++ [KvBase.LF]) [TStr name; TNL].
Proof.
  intros H. unfold name_ok, name_text in *. destruct q.
  - change [TStr name; TNL] with ([TStr name] ++ [TNL]). apply lexesL_app; [|apply lexesL_lf].
    apply lexesL_quoted. now apply plain_scan.
  - destruct name as [|c name]; [discriminate|]. apply lexesL_bare; [discriminate|exact H].
Qed.

Lemma open_text_shape ind name q :
  open_text ind name q = ind ++ ((name_text name q ++ [KvBase.LF]) ++ (ind ++ ([123] ++ [KvBase.LF]))).
Proof. unfold open_text. f_equal. now rewrite <- app_assoc. Qed.
Lemma close_text_shape ind : close_text ind = ind ++ ([125] ++ [KvBase.LF]).
Proof. reflexivity. Qed.

Lemma lexesL_block ind name q body ts :
  ws_only ind = true -> name_ok name q = true -> lexesL vmf_E body ts ->
  lexesL vmf_E (open_text ind name q ++ body ++ close_text ind) ([TStr name; TNL; TBO; TNL] ++ ts ++ [TBC; TNL]).
Proof.
  intros Hw Hn Hb. rewrite open_text_shape, close_text_shape.
  eapply lexesL_cast; cycle 1.
  { apply lexesL_app; [|apply lexesL_app; [exact Hb|]].
    - apply lexesL_app; [apply lexesL_ws; exact Hw|]. apply lexesL_app; [apply lexesL_name; exact Hn|].
      apply lexesL_app; [apply lexesL_ws; exact Hw|]. apply (lexesL_app _ [123] [TBO] [KvBase.LF] [TNL]); [apply lexesL_bo|apply lexesL_lf].
    - apply lexesL_app; [apply lexesL_ws; exact Hw|]. apply (lexesL_app _ [125] [TBC] [KvBase.LF] [TNL]); [apply lexesL_bc|apply lexesL_lf]. }
  reflexivity.
Qed.

(** * Every run of a checked program lexes to the token stream of its tree *)
Section Main.
  Variable nums : list N.
  Variable funs : N -> wprog.
  Hypothesis Hfuns : forall fn, prog_ok nums (funs fn) = true.

  Definition good (o : outp) : Prop :=
    match o with Some (t, ks) => lexesL vmf_E t (KvSer.toks_doc ks) | None => True end.

  Lemma toks_doc_app a b : KvSer.toks_doc (a ++ b) = KvSer.toks_doc a ++ KvSer.toks_doc b.
  Proof. apply flat_map_app. Qed.

  Lemma good_seq2 a b : good a -> good b -> good (seq2 a b).
  Proof.
    destruct a as [[t1 k1]|], b as [[t2 k2]|]; cbn [seq2 good]; try tauto.
    intros Ha Hb. rewrite toks_doc_app. now apply lexesL_app.
  Qed.

  Lemma good_each f l : (forall e, In e l -> good (f e)) -> good (each f l).
  Proof.
    induction l as [|e l IH]; intros H; cbn [each].
    - apply lexesL_nil.
    - apply good_seq2; [apply H; now left|apply IH; intros e' He'; apply H; now right].
  Qed.

  Lemma good_wrap ind name q body : ws_only ind = true -> name_ok name q = true -> good body -> good (wrap ind name q body).
  Proof.
    intros Hw Hn. destruct body as [[t cs]|]; cbn [wrap good]; [|tauto]. intros Hb.
    unfold KvSer.toks_doc. cbn [flat_map KvSer.toks]. rewrite app_nil_r.
    now apply lexesL_block.
  Qed.

  Lemma run_S f p ind e :
    run funs (S f) p ind e =
    match p with
    | PEnd => Some ([], [])
    | PKv i key val k =>
        seq2 (Some (kv_text (indent ind i) (d_fld e) key val,
                    [Leaf (value_field (d_fld e) key) (value_field (d_fld e) val)]))
             (run funs (S f) k ind e)
    | PBlock i name q body k => seq2 (wrap (indent ind i) name q (run funs (S f) body ind e)) (run funs (S f) k ind e)
    | POpt c i name body k =>
        seq2 (if d_cnd e c then wrap (indent ind i) name false (run funs (S f) body (ind ++ [KvBase.TAB]) e)
              else run funs (S f) body ind e)
             (run funs (S f) k ind e)
    | PIf c th el k => seq2 (if d_cnd e c then run funs (S f) th ind e else run funs (S f) el ind e) (run funs (S f) k ind e)
    | PFor slot body k => seq2 (each (run funs (S f) body ind) (d_sub e slot)) (run funs (S f) k ind e)
    | PCall slot fn i k => seq2 (each (run funs f (funs fn) (indent ind i)) (d_sub e slot)) (run funs (S f) k ind e)
    end.
  Proof. destruct p; reflexivity. Qed.

  Lemma env_sub e slot e' : env_ok nums e -> In e' (d_sub e slot) -> env_ok nums e'.
  Proof. intros He Hin. destruct He as [f c s Hf Hs]. cbn [d_sub] in Hin. eapply Hs; eassumption. Qed.
  Lemma env_fld e : env_ok nums e -> forall i, In i nums -> plain (d_fld e i) = true.
  Proof. intros He. now destruct He. Qed.

  Lemma run_good : forall fuel p ind e,
    prog_ok nums p = true -> ws_only ind = true -> env_ok nums e -> good (run funs fuel p ind e).
  Proof.
    induction fuel as [|f IHf]; [intros; exact I|].
    induction p as [|i key val k IHk|i name q body IHb k IHk|c i name body IHb k IHk|c th IHt el IHe k IHk
                    |slot body IHb k IHk|slot fn i k IHk];
      intros ind e Hp Hw He; rewrite run_S; cbn [prog_ok] in Hp.
    - apply lexesL_nil.
    - apply andb_true_iff in Hp as [Hl Hk]. apply good_seq2; [|now apply IHk].
      cbn [good]. unfold KvSer.toks_doc. cbn [flat_map KvSer.toks app].
      apply (lexesL_kv_line nums); [now apply ws_only_indent|exact Hl|now apply env_fld].
    - apply andb_true_iff in Hp as [Hp Hk]. apply andb_true_iff in Hp as [Hn Hb].
      apply good_seq2; [|now apply IHk]. apply good_wrap; [now apply ws_only_indent|exact Hn|now apply IHb].
    - apply andb_true_iff in Hp as [Hp Hk]. apply andb_true_iff in Hp as [Hn Hb].
      apply good_seq2; [|now apply IHk]. destruct (d_cnd e c).
      + apply good_wrap; [now apply ws_only_indent|exact Hn|].
        apply IHb; [exact Hb| |exact He]. rewrite ws_only_app, Hw. reflexivity.
      + now apply IHb.
    - apply andb_true_iff in Hp as [Hp Hk]. apply andb_true_iff in Hp as [Ht Hel].
      apply good_seq2; [|now apply IHk]. destruct (d_cnd e c); [now apply IHt|now apply IHe].
    - apply andb_true_iff in Hp as [Hb Hk]. apply good_seq2; [|now apply IHk].
      apply good_each. intros e' He'. apply IHb; [exact Hb|exact Hw|]. eapply env_sub; eassumption.
    - apply good_seq2; [|now apply IHk].
      apply good_each. intros e' He'. apply IHf; [apply Hfuns|now apply ws_only_indent|]. eapply env_sub; eassumption.
  Qed.

  (** The text parses (C01 tokenizer + parser models, for every parser configuration [P] accepted by C01's [pcfg_ok])
      to exactly the tree the writer was given. *)
  Theorem program_text_parses (P : parsecfg) fuel p e text kvs flag_on :
    pcfg_ok P = true -> prog_ok nums p = true -> env_ok nums e ->
    run funs fuel p [] e = Some (text, kvs) -> doc_names_ok kvs = true ->
    parse_kv P vmf_E flag_on text = POk kvs.
  Proof.
    intros HP Hp He Hr Hn. assert (G : good (Some (text, kvs))) by (rewrite <- Hr; now apply run_good). cbn [good] in G.
    unfold parse_kv, parse_kv_opts. rewrite (lexesL_all _ _ _ G).
    apply parse_toks_doc_opts; [reflexivity|]. apply doc_ok_of; [exact HP|exact Hn|reflexivity].
  Qed.

End Main.

(** table-driven instance *)
Lemma table_funs_ok nums tbl : table_ok nums tbl = true -> forall fn, prog_ok nums (fun_lookup tbl fn) = true.
Proof.
  intros H fn. induction tbl as [|[n p] tbl IH]; [reflexivity|].
  cbn [table_ok forallb snd] in H. apply andb_true_iff in H as [Hp Ht]. cbn [fun_lookup].
  destruct (n =? fn); [exact Hp|now apply IH].
Qed.

Theorem table_text_parses nums tbl (P : parsecfg) : table_ok nums tbl = true -> pcfg_ok P = true ->
  forall fuel fn e text kvs flag_on, env_ok nums e ->
  run (fun_lookup tbl) fuel (fun_lookup tbl fn) [] e = Some (text, kvs) -> doc_names_ok kvs = true ->
  parse_kv P vmf_E flag_on text = POk kvs.
Proof.
  intros Ht HP fuel fn e text kvs flag_on He Hr Hn.
  eapply (program_text_parses nums (fun_lookup tbl)); try eassumption; now apply table_funs_ok.
Qed.

(** The condition on the classes is necessary: a line whose value is a raw string does not parse back. *)
Definition raw_prog : wprog := PKv (false, 0%nat) [TLit [109]] [TIp RawStr 0] PEnd.

(** * Non-vacuity: a hidden entity with an id, two arbitrary keyvalues (quotes, backslash, LF in the value) and a
    connections block whose line comes from a called method; the run terminates, the hypotheses hold and the parsed
    tree is the expected one. *)
Definition ex_out_prog : wprog :=
  PKv (true, 0%nat) [TIp Esc 3] [TIp Esc 4; TIp Sep 5; TIp Esc 6; TIp Sep 5; TIp EscML 7; TIp Sep 5; TIp Num 8; TIp Sep 5; TIp Num 9] PEnd.
Definition ex_ent_prog : wprog :=
  POpt 0 (true, 0%nat) [104;105;100;100;101;110]
    (PBlock (true, 0%nat) [101;110;116;105;116;121] false
       (PKv (true, 1%nat) [TLit [105;100]] [TIp Num 0]
          (PFor 0 (PKv (true, 1%nat) [TIp Esc 1] [TIp Esc 2] PEnd)
             (PIf 1 (PBlock (true, 1%nat) [99;111;110;110;101;99;116;105;111;110;115] false (PCall 1 1 (true, 2%nat) PEnd) PEnd) PEnd PEnd)))
       PEnd)
    PEnd.
Definition ex_funs (fn : N) : wprog := if fn =? 1 then ex_out_prog else ex_ent_prog.
Definition ex_nums : list N := [0; 5; 8; 9].
Definition ex_leaf (f : N -> list N) : denv := DEnv f (fun _ => false) (fun _ => []).
Definition ex_env : denv :=
  DEnv (fun i => if i =? 0 then [52; 50] else [])
       (fun _ => true)
       (fun s => if s =? 0 then [ex_leaf (fun i => if i =? 1 then [97; 34; 98] else [34; 92; 10; 13; 120]);
                                  ex_leaf (fun i => if i =? 1 then [107] else [])]
                 else [ex_leaf (fun i => match i with 3 => [79; 110] | 4 => [116; 34] | 5 => [27] | 6 => [70]
                                                  | 7 => [10; 34] | 8 => [48; 46; 53] | 9 => [45; 49] | _ => [] end)]).
Example block_program_example :
  prog_ok ex_nums ex_ent_prog = true /\ prog_ok ex_nums ex_out_prog = true /\
  exists text kvs,
    run ex_funs 3 ex_ent_prog [] ex_env = Some (text, kvs) /\ doc_names_ok kvs = true /\
    parse_kv ref_pcfg vmf_E (fun _ => false) text = POk kvs /\
    kvs = [Block [104;105;100;100;101;110]
            [Block [101;110;116;105;116;121]
               [Leaf [105;100] [52;50]; Leaf [97;34;98] [34;92;10;13;120]; Leaf [107] [];
                Block [99;111;110;110;101;99;116;105;111;110;115]
                  [Leaf [79;110] [116;34;27;70;27;10;34;27;48;46;53;27;45;49]]]]].
Proof.
  split; [reflexivity|]. split; [reflexivity|]. eexists _, _. split; [vm_compute; reflexivity|].
  vm_compute. repeat split.
Qed.
