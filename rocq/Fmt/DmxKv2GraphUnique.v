(** C14 — sharing survives the nested KeyValues2 layout: every element is written exactly once.  An element that is
    not a root is referred to at most once in the whole graph (the root rule), so it is written inline at most
    once; the blocks are counted level by level (roots, the elements inline in roots, the elements inline in those, ...):
    two levels cannot meet because the holder of an inline element is unique. *)
From Coq Require Import NArith List Bool Lia PeanoNat Permutation.
From SV Require Import Fmt.DmxKv2 Fmt.DmxKv2Graph Fmt.DmxKv2GraphProofs.
Import ListNotations.
Open Scope nat_scope.

(** * lists *)
Definition disj {A} (a b : list A) : Prop := forall x, In x a -> In x b -> False.

Lemma flat_map_ext_in' {A B} (f h : A -> list B) l : (forall a, In a l -> f a = h a) -> flat_map f l = flat_map h l.
Proof.
  induction l as [|a l IH]; intros H; [reflexivity|]. cbn [flat_map]. rewrite (H a) by now left.
  rewrite IH; [reflexivity|]. intros b Hb. apply H. now right.
Qed.

Lemma flat_map_flat_map {A B C} (f : B -> list C) (h : A -> list B) l :
  flat_map f (flat_map h l) = flat_map (fun x => flat_map f (h x)) l.
Proof. induction l as [|a l IH]; [reflexivity|]. cbn [flat_map]. now rewrite flat_map_app, IH. Qed.

Lemma perm_cons_flat_map {A} (F : A -> list A) l : Permutation (flat_map (fun i => i :: F i) l) (l ++ flat_map F l).
Proof.
  induction l as [|a l IH]; [constructor|]. cbn [flat_map app]. apply perm_skip.
  transitivity (F a ++ l ++ flat_map F l); [now apply Permutation_app_head|apply Permutation_app_swap_app].
Qed.

Lemma NoDup_app_intro {A} (a b : list A) : NoDup a -> NoDup b -> disj a b -> NoDup (a ++ b).
Proof.
  induction a as [|x a IH]; intros Ha Hb Hd; [assumption|]. inversion Ha as [|? ? Hx Ha']; subst. cbn. constructor.
  - intros Hin. apply in_app_or in Hin. destruct Hin as [Hin|Hin]; [now apply Hx|]. apply (Hd x); [now left|assumption].
  - apply IH; [assumption|assumption|]. intros y Hy1 Hy2. apply (Hd y); [now right|assumption].
Qed.

Lemma NoDup_app_elim {A} (a b : list A) : NoDup (a ++ b) -> NoDup a /\ NoDup b /\ disj a b.
Proof.
  induction a as [|x a IH]; intros H.
  - repeat split; [constructor|assumption|intros y []].
  - cbn in H. inversion H as [|? ? Hx H']; subst. destruct (IH H') as [Ha [Hb Hd]]. repeat split.
    + constructor; [|assumption]. intros Hin. apply Hx. apply in_or_app. now left.
    + assumption.
    + intros y [<-|Hy] Hy2; [apply Hx; apply in_or_app; now right|now apply (Hd y)].
Qed.

Lemma flat_map_parent_unique {A B} (F : A -> list B) : forall M a b x,
  NoDup (flat_map F M) -> In a M -> In b M -> In x (F a) -> In x (F b) -> a = b.
Proof.
  induction M as [|m M IH]; intros a b x Hn Ha Hb Hxa Hxb; [destruct Ha|].
  cbn [flat_map] in Hn. destruct (NoDup_app_elim _ _ Hn) as [_ [Hn2 Hd]].
  destruct Ha as [<-|Ha], Hb as [<-|Hb].
  - reflexivity.
  - exfalso. apply (Hd x Hxa). apply in_flat_map. now exists b.
  - exfalso. apply (Hd x Hxb). apply in_flat_map. now exists a.
  - now apply (IH a b x).
Qed.

Lemma count_flat_map_sub (F : nat -> list nat) x : forall L M, NoDup L -> incl L M ->
  count_occ Nat.eq_dec (flat_map F L) x <= count_occ Nat.eq_dec (flat_map F M) x.
Proof.
  induction L as [|a L IH]; intros M Hn Hi; [cbn; lia|].
  inversion Hn as [|? ? Ha Hn']; subst.
  assert (HaM : In a M) by (apply Hi; now left).
  destruct (in_split _ _ HaM) as [M1 [M2 ->]].
  assert (Hi' : incl L (M1 ++ M2)).
  { intros y Hy. assert (Hy' : In y (M1 ++ a :: M2)) by (apply Hi; now right).
    apply in_app_or in Hy'. apply in_or_app. destruct Hy' as [Hy'|[Hy'|Hy']]; [now left|subst; contradiction|now right]. }
  specialize (IH (M1 ++ M2) Hn' Hi'). rewrite flat_map_app in IH |- *. cbn [flat_map]. rewrite !count_occ_app in IH |- *.
  repeat rewrite count_occ_app. lia.
Qed.

Section Unique.
Variable g : gdoc.
Variable isroot : nat -> bool.
Notation n := (length g).

(** the elements written inline inside the block of element [i], with multiplicity, in the order written *)
Definition kids (i : nat) : list nat :=
  flat_map (fun a => flat_map (item_blocks isroot (fun j => [j])) (ga_items a)) (ge_attrs (nth i g dflt_gelem)).
Definition K (l : list nat) : list nat := flat_map kids l.

Hypothesis Hrange : refs_in_range g.
(** every element that is not a root is referred to at most once *)
Hypothesis HU : NoDup (K (seq 0 n)).

Lemma blocks_kids f i : blocks g isroot (S f) i = i :: flat_map (blocks g isroot f) (kids i).
Proof.
  cbn [blocks]. f_equal. unfold kids. rewrite flat_map_flat_map. apply flat_map_ext. intros a.
  rewrite flat_map_flat_map. apply flat_map_ext. intros it. destruct it as [s|[j| |u]]; cbn [item_blocks flat_map]; try reflexivity.
  destruct (isroot j); cbn [flat_map]; [reflexivity|now rewrite app_nil_r].
Qed.

Lemma kids_spec i x : In x (kids i) <->
  isroot x = false /\ exists a, In a (ge_attrs (nth i g dflt_gelem)) /\ In (GRef (GElem x)) (ga_items a).
Proof.
  unfold kids. rewrite in_flat_map. split.
  - intros [a [Ha H]]. apply in_flat_map in H. destruct H as [it [Hit H]].
    destruct it as [s|[j| |u]]; cbn [item_blocks] in H; try destruct H. destruct (isroot j) eqn:Rj; [destruct H|].
    destruct H as [<-|[]]. split; [assumption|]. now exists a.
  - intros [Rx [a [Ha Hx]]]. exists a. split; [assumption|]. apply in_flat_map. exists (GRef (GElem x)). split; [assumption|].
    cbn [item_blocks]. rewrite Rx. now left.
Qed.
Lemma kids_nonroot i x : In x (kids i) -> isroot x = false.
Proof. intros H. apply (kids_spec i x), H. Qed.
Lemma kids_range i x : In x (kids i) -> x < n.
Proof. intros H. apply kids_spec in H. destruct H as [_ [a [Ha Hx]]]. exact (Hrange i a x Ha Hx). Qed.

Definition in_range (l : list nat) : Prop := forall x, In x l -> x < n.
Lemma K_range l : in_range (K l).
Proof. intros x H. apply in_flat_map in H. destruct H as [i [_ H]]. now apply (kids_range i). Qed.
Lemma K_nonroot l x : In x (K l) -> isroot x = false.
Proof. intros H. apply in_flat_map in H. destruct H as [i [_ H]]. now apply (kids_nonroot i). Qed.
Lemma in_range_incl l : in_range l -> incl l (seq 0 n).
Proof. intros H x Hx. apply in_seq. specialize (H x Hx). lia. Qed.

Lemma K_nodup l : NoDup l -> in_range l -> NoDup (K l).
Proof.
  intros Hn Hr. apply (NoDup_count_occ Nat.eq_dec). intros x.
  pose proof (count_flat_map_sub kids x l (seq 0 n) Hn (in_range_incl l Hr)) as H1.
  pose proof (proj1 (NoDup_count_occ Nat.eq_dec _) HU x) as H2. unfold K in *. lia.
Qed.

Lemma K_disj a b : in_range a -> in_range b -> disj a b -> disj (K a) (K b).
Proof.
  intros Ha Hb Hd x H1 H2. apply in_flat_map in H1. destruct H1 as [p [Hp H1]]. apply in_flat_map in H2. destruct H2 as [q [Hq H2]].
  assert (p = q).
  { apply (flat_map_parent_unique kids (seq 0 n) p q x HU); try assumption;
    [apply (in_range_incl a Ha p Hp)|apply (in_range_incl b Hb q Hq)]. }
  subst q. now apply (Hd p).
Qed.

(** the levels below a list of blocks, to depth [f] *)
Fixpoint lv_union (f : nat) (l : list nat) : list nat :=
  match f with O => [] | S f' => l ++ lv_union f' (K l) end.

Lemma blocks_levels : forall f l, Permutation (flat_map (blocks g isroot f) l) (lv_union f l).
Proof.
  induction f as [|f IH]; intros l.
  - induction l as [|a l IHl]; [constructor|exact IHl].
  - cbn [lv_union]. rewrite (flat_map_ext _ _ (blocks_kids f)).
    etransitivity; [apply perm_cons_flat_map|]. apply Permutation_app_head.
    rewrite <- flat_map_flat_map. apply IH.
Qed.

(** what holds of the roots of the levels and of everything inline holds of all levels *)
Lemma lv_all (P : nat -> Prop) : (forall l x, In x (K l) -> P x) ->
  forall f l, (forall x, In x l -> P x) -> forall x, In x (lv_union f l) -> P x.
Proof.
  intros HK. induction f as [|f IH]; intros l Hl x Hx; [destruct Hx|]. cbn [lv_union] in Hx. apply in_app_or in Hx.
  destruct Hx as [Hx|Hx]; [now apply Hl|]. apply (IH (K l) (HK l) x Hx).
Qed.
Lemma lv_range f l : in_range l -> in_range (lv_union f l).
Proof. exact (lv_all (fun x => x < n) K_range f l). Qed.
Lemma lv_nonroot f l : (forall x, In x l -> isroot x = false) -> forall x, In x (lv_union f l) -> isroot x = false.
Proof. exact (lv_all (fun x => isroot x = false) K_nonroot f l). Qed.

Lemma disj_app_r {A} (a b c : list A) : disj a (b ++ c) <-> disj a b /\ disj a c.
Proof.
  split.
  - intros H. split; intros x H1 H2; apply (H x H1); apply in_or_app; [now left|now right].
  - intros [H1 H2] x Hx Hy. apply in_app_or in Hy. destruct Hy; [now apply (H1 x)|now apply (H2 x)].
Qed.

Lemma lv_shift : forall f a b, in_range a -> in_range b -> disj a (lv_union f b) -> disj (K a) (lv_union f (K b)).
Proof.
  induction f as [|f IH]; intros a b Ha Hb Hd; [intros x _ []|].
  cbn [lv_union] in Hd |- *. apply disj_app_r in Hd. destruct Hd as [Hd1 Hd2]. apply disj_app_r. split.
  - now apply K_disj.
  - apply IH; [assumption|apply K_range|assumption].
Qed.

Lemma lv_nodup : forall f l, NoDup l -> in_range l -> (forall m, disj l (lv_union m (K l))) -> NoDup (lv_union f l).
Proof.
  induction f as [|f IH]; intros l Hn Hr Hd; [constructor|]. cbn [lv_union]. apply NoDup_app_intro.
  - assumption.
  - apply IH; [now apply K_nodup|apply K_range|]. intros m. apply lv_shift; [assumption|apply K_range|apply Hd].
  - apply Hd.
Qed.

(** every element is written at most once *)
Theorem all_blocks_nodup : NoDup (all_blocks g isroot).
Proof.
  unfold all_blocks. apply (Permutation_NoDup (l := lv_union (S n) (root_list g isroot))).
  - symmetry. apply blocks_levels.
  - apply lv_nodup.
    + unfold root_list. apply NoDup_filter. apply seq_NoDup.
    + intros x Hx. unfold root_list in Hx. apply filter_In in Hx. destruct Hx as [Hx _]. apply in_seq in Hx. lia.
    + intros m x H1 H2. unfold root_list in H1. apply filter_In in H1. destruct H1 as [_ R].
      pose proof (lv_nonroot m (K (root_list g isroot)) (K_nonroot _) x H2) as R'. congruence.
Qed.
End Unique.

(** * from the use counts: if every non-root is referred to at most once in the whole graph, [HU] holds *)
Section Counts.
Variable g : gdoc.
Variable isroot : nat -> bool.

Lemma flat_map_seq_nth {B} (F : gelem -> list B) : forall (l : gdoc) (k : nat),
  flat_map (fun i => F (nth (i - k) l dflt_gelem)) (seq k (length l)) = flat_map F l.
Proof.
  induction l as [|e l IH]; intros k; [reflexivity|]. cbn [length seq flat_map]. rewrite Nat.sub_diag. cbn [nth]. f_equal.
  rewrite <- (IH (S k)). apply flat_map_ext_in'. intros i Hi. apply in_seq in Hi.
  replace (i - k) with (S (i - S k)) by lia. reflexivity.
Qed.

Lemma count_kids_item x (it : gitem) :
  count_occ Nat.eq_dec (item_blocks isroot (fun j => [j]) it) x <= count_occ Nat.eq_dec (item_targets it) x.
Proof. destruct it as [s|[j| |u]]; cbn [item_blocks item_targets]; try lia. destruct (isroot j); cbn; [destruct (Nat.eq_dec j x); lia|lia]. Qed.

Lemma count_flat_map_le {A} (F G : A -> list nat) x : (forall a, count_occ Nat.eq_dec (F a) x <= count_occ Nat.eq_dec (G a) x) ->
  forall l, count_occ Nat.eq_dec (flat_map F l) x <= count_occ Nat.eq_dec (flat_map G l) x.
Proof. intros H. induction l as [|a l IH]; [cbn; lia|]. cbn [flat_map]. rewrite !count_occ_app. specialize (H a). lia. Qed.

Lemma count_K x : count_occ Nat.eq_dec (K g isroot (seq 0 (length g))) x <= occ g x.
Proof.
  unfold K, occ, all_targets.
  transitivity (count_occ Nat.eq_dec (flat_map (fun e => flat_map (fun a => flat_map (item_blocks isroot (fun j => [j])) (ga_items a)) (ge_attrs e)) g) x).
  - apply Nat.eq_le_incl. f_equal. rewrite <- (flat_map_seq_nth _ g 0). apply flat_map_ext. intros i. unfold kids. now rewrite Nat.sub_0_r.
  - apply count_flat_map_le. intros e. unfold elem_targets. apply count_flat_map_le. intros a. apply count_flat_map_le. apply count_kids_item.
Qed.

Theorem non_roots_used_once_nodup : (forall j, isroot j = false -> occ g j <= 1) -> NoDup (K g isroot (seq 0 (length g))).
Proof.
  intros H. apply (NoDup_count_occ Nat.eq_dec). intros x. destruct (isroot x) eqn:R.
  - destruct (count_occ Nat.eq_dec (K g isroot (seq 0 (length g))) x) as [|k] eqn:E; [lia|].
    assert (Hin : In x (K g isroot (seq 0 (length g)))) by (apply (count_occ_In Nat.eq_dec); lia).
    apply K_nonroot in Hin. congruence.
  - pose proof (count_K x). specialize (H x R). lia.
Qed.
End Counts.
