(** C15 — the pixels of every frame through a whole file: the container theorem
    (VtfWholeFileProofs.whole_file_with_frames_*: read() finds for every key the bytes save() produced for it) composed with
    the frame-level codec law (VtfFrameCodecProofs.frame_load_of_save): decoding what read() finds gives, pixel by pixel,
    the documented quantisation of the pixels that were saved - the identity for the formats with 8 bits per used channel. *)
From Coq Require Import ZArith List.
From SV Require Import Fmt.VtfPixelExpr Fmt.VtfFrameCodec Fmt.VtfFrameCodecProofs.
From SV Require Import Fmt.VtfContainer Fmt.VtfSides Fmt.VtfWholeFile Fmt.VtfWholeFileProofs.
Import ListNotations.

(** Wherever read() finds the stored form of a frame, decoding it gives the quantised pixels; the stored form has the
    size read() computes for its level. *)
Lemma encoded_frames_decode : forall cd q, rt_ok cd q = true -> (0 < bpp cd)%nat ->
  forall (pixels : key -> list (list N)) (npix : nat -> nat),
    (forall k, Forall bytes (pixels k)) -> (forall k, List.length (pixels k) = npix (k_mip k)) ->
    (forall k, List.length (encode_frame cd (pixels k)) = (bpp cd * npix (k_mip k))%nat)
    /\ forall file (table : list (nat * key)),
         Forall (fun ok => slice file (fst ok) (bpp cd * npix (k_mip (snd ok))) = encode_frame cd (pixels (snd ok))) table ->
         Forall (fun ok => decode_frame cd (slice file (fst ok) (bpp cd * npix (k_mip (snd ok)))) = map (run q) (pixels (snd ok))) table.
Proof.
  intros cd q Hrt Hb pixels npix Hpx Hn. split.
  - intros k. rewrite <- Hn. apply (frame_load_of_save cd q Hrt Hb (pixels k) (Hpx k)).
  - intros file table. apply Forall_impl. intros ok E. rewrite E.
    apply (frame_load_of_save cd q Hrt Hb (pixels (snd ok)) (Hpx (snd ok))).
Qed.

(** The metadata, the thumbnail and the pixels of every frame of a file written by save(), 7.3 and later. *)
Theorem pixels_in_file_73 : forall F G v low_size file c so ro cd q,
  fmts_wf F = true -> flags_ok G = true -> (3 <= v_minor v)%Z -> vfile_fits F G v = true ->
  sides_ok c = true -> lorder_eqb so ro = true ->
  rt_ok cd q = true -> (0 < bpp cd)%nat ->
  forall envmap object depth mips frames (pixels : key -> list (list N)) (npix : nat -> nat),
    (forall k, Forall bytes (pixels k)) -> (forall k, List.length (pixels k) = npix (k_mip k)) ->
    v_high v = map (fun k => encode_frame cd (pixels k)) (walk so mips frames (save_sides c envmap object (v_minor v) depth) key0) ->
    encode_file F G v = Some file ->
    decode_file F G low_size file
    = Some (v_minor v, set_header_size (v_header v) (hs73 F v), v_depth v, map norm (v_res v), v_sheet v, low_off73 F v, high_off73 F v)
    /\ slice file (low_off73 F v) (List.length (v_low v)) = v_low v
    /\ Forall (fun ok => decode_frame cd (slice file (fst ok) (bpp cd * npix (k_mip (snd ok)))) = map (run q) (pixels (snd ok)))
              (read_table ro mips frames (read_sides c envmap (v_minor v) depth) (fun m => (bpp cd * npix m)%nat) (high_off73 F v)).
Proof.
  intros F G v low_size file c so ro cd q HF HG Hv Hfit Hc Ho Hrt Hb envmap object depth mips frames pixels npix Hpx Hn Hhigh Henc.
  destruct (encoded_frames_decode cd q Hrt Hb pixels npix Hpx Hn) as [Hlen Hdec].
  destruct (whole_file_with_frames_73 F G v low_size file c so ro HF HG Hv Hfit Hc Ho envmap object depth mips frames
              (fun k => encode_frame cd (pixels k)) (fun m => (bpp cd * npix m)%nat) Hlen Hhigh Henc) as (D & L & T).
  auto.
Qed.

(** The same before 7.3. *)
Theorem pixels_in_file_pre73 : forall F G v file c so ro cd q,
  fmts_wf F = true -> (v_minor v < 3)%Z -> vfile_fits_old F v = true ->
  sides_ok c = true -> lorder_eqb so ro = true ->
  rt_ok cd q = true -> (0 < bpp cd)%nat ->
  forall envmap object depth mips frames (pixels : key -> list (list N)) (npix : nat -> nat),
    (forall k, Forall bytes (pixels k)) -> (forall k, List.length (pixels k) = npix (k_mip k)) ->
    v_high v = map (fun k => encode_frame cd (pixels k)) (walk so mips frames (save_sides c envmap object (v_minor v) depth) key0) ->
    encode_file F G v = Some file ->
    decode_file F G (List.length (v_low v)) file
    = Some (v_minor v, set_header_size (v_header v) (hs_old F v), v_depth v, [], None, hs_old F v, (hs_old F v + List.length (v_low v))%nat)
    /\ slice file (hs_old F v) (List.length (v_low v)) = v_low v
    /\ Forall (fun ok => decode_frame cd (slice file (fst ok) (bpp cd * npix (k_mip (snd ok)))) = map (run q) (pixels (snd ok)))
              (read_table ro mips frames (read_sides c envmap (v_minor v) depth) (fun m => (bpp cd * npix m)%nat)
                          (hs_old F v + List.length (v_low v))%nat).
Proof.
  intros F G v file c so ro cd q HF Hv Hfit Hc Ho Hrt Hb envmap object depth mips frames pixels npix Hpx Hn Hhigh Henc.
  destruct (encoded_frames_decode cd q Hrt Hb pixels npix Hpx Hn) as [Hlen Hdec].
  destruct (whole_file_with_frames_pre73 F G v file c so ro HF Hv Hfit Hc Ho envmap object depth mips frames
              (fun k => encode_frame cd (pixels k)) (fun m => (bpp cd * npix m)%nat) Hlen Hhigh Henc) as (D & L & T).
  auto.
Qed.
