(** C15 — proofs about the Frame life cycle (Fmt/VtfFrameSM.v). *)
From Coq Require Import List Bool Lia NArith.
From SV Require Import Fmt.VtfFrameSM Fmt.VtfPixelExpr Fmt.VtfPixelExprProofs.
Import ListNotations.
Local Open Scope nat_scope.

(** boolean equality of tables is equality *)
Lemma dorigin_eqb_eq : forall a b, dorigin_eqb a b = true -> a = b.
Proof. destruct a, b; cbn; congruence. Qed.
Lemma sorigin_eqb_eq : forall a b, sorigin_eqb a b = true -> a = b.
Proof. destruct a, b; cbn; congruence. Qed.
Lemma outcome_eqb_eq : forall a b, outcome_eqb a b = true -> a = b.
Proof.
  intros [[d m] s] [[d' m'] s'] H. cbn in H.
  apply andb_true_iff in H. destruct H as [H Hs]. apply andb_true_iff in H. destruct H as [Hd Hm].
  apply dorigin_eqb_eq in Hd. apply sorigin_eqb_eq in Hs. apply eqb_prop in Hm. congruence.
Qed.
Lemma list_eqb_eq : forall A (eqb : A -> A -> bool), (forall a b, eqb a b = true -> a = b) ->
  forall a b, list_eqb eqb a b = true -> a = b.
Proof.
  intros A eqb H. induction a as [|x a IH]; destruct b as [|y b]; cbn; try congruence.
  intros E. apply andb_true_iff in E. destruct E as [E1 E2]. f_equal; auto.
Qed.
Lemma row_eqb_eq : forall a b, row_eqb a b = true -> a = b.
Proof.
  intros [[d s] l] [[d' s'] l'] H. unfold row_eqb in H. cbn [fst snd] in H.
  apply andb_true_iff in H. destruct H as [H Hl]. apply andb_true_iff in H. destruct H as [Hd Hs].
  apply eqb_prop in Hd. apply eqb_prop in Hs. apply (list_eqb_eq _ _ outcome_eqb_eq) in Hl. congruence.
Qed.
Lemma efftable_eqb_eq : forall a b, efftable_eqb a b = true -> a = b.
Proof. exact (list_eqb_eq _ _ row_eqb_eq). Qed.

Section Sem.
Variable pix fbytes : Type.
Notation fstate := (fstate pix fbytes).

(** The tables mean the operations. *)
Lemma run_ideal_load : forall blank decode newd scaled modf (st : fstate),
  run_table pix fbytes ideal_load blank decode newd scaled modf st = load pix fbytes blank decode st.
Proof. intros. destruct st as [[d|] [s|]]; reflexivity. Qed.
Lemma run_ideal_clear : forall blank decode newd scaled modf (st : fstate),
  run_table pix fbytes ideal_clear blank decode newd scaled modf st = clear pix fbytes st.
Proof. intros. destruct st as [[d|] [s|]]; reflexivity. Qed.
Lemma run_ideal_new : forall blank decode newd scaled modf (st : fstate),
  run_table pix fbytes ideal_new blank decode newd scaled modf st = set_new pix fbytes newd st.
Proof. intros. destruct st as [[d|] [s|]]; reflexivity. Qed.
Lemma run_ideal_rescale : forall blank decode newd scaled modf (st : fstate),
  run_table pix fbytes ideal_rescale blank decode newd scaled modf st = rescale pix fbytes scaled st.
Proof. intros. destruct st as [[d|] [s|]]; reflexivity. Qed.
Lemma run_ideal_setitem : forall blank decode newd scaled modf (st : fstate),
  run_table pix fbytes ideal_setitem blank decode newd scaled modf st = setitem pix fbytes blank decode modf st.
Proof. intros. destruct st as [[d|] [s|]]; reflexivity. Qed.
Lemma run_ideal_detach : forall blank decode newd scaled modf (st : fstate),
  run_table pix fbytes ideal_detach blank decode newd scaled modf st = detach pix fbytes st.
Proof. intros. destruct st as [[d|] [s|]]; reflexivity. Qed.

Lemma load_idempotent : forall blank decode (st : fstate),
  load pix fbytes blank decode (load pix fbytes blank decode st) = load pix fbytes blank decode st.
Proof. intros. destruct st as [[d|] [s|]]; reflexivity. Qed.
Lemma load_result : forall blank decode (st : fstate),
  load pix fbytes blank decode st = {| f_data := Some (view pix fbytes blank decode st); f_src := None |}.
Proof. intros. destruct st as [[d|] [s|]]; reflexivity. Qed.
Lemma view_rescale_without_source : forall blank decode scaled (st : fstate), f_src st = None ->
  view pix fbytes blank decode (rescale pix fbytes scaled st) = scaled.
Proof. intros. unfold view, rescale. cbn. rewrite H. reflexivity. Qed.
Lemma view_set_new : forall blank decode p (st : fstate), view pix fbytes blank decode (set_new pix fbytes p st) = p.
Proof. reflexivity. Qed.

End Sem.

(** * The chain, for tables of load() and rescale_from() that pass the comparison with the ideal ones *)
Section Chain.
Variable pix fbytes : Type.
Notation fstate := (fstate pix fbytes).
Variable blank : nat -> pix.
Variable decode : fbytes -> pix.
Variable encode : pix -> fbytes.
Variable scale : nat -> pix -> pix.
Variable t_load t_rescale : efftable.
Variable cfg : chaincfg.
Hypothesis Hl : efftable_eqb t_load ideal_load = true.
Hypothesis Hr : efftable_eqb t_rescale ideal_rescale = true.

(** the pixels a frame holds or will hold, independent of the blank value; None only for a cleared frame *)
Definition view' (st : fstate) : option pix :=
  match f_src st with Some b => Some (decode b) | None => f_data st end.

(** [final_pixels] (with [q] the scaled parent) and [view] (with [q] the blank pixels) see a level only through [view'] *)
Lemma level_pixels_view' : forall (st : fstate) q,
  match f_src st with Some b => decode b | None => match f_data st with Some d => d | None => q end end
  = match view' st with Some p => p | None => q end.
Proof. intros st q. unfold view'. destruct (f_src st); reflexivity. Qed.

Notation m_load := (m_load pix fbytes blank decode t_load).
Notation m_rescale := (m_rescale pix fbytes blank decode scale t_load t_rescale cfg).
Notation cm_levels := (cm_levels pix fbytes blank decode scale t_load t_rescale cfg).
Notation sv_levels := (sv_levels pix fbytes blank decode encode t_load cfg).
Notation sv_run := (sv_run pix fbytes blank decode encode t_load).

Lemma m_load_is_load : forall m (st : fstate), m_load m st = load pix fbytes (blank m) decode st.
Proof. intros. unfold VtfFrameSM.m_load. rewrite (efftable_eqb_eq _ _ Hl). apply run_ideal_load. Qed.
Lemma run_rescale_table : forall bl newd scaled modf (st : fstate),
  run_table pix fbytes t_rescale bl decode newd scaled modf st = rescale pix fbytes scaled st.
Proof. intros. rewrite (efftable_eqb_eq _ _ Hr). apply run_ideal_rescale. Qed.

Lemma m_load_view' : forall m (st : fstate) pv, view' st = Some pv ->
  m_load m st = {| f_data := Some pv; f_src := None |}.
Proof.
  intros m st pv H. rewrite m_load_is_load.
  destruct st as [[d|] [s|]]; cbn in *; congruence.
Qed.

Definition steps_ok (l : list sstep) : Prop := l = [SvLoad; SvEncodeIfData; SvWrite] \/ l = [SvLoad; SvEncodeAlways; SvWrite].

Lemma sv_run_view' : forall m steps (st : fstate) pv, steps_ok steps -> view' st = Some pv ->
  sv_run m steps st None = Some (encode pv).
Proof.
  intros m steps st pv [-> | ->] H; cbn [VtfFrameSM.sv_run]; rewrite (m_load_view' m st pv H); reflexivity.
Qed.

Lemma chain_ok_inv : chain_ok cfg = true ->
  cm_loads_level0 cfg = true /\ (cm_guard cfg = GDataNone \/ cm_guard cfg = GDataNoneAndSrcNone)
  /\ rs_loads_parent cfg = true /\ sv_computes_first cfg = true /\ steps_ok (sv_steps cfg).
Proof.
  unfold chain_ok. intros H.
  repeat (apply andb_true_iff in H; destruct H as [H ?]).
  repeat split; auto.
  - destruct (cm_guard cfg); try discriminate; auto.
  - apply orb_true_iff in H0. unfold steps_ok.
    destruct H0 as [E | E]; [left | right];
      (apply (list_eqb_eq _ _) in E; [exact E|]); intros a b; destruct a, b; cbn; congruence.
Qed.

Hypothesis Hok : chain_ok cfg = true.

Lemma guard_true_data_none : forall (st : fstate), guard_eval pix fbytes (cm_guard cfg) st = true -> f_data st = None.
Proof.
  intros st H. destruct (chain_ok_inv Hok) as (_ & [E | E] & _); rewrite E in H; cbn in H;
    destruct (f_data st); cbn in H; try discriminate; reflexivity.
Qed.
Lemma guard_false_viewable : forall (st : fstate), guard_eval pix fbytes (cm_guard cfg) st = false -> exists p, view' st = Some p.
Proof.
  intros st H. destruct (chain_ok_inv Hok) as (_ & [E | E] & _); rewrite E in H; cbn in H; unfold view';
    destruct st as [[d|] [s|]]; cbn in *; try discriminate; eexists; reflexivity.
Qed.

Lemma cm_levels_written : forall rest k (parent : fstate) pv, view' parent = Some pv ->
  sv_levels k (cm_levels (S k) parent rest)
  = Some (encode pv) :: map (fun p => Some (encode p)) (final_pixels pix fbytes decode scale (S k) pv rest).
Proof.
  destruct (chain_ok_inv Hok) as (_ & _ & Hrl & _ & Hst).
  induction rest as [|st tl IH]; intros k parent pv Hv.
  - cbn [VtfFrameSM.cm_levels VtfFrameSM.sv_levels final_pixels map]. rewrite (sv_run_view' _ _ _ pv Hst Hv). reflexivity.
  - cbn [VtfFrameSM.cm_levels].
    destruct (guard_eval pix fbytes (cm_guard cfg) st) eqn:G.
    + pose proof (guard_true_data_none st G) as Hd.
      unfold VtfFrameSM.m_rescale. rewrite Hrl. replace (S k - 1)%nat with k by lia.
      rewrite (m_load_view' k parent pv Hv). cbn [f_data].
      rewrite run_rescale_table.
      cbn [VtfFrameSM.sv_levels].
      rewrite (sv_run_view' k _ {| f_data := Some pv; f_src := None |} pv Hst eq_refl).
      set (st' := rescale pix fbytes (scale (S k) pv) st).
      assert (Hv' : view' st' = Some (match f_src st with Some b => decode b | None => scale (S k) pv end)).
      { unfold view', st', rescale. cbn. destruct (f_src st); reflexivity. }
      rewrite (IH (S k) st' _ Hv'). cbn [final_pixels map]. rewrite Hd. reflexivity.
    + destruct (guard_false_viewable st G) as (p & Hp).
      cbn [VtfFrameSM.sv_levels]. rewrite (sv_run_view' k _ _ pv Hst Hv).
      rewrite (IH (S k) st p Hp). cbn [final_pixels map]. rewrite level_pixels_view', Hp. reflexivity.
Qed.

(** save() writes, for every level of the chain: the file's pixels (re-encoded) while the level still has its file
    source, else its data, else - cleared - blank for level 0 and the scaled pixels WRITTEN for the level above. *)
Theorem chain_written : forall chain,
  save_chain pix fbytes blank decode encode scale t_load t_rescale cfg chain
  = map (fun p => Some (encode p)) (final_chain pix fbytes blank decode scale chain).
Proof.
  destruct (chain_ok_inv Hok) as (Hl0 & _ & _ & Hcf & _).
  intros [|l0 tl]; unfold save_chain; rewrite Hcf; [reflexivity|].
  unfold VtfFrameSM.compute_mipmaps. rewrite Hl0. unfold final_chain.
  set (p0 := view pix fbytes (blank 0) decode l0).
  assert (H0 : view' (m_load 0 l0) = Some p0).
  { rewrite m_load_is_load, load_result. reflexivity. }
  rewrite (cm_levels_written tl 0 _ p0 H0). reflexivity.
Qed.

(** Every level that still has its file source and was not written to is saved as the re-encoded file bytes. *)
Corollary chain_keeps_file_levels : forall chain m st b,
  nth_error chain m = Some st -> f_src st = Some b ->
  nth_error (save_chain pix fbytes blank decode encode scale t_load t_rescale cfg chain) m = Some (Some (encode (decode b))).
Proof.
  intros chain m st b Hn Hs. rewrite chain_written.
  rewrite nth_error_map.
  assert (nth_error (final_chain pix fbytes blank decode scale chain) m = Some (decode b)) as ->; [|reflexivity].
  destruct chain as [|l0 tl]; [destruct m; discriminate|]. unfold final_chain.
  destruct m as [|m].
  - cbn in Hn. inversion Hn; subst. cbn. unfold view. rewrite Hs. reflexivity.
  - cbn [nth_error] in Hn |- *.
    generalize (view pix fbytes (blank 0%nat) decode l0) 1%nat. revert m Hn.
    induction tl as [|x tl IH]; intros m Hn pv k; [destruct m; discriminate|].
    destruct m as [|m]; cbn [nth_error final_pixels] in *.
    + inversion Hn; subst. rewrite Hs. reflexivity.
    + apply IH. exact Hn.
Qed.
End Chain.

(** * With the per-pixel codecs: a file written by save(), read lazily and saved again, keeps its bytes. *)
Section WithCodec.
Variable c : codec.
Variable canon : list expr.
Hypothesis Hsf : sf_ok c canon = true.
Definition frame_pixels := list (list N).     (* one list of 4 channels / of bpp bytes per texel *)
Definition dec_frame (b : frame_pixels) : frame_pixels := map (run (load_e c)) b.
Definition enc_frame (p : frame_pixels) : frame_pixels := map (run (save_e c)) p.

Lemma enc_dec_enc : forall p, Forall bytes p -> enc_frame (dec_frame (enc_frame p)) = enc_frame p.
Proof.
  intros p H. unfold enc_frame, dec_frame. rewrite !map_map. apply map_ext_in.
  intros x Hx. rewrite Forall_forall in H. apply (proj2 (sf_sound c canon Hsf)). auto.
Qed.
Lemma enc_dec_canon : forall b, Forall bytes b -> enc_frame (dec_frame b) = map (run canon) b.
Proof.
  intros b H. unfold enc_frame, dec_frame. rewrite map_map. apply map_ext_in.
  intros x Hx. rewrite Forall_forall in H. apply (proj1 (sf_sound c canon Hsf)). auto.
Qed.

End WithCodec.

(** * The defective shapes, refuted on a small instance: pixels and bytes are numbers, decode/encode are the
    identity, scaling adds 100, blank is 0.  A lazily read frame holding file value v is [lazy v]. *)
Definition lazy (v : nat) : fstate nat nat := {| f_data := None; f_src := Some v |}.
Definition cleared : fstate nat nat := {| f_data := None; f_src := None |}.
Definition good_cfg : chaincfg :=
  {| cm_loads_level0 := true; cm_guard := GDataNone; cm_from_previous := true; rs_loads_parent := true;
     sv_computes_first := true; sv_steps := [SvLoad; SvEncodeIfData; SvWrite] |}.
Definition toy_save (t_rescale : efftable) (cfg : chaincfg) :=
  save_chain nat nat (fun _ => 0) (fun b => b) (fun p => p) (fun _ p => p + 100) ideal_load t_rescale cfg.

Example good_cfg_ok : chain_ok good_cfg = true.
Proof. reflexivity. Qed.
Example toy_good : toy_save ideal_rescale good_cfg [lazy 1; lazy 2; cleared] = [Some 1; Some 2; Some 102].
Proof. reflexivity. Qed.

(** rescale_from() forgetting the file source: the stored level 1 is replaced by an average of level 0. *)
Definition rescale_drops_source : efftable :=
  rows (DScaled, false, SNoneV) (DScaled, false, SNoneV) (DScaled, false, SNoneV) (DScaled, false, SNoneV).

(** rescale_from() not loading the larger frame (the tree before the repair): a cleared level below a lazily read
    one is made from the average of level 0 that compute_mipmaps had parked in level 1, not from the stored level 1. *)
Definition pinned_cfg : chaincfg :=
  {| cm_loads_level0 := true; cm_guard := GDataNone; cm_from_previous := true; rs_loads_parent := false;
     sv_computes_first := true; sv_steps := [SvLoad; SvEncodeIfData; SvWrite] |}.

(** save() writing before load(): a lazily read frame is written as nothing (the zero-filled buffer). *)
Lemma write_before_load_refuted :
  toy_save ideal_rescale {| cm_loads_level0 := true; cm_guard := GDataNoneAndSrcNone; cm_from_previous := true;
                             rs_loads_parent := true; sv_computes_first := true;
                             sv_steps := [SvEncodeIfData; SvLoad; SvWrite] |} [lazy 1; lazy 2] = [Some 1; None].
Proof. reflexivity. Qed.

(** Every table that passes [like_a_modelled_op] is one of the six operations. *)
Theorem modelled_op_cases : forall pix fbytes t, like_a_modelled_op t = true ->
  forall blank decode newd scaled modf (st : fstate pix fbytes),
    let r := run_table pix fbytes t blank decode newd scaled modf st in
    r = load pix fbytes blank decode st \/ r = clear pix fbytes st \/ r = set_new pix fbytes newd st
    \/ r = rescale pix fbytes scaled st \/ r = setitem pix fbytes blank decode modf st \/ r = detach pix fbytes st.
Proof.
  intros pix fbytes t H blank decode newd scaled modf st r. unfold like_a_modelled_op in H.
  repeat (apply orb_true_iff in H; destruct H as [H | H]); apply efftable_eqb_eq in H; subst t; subst r.
  - left. apply run_ideal_load.
  - right; left. apply run_ideal_clear.
  - right; right; left. apply run_ideal_new.
  - right; right; right; left. apply run_ideal_rescale.
  - right; right; right; right; left. apply run_ideal_setitem.
  - right; right; right; right; right. apply run_ideal_detach.
Qed.
