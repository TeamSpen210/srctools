(** C14 — the premises of the whole property for the binary form ([c14_property_binary] in Props/C14.v: the real dicts of
    the elements -> bytes -> parsed document -> typed values and the dicts the reader builds) hold of a concrete graph. *)
From Coq Require Import NArith ZArith QArith List Bool.
From SV Require Import Fmt.DmxCodes Fmt.DmxBin Fmt.DmxBinProofs Fmt.DmxScalar Fmt.DmxTyped Fmt.DmxTypedProofs
  Fmt.DmxMembers Fmt.DmxMembersProofs Fmt.DmxMembersParse Fmt.DmxMembersParseProofs.
Import ListNotations.

(** satisfiable: the two-element graph of [members_premises_satisfiable] (the root cleared and refilled, the child's name
    popped and set again), as typed values *)
Definition hist_tdoc : tdoc :=
  [ {| te_type := [84]%N; te_name := []; te_uuid := ex_uuid 1%N;
       te_attrs := [ {| ta_name := [65]%N; ta_data := TvFix TInt (Scalar (SvInt 5)) |};
                     {| ta_name := [107]%N; ta_data := TvElem (Scalar (RElem 1)) |} ] |};
    {| te_type := [67]%N; te_name := [108; 97; 116; 101]%N; te_uuid := ex_uuid 2%N;
       te_attrs := [ {| ta_name := [113]%N; ta_data := TvStr (Scalar [115]%N) |} ] |} ].
Example c14_property_binary_example :
  bin_cfg_ok good_cfg = true /\ scalar_cfg_ok pinned_scalar = true /\ sizes_match_formats pinned_scalar good_cfg = true /\
  cnt_cfg_ok good_cnt = true /\
  Forall (fun r => keys_nodup (r_members r)) hist_rdoc /\ Forall (fun r => keyed_by_fold (fun s => s) (r_members r)) hist_rdoc /\
  tdoc_rep fdiv64 pinned_scalar hist_tdoc /\ lower_doc fmul64 pinned_scalar hist_tdoc = Some (map (abstract good_cnt) hist_rdoc) /\
  expressible idenc iddec good_cfg 5 (map (abstract good_cnt) hist_rdoc).
Proof.
  split; [exact good_cfg_ok|]. split; [vm_compute; reflexivity|]. split; [vm_compute; reflexivity|]. split; [exact good_cnt_ok|].
  split. { unfold hist_rdoc. apply Forall_cons; [|apply Forall_cons; [|apply Forall_nil]]; cbn [r_members]; apply history_keys_nodup. }
  split. { unfold hist_rdoc. apply Forall_cons; [|apply Forall_cons; [|apply Forall_nil]]; cbn [r_members]; apply history_keyed; reflexivity. }
  split. { unfold tdoc_rep, hist_tdoc. repeat (constructor; cbn [te_attrs ta_data tval_rep items]); try exact I; try reflexivity. }
  split; [vm_compute; reflexivity|].
  change (map (abstract good_cnt) hist_rdoc) with ltac:(let x := eval vm_compute in (map (abstract good_cnt) hist_rdoc) in exact x).
  solve_expressible.
Qed.
