From Coq Require Import NArith List Bool Lia.
From SV Require Import Fmt.VmfFlags.
Import ListNotations.
Open Scope N_scope.

Theorem flags_roundtrip written t2c sub n : flags_tables_ok written t2c sub n = true ->
  forall f, (N.to_nat f < n)%nat ->
  exists p, flags_write written f = Some p /\ flags_read t2c sub p = Some f.
Proof.
  unfold flags_tables_ok. intros H f Hf. apply andb_true_iff in H. destruct H as [H _].
  rewrite forallb_forall in H.
  assert (In f (map N.of_nat (seq 0 n))) as Hin.
  { apply in_map_iff. exists (N.to_nat f). split; [apply N2Nat.id|]. apply in_seq. lia. }
  specialize (H f Hin). unfold flag_ok in H.
  destruct (flags_write written f) as [p|]; [|discriminate].
  exists p. split; [reflexivity|].
  destruct (flags_read t2c sub p) as [g|]; [|discriminate].
  apply N.eqb_eq in H. subst. reflexivity.
Qed.

(** The pinned tables pass; a writer table that sends two collision sets to the same number does not, and loses one. *)
Definition ex_t2c : list N := [7; 7; 6; 6; 5; 5; 4; 4; 3; 3; 2; 2; 1; 1; 0; 0].
Definition ex_written : list (N * bool) :=
  [(14, false); (12, false); (10, false); (8, false); (6, false); (4, false); (2, false); (0, false);
   (14, true); (12, true); (10, true); (8, true); (6, true); (4, true); (2, true); (0, true)].
Example flags_example_ok : flags_tables_ok ex_written ex_t2c 8 16 = true.
Proof. vm_compute. reflexivity. Qed.
Definition ex_written_bad : list (N * bool) :=
  [(14, false); (12, false); (10, false); (8, false); (6, false); (4, false); (2, false); (2, false)].
