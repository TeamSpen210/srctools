(** C14 — [cull_uuid] at the level of the tree of blocks: the tree written with [cull_uuid] is the tree written without it, with
    the id line of every inline block left out (top-level blocks keep theirs); no reference names an inline block
    ([inline_blocks_not_roots]), so no reference is lost. *)
From Coq Require Import NArith List Bool.
From SV Require Import Fmt.DmxKv2 Fmt.DmxKv2Nested Fmt.DmxKv2Graph Fmt.DmxKv2GraphProofs.
Import ListNotations.
Open Scope nat_scope.

Lemma erase_elem_eq top ty id nm attrs :
  erase_elem top (NElem ty id nm attrs) = NElem ty (if top then id else None) nm (map erase_attr attrs).
Proof. reflexivity. Qed.
Lemma erase_attr_eq an at_ arr items : erase_attr (NAttr an at_ arr items) = NAttr an at_ arr (map erase_item items).
Proof. reflexivity. Qed.

Section Cull.
Variable g : gdoc.
Variable isroot : nat -> bool.

Theorem nest_elem_cull : forall f i,
  nest_elem g isroot true f i = option_map (erase_elem (isroot i)) (nest_elem g isroot false f i).
Proof.
  induction f as [|f IH]; intros i; [reflexivity|].
  rewrite !nest_elem_S. destruct (nth_error g i) as [e|]; [|reflexivity].
  rewrite (map_opt_map (attr_fn (item_fn g isroot false f)) erase_attr).
  - destruct (map_opt _ (ge_attrs e)) as [attrs|]; [|reflexivity]. cbn [option_map andb]. rewrite erase_elem_eq.
    destruct (isroot i); reflexivity.
  - intros a _. unfold attr_fn.
    rewrite (map_opt_map (item_fn g isroot false f) erase_item).
    + destruct (map_opt _ (ga_items a)) as [its|]; [|reflexivity]. cbn [option_map]. now rewrite erase_attr_eq.
    + intros it _. destruct it as [s|[j| |u]]; cbn [item_fn]; try reflexivity.
      destruct (isroot j) eqn:Rj; [reflexivity|]. rewrite IH, Rj. destruct (nest_elem g isroot false f j); reflexivity.
Qed.

(** the whole document: every top-level block keeps its id *)
Theorem nest_doc_cull : nest_doc g isroot true = option_map (map (erase_elem true)) (nest_doc g isroot false).
Proof.
  unfold nest_doc. apply map_opt_map. intros r Hr. unfold root_list in Hr. apply filter_In in Hr. destruct Hr as [_ Rr].
  rewrite nest_elem_cull, Rr. reflexivity.
Qed.
End Cull.
