(** C15 — proofs about the address maps of the pixel access paths (Fmt/VtfAccess.v). *)
From Coq Require Import ZArith List Bool Lia.
From SV Require Import Fmt.VtfLayout Fmt.VtfLayoutProofs Fmt.VtfAccess.
Import ListNotations.
Open Scope Z_scope.

Lemma dimt_eqb_eq : forall a b, dimt_eqb a b = true -> a = b.
Proof. intros [| |u|] [| |v|]; cbn; try discriminate; try reflexivity. intros H. apply Z.eqb_eq in H. now subst. Qed.

Lemma path_ok_shape : forall p, path_ok p = true -> p_rows p = DH /\ p_cols p = DW /\ p_chan p = DK 4.
Proof.
  intros p H. unfold path_ok in H. apply andb_true_iff in H. destruct H as [H H3]. apply andb_true_iff in H. destruct H as [H1 H2].
  apply dimt_eqb_eq in H1, H2, H3. auto.
Qed.

(** A path that passes [path_ok] accepts exactly the coordinates inside the frame and addresses the canonical byte,
    whatever the frame's size (and whatever any foreign quantity is). *)
Theorem path_address_map : forall p, path_ok p = true ->
  forall w h f x y c,
    path_accepts p w h f x y c = inside w h x y c /\ path_off p w h f x y c = canon_off w x y c.
Proof.
  intros p H w h f x y c. destruct (path_ok_shape p H) as [R [C K]].
  unfold path_accepts, path_off, inside, canon_off. rewrite R, C, K. cbn [dim_val]. split; [reflexivity | ring].
Qed.

Lemma in_range_spec : forall i n, in_range i n = true <-> 0 <= i < n.
Proof. intros. unfold in_range. rewrite andb_true_iff, Z.leb_le, Z.ltb_lt. tauto. Qed.

Lemma inside_spec : forall w h x y c, inside w h x y c = true <-> 0 <= y < h /\ 0 <= x < w /\ 0 <= c < 4.
Proof. intros. unfold inside. rewrite !andb_true_iff, !in_range_spec. tauto. Qed.

(** the canonical byte lies inside the array of 4*w*h bytes *)
Theorem canon_in_buffer : forall w h x y c, inside w h x y c = true -> 0 <= canon_off w x y c < 4 * w * h.
Proof. intros w h x y c H. apply inside_spec in H. unfold canon_off. split; nia. Qed.

(** two different coordinates inside the frame never share a byte *)
Theorem canon_injective : forall w h x y c x' y' c',
  inside w h x y c = true -> inside w h x' y' c' = true ->
  canon_off w x y c = canon_off w x' y' c' -> x = x' /\ y = y' /\ c = c'.
Proof.
  intros w h x y c x' y' c' H H' E. apply inside_spec in H, H'. unfold canon_off in E.
  assert (Hc : c = c') by lia. subst c'.
  assert (E2 : y * w + x = y' * w + x') by lia.
  assert (Hy : y = y') by nia. subst y'. repeat split; lia.
Qed.

(** Written through one path, read through any other: the same coordinate gives the value back, any other coordinate of
    the frame is untouched, and a coordinate outside the frame is refused by both. *)
Theorem paths_agree : forall p q, path_ok p = true -> path_ok q = true ->
  forall w h f g (b : buf) x y c v,
    path_accepts p w h f x y c = path_accepts q w h g x y c
    /\ (path_accepts p w h f x y c = true ->
        bget (bset b (path_off p w h f x y c) v) (path_off q w h g x y c) = v
        /\ forall x' y' c', path_accepts q w h g x' y' c' = true -> (x', y', c') <> (x, y, c) ->
             bget (bset b (path_off p w h f x y c) v) (path_off q w h g x' y' c') = bget b (path_off q w h g x' y' c')).
Proof.
  intros p q Hp Hq w h f g b x y c v.
  destruct (path_address_map p Hp w h f x y c) as [Ap Op]. destruct (path_address_map q Hq w h g x y c) as [Aq Oq].
  split; [congruence|]. intros Acc. rewrite Op, Oq. unfold bget, bset. split.
  - now rewrite Z.eqb_refl.
  - intros x' y' c' Acc' Ne. destruct (path_address_map q Hq w h g x' y' c') as [Aq' Oq']. rewrite Oq'.
    destruct (Z.eqb_spec (canon_off w x' y' c') (canon_off w x y c)) as [E|E]; [|reflexivity].
    exfalso. apply Ne. rewrite Aq' in Acc'. rewrite Ap in Acc.
    destruct (canon_injective w h x' y' c' x y c Acc' Acc E) as [? [? ?]]. now subst.
Qed.

Example good_path_ok : path_ok good_path = true.
Proof. reflexivity. Qed.

Lemma prod_val_split : forall fs w h f,
  count_dim DForeign fs = O ->
  prod_val fs w h f = w ^ Z.of_nat (count_dim DW fs) * h ^ Z.of_nat (count_dim DH fs) * const_prod fs.
Proof.
  induction fs as [|a r IH]; intros w h f Hf.
  - cbn. reflexivity.
  - destruct a as [| |k|]; cbn [prod_val fold_right count_dim dimt_eqb const_prod dim_val] in *.
    + rewrite Nat2Z.inj_succ, Z.pow_succ_r by lia. fold (prod_val r w h f). rewrite (IH w h f Hf). ring.
    + rewrite Nat2Z.inj_succ, Z.pow_succ_r by lia. fold (prod_val r w h f). rewrite (IH w h f Hf). ring.
    + fold (prod_val r w h f). rewrite (IH w h f Hf). ring.
    + discriminate.
Qed.

(** an allocation that passes [alloc_ok k] makes k * width * height elements *)
Theorem alloc_size : forall k fs, alloc_ok k fs = true -> forall w h f, prod_val fs w h f = k * w * h.
Proof.
  intros k fs H w h f. unfold alloc_ok in H.
  apply andb_true_iff in H. destruct H as [H H4]. apply andb_true_iff in H. destruct H as [H H3].
  apply andb_true_iff in H. destruct H as [H1 H2].
  apply Nat.eqb_eq in H1, H2, H3. apply Z.eqb_eq in H4.
  rewrite (prod_val_split fs w h f H3), H1, H2, H4. cbn. ring.
Qed.

Lemma gside_eqb_eq : forall a b, gside_eqb a b = true -> a = b.
Proof. intros [] []; cbn; congruence. Qed.

Lemma gatom_is_eval : forall a s t w h w' h', gatom_is a s t = true ->
  gatom_eval a w h w' h' = negb (Z.eqb (gside_val s w h w' h') (gside_val t w h w' h')).
Proof.
  intros [u v] s t w h w' h' H. unfold gatom_is in H. cbn [fst snd] in H. unfold gatom_eval. cbn [fst snd].
  apply orb_true_iff in H. destruct H as [H|H]; apply andb_true_iff in H; destruct H as [H1 H2];
    apply gside_eqb_eq in H1, H2; subst; [reflexivity|]. now rewrite Z.eqb_sym.
Qed.

(** a size test that passes [copy_guard_ok] lets a copy through exactly when both dimensions agree *)
Theorem copy_guard_exact : forall g, copy_guard_ok g = true ->
  forall w h w' h', guard_rejects g w h w' h' = false <-> (w = w' /\ h = h').
Proof.
  intros g [[(a1 & I1 & E1)%existsb_exists (a2 & I2 & E2)%existsb_exists]%andb_prop H3]%andb_prop w h w' h'.
  rewrite forallb_forall in H3. unfold guard_rejects. rewrite existsb_false. split.
  - (* the width test and the height test are among the disjuncts *)
    intros Hr. pose proof (Hr a1 I1) as N1. pose proof (Hr a2 I2) as N2.
    rewrite (gatom_is_eval _ _ _ _ _ _ _ E1) in N1. rewrite (gatom_is_eval _ _ _ _ _ _ _ E2) in N2. cbn [gside_val] in N1, N2.
    apply negb_false_iff in N1, N2. apply Z.eqb_eq in N1, N2. auto.
  - (* and every disjunct is one of the two *)
    intros [-> ->] a Ia. specialize (H3 a Ia). apply orb_true_iff in H3.
    destruct H3 as [S|S]; rewrite (gatom_is_eval _ _ _ _ _ _ _ S); cbn [gside_val]; rewrite Z.eqb_refl; reflexivity.
Qed.

Lemma atom_sound_inside : forall a, atom_sound a = true -> forall x y w h, 0 <= x < w -> 0 <= y < h -> atom_eval a x y w h = false.
Proof.
  intros a H x y w h Hx Hy. unfold atom_sound in H.
  repeat (apply orb_true_iff in H; destruct H as [H|H]); apply atom_eqb_eq in H; subst a; cbn;
    first [apply Z.ltb_ge; lia | apply Z.leb_gt; lia | apply Z.geb_leb; lia | idtac].
Qed.

(** an item path whose test passes [bounds_exact] accepts EXACTLY the coordinates of the frame *)
Theorem item_accepts_exactly : forall ds, bounds_exact ds = true ->
  forall x y w h, rejects ds x y w h = false <-> (0 <= x < w /\ 0 <= y < h).
Proof.
  intros ds H x y w h. unfold bounds_exact in H. apply andb_true_iff in H. destruct H as [Hb Hs]. split.
  - intros Hr. destruct (accepted_in_bounds ds Hb x y w h Hr) as [A [B _]]. auto.
  - intros [Hx Hy]. apply existsb_false. intros a Ia. rewrite forallb_forall in Hs.
    exact (atom_sound_inside a (Hs a Ia) x y w h Hx Hy).
Qed.

(** item access and any shaped path agree: the bytes pixel_off .. pixel_off+3 of an accepted (x, y) are the bytes the
    shaped path gives for (x, y, 0..3), and both accept the same (x, y). *)
Theorem item_and_path_agree : forall ds p, bounds_exact ds = true -> path_ok p = true ->
  forall w h f x y c, 0 <= c < 4 ->
    (rejects ds x y w h = false <-> path_accepts p w h f x y c = true)
    /\ path_off p w h f x y c = pixel_off x y w + c.
Proof.
  intros ds p Hd Hp w h f x y c Hc. destruct (path_address_map p Hp w h f x y c) as [A O]. rewrite A, O. split.
  - rewrite (item_accepts_exactly ds Hd), inside_spec. tauto.
  - unfold canon_off, pixel_off. ring.
Qed.

Lemma krole_eqb_eq : forall a b, krole_eqb a b = true -> a = b.
Proof. intros [] []; cbn; congruence. Qed.
Lemma kroles_eqb_eq : forall l1 l2, kroles_eqb l1 l2 = true -> l1 = l2.
Proof.
  induction l1 as [|a r IH]; intros [|b r2] H; cbn in H; try discriminate; [reflexivity|].
  apply andb_true_iff in H. destruct H as [H1 H2]. apply krole_eqb_eq in H1. apply IH in H2. now subst.
Qed.
(** two sites that pass [key_ok] build the same key for the same (frame, side, mipmap): what one stores the other finds *)
Theorem key_sites_agree : forall p q, key_ok p = true -> key_ok q = true ->
  forall f s m o o', key_of p f s m o = [f; s; m] /\ key_of q f s m o' = key_of p f s m o.
Proof.
  intros p q Hp Hq f s m o o'. apply kroles_eqb_eq in Hp, Hq. subst. split; reflexivity.
Qed.
