(** C06: the composed statement of the property over arbitrary generated objects (proof; the statement is
    repeated in Props/C06.v as [c06_property]).  Axiom-free. *)
From Coq Require Import NArith ZArith List String Bool.
From SV Require Import KV.KvBase KV.KvLex KV.KvParse KV.KvSym KV.KvRoundtrip.
From SV Require Import Fmt.VmfText Fmt.VmfTextProofs Fmt.VmfBlocks Fmt.VmfBlocksProofs.
From SV Require Import Fmt.VmfLite Fmt.VmfLiteProofs Fmt.VmfIds Fmt.VmfIdsProofs Fmt.VmfTree Fmt.VmfTreeProofs Fmt.VmfSets Fmt.VmfSetsProofs
  Fmt.VmfViewport Fmt.VmfViewportProofs.
Import ListNotations.

Lemma whole_property :
  forall nums progs (P : parsecfg) (ctbl : list liteclass) classes mans sites (kinds : list string) loops tiers vtbl vinv
         (V T : Type) (dflt : V) (enc : lentry -> list V -> T) (dec : lentry -> T -> V),
  table_ok nums progs = true -> pcfg_ok P = true ->
  codecs_invert V T enc dec ctbl ->
  (forall k, In k kinds -> kind_ok classes mans sites k = true) ->
  member_loops_ok loops = true ->
  vp_ok tiers vtbl vinv = true ->
  (forall fuel fn e text kvs flag_on, env_ok nums e ->
     run (fun_lookup progs) fuel (fun_lookup progs fn) [] e = Some (text, kvs) -> doc_names_ok kvs = true ->
     parse_kv P vmf_E flag_on text = POk kvs)
  /\ (forall x : otree V, wf V ctbl x ->
        parse_t V T dflt dec ctbl (export_t V T dflt enc ctbl x) = x /\
        export_t V T dflt enc ctbl (parse_t V T dflt dec ctbl (export_t V T dflt enc ctbl x)) = export_t V T dflt enc ctbl x)
  /\ (forall k, In k kinds -> exists m p, In m mans /\ im_attr m = k /\ assoc_s (im_preserve m) classes = Some p /\
        forall d o, (0 <= d)%Z -> id_get p o d = AKeep)
  /\ (forall l, In l loops -> ml_sorted l = true) /\
     (forall s1 s2 : list Z, NoDup s1 -> NoDup s2 -> same_set s1 s2 -> write_members true s1 = write_members true s2)
  /\ (forall t1 r, tiers = t1 :: r -> forall a u v, in_tier t1 u = false -> in_tier t1 v = false ->
        vp_read tiers vinv (vp_write vtbl a u v) = Some (a, u, v)).
Proof.
  intros nums progs P ctbl classes mans sites kinds loops tiers vtbl vinv V T dflt enc dec Ht Hp Hc Hk Hl Hv.
  split; [intros; eapply table_text_parses; eauto|].
  split; [intros x Hx; split; [apply tree_roundtrip; assumption|apply tree_fixed_point; assumption]|].
  split.
  { intros k Hin. destruct (kind_ok_sound classes mans sites k (Hk k Hin)) as [m [p [H1 [H2 [H3 [H4 _]]]]]]. exists m, p. auto. }
  split; [apply member_loops_ok_sound; exact Hl|].
  split; [exact members_canonical|].
  intros t1 r E a u v Hu Hv'. eapply vp_roundtrip; eauto.
Qed.
