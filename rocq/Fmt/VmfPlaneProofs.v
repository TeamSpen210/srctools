From Coq Require Import NArith List Bool.
From SV Require Import Fmt.VmfPlane.
Import ListNotations.
Open Scope N_scope.

Lemma split_aux_run p : no_paren p = true -> forall cur rest,
  split_str_aux PSEP 0 cur (p ++ rest) = split_str_aux PSEP 0 (rev p ++ cur) rest.
Proof.
  induction p as [|c p IH]; intros H cur rest; [reflexivity|].
  cbn [no_paren forallb] in H. apply andb_true_iff in H. destruct H as [Hc Hp]. apply negb_true_iff in Hc.
  apply orb_false_iff in Hc. destruct Hc as [_ H41].
  cbn [app split_str_aux]. unfold PSEP at 1. cbn [pl_prefix]. rewrite N.eqb_sym, H41. cbn [andb].
  rewrite IH by exact Hp. cbn [rev]. rewrite <- app_assoc. reflexivity.
Qed.

Lemma split_aux_sep cur rest :
  split_str_aux PSEP 0 cur (PSEP ++ rest) = rev cur :: split_str_aux PSEP 0 [] rest.
Proof. reflexivity. Qed.

Lemma split_aux_end p : no_paren p = true -> forall cur, split_str_aux PSEP 0 cur p = [rev cur ++ p].
Proof.
  intros H cur. rewrite <- (app_nil_r p) at 1. rewrite split_aux_run by exact H. cbn [split_str_aux].
  rewrite rev_app_distr, rev_involutive. reflexivity.
Qed.

Lemma drop_ends_wrap s : drop_ends (40 :: s ++ [41]) = s.
Proof. cbn [drop_ends]. apply removelast_last. Qed.

Example plane_text_example : plane_parse (plane_text [49; 32; 50; 32; 51] [48; 32; 48; 32; 48] [45; 49; 32; 48; 32; 53])
  = Some ([49; 32; 50; 32; 51], [48; 32; 48; 32; 48], [45; 49; 32; 48; 32; 53]).
Proof. vm_compute. reflexivity. Qed.
