(** Cross-lump closure of save() (model in BspSaveOrder.v): if every reference goes to the writer's own lump or to a lump
    rebuilt later, then after all writers ran every object of every list has exactly one record, at its own index, and every
    index stored in any record resolves - in the FINAL list of the target lump - to the object referred to. *)
From Coq Require Import NArith List PeanoNat Lia.
From SV Require Import Bin.FindInsert Bin.FindInsertProofs Fmt.BspWorklist Fmt.BspWorklistProofs Fmt.BspSaveOrder.
Import ListNotations.
Local Open Scope nat_scope.

Definition tinv (T : tables) : Prop := forall M, wl_inv (T M).
Definition text (T T' : tables) : Prop := forall M, exists e, items (T' M) = items (T M) ++ e.

Lemma text_refl : forall T, text T T.
Proof. intros T M. exists []. rewrite app_nil_r. reflexivity. Qed.
Lemma text_trans : forall A B C, text A B -> text B C -> text A C.
Proof. intros A B C H1 H2 M. destruct (H1 M) as [e1 E1]. destruct (H2 M) as [e2 E2]. exists (e1 ++ e2). rewrite E2, E1, app_assoc. reflexivity. Qed.

Lemma resolves_ext : forall T T' rs idx, text T T' -> resolves T rs idx -> resolves T' rs idx.
Proof.
  intros T T' rs idx Hx H. unfold resolves in *. eapply Forall2_mono; [|exact H]. intros r mi [H1 H2].
  split; [exact H1|]. destruct (Hx (fst r)) as [e E]. rewrite E. apply nth_error_ext. exact H2.
Qed.

Lemma tupd_same : forall T M s, tupd T M s M = s.
Proof. intros. unfold tupd. rewrite Nat.eqb_refl. reflexivity. Qed.
Lemma tupd_other : forall T M s x, x <> M -> tupd T M s x = T x.
Proof. intros T M s x H. unfold tupd. destruct (Nat.eqb_spec x M); [contradiction|reflexivity]. Qed.

Lemma add_refs_spec : forall rs T T' idx, tinv T -> add_refs T rs = (T', idx) ->
  tinv T' /\ text T T' /\ resolves T' rs idx /\ (forall M, (forall k, ~ In (M, k) rs) -> T' M = T M).
Proof.
  induction rs as [|[M k] r IH]; intros T T' idx Ht H; cbn [add_refs] in H.
  - injection H as <- <-. split; [exact Ht|]. split; [apply text_refl|]. split; [constructor|]. reflexivity.
  - destruct (fi_find (T M) k) as [s' i] eqn:Ef. destruct (add_refs (tupd T M s') r) as [T2 is] eqn:Ea. injection H as <- <-.
    destruct (fi_find_step _ _ _ _ (Ht M) Ef) as (Hs' & Hn & e & He & _).
    assert (Ht1 : tinv (tupd T M s')).
    { intros x. unfold tupd. destruct (Nat.eqb x M); [exact Hs'|apply Ht]. }
    assert (Hx1 : text T (tupd T M s')).
    { intros x. unfold tupd. destruct (Nat.eqb_spec x M) as [->|]; [exists e; exact He|exists []; rewrite app_nil_r; reflexivity]. }
    destruct (IH _ _ _ Ht1 Ea) as (Ht2 & Hx2 & Hr2 & Hf2).
    split; [exact Ht2|]. split; [eapply text_trans; eassumption|]. split.
    + constructor; [|exact Hr2]. cbn [fst snd]. split; [reflexivity|]. destruct (Hx2 M) as [e2 E2]. rewrite E2, tupd_same. apply nth_error_ext. exact Hn.
    + intros M' Hno. rewrite Hf2; [apply tupd_other|].
      * intros ->. apply (Hno k). left. reflexivity.
      * intros k' Hin. apply (Hno k'). right. exact Hin.
Qed.

Section Loop.
Variable refs : nat -> N -> list ref.
Variable L : nat.
Variable T0 : tables.

Definition rec_ok (T : tables) (r : mrecord) : Prop := resolves T (refs L (fst r)) (snd r).

Record minv (T : tables) (pos : nat) (out : list mrecord) : Prop := {
  mi_t : tinv T;
  mi_out : map fst out = firstn pos (items (T L));
  mi_pos : pos <= List.length (items (T L));
  mi_refs : Forall (rec_ok T) out;
  mi_ext : text T0 T;
  mi_frame : forall M, (forall o k, ~ In (M, k) (refs L o)) -> T M = T0 M }.

Lemma mw_step : forall T pos out o T' idx, minv T pos out -> nth_error (items (T L)) pos = Some o ->
  add_refs T (refs L o) = (T', idx) -> minv T' (S pos) (out ++ [(o, idx)]).
Proof.
  intros T pos out o T' idx [Ht Ho Hp Hr Hx Hf] Hn E.
  destruct (add_refs_spec _ _ _ _ Ht E) as (Ht' & Hx' & Hr' & Hf').
  assert (Hlt : pos < List.length (items (T L))) by (apply nth_error_Some; rewrite Hn; discriminate).
  destruct (Hx' L) as [e He].
  constructor.
  - exact Ht'.
  - unfold mrecord in *. rewrite map_app, Ho, He. symmetry. apply firstn_snoc_ext. exact Hn.
  - rewrite He, app_length. lia.
  - apply Forall_app. split.
    + eapply Forall_impl; [|exact Hr]. intros r. apply resolves_ext. exact Hx'.
    + constructor; [|constructor]. exact Hr'.
  - eapply text_trans; eassumption.
  - intros M Hno. rewrite Hf'; [apply Hf; exact Hno|]. intros k. apply Hno.
Qed.

Lemma mw_loop_inv : forall fuel T pos out T' out', minv T pos out -> mw_loop refs fuel L T pos out = (T', out', true) ->
  minv T' (List.length (items (T' L))) out'.
Proof.
  induction fuel as [|f IH]; intros T pos out T' out' Hinv H; cbn [mw_loop] in H; [discriminate|].
  destruct (nth_error (items (T L)) pos) as [o|] eqn:En.
  - destruct (add_refs T (refs L o)) as [T1 idx] eqn:E. eapply IH; [|exact H]. eapply mw_step; eassumption.
  - injection H as <- <-. apply nth_error_None in En. destruct Hinv as [Ht Ho Hp Hr Hx Hf].
    assert (pos = List.length (items (T L))) as -> by lia. constructor; assumption.
Qed.
End Loop.

Lemma minv_init : forall refs L T, tinv T -> minv refs L T T 0 [].
Proof. intros refs L T Ht. constructor; [exact Ht|reflexivity|lia|constructor|apply text_refl|reflexivity]. Qed.

(** The writer of one lump. *)
Lemma mw_loop_spec : forall refs fuel L T T' out, tinv T -> mw_loop refs fuel L T 0 [] = (T', out, true) ->
  tinv T' /\ text T T' /\ map fst out = items (T' L) /\ Forall (rec_ok refs L T') out /\
  (forall M, (forall o k, ~ In (M, k) (refs L o)) -> T' M = T M).
Proof.
  intros refs fuel L T T' out Ht H. destruct (mw_loop_inv refs L T fuel T 0 [] T' out (minv_init refs L T Ht) H) as [A B _ D E F].
  rewrite firstn_all in B. split; [exact A|]. split; [exact E|]. split; [exact B|]. split; [exact D|exact F].
Qed.

Theorem msave_closure : forall refs fuel order T R T' R', NoDup order -> forward refs order -> tinv T ->
  msave refs fuel order T R = (T', R', true) ->
  tinv T' /\ text T T' /\ (forall M, ~ In M order -> T' M = T M /\ R' M = R M) /\
  forall L, In L order -> map fst (R' L) = items (T' L) /\ Forall (rec_ok refs L T') (R' L).
Proof.
  intros refs fuel. induction order as [|L r IH]; intros T R T' R' Hnd Hfw Ht H; cbn [msave] in H.
  - injection H as <- <-. split; [exact Ht|]. split; [apply text_refl|]. split; [intros; split; reflexivity|intros L []].
  - destruct (mw_loop refs fuel L T 0 []) as [[T1 out] ok] eqn:El. destruct ok; [|discriminate].
    destruct (mw_loop_spec _ _ _ _ _ _ Ht El) as (Ht1 & Hx1 & Hal & Hrs & Hf1).
    inversion Hnd as [|? ? HL Hr]; subst. cbn [forward] in Hfw. destruct Hfw as [HfL Hfr].
    destruct (IH _ _ _ _ Hr Hfr Ht1 H) as (Ht' & Hx' & Hfr' & Hrest).
    split; [exact Ht'|]. split; [eapply text_trans; eassumption|]. split.
    + intros M Hno. cbn [In] in Hno. destruct (Hfr' M) as [E1 E2]; [intro; apply Hno; right; assumption|].
      split.
      * rewrite E1. apply Hf1. intros o k Hin. destruct (HfL o M k Hin) as [->|Hin']; apply Hno; [left; reflexivity|right; exact Hin'].
      * rewrite E2. unfold rupd. destruct (Nat.eqb_spec M L) as [->|]; [exfalso; apply Hno; left; reflexivity|reflexivity].
    + intros L' [<-|Hin].
      * destruct (Hfr' L HL) as [E1 E2]. rewrite E2, E1. unfold rupd. rewrite Nat.eqb_refl. split; [exact Hal|].
        eapply Forall_impl; [|exact Hrs]. intros rc Hrc. unfold rec_ok in *. eapply resolves_ext; [|exact Hrc].
        intros M. destruct (Hx' M) as [e E]. exists e. exact E.
      * apply Hrest. exact Hin.
Qed.

(** A reference to a lump that was rebuilt EARLIER ([c11_save_backward_reference_refuted], Props/C11.v): lump 0 (no
    references) is written first, then lump 1 whose object 5 refers to the unlisted object 9 of lump 0. *)
Definition refs_back (L : nat) (o : N) : list ref := if Nat.eqb L 1 then [(0, 9%N)] else [].

(** * From the rebuild order read from the source to [forward] *)
(** Lumps are identified with their positions in LUMP_REBUILD_ORDER.  [respects]: every reference of the (arbitrary)
    reference structure is either inside the writer's own lump or along one of the (writer, owner) edges that the
    translator collected from the writers. *)
Definition respects (refs : nat -> N -> list ref) (order : list String.string) (edges : list (String.string * String.string)) : Prop :=
  forall i o j k, In (j, k) (refs i o) ->
    j = i \/ exists a b, In (a, b) edges /\ pos_of a order = Some i /\ pos_of b order = Some j.

Lemma pos_of_lt : forall x order i, pos_of x order = Some i -> i < List.length order.
Proof.
  induction order as [|y r IH]; intros i H; cbn [pos_of] in H; [discriminate|].
  destruct (String.eqb x y).
  - injection H as <-. cbn [List.length]. lia.
  - destruct (pos_of x r) as [p|]; [|discriminate]. cbn in H. injection H as <-. cbn [List.length]. specialize (IH p eq_refl). lia.
Qed.

Lemma forward_seq : forall refs len a, (forall i o j k, In (j, k) (refs i o) -> j = i \/ (i < j /\ j < a + len)) -> forward refs (seq a len).
Proof.
  intros refs. induction len as [|n IH]; intros a H; cbn [seq forward]; [exact I|]. split.
  - intros o M k Hin. destruct (H a o M k Hin) as [->|[H1 H2]]; [left; reflexivity|]. right. apply in_seq. lia.
  - apply IH. intros i o j k Hin. destruct (H i o j k Hin) as [->|[H1 H2]]; [left; reflexivity|right; lia].
Qed.

Theorem order_ok_forward : forall refs order edges, order_ok order edges = true -> respects refs order edges ->
  forward refs (seq 0 (List.length order)).
Proof.
  intros refs order edges Hok Hres. apply forward_seq. intros i o j k Hin.
  destruct (Hres i o j k Hin) as [->|(a & b & He & Ha & Hb)]; [left; reflexivity|]. right.
  destruct (order_ok_sound _ _ Hok a b He) as (i' & j' & Hi & Hj & Hlt). rewrite Ha in Hi. rewrite Hb in Hj.
  injection Hi as <-. injection Hj as <-. split; [exact Hlt|]. cbn [plus]. eapply pos_of_lt. exact Hb.
Qed.

(** The composed statement: the rebuild order and append edges read from the source pass [order_ok]; then for ANY
    reference structure that stays within those edges and any initial lists, after save() has run every writer
    (positions 0 .. n-1), every list entry of every lump has exactly one record at its own index and every stored index
    resolves in the final list of its target lump to the object referred to. *)
Theorem save_cross_reference_closure : forall refs order edges fuel T R T' R',
  order_ok order edges = true -> respects refs order edges -> tinv T ->
  msave refs fuel (seq 0 (List.length order)) T R = (T', R', true) ->
  forall L, L < List.length order -> map fst (R' L) = items (T' L) /\ Forall (rec_ok refs L T') (R' L).
Proof.
  intros refs order edges fuel T R T' R' Hok Hres Ht H L HL.
  destruct (msave_closure refs fuel _ T R T' R' (seq_NoDup _ _) (order_ok_forward _ _ _ Hok Hres) Ht H) as (_ & _ & _ & Hall).
  apply Hall. apply in_seq. lia.
Qed.
