(* TextFieldsProofs.v -- quoted fields are read back by the tokenizer model of KV/KvLex.v. *)
From Coq Require Import List NArith Bool.
From SV Require Import KV.KvBase KV.KvLex KV.KvSym KV.KvLexProofs Fmt.TextFields.
Import ListNotations.
Open Scope N_scope.

Lemma raw_run E v : raw_safe v = true -> forall acc l cr rest,
  lex_run E (mkL (MStr acc false) l cr) (v ++ rest) = lex_run E (mkL (MStr (rev v ++ acc) false) l cr) rest.
Proof.
  induction v as [|c v IH]; intros H acc l cr rest; [reflexivity|].
  cbn [raw_safe forallb] in H. apply andb_prop in H as [Hc Hv].
  unfold raw_char_ok in Hc. apply negb_true_iff in Hc. rewrite !orb_false_iff in Hc. destruct Hc as [[[H1 H2] H3] H4].
  cbn [app]. erewrite lex_run_cons.
  2:{ unfold lstep; cbn [l_mode l_line l_cr]. rewrite H1, H3, H4, H2. reflexivity. }
  rewrite tcons_nil, (IH Hv). cbn [rev]. rewrite <- app_assoc. reflexivity.
Qed.

Lemma lexes_raw_quoted E l v : raw_safe v = true -> lexes E l (DQ :: v ++ [DQ]) [TStr v] l.
Proof.
  intros H rest. cbn [app]. erewrite lex_run_cons by reflexivity. rewrite tcons_nil.
  rewrite <- app_assoc, (raw_run E v H). cbn [app].
  erewrite lex_run_cons by reflexivity. now rewrite app_nil_r, rev_involutive.
Qed.

(** a field of an escaped-and-quoted site is read back whatever its value; of a raw quoted site when the value
    has no quote, backslash or line break *)
Definition field_reads (c : fclass) (v : str) : bool :=
  match c with FEscQuoted => true | FRawQuoted => raw_safe v | _ => false end.

Theorem field_lexes E : esc_ok E = true -> forall c v l, field_reads c v = true ->
  lexes E l (render_field E c v) [TStr v] l.
Proof.
  intros HE c v l H. destruct c; cbn [field_reads render_field] in *; try discriminate.
  - apply lexes_quoted. exact HE.
  - apply lexes_raw_quoted. exact H.
Qed.

Theorem escaped_sites_read_back E sites : esc_ok E = true -> free_text_escaped sites = true ->
  forall s v l, In s sites -> is_free_text (fs_type s) = true -> lexes E l (render_field E (fs_class s) v) [TStr v] l.
Proof.
  intros HE H s v l Hin Ht. unfold free_text_escaped in H. rewrite forallb_forall in H. specialize (H s Hin).
  rewrite Ht in H. destruct (fs_class s); try discriminate. apply field_lexes; [exact HE|reflexivity].
Qed.

Theorem quoted_sites_read_back E sites : esc_ok E = true -> free_text_quoted sites = true ->
  forall s v l, In s sites -> is_free_text (fs_type s) = true -> raw_safe v = true ->
  lexes E l (render_field E (fs_class s) v) [TStr v] l.
Proof.
  intros HE H s v l Hin Ht Hv. unfold free_text_quoted in H. rewrite forallb_forall in H. specialize (H s Hin).
  rewrite Ht in H. destruct (fs_class s); try discriminate; apply field_lexes; try exact HE; cbn; auto.
Qed.

(** tokenizer.ESCAPES / ESCAPE_RE of the pinned tree (the table itself is tied to tokenizer.py by C01's translator) *)
Definition ex_escfg : escfg := {|
  e_table := [(110, 10); (116, 9); (118, 11); (98, 8); (114, 13); (102, 12); (97, 7); (34, 34); (39, 39);
              (47, 47); (92, 92); (63, 63)];
  e_excl := [63; 47] |}.

(** refuted: a raw quoted field holding a quote is not read back (the class of the repaired cctoken defect) *)
Example raw_quoted_quote_refuted :
  lex_all ex_escfg (render_field ex_escfg FRawQuoted [97; 34; 98])
  <> ([TStr [97; 34; 98]], None).
Proof. vm_compute. discriminate. Qed.

(** refuted: an unquoted pair "95, 110" (the repaired soundscript low-high defect) is not one string *)
Example bare_pair_refuted :
  fst (lex_all ex_escfg (render_field ex_escfg FRawBare [57; 53; 44; 32; 49; 49; 48] ++ [LF]))
  <> [TStr [57; 53; 44; 32; 49; 49; 48]; TNL].
Proof. vm_compute. discriminate. Qed.

Example ref_esc_ok : esc_ok ex_escfg = true.
Proof. vm_compute. reflexivity. Qed.

(** refuted: the stop stack written from the update stack (seeded-fault class) is not paired *)
Example stacks_crossed_refuted :
  stacks_paired [([1], [10], [10]); ([2], [11], [11]); ([3], [11], [11])] [([1], [10]); ([2], [11]); ([3], [12])] = false
  /\ stacks_paired [([1], [10], [10]); ([2], [11], [11]); ([3], [12], [12])] [([1], [10]); ([2], [11]); ([3], [12])] = true.
Proof. split; vm_compute; reflexivity. Qed.
