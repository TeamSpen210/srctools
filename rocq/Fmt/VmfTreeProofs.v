(** C06: the round trip of a whole object tree, by induction over the containment tree (axiom-free). *)
From Coq Require Import List String Bool.
From SV Require Import Fmt.VmfLite Fmt.VmfLiteProofs Fmt.VmfTree.
Import ListNotations.
Open Scope string_scope.

Lemma is_scalar_spec w : is_scalar w = true -> le_dyn w = false /\ le_attrs w = [scalar_attr w].
Proof.
  unfold is_scalar, scalar_attr. intros H. apply andb_true_iff in H. destruct H as [H1 H2]. apply negb_true_iff in H1.
  split; [exact H1|]. destruct (le_attrs w) as [|a [|b l]]; try discriminate. reflexivity.
Qed.

Section TreeProofs.
  Variables V T : Type.
  Variable dflt : V.
  Variable enc : lentry -> list V -> T.
  Variable dec : lentry -> T -> V.
  Variable tbl : list liteclass.

  Notation otree := (otree V).
  Notation dtree := (dtree T).
  Notation export_t := (export_t V T dflt enc tbl).
  Notation parse_t := (parse_t V T dflt dec tbl).
  Notation wf := (wf V tbl).

  Fixpoint otree_ind2 (P : otree -> Prop)
      (H : forall a c fs ks, Forall P ks -> P (ONode V a c fs ks)) (x : otree) : P x :=
    match x with
    | ONode _ a c fs ks =>
        H a c fs ks ((fix go (l : list otree) : Forall P l :=
                        match l with [] => Forall_nil P | k :: r => Forall_cons k (otree_ind2 P H k) (go r) end) ks)
    end.

  Lemma cls_of_In c lc : cls_of tbl c = Some lc -> In lc tbl.
  Proof. unfold cls_of. intros H. apply find_some in H. tauto. Qed.

  Lemma d_attr_export x : d_attr T (export_t x) = o_attr V x.
  Proof. destruct x as [a c fs ks]. cbn [export_t]. destruct (cls_of tbl c); reflexivity. Qed.
  Lemma o_attr_parse d : o_attr V (parse_t d) = d_attr T d.
  Proof. destruct d as [a c ls ks]. cbn [parse_t]. destruct (cls_of tbl c); reflexivity. Qed.

  (** An association list with distinct keys that lists the keys [map g l] in order is the list of (key, value looked up). *)
  Lemma assoc_rebuild {A} (g : A -> string) (l : list A) : forall fs : list (string * V),
    map fst fs = map g l -> NoDup (map fst fs) -> forall full, (forall a v, In (a, v) fs -> fs_get V dflt a full = v) ->
    map (fun w => (g w, fs_get V dflt (g w) full)) l = fs.
  Proof.
    induction l as [|w r IH]; intros [|[a v] fs] E ND full Hf; cbn in *; try discriminate; [reflexivity|].
    injection E as E1 E2. apply NoDup_cons_iff in ND. destruct ND as [Hn ND'].
    f_equal.
    - rewrite <- E1. f_equal. apply Hf. left; reflexivity.
    - apply IH; auto.
  Qed.

  Lemma assoc_NoDup (fs : list (string * V)) : NoDup (map fst fs) -> forall a v, In (a, v) fs -> fs_get V dflt a fs = v.
  Proof.
    induction fs as [|[a' v'] r IH]; intros ND a v Hin; [destruct Hin|]. destruct Hin as [E|Hin]; cbn [fs_get].
    - injection E as -> ->. rewrite String.eqb_refl. reflexivity.
    - cbn [map fst] in ND. apply NoDup_cons_iff in ND. destruct ND as [Hn ND'].
      destruct (String.eqb a' a) eqn:Ea.
      + apply String.eqb_eq in Ea. subst. exfalso. apply Hn. apply in_map_iff. exists (a, v). auto.
      + apply IH; auto.
  Qed.

  Hypothesis Hcodec : codecs_invert V T enc dec tbl.

  (** One scalar line of a paired class: what the reader makes of the exported lines is the attribute's value. *)
  Lemma read_scalar_export lc (o : obj V) w : In lc tbl -> lite_paired lc = true -> In w (scalars lc) ->
    read_scalar V T dflt dec lc (export_lines V T enc lc o) w = (scalar_attr w, o (scalar_attr w)).
  Proof.
    intros Hin Hp Hw. unfold scalars in Hw. pose proof Hw as Hw0. apply filter_In in Hw. destruct Hw as [Hw Hs].
    apply is_scalar_spec in Hs. destruct Hs as [Hd Ha].
    destruct (paired_find lc Hp w Hw Hd) as (r & Hr & _); [rewrite Ha; discriminate|].
    unfold read_scalar. rewrite Hr. pose proof (find_entry_some _ _ _ _ Hr) as [_ [Hb Hk]]. rewrite Hb, Hk.
    unfold export_lines. rewrite (llookup_export_lines V T enc o (lc_written lc) w (lite_paired_keys lc Hp) Hw Hd).
    rewrite Ha. cbn [map]. rewrite (Hcodec lc w r (o (scalar_attr w)) Hin Hw0 Hr). reflexivity.
  Qed.

  (** The whole tree: export then parse gives the object back -- every scalar attribute of every node, the class of every
      node, and the children in order under the same attributes. *)
  Theorem tree_roundtrip x : wf x -> parse_t (export_t x) = x.
  Proof.
    induction x as [a c fs ks IH] using otree_ind2. cbn [VmfTree.wf].
    intros [lc [Hc [Hp [Hfs [Hnd Hks]]]]].
    cbn [VmfTree.export_t]. rewrite Hc. cbn [VmfTree.parse_t]. rewrite Hc.
    pose proof (cls_of_In c lc Hc) as Hin.
    f_equal.
    - rewrite (map_ext_in _ (fun w => (scalar_attr w, fs_get V dflt (scalar_attr w) fs))).
      + apply assoc_rebuild; auto. apply assoc_NoDup; exact Hnd.
      + intros w Hw. apply (read_scalar_export lc (fun at_ => fs_get V dflt at_ fs) w Hin Hp Hw).
    - clear Hfs Hnd. induction ks as [|k r IHr]; [reflexivity|].
      destruct Hks as [[Hkw [Hkr Hwf]] Hrest]. inversion IH as [|? ? Hk Hr]; subst.
      cbn [map filter]. rewrite d_attr_export. apply smem_In in Hkw. rewrite Hkw.
      cbn [map filter]. rewrite (Hk Hwf). apply smem_In in Hkr. rewrite Hkr. f_equal. apply IHr; assumption.
  Qed.

  (** Hence the second export is the first one (the fixed point at the level of blocks and lines). *)
  Corollary tree_fixed_point x : wf x -> export_t (parse_t (export_t x)) = export_t x.
  Proof. intros H. rewrite (tree_roundtrip x H). reflexivity. Qed.
End TreeProofs.

(** Non-vacuity and necessity: a two-class table Solid > Side. *)
Definition ex_side : liteclass := mk_liteclass "Side"
  [mk_le "side" "id" false ["id"]; mk_le "side" "material" false ["mat"]]
  [mk_le "side" "id" false ["id"]; mk_le "side" "material" false ["mat"]] [] [].
Definition ex_solid : liteclass := mk_liteclass "Solid"
  [mk_le "solid" "id" false ["id"]] [mk_le "solid" "id" false ["id"]] ["sides"] ["sides"].
(* the reader does not build the sides *)
Definition ex_solid_deaf : liteclass := mk_liteclass "Solid"
  [mk_le "solid" "id" false ["id"]] [mk_le "solid" "id" false ["id"]] ["sides"] [].

Definition ex_tree : otree nat :=
  ONode nat "" "Solid" [("id", 0)] [ONode nat "sides" "Side" [("id", 0); ("mat", 7)] []; ONode nat "sides" "Side" [("id", 5); ("mat", 8)] []].
Definition tree_ex_enc (w : lentry) (l : list nat) : nat := hd 0 l + 1.
Definition tree_ex_dec (r : lentry) (t : nat) : nat := t - 1.

Theorem tree_example :
  parse_t nat nat 0 tree_ex_dec [ex_solid; ex_side] (export_t nat nat 0 tree_ex_enc [ex_solid; ex_side] ex_tree) = ex_tree /\
  chain_ok [ex_solid; ex_side] [(("Solid", "sides"), "Side")] ["Solid"; "Side"] = true.
Proof. vm_compute. split; reflexivity. Qed.

Lemma ex_tree_wf : wf nat [ex_solid; ex_side] ex_tree.
Proof.
  cbn. exists ex_solid. repeat split; try reflexivity; try (left; reflexivity).
  - constructor; [intros []|constructor].
  - exists ex_side. repeat split; try reflexivity. repeat constructor; cbn; intuition discriminate.
  - exists ex_side. repeat split; try reflexivity. repeat constructor; cbn; intuition discriminate.
Qed.

