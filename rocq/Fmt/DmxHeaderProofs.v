(** C14 — proofs about the unicode modes (Fmt/DmxHeader.v). *)
From Coq Require Import List Bool.
From SV Require Import Fmt.DmxHeader.
Import ListNotations.

Example hdr_example : hdr_bin_ok pinned_hdr && hdr_kv2_ok pinned_hdr && hdr_modes_ok pinned_hdr = true.
Proof. reflexivity. Qed.
Example hdr_unmarked_refuted : hdr_bin_ok unmarked_hdr = false /\ reader_bin_utf8 unmarked_hdr UFormat = false /\ hb_utf8 unmarked_hdr UFormat = true.
Proof. repeat split; reflexivity. Qed.
