(** C14 — the graph the fix-up pass of [parse_kv2] builds ([link]) written out again with references by id is the document
    that was read: [link d] is determined by [d] up to the numbering of its elements.  With [nest_is_flatten_permuted]: the
    graph read from the nested layout and the exported graph have flat documents that are permutations of each other,
    with the same first element — they are the same graph up to the order in which the elements are listed. *)
From Coq Require Import NArith List Bool Lia PeanoNat.
From SV Require Import Fmt.DmxKv2 Fmt.DmxKv2Proofs Fmt.DmxKv2Graph.
Import ListNotations.
Open Scope nat_scope.

Lemma last_index_sound u : forall ids base i, last_index u ids base = Some i ->
  base <= i < base + length ids /\ nth (i - base) ids [] = u.
Proof.
  induction ids as [|x r IH]; intros base i H; [discriminate|]. cbn [last_index] in H. cbn [length].
  destruct (last_index u r (S base)) as [j|] eqn:E.
  - injection H as <-. destruct (IH (S base) j E) as [Hle Hn]. split; [lia|].
    replace (j - base) with (S (j - S base)) by lia. exact Hn.
  - destruct (str_eqb u x) eqn:Ex; [|discriminate]. injection H as <-. split; [lia|].
    rewrite Nat.sub_diag. cbn [nth]. symmetry. now apply str_eqb_eq.
Qed.

Lemma all_ids_spec : forall d ids, all_ids d = Some ids -> map ke_id d = map Some ids.
Proof.
  induction d as [|e d IH]; intros ids H; [injection H as <-; reflexivity|].
  cbn [all_ids] in H. destruct (ke_id e) as [u|] eqn:Eu; [|discriminate]. destruct (all_ids d) as [l|] eqn:El; [|discriminate].
  injection H as <-. cbn [map]. now rewrite Eu, (IH l eq_refl).
Qed.

Lemma all_ids_text d ids : all_ids d = Some ids -> map id_text d = ids.
Proof.
  intros H. apply all_ids_spec in H. unfold id_text.
  rewrite <- (map_map ke_id (fun o => match o with Some u => u | None => [] end)), H, map_map. apply map_id.
Qed.

Lemma flat_link_item ids it : flat_item ids (link_item ids it) = it.
Proof.
  destruct it as [s| |u]; cbn [link_item flat_item]; try reflexivity.
  destruct (last_index u ids 0) as [i|] eqn:E; cbn [flat_item]; [|reflexivity].
  destruct (last_index_sound u ids 0 i E) as [_ Hn]. rewrite Nat.sub_0_r in Hn. now rewrite Hn.
Qed.

(** the graph the fix-up pass builds, written out again with references by id, is the document that was read: the graph
    [link d] is determined by [d] up to the numbering of its elements *)
Theorem flatten_link d g : link d = Some g -> flatten g = d.
Proof.
  unfold link. destruct (all_ids d) as [ids|] eqn:E; [|discriminate]. intros H. injection H as <-.
  pose proof (all_ids_spec d ids E) as Hids. unfold flatten. rewrite !map_map. cbn [ge_id].
  fold id_text. rewrite (all_ids_text d ids E). rewrite <- (map_id d) at 2. apply map_ext_in. intros e He.
  unfold flat_elem. cbn [ge_type ge_id ge_name ge_attrs].
  assert (Hid : Some (id_text e) = ke_id e).
  { assert (In (ke_id e) (map Some ids)) by (rewrite <- Hids; now apply in_map). apply in_map_iff in H. destruct H as [u [Hu _]]. unfold id_text. now rewrite <- Hu. }
  fold (id_text e). rewrite Hid. destruct e as [ty id nm attrs]. cbn [ke_type ke_id ke_name ke_attrs]. f_equal.
  rewrite map_map. rewrite <- (map_id attrs) at 2. apply map_ext. intros a. unfold flat_attr, link_attr. cbn [ga_name ga_type ga_arr ga_items].
  destruct a as [an at_ arr items]. cbn [ka_name ka_type ka_arr ka_items]. f_equal.
  rewrite map_map. rewrite <- (map_id items) at 2. apply map_ext. apply flat_link_item.
Qed.
