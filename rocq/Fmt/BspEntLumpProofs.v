(** Proofs about the entity lump: when the writer's template escapes keys, values and the text fields of outputs,
    every list of well-formed entities is read back exactly. *)
From Coq Require Import NArith List Bool PeanoNat Lia.
From SV Require Import Fmt.VmfText Fmt.VmfTextProofs Fmt.BspEntLump.
Import ListNotations.
Open Scope N_scope.

(** * The scanner consumes input *)
Lemma hs_shorter_n : forall n inp acc b s r, (List.length inp <= n)%nat -> hs acc b inp = Some (s, r) ->
  (List.length r < List.length inp)%nat.
Proof.
  induction n as [|n IH]; intros inp acc b s r Hn H.
  - destruct inp; [discriminate | cbn [List.length] in Hn; lia].
  - destruct inp as [|c inp]; [discriminate|]. cbn [List.length] in Hn |- *. cbn [hs] in H.
    destruct (c =? DQ). { injection H as _ <-. lia. }
    destruct (c =? CR). { apply IH in H; [lia|lia]. }
    destruct (c =? LF). { destruct b; apply IH in H; lia. }
    destruct (c =? BS).
    + destruct inp as [|e inp]; [discriminate|]. cbn [List.length] in Hn |- *.
      destruct (e =? LF). { apply IH in H; lia. }
      destruct (lookup e esc_table); apply IH in H; lia.
    + apply IH in H; lia.
Qed.
Lemma scan_shorter : forall inp s r, scan_quoted inp = Some (s, r) -> (List.length r < List.length inp)%nat.
Proof. intros inp s r H. eapply hs_shorter_n; [apply Nat.le_refl | exact H]. Qed.

Lemma skip_ws_le : forall l, (List.length (skip_ws l) <= List.length l)%nat.
Proof. induction l as [|c l IH]; cbn [skip_ws List.length]; [lia|]. destruct (is_ws c); cbn [List.length]; lia. Qed.

Section WithNumbers.
Variable float_ok int_ok : list char -> bool.
Notation loop := (ent_read_loop float_ok int_ok).
Notation wf := (item_wf float_ok int_ok).

(** Any fuel above the length of the input gives the same result. *)
Lemma fuel_irrelevant : forall f inp cur done, (List.length inp < f)%nat ->
  forall f2, (List.length inp < f2)%nat -> loop f inp cur done = loop f2 inp cur done.
Proof.
  induction f as [|f IH]; intros inp cur done H f2 H2; [lia|].
  destruct f2 as [|f2]; [lia|]. cbn [ent_read_loop].
  destruct inp as [|c r]; [reflexivity|]. cbn [List.length] in H, H2.
  destruct (c =? LBRACE). { destruct cur; [reflexivity|]. apply IH; lia. }
  destruct (c =? RBRACE). { destruct cur; [|reflexivity]. apply IH; lia. }
  destruct (is_ws c). { apply IH; lia. }
  destruct (c =? NUL); [reflexivity|].
  destruct (c =? DQ); [|reflexivity].
  destruct (scan_quoted r) as [[k r1]|] eqn:E1; [|reflexivity].
  apply scan_shorter in E1. pose proof (skip_ws_le r1) as L1.
  (* the key [k] is matched against the literal [[0]]: settle everything else first, so that the one recursive call
     stands in the same place on both sides whatever [k] is *)
  destruct cur as [its|]; [|reflexivity].
  destruct (skip_ws r1) as [|q r2]; [reflexivity|]. cbn [List.length] in L1.
  destruct (q =? DQ); [|reflexivity].
  destruct (scan_quoted r2) as [[v r3]|] eqn:E2; [|reflexivity]. apply scan_shorter in E2.
  destruct (classify float_ok int_ok k v) as [it|]; [|reflexivity].
  rewrite (IH r3 (Some (it :: its)) done ltac:(lia) f2 ltac:(lia)). reflexivity.
Qed.

Definition R (inp : list char) cur done := loop (S (List.length inp)) inp cur done.
Lemma to_R : forall f inp cur done, (List.length inp < f)%nat -> loop f inp cur done = R inp cur done.
Proof. intros. unfold R. apply fuel_irrelevant; lia. Qed.

(** * Decoding what the template wrote *)
Definition field_ok (m : emode) (f : list char) : bool := match m with Raw => plain f | _ => true end.
Lemma hs_field : forall m s acc rest, field_ok m s = true ->
  hs acc false (render m s ++ rest) = hs (rev s ++ acc) false rest.
Proof. intros m s acc rest H. destruct m; [apply hs_plain; exact H | apply hs_escape | apply hs_escape]. Qed.
Lemma escaped_field_ok : forall m f, escaped m = true -> field_ok m f = true.
Proof. intros m f H. destruct m; [discriminate H | reflexivity | reflexivity]. Qed.

Fixpoint fields_ok (ms : list emode) (fs : list (list char)) : bool :=
  match ms, fs with
  | [], [] => true
  | m :: ms', f :: fs' => field_ok m f && fields_ok ms' fs'
  | _, _ => false
  end.

Lemma hs_join : forall sep, plain_char sep = true -> forall ms fs, fields_ok ms fs = true ->
  forall acc rest, hs acc false (join sep (render_all ms fs) ++ rest) = hs (rev (join sep fs) ++ acc) false rest.
Proof.
  intros sep Hsep. induction ms as [|m ms IH]; intros [|f fs] H acc rest; cbn [fields_ok] in H; try discriminate; [reflexivity|].
  apply andb_prop in H. destruct H as [Hf Hr]. cbn [render_all].
  destruct ms as [|m2 ms]; destruct fs as [|f2 fs]; cbn [fields_ok] in Hr; try discriminate.
  - cbn [render_all join]. apply hs_field. exact Hf.
  - specialize (IH (f2 :: fs) Hr). cbn [render_all] in IH |- *.
    change (join sep (render m f :: render m2 f2 :: render_all ms fs))
      with (render m f ++ sep :: join sep (render m2 f2 :: render_all ms fs)).
    change (join sep (f :: f2 :: fs)) with (f ++ sep :: join sep (f2 :: fs)).
    rewrite <- app_assoc, hs_field by exact Hf. cbn [app]. rewrite plain_char_step by exact Hsep.
    rewrite IH. rewrite rev_app_distr. cbn [rev]. rewrite <- !app_assoc. reflexivity.
Qed.

Lemma scan_field : forall s rest, hs (rev s) false (DQ :: rest) = Some (s, rest).
Proof. intros. cbn [hs]. rewrite N.eqb_refl. rewrite rev_involutive. reflexivity. Qed.

(** * Splitting the value of an output *)
Lemma split_aux_field : forall sep x cur rest, sep_free sep x = true ->
  split_aux sep cur (x ++ rest) = split_aux sep (rev x ++ cur) rest.
Proof.
  intros sep. induction x as [|c x IH]; intros cur rest H; [reflexivity|].
  unfold sep_free, has in H. cbn [existsb] in H. rewrite negb_orb in H. apply andb_prop in H. destruct H as [Hc Hx].
  apply negb_true_iff in Hc. cbn [app split_aux]. rewrite N.eqb_sym in Hc. rewrite Hc.
  rewrite IH by exact Hx. cbn [rev]. rewrite <- app_assoc. reflexivity.
Qed.
Lemma split_join : forall sep fs cur, fs <> [] -> forallb (sep_free sep) fs = true ->
  split_aux sep cur (join sep fs) = match fs with [] => [] | f :: r => (rev cur ++ f) :: r end.
Proof.
  intros sep. induction fs as [|f fs IH]; intros cur Hne H; [congruence|].
  cbn [forallb] in H. apply andb_prop in H. destruct H as [Hf Hr].
  destruct fs as [|f2 fs].
  - cbn [join]. rewrite <- (app_nil_r f) at 1. rewrite split_aux_field by exact Hf. cbn [split_aux].
    rewrite rev_app_distr, rev_involutive. reflexivity.
  - change (join sep (f :: f2 :: fs)) with (f ++ sep :: join sep (f2 :: fs)).
    rewrite split_aux_field by exact Hf. cbn [split_aux]. rewrite N.eqb_refl.
    rewrite (IH [] ltac:(discriminate) Hr). cbn [rev app]. rewrite rev_app_distr, rev_involutive. reflexivity.
Qed.

Lemma has_join_sep : forall sep a b r, has sep (join sep (a :: b :: r)) = true.
Proof.
  intros. change (join sep (a :: b :: r)) with (a ++ sep :: join sep (b :: r)). unfold has.
  rewrite existsb_app. cbn [existsb]. rewrite N.eqb_refl. rewrite orb_true_r. reflexivity.
Qed.
Lemma has_app : forall c a b, has c (a ++ b) = has c a || has c b.
Proof. intros. unfold has. apply existsb_app. Qed.
Lemma count_app : forall c a b, count c (a ++ b) = (count c a + count c b)%nat.
Proof. intros. unfold count. rewrite filter_app, app_length. reflexivity. Qed.
Lemma has_cons : forall c x l, has c (x :: l) = (c =? x) || has c l.
Proof. reflexivity. Qed.
Lemma count_cons : forall c x l, count c (x :: l) = ((if (c =? x)%N then 1 else 0) + count c l)%nat.
Proof. intros. unfold count. cbn [filter]. destruct (c =? x); reflexivity. Qed.
Lemma count_free : forall c a, sep_free c a = true -> count c a = O.
Proof.
  intros c. induction a as [|x a IH]; intros H; [reflexivity|]. unfold sep_free, has in H. cbn [existsb] in H.
  rewrite negb_orb in H. apply andb_prop in H. destruct H as [Hx Ha]. apply negb_true_iff in Hx.
  unfold count. cbn [filter]. rewrite Hx. apply IH. exact Ha.
Qed.
Lemma has_free : forall c a, sep_free c a = true -> has c a = false.
Proof. intros c a H. unfold sep_free in H. apply negb_true_iff in H. exact H. Qed.

Lemma has_join_free : forall c sep fs, (c =? sep) = false -> forallb (sep_free c) fs = true -> has c (join sep fs) = false.
Proof.
  intros c sep fs Hc. induction fs as [|f fs IH]; intros H; [reflexivity|].
  cbn [forallb] in H. apply andb_prop in H. destruct H as [Hf Hr]. apply has_free in Hf.
  destruct fs as [|g fs]; [exact Hf|].
  change (join sep (f :: g :: fs)) with (f ++ sep :: join sep (g :: fs)).
  rewrite has_app, has_cons, Hf, Hc, (IH Hr). reflexivity.
Qed.
Lemma count_join : forall sep fs, forallb (sep_free sep) fs = true -> count sep (join sep fs) = pred (List.length fs).
Proof.
  intros sep. induction fs as [|f fs IH]; intros H; [reflexivity|].
  cbn [forallb] in H. apply andb_prop in H. destruct H as [Hf Hr]. apply count_free in Hf.
  destruct fs as [|g fs]; [exact Hf|].
  change (join sep (f :: g :: fs)) with (f ++ sep :: join sep (g :: fs)).
  rewrite count_app, count_cons, Hf, N.eqb_refl, (IH Hr). reflexivity.
Qed.

(** classification of what an output line decodes to *)
Lemma classify_out : forall sep n t i p d m, (sep = ESC \/ sep = COMMA) -> wf sep (IOut n [t; i; p; d; m]) = true ->
  classify float_ok int_ok n (join sep [t; i; p; d; m]) = Some (IOut n [t; i; p; d; m]).
Proof.
  intros sep n t i p d m Hsep H. cbn [item_wf] in H.
  apply andb_prop in H. destruct H as [H Hnn]. apply andb_prop in H. destruct H as [H Him].
  apply andb_prop in H. destruct H as [H Hfd]. apply andb_prop in H. destruct H as [H Hpm].
  apply andb_prop in H. destruct H as [H Hpd]. apply andb_prop in H. destruct H as [Hs He].
  unfold classify. destruct Hsep as [-> | ->].
  - rewrite has_join_sep. unfold split. rewrite split_join by (discriminate || exact Hs). cbn [rev app].
    rewrite Hfd, Him. reflexivity.
  - rewrite has_join_free by (reflexivity || exact He). rewrite count_join by exact Hs.
    cbn [List.length pred Nat.eqb]. unfold split. rewrite split_join by (discriminate || exact Hs). cbn [rev app].
    rewrite Hfd, Him. reflexivity.
Qed.
End WithNumbers.

Section Roundtrip.
Variable float_ok int_ok : list char -> bool.
Notation loop := (ent_read_loop float_ok int_ok).
Notation wf := (item_wf float_ok int_ok).
Notation RR := (R float_ok int_ok).

Lemma loop_lf : forall f r cur done, loop (S f) (LF :: r) cur done = loop f r cur done.
Proof. reflexivity. Qed.
Lemma loop_lbrace : forall f r done, loop (S f) (LBRACE :: r) None done = loop f r (Some []) done.
Proof. reflexivity. Qed.
Lemma loop_rbrace : forall f r its done, loop (S f) (RBRACE :: r) (Some its) done = loop f r None (rev its :: done).
Proof. reflexivity. Qed.
Lemma skip_sp_dq : forall r, skip_ws (SP :: DQ :: r) = DQ :: r.
Proof. reflexivity. Qed.

Definition not_nul (k : list char) : bool := negb (match k with [0] => true | _ => false end).

Lemma loop_dq : forall f r k r1 v r3 it its done, scan_quoted r = Some (k, SP :: DQ :: r1) -> not_nul k = true ->
  scan_quoted r1 = Some (v, r3) -> classify float_ok int_ok k v = Some it ->
  loop (S f) (DQ :: r) (Some its) done = loop f r3 (Some (it :: its)) done.
Proof.
  intros f r k r1 v r3 it its done Hk Hn Hv Hc. cbn [ent_read_loop].
  change (DQ =? LBRACE) with false. change (DQ =? RBRACE) with false. change (is_ws DQ) with false.
  change (DQ =? NUL) with false. change (DQ =? DQ) with true. cbn iota. rewrite Hk. cbn iota.
  rewrite skip_sp_dq. change (DQ =? DQ) with true. cbn iota. rewrite Hv, Hc.
  destruct k as [|[|?] [|? ?]]; try reflexivity. discriminate Hn.
Qed.

Lemma line_app : forall k v rest, line k v ++ rest = DQ :: (k ++ DQ :: SP :: DQ :: (v ++ DQ :: LF :: rest)).
Proof. intros. unfold line. cbn [app]. rewrite <- !app_assoc. cbn [app]. rewrite <- !app_assoc. reflexivity. Qed.

Lemma read_line : forall k' v' k v it its done rest,
  (forall rest', scan_quoted (k' ++ DQ :: rest') = Some (k, rest')) ->
  (forall rest', scan_quoted (v' ++ DQ :: rest') = Some (v, rest')) ->
  not_nul k = true -> classify float_ok int_ok k v = Some it ->
  RR (line k' v' ++ rest) (Some its) done = RR rest (Some (it :: its)) done.
Proof.
  intros k' v' k v it its done rest Hk Hv Hn Hc. rewrite line_app. unfold R at 1. cbn [List.length].
  rewrite (loop_dq _ _ k _ v (LF :: rest) it its done (Hk _) Hn (Hv _) Hc).
  rewrite to_R by (rewrite !app_length; cbn [List.length]; rewrite !app_length; cbn [List.length]; lia).
  unfold R at 1. cbn [List.length]. rewrite loop_lf. apply to_R. lia.
Qed.

Lemma scan_rendered : forall m s rest, escaped m = true -> scan_quoted (render m s ++ DQ :: rest) = Some (s, rest).
Proof.
  intros m s rest H. unfold scan_quoted. rewrite hs_field by (apply escaped_field_ok; exact H).
  rewrite app_nil_r. apply scan_field.
Qed.

Lemma read_item : forall c sep it its done rest, entcfg_ok c = true -> (sep = ESC \/ sep = COMMA) -> wf sep it = true ->
  RR (write_item c sep it ++ rest) (Some its) done = RR rest (Some (it :: its)) done.
Proof.
  intros [[[km vm] nm] fms] sep it its done rest Hc Hsep Hwf. unfold entcfg_ok in Hc.
  apply andb_prop in Hc. destruct Hc as [Hc Ho]. apply andb_prop in Hc. destruct Hc as [Hkm Hvm].
  cbn [entcfg_key_escaped] in Hkm. cbn [entcfg_value_escaped] in Hvm. cbn [entcfg_output_ok] in Ho.
  apply andb_prop in Ho. destruct Ho as [Hnm Hf].
  destruct it as [k v | n fs]; cbn [write_item].
  - cbn [item_wf] in Hwf. apply andb_prop in Hwf. destruct Hwf as [Hwf Hn]. apply andb_prop in Hwf. destruct Hwf as [He Hcm].
    apply (read_line (render km k) (render vm v) k v).
    + intros. apply scan_rendered. exact Hkm.
    + intros. apply scan_rendered. exact Hvm.
    + exact Hn.
    + unfold classify. apply negb_true_iff in He. rewrite He. apply negb_true_iff in Hcm. rewrite Hcm. reflexivity.
  - destruct fms as [|tm [|im [|pm [|dm [|mm [|]]]]]]; try discriminate.
    apply andb_prop in Hf. destruct Hf as [Hf Hmm]. apply andb_prop in Hf. destruct Hf as [Hf Hdm].
    apply andb_prop in Hf. destruct Hf as [Hf Hpm]. apply andb_prop in Hf. destruct Hf as [Htm Him].
    destruct dm; try discriminate. destruct mm; try discriminate.
    destruct fs as [|t [|i [|p [|d [|m [|]]]]]]; try discriminate.
    assert (Hwf' := Hwf). cbn [item_wf] in Hwf.
    apply andb_prop in Hwf. destruct Hwf as [Hwf Hnn]. apply andb_prop in Hwf. destruct Hwf as [Hwf _].
    apply andb_prop in Hwf. destruct Hwf as [Hwf _]. apply andb_prop in Hwf. destruct Hwf as [Hwf Hplm].
    apply andb_prop in Hwf. destruct Hwf as [_ Hpld].
    apply (read_line (render nm n) (join sep (render_all [tm; im; pm; Raw; Raw] [t; i; p; d; m])) n (join sep [t; i; p; d; m])).
    + intros. apply scan_rendered. exact Hnm.
    + intros. unfold scan_quoted. rewrite hs_join.
      * rewrite app_nil_r. apply scan_field.
      * destruct Hsep as [-> | ->]; reflexivity.
      * cbn [fields_ok]. rewrite !escaped_field_ok by assumption. cbn [field_ok]. rewrite Hpld, Hplm. reflexivity.
    + exact Hnn.
    + apply classify_out; assumption.
Qed.

Lemma read_items : forall c sep its acc done rest, entcfg_ok c = true -> (sep = ESC \/ sep = COMMA) ->
  forallb (wf sep) its = true ->
  RR (flat_map (write_item c sep) its ++ rest) (Some acc) done = RR rest (Some (rev its ++ acc)) done.
Proof.
  intros c sep. induction its as [|it its IH]; intros acc done rest Hc Hsep H; [reflexivity|].
  cbn [forallb] in H. apply andb_prop in H. destruct H as [Hi Hr].
  cbn [flat_map]. rewrite <- app_assoc. rewrite read_item by assumption. rewrite IH by assumption.
  cbn [rev]. rewrite <- app_assoc. reflexivity.
Qed.

Lemma read_ent : forall c sep its done rest, entcfg_ok c = true -> (sep = ESC \/ sep = COMMA) ->
  forallb (wf sep) its = true ->
  RR (write_ent c sep its ++ rest) None done = RR rest None (its :: done).
Proof.
  intros c sep its done rest Hc Hsep H. unfold write_ent. rewrite <- !app_assoc. cbn [app].
  unfold R at 1. cbn [List.length]. rewrite loop_lbrace, loop_lf. rewrite to_R by lia.
  rewrite read_items by assumption. rewrite app_nil_r.
  unfold R at 1. cbn [app List.length]. rewrite loop_rbrace, loop_lf. rewrite rev_involutive. apply to_R. lia.
Qed.

Lemma read_ents : forall c sep ents done, entcfg_ok c = true -> (sep = ESC \/ sep = COMMA) ->
  forallb (forallb (wf sep)) ents = true ->
  RR (flat_map (write_ent c sep) ents ++ [NUL]) None done = Some (rev done ++ ents).
Proof.
  intros c sep. induction ents as [|e ents IH]; intros done Hc Hsep H.
  - cbn [flat_map app]. rewrite app_nil_r. reflexivity.
  - cbn [forallb] in H. apply andb_prop in H. destruct H as [He Hr].
    cbn [flat_map]. rewrite <- app_assoc. rewrite read_ent by assumption. rewrite IH by assumption.
    cbn [rev]. rewrite <- app_assoc. reflexivity.
Qed.

(** The entity lump as a whole. *)
Theorem ent_lump_roundtrip : forall c sep ents, entcfg_ok c = true -> (sep = ESC \/ sep = COMMA) ->
  forallb (forallb (wf sep)) ents = true ->
  ent_read float_ok int_ok (write_ents c sep ents) = Some ents.
Proof.
  intros c sep ents Hc Hsep H. unfold ent_read, write_ents. fold (RR (flat_map (write_ent c sep) ents ++ [NUL]) None []).
  rewrite read_ents by assumption. reflexivity.
Qed.
End Roundtrip.

(** [float(text)] / [int(text)] that accept everything, for the concrete cases here and in Props/C11.v. *)
Definition ok_all (_ : list char) := true.
(** Not values of the format (hypotheses of the theorem are necessary): a comma inside a field of a comma-separated
    output turns the line into a plain keyvalue; a plain value with exactly four commas and numeric tails is read as an output. *)
Example ent_comma_in_param_is_not_an_output :
  ent_read ok_all ok_all (write_ents (EscS, EscML, EscS, [EscS; EscS; EscML; Raw; Raw]) COMMA [[IOut [79] [[116]; [105]; [112; 44; 113]; [49]; [49]]]])
  = Some [[IKV [79] [116; 44; 105; 44; 112; 44; 113; 44; 49; 44; 49]]].
Proof. vm_compute. reflexivity. Qed.
