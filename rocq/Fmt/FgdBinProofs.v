(** C16 — proofs about Fmt/FgdBin.v *)
From Coq Require Import List NArith Arith Bool String Lia.
From SV Require Import Fmt.FgdBin.
Import ListNotations.
Open Scope N_scope.

Lemma mem_str_In v l : mem_str v l = true <-> In v l.
Proof.
  induction l as [|x r IH]; cbn [mem_str In]; [split; [discriminate|tauto]|].
  rewrite orb_true_iff, IH, String.eqb_eq. tauto.
Qed.

Lemma index_last_aux_spec v l : forall i best r,
  index_last_aux v l i best = Some r -> best = Some r \/ exists k, r = (i + k)%nat /\ nth_error l k = Some v.
Proof.
  induction l as [|x t IH]; intros i best r; cbn [index_last_aux]; [auto|].
  intros H. apply IH in H as [H|[k [-> Hk]]].
  - destruct (String.eqb x v) eqn:E; [|auto]. apply String.eqb_eq in E. subst x. injection H as <-.
    right. exists 0%nat. split; [lia|reflexivity].
  - right. exists (S k). split; [lia|exact Hk].
Qed.
Lemma index_last_aux_keeps v l : forall i r0, exists r, index_last_aux v l i (Some r0) = Some r.
Proof.
  induction l as [|x t IH]; intros i r0; cbn [index_last_aux]; [eauto|]. destruct (String.eqb x v); apply IH.
Qed.
Lemma index_last_aux_some v l : In v l -> forall i best, exists r, index_last_aux v l i best = Some r.
Proof.
  induction l as [|x t IH]; cbn [In index_last_aux]; [tauto|]. intros [->|H] i best.
  - rewrite String.eqb_refl. apply index_last_aux_keeps.
  - apply IH, H.
Qed.

Lemma encode_decode_type order v i : encode_type order v = Some i ->
  decode_type order i = Some v /\ (i < List.length order)%nat.
Proof.
  unfold encode_type, decode_type, index_last. intros H. apply index_last_aux_spec in H.
  destruct H as [H|[k [-> Hk]]]; [discriminate|]. cbn [Nat.add]. split; [exact Hk|]. apply nth_error_Some. congruence.
Qed.


Lemma lt_in_seq (n : nat) (i : N) : i < N.of_nat n -> In i (map N.of_nat (seq 0 n)).
Proof.
  intros H. rewrite <- (N2Nat.id i). apply in_map. apply in_seq. lia.
Qed.
Lemma flag7_check : forallb (fun i => forallb (fun f => let '(i', f') := unpack_flag7 (pack_flag7 i f) in
                      (i' =? i) && Bool.eqb f' f && (pack_flag7 i f <? 256)) [true; false])
                    (map N.of_nat (seq 0 128)) = true.
Proof. vm_compute. reflexivity. Qed.
Theorem flag7_roundtrip idx f : idx < 128 -> unpack_flag7 (pack_flag7 idx f) = (idx, f) /\ pack_flag7 idx f < 256.
Proof.
  intros H. pose proof flag7_check as C. rewrite forallb_forall in C.
  specialize (C idx (lt_in_seq 128 idx H)). rewrite forallb_forall in C.
  assert (Hf : In f [true; false]) by (destruct f; cbn; auto). specialize (C f Hf).
  destruct (unpack_flag7 (pack_flag7 idx f)) as [i' f'].
  apply andb_true_iff in C as [C C3]. apply andb_true_iff in C as [C1 C2].
  apply N.eqb_eq in C1. apply Bool.eqb_prop in C2. apply N.ltb_lt in C3. subst. auto.
Qed.

Theorem entflags_roundtrip types mask alias_bit ty a :
  entflags_ok types mask alias_bit = true -> In ty types ->
  unpack_entflags mask alias_bit (pack_entflags ty alias_bit a) = (ty, a) /\ pack_entflags ty alias_bit a < 256.
Proof.
  unfold entflags_ok. intros H Hty. apply andb_true_iff in H as [H Hbyte].
  apply andb_true_iff in H as [H Hnz]. apply andb_true_iff in H as [Hall Hm].
  rewrite forallb_forall in Hall, Hbyte. specialize (Hall ty Hty). specialize (Hbyte ty Hty).
  apply andb_true_iff in Hall as [H1 H2]. apply N.eqb_eq in H1, H2, Hm.
  apply andb_true_iff in Hbyte as [Hb1 Hb2]. apply N.ltb_lt in Hb1, Hb2.
  apply negb_true_iff, N.eqb_neq in Hnz.
  unfold unpack_entflags, pack_entflags. destruct a.
  - rewrite N.land_lor_distr_l, H1, Hm, N.lor_0_r.
    rewrite N.land_lor_distr_r, H2, N.land_diag, N.lor_0_l.
    replace (alias_bit =? 0) with false by (symmetry; apply N.eqb_neq; exact Hnz). auto.
  - rewrite N.lor_0_r, H1, H2. auto.
Qed.

Lemma existsb_eqb_In x l : existsb (N.eqb x) l = true <-> In x l.
Proof.
  rewrite existsb_exists. split; [intros [y [Hy E]]; apply N.eqb_eq in E; subst; exact Hy|].
  intros H. exists x. split; [exact H|apply N.eqb_refl].
Qed.
Lemma flag_of_name_In n l v : flag_of_name n l = Some v -> In v (map snd l).
Proof.
  induction l as [|[x w] r IH]; cbn [flag_of_name map snd In]; [discriminate|].
  destruct (String.eqb x n); [intros [= ->]; left; reflexivity|intros H; right; apply IH, H].
Qed.
(** ENTITY_FLAG_2_TYPE inverts ENTITY_TYPE_2_FLAG when the flag values are distinct *)
Theorem flag_table_inverse l n v : nodup_N (map snd l) = true -> nodup_str (map fst l) = true ->
  flag_of_name n l = Some v -> name_of_flag v l = Some n.
Proof.
  induction l as [|[x w] r IH]; cbn [flag_of_name name_of_flag map fst snd nodup_N nodup_str]; [discriminate|].
  intros Hv Hn. apply andb_true_iff in Hv, Hn. destruct Hv as [Hv1 Hv2], Hn as [Hn1 Hn2].
  destruct (String.eqb x n) eqn:E.
  - apply String.eqb_eq in E. subst x. intros [= ->]. rewrite N.eqb_refl. reflexivity.
  - intros H. destruct (w =? v) eqn:Ew; [|apply IH; assumption].
    exfalso. apply N.eqb_eq in Ew. subst w. apply negb_true_iff in Hv1.
    apply flag_of_name_In, existsb_eqb_In in H. congruence.
Qed.

Theorem spawnflag_roundtrip p d : p < 128 -> unpack_spawnflag (pack_spawnflag (2 ^ p) d) = (2 ^ p, d).
Proof.
  intros H. unfold pack_spawnflag, unpack_spawnflag. rewrite N.log2_pow2 by apply N.le_0_l.
  destruct (flag7_roundtrip p d H) as [-> _]. rewrite N.shiftl_1_l. reflexivity.
Qed.

Theorem le16_roundtrip i : i < 65536 ->
  fst (pack16 i) < 256 /\ snd (pack16 i) < 256 /\ unpack16 (pack16 i) = i.
Proof.
  intros H. unfold pack16, unpack16. cbn [fst snd]. split; [apply N.mod_lt; discriminate|].
  split; [apply N.div_lt_upper_bound; [discriminate|exact H]|].
  rewrite N.add_comm. symmetry. apply N.div_mod. discriminate.
Qed.

Section StrDict.
Variable A : Type.
Variable eqb : A -> A -> bool.
Hypothesis eqb_spec : forall a b, eqb a b = true <-> a = b.

Lemma index_first_In s l : In s l -> exists i, index_first A eqb s l = Some i /\ nth_error l i = Some s.
Proof.
  induction l as [|x r IH]; cbn [In index_first]; [tauto|]. intros H.
  destruct (eqb x s) eqn:E.
  - apply eqb_spec in E. subst x. exists 0%nat. auto.
  - destruct H as [->|H]; [assert (eqb s s = true) by (apply eqb_spec; reflexivity); congruence|].
    destruct (IH H) as [i [Hi Hn]]. exists (S i). rewrite Hi. auto.
Qed.
Lemma index_first_None s l : index_first A eqb s l = None -> ~ In s l.
Proof. intros H Hin. destruct (index_first_In s l Hin) as [i [Hi _]]. congruence. Qed.
Lemma index_first_nth s l i : index_first A eqb s l = Some i -> nth_error l i = Some s.
Proof.
  revert i. induction l as [|x r IH]; cbn [index_first]; [discriminate|]. intros i.
  destruct (eqb x s) eqn:E.
  - apply eqb_spec in E. subst x. intros [= <-]. reflexivity.
  - destruct (index_first A eqb s r) as [j|]; [|discriminate]. intros [= <-]. apply IH. reflexivity.
Qed.

(** an index that was written reads back as the string, provided the shared dictionary has exactly SHARED_STRINGS entries (the
    offset the writer adds) *)
Lemma sd_encode_decode base own shared s i : List.length base = shared ->
  sd_encode A eqb base own shared s = Some i -> sd_decode A base own i = Some s.
Proof.
  intros Hlen. unfold sd_encode, sd_decode. destruct (index_first A eqb s base) as [j|] eqn:E.
  - intros [= <-]. pose proof (index_first_nth _ _ _ E) as Hn.
    rewrite nth_error_app1; [exact Hn|]. apply nth_error_Some. congruence.
  - destruct (index_first A eqb s own) as [j|] eqn:E2; cbn [option_map]; [|discriminate]. intros [= <-].
    rewrite nth_error_app2 by lia. replace (shared + j - List.length base)%nat with j by lia. exact (index_first_nth _ _ _ E2).
Qed.

(** ... and every string of the shared or of the block dictionary is written *)
Theorem strdict_roundtrip base own shared s :
  List.length base = shared -> In s base \/ In s own ->
  exists i, sd_encode A eqb base own shared s = Some i /\ sd_decode A base own i = Some s
            /\ (i < List.length base + List.length own)%nat.
Proof.
  intros Hlen Hin.
  assert (He : exists i, sd_encode A eqb base own shared s = Some i).
  { unfold sd_encode. destruct (index_first A eqb s base) as [i|] eqn:E; [eauto|].
    destruct Hin as [Hin|Hin]; [exfalso; eapply index_first_None; eauto|].
    destruct (index_first_In s own Hin) as [j [-> _]]. cbn [option_map]. eauto. }
  destruct He as [i He]. exists i. pose proof (sd_encode_decode _ _ _ _ _ Hlen He) as Hd. split; [exact He|split; [exact Hd|]].
  unfold sd_decode in Hd. rewrite <- app_length. apply nth_error_Some. congruence.
Qed.
End StrDict.

(** without the length condition the offset is wrong: a one-entry shared dictionary and SHARED_STRINGS = 2 *)
Example strdict_needs_full_base :
  sd_decode N [7] [8] 2 = None /\ sd_encode N N.eqb [7] [8] 2 8 = Some 2%nat.
Proof. split; reflexivity. Qed.

Lemma split_aux_app sep x : mem_N sep x = false -> forall rest cur,
  split_aux sep (x ++ rest) cur = split_aux sep rest (rev x ++ cur).
Proof.
  induction x as [|c x IH]; cbn [mem_N app rev]; intros H rest cur; [reflexivity|].
  apply orb_false_iff in H as [Hc Hx]. cbn [split_aux]. rewrite Hc.
  rewrite IH by exact Hx. rewrite <- app_assoc. reflexivity.
Qed.
Lemma split_aux_join sep l : l <> [] -> Forall (fun x => mem_N sep x = false) l -> forall cur,
  split_aux sep (join_sep sep l) cur =
  match l with x :: r => (rev cur ++ x) :: r | [] => [] end.
Proof.
  intros Hne HF. induction HF as [|x r Hx HF IH]; [congruence|]. clear Hne. intros cur.
  destruct r as [|y r].
  - cbn [join_sep]. rewrite <- (app_nil_r x) at 1. rewrite split_aux_app by exact Hx. cbn [split_aux].
    rewrite rev_app_distr, rev_involutive. reflexivity.
  - change (join_sep sep (x :: y :: r)) with (x ++ sep :: join_sep sep (y :: r)).
    rewrite split_aux_app by exact Hx. cbn [split_aux]. rewrite N.eqb_refl.
    rewrite rev_app_distr, rev_involutive. f_equal. rewrite IH by congruence. reflexivity.
Qed.
Theorem split_join sep l : l <> [] -> Forall (fun x => mem_N sep x = false) l -> split_sep sep (join_sep sep l) = l.
Proof.
  intros Hne HF. unfold split_sep. rewrite split_aux_join by assumption. destruct l; [congruence|reflexivity].
Qed.
(** the empty list does not survive: ''.split(sep) is [''] — harmless for the string table (never indexed) *)
Example split_join_nil sep : split_sep sep (join_sep sep []) = [[]].
Proof. reflexivity. Qed.
