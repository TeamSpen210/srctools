(** Proofs about Fmt/BspContainer.v: what the reader recovers from a file the writer produced. *)
From Coq Require Import NArith List Bool Lia Arith.
From SV Require Import Bin.LE Fmt.BspContainer.
Import ListNotations.
Local Open Scope N_scope.

Lemma len_app : forall a b, len (a ++ b) = len a + len b.
Proof. intros. unfold len. rewrite app_length. lia. Qed.

Lemma len_enc32 : forall n, len (enc32 n) = 4.
Proof. intros. unfold len, enc32. now rewrite le_enc_length. Qed.
Lemma len_enc16 : forall n, len (enc16 n) = 2.
Proof. intros. unfold len, enc16. now rewrite le_enc_length. Qed.

(** [x] stands in [f] at byte offset [p].  Where the parts of a block stand follows from where the block stands
    ([stands_l], [stands_r]), so no proof below takes a file apart by hand. *)
Definition stands (f : list N) (p : N) (x : list N) : Prop := exists pre post, f = pre ++ x ++ post /\ len pre = p.

Lemma stands_here : forall pre x post, stands (pre ++ x ++ post) (len pre) x.
Proof. intros. now exists pre, post. Qed.

Lemma stands_whole : forall f, stands f 0 f.
Proof. intros. exists [], []. now rewrite app_nil_r. Qed.

Lemma stands_in {f p x q y} : stands f p x -> stands x q y -> stands f (p + q) y.
Proof.
  intros (a & b & -> & <-) (a' & b' & -> & <-). exists (a ++ a'), (b' ++ b).
  split; [now rewrite <- !app_assoc | apply len_app].
Qed.

Lemma stands_l {f p x y} : stands f p (x ++ y) -> stands f p x.
Proof. intros H. rewrite <- (N.add_0_r p). apply (stands_in H). now exists [], y. Qed.

Lemma stands_r {f p x y} : stands f p (x ++ y) -> stands f (p + len x) y.
Proof. intros H. apply (stands_in H). exists x, []. now rewrite app_nil_r. Qed.

Lemma stands_bound {f p x} : stands f p x -> p + len x <= len f.
Proof. intros (pre & post & -> & <-). rewrite !len_app. lia. Qed.

Lemma stands_slice {f p x} : stands f p x -> slice p (len x) f = x.
Proof.
  intros (pre & post & -> & <-). unfold slice, len. rewrite !Nnat.Nat2N.id.
  rewrite skipn_app, skipn_all, Nat.sub_diag. cbn [skipn app].
  rewrite firstn_app, firstn_all, Nat.sub_diag. cbn [firstn]. apply app_nil_r.
Qed.

Lemma stands_get32 {f p n} : stands f p (enc32 n) -> n < 2 ^ 32 -> get32 f p = n.
Proof. intros H Hn. unfold get32. rewrite <- (len_enc32 n), (stands_slice H). now apply le_dec_enc. Qed.

Lemma stands_get16 {f p n} : stands f p (enc16 n) -> n < 2 ^ 16 -> get16 f p = n.
Proof. intros H Hn. unfold get16. rewrite <- (len_enc16 n), (stands_slice H). now apply le_dec_enc. Qed.

Lemma four_fields : forall f p a b c d, stands f p (enc32 a ++ enc32 b ++ enc32 c ++ enc32 d) ->
  a < 2 ^ 32 -> b < 2 ^ 32 -> c < 2 ^ 32 -> d < 2 ^ 32 ->
  get32 f p = a /\ get32 f (p + 4) = b /\ get32 f (p + 8) = c /\ get32 f (p + 12) = d.
Proof.
  intros f p a b c d H Ha Hb Hc Hd.
  pose proof (stands_r H) as H1. rewrite len_enc32 in H1.
  pose proof (stands_r H1) as H2. rewrite len_enc32, <- N.add_assoc in H2.
  pose proof (stands_r H2) as H3. rewrite len_enc32, <- N.add_assoc in H3.
  split; [exact (stands_get32 (stands_l H) Ha)|]. split; [exact (stands_get32 (stands_l H1) Hb)|].
  split; [exact (stands_get32 (stands_l H2) Hc) | exact (stands_get32 H3 Hd)].
Qed.

Lemma map_nth_seq : forall {A} (l : list A) d, map (fun i => nth i l d) (seq 0 (length l)) = l.
Proof.
  intros A l d. induction l as [|x r IH] using rev_ind; [reflexivity|].
  rewrite app_length, Nat.add_1_r, seq_S, map_app. cbn [map plus].
  rewrite app_nth2, Nat.sub_diag by lia. cbn [nth]. f_equal.
  rewrite <- IH at 2. apply map_ext_in. intros i Hi. apply in_seq in Hi. apply app_nth1. lia.
Qed.

Section Proofs.
  Variable compress decompress : list N -> list N.
  Hypothesis lzma_inverse : forall d, decompress (compress d) = d.
  Variable L : layout.

  Notation segment := (segment compress L).
  Notation body := (body compress L).
  Notation offset_of := (offset_of compress L).
  Notation row := (row compress L).
  Notation write := (write compress L).
  Notation base := (base L).

  (** Payload placement: wherever the body stands, every lump of the write order stands at the offset the table
      records for it (no gaps, no overlap). *)
  Lemma body_stands : forall c f order pos k, stands f pos (body c pos order) -> In k order ->
    pos <= offset_of c pos order k /\ stands f (offset_of c pos order k) (segment c (offset_of c pos order k) k).
  Proof.
    intros c f order. induction order as [|i r IH]; intros pos k H Hin; [destruct Hin|].
    cbn [BspContainer.body BspContainer.offset_of] in *. cbv zeta in H. destruct (Nat.eqb i k) eqn:E.
    - apply Nat.eqb_eq in E. subst i. split; [lia | exact (stands_l H)].
    - destruct Hin as [->|Hin]; [rewrite Nat.eqb_refl in E; discriminate|].
      destruct (IH _ k (stands_r H) Hin) as [Hle Hs]. split; [lia | exact Hs].
  Qed.

  Lemma body_slice : forall c order pos k pre post, In k order -> N.to_nat pos = length pre ->
    let off := offset_of c pos order k in
    slice off (len (segment c off k)) (pre ++ body c pos order ++ post) = segment c off k.
  Proof.
    intros c order pos k pre post Hin Hpos. apply stands_slice, body_stands; [|exact Hin].
    replace pos with (len pre) by (unfold len; lia). apply stands_here.
  Qed.

  Lemma len_magic : forall v, len (magic_of L v) = 4.
  Proof. intros v. unfold magic_of. destruct (v =? vitamin_version L); reflexivity. Qed.

  Lemma len_row : forall c i, len (row c i) = 16.
  Proof. intros. unfold BspContainer.row. destruct (c_l4d2 c); rewrite !len_app, !len_enc32; reflexivity. Qed.

  Lemma len_rows : forall c a n, len (flat_map (row c) (seq a n)) = 16 * N.of_nat n.
  Proof.
    intros c a n. revert a. induction n as [|n IH]; intros a; cbn [seq flat_map]; [reflexivity|].
    rewrite len_app, len_row, IH. lia.
  Qed.

  Lemma rows_stands : forall c n i, (i < n)%nat -> stands (flat_map (row c) (seq 0 n)) (16 * N.of_nat i) (row c i).
  Proof.
    intros c n i Hi. replace n with (i + S (n - S i))%nat at 1 by lia.
    rewrite seq_app, flat_map_app, <- (len_rows c 0 i). cbn [seq flat_map]. apply stands_here.
  Qed.

  (** Where the parts of the file stand. *)
  Lemma write_parts : forall c,
    stands (write c) 0 (magic_of L (c_version c)) /\ stands (write c) 4 (enc32 (c_version c)) /\
    stands (write c) 8 (flat_map (row c) (seq 0 (nlumps L))) /\
    stands (write c) (8 + 16 * N.of_nat (nlumps L)) (enc32 (c_rev c)) /\
    stands (write c) base (body c base (worder L)).
  Proof.
    intros c. pose proof (stands_whole (write c)) as H0. unfold BspContainer.write in H0 at 2.
    pose proof (stands_r H0) as H1. rewrite len_magic in H1.
    pose proof (stands_r H1) as H2. rewrite len_enc32 in H2.
    pose proof (stands_r H2) as H3. rewrite len_rows in H3.
    pose proof (stands_r H3) as H4. rewrite len_enc32 in H4.
    replace (0 + 4 + 4 + 16 * N.of_nat (nlumps L) + 4) with base in H4 by (unfold BspContainer.base; lia).
    split; [exact (stands_l H0)|]. split; [exact (stands_l H1)|]. split; [exact (stands_l H2)|].
    split; [exact (stands_l H3) | exact H4].
  Qed.

  Lemma write_row : forall c i, (i < nlumps L)%nat -> stands (write c) (8 + 16 * N.of_nat i) (row c i).
  Proof. intros c i Hi. destruct (write_parts c) as (_ & _ & H & _). exact (stands_in H (rows_stands c _ i Hi)). Qed.

  (** What the table row of lump [i] says. *)
  Definition row_off (c : container) (i : nat) : N := offset_of c base (worder L) i.
  Definition row_len_ (c : container) (i : nat) : N := len (segment c (row_off c i) i).
  Definition row_ver (c : container) (i : nat) : N := if Nat.eqb i (gidx L) then 0 else l_ver (nth i (c_lumps c) lump0).
  Definition row_four (c : container) (i : nat) : N := if Nat.eqb i (gidx L) then 0 else fourcc L i (nth i (c_lumps c) lump0).

  Lemma forallbi_nth : forall {A} (p : nat -> A -> bool) (l : list A) (d : A) a i,
    forallbi p a l = true -> (i < length l)%nat -> p (a + i)%nat (nth i l d) = true.
  Proof.
    intros A p l d. induction l as [|x r IH]; intros a i H Hi; [cbn in Hi; lia|].
    cbn [forallbi] in H. apply andb_prop in H. destruct H as [Hx Hr]. destruct i as [|i].
    - now rewrite Nat.add_0_r.
    - cbn [nth]. replace (a + S i)%nat with (S a + i)%nat by lia. apply IH; [exact Hr | cbn in Hi; lia].
  Qed.

  Notation entry := (list N * N * N * N * N)%type.
  Definition enc_entry (e : entry) : list N :=
    match e with (id, fl, ver, off, ln) => rev id ++ enc16 fl ++ enc16 ver ++ enc32 off ++ enc32 ln end.
  Definition entry_ok (e : entry) : Prop :=
    match e with (id, fl, ver, off, ln) => length id = 4%nat /\ fl < 2 ^ 16 /\ ver < 2 ^ 16 /\ off < 2 ^ 32 /\ ln < 2 ^ 32 end.
  Notation gpayload := (gpayload compress).
  Notation gentries := (gentries compress).
  Notation gdata := (gdata compress).
  Notation gblock := (gblock compress).

  (** The directory the writer emits, as a list of entries. *)
  Fixpoint gexp (pos : N) (gs : list glump) : list entry :=
    match gs with
    | [] => []
    | g :: r => (g_id g, g_flags g, g_ver g, pos, len (g_data g))
                :: gexp (pos + len (gpayload g) + (match r with [] => 0 | _ => 1 end)) r
    end.

  Lemma gentries_gexp : forall gs pos, gentries pos gs = flat_map enc_entry (gexp pos gs).
  Proof.
    induction gs as [|g r IH]; intros pos; [reflexivity|].
    cbn [BspContainer.gentries gexp flat_map enc_entry]. rewrite IH. repeat rewrite <- app_assoc. reflexivity.
  Qed.

  Lemma len_entry : forall e, entry_ok e -> len (enc_entry e) = 16.
  Proof.
    intros [[[[id fl] ver] off] ln] (Hid & _). cbn [enc_entry]. rewrite !len_app, !len_enc16, !len_enc32.
    unfold len. now rewrite rev_length, Hid.
  Qed.

  Lemma len_entries : forall es, Forall entry_ok es -> len (flat_map enc_entry es) = 16 * N.of_nat (length es).
  Proof.
    induction es as [|e r IH]; intros H; [reflexivity|]. inversion H; subst.
    cbn [flat_map length]. rewrite len_app, len_entry, IH by assumption. lia.
  Qed.

  Lemma rd_gentry_at : forall f e start k, entry_ok e -> stands f (start + 4 + 16 * N.of_nat k) (enc_entry e) ->
    rd_gentry f start k = e.
  Proof.
    intros f [[[[id fl] ver] off] ln] start k (Hid & Hfl & Hver & Hoff & Hln).
    unfold BspContainer.rd_gentry. generalize (start + 4 + 16 * N.of_nat k). intros p H. cbn [enc_entry] in H.
    assert (Hl : len (rev id) = 4) by (unfold len; now rewrite rev_length, Hid).
    pose proof (stands_r H) as H1. rewrite Hl in H1.
    pose proof (stands_r H1) as H2. rewrite len_enc16, <- N.add_assoc in H2.
    pose proof (stands_r H2) as H3. rewrite len_enc16, <- N.add_assoc in H3.
    pose proof (stands_r H3) as H4. rewrite len_enc32, <- N.add_assoc in H4.
    rewrite (stands_get16 (stands_l H1) Hfl), (stands_get16 (stands_l H2) Hver : get16 f (p + 6) = ver),
      (stands_get32 (stands_l H3) Hoff : get32 f (p + 8) = off), (stands_get32 H4 Hln : get32 f (p + 12) = ln).
    rewrite <- Hl, (stands_slice (stands_l H)), rev_involutive. reflexivity.
  Qed.

  Lemma rd_gentries : forall es f start a, Forall entry_ok es ->
    stands f (start + 4 + 16 * N.of_nat a) (flat_map enc_entry es) ->
    map (rd_gentry f start) (seq a (length es)) = es.
  Proof.
    induction es as [|e r IH]; intros f start a Hok H; [reflexivity|].
    inversion Hok as [|? ? He Hr]; subst. cbn [length seq map flat_map] in *. f_equal.
    - exact (rd_gentry_at _ _ _ _ He (stands_l H)).
    - apply IH; [exact Hr|]. pose proof (stands_r H) as H'. rewrite (len_entry e He) in H'.
      replace (start + 4 + 16 * N.of_nat (S a)) with (start + 4 + 16 * N.of_nat a + 16) by lia. exact H'.
  Qed.

  (** Reading the payload area back, given the directory the writer emitted. *)
  Lemma rd_games_gexp : forall gs f pos, stands f pos (gdata gs) ->
    rd_games decompress f (pos + len (gdata gs)) (gexp pos gs) = gs.
  Proof.
    induction gs as [|g r IH]; intros f pos H; [reflexivity|].
    cbn [gexp BspContainer.rd_games BspContainer.gdata] in *.
    set (pl := gpayload g) in *. set (sep := match r with [] => [] | _ => [0] end) in *.
    assert (Hsep : len sep = match r with [] => 0 | _ => 1 end) by (unfold sep; destruct r; reflexivity).
    pose proof (stands_r (stands_r H)) as Hr. rewrite !len_app, !N.add_assoc, Hsep in *.
    set (pos' := pos + len pl + match r with [] => 0 | _ => 1 end) in *.
    assert (Hstored : match gexp pos' r with
                      | (_, _, _, off', _) :: _ => off' - pos - 1
                      | [] => pos' + len (gdata r) - pos
                      end = len pl).
    { unfold pos'. destruct r; cbn [gexp BspContainer.gdata]; [change (len []) with 0|]; lia. }
    rewrite Hstored, (IH f pos' Hr). f_equal.
    pose proof (stands_slice (stands_l H)) as Hpl.
    destruct g as [id fl ver d]. unfold pl, BspContainer.gpayload, g_comp in *. cbn [g_id g_flags g_ver g_data] in *.
    destruct (N.odd fl); rewrite Hpl; [now rewrite lzma_inverse | reflexivity].
  Qed.

  Lemma glump_ok_parts : forall g, glump_ok g = true ->
    length (g_id g) = 4%nat /\ bytes_eqb (g_id g) [0; 0; 0; 0] = false /\
    g_flags g < 2 ^ 16 /\ g_ver g < 2 ^ 16 /\ len (g_data g) < 2 ^ 31.
  Proof.
    intros g Hg. unfold glump_ok in Hg. rewrite !andb_true_iff in Hg. destruct Hg as ((((((G1 & _) & G3) & G4) & G5) & _) & G7).
    apply Nat.eqb_eq in G1. apply negb_true_iff in G3. apply N.ltb_lt in G4, G5, G7. auto.
  Qed.

  Lemma gexp_bounds : forall gs pos lim, pos + len (gdata gs) <= lim -> lim < 2 ^ 32 ->
    forallb glump_ok gs = true -> Forall entry_ok (gexp pos gs).
  Proof.
    induction gs as [|g r IH]; intros pos lim Hb Hlim Hok; [constructor|].
    cbn [forallb] in Hok. apply andb_prop in Hok. destruct Hok as [Hg Hr].
    destruct (glump_ok_parts g Hg) as (G1 & _ & G4 & G5 & G7).
    cbn [gexp BspContainer.gdata] in *. repeat rewrite len_app in Hb.
    assert (E : len (match r with [] => [] | _ => [0] end) = match r with [] => 0 | _ => 1 end) by (destruct r; reflexivity).
    constructor.
    - cbn [entry_ok]. split; [exact G1|]. split; [exact G4|]. split; [exact G5|]. split; lia.
    - apply (IH _ lim); [|exact Hlim | exact Hr]. rewrite E in Hb. lia.
  Qed.

  Lemma gexp_length : forall gs pos, length (gexp pos gs) = length gs.
  Proof. induction gs as [|g r IH]; intros pos; cbn [gexp length]; [reflexivity | now rewrite IH]. Qed.

  Lemma gexp_not_dummy : forall gs pos, forallb glump_ok gs = true ->
    filter (fun e => negb (is_dummy e)) (gexp pos gs) = gexp pos gs.
  Proof.
    induction gs as [|g r IH]; intros pos Hok; [reflexivity|].
    cbn [forallb] in Hok. apply andb_prop in Hok. destruct Hok as [Hg Hr]. cbn [gexp filter is_dummy].
    destruct (glump_ok_parts g Hg) as (_ & -> & _). cbn [negb]. now rewrite IH.
  Qed.

  Lemma gentries_len : forall gs pos, forallb glump_ok gs = true -> len (gentries pos gs) = 16 * N.of_nat (length gs).
  Proof.
    induction gs as [|g r IH]; intros pos Hok; [reflexivity|].
    cbn [forallb] in Hok. apply andb_prop in Hok. destruct Hok as [Hg Hr]. destruct (glump_ok_parts g Hg) as (G1 & _).
    cbn [BspContainer.gentries length]. rewrite !len_app, !len_enc16, !len_enc32, IH by exact Hr.
    unfold len. rewrite rev_length, G1. lia.
  Qed.

  Lemma gblock_len : forall gs start, forallb glump_ok gs = true ->
    len (gblock start gs) = 4 + 16 * (N.of_nat (length gs) + (if dummy_needed gs then 1 else 0)) + len (gdata gs).
  Proof.
    intros gs start Hok. unfold BspContainer.gblock. rewrite !len_app, len_enc32, (gentries_len gs _ Hok).
    destruct (dummy_needed gs); rewrite ?len_app, ?len_enc32; unfold len; cbn [length]; lia.
  Qed.

  (** The whole game lump: count, directory (with the dummy entry filtered out), payloads. *)
  Lemma gblock_read : forall gs f start, stands f start (gblock start gs) -> forallb glump_ok gs = true -> len f < 2 ^ 32 ->
    rd_games decompress f (start + len (gblock start gs))
      (filter (fun e => negb (is_dummy e)) (map (rd_gentry f start) (seq 0 (N.to_nat (get32 f start))))) = gs.
  Proof.
    intros gs f start H Hok Hlim. pose proof (stands_bound H) as Hend. rewrite (gblock_len gs start Hok) in *.
    unfold BspContainer.gblock in H.
    set (dm := dummy_needed gs) in *.
    set (n := N.of_nat (length gs) + (if dm then 1 else 0)) in *.
    set (dstart := start + 4 + 16 * n) in *.
    (* the directory as a list of entries, the closing all-zero one included *)
    set (dme := if dm then [([0; 0; 0; 0], 0, 0, dstart + len (gdata gs), 0)] else @nil entry).
    assert (Hdir : gentries dstart gs ++ (if dm then [0; 0; 0; 0; 0; 0; 0; 0] ++ enc32 (dstart + len (gdata gs)) ++ [0; 0; 0; 0] else [])
                   = flat_map enc_entry (gexp dstart gs ++ dme)).
    { rewrite gentries_gexp, flat_map_app. unfold dme. destruct dm; cbn [flat_map enc_entry app rev]; now rewrite ?app_nil_r. }
    rewrite (app_assoc (gentries _ _)), Hdir in H.
    assert (Hes : Forall entry_ok (gexp dstart gs ++ dme)).
    { apply Forall_app. split.
      - apply (gexp_bounds gs dstart (len f)); [unfold dstart; lia | exact Hlim | exact Hok].
      - unfold dme. destruct dm; constructor; [|constructor]. cbn [entry_ok length].
        split; [reflexivity|]. split; [lia|]. split; [lia|]. split; [unfold dstart|]; lia. }
    assert (Hnes : N.of_nat (length (gexp dstart gs ++ dme)) = n).
    { rewrite app_length, gexp_length. unfold n, dme. destruct dm; cbn [length]; lia. }
    pose proof (stands_r H) as H1. rewrite len_enc32 in H1.
    pose proof (stands_r H1) as H2. rewrite (len_entries _ Hes), Hnes in H2.
    rewrite (stands_get32 (stands_l H)), <- Hnes, Nnat.Nat2N.id by lia.
    replace (start + 4) with (start + 4 + 16 * N.of_nat 0) in H1 by lia.
    rewrite (rd_gentries _ f start 0 Hes (stands_l H1)), filter_app, (gexp_not_dummy gs dstart Hok).
    assert (filter (fun e : entry => negb (is_dummy e)) dme = []) as -> by (unfold dme; destruct dm; reflexivity).
    rewrite app_nil_r, Hnes.
    replace (start + (4 + 16 * n + len (gdata gs))) with (dstart + len (gdata gs)) by (unfold dstart; lia).
    exact (rd_games_gexp gs f dstart H2).
  Qed.

  Section WF.
    Variable c : container.
    Hypothesis LOK : layout_ok L = true.
    Hypothesis WF : wf compress L c = true.

    Lemma lok : (0 < nlumps L)%nat /\ (gidx L < nlumps L)%nat /\ (pak L < nlumps L)%nat /\ gidx L <> pak L /\
      (forall i, (i < nlumps L)%nat -> In i (worder L)) /\ l4d2_version L <> vitamin_version L.
    Proof.
      pose proof LOK as H. unfold layout_ok in H. rewrite !andb_true_iff in H. destruct H as (((((H & H4) & H3) & H2) & H1) & H0).
      apply Nat.ltb_lt in H. apply Nat.ltb_lt in H4. apply Nat.ltb_lt in H3. apply negb_true_iff in H2. apply Nat.eqb_neq in H2.
      apply negb_true_iff in H0. apply N.eqb_neq in H0.
      split; [exact H|]. split; [exact H4|]. split; [exact H3|]. split; [exact H2|]. split; [|exact H0].
      intros i Hi. rewrite forallb_forall in H1. specialize (H1 i). rewrite in_seq in H1. specialize (H1 ltac:(lia)).
      apply existsb_exists in H1. destruct H1 as [x [Hx He]]. apply Nat.eqb_eq in He. now subst.
    Qed.

    Lemma wf_parts : length (c_lumps c) = nlumps L /\
      (forall i, (i < nlumps L)%nat -> lump_ok L i (nth i (c_lumps c) lump0) = true) /\
      forallb glump_ok (c_games c) = true /\
      c_version c < 2 ^ 31 /\ c_rev c < 2 ^ 31 /\
      (c_l4d2 c = true -> c_version c = l4d2_version L /\ l_ver (nth 0 (c_lumps c) lump0) = 0) /\
      len (write c) < 2 ^ 31.
    Proof.
      pose proof WF as H. unfold wf in H. rewrite !andb_true_iff in H.
      destruct H as (((((((W1 & W2) & W3) & _) & W5) & W6) & W7) & W8).
      apply Nat.eqb_eq in W1. apply N.ltb_lt in W5, W6, W8.
      split; [exact W1|]. split.
      { intros i Hi. rewrite <- W1 in Hi. exact (forallbi_nth (lump_ok L) (c_lumps c) lump0 0 i W2 Hi). }
      split; [exact W3|]. split; [exact W5|]. split; [exact W6|]. split; [|exact W8].
      intros E. rewrite E in W7. apply andb_prop in W7. destruct W7 as [A B]. apply N.eqb_eq in A, B. auto.
    Qed.

    (** The segment of every lump stands in the file where its table row says, behind the header. *)
    Lemma segment_stands : forall i, (i < nlumps L)%nat ->
      base <= row_off c i /\ stands (write c) (row_off c i) (segment c (row_off c i) i).
    Proof.
      intros i Hi. destruct lok as (_ & _ & _ & _ & Hin & _). destruct (write_parts c) as (_ & _ & _ & _ & Hb).
      exact (body_stands c _ _ _ i Hb (Hin i Hi)).
    Qed.

    Lemma row_fields_bound : forall i, (i < nlumps L)%nat -> row_ver c i < 2 ^ 32 /\ row_four c i < 2 ^ 32.
    Proof.
      intros i Hi. destruct wf_parts as (_ & Hl & _). specialize (Hl i Hi). unfold lump_ok in Hl.
      rewrite !andb_true_iff in Hl. destruct Hl as (((Hv & _) & Hd) & _). apply N.ltb_lt in Hv, Hd.
      unfold row_ver, row_four, fourcc. destruct (Nat.eqb i (gidx L)); [lia|]. destruct (lcomp L i _); lia.
    Qed.

    (** The reader finds in the table what the writer computed for every lump. *)
    Lemma rd_row_wf : forall i, (i < nlumps L)%nat ->
      rd_row (write c) (c_l4d2 c) i = (row_off c i, row_len_ c i, row_ver c i, row_four c i).
    Proof.
      intros i Hi. destruct wf_parts as (_ & _ & _ & _ & _ & _ & Hlen).
      destruct (segment_stands i Hi) as [_ Hb]. apply stands_bound in Hb. fold (row_len_ c i) in Hb.
      destruct (row_fields_bound i Hi). pose proof (write_row c i Hi) as Hrow.
      unfold BspContainer.row in Hrow. fold (row_off c i) (row_len_ c i) (row_ver c i) (row_four c i) in Hrow.
      unfold BspContainer.rd_row.
      destruct (c_l4d2 c); (destruct (four_fields _ _ _ _ _ _ Hrow) as (-> & -> & -> & ->); [lia.. | reflexivity]).
    Qed.

    (** Every lump comes back: version, data (through LZMA when flagged), compressed flag. *)
    Lemma read_lump_roundtrip : forall i, (i < nlumps L)%nat ->
      rd_lump decompress L (write c) (c_l4d2 c) i = nth i (c_lumps c) lump0.
    Proof.
      intros i Hi. destruct wf_parts as (_ & Hl & _).
      specialize (Hl i Hi). unfold lump_ok in Hl. apply andb_prop in Hl. destruct Hl as [_ Hk].
      set (l := nth i (c_lumps c) lump0) in *.
      unfold BspContainer.rd_lump. rewrite (rd_row_wf i Hi).
      destruct (segment_stands i Hi) as [_ Hs]. unfold row_len_. rewrite (stands_slice Hs).
      unfold row_ver, row_four, BspContainer.segment. fold l.
      destruct (Nat.eqb i (gidx L)) eqn:Eg.
      - (* the game lump placeholder *)
        apply andb_prop in Hk. destruct Hk as [Hk Hd]. apply andb_prop in Hk. destruct Hk as [Hv0 Hc0].
        apply N.eqb_eq in Hv0. apply negb_true_iff in Hc0. destruct l as [v d cp]. cbn [l_ver l_data l_comp] in *.
        destruct d; [|discriminate]. subst. reflexivity.
      - unfold fourcc, payload, lcomp in *. destruct l as [v d cp]. cbn [l_ver l_data l_comp] in *.
        destruct (Nat.eqb i (pak L)) eqn:Ep.
        + apply negb_true_iff in Hk. subst. cbn [andb negb]. reflexivity.
        + cbn [negb]. rewrite andb_true_r. destruct cp; cbn [negb orb] in Hk.
          * destruct d as [|x d]; [discriminate|]. unfold len. cbn [length]. rewrite lzma_inverse.
            assert (0 <? N.of_nat (S (length d)) = true) as -> by (apply N.ltb_lt; lia). reflexivity.
          * reflexivity.
    Qed.

    Lemma read_lumps_roundtrip : map (rd_lump decompress L (write c) (c_l4d2 c)) (seq 0 (nlumps L)) = c_lumps c.
    Proof.
      destruct wf_parts as (Hn & _). etransitivity; [|apply (map_nth_seq _ lump0)]. rewrite Hn.
      apply map_ext_in. intros i Hi. apply in_seq in Hi. apply read_lump_roundtrip. lia.
    Qed.

    (** Header fields. *)
    Lemma read_magic : slice 0 4 (write c) = magic_of L (c_version c).
    Proof. destruct (write_parts c) as (H & _). rewrite <- (len_magic (c_version c)). exact (stands_slice H). Qed.

    Lemma read_version : get32 (write c) 4 = c_version c.
    Proof.
      destruct wf_parts as (_ & _ & _ & Hv & _). destruct (write_parts c) as (_ & H & _). apply (stands_get32 H). lia.
    Qed.

    Lemma read_rev : get32 (write c) (8 + 16 * N.of_nat (nlumps L)) = c_rev c.
    Proof.
      destruct wf_parts as (_ & _ & _ & _ & Hr & _). destruct (write_parts c) as (_ & _ & _ & H & _).
      apply (stands_get32 H). lia.
    Qed.

    (** The L4D2 field order is recognised exactly when the file was written in it. *)
    Lemma read_l4d2 : (get32 (write c) 4 =? l4d2_version L) && (get32 (write c) 8 =? 0) = c_l4d2 c.
    Proof.
      rewrite read_version. destruct lok as (H0 & _). destruct wf_parts as (_ & _ & _ & _ & _ & Hl4 & _).
      pose proof (rd_row_wf 0 H0) as Hr. unfold BspContainer.rd_row in Hr.
      change (8 + 16 * N.of_nat 0) with 8 in Hr. cbv zeta in Hr.
      destruct (c_l4d2 c) eqn:E.
      - (* the first field of row 0 is the version of lump 0, which is 0 *)
        injection Hr as _ _ -> _. destruct (Hl4 eq_refl) as [-> E0]. rewrite N.eqb_refl. unfold row_ver. rewrite E0.
        destruct (Nat.eqb 0 (gidx L)); reflexivity.
      - (* the first field of row 0 is an offset behind the header *)
        injection Hr as -> _ _ _. destruct (segment_stands 0 H0) as [Hb1 _].
        assert (row_off c 0 =? 0 = false) as -> by (apply N.eqb_neq; unfold BspContainer.base in Hb1; lia).
        apply andb_false_r.
    Qed.

    Lemma read_games_roundtrip :
      let f := write c in
      match rd_row f (c_l4d2 c) (gidx L) with
      | (goff, glen, _, _) =>
          rd_games decompress f (goff + glen)
            (filter (fun e => negb (is_dummy e)) (map (rd_gentry f goff) (seq 0 (N.to_nat (get32 f goff))))) = c_games c
      end.
    Proof.
      cbv zeta. destruct lok as (_ & Hg & _). destruct wf_parts as (_ & _ & Hgok & _ & _ & _ & Hlen).
      rewrite (rd_row_wf (gidx L) Hg). destruct (segment_stands _ Hg) as [_ Hs].
      unfold row_len_. unfold BspContainer.segment in *. rewrite Nat.eqb_refl in *.
      apply gblock_read; [exact Hs | exact Hgok | lia].
    Qed.

    (** The reader recovers exactly the container the writer was given. *)
    Theorem container_roundtrip : read decompress L (write c) = Some c.
    Proof.
      pose proof read_games_roundtrip as Hgames. cbv zeta in Hgames.
      unfold BspContainer.read. cbv zeta.
      rewrite read_magic, read_l4d2, read_version, read_rev, read_lumps_roundtrip.
      destruct lok as (_ & _ & _ & _ & _ & Hne).
      assert (Hm : negb (bytes_eqb (magic_of L (c_version c)) magic_vbsp || bytes_eqb (magic_of L (c_version c)) magic_vitamin) = false
                   /\ bytes_eqb (magic_of L (c_version c)) magic_vitamin && negb (c_version c =? vitamin_version L) = false).
      { unfold magic_of. destruct (c_version c =? vitamin_version L); split; reflexivity. }
      destruct Hm as [-> ->].
      destruct (rd_row (write c) (c_l4d2 c) (gidx L)) as [[[goff glen] gv] gf].
      rewrite Hgames. destruct c; reflexivity.
    Qed.
  End WF.
End Proofs.

Example std_layout_ok : layout_ok std_layout = true.
Proof. vm_compute. reflexivity. Qed.

(** A toy invertible "LZMA": prepend a marker byte. *)
Definition ex_compress (d : list N) : list N := 93 :: d.
Definition ex_decompress (z : list N) : list N := tl z.
Lemma ex_lzma_inverse : forall d, ex_decompress (ex_compress d) = d.
Proof. reflexivity. Qed.

Definition ex_sparse (xs : list (nat * lump)) : list lump :=
  map (fun i => match find (fun p => Nat.eqb (fst p) i) xs with Some p => snd p | None => lump0 end) (seq 0 64).
(** L4D2 field order, an LZMA lump, a pakfile, two game lumps of which the last is compressed (dummy entry). *)
Definition ex_container : container :=
  mkC 21 true 4711
      (ex_sparse [(0%nat, mkL 0 [123; 10; 125; 10; 0] true); (1%nat, mkL 2 [1; 2; 3; 4] false); (40%nat, mkL 0 [80; 75; 5; 6] false)])
      [mkG [115; 112; 114; 112] 0 6 [7; 7; 7]; mkG [100; 112; 114; 112] 1 4 [9; 8]].
Example ex_container_wf : wf ex_compress std_layout ex_container = true.
Proof. vm_compute. reflexivity. Qed.
Example ex_container_roundtrip :
  read ex_decompress std_layout (write ex_compress std_layout ex_container) = Some ex_container.
Proof. exact (container_roundtrip ex_compress ex_decompress ex_lzma_inverse std_layout ex_container std_layout_ok ex_container_wf). Qed.
(** 8 + 64*16 + 4 header bytes; the first lump payload starts right behind. *)
Example ex_container_first_offset : get32 (write ex_compress std_layout ex_container) (8 + 4) = 1036.
Proof. vm_compute. reflexivity. Qed.

(** The conditions of [wf] that are not mere range conditions are necessary, [ids_nodup] excepted: it mirrors the dict
    that holds the game lumps ([BSP.game_lumps]), and the round trip of the model does not use it. *)
(** A lump flagged compressed but empty is written as LZMA data with uncompressed size 0, which the reader takes for
    an uncompressed lump: flag lost, the LZMA wrapper becomes the data. *)
Definition ex_comp_empty : container := mkC 20 false 1 (ex_sparse [(1%nat, mkL 0 [] true)]) [].
Example compressed_empty_lump_refuted :
  wf ex_compress std_layout ex_comp_empty = false /\
  option_map (fun c => nth 1 (c_lumps c) lump0) (read ex_decompress std_layout (write ex_compress std_layout ex_comp_empty))
  = Some (mkL 0 [93] false).
Proof. vm_compute. split; reflexivity. Qed.
(** The compressed flag of the pakfile is dropped by the writer. *)
Definition ex_comp_pak : container := mkC 20 false 1 (ex_sparse [(40%nat, mkL 0 [80; 75] true)]) [].
Example compressed_pakfile_refuted :
  wf ex_compress std_layout ex_comp_pak = false /\
  option_map (fun c => nth 40 (c_lumps c) lump0) (read ex_decompress std_layout (write ex_compress std_layout ex_comp_pak))
  = Some (mkL 0 [80; 75] false).
Proof. vm_compute. split; reflexivity. Qed.
(** The version of the GAME_LUMP table row is always written as 0. *)
Definition ex_game_ver : container := mkC 20 false 1 (ex_sparse [(35%nat, mkL 3 [] false)]) [].
Example game_lump_version_refuted :
  wf ex_compress std_layout ex_game_ver = false /\
  option_map (fun c => nth 35 (c_lumps c) lump0) (read ex_decompress std_layout (write ex_compress std_layout ex_game_ver))
  = Some (mkL 0 [] false).
Proof. vm_compute. split; reflexivity. Qed.
(** An L4D2-order file whose first lump has a non-zero version is not recognised as such by the reader's test
    (version = 21 and the first table field = 0): it would be read in the standard field order, i.e. as garbage. *)
Definition ex_l4d2_ver : container := mkC 21 true 1 (ex_sparse [(0%nat, mkL 1 [65] false)]) [].
Example l4d2_first_version_refuted :
  let f := write ex_compress std_layout ex_l4d2_ver in
  wf ex_compress std_layout ex_l4d2_ver = false /\ c_l4d2 ex_l4d2_ver = true /\
  (get32 f 4 =? l4d2_version std_layout) && (get32 f 8 =? 0) = false.
Proof. vm_compute. repeat split; reflexivity. Qed.
