(** C14 — proofs about the graph <-> tree-of-blocks step of the nested KeyValues2 layout (Fmt/DmxKv2Graph.v). *)
From Coq Require Import NArith List Bool Lia PeanoNat.
From SV Require Import Text.Str Fmt.DmxKv2 Fmt.DmxKv2Nested Fmt.DmxKv2Graph.
Import ListNotations.
Open Scope nat_scope.

(** * map_opt: [map_opt f l = Some r] says that [f] succeeds on every element of [l], with the results [r] in order *)
Lemma map_opt_Forall2 {A B} (f : A -> option B) : forall l r, map_opt f l = Some r -> Forall2 (fun x y => f x = Some y) l r.
Proof.
  induction l as [|a l IH]; intros r H; cbn [map_opt] in H.
  - injection H as <-. constructor.
  - destruct (f a) as [b|] eqn:Fa; [|discriminate]. destruct (map_opt f l) as [bs|]; [|discriminate].
    injection H as <-. constructor; [exact Fa|now apply IH].
Qed.

Lemma Forall2_len {A B} (R : A -> B -> Prop) l l' : Forall2 R l l' -> length l = length l'.
Proof. induction 1; cbn [length]; congruence. Qed.

Lemma map_opt_in {A B} (f : A -> option B) l r x : map_opt f l = Some r -> In x l -> exists y, f x = Some y /\ In y r.
Proof.
  intros H. apply map_opt_Forall2 in H. induction H as [|a b l r Fa _ IH]; intros Hin; [destruct Hin|].
  destruct Hin as [->|Hin].
  - exists b. split; [assumption|now left].
  - destruct (IH Hin) as [y [Hy Hi]]. exists y. split; [assumption|now right].
Qed.

Lemma map_opt_in_result {A B} (f : A -> option B) l r y : map_opt f l = Some r -> In y r -> exists x, In x l /\ f x = Some y.
Proof.
  intros H. apply map_opt_Forall2 in H. induction H as [|a b l r Fa _ IH]; intros Hin; [destruct Hin|].
  destruct Hin as [->|Hin].
  - exists a. split; [now left|assumption].
  - destruct (IH Hin) as [x [Hx Hf]]. exists x. split; [now right|assumption].
Qed.

Lemma map_opt_none {A B} (f : A -> option B) : forall l, map_opt f l = None -> exists x, In x l /\ f x = None.
Proof.
  induction l as [|a l IH]; intros H; [discriminate|]. cbn [map_opt] in H. destruct (f a) as [b|] eqn:Fa.
  - destruct (map_opt f l) as [bs|] eqn:Fl; [discriminate|]. destruct (IH eq_refl) as [x [Hx Hf]]. exists x. split; [now right|assumption].
  - exists a. split; [now left|assumption].
Qed.

Lemma map_opt_map {A B C} (f : A -> option B) (h : B -> C) (f' : A -> option C) :
  forall l, (forall a, In a l -> f' a = option_map h (f a)) -> map_opt f' l = option_map (map h) (map_opt f l).
Proof.
  induction l as [|a l IH]; intros H; [reflexivity|]. cbn [map_opt]. rewrite (H a) by now left.
  rewrite IH by (intros b Hb; apply H; now right). destruct (f a); [|reflexivity]. cbn [option_map]. destruct (map_opt f l); reflexivity.
Qed.

Lemma map_opt_ext {A B} (f f' : A -> option B) l : (forall a, In a l -> f a = f' a) -> map_opt f l = map_opt f' l.
Proof.
  intros H. rewrite (map_opt_map f' (fun b => b) f l).
  - destruct (map_opt f' l) as [r|]; [|reflexivity]. cbn [option_map]. now rewrite map_id.
  - intros a Ha. rewrite (H a Ha). now destruct (f' a).
Qed.

(** * ids *)
Lemma nth_ids (g : gdoc) j : nth j (ids g) [] = ge_id (nth j g dflt_gelem).
Proof. unfold ids. exact (map_nth ge_id g dflt_gelem j). Qed.

Lemma ids_length (g : gdoc) : length (ids g) = length g.
Proof. unfold ids. apply map_length. Qed.

(** * the un_* functions over lists: the same accumulation at the level of attributes and of items *)
Definition un_fold {B C} (un : B -> C * list kelem) (l : list B) : list C * list kelem :=
  fold_right (fun b (acc : list C * list kelem) => let (c, d1) := un b in let (cs, d2) := acc in (c :: cs, d1 ++ d2)) ([], []) l.
Definition un_items : list nitem -> list kitem * list kelem := un_fold un_item.
Definition un_attrs : list nattr -> list kattr * list kelem := un_fold un_attr.

Lemma un_elem_eq ty id nm attrs :
  un_elem (NElem ty id nm attrs) = ({| ke_type := ty; ke_id := id; ke_name := nm; ke_attrs := fst (un_attrs attrs) |}, snd (un_attrs attrs)).
Proof.
  cbn [un_elem]. match goal with |- (_, snd ?X) = _ => replace X with (un_attrs attrs); [reflexivity|] end.
  induction attrs as [|a r IH]; [reflexivity|]. unfold un_attrs, un_fold in *. cbn [fold_right]. rewrite IH. reflexivity.
Qed.
Lemma un_attr_eq an at_ arr items :
  un_attr (NAttr an at_ arr items) = ({| ka_name := an; ka_type := at_; ka_arr := arr; ka_items := fst (un_items items) |}, snd (un_items items)).
Proof.
  cbn [un_attr]. match goal with |- (_, snd ?X) = _ => replace X with (un_items items); [reflexivity|] end.
  induction items as [|a r IH]; [reflexivity|]. unfold un_items, un_fold in *. cbn [fold_right]. rewrite IH. reflexivity.
Qed.

Section Nest.
Variable g : gdoc.
Variable isroot : nat -> bool.

Notation ids := (ids g).
Definition flatk (i : nat) : kelem := flat_elem ids (nth i g dflt_gelem).
Notation blocks := (blocks g isroot).

(** ** one level of [nest_elem], with the two [map_opt] bodies named *)
Definition item_fn (cull : bool) (f : nat) (it : gitem) : option nitem :=
  match it with
  | GStr s => Some (NStr s)
  | GRef GNull => Some NNull
  | GRef (GStub u) => Some (NRef u)
  | GRef (GElem j) =>
      if isroot j then Some (NRef (nth j ids []))
      else match nest_elem g isroot cull f j with Some t => Some (NInline t) | None => None end
  end.
Definition attr_fn (F : gitem -> option nitem) (a : gattr) : option nattr :=
  match map_opt F (ga_items a) with Some its => Some (NAttr (ga_name a) (ga_type a) (ga_arr a) its) | None => None end.

Lemma nest_elem_S cull f i : nest_elem g isroot cull (S f) i =
  match nth_error g i with
  | None => None
  | Some e =>
      match map_opt (attr_fn (item_fn cull f)) (ge_attrs e) with
      | Some attrs => Some (NElem (ge_type e) (if cull && negb (isroot i) then None else Some (ge_id e)) (ge_name e) attrs)
      | None => None
      end
  end.
Proof. reflexivity. Qed.

Lemma nest_elem_Some cull f i t : nest_elem g isroot cull (S f) i = Some t ->
  i < length g /\ exists attrs, map_opt (attr_fn (item_fn cull f)) (ge_attrs (nth i g dflt_gelem)) = Some attrs /\
    t = NElem (ge_type (nth i g dflt_gelem)) (if cull && negb (isroot i) then None else Some (ge_id (nth i g dflt_gelem)))
          (ge_name (nth i g dflt_gelem)) attrs.
Proof.
  rewrite nest_elem_S. destruct (nth_error g i) as [e|] eqn:Ne; [|discriminate].
  rewrite (nth_error_nth _ _ dflt_gelem Ne). intros H. split; [apply nth_error_Some; congruence|].
  destruct (map_opt _ (ge_attrs e)) as [attrs|]; [|discriminate]. injection H as <-. now exists attrs.
Qed.

Notation nest_elem := (nest_elem g isroot false).

(** ** Soundness: the blocks written for element [i], read back, are exactly the elements [blocks f i] of the graph,
    each with its type, id, name, attributes in order and every element value naming the id of its target. *)
Definition sound_at (f : nat) : Prop :=
  forall i t, nest_elem f i = Some t ->
    i < length g /\ un_elem t = (flatk i, map flatk (List.tl (blocks f i))) /\ Forall (fun j => j < length g) (blocks f i).

(** a list written part by part, each part [x] read back as [p x] and registering the elements [q x] *)
Lemma un_fold_sound {A B C} (F : A -> option B) (un : B -> C * list kelem) (p : A -> C) (q : A -> list nat) :
  (forall x y, F x = Some y -> un y = (p x, map flatk (q x)) /\ Forall (fun j => j < length g) (q x)) ->
  forall l r, map_opt F l = Some r -> un_fold un r = (map p l, map flatk (flat_map q l)) /\ Forall (fun j => j < length g) (flat_map q l).
Proof.
  intros Hpart l r H. apply map_opt_Forall2 in H. induction H as [|x y l r Fx _ [E1 F1]].
  - split; [reflexivity|constructor].
  - destruct (Hpart x y Fx) as [E2 F2]. unfold un_fold. cbn [fold_right map flat_map]. fold (un_fold un r).
    rewrite E1, E2, map_app. split; [reflexivity|]. apply Forall_app. split; assumption.
Qed.

Lemma item_sound f it ni : sound_at f -> item_fn false f it = Some ni ->
  un_item ni = (flat_item ids it, map flatk (item_blocks isroot (blocks f) it)) /\ Forall (fun j => j < length g) (item_blocks isroot (blocks f) it).
Proof.
  intros IH Hi. destruct it as [s|[j| |u]]; cbn [item_fn item_blocks] in Hi |- *.
  - injection Hi as <-. split; [reflexivity|constructor].
  - destruct (isroot j).
    + injection Hi as <-. split; [reflexivity|constructor].
    + destruct (nest_elem f j) as [t|] eqn:Nj; [|discriminate]. injection Hi as <-.
      destruct (IH j t Nj) as [_ [Ej Fj]]. cbn [un_item flat_item]. rewrite Ej. split; [|assumption].
      unfold id_text, flatk at 1. cbn [flat_elem ke_id]. rewrite nth_ids. f_equal.
      (* [j] itself is the head of [blocks f j] *)
      destruct f; [discriminate Nj|reflexivity].
  - injection Hi as <-. split; [reflexivity|constructor].
  - injection Hi as <-. split; [reflexivity|constructor].
Qed.

Lemma attr_sound f a na : sound_at f -> attr_fn (item_fn false f) a = Some na ->
  un_attr na = (flat_attr ids a, map flatk (flat_map (item_blocks isroot (blocks f)) (ga_items a))) /\
  Forall (fun j => j < length g) (flat_map (item_blocks isroot (blocks f)) (ga_items a)).
Proof.
  intros IH Ha. unfold attr_fn in Ha. destruct (map_opt _ (ga_items a)) as [its|] eqn:Hi; [|discriminate]. injection Ha as <-.
  destruct (un_fold_sound _ un_item _ _ (fun it ni => item_sound f it ni IH) _ _ Hi) as [E F].
  rewrite un_attr_eq. unfold un_items. rewrite E. split; [reflexivity|assumption].
Qed.

Lemma nest_sound : forall f, sound_at f.
Proof.
  induction f as [|f IH]; intros i t H; [discriminate|].
  destruct (nest_elem_Some false f i t H) as [Li [attrs [Ha ->]]].
  destruct (un_fold_sound _ un_attr _ _ (fun a na => attr_sound f a na IH) _ _ Ha) as [E F].
  split; [assumption|]. rewrite un_elem_eq. unfold un_attrs. rewrite E. split; [reflexivity|]. constructor; assumption.
Qed.

Lemma nest_blocks_head f i t : nest_elem f i = Some t -> exists r, blocks f i = i :: r.
Proof. destruct f; [discriminate|]. intros _. eexists. reflexivity. Qed.

Lemma un_list_sound f i t : nest_elem f i = Some t -> un_list t = map flatk (blocks f i).
Proof.
  intros H. destruct (nest_sound f i t H) as [_ [E _]]. unfold un_list. rewrite E.
  destruct (nest_blocks_head f i t H) as [r Hr]. rewrite Hr. reflexivity.
Qed.

(** ** the whole document *)
Notation root_list := (root_list g isroot).
Notation nest_doc := (nest_doc g isroot false).
Notation all_blocks := (all_blocks g isroot).

Lemma unnest_roots F l d : map_opt (nest_elem F) l = Some d -> unnest d = map flatk (flat_map (blocks F) l).
Proof.
  intros H. apply map_opt_Forall2 in H. induction H as [|i t l d Ni _ IH]; [reflexivity|].
  cbn [unnest flat_map]. fold (unnest d). rewrite map_app, IH, (un_list_sound F i t Ni). reflexivity.
Qed.

(** what the reader registers is the list of written blocks, element by element *)
Theorem unnest_nest d : nest_doc = Some d -> unnest d = map flatk all_blocks.
Proof. apply unnest_roots. Qed.

Lemma all_blocks_in_range d : nest_doc = Some d -> Forall (fun j => j < length g) all_blocks.
Proof.
  intros H. apply Forall_flat_map, Forall_forall. intros i Hi.
  destruct (map_opt_in _ _ _ i H Hi) as [t [Ni _]]. apply (nest_sound _ i t Ni).
Qed.

(** nothing is invented: every block read back is an element of the graph *)
Theorem nest_only_graph_elements d : nest_doc = Some d ->
  forall k, In k (unnest d) -> exists i, i < length g /\ k = flat_elem ids (nth i g dflt_gelem).
Proof.
  intros H k Hk. rewrite (unnest_nest d H) in Hk. apply in_map_iff in Hk. destruct Hk as [i [<- Hi]].
  exists i. split; [|reflexivity]. pose proof (all_blocks_in_range d H) as F. rewrite Forall_forall in F. now apply F.
Qed.

(** the exported element comes first *)
Theorem nest_root_first d : isroot 0 = true -> g <> [] -> nest_doc = Some d ->
  exists rest, unnest d = flat_elem ids (nth 0 g dflt_gelem) :: rest.
Proof.
  intros R0 Hg H. rewrite (unnest_nest d H). unfold DmxKv2Graph.all_blocks, DmxKv2Graph.root_list.
  destruct (length g) as [|n] eqn:L; [apply length_zero_iff_nil in L; congruence|].
  cbn [seq filter]. rewrite R0. cbn [flat_map DmxKv2Graph.blocks app map]. eexists. reflexivity.
Qed.

(** ** Completeness: every element reachable from the exported one is written *)
Lemma root_in_list j : j < length g -> isroot j = true -> In j root_list.
Proof. intros L R. apply filter_In. split; [apply in_seq; lia|assumption]. Qed.

Lemma children_nested f i t a j : nest_elem (S f) i = Some t -> In a (ge_attrs (nth i g dflt_gelem)) ->
  In (GRef (GElem j)) (ga_items a) -> isroot j = false -> exists t', nest_elem f j = Some t'.
Proof.
  intros H Ha Hj Rj. destruct (nest_elem_Some false f i t H) as [_ [attrs [Hm _]]].
  destruct (map_opt_in _ _ _ a Hm Ha) as [na [Hna _]]. unfold attr_fn in Hna.
  destruct (map_opt _ (ga_items a)) as [its|] eqn:Hi; [|discriminate].
  destruct (map_opt_in _ _ _ _ Hi Hj) as [ni [Hni _]]. cbn [item_fn] in Hni. rewrite Rj in Hni.
  destruct (nest_elem f j) as [t'|]; [|discriminate]. now exists t'.
Qed.

Lemma blocks_child f i a j : In a (ge_attrs (nth i g dflt_gelem)) -> In (GRef (GElem j)) (ga_items a) -> isroot j = false ->
  incl (blocks f j) (blocks (S f) i).
Proof.
  intros Ha Hj Rj x Hx. cbn [DmxKv2Graph.blocks]. right. apply in_flat_map. exists a. split; [assumption|].
  apply in_flat_map. exists (GRef (GElem j)). split; [assumption|]. cbn [item_blocks]. rewrite Rj. assumption.
Qed.

Definition refs_in_range : Prop :=
  forall i a j, In a (ge_attrs (nth i g dflt_gelem)) -> In (GRef (GElem j)) (ga_items a) -> j < length g.

Theorem nest_complete d : isroot 0 = true -> g <> [] -> refs_in_range -> nest_doc = Some d ->
  forall j, reach g j -> In (flat_elem ids (nth j g dflt_gelem)) (unnest d).
Proof.
  intros R0 Hg Hrange H j Hr. rewrite (unnest_nest d H). change (flat_elem ids (nth j g dflt_gelem)) with (flatk j). apply in_map. revert j Hr.
  assert (Hroot : forall j, j < length g -> isroot j = true ->
            exists f t, nest_elem f j = Some t /\ incl (blocks f j) all_blocks).
  { intros j L R. pose proof (root_in_list j L R) as Hin.
    destruct (map_opt_in _ _ _ j H Hin) as [t [Ht _]]. exists (S (length g)), t. split; [assumption|].
    intros x Hx. unfold DmxKv2Graph.all_blocks. apply in_flat_map. exists j. split; assumption. }
  assert (Q : forall j, reach g j -> exists f t, nest_elem f j = Some t /\ incl (blocks f j) all_blocks).
  { induction 1 as [|i j a Hi IH Ha Hj].
    - apply Hroot; [destruct (length g) eqn:L; [apply length_zero_iff_nil in L; congruence|lia]|assumption].
    - destruct IH as [f [t [Ht Hinc]]]. destruct (isroot j) eqn:Rj.
      + apply Hroot; [apply (Hrange i a j Ha Hj)|assumption].
      + destruct f as [|f']; [discriminate Ht|].
        destruct (children_nested f' i t a j Ht Ha Hj Rj) as [t' Ht']. exists f', t'. split; [assumption|].
        intros x Hx. apply Hinc. apply (blocks_child f' i a j Ha Hj Rj). assumption. }
  intros j Hr. destruct (Q j Hr) as [f [t [Ht Hinc]]]. apply Hinc.
  destruct (nest_blocks_head f j t Ht) as [r ->]. now left.
Qed.

(** ** references by id go to top-level blocks or stubs only: an inline block is never referred to by its id, so leaving
    its id out ([cull_uuid]) loses no reference *)
Lemma inline_blocks_not_roots f : forall i, Forall (fun j => isroot j = false) (List.tl (blocks f i)).
Proof.
  induction f as [|f IH]; intros i; [constructor|]. cbn [DmxKv2Graph.blocks List.tl].
  apply Forall_forall. intros x Hx. apply in_flat_map in Hx. destruct Hx as [a [_ Hx]].
  apply in_flat_map in Hx. destruct Hx as [it [_ Hx]]. destruct it as [s|[j| |u]]; cbn [item_blocks] in Hx; try destruct Hx.
  destruct (isroot j) eqn:Rj; [destruct Hx|]. destruct f as [|f']; [destruct Hx|].
  cbn [DmxKv2Graph.blocks] in Hx. destruct Hx as [<-|Hx]; [assumption|].
  specialize (IH j). cbn [DmxKv2Graph.blocks List.tl] in IH. rewrite Forall_forall in IH. now apply IH.
Qed.
End Nest.

(** * The root rule *)
Section Rule.
Variable fold : str -> str.
Variable vtnames : list str.
Variable c : rootcfg.
Hypothesis Hc : root_rule_ok c = true.

Lemma rule_parts : rc_self_count c = 1 /\ rc_first c = 1 /\ rc_incr c = 1 /\ rcmp_ok (rc_cmp c) (rc_thr c) = true /\
  rc_keyword_roots c = true /\ rc_self_root c = true /\ rc_flat_all c = true.
Proof.
  pose proof Hc as H. unfold root_rule_ok in H. rewrite !andb_true_iff in H. rewrite !Nat.eqb_eq in H. tauto.
Qed.

Lemma rcmp_spec a : rcmp_eval (rc_cmp c) a (rc_thr c) = Nat.leb 2 a.
Proof.
  destruct rule_parts as [_ [_ [_ [Hk _]]]]. destruct (rc_cmp c); cbn [rcmp_ok] in Hk; try discriminate;
    apply Nat.eqb_eq in Hk; rewrite Hk; reflexivity.
Qed.

(** the exported element counts once for itself *)
Lemma use_count_spec g j : use_count c g j = occ g j + (if Nat.eqb j 0 then 1 else 0).
Proof.
  destruct rule_parts as [H1 [H2 [H3 _]]]. unfold use_count. rewrite H1, H2, H3.
  destruct j; destruct (occ g _); cbn [Nat.eqb]; lia.
Qed.

(** the exported element is a root; in the flat layout every element is; an element whose type is an attribute type
    keyword is; and an element that is not a root is referred to at most once in the whole graph *)
Theorem root_rule_spec flat g j :
  is_root fold vtnames c flat g j =
  flat || Nat.leb 2 (occ g j + (if Nat.eqb j 0 then 1 else 0)) || type_is_keyword fold vtnames (ge_type (nth j g dflt_gelem)) || Nat.eqb j 0.
Proof.
  destruct rule_parts as [_ [_ [_ [_ [H5 [H6 H7]]]]]]. unfold is_root.
  rewrite rcmp_spec, use_count_spec, H5, H6, H7, andb_true_r. reflexivity.
Qed.

Corollary non_root_used_at_most_once flat g j : is_root fold vtnames c flat g j = false -> occ g j <= 1 /\ j <> 0 /\
  type_is_keyword fold vtnames (ge_type (nth j g dflt_gelem)) = false /\ flat = false.
Proof.
  rewrite root_rule_spec, !orb_false_iff, Nat.leb_gt, Nat.eqb_neq. intros [[[H1 H2] H3] H4].
  repeat split; try assumption. destruct (Nat.eqb j 0); lia.
Qed.

Corollary exported_element_is_root flat g : is_root fold vtnames c flat g 0 = true.
Proof. rewrite root_rule_spec. cbn. now rewrite orb_true_r. Qed.
End Rule.
