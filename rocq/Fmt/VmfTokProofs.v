From Coq Require Import NArith List Bool.
From SV Require Import Fmt.VmfTok.
Import ListNotations.
Open Scope N_scope.

(** a token character is no white space and no bracket *)
Lemma plain_inv c : tk_plain c = true -> tk_ws c = false /\ is_open c = false /\ is_close c = false.
Proof. unfold tk_plain. rewrite negb_true_iff, !orb_false_iff. tauto. Qed.
Lemma plain_not_ws c : tk_plain c = true -> tk_ws c = false.
Proof. intros H. apply (plain_inv c H). Qed.

Lemma plain_not_brackets c : tk_plain c = true -> (c =? LBR) = false /\ (c =? RBR) = false.
Proof.
  intros H. destruct (plain_inv c H) as (_ & Ho & Hc). unfold is_open, is_close in *.
  rewrite !orb_false_iff in Ho, Hc. split; [apply Ho|apply Hc].
Qed.

Lemma tok_ok_inv t : tok_ok t = true -> t <> [] /\ forallb tk_plain t = true.
Proof. unfold tok_ok. intros H. apply andb_true_iff in H. destruct H as [H1 H2]. split; [|exact H2]. destruct t; [discriminate|congruence]. Qed.

Definition nows (t : list N) : bool := forallb (fun c => negb (tk_ws c)) t.
Lemma plain_nows t : forallb tk_plain t = true -> nows t = true.
Proof. unfold nows. rewrite !forallb_forall. intros H c Hc. rewrite (plain_not_ws c (H c Hc)). reflexivity. Qed.

(** a run of non-space characters is accumulated *)
Lemma split_aux_nows t : nows t = true -> forall cur rest,
  split_ws_aux cur (t ++ rest) = split_ws_aux (rev t ++ cur) rest.
Proof.
  induction t as [|c t IH]; intros H cur rest; [reflexivity|].
  cbn [nows forallb] in H. apply andb_true_iff in H. destruct H as [Hc Ht]. apply negb_true_iff in Hc.
  cbn [app split_ws_aux]. rewrite Hc. rewrite IH by exact Ht.
  cbn [rev]. rewrite <- app_assoc. reflexivity.
Qed.

(** ... and a non-empty one is a pending token when it ends *)
Lemma split_aux_tok t rest : t <> [] -> nows t = true ->
  exists c cur, rev t = c :: cur /\ split_ws_aux [] (t ++ rest) = split_ws_aux (c :: cur) rest.
Proof.
  intros Hne Hn. rewrite split_aux_nows, app_nil_r by exact Hn.
  destruct (rev t) as [|c cur] eqn:E; [|now exists c, cur]. destruct Hne. now rewrite <- (rev_involutive t), E.
Qed.

Lemma split_ws_join_nows l : forallb (fun t => negb (match t with [] => true | _ => false end) && nows t) l = true -> split_ws (join_sp l) = l.
Proof.
  unfold split_ws. induction l as [|t r IH]; intros H; [reflexivity|].
  cbn [forallb] in H. apply andb_true_iff in H as [Ht Hr]. apply andb_true_iff in Ht as [Hne Hp].
  assert (Hne' : t <> []) by (destruct t; [discriminate|congruence]).
  replace (join_sp (t :: r)) with (t ++ match r with [] => [] | _ => 32 :: join_sp r end)
    by (destruct r; [apply app_nil_r|reflexivity]).
  destruct (split_aux_tok t (match r with [] => [] | _ => 32 :: join_sp r end) Hne' Hp) as (c & cur & E & ->).
  destruct r as [|t' r']; cbn [split_ws_aux]; rewrite <- E, rev_involutive; [reflexivity|].
  change (tk_ws 32) with true. cbn iota. f_equal. now apply IH.
Qed.

Lemma tok_ok_word t : tok_ok t = true -> negb (match t with [] => true | _ => false end) && nows t = true.
Proof. unfold tok_ok. intros H. apply andb_true_iff in H as [-> Hp]. exact (plain_nows t Hp). Qed.

Lemma split_ws_join l : forallb tok_ok l = true -> split_ws (join_sp l) = l.
Proof.
  intros H. apply split_ws_join_nows. rewrite forallb_forall in *. intros t Ht. apply tok_ok_word, H, Ht.
Qed.

Lemma lstrip_ws_plain t rest : t <> [] -> forallb tk_plain t = true -> lstrip_ws (t ++ rest) = t ++ rest.
Proof. destruct t as [|c t]; [congruence|]. intros _ H. cbn [forallb] in H. apply andb_true_iff in H. destruct H as [Hc _]. cbn [app lstrip_ws]. rewrite (plain_not_ws c Hc). reflexivity. Qed.

(** the text of three number tokens, bare or wrapped in one pair of brackets, is taken apart into the three tokens *)
Definition tk_wrap (o c : option N) (s : list N) : list N :=
  (match o with Some x => [x] | None => [] end) ++ s ++ (match c with Some x => [x] | None => [] end).
Definition tk_wrap_ok (o c : option N) : bool :=
  (match o with Some x => is_open x | None => true end) && (match c with Some x => is_close x | None => true end).

Lemma last_plain z : tok_ok z = true -> exists z0 c, z = z0 ++ [c] /\ tk_plain c = true.
Proof.
  intros H. destruct (tok_ok_inv z H) as [Hne Hp]. destruct (exists_last Hne) as (z0 & c & ->). exists z0, c. split; [reflexivity|].
  rewrite forallb_app in Hp. apply andb_true_iff in Hp as [_ Hc]. cbn [forallb] in Hc. now rewrite andb_true_r in Hc.
Qed.

(** a text whose first and last character are no white space is its own strip; the two ends are given by equations so
    that the lemma applies whichever way the text is bracketed *)
Lemma strip_ws_ends s a r r' b : s = a :: r -> s = r' ++ [b] -> tk_ws a = false -> tk_ws b = false -> strip_ws s = s.
Proof.
  intros E1 E2 Ha Hb. unfold strip_ws. rewrite E1 at 1. cbn [lstrip_ws]. rewrite Ha, <- E1.
  rewrite E2 at 1. rewrite rev_unit. cbn [lstrip_ws]. rewrite Hb, <- rev_unit, <- E2. apply rev_involutive.
Qed.
Lemma drop_close_snoc s b : is_close b = true -> drop_close (s ++ [b]) = s.
Proof. intros H. unfold drop_close. rewrite rev_unit, H. apply rev_involutive. Qed.
Lemma drop_close_plain s c : is_close c = false -> drop_close (s ++ [c]) = s ++ [c].
Proof. intros H. unfold drop_close. rewrite rev_unit, H, <- rev_unit. apply rev_involutive. Qed.
Lemma open_not_ws a : is_open a = true -> tk_ws a = false.
Proof.
  unfold is_open, tk_ws. intros H. repeat (apply orb_true_iff in H; destruct H as [H|H]); apply N.eqb_eq in H; subst; reflexivity.
Qed.
Lemma close_not_ws a : is_close a = true -> tk_ws a = false.
Proof.
  unfold is_close, tk_ws. intros H. repeat (apply orb_true_iff in H; destruct H as [H|H]); apply N.eqb_eq in H; subst; reflexivity.
Qed.

(** a text that begins and ends with token characters, bare or wrapped in brackets, is unwrapped by parse_vec's three steps *)
Lemma unwrap_wrapped o c a m b : tk_plain a = true -> tk_plain b = true -> tk_wrap_ok o c = true ->
  drop_close (drop_open (strip_ws (tk_wrap o c (a :: m ++ [b])))) = a :: m ++ [b].
Proof.
  intros Ha Hb Hw. destruct (plain_inv a Ha) as (Wa & Oa & _). destruct (plain_inv b Hb) as (Wb & _ & Cb).
  apply andb_true_iff in Hw as [Ho Hc]. unfold tk_wrap.
  destruct o as [x|], c as [y|]; cbn [app]; rewrite ?app_nil_r.
  - erewrite (strip_ws_ends _ x _ (x :: a :: m ++ [b]) y); [|reflexivity|reflexivity|now apply open_not_ws|now apply close_not_ws].
    cbn [drop_open]. rewrite Ho. exact (drop_close_snoc (a :: m ++ [b]) y Hc).
  - erewrite (strip_ws_ends _ x _ (x :: a :: m) b); [|reflexivity|reflexivity|now apply open_not_ws|exact Wb].
    cbn [drop_open]. rewrite Ho. exact (drop_close_plain (a :: m) b Cb).
  - erewrite (strip_ws_ends _ a _ (a :: m ++ [b]) y); [|reflexivity|reflexivity|exact Wa|now apply close_not_ws].
    cbn [drop_open]. rewrite Oa. exact (drop_close_snoc (a :: m ++ [b]) y Hc).
  - erewrite (strip_ws_ends _ a _ (a :: m) b); [|reflexivity|reflexivity|exact Wa|exact Wb].
    cbn [drop_open]. rewrite Oa. exact (drop_close_plain (a :: m) b Cb).
Qed.

Theorem vec_text_roundtrip x y z o c : tok_ok x = true -> tok_ok y = true -> tok_ok z = true -> tk_wrap_ok o c = true ->
  parse_vec (tk_wrap o c (vec_text x y z)) = Some (x, y, z).
Proof.
  intros Hx Hy Hz Hw. unfold parse_vec.
  destruct (tok_ok_inv x Hx) as [Hxne Hxp]. destruct (last_plain z Hz) as (z0 & cz & Ez & Hcz).
  destruct x as [|cx x']; [congruence|]. cbn [forallb] in Hxp. apply andb_true_iff in Hxp as [Hcx _].
  (* the text begins with the first character of x and ends with the last of z *)
  assert (E : vec_text (cx :: x') y z = cx :: (x' ++ 32 :: y ++ 32 :: z0) ++ [cz]).
  { rewrite Ez. unfold vec_text. cbn [join_sp app]. f_equal. repeat (rewrite <- app_assoc; cbn [app]). reflexivity. }
  rewrite E, (unwrap_wrapped o c cx _ cz Hcx Hcz Hw), <- E. unfold vec_text. rewrite split_ws_join; [reflexivity|].
  cbn [forallb]. now rewrite Hx, Hy, Hz.
Qed.

(** the bracket in front of the first token and the one behind the fourth are stripped, and nothing more *)
Lemma lstrip_lbr a : tok_ok a = true -> lstrip_c LBR (LBR :: a) = a.
Proof.
  intros H. destruct (tok_ok_inv a H) as [Hne Hp]. destruct a as [|ca a']; [congruence|].
  cbn [forallb] in Hp. apply andb_true_iff in Hp as [Hca _].
  cbn [lstrip_c]. now rewrite N.eqb_refl, (proj1 (plain_not_brackets ca Hca)).
Qed.
Lemma rstrip_rbr d : tok_ok d = true -> rstrip_c RBR (d ++ [RBR]) = d.
Proof.
  intros H. destruct (last_plain d H) as (d0 & cd & -> & Hcd). unfold rstrip_c. rewrite !rev_unit.
  cbn [lstrip_c]. rewrite N.eqb_refl, (proj2 (plain_not_brackets cd Hcd)), <- rev_unit. apply rev_involutive.
Qed.

(** "[x y z offset] scale" is taken apart into its five number tokens, in order *)
Theorem uv_text_roundtrip a b c d e : forallb tok_ok [a; b; c; d; e] = true ->
  uv_parse (uv_text [a; b; c; d; e]) = Some [a; b; c; d; e].
Proof.
  intros H. cbn [forallb] in H. repeat (apply andb_true_iff in H; destruct H as [?H H]).
  rename H0 into Ha, H1 into Hb, H2 into Hc, H3 into Hd, H4 into He.
  unfold uv_parse.
  (* the brackets stick to the first and the fourth token, which stay words *)
  assert (E : uv_text [a; b; c; d; e] = join_sp [LBR :: a; b; c; d ++ [RBR]; e]).
  { unfold uv_text. cbn [join_sp]. cbn [app]. f_equal. repeat (rewrite <- ?app_assoc; cbn [app]). reflexivity. }
  rewrite E, split_ws_join_nows.
  - now rewrite (lstrip_lbr a Ha), (rstrip_rbr d Hd).
  - cbn [forallb]. rewrite (tok_ok_word b Hb), (tok_ok_word c Hc), (tok_ok_word e He).
    pose proof (tok_ok_word a Ha) as Wa. pose proof (tok_ok_word d Hd) as Wd.
    apply andb_true_iff in Wa as [_ Wa]. apply andb_true_iff in Wd as [Nd Wd].
    unfold nows in *. rewrite forallb_app. cbn [forallb]. rewrite Wa, Wd. now destruct d.
Qed.

Example vec_text_example : parse_vec (tk_wrap (Some 40) (Some 41) (vec_text [45; 49; 46; 53] [48] [49; 101; 43; 48; 54])) = Some ([45; 49; 46; 53], [48], [49; 101; 43; 48; 54]).
Proof. vm_compute. reflexivity. Qed.
