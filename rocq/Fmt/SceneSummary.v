(* SceneSummary.v -- Entry.from_scene (choreo.py): the summary stored with a scene in scenes.image.
     duration_ms   = round(scene.duration() * 1000.0)
     last_speak_ms = round(scene.duration(EventType.Speak) * 1000.0)
     sounds        = sorted(set(scene.used_sounds()))
   Times of binary scenes are float32 values; value * 1000.0 is then exact in double arithmetic (24 + 10 bits), so
   round() is round-half-even of an exact rational.  A time is represented by the integer t with value t / 2^SCALE
   (every non-negative float32 below 2^100 is such a t).  Model and proofs (own file of C20). *)
From Coq Require Import List ZArith NArith Bool Lia Sorted Permutation.
Import ListNotations.

Definition SCALE : Z := 160.
Definition DEN : Z := 2 ^ SCALE.

(** Python round() of the exact rational n / d (d > 0): half to even *)
Definition rhe (n d : Z) : Z :=
  let q := (n / d)%Z in let r := (n mod d)%Z in
  if (2 * r <? d)%Z then q else if (d <? 2 * r)%Z then (q + 1)%Z else if Z.even q then q else (q + 1)%Z.
Definition ms (t : Z) : Z := rhe (1000 * t) DEN.

Record sev := mkSev {
  sv_kind : N;              (* EventType value *)
  sv_start : Z; sv_end : Z; (* scaled times *)
  sv_has_end : bool;        (* end_time != -1.0 *)
  sv_param0 : list N;
  sv_cctype : N;            (* CaptionType value: 0 Master, 1 Slave, 2 Disabled *)
  sv_cctoken : list N;
  sv_combined : bool
}.

Definition ev_time (e : sev) : Z := if sv_has_end e then sv_end e else sv_start e.
(** max(..., default=0.0); event times of the representable scenes are non-negative, so folding from 0 is the same *)
Definition duration (filter : option N) (evs : list sev) : Z :=
  fold_right (fun e acc => match filter with
                           | Some k => if (sv_kind e =? k)%N then Z.max (ev_time e) acc else acc
                           | None => Z.max (ev_time e) acc
                           end) 0%Z evs.

(** SpeakEvent.playback_caption *)
Definition caption (master slave : N) (e : sev) : list (list N) :=
  let tok := match sv_cctoken e with [] => sv_param0 e | t => t end in
  if (sv_cctype e =? master)%N then [tok]
  else if (sv_cctype e =? slave)%N then (if sv_combined e then [] else [tok])
  else [].
Definition used (speak master slave : N) (e : sev) : list (list N) :=
  if (sv_kind e =? speak)%N then sv_param0 e :: caption master slave e else [].

(** sorted(set(...)) of strings: code-point lexicographic order *)
Fixpoint str_ltb (a b : list N) : bool :=
  match a, b with
  | _, [] => false
  | [], _ :: _ => true
  | x :: a', y :: b' => (x <? y)%N || ((x =? y)%N && str_ltb a' b')
  end.
Fixpoint str_eqb (a b : list N) : bool :=
  match a, b with [], [] => true | x :: a', y :: b' => (x =? y)%N && str_eqb a' b' | _, _ => false end.
Fixpoint ins (s : list N) (l : list (list N)) : list (list N) :=
  match l with
  | [] => [s]
  | h :: t => if str_eqb s h then l else if str_ltb s h then s :: l else h :: ins s t
  end.
Definition sort_set (l : list (list N)) : list (list N) := fold_right ins [] l.

Definition summary_of (speak master slave : N) (evs : list sev) : Z * Z * list (list N) :=
  (ms (duration None evs), ms (duration (Some speak) evs), sort_set (flat_map (used speak master slave) evs)).

Lemma DEN_pos : (0 < DEN)%Z.
Proof. reflexivity. Qed.

Lemma rhe_mono n1 n2 d : (0 < d)%Z -> (n1 <= n2)%Z -> (rhe n1 d <= rhe n2 d)%Z.
Proof.
  intros Hd Hn. unfold rhe.
  pose proof (Z.div_mod n1 d ltac:(lia)) as E1. pose proof (Z.div_mod n2 d ltac:(lia)) as E2.
  pose proof (Z.mod_pos_bound n1 d Hd) as B1. pose proof (Z.mod_pos_bound n2 d Hd) as B2.
  pose proof (Z.div_le_mono n1 n2 d Hd Hn) as Q.
  set (q1 := (n1 / d)%Z) in *. set (q2 := (n2 / d)%Z) in *. set (r1 := (n1 mod d)%Z) in *. set (r2 := (n2 mod d)%Z) in *.
  assert (C : (q1 < q2)%Z \/ (q1 = q2 /\ r1 <= r2)%Z) by nia.
  destruct (Z.ltb_spec (2 * r1) d), (Z.ltb_spec (2 * r2) d), (Z.ltb_spec d (2 * r1)), (Z.ltb_spec d (2 * r2));
    destruct (Z.even q1) eqn:Ev1, (Z.even q2) eqn:Ev2; try lia;
    destruct C as [C | [C1 C2]]; try lia; try (subst q2; congruence).
Qed.

Lemma ms_mono a b : (a <= b)%Z -> (ms a <= ms b)%Z.
Proof. intros H. unfold ms. apply rhe_mono; [apply DEN_pos|lia]. Qed.

Lemma duration_filter_le k evs : (duration (Some k) evs <= duration None evs)%Z.
Proof.
  induction evs as [|e t IH]; cbn [duration fold_right]; [lia|].
  fold (duration (Some k) t) (duration None t). destruct (sv_kind e =? k)%N; lia.
Qed.

(** the last-speak time never exceeds the duration *)
Theorem last_speak_le_duration speak master slave evs :
  let '(d, l, _) := summary_of speak master slave evs in (l <= d)%Z.
Proof. cbn. apply ms_mono, duration_filter_le. Qed.

Lemma duration_nonneg f evs : (0 <= duration f evs)%Z.
Proof.
  induction evs as [|e t IH]; cbn [duration fold_right]; [lia|]. fold (duration f t).
  destruct f as [k|]; [destruct (sv_kind e =? k)%N|]; lia.
Qed.

(** the duration does not depend on the order of the events (events, then actors and their channels, in the code) *)
Lemma duration_perm f evs evs' : Permutation evs evs' -> duration f evs = duration f evs'.
Proof.
  induction 1 as [|x l l' _ IH|x y l|l l' l'' _ IH1 _ IH2]; cbn [duration fold_right].
  - reflexivity.
  - fold (duration f l) (duration f l'). rewrite IH. reflexivity.
  - fold (duration f l). destruct f as [k|]; [destruct (sv_kind x =? k)%N, (sv_kind y =? k)%N|]; lia.
  - congruence.
Qed.

Lemma str_eqb_eq a : forall b, str_eqb a b = true -> a = b.
Proof.
  induction a as [|x a IH]; intros [|y b]; cbn; try discriminate; [reflexivity|].
  intros H. apply andb_prop in H as [H1 H2]. apply N.eqb_eq in H1. f_equal; auto.
Qed.
Lemma str_eqb_refl a : str_eqb a a = true.
Proof. induction a as [|x a IH]; cbn; [reflexivity|]. rewrite N.eqb_refl, IH. reflexivity. Qed.

Lemma str_ltb_trans a : forall b c, str_ltb a b = true -> str_ltb b c = true -> str_ltb a c = true.
Proof.
  induction a as [|x a IH]; intros [|y b] [|z c]; cbn; try discriminate; try reflexivity.
  intros H1 H2. apply orb_true_iff in H1. apply orb_true_iff in H2. apply orb_true_iff.
  destruct H1 as [H1 | H1], H2 as [H2 | H2].
  - left. apply N.ltb_lt in H1, H2. apply N.ltb_lt. lia.
  - apply andb_prop in H2 as [E _]. apply N.eqb_eq in E. subst. left; exact H1.
  - apply andb_prop in H1 as [E _]. apply N.eqb_eq in E. subst. left; exact H2.
  - apply andb_prop in H1 as [E1 L1]. apply andb_prop in H2 as [E2 L2]. apply N.eqb_eq in E1, E2. subst.
    right. rewrite N.eqb_refl. cbn. eapply IH; eassumption.
Qed.

Lemma str_total a : forall b, str_eqb a b = false -> str_ltb a b = false -> str_ltb b a = true.
Proof.
  induction a as [|x a IH]; intros [|y b]; cbn; try discriminate; try reflexivity.
  intros He Hl. apply orb_false_iff in Hl as [L1 L2]. apply N.ltb_ge in L1.
  destruct (N.eqb_spec x y) as [->|Hne].
  - cbn in He, L2. rewrite N.eqb_refl. cbn. apply orb_true_iff. right. apply IH; assumption.
  - apply orb_true_iff. left. apply N.ltb_lt. lia.
Qed.

Definition str_lt (a b : list N) : Prop := str_ltb a b = true.

Lemma ins_In s l x : In x (ins s l) <-> x = s \/ In x l.
Proof.
  induction l as [|h t IH]; cbn [ins].
  - cbn. intuition.
  - destruct (str_eqb s h) eqn:E.
    + apply str_eqb_eq in E. subst. cbn. intuition.
    + destruct (str_ltb s h); cbn [In]; [intuition|]. rewrite IH. intuition.
Qed.

Lemma ins_sorted s l : StronglySorted str_lt l -> StronglySorted str_lt (ins s l).
Proof.
  induction 1 as [|h t Hs IH Hh]; cbn [ins]; [repeat constructor|].
  destruct (str_eqb s h) eqn:E; [constructor; assumption|].
  destruct (str_ltb s h) eqn:L.
  - constructor; [constructor; assumption|]. constructor; [exact L|].
    eapply Forall_impl; [|exact Hh]. intros a Ha. eapply str_ltb_trans; [exact L|exact Ha].
  - constructor; [exact IH|]. rewrite Forall_forall. intros x Hx. apply ins_In in Hx as [->|Hx].
    + apply str_total; assumption.
    + rewrite Forall_forall in Hh. apply Hh, Hx.
Qed.

(** sounds: strictly increasing (so duplicate-free) and exactly the sounds used *)
Theorem sort_set_sorted l : StronglySorted str_lt (sort_set l).
Proof. induction l as [|s t IH]; [constructor|]. cbn [sort_set fold_right]. apply ins_sorted, IH. Qed.
Theorem sort_set_In l x : In x (sort_set l) <-> In x l.
Proof.
  induction l as [|s t IH]; [reflexivity|]. cbn [sort_set fold_right In]. fold (sort_set t). rewrite ins_In, IH. intuition.
Qed.

(** two strictly sorted lists with the same members are equal: the sounds do not depend on the order of the events *)
Lemma str_lt_irrefl a : ~ str_lt a a.
Proof.
  unfold str_lt. induction a as [|x a IH]; cbn; [discriminate|]. rewrite N.ltb_irrefl, N.eqb_refl. cbn. exact IH.
Qed.
Lemma sorted_same_members_eq : forall l1 l2, StronglySorted str_lt l1 -> StronglySorted str_lt l2 ->
  (forall x, In x l1 <-> In x l2) -> l1 = l2.
Proof.
  induction l1 as [|a l1 IH]; intros [|b l2] S1 S2 H.
  - reflexivity.
  - exfalso. apply (proj2 (H b)). left; reflexivity.
  - exfalso. apply (proj1 (H a)). left; reflexivity.
  - inversion S1 as [|? ? S1' F1]; subst. inversion S2 as [|? ? S2' F2]; subst.
    rewrite Forall_forall in F1, F2.
    assert (a = b).
    { destruct (proj1 (H a) (or_introl eq_refl)) as [E|Ia]; [symmetry; exact E|].
      destruct (proj2 (H b) (or_introl eq_refl)) as [E|Ib]; [exact E|].
      exfalso. apply (str_lt_irrefl a). eapply str_ltb_trans; [apply F1, Ib|apply F2, Ia]. }
    subst b. f_equal. apply IH; try assumption. intros x. split; intros Hx.
    + destruct (proj1 (H x) (or_intror Hx)) as [E|Hx']; [|exact Hx']. subst x. exfalso. apply (str_lt_irrefl a), F1, Hx.
    + destruct (proj2 (H x) (or_intror Hx)) as [E|Hx']; [|exact Hx']. subst x. exfalso. apply (str_lt_irrefl a), F2, Hx.
Qed.

Theorem summary_order_independent speak master slave evs evs' : Permutation evs evs' ->
  summary_of speak master slave evs = summary_of speak master slave evs'.
Proof.
  intros P. unfold summary_of. rewrite (duration_perm None _ _ P), (duration_perm (Some speak) _ _ P). f_equal.
  apply sorted_same_members_eq; try apply sort_set_sorted.
  intros x. rewrite !sort_set_In, !in_flat_map. split; intros (e & He & Hx); exists e; split; try exact Hx.
  - eapply Permutation_in; eassumption.
  - eapply Permutation_in; [apply Permutation_sym|]; eassumption.
Qed.

(** non-vacuity / examples: 1.0005 s rounds half to even (1000.5 -> 1000), 0.0015 s -> 2 ms would need 1.5 -> 2 *)
Example ex_round : rhe 2001 2 = 1000%Z /\ rhe 3 2 = 2%Z /\ rhe 5 2 = 2%Z /\ rhe 7 4 = 2%Z.
Proof. repeat split. Qed.
