(** The program of write_dirfile means [enc_file] (Fmt/VpkDirProg.v, Fmt/VpkDir.v). *)
From Coq Require Import List NArith Bool Lia.
From SV Require Import Fmt.VpkDir Fmt.VpkDirProofs Fmt.VpkDirProg.
Import ListNotations.
Open Scope N_scope.

Definition sapp (s : wst) (d : bytes) : wst := mkW (fb s ++ d) None (fmark s) (fdl s).

Lemma sapp_sapp s a b : sapp (sapp s a) b = sapp s (a ++ b).
Proof. unfold sapp. cbn. now rewrite app_assoc. Qed.
Lemma sapp_nil s : fc s = None -> sapp s [] = s.
Proof. destruct s as [b c m d]. cbn. intros ->. unfold sapp. cbn. now rewrite app_nil_r. Qed.
Lemma fwrite_end s d : fc s = None -> fwrite s d = sapp s d.
Proof. unfold fwrite, sapp. now intros ->. Qed.
Lemma fc_sapp s d : fc (sapp s d) = None.
Proof. reflexivity. Qed.

(** A loop whose body appends [out a] to the file (or raises when [fit a] fails) appends the concatenation. *)
Lemma wloop_sapp {A} (body : A -> wst -> option wst) (fit : A -> bool) (out : A -> bytes) :
  (forall a s, fc s = None -> body a s = if fit a then Some (sapp s (out a)) else None) ->
  forall l s, fc s = None -> wloop body l s = if forallb fit l then Some (sapp s (flat_map out l)) else None.
Proof.
  intros Hb. induction l as [|a l IH]; intros s Hs; cbn [wloop forallb flat_map].
  - now rewrite (sapp_nil _ Hs).
  - rewrite (Hb _ _ Hs). destruct (fit a); [|reflexivity]. cbn [andb].
    rewrite (IH _ (fc_sapp _ _)). destruct (forallb fit l); [|reflexivity]. now rewrite sapp_sapp.
Qed.

Section exec.
  Variable c : dcfg.
  Variable footer : bytes.

  Lemma pack_entry x :
    pack (map (fun f => (fval_of c x (fst f), snd f)) entry_fields_pinned)
    = if entry_fits c (x_info x)
      then Some (le32 (icrc (x_info x)) ++ le16 (len (ipre (x_info x))) ++ le16 (idx_code c (x_info x)) ++ le32 (ioff (x_info x))
                 ++ le32 (ilen (x_info x)) ++ le16 (c_term c) ++ [])
      else None.
  Proof.
    unfold entry_fields_pinned, entry_fits. cbn [map fst snd fval_of pack N.eqb Pos.eqb].
    destruct (fits32 (icrc (x_info x))); [|reflexivity].
    destruct (fits16 (len (ipre (x_info x)))); [|reflexivity].
    destruct (fits16 (idx_code c (x_info x))); [|reflexivity].
    destruct (fits32 (ioff (x_info x))); [|reflexivity].
    destruct (fits32 (ilen (x_info x))); [|reflexivity].
    destruct (fits16 (c_term c)); reflexivity.
  Qed.

  Lemma file_body_run e d f s : fc s = None ->
    wrun c footer (mkCtx e d (fst f) (snd f)) (w_file_body wprog_pinned) s
    = if entry_fits c (snd f) then Some (sapp s (write_cstr (fst f) ++ enc_entry c (snd f))) else None.
  Proof.
    intros Hs. cbn [wprog_pinned w_file_body wrun wop_step x_name x_info].
    rewrite (fwrite_end _ _ Hs). rewrite pack_entry. cbn [x_info].
    destruct (entry_fits c (snd f)); [|reflexivity].
    rewrite (fwrite_end _ _ (fc_sapp _ _)), (fwrite_end _ _ (fc_sapp _ _)), !sapp_sapp.
    unfold enc_entry. do 2 f_equal; rewrite ?app_nil_r, <- ?app_assoc; reflexivity.
  Qed.

  Definition dir_body (e : bytes) (d : bytes * list (bytes * info)) (s : wst) : option wst :=
    if w_dir_skip wprog_pinned && lnil (snd d) then Some s else
    let xd := mkCtx e (fst d) [] (x_info x0) in
    obind (wrun c footer xd (w_dir_pre wprog_pinned) s) (fun s =>
    obind (wloop (fun f s => wrun c footer (mkCtx e (fst d) (fst f) (snd f)) (w_file_body wprog_pinned) s) (snd d) s) (fun s =>
    wrun c footer xd (w_dir_post wprog_pinned) s)).

  Lemma dir_body_run e d s : fc s = None ->
    dir_body e d s = if forallb (fun f => entry_fits c (snd f)) (snd d) then Some (sapp s (dir_bytes c d)) else None.
  Proof.
    intros Hs. unfold dir_body, dir_bytes. destruct d as [dn fs]. cbn [fst snd].
    destruct fs as [|f0 fs'].
    - cbn. now rewrite (sapp_nil _ Hs).
    - cbn [wprog_pinned w_dir_skip w_dir_pre w_dir_post lnil andb wrun wop_step obind x_dir].
      rewrite (fwrite_end _ _ Hs). rewrite (wloop_sapp _ _ _ (file_body_run e dn) _ _ (fc_sapp _ _)).
      destruct (forallb (fun f => entry_fits c (snd f)) (f0 :: fs')); [|reflexivity].
      cbn [obind]. rewrite (fwrite_end _ _ (fc_sapp _ _)), !sapp_sapp. unfold enc_files. reflexivity.
  Qed.

  Definition ext_body (e : bytes * list (bytes * list (bytes * info))) (s : wst) : option wst :=
    if w_ext_skip wprog_pinned && lnil (snd e) then Some s else
    let xe := mkCtx (fst e) [] [] (x_info x0) in
    obind (wrun c footer xe (w_ext_pre wprog_pinned) s) (fun s =>
    obind (wloop (dir_body (fst e)) (snd e) s) (fun s =>
    wrun c footer xe (w_ext_post wprog_pinned) s)).

  Lemma ext_body_run e s : fc s = None ->
    ext_body e s = if forallb (fun d => forallb (fun f => entry_fits c (snd f)) (snd d)) (snd e) then Some (sapp s (ext_bytes c e)) else None.
  Proof.
    intros Hs. unfold ext_body, ext_bytes. destruct e as [en ds]. cbn [fst snd].
    destruct ds as [|d0 ds'].
    - cbn. now rewrite (sapp_nil _ Hs).
    - cbn [wprog_pinned w_ext_skip w_ext_pre w_ext_post lnil andb wrun wop_step obind x_ext].
      rewrite (fwrite_end _ _ Hs). rewrite (wloop_sapp _ _ _ (dir_body_run en) _ _ (fc_sapp _ _)).
      destruct (forallb (fun d => forallb (fun f => entry_fits c (snd f)) (snd d)) (d0 :: ds')); [|reflexivity].
      cbn [obind]. rewrite (fwrite_end _ _ (fc_sapp _ _)), !sapp_sapp. unfold enc_dirs. reflexivity.
  Qed.

  Lemma wexec_st_pinned_unfold t :
    wexec_st c footer wprog_pinned t
    = obind (wrun c footer x0 (w_before wprog_pinned) (mkW [] None 0 0)) (fun s1 =>
      obind (wloop ext_body t s1) (fun s2 => wrun c footer x0 (w_after wprog_pinned) s2)).
  Proof. reflexivity. Qed.

  Theorem wexec_pinned t : wexec c footer wprog_pinned t = enc_file c t footer.
  Proof.
    unfold wexec. rewrite wexec_st_pinned_unfold. unfold enc_file.
    cbn [wprog_pinned w_before wrun wop_step map fst snd hval_of pack N.eqb Pos.eqb].
    destruct (fits32 (c_sig c)); [|reflexivity].
    change (fits32 1) with true. change (fits32 0) with true. cbn [obind fwrite fc app tell fb fmark fdl].
    rewrite (wloop_sapp _ _ _ ext_body_run) by reflexivity. fold (tree_fits c t).
    destruct (tree_fits c t); [|reflexivity]. cbn [andb obind].
    cbn [wprog_pinned w_after wrun wop_step].
    rewrite (fwrite_end _ _ (fc_sapp _ _)), sapp_sapp.
    change (flat_map (ext_bytes c) t ++ [0]) with (enc_tree c t).
    set (T := enc_tree c t).
    unfold sapp. cbn [fb fc fmark fdl tell fwrite map fst snd hval_of pack N.eqb Pos.eqb].
    assert (Hl : N.of_nat (length ((le32 (c_sig c) ++ le32 1 ++ le32 0 ++ []) ++ T) - length (le32 (c_sig c) ++ le32 1 ++ le32 0 ++ [])) = len T).
    { rewrite app_length. unfold len. f_equal; lia. }
    rewrite !Hl. destruct (fits32 (len T)); [|reflexivity].
    cbn [option_map fb]. f_equal; (change (N.to_nat 8) with 8%nat; unfold le32; cbn [app firstn skipn length Nat.add];
      rewrite <- ?app_assoc; reflexivity).
  Qed.
End exec.

(** Every program accepted by [wprog_ok] writes exactly [enc_file], for every format instance, tree and footer. *)
Theorem wprog_ok_is_enc_file p : wprog_ok p = true -> forall c t footer, wexec c footer p t = enc_file c t footer.
Proof.
  unfold wprog_ok. destruct (wprog_eq_dec p wprog_pinned) as [->|]; [|discriminate]. intros _ c t footer. apply wexec_pinned.
Qed.

Definition ex_c : dcfg := {| c_sig := 1437209140; c_dir_index := 32767; c_term := 65535 |}.
Definition ex_t : tree := [([116], [([97], [([120], mkInfo 7 [1; 2] None 0 0); ([121], mkInfo 8 [] (Some 3) 5 9)]); ([], [([122], mkInfo 9 [3] None 0 4)])]); ([], [])].

