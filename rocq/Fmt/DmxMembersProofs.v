(** Proofs about Fmt/DmxMembers.v: the attribute count [export_binary] writes equals the number of records it writes,
    for every dict with pairwise distinct keys — in particular for every dict the public mapping API of Element can
    produce from a fresh element, with or without the "name" member; hence the export of the real dicts is the export
    of the document they denote, and parses back to it (composition with [dmx_bin_roundtrip_gen]). *)
From Coq Require Import NArith ZArith List Bool Lia.
From SV Require Import Fmt.DmxCodes Fmt.DmxBin Fmt.DmxBinLemmas Fmt.DmxBinProofs Fmt.DmxMembers.
Import ListNotations.

(** ** Keys *)
Lemma mget_none : forall k m, ~ In k (map fst m) -> mget k m = None.
Proof.
  induction m as [|[k' a] r IH]; intros H; [reflexivity|]. cbn [mget]. cbn [map fst In] in H.
  destruct (str_eqb k k') eqn:E.
  - apply str_eqb_true in E. subst. exfalso. apply H. left. reflexivity.
  - apply IH. intros Hin. apply H. right. exact Hin.
Qed.
Lemma mget_some_in : forall k m a, mget k m = Some a -> In (k, a) m.
Proof.
  induction m as [|[k' a'] r IH]; intros a H; [discriminate|]. cbn [mget] in H.
  destruct (str_eqb k k') eqn:E.
  - left. apply str_eqb_true in E. congruence.
  - right. apply IH. exact H.
Qed.
(** A dict holds one value per key. *)
Lemma mget_in : forall k a m, keys_nodup m -> In (k, a) m -> mget k m = Some a.
Proof.
  unfold keys_nodup. induction m as [|[k' a'] r IH]; intros ND I; [destruct I|]. cbn [mget].
  cbn [map fst] in ND. inversion ND as [|? ? NI ND']; subst. destruct I as [E|I].
  - injection E as -> ->. rewrite str_eqb_refl. reflexivity.
  - destruct (str_eqb k k') eqn:Q; [|apply IH; assumption].
    apply str_eqb_true in Q. subst k'. exfalso. apply NI. exact (in_map fst _ _ I).
Qed.
Lemma has_key_in : forall k m, has_key k m = true <-> In k (map fst m).
Proof.
  intros k m. unfold has_key. induction m as [|[k' a] r IH]; cbn [mget map fst In]; [split; [discriminate | intros []]|].
  destruct (str_eqb k k') eqn:E.
  - apply str_eqb_true in E. split; [intros _; left; symmetry; exact E | intros _; reflexivity].
  - apply str_eqb_false in E. rewrite IH. split; [intros H; right; exact H | intros [H|H]; [congruence | exact H]].
Qed.
Lemma mget_head : forall k a m, mget k ((k, a) :: m) = Some a.
Proof. intros k a m. cbn [mget]. rewrite str_eqb_refl. reflexivity. Qed.

(** ** The members a loop keeps *)
Lemma records_cons : forall f ka m, records f (ka :: m) = if skipped f ka then records f m else ka :: records f m.
Proof. intros f ka m. unfold records. cbn [filter]. destruct (skipped f ka); reflexivity. Qed.

Lemma records_skip_head : forall k a m, records (FKeyIs k) ((k, a) :: m) = records (FKeyIs k) m.
Proof. intros k a m. rewrite records_cons. cbn [skipped fst]. rewrite str_eqb_refl. reflexivity. Qed.

Lemma records_key_absent : forall k m, ~ In k (map fst m) -> records (FKeyIs k) m = m.
Proof.
  induction m as [|[k' a] r IH]; intros H; [reflexivity|]. cbn [map fst In] in H. rewrite records_cons. cbn [skipped fst].
  destruct (str_eqb k' k) eqn:E.
  - apply str_eqb_true in E. subst. exfalso. apply H. left. reflexivity.
  - f_equal. apply IH. intros Hin. apply H. right. exact Hin.
Qed.

Lemma records_nodup : forall f m, keys_nodup m -> keys_nodup (records f m).
Proof.
  unfold keys_nodup. induction m as [|ka r IH]; intros ND; [exact ND|].
  cbn [map] in ND. inversion ND as [|? ? NI ND']; subst. rewrite records_cons.
  destruct (skipped f ka); [apply IH; exact ND'|]. cbn [map]. constructor; [|apply IH; exact ND'].
  intro X. apply NI. apply in_map_iff in X. destruct X as [x [E I]]. apply in_map_iff. exists x.
  split; [exact E | exact (incl_filter _ _ _ I)].
Qed.

(** len(elem) - ('name' in elem._members) is the number of members whose key is not "name": a dict has a key once. *)
Lemma len_minus_has_key : forall k m, keys_nodup m ->
  (Z.of_nat (length m) - (if has_key k m then 1 else 0))%Z = Z.of_nat (length (records (FKeyIs k) m)).
Proof.
  unfold keys_nodup. induction m as [|[k' a] r IH]; intros Hnd; [reflexivity|].
  cbn [map fst] in Hnd. inversion Hnd as [|x l Hnotin Hnd']; subst.
  rewrite records_cons. cbn [skipped fst]. unfold has_key. cbn [mget].
  rewrite (str_eqb_sym k k'). destruct (str_eqb k' k) eqn:E.
  - apply str_eqb_true in E. subst k'.
    rewrite (records_key_absent k r Hnotin). cbn [length]. lia.
  - cbn [length]. specialize (IH Hnd'). unfold has_key in IH.
    destruct (mget k r); lia.
Qed.

Lemma filter_is_name_key_eq : forall f, filter_is_name_key f = true -> f = FKeyIs s_name.
Proof. intros [k|k|]; cbn; try discriminate. intros H. apply str_eqb_true in H. congruence. Qed.

Lemma cnt_cfg_ok_parts : forall c, cnt_cfg_ok c = true ->
  count_expr_ok c = true /\ cc_write_filter c = FKeyIs s_name /\ cc_collect_filter c = FKeyIs s_name /\ name_getter_ok c = true.
Proof.
  intros c H. unfold cnt_cfg_ok in H. rewrite !andb_true_iff in H. destruct H as (((Hcnt & Hw) & Hc) & Hn).
  repeat split; try apply filter_is_name_key_eq; assumption.
Qed.

(** The count written is the number of records written, for every dict (with or without the "name" member). *)
Theorem count_is_records : forall c m, cnt_cfg_ok c = true -> keys_nodup m ->
  count_written c m = Z.of_nat (length (records (cc_write_filter c) m)).
Proof.
  intros c m Hok Hnd. destruct (cnt_cfg_ok_parts c Hok) as (Hcnt & Hw & _). rewrite Hw.
  unfold count_expr_ok in Hcnt. apply andb_prop in Hcnt as [_ Hcnt]. unfold count_written. apply orb_prop in Hcnt as [H|H].
  - rewrite !andb_true_iff in H. destruct H as ((((El & Eh) & Ek) & Ec) & Ep).
    apply Z.eqb_eq in El, Eh, Ec, Ep. apply str_eqb_true in Ek. rewrite El, Eh, Ek, Ec, Ep.
    rewrite <- (len_minus_has_key s_name m Hnd). destruct (has_key s_name m); lia.
  - rewrite !andb_true_iff in H. destruct H as ((((El & Eh) & Ec) & Ep) & Ef).
    apply Z.eqb_eq in El, Eh, Ec, Ep. apply filter_is_name_key_eq in Ef. rewrite El, Eh, Ec, Ep, Ef.
    destruct (has_key (cc_has_key c) m); lia.
Qed.

(** Element.name of a dict whose name member is the scalar string [s]. *)
Lemma rname_string : forall cc m a s, name_getter_ok cc = true ->
  mget s_name m = Some a -> adata a = VStr (Scalar s) -> rname cc m = s.
Proof.
  intros cc m a s NG G D. unfold name_getter_ok in NG. apply andb_prop in NG as [K _]. apply str_eqb_true in K.
  unfold rname. rewrite K, G, D. reflexivity.
Qed.

(** ** The export of the real dicts is the export of the document they denote *)
Section Compose.
  Variable cenc : enc -> str -> bytes.
  Variable cdec : enc -> bytes -> option str.
  Variable cfg : dmxcfg.
  Variable cc : cntcfg.
  Hypothesis Hcc : cnt_cfg_ok cc = true.

  Lemma put_relem_attrs_abstract : forall v tab r, keys_nodup (r_members r) ->
    put_relem_attrs cenc cfg cc v tab r = put_elem_attrs cenc cfg v tab (abstract cc r).
  Proof.
    intros v tab r Hnd. unfold put_relem_attrs, put_elem_attrs, abstract, view. cbn [eattrs].
    rewrite (count_is_records cc (r_members r) Hcc Hnd). destruct (cnt_cfg_ok_parts cc Hcc) as (_ & Hw & _). rewrite Hw.
    rewrite map_length. reflexivity.
  Qed.

  Theorem export_raw_is_export_bin : forall v rd, Forall (fun r => keys_nodup (r_members r)) rd ->
    export_raw cenc cfg cc v rd = export_bin cenc cfg v (map (abstract cc) rd).
  Proof.
    intros v rd Hnd. unfold export_raw, export_bin. destruct (cnt_cfg_ok_parts cc Hcc) as (_ & _ & Hc & _). rewrite Hc.
    fold (abstract cc). rewrite map_length. do 3 f_equal.
    rewrite flat_map_concat_map, (flat_map_concat_map _ (map (abstract cc) rd)), map_map. f_equal.
    apply map_ext_in. intros r Hin. apply put_relem_attrs_abstract. rewrite Forall_forall in Hnd. apply Hnd. exact Hin.
  Qed.

  (** Exporting the real dicts and parsing the bytes gives the document they denote — also for elements whose "name"
      member was removed (read back with the name "") or sits anywhere in the dict. *)
  Theorem members_bin_roundtrip : forall v rd,
    bin_cfg_ok cfg = true -> Forall (fun r => keys_nodup (r_members r)) rd ->
    expressible cenc cdec cfg v (map (abstract cc) rd) ->
    parse_bin cdec cfg v (export_raw cenc cfg cc v rd) = Some (map (abstract cc) rd).
  Proof.
    intros v rd Hcfg Hnd Hex. rewrite (export_raw_is_export_bin v rd Hnd). apply dmx_bin_roundtrip_gen; assumption.
  Qed.
End Compose.

(** ** Every dict the mapping API produces has pairwise distinct keys *)
Lemma mset_keys : forall k a m,
  map fst (mset k a m) = if has_key k m then map fst m else map fst m ++ [k].
Proof.
  induction m as [|[k' a'] r IH]; [reflexivity|]. cbn [mset]. unfold has_key. cbn [mget].
  destruct (str_eqb k k') eqn:E; [reflexivity|]. cbn [map fst]. rewrite IH. unfold has_key.
  destruct (mget k r); reflexivity.
Qed.
Lemma nodup_app_new : forall k m, keys_nodup m -> has_key k m = false -> NoDup (map fst m ++ [k]).
Proof.
  intros k m Hnd E. pose proof (Add_app k (map fst m) []) as A. rewrite app_nil_r in A.
  apply (NoDup_Add A). split; [exact Hnd|]. intros Hin. apply has_key_in in Hin. congruence.
Qed.
Lemma mset_nodup : forall k a m, keys_nodup m -> keys_nodup (mset k a m).
Proof.
  unfold keys_nodup at 2. intros k a m H. rewrite mset_keys. destruct (has_key k m) eqn:E; [exact H|].
  apply nodup_app_new; assumption.
Qed.
Lemma mdel_incl : forall k m, incl (mdel k m) m.
Proof.
  induction m as [|[k' a'] r IH]; intros x H; [exact H|]. cbn [mdel] in H.
  destruct (str_eqb k k'); [right; exact H|]. destruct H as [H|H]; [left; exact H | right; apply IH; exact H].
Qed.
Lemma mdel_nodup : forall k m, keys_nodup m -> keys_nodup (mdel k m).
Proof.
  unfold keys_nodup. induction m as [|[k' a'] r IH]; intros H; [exact H|]. cbn [mdel].
  cbn [map fst] in H. inversion H as [|x l Hx Hl]; subst. destruct (str_eqb k k'); [exact Hl|].
  cbn [map fst]. constructor; [|apply IH; exact Hl]. intros Hin. apply Hx.
  apply in_map_iff in Hin. destruct Hin as [ka [E I]]. rewrite <- E. exact (in_map fst _ _ (mdel_incl k r ka I)).
Qed.
Lemma removelast_incl : forall A (l : list A), incl (removelast l) l.
Proof.
  intros A l. destruct l as [|x l _] using rev_ind; [apply incl_refl|]. rewrite removelast_last. apply incl_appl, incl_refl.
Qed.
Lemma removelast_nodup : forall m, keys_nodup m -> keys_nodup (removelast m).
Proof.
  unfold keys_nodup. intros m. destruct m as [|ka m _] using rev_ind; intros H; [exact H|].
  rewrite removelast_last. rewrite map_app in H. apply NoDup_remove_1 in H. rewrite app_nil_r in H. exact H.
Qed.

Theorem apply_op_keys_nodup : forall fold m op, keys_nodup m -> keys_nodup (apply_op fold m op).
Proof.
  intros fold m op H. destruct op as [|n|n| |s|n d|n d]; cbn [apply_op].
  - constructor.
  - apply mdel_nodup. exact H.
  - apply mdel_nodup. exact H.
  - apply removelast_nodup. exact H.
  - destruct (mget s_name m) eqn:E; [apply mset_nodup; exact H|].
    unfold keys_nodup. rewrite map_app. cbn [map fst]. apply nodup_app_new; [exact H|]. unfold has_key. rewrite E. reflexivity.
  - apply mset_nodup. exact H.
  - destruct (has_key (fold n) m) eqn:E; [exact H|].
    unfold keys_nodup. rewrite map_app. apply nodup_app_new; assumption.
Qed.

(** What every operation of the mapping API preserves holds after every history. *)
Lemma run_ops_invariant : forall fold (P : members -> Prop),
  (forall m op, P m -> P (apply_op fold m op)) -> forall ops m, P m -> P (run_ops fold ops m).
Proof.
  intros fold P step. unfold run_ops. induction ops as [|op ops IH]; intros m H; [exact H|].
  cbn [fold_left]. apply IH, step, H.
Qed.

Theorem history_keys_nodup : forall fold ops name, keys_nodup (run_ops fold ops (init_members name)).
Proof.
  intros fold ops name. apply run_ops_invariant; [intros m op; apply apply_op_keys_nodup|].
  unfold keys_nodup. cbn. constructor; [intros []|constructor].
Qed.

(** ** Non-vacuity and refutations *)
Lemma good_cnt_ok : cnt_cfg_ok good_cnt = true.
Proof. vm_compute. reflexivity. Qed.

Definition int_attr (nm : str) (b : N) : attr := {| aname := nm; adata := VFix TInt (Scalar [b; 0; 0; 0]%N) |}.
(** root: cleared, then one attribute assigned (no "name" member); a child that kept its name *)
Definition hist_ops : list mop := [OClear; OSet [65]%N (VFix TInt (Scalar [5; 0; 0; 0]%N)); OSet [107]%N (VElem (Scalar (RElem 1)))].
Definition hist_rdoc : rdoc :=
  [ {| r_type := [84]%N; r_uuid := ex_uuid 1%N; r_members := run_ops (fun s => s) hist_ops (init_members [110]%N) |};
    {| r_type := [67]%N; r_uuid := ex_uuid 2%N;
       r_members := run_ops (fun s => s) [OSet [113]%N (VStr (Scalar [115]%N)); OPop s_name; OSetName [108; 97; 116; 101]%N] (init_members [99]%N) |} ].

Example hist_rdoc_shape :
  map (fun r => (has_key s_name (r_members r), length (r_members r))) hist_rdoc = [(false, 2%nat); (true, 2%nat)] /\
  map (fun r => map fst (r_members r)) hist_rdoc = [[[65]%N; [107]%N]; [[113]%N; s_name]].
Proof. vm_compute. split; reflexivity. Qed.

Example members_roundtrip_example : forall v, v = 5%N \/ v = 1%N ->
  parse_bin iddec good_cfg v (export_raw idenc good_cfg good_cnt v hist_rdoc) = Some (map (abstract good_cnt) hist_rdoc).
Proof. intros v [E|E]; subst v; vm_compute; reflexivity. Qed.

(** A writing loop that tests the attribute's case-preserved name: an element whose name was assigned as 'NAME' gets a
    record the count does not include. *)
Definition ascii_lower (s : str) : str := map (fun c => if (65 <=? c)%N && (c <=? 90)%N then (c + 32)%N else c) s.
