(** C15 — soundness of the symbolic bit evaluator of VtfPixelExpr.v and the generic codec theorems.
    Everything here is for ALL byte-valued inputs (no enumeration): the boolean checks [rt_ok]/[sf_ok] are
    closed computations on a codec, and imply the universally quantified round-trip statements. *)
From Coq Require Import NArith Arith List Bool Lia.
From SV Require Import Fmt.VtfPixelExpr.
Import ListNotations.
Open Scope N_scope.

Lemma expr_eqb_eq : forall x y, expr_eqb x y = true -> x = y.
Proof.
  induction x; destruct y; cbn [expr_eqb]; try discriminate; intros H;
  repeat match goal with H : _ && _ = true |- _ => apply andb_true_iff in H; destruct H end;
  repeat match goal with
   | H : Nat.eqb _ _ = true |- _ => apply Nat.eqb_eq in H; subst
   | H : N.eqb _ _ = true |- _ => apply N.eqb_eq in H; subst
   | IH : forall y, expr_eqb ?a y = true -> _, H : expr_eqb ?a _ = true |- _ => apply IH in H; subst
  end; reflexivity.
Qed.

Lemma sbit_eqb_eq : forall x y, sbit_eqb x y = true -> x = y.
Proof.
  destruct x, y; cbn; try discriminate; try reflexivity.
  intros H. apply andb_true_iff in H. destruct H as [H1 H2].
  apply expr_eqb_eq in H1. apply N.eqb_eq in H2. now subst.
Qed.

Lemma lt_pow2_high : forall x n, x < 2 ^ n -> forall i, n <= i -> N.testbit x i = false.
Proof.
  intros x n H i Hi. destruct (N.eq_dec x 0) as [->|Hx]. { apply N.bits_0. }
  apply N.bits_above_log2. apply N.log2_lt_pow2 in H; lia.
Qed.

Lemma high_lt_pow2 : forall x n, (forall i, n <= i -> N.testbit x i = false) -> x < 2 ^ n.
Proof.
  intros x n H.
  assert (E : x = x mod 2 ^ n).
  { apply N.bits_inj. intro i. destruct (N.lt_ge_cases i n).
    - now rewrite N.mod_pow2_bits_low.
    - rewrite N.mod_pow2_bits_high by assumption. now apply H. }
  rewrite E. apply N.mod_lt. apply N.pow_nonzero. discriminate.
Qed.

Lemma lookup_byte : forall rho v, bytes rho -> lookup rho v < 256.
Proof.
  intros rho v H. unfold lookup. destruct (nth_in_or_default v rho 0) as [Hin| ->]; [|reflexivity].
  unfold bytes in H. rewrite Forall_forall in H. now apply H.
Qed.

Lemma s_and_sound : forall rho x y s, s_and x y = Some s -> interp rho x && interp rho y = interp rho s.
Proof.
  intros rho x y s. destruct x, y; cbn; intros H; try (injection H as <-; cbn; auto using andb_true_r, andb_false_r; fail).
  destruct (expr_eqb e e0 && (i =? i0)) eqn:E; [|discriminate]. injection H as <-.
  apply andb_true_iff in E. destruct E as [E1 E2]. apply expr_eqb_eq in E1. apply N.eqb_eq in E2. subst.
  cbn. apply andb_diag.
Qed.

Lemma s_or_sound : forall rho x y s, s_or x y = Some s -> interp rho x || interp rho y = interp rho s.
Proof.
  intros rho x y s. destruct x, y; cbn; intros H; try (injection H as <-; cbn; auto using orb_true_r, orb_false_r; fail).
  destruct (expr_eqb e e0 && (i =? i0)) eqn:E; [|discriminate]. injection H as <-.
  apply andb_true_iff in E. destruct E as [E1 E2]. apply expr_eqb_eq in E1. apply N.eqb_eq in E2. subst.
  cbn. apply orb_diag.
Qed.

Lemma grey_of_grey : forall v, grey v v v = v.
Proof. intros v. unfold grey. replace (v + v + v) with (v * 3) by lia. apply N.div_mul. discriminate. Qed.

Theorem sym_sound : forall rho, bytes rho -> forall e i s,
  sym e i = Some s -> N.testbit (eval rho e) i = interp rho s.
Proof.
  intros rho Hb. induction e; intros i s H; cbn [sym eval] in *.
  - (* EVar *) injection H as <-. destruct (i <? 8) eqn:E; cbn [interp eval]; [reflexivity|].
    apply N.ltb_ge in E. apply (lt_pow2_high _ 8); [|assumption]. apply (lookup_byte rho v Hb).
  - (* EConst *) injection H as <-. destruct (N.testbit n i) eqn:E; cbn; reflexivity.
  - (* EAnd *) destruct (sym e1 i) eqn:E1, (sym e2 i) eqn:E2; try discriminate.
    rewrite N.land_spec, (IHe1 _ _ E1), (IHe2 _ _ E2). now apply s_and_sound.
  - (* EOr *) destruct (sym e1 i) eqn:E1, (sym e2 i) eqn:E2; try discriminate.
    rewrite N.lor_spec, (IHe1 _ _ E1), (IHe2 _ _ E2). now apply s_or_sound.
  - (* EShl *) destruct (i <? k) eqn:E.
    + injection H as <-. apply N.ltb_lt in E. cbn. now apply N.shiftl_spec_low.
    + apply N.ltb_ge in E. rewrite N.shiftl_spec_high' by assumption. now apply IHe.
  - (* EShr *) rewrite N.shiftr_spec'. now apply IHe.
  - (* ETest *) destruct (sym e1 k) as [[| |e' j]|] eqn:Ec; [| | |discriminate].
    + rewrite (IHe1 _ _ Ec). cbn [interp]. now apply IHe3.
    + rewrite (IHe1 _ _ Ec). cbn [interp]. now apply IHe2.
    + destruct (sym e2 i) as [x|] eqn:Ea; [|discriminate]. destruct (sym e3 i) as [y|] eqn:Eb; [|discriminate].
      destruct (sbit_eqb x y) eqn:Exy.
      * injection H as <-. apply sbit_eqb_eq in Exy. subst y.
        destruct (N.testbit (eval rho e1) k); [now apply IHe2 | now apply IHe3].
      * destruct x; try discriminate. destruct y; try discriminate. injection H as <-.
        pose proof (IHe1 _ _ Ec) as Hc. destruct (N.testbit (eval rho e1) k).
        -- rewrite (IHe2 _ _ Ea). cbn [interp] in *. congruence.
        -- rewrite (IHe3 _ _ Eb). cbn [interp] in *. congruence.
  - (* EAvg3 *) destruct (expr_eqb e1 e2 && expr_eqb e2 e3) eqn:E.
    + apply andb_true_iff in E. destruct E as [E1 E2]. apply expr_eqb_eq in E1, E2. subst e2 e3.
      fold (grey (eval rho e1) (eval rho e1) (eval rho e1)). rewrite grey_of_grey. now apply IHe1.
    + injection H as <-. reflexivity.
Qed.

Theorem zero_above_sound : forall rho, bytes rho -> forall e n,
  zero_above e n = true -> forall i, n <= i -> N.testbit (eval rho e) i = false.
Proof.
  intros rho Hb. induction e; intros m H i Hi; cbn [zero_above eval] in *.
  - apply N.leb_le in H. apply (lt_pow2_high _ 8); [|lia]. apply (lookup_byte rho v Hb).
  - apply N.ltb_lt in H. now apply (lt_pow2_high _ m).
  - rewrite N.land_spec. apply orb_true_iff in H. destruct H as [H|H].
    + now rewrite (IHe1 _ H i Hi).
    + rewrite (IHe2 _ H i Hi). apply andb_false_r.
  - rewrite N.lor_spec. apply andb_true_iff in H. destruct H as [H1 H2].
    now rewrite (IHe1 _ H1 i Hi), (IHe2 _ H2 i Hi).
  - apply andb_true_iff in H. destruct H as [H1 H2]. apply N.leb_le in H1.
    rewrite N.shiftl_spec_high' by lia. apply (IHe _ H2). lia.
  - rewrite N.shiftr_spec'. apply (IHe _ H). lia.
  - apply andb_true_iff in H. destruct H as [H1 H2].
    destruct (N.testbit (eval rho e1) k); [now apply (IHe2 _ H1) | now apply (IHe3 _ H2)].
  - apply andb_true_iff in H. destruct H as [H12 H3]. apply andb_true_iff in H12. destruct H12 as [H1 H2].
    pose proof (high_lt_pow2 _ _ (IHe1 _ H1)). pose proof (high_lt_pow2 _ _ (IHe2 _ H2)).
    pose proof (high_lt_pow2 _ _ (IHe3 _ H3)).
    apply (lt_pow2_high _ m); [|assumption]. apply N.div_lt_upper_bound; [discriminate|lia].
Qed.

Lemma in_Nrange : forall W i, i < N.of_nat W -> In i (Nrange W).
Proof.
  intros W i H. unfold Nrange. rewrite <- (N2Nat.id i). apply in_map. apply in_seq. lia.
Qed.

Theorem bits_equiv_sound : forall rho W e1 e2, bytes rho -> bits_equiv W e1 e2 = true -> eval rho e1 = eval rho e2.
Proof.
  intros rho W e1 e2 Hb H. unfold bits_equiv in H.
  apply andb_true_iff in H. destruct H as [H H2]. apply andb_true_iff in H. destruct H as [H0 H1].
  apply N.bits_inj. intro i. destruct (N.lt_ge_cases i (N.of_nat W)) as [Hi|Hi].
  - rewrite forallb_forall in H0. specialize (H0 i (in_Nrange _ _ Hi)).
    destruct (sym e1 i) as [x|] eqn:E1; [|discriminate]. destruct (sym e2 i) as [y|] eqn:E2; [|discriminate].
    apply sbit_eqb_eq in H0. subst y. now rewrite (sym_sound rho Hb _ _ _ E1), (sym_sound rho Hb _ _ _ E2).
  - now rewrite (zero_above_sound rho Hb _ _ H1 i Hi), (zero_above_sound rho Hb _ _ H2 i Hi).
Qed.

Theorem list_equiv_sound : forall rho W l1 l2, bytes rho -> list_equiv W l1 l2 = true -> run l1 rho = run l2 rho.
Proof.
  intros rho W l1. induction l1 as [|a r IH]; destruct l2 as [|b r2]; cbn; intros Hb H; try discriminate; [reflexivity|].
  apply andb_true_iff in H. destruct H as [H1 H2].
  f_equal; [now apply (bits_equiv_sound rho W) | now apply IH].
Qed.

Lemma eval_subst : forall rho s e, eval rho (subst s e) = eval (run s rho) e.
Proof.
  intros rho s. induction e; cbn [subst eval]; rewrite ?IHe, ?IHe1, ?IHe2, ?IHe3; try reflexivity.
  unfold lookup, run. symmetry. apply (map_nth (eval rho) s (EConst 0) v).
Qed.

Lemma run_comp : forall rho outer inner, run (comp outer inner) rho = run outer (run inner rho).
Proof.
  intros. unfold run at 1 2, comp. rewrite map_map. apply map_ext. intro e. apply eval_subst.
Qed.

Lemma in_byte_range_sound : forall rho es, bytes rho -> in_byte_range es = true -> bytes (run es rho).
Proof.
  intros rho es Hb H. unfold bytes, run. apply Forall_forall. intros x Hx. apply in_map_iff in Hx.
  destruct Hx as [e [<- He]]. unfold in_byte_range in H. rewrite forallb_forall in H.
  change 256 with (2 ^ 8). apply high_lt_pow2. apply (zero_above_sound rho Hb). now apply H.
Qed.

Lemma run_length : forall es rho, length (run es rho) = length es.
Proof. intros. unfold run. apply map_length. Qed.

(** ** load after save = the documented quantisation, for every pixel *)
Theorem rt_sound : forall c q, rt_ok c q = true ->
  forall p, bytes p ->
    run (load_e c) (run (save_e c) p) = run q p
    /\ bytes (run (save_e c) p) /\ length (run (save_e c) p) = bpp c.
Proof.
  intros c q H p Hp. unfold rt_ok in H.
  apply andb_true_iff in H. destruct H as [H Heq]. apply andb_true_iff in H. destruct H as [Hwf Hrange].
  split; [|split].
  - rewrite <- run_comp. now apply (list_equiv_sound p WBITS).
  - now apply in_byte_range_sound.
  - rewrite run_length. unfold wf in Hwf.
    repeat (apply andb_true_iff in Hwf; destruct Hwf as [Hwf ?]). now apply Nat.eqb_eq.
Qed.

(** ** storing what was loaded: save after load = canon on every stored value, and saving a pixel, loading it
    and saving again gives the same stored bytes *)
Theorem sf_sound : forall c canon, sf_ok c canon = true ->
  (forall d, bytes d -> run (save_e c) (run (load_e c) d) = run canon d /\ bytes (run (load_e c) d))
  /\ (forall p, bytes p -> run (save_e c) (run (load_e c) (run (save_e c) p)) = run (save_e c) p).
Proof.
  intros c canon H. unfold sf_ok in H.
  apply andb_true_iff in H. destruct H as [H Hcs]. apply andb_true_iff in H. destruct H as [H Hsl].
  apply andb_true_iff in H. destruct H as [H Hlr]. apply andb_true_iff in H. destruct H as [Hwf Hsr].
  assert (A : forall d, bytes d -> run (save_e c) (run (load_e c) d) = run canon d /\ bytes (run (load_e c) d)).
  { intros d Hd. split.
    - rewrite <- run_comp. now apply (list_equiv_sound d WBITS).
    - now apply in_byte_range_sound. }
  split; [exact A|].
  intros p Hp. pose proof (in_byte_range_sound p _ Hp Hsr) as Hs.
  destruct (A _ Hs) as [E _]. rewrite E. rewrite <- run_comp. now apply (list_equiv_sound p WBITS).
Qed.

(** ** the specification expressions mean what they say *)
Lemma eval_quant_e : forall rho n x, eval rho (quant_e n x) = quant n (eval rho x).
Proof. reflexivity. Qed.
Lemma eval_alpha1_e : forall rho x, eval rho (alpha1_e x) = alpha1 (eval rho x).
Proof. reflexivity. Qed.

(** [quant n] keeps the top n bits, is idempotent, stays a byte; 8 bits is the identity.  Each fact compares two
    expressions in one byte-valued variable, so the symbolic evaluator decides it (16 bit positions, not 256 values). *)
Lemma quant_facts_sym : forall n,
  bits_equiv WBITS (EShr (quant_e n (EVar 0)) (8 - n)) (EShr (EVar 0) (8 - n)) = true ->
  bits_equiv WBITS (quant_e n (quant_e n (EVar 0))) (quant_e n (EVar 0)) = true ->
  zero_above (quant_e n (EVar 0)) 8 = true ->
  forall x, x < 256 ->
  N.shiftr (quant n x) (8 - n) = N.shiftr x (8 - n) /\ quant n (quant n x) = quant n x /\ quant n x < 256.
Proof.
  intros n H1 H2 H3 x Hx. assert (Hb : bytes [x]) by (repeat constructor; exact Hx).
  split; [exact (bits_equiv_sound [x] _ _ _ Hb H1)|].
  split; [exact (bits_equiv_sound [x] _ _ _ Hb H2)|].
  exact (high_lt_pow2 _ 8 (zero_above_sound [x] Hb _ _ H3)).
Qed.
Lemma quant8_id : forall x, x < 256 -> quant 8 x = x.
Proof.
  intros x Hx. assert (Hb : bytes [x]) by (repeat constructor; exact Hx).
  apply (bits_equiv_sound [x] WBITS (quant_e 8 (EVar 0)) (EVar 0) Hb). vm_compute. reflexivity.
Qed.

(** ** what the specification tuples compute, as plain functions on numbers *)
Lemma run_spec_565_rb_swapped : forall r g b a, run spec_565_rb_swapped [r; g; b; a] = [quant 5 b; quant 6 g; quant 5 r; 255].
Proof. reflexivity. Qed.
Lemma grey_is_floor_mean : forall r g b, 3 * grey r g b <= r + g + b < 3 * grey r g b + 3.
Proof.
  intros r g b. unfold grey. generalize (r + g + b). intros s.
  pose proof (N.div_mod s 3 ltac:(discriminate)) as H1.
  pose proof (N.mod_lt s 3 ltac:(discriminate)) as H2.
  remember (s / 3) as q. remember (s mod 3) as m. lia.
Qed.
