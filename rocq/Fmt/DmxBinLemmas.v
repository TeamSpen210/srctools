(** Basic round-trip lemmas for the binary DMX model (Fmt/DmxBin.v): little-endian integers, NUL-terminated
    strings, the [rep] combinator and the sorted string table.  Used by Fmt/DmxBinProofs.v. *)
From Coq Require Import NArith ZArith List Bool Lia.
From SV Require Import Fmt.DmxBin.
Import ListNotations.
Local Close Scope N_scope.

(** ** Lists *)
Lemma firstn_app_exact : forall A (a b : list A) n, length a = n -> firstn n (a ++ b) = a.
Proof. intros A a b n H. subst n. induction a; cbn; [destruct b; reflexivity | congruence]. Qed.

Lemma skipn_app_exact : forall A (a b : list A) n, length a = n -> skipn n (a ++ b) = b.
Proof. intros A a b n H. subst n. induction a; cbn; [reflexivity | assumption]. Qed.

Lemma ltb_app_exact : forall A (a b : list A) n, length a = n -> Nat.ltb (length (a ++ b)) n = false.
Proof. intros A a b n H. apply Nat.ltb_ge. rewrite app_length. lia. Qed.

(** ** Little-endian integers *)
Fixpoint p256 (w : nat) : N := match w with O => 1%N | S w' => (256 * p256 w')%N end.

Lemma p256_pow : forall w, Z.of_N (p256 w) = pow256 w.
Proof.
  unfold pow256. induction w.
  - reflexivity.
  - cbn [p256]. rewrite N2Z.inj_mul, IHw, Nat2Z.inj_succ, Z.pow_succ_r by lia. reflexivity.
Qed.

Lemma pow256_pos : forall w, (0 < pow256 w)%Z.
Proof. intros w. unfold pow256. apply Z.pow_pos_nonneg; lia. Qed.

Lemma le_bytes_length : forall w n, length (le_bytes w n) = w.
Proof. induction w; intros n; cbn [le_bytes length]; [reflexivity | rewrite IHw; reflexivity]. Qed.

Lemma le_val_le_bytes : forall w n, (n < p256 w)%N -> le_val (le_bytes w n) = n.
Proof.
  induction w; intros n H; cbn [le_bytes le_val p256] in *.
  - lia.
  - rewrite IHw.
    + pose proof (N.div_mod' n 256). lia.
    + apply N.div_lt_upper_bound; lia.
Qed.

Lemma put_int_length : forall w z, length (put_int w z) = w.
Proof. intros. apply le_bytes_length. Qed.

Lemma get_int_put_int : forall w z rest,
  (- (pow256 w / 2) <= z < pow256 w / 2)%Z ->
  get_int w (put_int w z ++ rest) = Some (z, rest).
Proof.
  intros w z rest Hz. unfold get_int.
  pose proof (put_int_length w z) as Hl.
  rewrite (ltb_app_exact _ _ _ _ Hl), (firstn_app_exact _ _ _ _ Hl), (skipn_app_exact _ _ _ _ Hl).
  pose proof (pow256_pos w) as HP.
  pose proof (Z.mul_div_le (pow256 w) 2 ltac:(lia)) as HH.
  pose proof (Z.mod_pos_bound z (pow256 w) HP) as Hm.
  unfold put_int. rewrite le_val_le_bytes.
  2:{ apply N2Z.inj_lt. rewrite p256_pow, Z2N.id by lia. lia. }
  rewrite Z2N.id by lia.
  set (P := pow256 w) in *. set (H := (P / 2)%Z) in *.
  assert (Hmod : (z mod P = if z <? 0 then z + P else z)%Z).
  { destruct (Z.ltb_spec z 0); symmetry; [apply (Z.mod_unique _ _ (-1)) | apply (Z.mod_unique _ _ 0)]; lia. }
  rewrite Hmod. f_equal. f_equal.
  destruct (Z.ltb_spec z 0); match goal with |- context [(?a <? ?b)%Z] => destruct (Z.ltb_spec a b) end; lia.
Qed.

Lemma pow256_2 : pow256 2 = 65536%Z. Proof. reflexivity. Qed.
Lemma pow256_4 : pow256 4 = 4294967296%Z. Proof. reflexivity. Qed.

Lemma half_pow256_4 : (pow256 4 / 2 = 2147483648)%Z. Proof. reflexivity. Qed.

Lemma get_int4_put_int4 : forall z rest, (-2147483648 <= z < 2147483648)%Z ->
  get_int 4 (put_int 4 z ++ rest) = Some (z, rest).
Proof. intros. apply get_int_put_int. rewrite half_pow256_4. lia. Qed.

Lemma int_fits_4 : forall n, int_fits 4 n -> (Z.of_nat n < 2147483648)%Z.
Proof. unfold int_fits. intros n H. rewrite half_pow256_4 in H. exact H. Qed.

Lemma int_fits_range : forall w n, int_fits w n -> (- (pow256 w / 2) <= Z.of_nat n < pow256 w / 2)%Z.
Proof. unfold int_fits. intros. lia. Qed.

Lemma get_int_put_nat : forall w n rest, int_fits w n ->
  get_int w (put_int w (Z.of_nat n) ++ rest) = Some (Z.of_nat n, rest).
Proof. intros. apply get_int_put_int, int_fits_range; assumption. Qed.

Lemma int_fits_le : forall w n m, (m <= n)%nat -> int_fits w n -> int_fits w m.
Proof. unfold int_fits. intros. lia. Qed.

(** ** NUL-terminated strings *)
Lemma get_cstr_app : forall b rest, ~ In 0%N b -> get_cstr (b ++ 0%N :: rest) = Some (b, rest).
Proof.
  induction b as [|a b IH]; intros rest H.
  - reflexivity.
  - cbn [app get_cstr]. destruct (N.eqb_spec a 0) as [E|E].
    + exfalso. apply H. left. assumption.
    + rewrite IH; [reflexivity|]. intro Hin. apply H. right. assumption.
Qed.

Lemma get_put_str : forall cenc cdec e s rest,
  str_ok cenc cdec e s -> get_str cdec e (put_str cenc e s ++ rest) = Some (s, rest).
Proof.
  intros cenc cdec e s rest [Hd Hz]. unfold get_str, put_str.
  rewrite <- app_assoc. cbn [app]. rewrite get_cstr_app by assumption. rewrite Hd. reflexivity.
Qed.

(** ** Fixed byte blocks *)
Lemma get_bytes_app : forall n b rest, length b = n -> get_bytes n (b ++ rest) = Some (b, rest).
Proof.
  intros n b rest H. unfold get_bytes.
  rewrite (ltb_app_exact _ _ _ _ H), (firstn_app_exact _ _ _ _ H), (skipn_app_exact _ _ _ _ H). reflexivity.
Qed.

Lemma read_upto_app : forall b rest, read_upto (length b) (b ++ rest) = Some (b, rest).
Proof.
  intros. unfold read_upto. rewrite (firstn_app_exact _ _ _ _ eq_refl), (skipn_app_exact _ _ _ _ eq_refl). reflexivity.
Qed.

(** ** [rep] *)
Lemma rep_flat_map_gen : forall A B (p : parser B) (w : A -> bytes) (f : A -> B) (l : list A) rest,
  Forall (fun x => forall r, p (w x ++ r) = Some (f x, r)) l ->
  rep p (length l) (flat_map w l ++ rest) = Some (map f l, rest).
Proof.
  intros A B p w f l rest H. induction H as [|x l Hx Hl IH]; cbn [length flat_map rep map app].
  - reflexivity.
  - rewrite <- app_assoc, Hx, IH. reflexivity.
Qed.

Lemma rep_flat_map : forall A (p : parser A) (w : A -> bytes) (l : list A) rest,
  Forall (fun x => forall r, p (w x ++ r) = Some (x, r)) l ->
  rep p (length l) (flat_map w l ++ rest) = Some (l, rest).
Proof.
  intros A p w l rest H. rewrite (rep_flat_map_gen A A p w (fun x => x) l rest H), map_id. reflexivity.
Qed.

Lemma concat_flat_map_id : forall (l : list bytes), concat l = flat_map (fun b => b) l.
Proof. induction l; cbn; congruence. Qed.

(** ** The string table *)
Lemma str_cmp_eq : forall a b, str_cmp a b = Eq <-> a = b.
Proof.
  induction a as [|x a IH]; destruct b as [|y b]; cbn [str_cmp]; try (split; [discriminate | discriminate]).
  - split; reflexivity.
  - destruct (N.compare_spec x y) as [E|E|E].
    + subst y. rewrite IH. split; [congruence | intros H; injection H; auto].
    + split; [discriminate | intros H; injection H; intros; lia].
    + split; [discriminate | intros H; injection H; intros; lia].
Qed.

Lemma str_cmp_refl : forall a, str_cmp a a = Eq.
Proof. intros. apply str_cmp_eq. reflexivity. Qed.

Lemma str_eqb_true : forall a b, str_eqb a b = true <-> a = b.
Proof.
  intros a b. rewrite <- str_cmp_eq. unfold str_eqb. destruct (str_cmp a b); split; congruence.
Qed.
Lemma str_eqb_refl : forall a, str_eqb a a = true.
Proof. intros a. apply str_eqb_true. reflexivity. Qed.
Lemma str_eqb_false : forall a b, str_eqb a b = false <-> a <> b.
Proof.
  intros a b. split.
  - intros E H. apply str_eqb_true in H. congruence.
  - intros H. destruct (str_eqb a b) eqn:E; [apply str_eqb_true in E; contradiction | reflexivity].
Qed.
Lemma str_eqb_sym : forall a b, str_eqb a b = str_eqb b a.
Proof.
  intros a b. destruct (str_eqb a b) eqn:E.
  - apply str_eqb_true in E. subst. symmetry. apply str_eqb_refl.
  - symmetry. apply str_eqb_false. apply str_eqb_false in E. congruence.
Qed.

Lemma tab_insert_in_new : forall s l, In s (tab_insert s l).
Proof.
  induction l as [|x l IH]; cbn [tab_insert].
  - left. reflexivity.
  - destruct (str_cmp s x) eqn:E.
    + apply str_cmp_eq in E. subst. left. reflexivity.
    + left. reflexivity.
    + right. assumption.
Qed.

Lemma tab_insert_in_old : forall s y l, In y l -> In y (tab_insert s l).
Proof.
  induction l as [|x l IH]; cbn [tab_insert]; intros H.
  - destruct H.
  - destruct (str_cmp s x).
    + assumption.
    + right. assumption.
    + destruct H as [H|H]; [left; assumption | right; auto].
Qed.

Lemma fold_tab_insert_in : forall s l, In s l -> In s (fold_right tab_insert [] l).
Proof.
  induction l as [|x l IH]; cbn [fold_right]; intros H.
  - destruct H.
  - destruct H as [H|H].
    + subst. apply tab_insert_in_new.
    + apply tab_insert_in_old. auto.
Qed.

Lemma strtab_in : forall v d s, In s (used_strings v d) -> In s (strtab v d).
Proof. intros. unfold strtab. apply fold_tab_insert_in. assumption. Qed.

Lemma index_of_in : forall s tab, In s tab ->
  exists i, index_of s tab = Some i /\ nth_error tab (N.to_nat i) = Some s /\ (N.to_nat i < length tab)%nat.
Proof.
  induction tab as [|x tab IH]; intros H.
  - destruct H.
  - cbn [index_of]. destruct (str_eqb s x) eqn:E.
    + apply str_eqb_true in E. subst x. exists 0%N. cbn. repeat split. lia.
    + destruct H as [H|H]; [subst x; rewrite str_eqb_refl in E; discriminate|].
      destruct (IH H) as (i & Hi & Hn & Hl). exists (N.succ i). rewrite Hi. split; [reflexivity|].
      rewrite N2Nat.inj_succ. cbn [nth_error length]. split; [assumption | lia].
Qed.

Lemma get_put_tabref : forall v tab s rest,
  In s tab -> int_fits (db_ind_w v) (length tab) ->
  get_tabref v tab (put_tabref v tab s ++ rest) = Some (s, rest).
Proof.
  intros v tab s rest Hin Hfit. unfold get_tabref, put_tabref.
  destruct (index_of_in s tab Hin) as (i & Hi & Hn & Hl). rewrite Hi.
  rewrite get_int_put_int.
  2:{ pose proof (int_fits_range _ _ Hfit). lia. }
  replace (Z.of_N i <? 0)%Z with false by (symmetry; apply Z.ltb_ge; lia).
  replace (Z.to_nat (Z.of_N i)) with (N.to_nat i) by lia.
  rewrite Hn. reflexivity.
Qed.
