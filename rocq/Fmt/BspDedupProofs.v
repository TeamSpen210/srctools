(** A de-duplicating index table hands back, for every requested item, an index whose record is the requested record --
    for every sequence of requests and every initial table -- as soon as the key determines the record.  A key that
    reads only part of the record is refuted by a computed witness (Props/C11.v, on the objects [td_a], [td_b] below). *)
From Coq Require Import List String NArith ZArith Bool PeanoNat Lia.
From SV Require Import Bin.LE Bin.Struct Bin.StructProofs Bin.FindInsertProofs Fmt.BspDedup.
Import ListNotations.
Open Scope string_scope.
Open Scope list_scope.

Section Generic.
  Variables (A K : Type) (key : A -> K) (keq : K -> K -> bool).
  Hypothesis keq_spec : forall a b, keq a b = true <-> a = b.
  Variable U : A -> Prop.            (* the items in play: the initial table and every request *)
  Variable R : A -> A -> Prop.       (* "stored item y stands for requested item x" *)
  Hypothesis R_refl : forall x, R x x.
  Hypothesis key_det : forall x y, U x -> U y -> key y = key x -> R y x.

  Definition dinv (s : dstate A K) : Prop :=
    (forall k i, dlookup keq k (snd s) = Some i -> exists y, nth_error (fst s) i = Some y /\ key y = k) /\
    (forall y, In y (fst s) -> U y).

  Lemma dbuild_inv : forall l pre d,
    (forall k i, dlookup keq k d = Some i -> exists y, nth_error (pre ++ l) i = Some y /\ key y = k) ->
    forall k i, dlookup keq k (dbuild key (List.length pre) l d) = Some i ->
      exists y, nth_error (pre ++ l) i = Some y /\ key y = k.
  Proof.
    induction l as [|x l IH]; intros pre d Hd k i H; cbn [dbuild] in H.
    - auto.
    - replace (pre ++ x :: l) with ((pre ++ [x]) ++ l) in * by (rewrite <- app_assoc; reflexivity).
      apply (IH (pre ++ [x]) ((key x, List.length pre) :: d)).
      + intros k' i' H'. cbn [dlookup] in H'. destruct (keq k' (key x)) eqn:E.
        * injection H' as <-. apply keq_spec in E. subst k'. exists x. split; [|reflexivity].
          rewrite <- app_assoc. apply nth_error_snoc.
        * auto.
      + rewrite app_length. cbn [List.length]. replace (List.length pre + 1)%nat with (S (List.length pre)) by lia. exact H.
  Qed.

  Lemma dd_init_inv : forall l, (forall y, In y l -> U y) -> dinv (dd_init key l).
  Proof.
    intros l HU. split; [|exact HU]. intros k i H. unfold dd_init in *. cbn [fst snd] in *.
    apply (dbuild_inv l [] []); [intros ? ? E; discriminate E | exact H].
  Qed.

  Lemma dd_find_sound : forall s x s' i, dinv s -> U x -> dd_find key keq s x = (s', i) ->
    (exists y, nth_error (fst s') i = Some y /\ R y x) /\ dinv s' /\ exists ext, fst s' = fst s ++ ext.
  Proof.
    intros s x s' i [Hd HU] Hx H. unfold dd_find in H. destruct (dlookup keq (key x) (snd s)) as [j|] eqn:E.
    - injection H as <- <-. destruct (Hd _ _ E) as (y & Hy & Hk). split.
      + exists y. split; [exact Hy|]. apply key_det; [exact Hx | apply HU; eapply nth_error_In; exact Hy | exact Hk].
      + split; [split; assumption|]. exists []. rewrite app_nil_r. reflexivity.
    - injection H as <- <-. cbn [fst snd]. split.
      + exists x. split; [apply nth_error_snoc | apply R_refl].
      + split; [split|].
        * intros k' i' H'. cbn [dlookup fst snd] in H'. destruct (keq k' (key x)) eqn:E'.
          -- injection H' as <-. apply keq_spec in E'. subst k'. exists x. split; [apply nth_error_snoc | reflexivity].
          -- destruct (Hd _ _ H') as (y & Hy & Hk). exists y. split; [apply nth_error_ext; exact Hy | exact Hk].
        * intros y Hy. apply in_app_or in Hy. destruct Hy as [Hy|[<-|[]]]; [apply HU; exact Hy | exact Hx].
        * eexists; reflexivity.
  Qed.

  Lemma dd_run_sound : forall xs s s' is, dinv s -> (forall x, In x xs -> U x) -> dd_run key keq s xs = (s', is) ->
    Forall2 (fun x i => exists y, nth_error (fst s') i = Some y /\ R y x) xs is /\ dinv s' /\ exists ext, fst s' = fst s ++ ext.
  Proof.
    induction xs as [|x r IH]; intros s s' is Hinv HU H; cbn [dd_run] in H.
    - injection H as <- <-. split; [constructor|]. split; [exact Hinv|]. exists []. rewrite app_nil_r. reflexivity.
    - destruct (dd_find key keq s x) as [s1 i] eqn:E1. destruct (dd_run key keq s1 r) as [s2 is2] eqn:E2. injection H as <- <-.
      destruct (dd_find_sound _ _ _ _ Hinv (HU x (or_introl eq_refl)) E1) as ((y & Hy & HR) & Hinv1 & ext1 & Hx1).
      destruct (IH _ _ _ Hinv1 (fun z Hz => HU z (or_intror Hz)) E2) as (Hf & Hinv2 & ext2 & Hx2).
      split; [|split; [exact Hinv2|]].
      + constructor; [|exact Hf]. exists y. split; [|exact HR]. rewrite Hx2. apply nth_error_ext. exact Hy.
      + exists (ext1 ++ ext2). rewrite Hx2, Hx1, app_assoc. reflexivity.
  Qed.
End Generic.

(** The table for an arbitrary item type: if equal keys imply that the stored item stands for the requested one
    (relation [R], reflexive), every request is answered by an index holding such an item, and the initial table is kept. *)
Theorem dedup_table_sound : forall (A K : Type) (key : A -> K) (keq : K -> K -> bool) (R : A -> A -> Prop),
  (forall a b, keq a b = true <-> a = b) -> (forall x, R x x) ->
  forall l xs, (forall x y, In x (l ++ xs) -> In y (l ++ xs) -> key y = key x -> R y x) ->
  forall s' is, dd_run key keq (dd_init key l) xs = (s', is) ->
  Forall2 (fun x i => exists y, nth_error (fst s') i = Some y /\ R y x) xs is /\ exists ext, fst s' = l ++ ext.
Proof.
  intros A K key keq R Hk Hr l xs Hdet s' is H.
  destruct (dd_run_sound A K key keq Hk (fun x => In x (l ++ xs)) R Hr Hdet xs (dd_init key l) s' is) as (Hf & _ & Hext).
  - apply dd_init_inv; [exact Hk|]. intros y Hy. apply in_or_app. left. exact Hy.
  - intros x Hx. apply in_or_app. right. exact Hx.
  - exact H.
  - split; [exact Hf | exact Hext].
Qed.

(** * Key specifications *)
Lemma on_eqb_spec : forall a b, on_eqb a b = true <-> a = b.
Proof.
  intros [x|] [y|]; cbn; split; intro H; try discriminate; try reflexivity.
  - apply N.eqb_eq in H. subst. reflexivity.
  - injection H as <-. apply N.eqb_refl.
Qed.
Lemma onl_eqb_spec : forall a b, onl_eqb a b = true <-> a = b.
Proof.
  induction a as [|x a IH]; intros [|y b]; cbn; split; intro H; try discriminate; try reflexivity.
  - apply andb_prop in H. destruct H as [H1 H2]. apply on_eqb_spec in H1. apply IH in H2. subst. reflexivity.
  - injection H as <- <-. apply andb_true_intro. split; [apply on_eqb_spec | apply IH]; reflexivity.
Qed.
Lemma rec_eqb_spec : forall a b, rec_eqb a b = true <-> a = b.
Proof.
  induction a as [|[f x] a IH]; intros [|[g y] b]; cbn; split; intro H; try discriminate; try reflexivity.
  - apply andb_prop in H. destruct H as [H12 H3]. apply andb_prop in H12. destruct H12 as [H1 H2].
    apply String.eqb_eq in H1. apply N.eqb_eq in H2. apply IH in H3. subst. reflexivity.
  - injection H as <- <- <-. rewrite String.eqb_refl, N.eqb_refl. cbn. apply IH. reflexivity.
Qed.
Lemma keyval_eqb_spec : forall a b, keyval_eqb a b = true <-> a = b.
Proof.
  intros [x|x|x] [y|y|y]; cbn; split; intro H; try discriminate.
  - apply N.eqb_eq in H. subst. reflexivity.
  - injection H as <-. apply N.eqb_refl.
  - apply rec_eqb_spec in H. subst. reflexivity.
  - injection H as <-. apply rec_eqb_spec. reflexivity.
  - apply onl_eqb_spec in H. subst. reflexivity.
  - injection H as <-. apply onl_eqb_spec. reflexivity.
Qed.

Lemma nodup_strs_NoDup : forall l, nodup_strs l = true -> NoDup l.
Proof.
  induction l as [|x l IH]; intro H; [constructor|]. cbn in H. apply andb_prop in H. destruct H as [H1 H2].
  constructor; [|apply IH; exact H2]. intro Hin. apply negb_true_iff in H1.
  assert (existsb (String.eqb x) l = true) as E by (apply existsb_exists; exists x; split; [exact Hin | apply String.eqb_refl]).
  rewrite E in H1. discriminate.
Qed.

Lemma assoc_f_in : forall f r, In f (map fst r) -> exists v, assoc_f f r = Some v.
Proof.
  induction r as [|[g v] r IH]; intro H; [destruct H|]. cbn [assoc_f]. destruct (String.eqb f g) eqn:E; [eexists; reflexivity|].
  cbn in H. destruct H as [H|H]; [subst g; rewrite String.eqb_refl in E; discriminate | apply IH; exact H].
Qed.

Lemma rec_ext : forall r r', NoDup (map fst r) -> map fst r = map fst r' ->
  (forall f, In f (map fst r) -> assoc_f f r = assoc_f f r') -> r = r'.
Proof.
  induction r as [|[f v] r IH]; intros [|[g w] r'] Hnd Hm Ha; try discriminate; [reflexivity|].
  cbn in Hm. injection Hm as <- Hm. inversion Hnd as [|? ? Hnot Hnd']; subst.
  assert (v = w) as ->.
  { specialize (Ha f (or_introl eq_refl)). cbn [assoc_f] in Ha. rewrite String.eqb_refl in Ha. injection Ha as ->. reflexivity. }
  f_equal. apply IH; [exact Hnd' | exact Hm|]. intros h Hh. specialize (Ha h (or_intror Hh)). cbn [assoc_f] in Ha.
  destruct (String.eqb h f) eqn:E; [apply String.eqb_eq in E; subst h; contradiction | exact Ha].
Qed.

Lemma map_eq_pointwise : forall (X Y : Type) (F G : X -> Y) l, map F l = map G l -> forall x, In x l -> F x = G x.
Proof. intros X Y F G l. apply map_ext_in_iff. Qed.

(** Equal keys, for a key that passes [key_determines], mean equal records. *)
Lemma key_determines_record : forall admitted fields k tr (Uo : obj -> Prop),
  key_determines admitted fields k = true ->
  (forall v, tr "" v = v) ->
  (forall o, Uo o -> map fst (snd o) = fields) ->
  (forall o o', Uo o -> Uo o' -> fst o = fst o' -> o = o') ->
  (forall t, In t admitted -> forall o o' f v v', Uo o -> Uo o' ->
     assoc_f f (snd o) = Some v -> assoc_f f (snd o') = Some v' -> tr t v = tr t v' -> v = v') ->
  forall x y, Uo x -> Uo y -> key_sem tr k y = key_sem tr k x -> snd y = snd x.
Proof.
  intros admitted fields k tr Uo Hk Htr Hf Hid Hadm x y Hx Hy E. destruct k as [| |fs]; cbn [key_sem] in E.
  - injection E as E. rewrite (Hid y x Hy Hx E). reflexivity.
  - injection E as E. exact E.
  - injection E as E. cbn [key_determines] in Hk. apply andb_prop in Hk. destruct Hk as [Hnd Hcov].
    apply nodup_strs_NoDup in Hnd. apply rec_ext.
    + rewrite (Hf y Hy). exact Hnd.
    + rewrite (Hf y Hy), (Hf x Hx). reflexivity.
    + intros f Hin. rewrite (Hf y Hy) in Hin. rewrite forallb_forall in Hcov. specialize (Hcov f Hin).
      apply existsb_exists in Hcov. destruct Hcov as ([g t] & Hft & Hc). cbn [fst snd] in Hc.
      apply andb_prop in Hc. destruct Hc as [Hg Ht]. apply String.eqb_eq in Hg. subst g.
      pose proof (map_eq_pointwise _ _ _ _ _ E (f, t) Hft) as Ep. cbn [fst snd] in Ep.
      destruct (assoc_f_in f (snd y)) as [v Hv]; [rewrite (Hf y Hy); exact Hin|].
      destruct (assoc_f_in f (snd x)) as [w Hw]; [rewrite (Hf x Hx); exact Hin|].
      rewrite Hv, Hw in *. cbn [option_map] in Ep. injection Ep as Ep. f_equal.
      apply orb_prop in Ht. destruct Ht as [Ht|Ht].
      * apply String.eqb_eq in Ht. subst t. rewrite !Htr in Ep. exact Ep.
      * apply existsb_exists in Ht. destruct Ht as (t' & Hin' & Et). apply String.eqb_eq in Et. subst t'.
        exact (Hadm t Hin' y x f v w Hy Hx Hv Hw Ep).
Qed.

(** The whole table: with a key that passes [key_determines], for any initial table and any sequence of requested
    objects of the class, the record stored at the index handed out for an object is that object's record. *)
Theorem dedup_key_roundtrip : forall admitted fields k tr l xs,
  key_determines admitted fields k = true ->
  (forall v, tr "" v = v) ->
  (forall o, In o (l ++ xs) -> map fst (snd o) = fields) ->
  (forall o o', In o (l ++ xs) -> In o' (l ++ xs) -> fst o = fst o' -> o = o') ->
  (forall t, In t admitted -> forall o o' f v v', In o (l ++ xs) -> In o' (l ++ xs) ->
     assoc_f f (snd o) = Some v -> assoc_f f (snd o') = Some v' -> tr t v = tr t v' -> v = v') ->
  forall s' is, dd_run (key_sem tr k) keyval_eqb (dd_init (key_sem tr k) l) xs = (s', is) ->
  Forall2 (fun o i => read_back (fst s') i = Some (snd o)) xs is /\ exists ext, fst s' = l ++ ext.
Proof.
  intros admitted fields k tr l xs Hk Htr Hf Hid Hadm s' is H.
  destruct (dedup_table_sound obj keyval (key_sem tr k) keyval_eqb (fun y x => snd y = snd x) keyval_eqb_spec
              (fun _ => eq_refl) l xs) with (s' := s') (is := is) as [HF Hext].
  - intros x y Hx Hy E. exact (key_determines_record admitted fields k tr (fun o => In o (l ++ xs)) Hk Htr Hf Hid Hadm x y Hx Hy E).
  - exact H.
  - split; [|exact Hext]. clear -HF. induction HF as [|x i xs' is' (y & Hy & HR) _ IH]; constructor; [|exact IH].
    unfold read_back. rewrite Hy. cbn [option_map]. rewrite HR. reflexivity.
Qed.

(** Two texture-data records with one material name and different sizes: the witnesses of
    [c11_dedup_key_by_name_refuted] (Props/C11.v), where a key that reads only the name gives both one index. *)
Definition td_fields : list string := ["mat"; "width"].
Definition td_a : obj := (1%N, [("mat", 7%N); ("width", 512%N)]).
Definition td_b : obj := (2%N, [("mat", 7%N); ("width", 1024%N)]).

(** The reference as it travels through the file: the index handed out by the table is packed into an integer field of the
    referring record ([texinfo.texdata], [face.planenum], ...), unpacked by the reader and used to index the table that was
    written.  If the index fits the field (otherwise struct raises: [pack_rejects]) the referring record gets back the record
    of the object it referred to. *)
Theorem reference_roundtrip : forall admitted fields k tr l xs sg w,
  key_determines admitted fields k = true ->
  (forall v, tr "" v = v) ->
  (forall o, In o (l ++ xs) -> map fst (snd o) = fields) ->
  (forall o o', In o (l ++ xs) -> In o' (l ++ xs) -> fst o = fst o' -> o = o') ->
  (forall t, In t admitted -> forall o o' f v v', In o (l ++ xs) -> In o' (l ++ xs) ->
     assoc_f f (snd o) = Some v -> assoc_f f (snd o') = Some v' -> tr t v = tr t v' -> v = v') ->
  (0 < w)%nat ->
  forall s' is, dd_run (key_sem tr k) keyval_eqb (dd_init (key_sem tr k) l) xs = (s', is) ->
  Forall (fun i => in_range sg w (Z.of_nat i) = true) is ->
  Forall2 (fun o i => exists bs, pack [KInt sg w] [VInt (Z.of_nat i)] = Some bs /\
                                 exists z, unpack [KInt sg w] bs = Some [VInt z] /\ read_back (fst s') (Z.to_nat z) = Some (snd o)) xs is.
Proof.
  intros admitted fields k tr l xs sg w Hk Htr Hf Hid Hadm Hw s' is H Hfit.
  destruct (dedup_key_roundtrip admitted fields k tr l xs Hk Htr Hf Hid Hadm s' is H) as [HF _].
  clear - HF Hfit Hw. induction HF as [|o i xs' is' Hrb _ IH]; [constructor|].
  inversion Hfit as [|? ? Hi Hfit']; subst. constructor; [|apply IH; exact Hfit'].
  destruct (unpack_pack [KInt sg w] [VInt (Z.of_nat i)]) as (bs & Hp & Hu).
  - unfold wf_fmt, wf_kind. cbn [forallb]. apply Nat.ltb_lt in Hw. rewrite Hw. reflexivity.
  - cbn [fits fits1]. rewrite Hi. reflexivity.
  - exists bs. split; [exact Hp|]. exists (Z.of_nat i). split; [exact Hu|]. rewrite Nat2Z.id. exact Hrb.
Qed.
