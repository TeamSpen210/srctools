(** The two name helpers of vpk.py as objects read from the source (Gen/VpkNames_gen.v, translate/c13_names.py):

    - [_join_file_parts] executed on symbolic strings for the eight combinations "path empty? / stem empty? / extension empty?":
      one [jrow] per combination holding the pieces of the result in order ([g_join_table]);
    - [_get_file_parts] executed for the three name forms (string, 2-tuple, 3-tuple) with relative_to = '': where folder, file name and
      extension come from before the split statement, whether the split statement is reached, the chain of string operations applied to
      the folder, the order of the returned triple ([g_parts], a [gparts]).

    Both get a meaning here ([join_k], [file_parts_g]); VpkNameJoinProofs.v shows that every object accepted by [join_table_ok] /
    [gparts_ok] is [join_parts] / [file_parts_k] of the hand model on all inputs, and that joining inverts splitting on the names that can
    be listed. *)
From Coq Require Import List NArith Bool.
From SV Require Import Fmt.VpkDir Fmt.VpkName Fmt.VpkNameSplit.
Import ListNotations.
Open Scope N_scope.

(** ---- _join_file_parts ---- *)
Inductive jpiece := JPath | JName | JExt | JLit (b : bytes).
Record jrow := mkJRow { j_pe : bool; j_ne : bool; j_ee : bool; j_out : list jpiece }.

Definition jnil {A} (l : list A) : bool := match l with [] => true | _ => false end.

Definition jpiece_val (k : key) (p : jpiece) : bytes :=
  let '(e, d, n) := k in match p with JPath => d | JName => n | JExt => e | JLit b => b end.
Definition jeval (k : key) (ps : list jpiece) : bytes := flat_map (jpiece_val k) ps.

Definition jrow_matches (k : key) (r : jrow) : bool :=
  let '(e, d, n) := k in Bool.eqb (j_pe r) (jnil d) && Bool.eqb (j_ne r) (jnil n) && Bool.eqb (j_ee r) (jnil e).

(** the meaning of a table: the row of the key's emptiness pattern, evaluated; [None] = no such row *)
Definition join_k (tb : list jrow) (k : key) : option bytes :=
  match find (jrow_matches k) tb with Some r => Some (jeval k (j_out r)) | None => None end.

(** pieces as atoms: a part that is empty in the row's scenario contributes nothing, literals are spelled out byte by byte *)
Inductive jatom := APath | AName | AExt | AByte (b : N).
Definition jatoms (pe ne ee : bool) (p : jpiece) : list jatom :=
  match p with
  | JPath => if pe then [] else [APath]
  | JName => if ne then [] else [AName]
  | JExt => if ee then [] else [AExt]
  | JLit b => map AByte b
  end.
Definition jatom_eqb (a b : jatom) : bool :=
  match a, b with APath, APath | AName, AName | AExt, AExt => true | AByte x, AByte y => x =? y | _, _ => false end.
Fixpoint jatoms_eqb (a b : list jatom) : bool :=
  match a, b with [] , [] => true | x :: a', y :: b' => jatom_eqb x y && jatoms_eqb a' b' | _, _ => false end.

(** what the result has to be: folder and '/' when there is a folder, the stem, '.' and the extension when there is an extension *)
Definition want_atoms (pe ne ee : bool) : list jatom :=
  (if pe then [] else [APath; AByte 47]) ++ (if ne then [] else [AName]) ++ (if ee then [] else [AByte 46; AExt]).

Definition jrow_ok (r : jrow) : bool :=
  jatoms_eqb (flat_map (jatoms (j_pe r) (j_ne r) (j_ee r)) (j_out r)) (want_atoms (j_pe r) (j_ne r) (j_ee r)).
Definition all_jscen : list (bool * bool * bool) :=
  [(false, false, false); (false, false, true); (false, true, false); (false, true, true);
   (true, false, false); (true, false, true); (true, true, false); (true, true, true)].
Definition join_table_ok (tb : list jrow) : bool :=
  forallb jrow_ok tb
  && forallb (fun s => let '(pe, ne, ee) := s in
                existsb (fun r => Bool.eqb (j_pe r) pe && Bool.eqb (j_ne r) ne && Bool.eqb (j_ee r) ee) tb) all_jscen.

(** the pinned code: f"{path}{'/' if path else ''}{filename}{'.' if ext else ''}{ext}" *)
Definition jrow_pinned (pe ne ee : bool) : jrow :=
  mkJRow pe ne ee [JPath; JLit (if pe then [] else [47]); JName; JLit (if ee then [] else [46]); JExt].
Definition join_table_pinned : list jrow := map (fun s => let '(pe, ne, ee) := s in jrow_pinned pe ne ee) all_jscen.
(** seeded fault c13_5: '/'.join(filter(None, (path, filename))) + '.ext' — the separator goes with the blank stem *)
Definition jrow_c13_5 (pe ne ee : bool) : jrow :=
  mkJRow pe ne ee ([JPath; JLit (if pe || ne then [] else [47]); JName] ++ (if ee then [] else [JLit [46]; JExt])).
Definition join_table_c13_5 : list jrow := map (fun s => let '(pe, ne, ee) := s in jrow_c13_5 pe ne ee) all_jscen.

(** ---- _get_file_parts ---- *)
Inductive psrc := SHead | STail | SElem (i : N) | SEmpty.
Inductive pathop := PRepl (a b : N) | PNorm | PRstrip (c : N) | PDotEmpty.
Record gparts := mkGParts {
  gp_str : psrc * psrc * psrc;          (* (folder, file name, extension) before the split statement, for a string *)
  gp_pair : psrc * psrc * psrc;         (* for a 2-tuple *)
  gp_triple : psrc * psrc * psrc;       (* for a 3-tuple *)
  gp_split : bool;                      (* the split statement `if not ext and c in filename: filename, ext = ...` is reached, on (file name, extension) *)
  gp_chain : list pathop;               (* operations applied to the folder, in order *)
  gp_ret_ok : bool }.                   (* the function returns (folder, file name, extension) *)

Definition form_elems (f : nameform) : list bytes :=
  match f with NStr s => [s] | NPair d x => [d; x] | NTriple d n e => [d; n; e] end.
Definition psrc_val (f : nameform) (s : psrc) : bytes :=
  match s with
  | SHead => match f with NStr x => fst (split_path x) | _ => [] end
  | STail => match f with NStr x => snd (split_path x) | _ => [] end
  | SElem i => nth (N.to_nat i) (form_elems f) []
  | SEmpty => []
  end.
Definition pathop_val (normpath : bytes -> bytes) (o : pathop) (p : bytes) : bytes :=
  match o with
  | PRepl a b => map (fun x => if x =? a then b else x) p
  | PNorm => normpath p
  | PRstrip c => rstrip c p
  | PDotEmpty => match p with [46] => [] | _ => p end
  end.

Definition file_parts_g (normpath : bytes -> bytes) (k : split_kind) (g : gparts) (f : nameform) : key :=
  let '(sp, sn, se) := match f with NStr _ => gp_str g | NPair _ _ => gp_pair g | NTriple _ _ _ => gp_triple g end in
  let '(n, e) := if gp_split g then split_ext_k k (psrc_val f sn) (psrc_val f se) else (psrc_val f sn, psrc_val f se) in
  (e, fold_left (fun p o => pathop_val normpath o p) (gp_chain g) (psrc_val f sp), n).

Definition gparts_pinned : gparts :=
  mkGParts (SHead, STail, SEmpty) (SElem 0, SElem 1, SEmpty) (SElem 0, SElem 1, SElem 2) true
           [PRepl 92 47; PNorm; PRepl 92 47; PRstrip 47; PDotEmpty] true.

Definition psrc_eq_dec (a b : psrc) : {a = b} + {a <> b}.
Proof. decide equality; apply N.eq_dec. Defined.
Definition pathop_eq_dec (a b : pathop) : {a = b} + {a <> b}.
Proof. decide equality; apply N.eq_dec. Defined.
Definition gparts_eq_dec (a b : gparts) : {a = b} + {a <> b}.
Proof.
  decide equality; try apply Bool.bool_dec; try (apply list_eq_dec; apply pathop_eq_dec);
  repeat (decide equality; try apply psrc_eq_dec).
Defined.
Definition gparts_ok (g : gparts) : bool := if gparts_eq_dec g gparts_pinned then true else false.

(** a 3-tuple whose extension is ignored (taken as '') — a nearby wrong shape *)
Definition gparts_triple_ext_dropped : gparts :=
  mkGParts (SHead, STail, SEmpty) (SElem 0, SElem 1, SEmpty) (SElem 0, SElem 1, SEmpty) true
           [PRepl 92 47; PNorm; PRepl 92 47; PRstrip 47; PDotEmpty] true.

(** ---- names that can be listed ---- *)
Definition jhas (c : N) (s : bytes) : bool := existsb (fun x => x =? c) s.
(** A key whose listed name resolves back to it: the folder is already in the form _get_file_parts returns, stem and extension contain
    no '/', the extension no '.', and a stem containing '.' has an extension (the carve-out: keys with extension '' and a '.' in the stem
    are what names ending in '.' are stored as — known finding name-trailing-dot). *)
Definition key_listable (normpath : bytes -> bytes) (k : key) : Prop :=
  let '(e, d, n) := k in
  norm_dir normpath d = d /\ jhas 47 n = false /\ jhas 47 e = false /\ jhas 46 e = false /\ (e = [] -> jhas 46 n = false).
