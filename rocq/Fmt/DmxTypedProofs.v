(** C14 — proofs about typed DMX documents (Fmt/DmxTyped.v). *)
From Coq Require Import NArith ZArith QArith List Bool Lia.
From SV Require Import Bin.Struct Fmt.DmxCodes Fmt.DmxCodesProofs Fmt.DmxBin Fmt.DmxScalar Fmt.DmxScalarProofs Fmt.DmxTyped.
Import ListNotations.

Lemma mapM_roundtrip {A B} (f : A -> option B) (g : B -> option A) (P : A -> Prop) (Q : B -> Prop) :
  (forall a, P a -> exists b, f a = Some b /\ g b = Some a /\ Q b) ->
  forall l, Forall P l -> exists l', mapM f l = Some l' /\ mapM g l' = Some l /\ Forall Q l'.
Proof.
  intros H. induction 1 as [|a r Ha _ IH].
  - exists []. repeat split. constructor.
  - destruct (H a Ha) as (b & Hf & Hg & Hq). destruct IH as (r' & Hfr & Hgr & Hqr).
    exists (b :: r'). cbn [mapM]. rewrite Hf, Hfr, Hg, Hgr. repeat split. now constructor.
Qed.

Section TypedProofs.
  Variable fmul fdiv : Q -> Q -> Q.
  Variable anorm : N -> N.
  Variable scfg : scalarcfg.
  Variable cfg : dmxcfg.
  Hypothesis Hs : scalar_cfg_ok scfg = true.
  Hypothesis Hsz : sizes_match_formats scfg cfg = true.
  Hypothesis Hstd : std_model_on_ticks fmul fdiv (sc_time_div scfg).
  Hypothesis Hanorm : forall b, (b < ANGLE_360)%N -> anorm b = b.

  Lemma fixed_size t : is_var_type t = false ->
    exists sz, size_of cfg t = Some sz /\ N.to_nat sz = calcsize (wire_kinds t).
  Proof.
    intros Ht.
    destruct (cfg_parts scfg Hs) as [Hl _]. destruct (layout_fmt scfg t Hl Ht) as (f & Hf & Hk).
    pose proof Hsz as Hz. unfold sizes_match_formats in Hz. rewrite forallb_forall in Hz. specialize (Hz t (in_fixed_types t Ht)).
    rewrite Hf in Hz. cbn [opt_test] in Hz. apply opt_test_some in Hz. destruct Hz as (sz & Hsz' & Hz).
    apply N.eqb_eq in Hz. exists sz. split; [exact Hsz'|]. rewrite Hz, Hk. apply Nnat.Nat2N.id.
  Qed.

  Lemma val_roundtrip v : tval_rep fdiv scfg v ->
    exists d, lower_val fmul scfg v = Some d /\ lift_val fdiv anorm scfg d = Some v /\ aval_sized cfg d.
  Proof.
    destruct v as [s|s|s|t s]; cbn [tval_rep lower_val lift_val]; intros Hrep;
      try (eexists; repeat split; exact I).
    destruct Hrep as [Ht Hrep]. destruct (fixed_size t Ht) as (sz & Hsz' & Hn).
    assert (Hitem : forall x, sval_rep fdiv scfg t x -> exists b, encode_sval fmul scfg t x = Some b /\
                      decode_sval fdiv anorm scfg t b = Some x /\ List.length b = N.to_nat sz).
    { intros x Hx. destruct (scalar_codec_roundtrip_gen fmul fdiv anorm scfg Hs Hstd Hanorm t x Hx) as (b & He & Hl & Hd).
      exists b. repeat split; try assumption. lia. }
    destruct s as [x|l]; cbn [items shape_mapM] in *.
    - inversion Hrep as [|? ? Hx _]; subst. destruct (Hitem x Hx) as (b & He & Hd & Hl).
      exists (VFix t (Scalar b)). rewrite He. cbn [option_map shape_mapM lift_val]. rewrite Hd. repeat split.
      exists sz. split; [assumption|]. cbn [items]. now constructor.
    - destruct (mapM_roundtrip _ _ _ (fun b => List.length b = N.to_nat sz) Hitem l Hrep) as (l' & Hf & Hg & Hq).
      exists (VFix t (Array l')). rewrite Hf. cbn [option_map shape_mapM lift_val]. rewrite Hg. repeat split.
      exists sz. split; assumption.
  Qed.

  Lemma attr_roundtrip a : tval_rep fdiv scfg (ta_data a) ->
    exists b, lower_attr fmul scfg a = Some b /\ lift_attr fdiv anorm scfg b = Some a /\ aval_sized cfg (adata b).
  Proof.
    intros H. destruct (val_roundtrip _ H) as (d & Hl & Hu & Hz). destruct a as [nm v]. cbn [ta_data] in *.
    exists {| aname := nm; adata := d |}. unfold lower_attr, lift_attr. cbn [ta_name ta_data aname adata].
    rewrite Hl, Hu. repeat split. exact Hz.
  Qed.

  Lemma elem_roundtrip e : Forall (fun a => tval_rep fdiv scfg (ta_data a)) (te_attrs e) ->
    exists b, lower_elem fmul scfg e = Some b /\ lift_elem fdiv anorm scfg b = Some e /\
              Forall (fun a => aval_sized cfg (adata a)) (eattrs b).
  Proof.
    intros H. destruct (mapM_roundtrip _ _ _ (fun b => aval_sized cfg (adata b)) attr_roundtrip _ H) as (l' & Hf & Hg & Hq).
    destruct e as [ty nm u attrs]. cbn [te_attrs] in *.
    exists {| etype := ty; ename := nm; euuid := u; eattrs := l' |}. unfold lower_elem, lift_elem.
    cbn [te_type te_name te_uuid te_attrs etype ename euuid eattrs]. rewrite Hf, Hg. repeat split. exact Hq.
  Qed.

  (** Packing every fixed-width value of a typed document and unpacking the result gives the document back, and every
      packed item has the size the configuration's SIZES table promises the reader. *)
  Theorem typed_lift_lower td : tdoc_rep fdiv scfg td ->
    exists d, lower_doc fmul scfg td = Some d /\ lift_doc fdiv anorm scfg d = Some td /\ doc_sized cfg d.
  Proof. intros H. exact (mapM_roundtrip _ _ _ _ elem_roundtrip td H). Qed.
End TypedProofs.

(** The premises are satisfiable: the example document's values are representable (binary64 arithmetic as [rn64]) and it
    lowers to a document whose matrix item has 64 bytes. *)
Example typed_example :
  tdoc_rep fdiv64 pinned_scalar ex_tdoc /\
  match lower_doc fmul64 pinned_scalar ex_tdoc with
  | Some [e] => match nth 3 (eattrs e) {| aname := []; adata := VBin (Array []) |} with
                | {| adata := VFix TMatrix (Scalar b) |} => List.length b = 64%nat
                | _ => False
                end
  | _ => False
  end.
Proof.
  split.
  - unfold tdoc_rep, ex_tdoc. apply Forall_cons; [|apply Forall_nil]. cbn [te_attrs].
    apply Forall_cons; [cbn [ta_data tval_rep items]; split; [reflexivity|apply Forall_cons; [reflexivity|apply Forall_nil]]|].
    apply Forall_cons; [cbn [ta_data tval_rep items]; split; [reflexivity|
                          apply Forall_cons; [exists 3%Z; split; [reflexivity|vm_compute; reflexivity]|apply Forall_nil]]|].
    apply Forall_cons; [cbn [ta_data tval_rep items]; split; [reflexivity|
                          apply Forall_cons; [reflexivity|apply Forall_cons; [reflexivity|apply Forall_nil]]]|].
    apply Forall_cons; [cbn [ta_data tval_rep items]; split; [reflexivity|
                          apply Forall_cons; [split; reflexivity|apply Forall_nil]]|].
    apply Forall_cons; [exact I|apply Forall_nil].
  - vm_compute. reflexivity.
Qed.
