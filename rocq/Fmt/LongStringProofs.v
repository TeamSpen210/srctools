(** C16 — proofs about Fmt/LongString.v: the reader inverts the writer for every text. *)
From Coq Require Import List NArith Arith Bool Lia.
From SV Require Import Fmt.LongString.
Import ListNotations.
Open Scope N_scope.

Lemma memN_true c l : memN c l = true <-> In c l.
Proof.
  induction l as [|x r IH]; cbn [memN In]; [split; [discriminate|tauto]|].
  rewrite orb_true_iff, IH, N.eqb_eq. tauto.
Qed.
Lemma memN_false c l : memN c l = false <-> ~ In c l.
Proof. rewrite <- memN_true. destruct (memN c l); split; congruence. Qed.
Lemma memN_app c a b : memN c (a ++ b) = memN c a || memN c b.
Proof. induction a as [|x r IH]; cbn [memN app]; [reflexivity|]. rewrite IH, orb_assoc. reflexivity. Qed.

Lemma nth_error_firstn_Some {A} (l : list A) n k x : nth_error (firstn n l) k = Some x -> nth_error l k = Some x.
Proof.
  revert n k. induction l as [|y r IH]; intros [|n] [|k]; cbn; try discriminate; auto. apply IH.
Qed.
Lemma firstn_S_nth {A} (l : list A) k x : nth_error l k = Some x -> firstn (S k) l = firstn k l ++ [x].
Proof.
  revert k. induction l as [|y r IH]; intros [|k]; cbn; try discriminate.
  - intros [= ->]. reflexivity.
  - intros H. f_equal. apply IH, H.
Qed.

Lemma rfind2_aux_spec a b l : forall i best r,
  rfind2_aux a b l i best = Some r ->
  best = Some r \/ (exists k, r = (i + k)%nat /\ nth_error l k = Some a /\ nth_error l (S k) = Some b).
Proof.
  induction l as [|x t IH]; intros i best r; cbn [rfind2_aux]; [auto|].
  destruct t as [|y t']; [auto|].
  intros H. apply IH in H as [H|[k [-> [Ha Hb]]]].
  - destruct ((x =? a) && (y =? b)) eqn:E; [|auto].
    apply andb_true_iff in E as [Ex Ey]. apply N.eqb_eq in Ex, Ey. subst x y.
    injection H as <-. right. exists 0%nat. cbn. split; [lia|auto].
  - right. exists (S k). cbn [nth_error]. split; [lia|auto].
Qed.
Lemma rfind2_spec a b l r : rfind2 a b l = Some r -> nth_error l r = Some a /\ nth_error l (S r) = Some b.
Proof.
  intros H. apply rfind2_aux_spec in H as [H|[k [-> H]]]; [discriminate|exact H].
Qed.

Lemma rfind1_aux_spec a l : forall i best r,
  rfind1_aux a l i best = Some r -> best = Some r \/ (exists k, r = (i + k)%nat /\ nth_error l k = Some a).
Proof.
  induction l as [|x t IH]; intros i best r; cbn [rfind1_aux]; [auto|].
  intros H. apply IH in H as [H|[k [-> Ha]]].
  - destruct (x =? a) eqn:E; [|auto]. apply N.eqb_eq in E. subst x. injection H as <-.
    right. exists 0%nat. cbn. split; [lia|auto].
  - right. exists (S k). cbn [nth_error]. split; [lia|auto].
Qed.
Lemma rfind1_spec a l r : rfind1 a l = Some r -> nth_error l r = Some a.
Proof. intros H. apply rfind1_aux_spec in H as [H|[k [-> H]]]; [discriminate|exact H]. Qed.

Section Reader.
Variable t : esc_table.

Lemma run_app q a b :
  run t q (a ++ b) =
  match run t q a with
  | Some (q1, o1) => match run t q1 b with Some (q2, o2) => Some (q2, o1 ++ o2) | None => None end
  | None => None
  end.
Proof.
  revert q. induction a as [|c r IH]; intros q; cbn [run app].
  - destruct (run t q b) as [[q2 o2]|]; reflexivity.
  - destruct (step t q c) as [|q' out]; [reflexivity|]. rewrite IH.
    destruct (run t q' r) as [[q1 o1]|]; [|reflexivity].
    destruct (run t q1 b) as [[q2 o2]|]; [|reflexivity]. rewrite app_assoc. reflexivity.
Qed.

Lemma run_prefix q a b x : run t q (a ++ b) = Some x -> exists q1 o1, run t q a = Some (q1, o1).
Proof. rewrite run_app. destruct (run t q a) as [[q1 o1]|]; [eauto|discriminate]. Qed.

(** after any character other than a backslash or a carriage return the automaton is in the plain state *)
Lemma step_plain q c q' out : step t q c = Go q' out -> c <> BSLASH -> c <> CR -> q' = Plain.
Proof.
  unfold step. intros H Hb Hc.
  assert (Eb : (c =? BSLASH) = false) by (apply N.eqb_neq; exact Hb).
  assert (Ec : (c =? CR) = false) by (apply N.eqb_neq; exact Hc).
  destruct q.
  - destruct (c =? QUOTE); [discriminate|]. rewrite Ec in H. destruct (c =? LF); [congruence|]. rewrite Eb in H. congruence.
  - destruct (c =? LF); [congruence|]. destruct (char_of_sym t c); congruence.
  - destruct (c =? QUOTE); [discriminate|]. rewrite Ec in H. destruct (c =? LF); [congruence|]. rewrite Eb in H. congruence.
Qed.

Lemma run_last_plain q a c q' o : run t q (a ++ [c]) = Some (q', o) -> c <> BSLASH -> c <> CR -> q' = Plain.
Proof.
  rewrite run_app. destruct (run t q a) as [[q1 o1]|]; [|discriminate]. cbn [run].
  destruct (step t q1 c) as [|q2 out] eqn:E; [discriminate|]. intros [= <- _] Hb Hc. eapply step_plain; eauto.
Qed.

(** runs of backslashes toggle between Plain and Esc *)
Lemma run_bs k :
  (exists o, run t Plain (repeat BSLASH k) = Some (if Nat.even k then Plain else Esc, o)) /\
  (exists o, run t Esc (repeat BSLASH k) = Some (if Nat.even k then Esc else Plain, o)).
Proof.
  induction k as [|k [[o1 H1] [o2 H2]]].
  - cbn. eauto.
  - rewrite Nat.even_succ, <- Nat.negb_even. cbn [repeat run].
    assert (Hp : step t Plain BSLASH = Go Esc []) by reflexivity.
    assert (He : exists out, step t Esc BSLASH = Go Plain out).
    { unfold step. replace (BSLASH =? LF) with false by reflexivity. destruct (char_of_sym t BSLASH); eauto. }
    destruct He as [out He]. rewrite Hp, He, H1, H2.
    destruct (Nat.even k); cbn [negb]; eauto.
Qed.

(** decomposition of a string into a part not ending in a backslash and its trailing backslashes *)
Lemma trailing_bs_rev_decomp m :
  exists pre, rev m = pre ++ repeat BSLASH (trailing_bs_rev m) /\ (pre = [] \/ exists p c, pre = p ++ [c] /\ c <> BSLASH).
Proof.
  induction m as [|x r [pre [E H]]]; cbn [trailing_bs_rev rev].
  - exists []. cbn. auto.
  - destruct (x =? BSLASH) eqn:Ex.
    + apply N.eqb_eq in Ex. subst x. exists pre. split; [|exact H].
      rewrite E. rewrite <- app_assoc. f_equal. cbn [repeat].
      clear. induction (trailing_bs_rev r) as [|n IH]; cbn; [reflexivity|]. f_equal. exact IH.
    + apply N.eqb_neq in Ex. exists (rev r ++ [x]). cbn [repeat]. rewrite app_nil_r. split; [reflexivity|].
      right. exists (rev r), x. auto.
Qed.
Lemma trailing_bs_decomp l :
  exists pre, l = pre ++ repeat BSLASH (trailing_bs l) /\ (pre = [] \/ exists p c, pre = p ++ [c] /\ c <> BSLASH).
Proof.
  unfold trailing_bs. destruct (trailing_bs_rev_decomp (rev l)) as [pre H]. rewrite rev_involutive in H. eauto.
Qed.

Lemma trailing_bs_app_bs l : trailing_bs (l ++ [BSLASH]) = S (trailing_bs l).
Proof. unfold trailing_bs. rewrite rev_app_distr. reflexivity. Qed.

(** state after a CR-free prefix whose number of trailing backslashes is even *)
Lemma run_even_bs a q o :
  run t Plain a = Some (q, o) -> memN CR a = false -> q = if Nat.even (trailing_bs a) then Plain else Esc.
Proof.
  intros Hrun Hcr. destruct (trailing_bs_decomp a) as [pre [E Hpre]].
  set (k := trailing_bs a) in *. rewrite E in Hrun. rewrite run_app in Hrun.
  destruct (run t Plain pre) as [[q1 o1]|] eqn:R1; [|discriminate].
  assert (q1 = Plain).
  { destruct Hpre as [->|[p [c [-> Hc]]]].
    - cbn in R1. congruence.
    - eapply run_last_plain; [exact R1|exact Hc|].
      intros ->. rewrite E, !memN_app in Hcr. cbn in Hcr. rewrite orb_true_r in Hcr. discriminate. }
  subst q1. destruct (run_bs k) as [[o2 H2] _]. rewrite H2 in Hrun. congruence.
Qed.

(** * The joined-string reader on the writer's output *)
Lemma rj_run q b q' o r :
  run t q b = Some (q', o) ->
  rj t (InStr q) (b ++ r) = match rj t (InStr q') r with Some v => Some (o ++ v) | None => None end.
Proof.
  revert q o. induction b as [|c b IH]; intros q o; cbn [run app].
  - intros [= -> <-]. destruct (rj t (InStr q') r); reflexivity.
  - cbn [rj]. destruct (step t q c) as [|q1 out]; [discriminate|].
    destruct (run t q1 b) as [[q2 o2]|] eqn:R; [|discriminate]. intros [= -> <-].
    rewrite (IH _ _ R). destruct (rj t (InStr q') r); [rewrite app_assoc|]; reflexivity.
Qed.

Lemma rj_close r : rj t (InStr Plain) (QUOTE :: r) = rj t After r.
Proof. reflexivity. Qed.

Lemma rj_plus_blanks indent r : all_blank indent = true -> rj t AfterPlus (indent ++ r) = rj t AfterPlus r.
Proof.
  induction indent as [|c i IH]; cbn [all_blank forallb app]; [reflexivity|].
  intros H. apply andb_true_iff in H as [Hc Hi]. cbn [rj]. rewrite Hc. cbn [orb]. apply IH, Hi.
Qed.

Lemma rj_joiner indent r : all_blank indent = true ->
  rj t After ((JOINER ++ indent) ++ QUOTE :: r) = rj t (InStr Plain) r.
Proof.
  intros H. unfold JOINER. cbn [app rj]. replace (blank SPACE) with true by reflexivity.
  replace (blank PLUS) with false by reflexivity. replace (PLUS =? PLUS) with true by reflexivity.
  replace (blank LF || (LF =? LF)) with true by reflexivity.
  rewrite rj_plus_blanks by exact H. cbn [rj].
  replace (blank QUOTE || (QUOTE =? LF)) with false by reflexivity. reflexivity.
Qed.

Lemma join_cons2 sep (x y : str) r : join sep (x :: y :: r) = x ++ sep ++ join sep (y :: r).
Proof. reflexivity. Qed.
Lemma write_sections_head indent s secs : exists w, write_sections indent (s :: secs) = QUOTE :: w.
Proof.
  unfold write_sections. cbn [map]. destruct (map quote secs) as [|y r].
  - cbn [join]. unfold quote. cbn [app]. eauto.
  - rewrite join_cons2. unfold quote at 1. cbn [app]. eauto.
Qed.

Lemma rj_sections indent tail : all_blank indent = true -> stops t tail = true ->
  forall secs outs, Forall2 (fun s o => run t Plain s = Some (Plain, o)) secs outs -> secs <> [] ->
  read_joined t (write_sections indent secs ++ tail) = Some (concat outs).
Proof.
  intros Hind Hstop secs outs HF Hne.
  assert (Hstop' : rj t After tail = Some []).
  { revert Hstop. unfold stops. destruct (rj t After tail) as [[|]|]; intros; first [reflexivity|discriminate]. }
  revert Hne. induction HF as [|s o secs outs Hs HF IH]; intros Hne; [exfalso; apply Hne; reflexivity|]. clear Hne.
  destruct secs as [|s2 secs].
  - inversion HF; subst. unfold write_sections. cbn [map join concat]. unfold quote. cbn [app read_joined].
    replace (QUOTE =? QUOTE) with true by reflexivity.
    rewrite <- app_assoc. rewrite (rj_run _ _ _ _ _ Hs). cbn [app]. rewrite rj_close, Hstop'. reflexivity.
  - assert (IH' : read_joined t (write_sections indent (s2 :: secs) ++ tail) = Some (concat outs)) by (apply IH; congruence).
    clear IH. destruct (write_sections_head indent s2 secs) as [w HW].
    assert (E : write_sections indent (s :: s2 :: secs) = quote s ++ (JOINER ++ indent) ++ write_sections indent (s2 :: secs)).
    { unfold write_sections. cbn [map]. apply join_cons2. }
    rewrite E, HW in *. clear E HW. unfold quote. cbn [app read_joined concat] in *.
    replace (QUOTE =? QUOTE) with true in * by reflexivity.
    rewrite <- !app_assoc. rewrite (rj_run _ _ _ _ _ Hs). cbn [app]. rewrite rj_close.
    rewrite (app_assoc JOINER indent). rewrite rj_joiner by exact Hind. rewrite IH'. reflexivity.
Qed.

Lemma cut_after_char rem k c q s :
  run t Plain rem = Some (q, s) -> nth_error rem k = Some c -> c <> BSLASH -> c <> CR ->
  exists o, run t Plain (firstn (S k) rem) = Some (Plain, o).
Proof.
  intros Hrun Hk Hb Hc. rewrite <- (firstn_skipn (S k) rem) in Hrun.
  apply run_prefix in Hrun as [q1 [o1 R]]. exists o1.
  rewrite (firstn_S_nth _ _ _ Hk) in R |- *. rewrite R. f_equal. f_equal. eapply run_last_plain; eauto.
Qed.

Lemma memN_nth_neq c l k x : memN c l = false -> nth_error l k = Some x -> x <> c.
Proof.
  intros H Hk ->. apply memN_false in H. apply H. eapply nth_error_In; eauto.
Qed.

Lemma nth_error_lt {A} (l : list A) k x : nth_error l k = Some x -> (k < length l)%nat.
Proof. intros H. apply nth_error_Some. congruence. Qed.

Lemma firstn_removelast_bs (l : list N) n : (0 < n)%nat -> (n <= length l)%nat ->
  Nat.odd (trailing_bs (firstn n l)) = true -> firstn n l = firstn (n - 1) l ++ [BSLASH].
Proof.
  intros Hn Hl Hodd. destruct n as [|n]; [lia|]. replace (S n - 1)%nat with n by lia.
  destruct (nth_error l n) as [x|] eqn:E; [|apply nth_error_None in E; lia].
  rewrite (firstn_S_nth _ _ _ E) in *. f_equal. f_equal.
  destruct (N.eq_dec x BSLASH) as [->|Hx]; [reflexivity|].
  exfalso. unfold trailing_bs in Hodd. rewrite rev_app_distr in Hodd. cbn [rev app trailing_bs_rev] in Hodd.
  apply N.eqb_neq in Hx. rewrite Hx in Hodd. discriminate.
Qed.

Lemma In_firstn' {A} (x : A) n l : In x (firstn n l) -> In x l.
Proof. revert n. induction l as [|y r IH]; intros [|n]; cbn; try tauto. intros [H|H]; eauto. Qed.
Lemma memN_firstn c n l : memN c l = false -> memN c (firstn n l) = false.
Proof. rewrite !memN_false. intros H Hin. apply H. eapply In_firstn'; eauto. Qed.
Lemma In_skipn' {A} (x : A) n l : In x (skipn n l) -> In x l.
Proof. revert n. induction l as [|y r IH]; intros [|n]; cbn; try tauto. intros H; eauto. Qed.
Lemma memN_skipn c n l : memN c l = false -> memN c (skipn n l) = false.
Proof. rewrite !memN_false. intros H Hin. apply H. eapply In_skipn'; eauto. Qed.

(** a cut behind an even number of backslashes is at a point where the reader is in its plain state *)
Lemma cut_even_bs rem n q s : run t Plain rem = Some (q, s) -> memN CR rem = false ->
  Nat.even (trailing_bs (firstn n rem)) = true -> exists o, run t Plain (firstn n rem) = Some (Plain, o).
Proof.
  intros Hrun Hcr He. rewrite <- (firstn_skipn n rem) in Hrun. apply run_prefix in Hrun as [q1 [o1 R]]. exists o1.
  rewrite R, (run_even_bs _ _ _ R (memN_firstn _ _ _ Hcr)), He. reflexivity.
Qed.

Definition fallback_pos (cfg : ls_cfg) (w : str) : nat :=
  match rfind1 SPACE w with
  | Some i => (i + 1)%nat
  | None => if cut_guard cfg && Nat.odd (trailing_bs w) then (limit cfg - 1)%nat else limit cfg
  end.

Lemma fallback_safe cfg rem q s :
  (2 <= limit cfg)%nat -> cut_guard cfg = true ->
  (limit cfg < length rem)%nat -> memN CR rem = false -> run t Plain rem = Some (q, s) ->
  let p := fallback_pos cfg (firstn (limit cfg) rem) in
  (1 <= p <= limit cfg)%nat /\ exists o, run t Plain (firstn p rem) = Some (Plain, o).
Proof.
  intros Hlim Hguard Hlen Hcr Hrun. unfold fallback_pos. set (w := firstn (limit cfg) rem).
  assert (Hw : length w = limit cfg) by (unfold w; rewrite firstn_length; lia).
  destruct (rfind1 SPACE w) as [j|] eqn:E1.
  - apply rfind1_spec in E1. pose proof (nth_error_lt _ _ _ E1) as Hj. apply nth_error_firstn_Some in E1.
    replace (j + 1)%nat with (S j) by lia. split; [lia|].
    eapply cut_after_char; [exact Hrun|exact E1|discriminate|discriminate].
  - rewrite Hguard. cbn [andb].
    destruct (Nat.odd (trailing_bs w)) eqn:Eo.
    + split; [lia|]. apply (cut_even_bs rem _ q s Hrun Hcr).
      pose proof (firstn_removelast_bs rem (limit cfg) ltac:(lia) ltac:(lia) Eo) as Ew. fold w in Ew.
      rewrite Ew, trailing_bs_app_bs, Nat.odd_succ in Eo. exact Eo.
    + split; [lia|]. apply (cut_even_bs rem _ q s Hrun Hcr). fold w. rewrite <- Nat.negb_odd, Eo. reflexivity.
Qed.

Lemma cfg_facts cfg : cfg_ok cfg = true ->
  (2 <= limit cfg)%nat /\ (1 <= min_nl cfg)%nat /\ empty_quotes cfg = true /\ cut_guard cfg = true.
Proof.
  unfold cfg_ok. intros H. apply andb_prop in H as [H G]. apply andb_prop in H as [H Q]. apply andb_prop in H as [L M].
  apply Nat.leb_le in L, M. auto.
Qed.

(** every cut chosen by the writer lies at a point where the reader is in its plain state *)
Lemma split_pos_safe cfg rem q s :
  cfg_ok cfg = true -> (limit cfg < length rem)%nat -> memN CR rem = false -> run t Plain rem = Some (q, s) ->
  (1 <= split_pos cfg rem <= limit cfg)%nat /\ exists o, run t Plain (firstn (split_pos cfg rem) rem) = Some (Plain, o).
Proof.
  intros Hcfg Hlen Hcr Hrun. destruct (cfg_facts cfg Hcfg) as (Hlim & Hmin & _ & Hguard).
  pose proof (fallback_safe cfg rem q s Hlim Hguard Hlen Hcr Hrun) as Hfb. cbn zeta in Hfb.
  unfold split_pos. fold (fallback_pos cfg (firstn (limit cfg) rem)).
  set (w := firstn (limit cfg) rem) in *.
  assert (Hw : length w = limit cfg) by (unfold w; rewrite firstn_length; lia).
  destruct (rfind2 BSLASH LOWER_N w) as [i|] eqn:E2.
  - apply rfind2_spec in E2 as [_ Hn]. pose proof (nth_error_lt _ _ _ Hn) as Hi.
    apply nth_error_firstn_Some in Hn.
    destruct (min_nl cfg <? i + 2)%nat eqn:Em; [|exact Hfb].
    replace (i + 2)%nat with (S (S i)) by lia. split; [lia|].
    eapply cut_after_char; [exact Hrun|exact Hn|discriminate|discriminate].
  - replace (min_nl cfg <? 1)%nat with false by (symmetry; apply Nat.ltb_ge; lia). exact Hfb.
Qed.

Definition sec_props (cfg : ls_cfg) (secs : list str) (rem s : str) : Prop :=
  (exists outs, Forall2 (fun sec o => run t Plain sec = Some (Plain, o)) secs outs /\ concat outs = s)
  /\ Forall (fun sec => (length sec <= limit cfg)%nat /\ memN CR sec = false) secs
  /\ concat secs = rem.

Lemma sections_ok cfg : cfg_ok cfg = true -> forall fuel first rem s,
  (length rem < fuel)%nat -> memN CR rem = false -> run t Plain rem = Some (Plain, s) ->
  sec_props cfg (sections_fuel fuel cfg first rem) rem s.
Proof.
  intros Hcfg. induction fuel as [|f IH]; intros first rem s Hlen Hcr Hrun; [lia|].
  cbn [sections_fuel]. destruct (limit cfg <? length rem)%nat eqn:El.
  - apply Nat.ltb_lt in El.
    destruct (split_pos_safe cfg rem Plain s Hcfg El Hcr Hrun) as [Hp [o1 R1]].
    set (p := split_pos cfg rem) in *.
    pose proof Hrun as Hrun'. rewrite <- (firstn_skipn p rem) in Hrun'. rewrite run_app, R1 in Hrun'.
    destruct (run t Plain (skipn p rem)) as [[q2 o2]|] eqn:R2; [|discriminate].
    injection Hrun' as -> <-.
    assert (Hlen2 : (length (skipn p rem) < f)%nat) by (rewrite skipn_length; lia).
    destruct (IH false (skipn p rem) o2 Hlen2 (memN_skipn _ _ _ Hcr) R2) as [[outs [HF Hc]] [HB Hcat]].
    split; [|split].
    + exists (o1 :: outs). split; [constructor; assumption|]. cbn [concat]. rewrite Hc. reflexivity.
    + constructor; [|exact HB]. split; [rewrite firstn_length; lia|apply memN_firstn, Hcr].
    + cbn [concat]. rewrite Hcat. apply firstn_skipn.
  - apply Nat.ltb_ge in El.
    destruct (nonempty rem || (first && empty_quotes cfg)) eqn:En.
    + split; [|split].
      * exists [s]. split; [constructor; [exact Hrun|constructor]|]. cbn. apply app_nil_r.
      * constructor; [auto|constructor].
      * cbn. apply app_nil_r.
    + apply orb_false_iff in En as [En _]. destruct rem; [|discriminate].
      cbn in Hrun. injection Hrun as <-.
      split; [|split]; [exists []; split; [constructor|reflexivity]|constructor|reflexivity].
Qed.

Lemma sections_nonempty cfg e : cfg_ok cfg = true -> sections cfg e <> [].
Proof.
  intros Hcfg. destruct (cfg_facts cfg Hcfg) as (_ & _ & Hq & _).
  unfold sections. cbn [sections_fuel]. destruct (limit cfg <? length e)%nat; [discriminate|].
  rewrite Hq. cbn [andb]. rewrite orb_true_r. discriminate.
Qed.

(** * Escaping is inverted by the string automaton *)
Lemma run_flat_map (f : N -> str) s :
  (forall c, In c s -> run t Plain (f c) = Some (Plain, [c]) /\ memN CR (f c) = false) ->
  run t Plain (flat_map f s) = Some (Plain, s) /\ memN CR (flat_map f s) = false.
Proof.
  induction s as [|c r IH]; intros H; cbn [flat_map]; [auto|].
  destruct (H c (or_introl eq_refl)) as [Hr Hc]. destruct IH as [IHr IHc]; [intros; apply H; right; assumption|].
  rewrite run_app, Hr, IHr, memN_app, Hc, IHc. auto.
Qed.

Lemma sym_of_char_in c sym : forall tb, sym_of_char tb c = Some sym -> In sym (map fst tb).
Proof.
  induction tb as [|[s0 c0] r IH]; cbn [sym_of_char map fst]; [discriminate|].
  destruct (c0 =? c); [intros [= ->]; left; reflexivity|intros H; right; apply IH, H].
Qed.
Lemma sym_char_inv c sym : forall tb, nodupN (map fst tb) = true -> sym_of_char tb c = Some sym -> char_of_sym tb sym = Some c.
Proof.
  induction tb as [|[s0 c0] r IH]; cbn [sym_of_char char_of_sym map fst nodupN]; [discriminate|].
  intros Hnd H. apply andb_true_iff in Hnd as [Hnot Hnd]. apply negb_true_iff in Hnot.
  destruct (c0 =? c) eqn:Ec.
  - injection H as ->. rewrite N.eqb_refl. apply N.eqb_eq in Ec. congruence.
  - pose proof (sym_of_char_in _ _ _ H) as Hin. destruct (s0 =? sym) eqn:Es; [|apply IH; assumption].
    apply N.eqb_eq in Es. subst s0. apply memN_false in Hnot. contradiction.
Qed.

End Reader.

Section Escape.
Variables (t : esc_table) (excl : list N).
Hypothesis Hok : table_ok t excl = true.

Lemma table_facts :
  nodupN (map fst t) = true /\ memN LF (map fst t) = false /\ memN CR (map fst t) = false
  /\ escaped_by t excl QUOTE = true /\ escaped_by t excl BSLASH = true /\ escaped_by t excl CR = true
  /\ char_of_sym t LOWER_N = Some LF.
Proof.
  pose proof Hok as H. unfold table_ok in H. repeat (apply andb_true_iff in H; destruct H as [H ?]).
  repeat match goal with X : negb _ = true |- _ => apply negb_true_iff in X end.
  repeat split; try assumption.
  destruct (char_of_sym t LOWER_N) as [c|]; [|discriminate].
  match goal with X : (c =? LF) = true |- _ => apply N.eqb_eq in X; congruence end.
Qed.

Lemma escaped_by_neq c x : escaped_by t excl x = true ->
  (memN c excl = true \/ sym_of_char t c = None) -> c <> x.
Proof.
  unfold escaped_by. intros H Hc ->. apply andb_true_iff in H as [H1 H2].
  apply negb_true_iff in H1. destruct Hc as [Hc|Hc]; [congruence|]. rewrite Hc in H2. discriminate.
Qed.

Lemma step_plain_ordinary c : c <> QUOTE -> c <> BSLASH -> c <> CR -> step t Plain c = Go Plain [c].
Proof.
  intros Hq Hb Hc. unfold step. apply N.eqb_neq in Hq, Hb, Hc. rewrite Hq, Hc.
  destruct (c =? LF) eqn:El; [apply N.eqb_eq in El; subst; reflexivity|]. rewrite Hb. reflexivity.
Qed.

Lemma esc_unit_ext_ok c :
  run t Plain (esc_unit_ext t excl c) = Some (Plain, [c]) /\ memN CR (esc_unit_ext t excl c) = false.
Proof.
  destruct table_facts as [Hnd [Hlf [Hcr [Hq [Hb [Hc Hn]]]]]].
  unfold esc_unit_ext.
  assert (Hplain : (memN c excl = true \/ sym_of_char t c = None) ->
            run t Plain [c] = Some (Plain, [c]) /\ memN CR [c] = false).
  { intros Hcase. pose proof (escaped_by_neq c _ Hq Hcase). pose proof (escaped_by_neq c _ Hb Hcase).
    pose proof (escaped_by_neq c _ Hc Hcase) as Hncr.
    cbn [run]. rewrite step_plain_ordinary by assumption. split; [reflexivity|].
    cbn [memN]. rewrite orb_false_r. apply N.eqb_neq. congruence. }
  destruct (memN c excl) eqn:Ex; [apply Hplain; auto|].
  destruct (sym_of_char t c) as [sym|] eqn:Es; [|apply Hplain; auto].
  pose proof (sym_of_char_in _ _ _ Es) as Hin. pose proof (sym_char_inv c sym t Hnd Es) as Hinv.
  assert (sym <> LF) by (intros ->; apply memN_false in Hlf; contradiction).
  assert (sym <> CR) by (intros ->; apply memN_false in Hcr; contradiction).
  cbn [run]. replace (step t Plain BSLASH) with (Go Esc []) by reflexivity.
  unfold step. replace (sym =? LF) with false by (symmetry; apply N.eqb_neq; assumption). rewrite Hinv.
  split; [reflexivity|]. cbn [memN]. replace (BSLASH =? CR) with false by reflexivity.
  replace (sym =? CR) with false by (symmetry; apply N.eqb_neq; assumption). reflexivity.
Qed.

Lemma esc_unit_std_ok c : c <> QUOTE -> c <> BSLASH -> c <> CR ->
  run t Plain (esc_unit_std c) = Some (Plain, [c]) /\ memN CR (esc_unit_std c) = false.
Proof.
  destruct table_facts as [_ [_ [_ [_ [_ [_ Hn]]]]]].
  intros Hq Hb Hc. unfold esc_unit_std. destruct (c =? LF) eqn:El.
  - apply N.eqb_eq in El. subst c. cbn [run]. replace (step t Plain BSLASH) with (Go Esc []) by reflexivity.
    unfold step. replace (LOWER_N =? LF) with false by reflexivity. rewrite Hn. split; reflexivity.
  - replace (c =? QUOTE) with false by (symmetry; apply N.eqb_neq; assumption).
    cbn [run]. rewrite step_plain_ordinary by assumption. split; [reflexivity|].
    cbn [memN]. rewrite orb_false_r. apply N.eqb_neq. congruence.
Qed.

Lemma escape_read ext text : (ext = false -> std_safe text = true) ->
  run t Plain (fgd_escape t excl ext text) = Some (Plain, text) /\ memN CR (fgd_escape t excl ext text) = false.
Proof.
  intros Hsafe. unfold fgd_escape. destruct ext.
  - apply run_flat_map. intros c _. apply esc_unit_ext_ok.
  - apply run_flat_map. intros c Hin. specialize (Hsafe eq_refl). unfold std_safe in Hsafe.
    rewrite forallb_forall in Hsafe. specialize (Hsafe c Hin). apply negb_true_iff in Hsafe.
    apply orb_false_iff in Hsafe as [Hs Hcr]. apply orb_false_iff in Hs as [Hq Hb].
    apply N.eqb_neq in Hq, Hb, Hcr. apply esc_unit_std_ok; assumption.
Qed.

(** the sections of an escaped text are complete string bodies whose values concatenate to the text *)
Lemma escaped_sections cfg ext text : cfg_ok cfg = true -> (ext = false -> std_safe text = true) ->
  sec_props t cfg (sections cfg (fgd_escape t excl ext text)) (fgd_escape t excl ext text) text.
Proof.
  intros Hcfg Hsafe. destruct (escape_read ext text Hsafe) as [Hrun Hcr].
  unfold sections. apply sections_ok; [exact Hcfg|lia|exact Hcr|exact Hrun].
Qed.

Theorem longstring_roundtrip cfg ext indent text tail :
  cfg_ok cfg = true -> all_blank indent = true -> stops t tail = true ->
  (ext = false -> std_safe text = true) ->
  read_joined t (write_longstring t excl cfg ext indent text ++ tail) = Some text.
Proof.
  intros Hcfg Hind Hstop Hsafe. destruct (escaped_sections cfg ext text Hcfg Hsafe) as [[outs [HF Hc]] _].
  unfold write_longstring. rewrite (rj_sections t indent tail Hind Hstop _ _ HF (sections_nonempty cfg _ Hcfg)), Hc. reflexivity.
Qed.

Theorem longstring_sections cfg ext text :
  cfg_ok cfg = true -> (ext = false -> std_safe text = true) ->
  let secs := sections cfg (fgd_escape t excl ext text) in
  secs <> [] /\ concat secs = fgd_escape t excl ext text
  /\ Forall (fun sec => (length sec <= limit cfg)%nat /\ section_closed sec = true) secs.
Proof.
  intros Hcfg Hsafe. cbn zeta. destruct (escaped_sections cfg ext text Hcfg Hsafe) as [[outs [HF Hc]] [HB Hcat]].
  split; [apply sections_nonempty, Hcfg|]. split; [exact Hcat|].
  clear Hc Hcat. induction HF as [|sec o secs outs Hs HF IH]; [constructor|].
  inversion HB as [|? ? [Hl Hc] HB']; subst. constructor; [|apply IH, HB'].
  split; [exact Hl|]. unfold section_closed. pose proof (run_even_bs t sec Plain o Hs Hc) as E.
  destruct (Nat.even (trailing_bs sec)); [reflexivity|discriminate].
Qed.

End Escape.

(** * What goes wrong without the two repaired branches *)
Lemma empty_text_writes_nothing t excl cfg ext indent :
  empty_quotes cfg = false -> write_longstring t excl cfg ext indent [] = [].
Proof.
  intros H. unfold write_longstring, sections. replace (fgd_escape t excl ext []) with (@nil N) by (destruct ext; reflexivity).
  cbn [length sections_fuel]. replace (limit cfg <? 0)%nat with false by (symmetry; apply Nat.ltb_ge; lia).
  rewrite H. reflexivity.
Qed.
Lemma nothing_is_unreadable t tail : (forall r, tail <> QUOTE :: r) -> read_joined t ([] ++ tail) = None.
Proof.
  intros H. cbn [app]. destruct tail as [|c r]; [reflexivity|]. cbn [read_joined].
  destruct (c =? QUOTE) eqn:E; [|reflexivity]. apply N.eqb_eq in E. subst c. exfalso. eapply H; reflexivity.
Qed.
