From Coq Require Import List NArith Bool.
Import ListNotations.
From SV Require Import Fmt.SmdTpl.

Lemma sep_ok_sound : forall l pending, sep_ok pending l = true ->
  separated l /\
  (pending = true -> forall mid c2 b, l = mid ++ c2 :: b -> is_conv c2 = true ->
     Forall (fun p => is_conv p = false) mid -> Exists (fun p => has_ws p = true) mid).
Proof.
  induction l as [|p r IH]; intros pending H.
  - split.
    + intros a c1 mid c2 b E. destruct a; discriminate.
    + intros _ mid c2 b E. destruct mid; discriminate.
  - cbn [sep_ok] in H. destruct (is_conv p) eqn:Hp.
    + apply andb_prop in H as [Hpend Hr].
      apply negb_true_iff in Hpend. subst pending.
      destruct (IH true Hr) as [IHs IHp]. split.
      * intros a c1 mid c2 b E Hc1 Hc2 Hmid. destruct a as [|x a].
        -- cbn in E. injection E as -> E. eapply (IHp eq_refl); eauto.
        -- cbn in E. injection E as -> E. eapply IHs; eauto.
      * discriminate.
    + destruct (IH _ H) as [IHs IHp]. split.
      * intros a c1 mid c2 b E Hc1 Hc2 Hmid. destruct a as [|x a].
        -- cbn in E. injection E as -> E. congruence.
        -- cbn in E. injection E as -> E. eapply IHs; eauto.
      * intros -> mid c2 b E Hc2 Hmid. destruct mid as [|x mid].
        -- cbn in E. injection E as -> E. congruence.
        -- cbn in E. injection E as -> E. destruct (has_ws x) eqn:Hw.
           ++ apply Exists_cons_hd. exact Hw.
           ++ apply Exists_cons_tl. inversion Hmid; subst. eapply (IHp eq_refl); eauto.
Qed.

Theorem line_ok_separated : forall l, line_ok l = true -> separated l.
Proof. intros l H. exact (proj1 (sep_ok_sound l false H)). Qed.

Theorem lines_ok_separated : forall ls, forallb line_ok ls = true -> Forall separated ls.
Proof.
  intros ls H. apply Forall_forall. intros l Hl. apply line_ok_separated.
  rewrite forallb_forall in H. auto.
Qed.

(** the boolean is exact: a line that is not [line_ok] has two touching conversions *)
Lemma sep_ok_complete : forall l pending, sep_ok pending l = false ->
  (exists a c1 mid c2 b, l = a ++ c1 :: mid ++ c2 :: b /\ is_conv c1 = true /\ is_conv c2 = true /\
     Forall (fun p => is_conv p = false /\ has_ws p = false) mid)
  \/ (pending = true /\ exists mid c2 b, l = mid ++ c2 :: b /\ is_conv c2 = true /\
     Forall (fun p => is_conv p = false /\ has_ws p = false) mid).
Proof.
  induction l as [|p r IH]; intros pending H; [discriminate|].
  cbn [sep_ok] in H. destruct (is_conv p) eqn:Hp.
  - destruct pending.
    + right. split; [reflexivity|]. exists [], p, r. repeat split; auto.
    + cbn in H. destruct (IH true H) as [(a & c1 & mid & c2 & b & E & H1 & H2 & H3) | (_ & mid & c2 & b & E & H2 & H3)].
      * left. exists (p :: a), c1, mid, c2, b. subst r. repeat split; auto.
      * left. exists [], p, mid, c2, b. subst r. repeat split; auto.
  - destruct (IH _ H) as [(a & c1 & mid & c2 & b & E & H1 & H2 & H3) | (Hpend & mid & c2 & b & E & H2 & H3)].
    + left. exists (p :: a), c1, mid, c2, b. subst r. repeat split; auto.
    + apply andb_prop in Hpend as [-> Hw]. apply negb_true_iff in Hw.
      right. split; [reflexivity|]. exists (p :: mid), c2, b. subst r. repeat split; auto.
Qed.

Theorem line_not_ok_touching : forall l, line_ok l = false ->
  exists a c1 mid c2 b, l = a ++ c1 :: mid ++ c2 :: b /\ is_conv c1 = true /\ is_conv c2 = true /\
    Forall (fun p => is_conv p = false /\ has_ws p = false) mid.
Proof.
  intros l H. destruct (sep_ok_complete l false H) as [X | [X _]]; [exact X | discriminate].
Qed.

(** the pinned tree's vertex line violates the obligation (known defect: missing space before the link count) *)
Theorem smd_pinned_vertex_line_refuted : line_ok smd_vertex_line_pinned = false.
Proof. vm_compute. reflexivity. Qed.

Example line_ok_satisfiable : line_ok [ConvInt; Lit [32;34]%N; ConvStr; Lit [34;32]%N; ConvInt] = true.
Proof. vm_compute. reflexivity. Qed.
