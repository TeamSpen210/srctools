(** Proofs about the texture name string table: every name is read back at the offset the writer stored for it,
    for any list of NUL-free names that pass the writer's length guard -- including all storage sharing. *)
From Coq Require Import NArith List Bool PeanoNat Lia.
From SV Require Import Bin.FindInsertProofs Fmt.BspTexStrings.
Import ListNotations.
Open Scope N_scope.

Lemma nl_eqb_eq : forall a b, nl_eqb a b = true -> a = b.
Proof.
  induction a as [|x a IH]; intros [|y b] H; cbn [nl_eqb] in H; try discriminate; [reflexivity|].
  apply andb_prop in H. destruct H as [H1 H2]. apply N.eqb_eq in H1. apply IH in H2. subst. reflexivity.
Qed.

Lemma prefix_eqb_firstn : forall p l, prefix_eqb p l = true -> firstn (List.length p) l = p.
Proof.
  induction p as [|x p IH]; intros l H; [reflexivity|]. destruct l as [|y l]; [discriminate|].
  cbn [prefix_eqb] in H. apply andb_prop in H. destruct H as [H1 H2]. apply N.eqb_eq in H1. subst y.
  cbn [List.length firstn]. f_equal. apply IH. exact H2.
Qed.

Lemma find_sub_sound : forall p l i j, find_sub p l i = Some j ->
  exists k, j = (i + k)%nat /\ firstn (List.length p) (skipn k l) = p.
Proof.
  induction l as [|a l IH]; intros i j H; cbn [find_sub] in H.
  - destruct (prefix_eqb p []) eqn:E; [|discriminate]. injection H as <-. exists O. split; [lia|].
    cbn [skipn]. apply prefix_eqb_firstn. exact E.
  - destruct (prefix_eqb p (a :: l)) eqn:E.
    + injection H as <-. exists O. split; [lia|]. cbn [skipn]. apply prefix_eqb_firstn. exact E.
    + apply IH in H. destruct H as (k & -> & F). exists (S k). split; [lia|]. cbn [skipn]. exact F.
Qed.

(** [holds data off s]: at offset [off] the block holds [s] followed by its terminator. *)
Definition holds (data : list N) (off : nat) (s : list N) : Prop :=
  firstn (List.length s + 1) (skipn off data) = s ++ [0].

Lemma holds_app : forall data ext off s, holds data off s -> holds (data ++ ext) off s.
Proof.
  unfold holds. intros data ext off s H. rewrite skipn_app, firstn_app.
  assert (L : (List.length s + 1 <= List.length (skipn off data))%nat).
  { pose proof (f_equal (@List.length N) H) as E. rewrite firstn_length, app_length in E. cbn [List.length] in E. lia. }
  replace (List.length s + 1 - List.length (skipn off data))%nat with O by lia.
  cbn [firstn]. rewrite app_nil_r. exact H.
Qed.

Lemma holds_at_end : forall data s, holds (data ++ s ++ [0]) (List.length data) s.
Proof.
  unfold holds. intros data s. rewrite skipn_app, skipn_all, Nat.sub_diag. cbn [skipn app].
  replace (List.length s + 1)%nat with (List.length (s ++ [0])) by (rewrite app_length; reflexivity).
  apply firstn_all.
Qed.

Lemma step_inv : forall names0 data offs name data' offs',
  Forall2 (holds data) offs names0 -> tex_step [0] [0] (data, offs) name = (data', offs') ->
  Forall2 (holds data') offs' (names0 ++ [name]).
Proof.
  intros names0 data offs name data' offs' H E. cbn [tex_step] in E.
  destruct (find_sub (name ++ [0]) data 0) as [i|] eqn:F.
  - injection E as <- <-. apply Forall2_app; [exact H|]. constructor; [|constructor].
    apply find_sub_sound in F. destruct F as (k & -> & F). rewrite app_length in F. cbn [List.length Nat.add] in F.
    unfold holds. exact F.
  - injection E as <- <-. apply Forall2_app.
    + eapply Forall2_mono; [|exact H]. intros a b. apply holds_app.
    + constructor; [|constructor]. apply holds_at_end.
Qed.

Lemma write_inv : forall names names0 data offs data' offs',
  Forall2 (holds data) offs names0 -> fold_left (tex_step [0] [0]) names (data, offs) = (data', offs') ->
  Forall2 (holds data') offs' (names0 ++ names).
Proof.
  induction names as [|a names IH]; intros names0 data offs data' offs' H E; cbn [fold_left] in E.
  - injection E as <- <-. rewrite app_nil_r. exact H.
  - destruct (tex_step [0] [0] (data, offs) a) as [d o] eqn:S.
    pose proof (step_inv names0 data offs a d o H S) as H'.
    specialize (IH (names0 ++ [a]) d o data' offs' H' E). rewrite <- app_assoc in IH. exact IH.
Qed.

Lemma take_until0_ok : forall s rest fuel, nul_free s = true -> (List.length s < fuel)%nat ->
  take_until0 fuel (s ++ 0 :: rest) = Some s.
Proof.
  induction s as [|a s IH]; intros rest fuel Hn Hl; (destruct fuel as [|fuel]; [cbn [List.length] in Hl; lia|]).
  - reflexivity.
  - cbn [nul_free forallb] in Hn. apply andb_prop in Hn. destruct Hn as [Ha Hs]. apply negb_true_iff in Ha.
    cbn [app take_until0]. rewrite Ha. rewrite IH; [reflexivity | exact Hs | cbn [List.length] in Hl; lia].
Qed.

Lemma holds_read : forall win data off s, holds data off s -> nul_free s = true -> (List.length s < win)%nat ->
  tex_read win data off = Some s.
Proof.
  unfold holds, tex_read. intros win data off s H Hn Hl.
  rewrite <- (firstn_skipn (List.length s + 1) (skipn off data)), H, <- app_assoc. cbn [app].
  apply take_until0_ok; assumption.
Qed.

(** The whole table: whatever names were shared, every one is read back at its stored offset. *)
Theorem texdata_strings_roundtrip : forall ss sa maxlen win names data offs,
  texcfg_ok (ss, sa, maxlen, win) = true ->
  Forall (fun s => nul_free s = true /\ (List.length s <= maxlen)%nat) names ->
  tex_write ss sa names = (data, offs) ->
  map (tex_read win data) offs = map Some names.
Proof.
  intros ss sa maxlen win names data offs Hc Hn E. unfold texcfg_ok in Hc.
  apply andb_prop in Hc. destruct Hc as [Hc Hw]. apply andb_prop in Hc. destruct Hc as [H1 H2].
  cbn [texcfg_search_terminated] in H1. cbn [texcfg_append_terminated] in H2. cbn [texcfg_guard_fits_window] in Hw.
  apply nl_eqb_eq in H1. apply nl_eqb_eq in H2. subst ss sa. apply Nat.ltb_lt in Hw.
  unfold tex_write in E. pose proof (write_inv names [] [] [] data offs (Forall2_nil _) E) as Inv. cbn [app] in Inv.
  clear E. induction Inv as [|off s offs names Hh _ IH]; [reflexivity|].
  inversion Hn as [|? ? [Hz Hl] Hrest]; subst. cbn [map]. f_equal.
  - apply holds_read; [exact Hh | exact Hz | lia].
  - apply IH. exact Hrest.
Qed.

(** Storage really is shared: an identical name and the tail of a longer name are not stored again. *)
Example tex_shares_tail : tex_write [0] [0] [[65; 66; 67]; [66; 67]; [65; 66; 67]] = ([65; 66; 67; 0], [0; 1; 0]%nat).
Proof. vm_compute. reflexivity. Qed.

(** A name with an embedded NUL is not a value of this field: it is stored whole and read back cut (hypothesis
    [nul_free] of the theorem is necessary). *)
Example tex_name_with_nul_is_cut :
  let '(data, offs) := tex_write [0] [0] [[65; 0; 66]] in map (tex_read 128 data) offs = [Some [65]].
Proof. vm_compute. reflexivity. Qed.
