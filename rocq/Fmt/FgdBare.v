(* C16: which keyvalue defaults KVDef.export writes WITHOUT quotes, and what the reader's Tokenizer makes of such text.

   Fmt/FgdLine.v works on tokens: a written default is `TStr (default_written k)`.  For a quoted default that is the long-string /
   escape model; for a default written bare it is a PREMISE: the characters must be lexed as ONE bare word equal to the string.
   That premise is stated here ([one_token]) and discharged for the test KVDef.export applies ([bare_test], read off the source by
   translate/c16_fgd.py as [gen_bare_test]): a character-set test is fine when every character of the set may start / continue a
   bare word; `try: int(default_str)` is not (explicit plus sign, surrounding blanks), refuted with a computed witness.
   Characters are code points (N); the int() model covers ASCII only (unicode digits are bare words that read back as themselves). *)
From Coq Require Import List NArith Bool.
Import ListNotations. Open Scope N_scope. Open Scope bool_scope.

Definition bstr := list N.
Definition memN (c : N) (l : list N) : bool := existsb (N.eqb c) l.
Fixpoint bstr_eqb (a b : bstr) : bool :=
  match a, b with [], [] => true | x :: a', y :: b' => (x =? y) && bstr_eqb a' b' | _, _ => false end.

(* tokenizer.BARE_DISALLOWED: both quote characters, { } ; , = [ ] ( ), CR, LF, TAB and the blank *)
Definition bare_disallowed : list N := [34; 39; 123; 125; 59; 44; 61; 91; 93; 40; 41; 13; 10; 9; 32].
(* inside a bare word ':' (colon_operator) and '+' (plus_operator) end it as well; at the start of a token '+' and ':' are operators,
   '#' opens a directive and '/' a comment *)
Definition word_inner (c : N) : bool := negb (memN c bare_disallowed) && negb (c =? 58) && negb (c =? 43).
Definition word_start (c : N) : bool := word_inner c && negb (c =? 35) && negb (c =? 47).

Fixpoint take_word (s : bstr) : bstr * bstr :=
  match s with
  | [] => ([], [])
  | c :: r => if word_inner c then (let (w, t) := take_word r in (c :: w, t)) else ([], s)
  end.
Fixpoint skip_blank (s : bstr) : bstr :=
  match s with c :: r => if (c =? 32) || (c =? 9) then skip_blank r else s | [] => [] end.
(* the token at the start of the text, when it is a bare word: the word and the text left after it *)
Definition lex_word (s : bstr) : option (bstr * bstr) :=
  match skip_blank s with
  | c :: r => if word_start c then Some (take_word (c :: r)) else None
  | [] => None
  end.
(* PREMISE of a bare default: the reader sees one STRING token with exactly these characters and nothing is left *)
Definition one_token (s : bstr) : bool :=
  match lex_word s with Some (w, []) => bstr_eqb w s | _ => false end.

(* the test KVDef.export applies before it writes ' : ' + default_str *)
Inductive bare_test := BChars (cs : list N) | BIntCall.

Definition is_digit (c : N) : bool := (48 <=? c) && (c <=? 57).
Definition is_ws (c : N) : bool := memN c [32; 9; 10; 13; 11; 12].
Fixpoint lstrip_ws (s : bstr) : bstr := match s with c :: r => if is_ws c then lstrip_ws r else s | [] => [] end.
Definition strip_ws (s : bstr) : bstr := rev (lstrip_ws (rev (lstrip_ws s))).
(* digits, single '_' only between two digits *)
Fixpoint int_body (s : bstr) (prev_digit : bool) : bool :=
  match s with
  | [] => prev_digit
  | c :: r => if is_digit c then int_body r true else if c =? 95 then prev_digit && int_body r false else false
  end.
(* Python's int(s) (base 10, ASCII): blanks around, one optional sign, digits with '_' grouping *)
Definition py_int_ok (s : bstr) : bool :=
  let t := strip_ws s in
  let t := match t with c :: r => if (c =? 43) || (c =? 45) then r else t | [] => [] end in
  match t with [] => false | _ => int_body t false end.

Definition writes_bare (t : bare_test) (s : bstr) : bool :=
  match t with
  | BChars cs => match s with [] => false | _ => forallb (fun c => memN c cs) s end
  | BIntCall => py_int_ok s
  end.

(* the decision procedure: a character-set test all of whose characters may start a bare word *)
Definition bare_test_ok (t : bare_test) : bool :=
  match t with BChars cs => forallb word_start cs | BIntCall => false end.

Lemma bstr_eqb_refl : forall s, bstr_eqb s s = true.
Proof. induction s as [|c s IH]; simpl; [reflexivity|]. rewrite N.eqb_refl, IH. reflexivity. Qed.

Lemma word_start_inner : forall c, word_start c = true -> word_inner c = true.
Proof. intros c H. unfold word_start in H. apply andb_prop in H as [H _]. apply andb_prop in H. apply H. Qed.

Lemma word_inner_not_blank : forall c, word_inner c = true -> (c =? 32) || (c =? 9) = false.
Proof.
  intros c H.
  destruct (c =? 32) eqn:E1; [apply N.eqb_eq in E1; subst; vm_compute in H; discriminate H|].
  destruct (c =? 9) eqn:E2; [apply N.eqb_eq in E2; subst; vm_compute in H; discriminate H|].
  reflexivity.
Qed.

Lemma take_word_all : forall s, forallb word_inner s = true -> take_word s = (s, []).
Proof.
  induction s as [|c s IH]; simpl; intros H; [reflexivity|].
  apply andb_prop in H as [Hc Hs]. rewrite Hc, (IH Hs). reflexivity.
Qed.

Lemma mem_word_start : forall cs c, forallb word_start cs = true -> memN c cs = true -> word_start c = true.
Proof.
  induction cs as [|a cs IH]; simpl; intros c H M; [discriminate M|].
  apply andb_prop in H as [Ha Hcs].
  unfold memN in M. simpl in M. apply orb_prop in M as [M|M].
  - apply N.eqb_eq in M. subst. exact Ha.
  - apply IH; assumption.
Qed.

Lemma all_mem_inner : forall cs s, forallb word_start cs = true -> forallb (fun c => memN c cs) s = true -> forallb word_inner s = true.
Proof.
  intros cs. induction s as [|c s IH]; simpl; intros H A; [reflexivity|].
  apply andb_prop in A as [Ac As].
  rewrite (word_start_inner _ (mem_word_start _ _ H Ac)), (IH H As). reflexivity.
Qed.

(* every default that a passing test lets through bare is read back as one token equal to it *)
Theorem bare_written_is_one_token :
  forall t s, bare_test_ok t = true -> writes_bare t s = true -> one_token s = true.
Proof.
  intros [cs|] s Hok Hw; simpl in Hok; [|discriminate Hok].
  destruct s as [|c r]; simpl in Hw; [discriminate Hw|].
  pose proof Hw as Hw0. apply andb_prop in Hw as [Hc Hr].
  pose proof (mem_word_start _ _ Hok Hc) as Hs.
  pose proof (word_start_inner _ Hs) as Hi.
  assert (Hall : forallb word_inner (c :: r) = true) by (apply (all_mem_inner cs); [exact Hok|exact Hw0]).
  unfold one_token, lex_word. simpl skip_blank. rewrite (word_inner_not_blank _ Hi). rewrite Hs.
  rewrite (take_word_all _ Hall). apply bstr_eqb_refl.
Qed.

(* a computed witness: the first text of at most three characters over {'+', '-', blank, '_', '7'} that the test writes bare and the
   reader does not see as that one token *)
Definition witness_alphabet : list N := [43; 45; 32; 95; 55].
Fixpoint texts_of_length (n : nat) : list bstr :=
  match n with O => [[]] | S k => flat_map (fun s => map (fun c => c :: s) witness_alphabet) (texts_of_length k) end.
Definition witness_texts : list bstr := texts_of_length 1 ++ texts_of_length 2 ++ texts_of_length 3.
Definition bare_witness (t : bare_test) : option bstr :=
  find (fun s => writes_bare t s && negb (one_token s)) witness_texts.

Definition digits_minus : list N := [48; 49; 50; 51; 52; 53; 54; 55; 56; 57; 45].
(* int() as the test is refuted (and the digits-and-minus test has no such witness) *)
Definition int_call_breaks : bool :=
  match bare_witness BIntCall with Some _ => true | None => false end
  && match bare_witness (BChars digits_minus) with Some _ => false | None => true end.
