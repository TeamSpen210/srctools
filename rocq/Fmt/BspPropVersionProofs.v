(** C11: proofs about the static-prop format selection tables (Fmt/BspPropVersion.v). *)
From Coq Require Import List NArith Bool Lia.
From SV Require Import Fmt.BspPropVersion.
Import ListNotations.
Open Scope N_scope.

(** [found_again c bv h st]: an object that holds format [st] (0 = none) for a file opened with header number [h] writes props
    in some format [w] (ladder [lw], header number [h']: the one it sets, or [h]), and a fresh object of the same BSP version
    that reads the saved file - records of the size of [w] - records [w], decodes the records with [w] and runs the same ladder. *)
Definition found_again (c : pv_cfg) (bv h st : N) : Prop :=
  exists r w lw h' sz, write_props c st h = Some (Some (r, w, lw, h')) /\ size_of c w = Some sz /\
                       read_sized c bv h' sz 0 = Some (Some (w, w, lw)).

Lemma forallb2_in : forall (A B : Type) (f : A -> B -> bool) la lb, forallb (fun a => forallb (f a) lb) la = true ->
  forall a b, In a la -> In b lb -> f a b = true.
Proof. intros A B f la lb H a b Ha Hb. rewrite forallb_forall in H. specialize (H a Ha). rewrite forallb_forall in H. exact (H b Hb). Qed.

Lemma reread_ok_spec : forall c bv h st, reread_ok (save_reread c bv h st) = true -> found_again c bv h st.
Proof.
  intros c bv h st Hok. unfold save_reread in Hok.
  destruct (write_props c st h) as [[[[[r w] lw] h']|]|] eqn:Hw; try discriminate.
  destruct (size_of c w) as [sz|] eqn:Hs; try discriminate.
  destruct (read_sized c bv h' sz 0) as [[[[r' d] ld]|]|] eqn:Hr; try discriminate.
  cbn in Hok.
  apply andb_true_iff in Hok. destruct Hok as [Hok H3]. apply andb_true_iff in Hok. destruct Hok as [H1 H2].
  apply N.eqb_eq in H1, H2, H3. subst. exists r, w, lw, h', sz. auto.
Qed.

(** History 1 for every point of the domain: whatever format the reader of the empty lump settles on is found again. *)
Theorem from_empty_stable : forall c, pv_from_empty_ok c = true ->
  forall bv h, In bv (c_bsp c) -> In h pv_hdrs ->
  forall st, read_empty c bv h 0 = Some (Some st) -> found_again c bv h st.
Proof.
  intros c Hok bv h Hbv Hh st Hre. apply forallb2_in with (a := bv) (b := h) in Hok; [|assumption..].
  unfold hist_from_empty_ok, hist_from_empty in Hok. rewrite Hre in Hok.
  destruct (save_reread c bv h st) as [x|] eqn:Hsr; cbn in Hok; try discriminate.
  apply reread_ok_spec. rewrite Hsr. exact Hok.
Qed.

(** History 3: props assigned to an object that never read the lump - no format recorded -, saved, read by a fresh object. *)
Theorem never_read_stable : forall c, pv_never_read_ok c = true ->
  forall bv h, In bv (c_bsp c) -> In h pv_hdrs -> found_again c bv h 0.
Proof.
  intros c Hok bv h Hbv Hh. apply forallb2_in with (a := bv) (b := h) in Hok; [|assumption..].
  apply reread_ok_spec. exact Hok.
Qed.

(** an empty lump is either rejected or leads to the above: no third outcome, and every row exists *)
Theorem from_empty_total : forall c, pv_from_empty_ok c = true ->
  forall bv h, In bv (c_bsp c) -> In h pv_hdrs ->
  read_empty c bv h 0 = Some None \/ exists st, read_empty c bv h 0 = Some (Some st).
Proof.
  intros c Hok bv h Hbv Hh. apply forallb2_in with (a := bv) (b := h) in Hok; [|assumption..].
  unfold hist_from_empty_ok, hist_from_empty in Hok.
  destruct (read_empty c bv h 0) as [[st|]|]; try discriminate; eauto.
Qed.

Lemma member_ids_in : forall c m, In m (member_ids c) <-> (1 <= m /\ m <= N.of_nat (List.length (c_members c))).
Proof.
  intros c m. unfold member_ids. rewrite in_map_iff. split.
  - intros [k [Hk Hin]]. apply in_seq in Hin. lia.
  - intros [H1 H2]. exists (N.to_nat (m - 1)). split; [lia|]. apply in_seq. lia.
Qed.

(** History 2: the format named by the caller is the format written; a fresh reader settles on a format with the same header
    number and record size and decodes with the format it records, with the writer's ladder; named to the reader, [m] is believed. *)
Theorem named_detected : forall c, pv_named_ok c = true ->
  forall bv m, In bv (c_bsp c) -> 1 <= m <= N.of_nat (List.length (c_members c)) ->
  exists lw h sz d ld,
    hdr_of c m = Some h /\ size_of c m = Some sz /\ write_props c m h = Some (Some (m, m, lw, h)) /\
    read_sized c bv h sz 0 = Some (Some (d, d, ld)) /\ (d = m -> ld = lw) /\ hdr_of c d = Some h /\ size_of c d = Some sz /\
    read_sized c bv h sz m = Some (Some (m, m, lw)) /\ read_empty c bv h m = Some (Some m).
Proof.
  intros c Hok bv m Hbv Hm. apply forallb2_in with (a := bv) (b := m) in Hok; [|assumption|apply member_ids_in; exact Hm].
  unfold hist_named_ok in Hok.
  destruct (hdr_of c m) as [h|]; try discriminate.
  destruct (size_of c m) as [sz|]; try discriminate.
  destruct (write_props c m h) as [[[[[r w] lw] h'']|]|] eqn:Hwp; try discriminate.
  apply andb_true_iff in Hok. destruct Hok as [Hok H12].
  apply andb_true_iff in Hok. destruct Hok as [Hok H4].
  apply andb_true_iff in Hok. destruct Hok as [Hok H3].
  apply andb_true_iff in Hok. destruct Hok as [Hok H0].
  apply andb_true_iff in Hok. destruct Hok as [H1 H2].
  destruct (read_sized c bv h sz 0) as [[[[r' d] ld]|]|] eqn:Hr0; try discriminate.
  destruct (read_sized c bv h sz m) as [[[[r'' d''] ld'']|]|] eqn:Hrm; try discriminate.
  apply andb_true_iff in H3. destruct H3 as [H3 H7].
  apply andb_true_iff in H3. destruct H3 as [H5 H6].
  destruct (hdr_of c d) as [h'|] eqn:Hhd; try discriminate.
  destruct (size_of c d) as [sz'|] eqn:Hsd; try discriminate.
  apply andb_true_iff in H7. destruct H7 as [H7 H8].
  apply andb_true_iff in H4. destruct H4 as [H4 H11].
  apply andb_true_iff in H4. destruct H4 as [H9 H10].
  destruct (read_empty c bv h m) as [[re|]|] eqn:Hre; try discriminate.
  apply N.eqb_eq in H0, H1, H2, H5, H7, H8, H9, H10, H11, H12.
  subst. exists lw, h, sz, d, ld.
  refine (conj _ (conj _ (conj _ (conj _ (conj _ (conj _ (conj _ (conj _ _)))))))); auto.
  intros Hdm. subst d. rewrite N.eqb_refl in H6. cbn in H6. apply N.eqb_eq in H6. exact H6.
Qed.

(** ... and when no other member has that (header number, record size), the fresh reader settles on [m] itself. *)
Theorem named_detected_unique : forall c, pv_named_ok c = true ->
  forall bv m, In bv (c_bsp c) -> 1 <= m <= N.of_nat (List.length (c_members c)) -> unique_pair c m = true ->
  exists lw h sz, hdr_of c m = Some h /\ size_of c m = Some sz /\ write_props c m h = Some (Some (m, m, lw, h)) /\
                  read_sized c bv h sz 0 = Some (Some (m, m, lw)).
Proof.
  intros c Hok bv m Hbv Hm Hu.
  destruct (named_detected c Hok bv m Hbv Hm) as [lw [h [sz [d [ld [Hh [Hs [Hw [Hr [Hl [Hhd [Hsd _]]]]]]]]]]]].
  exists lw, h, sz. repeat split; auto.
  assert (Hd : d = m).
  { unfold unique_pair in Hu. rewrite Hh, Hs in Hu. rewrite forallb_forall in Hu.
    assert (Hdin : In d (member_ids c)).
    { apply member_ids_in. unfold hdr_of, member_of in Hhd.
      destruct (d =? 0) eqn:Hd0; [discriminate|]. apply N.eqb_neq in Hd0.
      destruct (nth_error (c_members c) (N.to_nat (d - 1))) eqn:Hn; [|discriminate].
      assert (Hlt : (N.to_nat (d - 1) < List.length (c_members c))%nat) by (apply nth_error_Some; congruence). lia. }
    specialize (Hu d Hdin). rewrite Hhd, Hsd, !N.eqb_refl in Hu. cbn in Hu.
    rewrite orb_false_r in Hu. apply N.eqb_eq in Hu. exact Hu. }
  subst d. rewrite (Hl eq_refl) in Hr. exact Hr.
Qed.

(** The three histories together. *)
Theorem pv_property : forall c, pv_ok c = true ->
  forall bv, In bv (c_bsp c) ->
  (* the lump was empty when read: rejected, or the format recorded then is found again *)
  (forall h, In h pv_hdrs -> read_empty c bv h 0 = Some None \/
                             exists st, read_empty c bv h 0 = Some (Some st) /\ found_again c bv h st) /\
  (* the lump was never read *)
  (forall h, In h pv_hdrs -> found_again c bv h 0) /\
  (* the caller named the format: kept by the reader of an empty lump, written under its own header number, and a fresh
     reader finds a format of that header number and record size - the same one when no other member shares the pair *)
  (forall m, 1 <= m <= N.of_nat (List.length (c_members c)) ->
     exists h sz lw, hdr_of c m = Some h /\ size_of c m = Some sz /\ read_empty c bv h m = Some (Some m) /\
                     write_props c m h = Some (Some (m, m, lw, h)) /\ read_sized c bv h sz m = Some (Some (m, m, lw)) /\
                     (unique_pair c m = true -> read_sized c bv h sz 0 = Some (Some (m, m, lw)))).
Proof.
  intros c Hok bv Hbv. unfold pv_ok in Hok.
  apply andb_true_iff in Hok. destruct Hok as [Hok _].
  apply andb_true_iff in Hok. destruct Hok as [Hok Hnr].
  apply andb_true_iff in Hok. destruct Hok as [Hfe Hnm].
  split; [|split].
  - intros h Hh. destruct (from_empty_total c Hfe bv h Hbv Hh) as [Hr|[st Hst]]; [left; exact Hr|right].
    exists st. split; [exact Hst|]. exact (from_empty_stable c Hfe bv h Hbv Hh st Hst).
  - intros h Hh. exact (never_read_stable c Hnr bv h Hbv Hh).
  - intros m Hm.
    destruct (named_detected c Hnm bv m Hbv Hm) as [lw [h [sz [d [ld [Hh [Hs [Hw [Hr [Hl [Hhd [Hsd [Hrm Hre]]]]]]]]]]]]].
    exists h, sz, lw. repeat split; auto.
    intros Hu. destruct (named_detected_unique c Hnm bv m Hbv Hm Hu) as [lw' [h' [sz' [Hh' [Hs' [Hw' Hr']]]]]].
    rewrite Hh in Hh'. rewrite Hs in Hs'. injection Hh' as <-. injection Hs' as <-.
    rewrite Hw in Hw'. injection Hw' as <-. exact Hr'.
Qed.
