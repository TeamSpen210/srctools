(** Proofs about the keyed tables of the C20 writers, on top of C11's Fmt/BspDedupProofs.v (imported, not edited). *)
From Coq Require Import List String NArith Bool.
Import ListNotations.
From SV Require Import Fmt.BspDedup Fmt.BspDedupProofs Fmt.C20KeyTables.
Open Scope string_scope.
Open Scope list_scope.

(** Every table of a census that passes [tables_ok]: for any initial content and any sequence of requested objects (whose
    identifying attributes are [fields], whose identity determines them, and whose values are pairwise distinct under the
    transformations the reader itself applies), the record found under the number handed out for an object is that object's. *)
Theorem keyed_table_roundtrip : forall (ts : list dedup_table) name adm fields k tr l xs,
  tables_ok ts = true -> In (name, adm, fields, k) ts ->
  (forall v, tr "" v = v) ->
  (forall o, In o (l ++ xs) -> map fst (snd o) = fields) ->
  (forall o o', In o (l ++ xs) -> In o' (l ++ xs) -> fst o = fst o' -> o = o') ->
  (forall t, In t adm -> forall o o' f v v', In o (l ++ xs) -> In o' (l ++ xs) ->
     assoc_f f (snd o) = Some v -> assoc_f f (snd o') = Some v' -> tr t v = tr t v' -> v = v') ->
  forall s' is, dd_run (key_sem tr k) keyval_eqb (dd_init (key_sem tr k) l) xs = (s', is) ->
  Forall2 (fun o i => read_back (fst s') i = Some (snd o)) xs is /\ exists ext, fst s' = l ++ ext.
Proof.
  intros ts name adm fields k tr l xs Hts Hin Htr Hf Hid Hadm s' is H.
  unfold tables_ok in Hts. rewrite forallb_forall in Hts. specialize (Hts _ Hin). cbn in Hts.
  exact (dedup_key_roundtrip adm fields k tr l xs Hts Htr Hf Hid Hadm s' is H).
Qed.

(** A class whose comparison methods pass [kcmp_ok]: objects the dict treats as equal also hash equal (so the dict finds
    them), for any interpretation of the transformations. *)
Theorem class_equal_objects_hash_equal : forall eq ne hash tr (o o' : obj),
  kcmp_ok (CFields eq ne hash) = true -> (forall v, tr "" v = v) ->
  key_sem tr (KFields eq) o = key_sem tr (KFields eq) o' ->
  key_sem tr (KFields hash) o = key_sem tr (KFields hash) o'.
Proof.
  intros eq ne hash tr o o' Hok Htr E. cbn [kcmp_ok] in Hok.
  apply andb_prop in Hok. destruct Hok as [Hok _]. apply andb_prop in Hok. destruct Hok as [Hok _].
  apply andb_prop in Hok. destruct Hok as [_ Hh].
  cbn [key_sem] in *. injection E as E. f_equal.
  apply map_ext_in. intros [f t] Hin. cbn [fst snd].
  unfold hash_follows_eq in Hh. rewrite forallb_forall in Hh. specialize (Hh _ Hin).
  apply existsb_exists in Hh. destruct Hh as ([g u] & Hg & Hc). cbn [fst snd] in Hc.
  apply andb_prop in Hc. destruct Hc as [Hfg Hu]. apply String.eqb_eq in Hfg. subst g.
  pose proof (map_eq_pointwise _ _ _ _ _ E (f, u) Hg) as Ep. cbn [fst snd] in Ep.
  apply orb_prop in Hu. destruct Hu as [Hu|Hu]; apply String.eqb_eq in Hu; subst u; [exact Ep|].
  destruct (assoc_f f (snd o)) as [v|], (assoc_f f (snd o')) as [v'|]; cbn [option_map] in *; try discriminate; [|reflexivity].
  injection Ep as Ep. rewrite !Htr in Ep. subst v'. reflexivity.
Qed.

(** The class of seeded fault: [Bone.__eq__] / [__hash__] through [name.casefold()].  The comparison methods are consistent
    with each other ([kcmp_ok]), but the key no longer determines the name the reader keys bones by: the obligation is false,
    and the table gives "Weapon" and "weapon" one number, under which the reader finds "Weapon". *)
Definition bone_casefold : kcmp := CFields [("name", "casefold")] [("name", "casefold")] [("name", "casefold")].
Definition bone_exact : kcmp := CFields [("name", "")] [("name", "")] [("name", "")].
Theorem bone_key_casefold_refuted :
  kcmp_ok bone_casefold = true /\ kcmp_exact bone_casefold = false /\
  dedup_ok ("smd.Mesh.export:bone_indexes", [], ["name"], keyspec_of_class bone_casefold) = false /\
  (let k := key_sem tr_case (keyspec_of_class bone_casefold) in
   let '(s, is) := dd_run k keyval_eqb (dd_init k []) [bone_Weapon; bone_weapon] in
   is = [0; 0]%nat /\ read_back (fst s) 0 = Some (snd bone_Weapon) /\ snd bone_Weapon <> snd bone_weapon) /\
  kcmp_ok bone_exact = true /\ kcmp_exact bone_exact = true /\
  dedup_ok ("smd.Mesh.export:bone_indexes", [], ["name"], keyspec_of_class bone_exact) = true /\
  (let k := key_sem tr_case (keyspec_of_class bone_exact) in
   let '(s, is) := dd_run k keyval_eqb (dd_init k []) [bone_Weapon; bone_weapon; bone_Weapon] in
   is = [0; 1; 0]%nat /\ read_back (fst s) 1 = Some (snd bone_weapon)).
Proof. vm_compute. repeat split; try reflexivity. discriminate. Qed.

(** [__eq__] folds case, [__hash__] does not: equal objects with different hashes, the dict may or may not find them. *)
Theorem hash_finer_than_eq_refuted :
  kcmp_ok (CFields [("name", "casefold")] [("name", "casefold")] [("name", "")]) = false /\
  kcmp_ok (CFields [("name", "")] [("name", "")] [("name", "casefold")]) = true.
Proof. vm_compute. split; reflexivity. Qed.

(** The string pool keyed by the casefolded string: "Alyx" and "alyx" share an index. *)
Theorem pool_key_casefold_refuted :
  dedup_ok ("choreo.save_scenes_image_sync:add_to_pool", [], ["<value>"], KFields [("<value>", "casefold")]) = false /\
  dedup_ok ("choreo.save_scenes_image_sync:add_to_pool", [], ["<value>"], KValue) = true /\
  dedup_ok ("particles.Particle.export:name_to_elem", ["casefold"], ["name"], KFields [("name", "casefold")]) = true /\
  dedup_ok ("particles.Particle.export:name_to_elem", ["casefold"], ["name"], KFields [("name", "strip+casefold")]) = false.
Proof. vm_compute. repeat split; reflexivity. Qed.

(** Non-vacuity of [keyed_table_roundtrip]: a census with the bone table, and a run. *)
Example ex_bone_table_ok :
  tables_ok [("smd.Mesh.export:bone_indexes", [], ["name"], keyspec_of_class bone_exact)] = true.
Proof. reflexivity. Qed.
