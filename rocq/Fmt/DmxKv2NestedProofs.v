(** C14 — proofs about the nested KeyValues2 layout (Fmt/DmxKv2Nested.v). *)
From Coq Require Import NArith List Bool Lia PeanoNat.
From SV Require Import Text.Str Text.Escape Text.Tokenizer Fmt.DmxKv2 Fmt.DmxKv2Proofs Fmt.DmxKv2Nested.
Import ListNotations.
Open Scope N_scope.

(** * Induction over elements / attributes / items *)
Section Ind.
  Variables (Pe : nelem -> Prop) (Pa : nattr -> Prop) (Pi : nitem -> Prop).
  Hypothesis He : forall ty id nm attrs, Forall Pa attrs -> Pe (NElem ty id nm attrs).
  Hypothesis Ha : forall an at_ arr items, Forall Pi items -> Pa (NAttr an at_ arr items).
  Hypothesis HiS : forall s, Pi (NStr s).
  Hypothesis HiN : Pi NNull.
  Hypothesis HiR : forall u, Pi (NRef u).
  Hypothesis HiI : forall e, Pe e -> Pi (NInline e).
  Fixpoint nelem_ind' (e : nelem) : Pe e :=
    match e with
    | NElem ty id nm attrs =>
        He ty id nm attrs ((fix go (l : list nattr) : Forall Pa l :=
                              match l with [] => Forall_nil _ | a :: r => Forall_cons a (nattr_ind' a) (go r) end) attrs)
    end
  with nattr_ind' (a : nattr) : Pa a :=
    match a with
    | NAttr an at_ arr items =>
        Ha an at_ arr items ((fix go (l : list nitem) : Forall Pi l :=
                                match l with [] => Forall_nil _ | it :: r => Forall_cons it (nitem_ind' it) (go r) end) items)
    end
  with nitem_ind' (it : nitem) : Pi it :=
    match it with
    | NStr s => HiS s | NNull => HiN | NRef u => HiR u | NInline e => HiI e (nelem_ind' e)
    end.
  Lemma nested_ind : (forall e, Pe e) /\ (forall a, Pa a) /\ (forall it, Pi it).
  Proof. repeat split; [apply nelem_ind'|apply nattr_ind'|apply nitem_ind']. Qed.
End Ind.

(** * Token forms of the writer's output (the blanks do not matter) *)
Definition idt (id : option str) : tl :=
  match id with Some u => [(STRING, s_id); (STRING, s_elementid); (STRING, u); tNL] | None => [] end.
Definition namet (nm : str) : tl := [(STRING, s_name); (STRING, s_string); (STRING, nm); tNL].

Definition items_with (f : nitem -> tl) : list nitem -> tl :=
  fix go (l : list nitem) : tl := match l with [] => [] | it :: r => f it ++ toks_of (sep r) ++ go r end.
Fixpoint ebody (e : nelem) : tl :=
  match e with
  | NElem ty id nm attrs => tNL :: tBO :: tNL :: idt id ++ namet nm ++ flat_map atoks attrs ++ [tBC]
  end
with atoks (a : nattr) : tl :=
  match a with
  | NAttr an at_ arr items =>
      if arr then
        (STRING, an) :: (STRING, at_ ++ s_array) :: tNL :: tKO :: tNL :: items_with itoks items ++ [tKC; tNL]
      else match items with
           | [it] => if is_elem_type at_ then (STRING, an) :: itoks it ++ [tNL]
                     else match it with NStr v => [(STRING, an); (STRING, at_); (STRING, v); tNL] | _ => [] end
           | _ => []
           end
  end
with itoks (it : nitem) : tl :=
  match it with
  | NInline e => (STRING, ne_type e) :: ebody e
  | NStr s => [(STRING, s)]
  | NNull => [(STRING, s_element); (STRING, [])]
  | NRef u => [(STRING, s_element); (STRING, u)]
  end.
Definition attrst (attrs : list nattr) : tl := flat_map atoks attrs.
Definition itemst : list nitem -> tl := items_with itoks.

Lemma ebody_eq ty id nm attrs :
  ebody (NElem ty id nm attrs) = tNL :: tBO :: tNL :: idt id ++ namet nm ++ attrst attrs ++ [tBC].
Proof. reflexivity. Qed.
Lemma atoks_arr_eq an at_ items :
  atoks (NAttr an at_ true items) = (STRING, an) :: (STRING, at_ ++ s_array) :: tNL :: tKO :: tNL :: itemst items ++ [tKC; tNL].
Proof. reflexivity. Qed.
Lemma itemst_cons it r : itemst (it :: r) = itoks it ++ toks_of (sep r) ++ itemst r.
Proof. reflexivity. Qed.

Definition idl (k : nat) (id : option str) : list lexeme :=
  match id with
  | Some u => [(tabs (S k), LRaw s_id); ([SP], LRaw s_elementid); ([SP], LRaw u); ([], LNl)]
  | None => []
  end.
Definition namel (k : nat) (nm : str) : list lexeme :=
  [(tabs (S k), LRaw s_name); ([SP], LRaw s_string); ([SP], LQ nm); ([], LNl)].
Fixpoint lexn_items (k : nat) (l : list nitem) : list lexeme :=
  match l with
  | [] => []
  | it :: r => lexn_item (tabs (S (S k))) (S (S k)) it ++ sep r ++ lexn_items k r
  end.
Lemma lexn_elem_eq w k ty id nm attrs :
  lexn_elem w k (NElem ty id nm attrs) =
  [(w, LQ ty); ([], LNl); (tabs k, LBraceO); ([], LNl)] ++ idl k id ++ namel k nm ++
  flat_map (lexn_attr k) attrs ++ [(tabs k, LBraceC)].
Proof.
  cbn [lexn_elem].
  match goal with |- context [?F attrs ++ [(tabs k, LBraceC)]] => assert (E : F attrs = flat_map (lexn_attr k) attrs) end.
  { induction attrs as [|a r IH]; [reflexivity|]. cbn [flat_map]. now rewrite IH. }
  now rewrite E.
Qed.
Lemma lexn_attr_arr_eq k an at_ items :
  lexn_attr k (NAttr an at_ true items) =
  [(tabs (S k), LQ an); ([SP], LRaw (at_ ++ s_array)); ([], LNl); (tabs (S k), LBrackO); ([], LNl)] ++
  lexn_items k items ++ [(tabs (S k), LBrackC); ([], LNl)].
Proof.
  cbn [lexn_attr].
  match goal with |- context [?F items ++ [(tabs (S k), LBrackC); ([], LNl)]] => assert (E : F items = lexn_items k items) end.
  { induction items as [|it r IH]; [reflexivity|]. cbn [lexn_items]. now rewrite IH. }
  now rewrite E.
Qed.

Lemma toks_lexn :
  (forall e w k, toks_of (lexn_elem w k e) = (STRING, ne_type e) :: ebody e) /\
  (forall a k, toks_of (lexn_attr k a) = atoks a) /\
  (forall it w k, toks_of (lexn_item w k it) = itoks it).
Proof.
  apply nested_ind.
  - intros ty id nm attrs IH w k. rewrite ebody_eq, lexn_elem_eq. rewrite !toks_of_app.
    assert (E : toks_of (flat_map (lexn_attr k) attrs) = attrst attrs).
    { unfold attrst. induction IH as [|a r Ha _ IHr]; [reflexivity|]. cbn [flat_map]. now rewrite toks_of_app, IHr, Ha. }
    rewrite E. destruct id; reflexivity.
  - intros an at_ arr items IH k. destruct arr.
    + rewrite atoks_arr_eq, lexn_attr_arr_eq. rewrite !toks_of_app.
      assert (E : toks_of (lexn_items k items) = itemst items).
      { induction IH as [|it r Hit _ IHr]; [reflexivity|]. cbn [lexn_items]. now rewrite itemst_cons, !toks_of_app, IHr, Hit. }
      rewrite E. reflexivity.
    + cbn [lexn_attr atoks]. destruct items as [|it [|? ?]]; try reflexivity. inversion IH as [|? ? Hit _]; subst.
      destruct (is_elem_type at_).
      * cbn [toks_of map]. fold (toks_of (lexn_item [SP] (S k) it ++ [([], LNl)])). rewrite toks_of_app, Hit. reflexivity.
      * destruct it; reflexivity.
  - reflexivity.
  - reflexivity.
  - reflexivity.
  - intros e IH w k. cbn [lexn_item itoks]. apply IH.
Qed.

(** * The parser over the writer's tokens *)
Section NParse.
Variable T : tables.
Variable fold : str -> str.
Variable vtnames : list str.
Hypothesis Hvt : vtnames_ok T fold vtnames = true.

Lemma attrs_ok_forallb attrs :
  (fix go (l : list nattr) : bool := match l with [] => true | a :: r => nattr_ok T fold vtnames a && go r end) attrs
  = forallb (nattr_ok T fold vtnames) attrs.
Proof. induction attrs as [|a r IH]; [reflexivity|]. cbn [forallb]. now rewrite IH. Qed.
Lemma items_ok_forallb is_elem items :
  (fix go (l : list nitem) : bool := match l with [] => true | it :: r => nitem_ok T fold vtnames is_elem it && go r end) items
  = forallb (nitem_ok T fold vtnames is_elem) items.
Proof. induction items as [|a r IH]; [reflexivity|]. cbn [forallb]. now rewrite IH. Qed.

Lemma nelem_ok_parts top ty id nm attrs : nelem_ok T fold vtnames top (NElem ty id nm attrs) = true ->
  (top = true \/ type_is_keyword fold vtnames ty = false) /\
  match id with Some u => blank_free_uuid T u = true | None => True end /\
  forallb (nattr_ok T fold vtnames) attrs = true.
Proof.
  cbn [nelem_ok]. rewrite attrs_ok_forallb. intros H. apply andb_prop in H. destruct H as [H H3]. apply andb_prop in H.
  destruct H as [H1 H2]. repeat split; try assumption.
  - apply orb_prop in H1. destruct H1 as [H1|H1]; [now left|right]. now apply negb_true_iff.
  - destruct id; [assumption|exact I].
Qed.
Lemma nattr_ok_parts an at_ arr items : nattr_ok T fold vtnames (NAttr an at_ arr items) = true ->
  mem_str at_ vtnames = true /\ str_eqb an s_name = false /\
  forallb (nitem_ok T fold vtnames (is_elem_type at_)) items = true /\ (arr = true \/ exists it, items = [it]).
Proof.
  cbn [nattr_ok]. rewrite items_ok_forallb. intros H. repeat (apply andb_prop in H; destruct H as [H ?]).
  repeat split; try assumption; [now apply negb_true_iff|].
  destruct arr; [now left|right]. cbn [orb] in *. destruct items as [|it [|? ?]]; try discriminate. now exists it.
Qed.

(** what [type_is_keyword ty = false] buys at the two inline sites *)
Lemma not_keyword_scalar ty : type_is_keyword fold vtnames ty = false ->
  str_eqb (fold ty) s_elementid = false /\
  mem_str (if ends_with (fold ty) s_array then firstn (length (fold ty) - 6) (fold ty) else fold ty) vtnames = false.
Proof. unfold type_is_keyword. intros H. apply orb_false_iff in H. exact H. Qed.
Lemma not_keyword_array ty : type_is_keyword fold vtnames ty = false -> str_eqb ty s_element = false.
Proof.
  intros H. destruct (str_eqb ty s_element) eqn:E; [|reflexivity]. apply str_eqb_eq in E. subst ty. exfalso.
  destruct (vt_globals T fold vtnames Hvt) as (Hel & _).
  destruct (vtname_parts T fold _ (vt_facts T fold vtnames Hvt _ Hel)) as (Hf & _ & Hend & _).
  unfold type_is_keyword in H. rewrite Hf, Hend, Hel, orb_true_r in H. discriminate.
Qed.

Lemma pn_elem_S n ty nm0 l : pn_elem fold vtnames (S n) ty nm0 l =
  match expect BRACE_OPEN l with
  | Some (_, r) => match pn_body fold vtnames n None nm0 [] r with
                   | Some (id, nm, attrs, r2) => Some (NElem ty id nm attrs, r2)
                   | None => None
                   end
  | None => None
  end.
Proof. reflexivity. Qed.
Lemma pn_body_close n id nm acc v r : pn_body fold vtnames (S n) id nm acc ((BRACE_CLOSE, v) :: r) = Some (id, nm, rev acc, r).
Proof. reflexivity. Qed.
Lemma pn_body_nl n id nm acc v r : pn_body fold vtnames (S n) id nm acc ((NEWLINE, v) :: r) = pn_body fold vtnames n id nm acc r.
Proof. reflexivity. Qed.
Lemma pn_body_str n id nm acc an orig r1 :
  pn_body fold vtnames (S n) id nm acc ((STRING, an) :: (STRING, orig) :: r1) =
  let typ := fold orig in
  if str_eqb an s_id && str_eqb typ s_elementid then
    match expect STRING r1, id with
    | Some (u, r2), None => pn_body fold vtnames n (Some u) nm acc r2
    | _, _ => None
    end
  else if str_eqb an s_name then
    if str_eqb typ s_string then
      match expect STRING r1 with Some (v, r2) => pn_body fold vtnames n id v acc r2 | None => None end
    else None
  else
    let is_arr := ends_with typ s_array in
    let base := if is_arr then firstn (length typ - 6) typ else typ in
    if mem_str base vtnames then
      if is_arr then
        match expect BRACK_OPEN r1 with
        | Some (_, r2) =>
            match pn_array fold vtnames n (is_elem_type base) an [] r2 with
            | Some (its, r3) => pn_body fold vtnames n id nm (NAttr an base true its :: acc) r3
            | None => None
            end
        | None => None
        end
      else
        match expect STRING r1 with
        | Some (v, r2) =>
            pn_body fold vtnames n id nm (NAttr an base false [if is_elem_type base then nref_of v else NStr v] :: acc) r2
        | None => None
        end
    else
      match pn_elem fold vtnames n orig an r1 with
      | Some (e, r2) => pn_body fold vtnames n id nm (NAttr an s_element false [NInline e] :: acc) r2
      | None => None
      end.
Proof. reflexivity. Qed.
Lemma pn_array_S n is_elem an acc l : pn_array fold vtnames (S n) is_elem an acc l =
  match skip_nl l with
  | [] => None
  | (k, v) :: r =>
      if tok_eqb k BRACK_CLOSE then Some (rev acc, r)
      else if tok_eqb k STRING then
        if is_elem then
          if str_eqb v s_element then
            match expect STRING r with
            | Some (u, r1) => pn_array fold vtnames n is_elem an (nref_of u :: acc) (skip_comma r1)
            | None => None
            end
          else match pn_elem fold vtnames n v an r with
               | Some (e, r1) => pn_array fold vtnames n is_elem an (NInline e :: acc) (skip_comma r1)
               | None => None
               end
        else pn_array fold vtnames n is_elem an (NStr v :: acc) (skip_comma r)
      else None
  end.
Proof. reflexivity. Qed.

Lemma pn_body_skip p n id nm acc l : nls p = true ->
  pn_body fold vtnames (length p + n) id nm acc (p ++ l) = pn_body fold vtnames n id nm acc l.
Proof. apply (loop_skips_nls (fun n l => pn_body fold vtnames n id nm acc l)). reflexivity. Qed.

(** the [id] line and the [name] line of an element body, each after the newline that ends the line before *)
Lemma pn_body_id_line n nm acc u r :
  pn_body fold vtnames (S (S n)) None nm acc (tNL :: idt (Some u) ++ r) = pn_body fold vtnames n (Some u) nm acc (tNL :: r).
Proof.
  destruct (vt_globals T fold vtnames Hvt) as (_ & _ & Hfe & _).
  unfold tNL at 1. cbn [idt app]. rewrite pn_body_nl, pn_body_str. cbv zeta. rewrite Hfe, !str_eqb_refl. reflexivity.
Qed.
Lemma pn_body_name_line n id nm0 acc nm r :
  pn_body fold vtnames (S (S n)) id nm0 acc (tNL :: namet nm ++ r) = pn_body fold vtnames n id nm acc (tNL :: r).
Proof.
  destruct (vt_globals T fold vtnames Hvt) as (_ & _ & _ & Hfs).
  unfold tNL at 1, namet. cbn [app]. rewrite pn_body_nl, pn_body_str. cbv zeta. rewrite Hfs, !str_eqb_refl. reflexivity.
Qed.

(** an attribute line whose type token is a scalar type keyword reads one string as its value *)
Lemma pn_body_scalar_line n id nm acc an t r1 : mem_str t vtnames = true -> str_eqb an s_name = false ->
  pn_body fold vtnames (S n) id nm acc ((STRING, an) :: (STRING, t) :: r1) =
  match expect STRING r1 with
  | Some (v, r2) => pn_body fold vtnames n id nm (NAttr an t false [if is_elem_type t then nref_of v else NStr v] :: acc) r2
  | None => None
  end.
Proof.
  intros Hmem Hname. destruct (vtname_parts T fold _ (vt_facts T fold vtnames Hvt _ Hmem)) as (Hf & _ & Hend & Hne & _).
  rewrite pn_body_str. cbv zeta. now rewrite Hf, Hne, andb_false_r, Hname, Hend, Hmem.
Qed.

Definition Pe (e : nelem) : Prop := forall top rest n nm0, nelem_ok T fold vtnames top e = true ->
  (length (ebody e ++ rest) <= n)%nat ->
  pn_elem fold vtnames n (ne_type e) nm0 (ebody e ++ rest) = Some (e, rest).
Definition Pa (a : nattr) : Prop := nattr_ok T fold vtnames a = true ->
  exists pre, atoks a = pre ++ [tNL] /\ (1 <= length pre)%nat /\
    forall id nm acc rest n, (length (pre ++ tNL :: rest) <= S n)%nat ->
      pn_body fold vtnames (S n) id nm acc (pre ++ tNL :: rest) = pn_body fold vtnames n id nm (a :: acc) (tNL :: rest).
Definition Pi (it : nitem) : Prop := forall is_elem, nitem_ok T fold vtnames is_elem it = true ->
  (forall an acc p X n, nls p = true -> (length (p ++ itoks it ++ X) <= S n)%nat ->
     pn_array fold vtnames (S n) is_elem an acc (p ++ itoks it ++ X)
     = pn_array fold vtnames n is_elem an (it :: acc) (skip_comma X)) /\
  match it with NInline e => Pe e | _ => True end.

Lemma itoks_nonempty it : (1 <= length (itoks it))%nat.
Proof. destruct it; cbn [itoks length]; lia. Qed.

Lemma items_loop items : Forall Pi items -> forall is_elem an, forallb (nitem_ok T fold vtnames is_elem) items = true ->
  forall acc p rest n, nls p = true -> (length (p ++ itemst items ++ tKC :: rest) <= n)%nat ->
  pn_array fold vtnames n is_elem an acc (p ++ itemst items ++ tKC :: rest) = Some (rev acc ++ items, rest).
Proof.
  induction 1 as [|it r Hit _ IH]; intros is_elem an Hok acc p rest n Hp Hn.
  - rewrite app_length in Hn. cbn [itemst items_with app length] in *. destruct n as [|n]; [lia|].
    rewrite pn_array_S, (skip_nl_app p _ Hp). cbn [skip_nl tKC tok_eqb tok_tag N.eqb fst]. cbn -[pn_array]. now rewrite app_nil_r.
  - cbn [forallb] in Hok. apply andb_prop in Hok. destruct Hok as [Hi Hr].
    rewrite itemst_cons in *. rewrite <- !app_assoc in *. pose proof (itoks_nonempty it).
    destruct n as [|n]; [rewrite !app_length in Hn; lia|].
    destruct (Hit is_elem Hi) as [Harr _]. rewrite (Harr an acc p _ n Hp Hn).
    destruct (skip_comma_sep r (itemst r ++ tKC :: rest)) as (p' & Hp' & Hsk & Hlen).
    { destruct r; [|exact I]. exists rest. reflexivity. }
    rewrite Hsk. rewrite (IH is_elem an Hr (it :: acc) p' rest n Hp').
    + cbn [rev]. now rewrite <- app_assoc.
    + rewrite !app_length in *. assert (length (toks_of (sep r)) >= 1)%nat by (destruct r; cbn; lia). lia.
Qed.

Lemma attrs_loop attrs : Forall Pa attrs -> forallb (nattr_ok T fold vtnames) attrs = true ->
  forall id nm acc p rest n, nls p = true -> (length (p ++ attrst attrs ++ tBC :: rest) <= n)%nat ->
  pn_body fold vtnames n id nm acc (p ++ attrst attrs ++ tBC :: rest) = Some (id, nm, rev acc ++ attrs, rest).
Proof.
  induction 1 as [|a r Ha _ IH]; intros Hok id nm acc p rest n Hp Hn.
  - rewrite app_length in Hn. cbn [attrst flat_map app length] in *.
    replace n with (length p + S (n - length p - 1))%nat by lia. rewrite pn_body_skip by exact Hp.
    unfold tBC. rewrite pn_body_close. now rewrite app_nil_r.
  - cbn [forallb] in Hok. apply andb_prop in Hok. destruct Hok as [Hao Hro].
    destruct (Ha Hao) as (pre & Hpre & Hlen & Hstep).
    unfold attrst in *. cbn [flat_map] in *. rewrite Hpre in *. rewrite <- !app_assoc in *. cbn [app] in *.
    rewrite !app_length in Hn. cbn [length] in Hn. rewrite !app_length in Hn. cbn [length] in Hn.
    replace n with (length p + S (n - length p - 1))%nat by lia. rewrite pn_body_skip by exact Hp.
    rewrite Hstep by (rewrite !app_length; cbn [length]; rewrite !app_length; cbn [length]; lia).
    change (tNL :: flat_map atoks r ++ tBC :: rest) with ([tNL] ++ flat_map atoks r ++ tBC :: rest).
    rewrite (IH Hro id nm (a :: acc) [tNL] rest); [cbn [rev]; now rewrite <- app_assoc|reflexivity|].
    rewrite !app_length. cbn [length]. lia.
Qed.

Lemma nitem_ok_inline is_elem e :
  nitem_ok T fold vtnames is_elem (NInline e) = is_elem && nelem_ok T fold vtnames false e.
Proof. reflexivity. Qed.
Lemma nitem_ok_ref is_elem u : nitem_ok T fold vtnames is_elem (NRef u) = is_elem && blank_free_uuid T u.
Proof. reflexivity. Qed.
Lemma nitem_ok_null is_elem : nitem_ok T fold vtnames is_elem NNull = is_elem.
Proof. reflexivity. Qed.
Lemma nitem_ok_str is_elem s : nitem_ok T fold vtnames is_elem (NStr s) = negb is_elem.
Proof. reflexivity. Qed.
Lemma nref_of_ok u : blank_free_uuid T u = true -> nref_of u = NRef u.
Proof. unfold blank_free_uuid. intros H. apply andb_prop in H. destruct H as [_ H]. destruct u; [discriminate|reflexivity]. Qed.

Theorem nested_parse :
  (forall e, Pe e) /\ (forall a, Pa a) /\ (forall it, Pi it).
Proof.
  apply nested_ind.
  - (* element *)
    intros ty id nm attrs IH top rest n nm0 Hok Hn.
    destruct (nelem_ok_parts _ _ _ _ _ Hok) as (_ & Hid & Hattrs).
    rewrite ebody_eq in *. cbn [ne_type]. repeat (rewrite <- app_assoc in *; cbn [app] in * ). cbn [app length] in Hn.
    rewrite ?app_length in Hn. cbn [namet length] in Hn. rewrite ?app_length in Hn. cbn [length] in Hn.
    pose proof (fun id0 m => attrs_loop attrs IH Hattrs id0 nm [] [tNL] rest m eq_refl) as Htail. cbn [app rev] in Htail.
    destruct id as [u|]; cbn [idt length] in Hn.
    + do 5 (destruct n as [|n]; [lia|]).
      rewrite pn_elem_S. unfold tNL at 1, tBO. cbn [expect tok_eqb tok_tag N.eqb]. cbn -[pn_body attrst idt namet]. rewrite <- !app_assoc.
      rewrite pn_body_id_line, pn_body_name_line.
      cbn [app]. rewrite Htail; [reflexivity|]. cbn [length]. rewrite !app_length. cbn [length]. lia.
    + do 3 (destruct n as [|n]; [lia|]).
      rewrite pn_elem_S. unfold tNL at 1, tBO. cbn [expect tok_eqb tok_tag N.eqb]. cbn -[pn_body attrst namet]. rewrite <- !app_assoc.
      rewrite pn_body_name_line.
      cbn [app]. rewrite Htail; [reflexivity|]. cbn [length]. rewrite !app_length. cbn [length]. lia.
  - (* attribute *)
    intros an at_ arr items IH Hok.
    destruct (nattr_ok_parts _ _ _ _ Hok) as (Hmem & Hname & Hitems & Hshape).
    destruct (vtname_parts T fold _ (vt_facts T fold vtnames Hvt _ Hmem)) as (_ & Hfa & _ & _ & Hnea).
    destruct arr.
    + (* array *)
      rewrite atoks_arr_eq.
      exists ((STRING, an) :: (STRING, at_ ++ s_array) :: tNL :: tKO :: tNL :: itemst items ++ [tKC]).
      split; [cbn [app]; now rewrite <- app_assoc|]. split; [cbn [length]; lia|].
      intros id nm acc rest n Hn. cbn [app length] in Hn. rewrite <- app_assoc in Hn. cbn [app] in Hn.
      cbn [app]. rewrite <- app_assoc. cbn [app].
      rewrite pn_body_str. cbv zeta.
      rewrite Hfa, Hnea, andb_false_r, Hname, ends_with_app, strip_array, Hmem.
      unfold tNL at 1, tKO. cbn [expect tok_eqb tok_tag N.eqb]. cbn -[pn_body pn_array itemst].
      change (tNL :: itemst items ++ tKC :: tNL :: rest) with ([tNL] ++ itemst items ++ tKC :: tNL :: rest).
      rewrite (items_loop items IH (is_elem_type at_) an Hitems [] [tNL] (tNL :: rest) n eq_refl).
      * reflexivity.
      * rewrite !app_length in *. cbn [length] in *. lia.
    + (* scalar *)
      destruct Hshape as [Hd|[it ->]]; [discriminate|]. cbn [forallb] in Hitems. apply andb_prop in Hitems.
      destruct Hitems as [Hit _]. inversion IH as [|? ? Hpi _]; subst.
      cbn [atoks]. destruct (is_elem_type at_) eqn:Ee.
      * assert (at_ = s_element) by (now apply str_eqb_eq). subst at_.
        destruct (Hpi true Hit) as [_ Hinl].
        exists ((STRING, an) :: itoks it). split; [reflexivity|]. split; [cbn [length]; lia|].
        intros id nm acc rest n Hn.
        destruct it as [s| |u|e]; [rewrite nitem_ok_str in Hit; discriminate| |rewrite nitem_ok_ref in Hit|rewrite nitem_ok_inline in Hit].
        -- cbn [itoks app]. rewrite pn_body_scalar_line by assumption. reflexivity.
        -- cbn [andb] in Hit. cbn [itoks app]. rewrite pn_body_scalar_line by assumption.
           cbn [expect tok_eqb tok_tag N.eqb]. cbn -[pn_body nref_of]. now rewrite nref_of_ok.
        -- (* inline element *)
           cbn [andb] in Hit. destruct e as [ty eid enm eattrs].
           destruct (nelem_ok_parts _ _ _ _ _ Hit) as ([Htop|Hkw] & _); [discriminate|].
           destruct (not_keyword_scalar ty Hkw) as (Hk1 & Hk2).
           cbn [itoks ne_type app]. rewrite pn_body_str. cbv zeta.
           rewrite Hk1, andb_false_r, Hname.
           match goal with |- context [mem_str ?x vtnames] => replace (mem_str x vtnames) with false by (symmetry; exact Hk2) end.
           assert (Hx : pn_elem fold vtnames n ty an (ebody (NElem ty eid enm eattrs) ++ tNL :: rest)
                        = Some (NElem ty eid enm eattrs, tNL :: rest)).
           { apply (Hinl false (tNL :: rest) n an Hit).
             cbn [itoks ne_type app length] in Hn. rewrite app_length in *. cbn [length] in *. lia. }
           now rewrite Hx.
      * destruct it as [s| |u|e]; [|rewrite nitem_ok_null in Hit; discriminate|rewrite nitem_ok_ref in Hit; discriminate
                                   |rewrite nitem_ok_inline in Hit; discriminate].
        exists [(STRING, an); (STRING, at_); (STRING, s)]. split; [reflexivity|]. split; [cbn [length]; lia|].
        intros id nm acc rest n Hn.
        cbn [app]. rewrite pn_body_scalar_line, Ee by assumption. reflexivity.
  - (* NStr *)
    intros s is_elem Hok. rewrite nitem_ok_str in Hok. apply negb_true_iff in Hok. subst is_elem. split; [|exact I].
    intros an acc p X n Hp Hn.
    rewrite pn_array_S, (skip_nl_app p _ Hp). cbn [itoks app skip_nl tok_eqb tok_tag N.eqb]. reflexivity.
  - (* NNull *)
    intros is_elem Hok. rewrite nitem_ok_null in Hok. subst is_elem. split; [|exact I].
    intros an acc p X n Hp Hn.
    rewrite pn_array_S, (skip_nl_app p _ Hp). cbn [itoks app].
    cbn -[pn_array pn_elem skip_comma str_eqb s_element nref_of expect]. rewrite str_eqb_refl. reflexivity.
  - (* NRef *)
    intros u is_elem Hok. rewrite nitem_ok_ref in Hok. apply andb_prop in Hok. destruct Hok as [-> Hu]. split; [|exact I].
    intros an acc p X n Hp Hn.
    rewrite pn_array_S, (skip_nl_app p _ Hp). cbn [itoks app].
    cbn -[pn_array pn_elem skip_comma str_eqb s_element nref_of expect]. rewrite str_eqb_refl.
    cbn -[pn_array skip_comma nref_of]. now rewrite nref_of_ok.
  - (* NInline *)
    intros e IH is_elem Hok. rewrite nitem_ok_inline in Hok. apply andb_prop in Hok. destruct Hok as [-> He]. split; [|exact IH].
    intros an acc p X n Hp Hn.
    destruct e as [ty eid enm eattrs].
    destruct (nelem_ok_parts _ _ _ _ _ He) as ([Htop|Hkw] & _); [discriminate|].
    pose proof (not_keyword_array ty Hkw) as Hne.
    rewrite pn_array_S, (skip_nl_app p _ Hp). cbn [itoks ne_type app].
    cbn -[pn_array pn_elem skip_comma str_eqb s_element nref_of expect ebody]. rewrite Hne.
    rewrite app_length in Hn. cbn [itoks ne_type app length] in Hn.
    assert (Hx : pn_elem fold vtnames n ty an (ebody (NElem ty eid enm eattrs) ++ X) = Some (NElem ty eid enm eattrs, X)).
    { apply (IH false X n an He). lia. }
    now rewrite Hx.
Qed.
End NParse.

(** * The document, and the text *)
Section NDoc.
Variable T : tables.
Variable o : opts.
Variable fold : str -> str.
Variable vtnames : list str.
Hypothesis HT : kv2_tables_ok T = true.
Hypothesis Ho : kv2_opts_ok o = true.
Hypothesis Hvt : vtnames_ok T fold vtnames = true.

Definition chunkn (x : nelem) : tl := tNL :: (STRING, ne_type x) :: ebody x ++ [tNL].

Lemma pn_doc_skip p n acc l : nls p = true ->
  pn_doc fold vtnames (length p + n) acc (p ++ l) = pn_doc fold vtnames n acc l.
Proof. apply (loop_skips_nls (fun n l => pn_doc fold vtnames n acc l)). reflexivity. Qed.

Lemma ebody_nonempty e : (4 <= length (ebody e))%nat.
Proof. destruct e as [ty id nm attrs]. rewrite ebody_eq. cbn [length]. rewrite !app_length. cbn [namet length]. lia. Qed.

(** one element at the head, after newlines: [pn_elem] gets its own fuel, so any [n] will do *)
Lemma pn_doc_step e p n acc rest : nls p = true -> nelem_ok T fold vtnames true e = true ->
  pn_doc fold vtnames (length p + S n) acc (p ++ (STRING, ne_type e) :: ebody e ++ rest) = pn_doc fold vtnames n (e :: acc) rest.
Proof.
  intros Hp He. destruct (nested_parse T fold vtnames Hvt) as (HPe & _ & _).
  rewrite pn_doc_skip by exact Hp. cbn [pn_doc]. cbn [tok_eqb tok_tag N.eqb]. cbn -[pn_doc pn_elem ebody].
  now rewrite (HPe e true rest _ [] He (Nat.le_succ_diag_r _)).
Qed.

Lemma pn_doc_elems : forall es e acc p n, nls p = true -> nelem_ok T fold vtnames true e = true ->
  forallb (nelem_ok T fold vtnames true) es = true ->
  (length (p ++ (STRING, ne_type e) :: ebody e ++ tNL :: flat_map chunkn es) <= n)%nat ->
  pn_doc fold vtnames n acc (p ++ (STRING, ne_type e) :: ebody e ++ tNL :: flat_map chunkn es) = Some (rev acc ++ e :: es).
Proof.
  induction es as [|e2 es IH]; intros e acc p n Hp He Hes Hn; pose proof (ebody_nonempty e);
    rewrite app_length in Hn; cbn [length] in Hn; rewrite app_length in Hn; cbn [length] in Hn;
    replace n with (length p + S (n - length p - 1))%nat by lia; rewrite (pn_doc_step e p _ acc _ Hp He).
  - destruct (n - length p - 1)%nat as [|[|m]] eqn:Em; [lia|lia|]. reflexivity.
  - cbn [forallb] in Hes. apply andb_prop in Hes. destruct Hes as [He2 Hes].
    cbn [flat_map] in *. unfold chunkn at 1. unfold chunkn at 1 in Hn. cbn [app] in *. rewrite <- app_assoc in *. cbn [app] in *.
    change (tNL :: tNL :: (STRING, ne_type e2) :: ebody e2 ++ tNL :: flat_map chunkn es)
      with ([tNL; tNL] ++ (STRING, ne_type e2) :: ebody e2 ++ tNL :: flat_map chunkn es).
    rewrite (IH e2 (e :: acc) [tNL; tNL]); [cbn [rev]; now rewrite <- app_assoc|reflexivity|exact He2|exact Hes|].
    cbn [app length] in *. rewrite !app_length in *. cbn [length] in *. lia.
Qed.

Lemma lexn_doc_toks e es :
  toks_of (lexn_doc (e :: es)) = (STRING, ne_type e) :: ebody e ++ tNL :: flat_map chunkn es.
Proof.
  destruct toks_lexn as (Hte & _ & _).
  unfold lexn_doc. rewrite !toks_of_app, Hte. cbn [app]. f_equal. f_equal. cbn [toks_of map ltok_tok snd app]. fold tNL. f_equal.
  induction es as [|x es IH]; [reflexivity|]. cbn [flat_map]. rewrite toks_of_app, IH. f_equal.
  change (([], LNl) :: lexn_elem [] 0 x ++ [([], LNl)]) with ([([], LNl)] ++ lexn_elem [] 0 x ++ [([], LNl)]).
  rewrite !toks_of_app, Hte. reflexivity.
Qed.

Theorem parsen_tokens_doc d : ndoc_ok T fold vtnames d = true -> parsen_tokens fold vtnames (toks_of (lexn_doc d)) = Some d.
Proof.
  intros H. unfold ndoc_ok in H. apply andb_prop in H. destruct H as [Hne Hall].
  destruct d as [|e es]; [discriminate|]. cbn [forallb] in Hall. apply andb_prop in Hall. destruct Hall as [He Hes].
  unfold parsen_tokens. rewrite lexn_doc_toks.
  exact (pn_doc_elems es e [] [] _ eq_refl He Hes (Nat.le_succ_diag_r _)).
Qed.

(** every lexeme the nested writer emits is one the tokenizer lemma covers *)
Lemma blanks_tabs k : blanks (tabs k) = true.
Proof. induction k; [reflexivity|]. cbn [tabs repeat blanks forallb]. fold (tabs k). unfold blanks in IHk. now rewrite IHk. Qed.

Lemma lexn_ok :
  (forall e, forall top w k, blanks w = true -> nelem_ok T fold vtnames top e = true -> forallb (lexeme_ok T) (lexn_elem w k e) = true) /\
  (forall a, forall k, nattr_ok T fold vtnames a = true -> forallb (lexeme_ok T) (lexn_attr k a) = true) /\
  (forall it, forall is_elem w k, blanks w = true -> nitem_ok T fold vtnames is_elem it = true ->
              forallb (lexeme_ok T) (lexn_item w k it) = true).
Proof.
  destruct (literals_ok T fold vtnames Hvt) as (Hel & Heid & Hid & Hnm & Hst & Hnil). unfold literal_ok in *.
  apply nested_ind.
  - intros ty id nm attrs IH top w k Hw Hok.
    destruct (nelem_ok_parts T fold vtnames _ _ _ _ _ Hok) as (_ & Hu & Hattrs).
    rewrite lexn_elem_eq, !forallb_app.
    assert (Ha : forallb (lexeme_ok T) (flat_map (lexn_attr k) attrs) = true).
    { rewrite forallb_forall in Hattrs. rewrite Forall_forall in IH. rewrite forallb_flat_map'. apply forallb_forall.
      intros a Ha. exact (IH a Ha k (Hattrs a Ha)). }
    rewrite Ha. unfold lexeme_ok, idl, namel. cbn [fst snd forallb andb]. rewrite Hw, !blanks_tabs, Hnm, Hst. cbn [andb blanks forallb].
    destruct id as [u|]; [|reflexivity]. unfold blank_free_uuid in Hu. apply andb_prop in Hu. destruct Hu as [Hu _].
    unfold literal_ok in Hu. cbn [fst snd forallb andb]. rewrite !blanks_tabs, Hid, Heid, Hu. reflexivity.
  - intros an at_ arr items IH k Hok.
    destruct (nattr_ok_parts T fold vtnames _ _ _ _ Hok) as (Hmem & _ & Hitems & Hshape).
    destruct (vtname_literals T fold _ (vt_facts T fold vtnames Hvt _ Hmem)) as [Hlt Hla]. unfold literal_ok in Hlt, Hla.
    destruct arr.
    + rewrite lexn_attr_arr_eq, !forallb_app.
      assert (Hi : forallb (lexeme_ok T) (lexn_items k items) = true).
      { clear Hok Hshape. induction IH as [|it r Hit _ IHr]; [reflexivity|]. cbn [forallb] in Hitems. apply andb_prop in Hitems.
        destruct Hitems as [Hi Hr]. cbn [lexn_items]. rewrite !forallb_app, (Hit _ _ _ (blanks_tabs _) Hi), (IHr Hr).
        now destruct r. }
      rewrite Hi. unfold lexeme_ok. cbn [fst snd forallb andb]. rewrite !blanks_tabs.
      now rewrite Hla.
    + destruct Hshape as [Hd|[it ->]]; [discriminate|]. cbn [forallb] in Hitems. apply andb_prop in Hitems. destruct Hitems as [Hit _].
      inversion IH as [|? ? Hpi _]; subst. cbn [lexn_attr]. destruct (is_elem_type at_) eqn:Ee.
      * cbn [forallb]. rewrite forallb_app, (Hpi true [SP] (S k) eq_refl Hit). unfold lexeme_ok. cbn [fst snd forallb andb].
        now rewrite blanks_tabs.
      * destruct it as [s| |u|e]; [|rewrite nitem_ok_null in Hit; discriminate|rewrite nitem_ok_ref in Hit; discriminate
                                   |rewrite nitem_ok_inline in Hit; discriminate].
        unfold lexeme_ok. cbn [fst snd forallb blanks andb]. rewrite blanks_tabs.
        now rewrite Hlt.
  - intros s is_elem w k Hw _. cbn [lexn_item forallb]. unfold lexeme_ok. cbn [fst snd]. now rewrite Hw.
  - intros is_elem w k Hw _. cbn [lexn_item forallb]. unfold lexeme_ok. cbn [fst snd]. rewrite Hw, Hel, Hnil. reflexivity.
  - intros u is_elem w k Hw Hok. rewrite nitem_ok_ref in Hok. apply andb_prop in Hok. destruct Hok as [_ Hu].
    unfold blank_free_uuid in Hu. apply andb_prop in Hu. destruct Hu as [Hu _]. unfold literal_ok in Hu.
    cbn [lexn_item forallb]. unfold lexeme_ok. cbn [fst snd]. rewrite Hw, Hel, Hu. reflexivity.
  - intros e IH is_elem w k Hw Hok. rewrite nitem_ok_inline in Hok. apply andb_prop in Hok. destruct Hok as [_ He].
    cbn [lexn_item]. now apply (IH false).
Qed.

Lemma lexn_doc_ok d : ndoc_ok T fold vtnames d = true -> forallb (lexeme_ok T) (lexn_doc d) = true.
Proof.
  destruct lexn_ok as (Hle & _ & _).
  intros H. unfold ndoc_ok in H. apply andb_prop in H. destruct H as [_ Hall]. destruct d as [|e es]; [reflexivity|].
  cbn [forallb] in Hall. apply andb_prop in Hall. destruct Hall as [He Hes].
  unfold lexn_doc. rewrite !forallb_app, (Hle e true [] 0%nat eq_refl He), forallb_flat_map'. cbn [forallb andb].
  rewrite forallb_forall in Hes. apply forallb_forall. intros x Hx. cbn [forallb].
  rewrite forallb_app, (Hle x true [] 0%nat eq_refl (Hes x Hx)). reflexivity.
Qed.

(** The text [export_kv2] writes in the nested layout (after the header line), tokenized and parsed by
    [_parse_kv2_element] with its recursion into inline blocks, gives back the tree of blocks — provided no inline
    element has an attribute type keyword as its type. *)
Theorem kv2_nested_roundtrip_gen : forall d, ndoc_ok T fold vtnames d = true ->
  parsen_text T o fold vtnames (rendern_doc T d) = Some d.
Proof.
  intros d Hd. unfold parsen_text, rendern_doc.
  rewrite (tokenize_lexemes T o HT Ho (lexn_doc d) (lexn_doc_ok d Hd)).
  exact (parsen_tokens_doc d Hd).
Qed.
End NDoc.

Example kv2_nested_example :
  ndoc_ok pinned_tables (fun s => s) pinned_vtnames ex_ndoc = true.
Proof. vm_compute. reflexivity. Qed.
(** The carve-out is real: an inline element of type "element" inside an element array is read as a UUID reference,
    one of type "int" in a scalar attribute as a typed attribute (the defect repaired by writing them at the top level). *)
Example kv2_inline_keyword_refuted :
  let bad1 := [NElem [84] None [] [NAttr [97] s_element true [NInline (NElem s_element None [] [])]]] in
  let bad2 := [NElem [84] None [] [NAttr [97] s_element false [NInline (NElem [105;110;116] None [] [])]]] in
  ndoc_ok pinned_tables (fun s => s) pinned_vtnames bad1 = false /\
  parsen_text pinned_tables pinned_kv2_opts (fun s => s) pinned_vtnames (rendern_doc pinned_tables bad1) = None /\
  ndoc_ok pinned_tables (fun s => s) pinned_vtnames bad2 = false /\
  parsen_text pinned_tables pinned_kv2_opts (fun s => s) pinned_vtnames (rendern_doc pinned_tables bad2) = None.
Proof. vm_compute. repeat split; reflexivity. Qed.
