From Coq Require Import List String Bool.
From SV Require Import Fmt.VmfLite.
Import ListNotations.
Open Scope string_scope.

Lemma smem_In a l : smem a l = true <-> In a l.
Proof.
  unfold smem. rewrite existsb_exists. split.
  - intros [x [Hx He]]. apply String.eqb_eq in He. subst. exact Hx.
  - intros H. exists a. split; [exact H | apply String.eqb_refl].
Qed.

Lemma subset_In l1 l2 : subset l1 l2 = true <-> (forall a, In a l1 -> In a l2).
Proof.
  unfold subset. rewrite forallb_forall. split; intros H a Ha.
  - apply smem_In. auto.
  - apply smem_In. auto.
Qed.

Lemma find_entry_some b k l r : find_entry b k l = Some r -> In r l /\ le_block r = b /\ le_key r = k.
Proof.
  unfold find_entry. intros H. apply find_some in H. destruct H as [Hin Hk]. unfold same_key in Hk.
  apply andb_true_iff in Hk. destruct Hk as [H1 H2]. apply String.eqb_eq in H1. apply String.eqb_eq in H2. auto.
Qed.

Lemma lite_paired_keys c : lite_paired c = true -> keys_distinct (lc_written c) = true.
Proof. unfold lite_paired. intros H. apply andb_true_iff in H as [H _]. now apply andb_true_iff in H. Qed.

(** What the pairing obligation says of one written line, in the reader's own terms ... *)
Lemma paired_find c : lite_paired c = true ->
  forall w, In w (lc_written c) -> le_dyn w = false -> le_attrs w <> [] ->
  exists r, find_entry (le_block w) (le_key w) (lc_read c) = Some r /\ le_dyn r = false /\
            subset (le_attrs w) (le_attrs r) = true /\ subset (le_attrs r) (le_attrs w) = true.
Proof.
  unfold lite_paired. intros H w Hw Hd Hne.
  apply andb_true_iff in H as [H _]. apply andb_true_iff in H as [H _].
  rewrite forallb_forall in H. specialize (H w Hw). unfold entry_paired in H. rewrite Hd in H. cbn [orb] in H.
  destruct (le_attrs w) as [|a0 l0]; [congruence|].
  destruct (find_entry (le_block w) (le_key w) (lc_read c)) as [r|]; [|discriminate].
  apply andb_true_iff in H as [H H3]. apply andb_true_iff in H as [H1 H2]. apply negb_true_iff in H1. now exists r.
Qed.

(** ... and its meaning. *)
Theorem lite_paired_sound c : lite_paired c = true ->
  forall w, In w (lc_written c) -> le_dyn w = false -> le_attrs w <> [] ->
  exists r, In r (lc_read c) /\ le_block r = le_block w /\ le_key r = le_key w /\ le_dyn r = false /\
            forall a, In a (le_attrs w) <-> In a (le_attrs r).
Proof.
  intros H w Hw Hd Hne. destruct (paired_find c H w Hw Hd Hne) as (r & Ef & Hdr & S1 & S2).
  apply find_entry_some in Ef as (Hin & Hb & Hk). rewrite subset_In in S1, S2.
  exists r. repeat split; auto.
Qed.

Section ModelProofs.
  Variable V T : Type.
  Variable enc : lentry -> list V -> T.

  Lemma llookup_absent (o : obj V) b k l :
    existsb (same_key b k) l = false -> llookup T b k (map (line_of V T enc o) l) = None.
  Proof.
    induction l as [|e r IH]; cbn [existsb map llookup]; [reflexivity|].
    intros H. apply orb_false_iff in H. destruct H as [H1 H2]. unfold line_of at 1. unfold same_key in H1. rewrite H1. auto.
  Qed.

  Lemma existsb_filter_false (f g : lentry -> bool) l : existsb f l = false -> existsb f (filter g l) = false.
  Proof.
    induction l as [|e r IH]; cbn [existsb filter]; [reflexivity|]. intros H. apply orb_false_iff in H. destruct H as [H1 H2].
    destruct (g e); cbn [existsb]; [rewrite H1|]; auto.
  Qed.

  (** With distinct written keys, looking a literal written key up in the exported lines yields that line's text. *)
  Lemma llookup_export_lines (o : obj V) l w :
    keys_distinct l = true -> In w l -> le_dyn w = false ->
    llookup T (le_block w) (le_key w) (map (line_of V T enc o) (filter (fun w => negb (le_dyn w)) l)) = Some (enc w (map o (le_attrs w))).
  Proof.
    induction l as [|e r IH]; [intros _ []|].
    cbn [keys_distinct]. intros H Hin Hd. apply andb_true_iff in H. destruct H as [H1 H2]. apply negb_true_iff in H1.
    cbn [filter]. destruct Hin as [->|Hin].
    - rewrite Hd. cbn [negb map llookup]. unfold line_of at 1. rewrite !String.eqb_refl. reflexivity.
    - destruct (le_dyn e) eqn:Ee; cbn [negb]; [apply IH; auto|].
      cbn [map llookup]. unfold line_of at 1.
      destruct ((le_block e =? le_block w) && (le_key e =? le_key w))%bool eqn:Ek; [|apply IH; auto].
      exfalso. apply andb_true_iff in Ek. destruct Ek as [E1 E2]. apply String.eqb_eq in E1. apply String.eqb_eq in E2.
      assert (existsb (same_key (le_block e) (le_key e)) r = true) as Hx.
      { apply existsb_exists. exists w. split; [exact Hin|]. unfold same_key. rewrite E1, E2, !String.eqb_refl. reflexivity. }
      congruence.
  Qed.

  (** Composition: for a paired class, the value the reader finds under the key of a written scalar line (one attribute [a])
      is the text of [o a], it is stored into attribute [a] and nowhere else, and with a codec that inverts ([dec (enc v) = v],
      supplied per field by the string / number / output theorems) the attribute gets its original value back. *)
  Theorem lite_scalar_roundtrip c : lite_paired c = true ->
    forall w a, In w (lc_written c) -> le_dyn w = false -> le_attrs w = [a] ->
    exists r, In r (lc_read c) /\ le_dyn r = false /\ (forall a', In a' (le_attrs r) <-> a' = a) /\
      forall (o : obj V) (dec : T -> V), (forall v, dec (enc w [v]) = v) ->
        option_map dec (llookup T (le_block r) (le_key r) (export_lines V T enc c o)) = Some (o a).
  Proof.
    intros Hp w a Hw Hd Ha.
    destruct (lite_paired_sound c Hp w Hw Hd) as [r [Hr [Hb [Hk [Hdr Hat]]]]]; [rewrite Ha; discriminate|].
    exists r. split; [exact Hr|]. split; [exact Hdr|]. split.
    - intros a'. rewrite <- Hat, Ha. cbn [In]. split; [intros [E|[]]; auto | intros ->; auto].
    - intros o dec Hc. unfold export_lines. rewrite Hb, Hk.
      rewrite (llookup_export_lines o (lc_written c) w (lite_paired_keys c Hp) Hw Hd). rewrite Ha. cbn [map option_map]. rewrite Hc. reflexivity.
  Qed.

End ModelProofs.

(** Examples and refutations (a two-field class). *)
Definition ex_ok : liteclass := mk_liteclass "Ex"
  [mk_le "side" "uaxis" false ["uaxis"]; mk_le "side" "vaxis" false ["vaxis"]]
  [mk_le "side" "uaxis" false ["uaxis"]; mk_le "side" "vaxis" false ["vaxis"]] [] [].
Definition ex_swapped : liteclass := mk_liteclass "Ex"
  [mk_le "side" "uaxis" false ["uaxis"]; mk_le "side" "vaxis" false ["vaxis"]]
  [mk_le "side" "uaxis" false ["vaxis"]; mk_le "side" "vaxis" false ["uaxis"]] [] [].
Definition ex_forgotten : liteclass := mk_liteclass "Ex"
  [mk_le "side" "uaxis" false ["uaxis"]]
  [mk_le "side" "uaxis" false ["uaxis"]; mk_le "side" "vaxis" false ["vaxis"]] [] [].
Definition ex_duplicate : liteclass := mk_liteclass "Ex"
  [mk_le "side" "uaxis" false ["uaxis"]; mk_le "side" "uaxis" false ["vaxis"]]
  [mk_le "side" "uaxis" false ["uaxis"]] [] [].

Definition ex_enc : lentry -> list nat -> nat := fun _ l => hd 0%nat l.
Example lite_example_ok : lite_paired ex_ok = true /\ lite_attrs_written ex_ok = true.
Proof. split; vm_compute; reflexivity. Qed.
