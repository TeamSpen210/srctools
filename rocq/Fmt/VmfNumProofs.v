(** C06: proofs about Fmt/VmfNum.v (axiom-free). *)
From Coq Require Import ZArith List String Bool Lia.
From SV Require Import Fmt.VmfText Fmt.VmfTextProofs Fmt.VmfNum.
Import ListNotations.
Open Scope Z_scope.

Lemma p10_pos p : 0 < p10 p.
Proof. unfold p10. apply Z.pow_pos_nonneg; lia. Qed.

Lemma p10_ge6 p : (6 <= p)%nat -> 10 ^ 6 <= p10 p.
Proof. intros H. unfold p10. apply Z.pow_le_mono_r; lia. Qed.

(** A format that [meets] a class keeps every number within that class. *)
Theorem meets_sound f c : meets f c = true ->
  forall m d wn wd, 0 < d -> 0 < wd -> writes f m d wn wd -> within c m d wn wd.
Proof.
  intros Hm m d wn wd Hd Hwd Hw.
  assert (Hex : wn * d = m * wd -> within c m d wn wd).
  { intros E. destruct c; cbn [within]; [exact E| |]; replace (wn * d - m * wd) with 0 by lia; cbn [Z.abs]; nia. }
  destruct f as [| | |p|p]; cbn [writes] in Hw; try (apply Hex; exact Hw).
  - (* FmtF *)
    destruct c; cbn [meets] in Hm; try discriminate. apply Nat.leb_le in Hm.
    destruct Hw as [-> ->]. cbn [within].
    pose proof (round_he_error (m * p10 p) d Hd) as H.
    pose proof (p10_ge6 p Hm) as H6. pose proof (p10_pos p) as Hp.
    set (r := round_he (m * p10 p) d) in *. set (P := p10 p) in *.
    assert (2 * 10 ^ 6 * Z.abs (r * d - m * P) <= 10 ^ 6 * d) by lia.
    assert (10 ^ 6 * d <= d * P) by nia. lia.
  - (* FmtG *)
    destruct c; cbn [meets] in Hm; try discriminate. apply Nat.leb_le in Hm.
    cbn [within]. destruct Hw as [[-> ->]|(sn & sd & Hsn & Hsd & Hx & -> & ->)]; [cbn; lia|].
    pose proof (round_he_error (m * sd) (d * sn) ltac:(nia)) as H.
    set (r := round_he (m * sd) (d * sn)) in *.
    assert (H5 : 10 ^ 5 <= 10 ^ (Z.of_nat p - 1)) by (apply Z.pow_le_mono_r; lia).
    replace (r * sn * d - m * sd) with (r * (d * sn) - m * sd) by ring.
    assert (2 * 10 ^ 5 * Z.abs (r * (d * sn) - m * sd) <= 10 ^ 5 * (d * sn)) by lia.
    assert (10 ^ 5 * (d * sn) <= 10 ^ (Z.of_nat p - 1) * (sn * d)) by nia.
    lia.
Qed.

(** ... for every number of every field of a generated table. *)
Theorem field_meets_sound b k i c l : field_meets b k i c l = true ->
  (exists f, In f l /\ nf_block f = b /\ nf_key f = k /\ nf_idx f = i) /\
  forall f, In f l -> nf_block f = b -> nf_key f = k -> nf_idx f = i ->
  forall x, In x (nf_fmts f) -> forall m d wn wd, 0 < d -> 0 < wd -> writes x m d wn wd -> within c m d wn wd.
Proof.
  unfold field_meets. intros H. apply andb_true_iff in H. destruct H as [Hne Hall].
  assert (Hat : forall f, nf_at b k i f = true <-> nf_block f = b /\ nf_key f = k /\ nf_idx f = i).
  { intros f. unfold nf_at. rewrite !andb_true_iff, !String.eqb_eq, N.eqb_eq. tauto. }
  split.
  - destruct (filter (nf_at b k i) l) as [|f r] eqn:E; [discriminate|].
    assert (Hin : In f (filter (nf_at b k i) l)) by (rewrite E; left; reflexivity).
    apply filter_In in Hin. destruct Hin as [Hin Hf]. exists f. split; [exact Hin|]. apply Hat. exact Hf.
  - intros f Hin Hb Hk Hi x Hx. rewrite forallb_forall in Hall.
    assert (Hf : In f (filter (nf_at b k i) l)) by (apply filter_In; split; [exact Hin|apply Hat; auto]).
    specialize (Hall f Hf). rewrite forallb_forall in Hall. apply meets_sound. apply Hall. exact Hx.
Qed.

Theorem all_fields_meet_sound req l : all_fields_meet req l = true ->
  forall f, In f l -> forall x, In x (nf_fmts f) ->
  forall m d wn wd, 0 < d -> 0 < wd -> writes x m d wn wd -> within (req f) m d wn wd.
Proof.
  unfold all_fields_meet. intros H f Hf x Hx. rewrite forallb_forall in H. specialize (H f Hf).
  rewrite forallb_forall in H. apply meets_sound. apply H. exact Hx.
Qed.

(** Non-vacuity: 1/3 written with six decimals. *)
Example writes_f6_third : writes (FmtF 6) 1 3 333333 (10 ^ 6) /\ within PAbs6 1 3 333333 (10 ^ 6).
Proof. split; [split; reflexivity|cbn [within]; lia]. Qed.
Example writes_g6_big : writes (FmtG 6) 2469135 2 1234570 1 /\ within PSig6 2469135 2 1234570 1.
Proof. split; [right; exists 10, 1; repeat split; try lia; reflexivity|cbn [within]; lia]. Qed.
