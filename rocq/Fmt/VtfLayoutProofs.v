(** C15 — proofs about the mipmap table and the pixel bounds test (models in VtfLayout.v).
    The mipmap theorems are for ALL power-of-two sizes 2^a x 2^b (induction on min a b), not an enumeration. *)
From Coq Require Import ZArith NArith List Bool Lia.
From SV Require Import Fmt.VtfLayout.
Import ListNotations.

Lemma cmp_eqb_eq : forall a b, cmp_eqb a b = true -> a = b.
Proof. destruct a, b; cbn; congruence. Qed.

(** a disjunction of tests lets through exactly what every disjunct lets through *)
Lemma existsb_false : forall A (f : A -> bool) l, existsb f l = false <-> forall a, In a l -> f a = false.
Proof.
  intros A f l. rewrite <- not_true_iff_false, existsb_exists. split.
  - intros H a Ia. apply not_true_iff_false. eauto.
  - intros H (a & Ia & Ea). rewrite (H a Ia) in Ea. discriminate.
Qed.

Section Mip.
Open Scope N_scope.

Lemma pow2_pos : forall n, 1 <= 2 ^ n.
Proof. intros n. pose proof (N.pow_nonzero 2 n). lia. Qed.

Lemma pow2_S : forall a : nat, 2 ^ N.of_nat (S a) = 2 * 2 ^ N.of_nat a.
Proof. intros a. rewrite Nat2N.inj_succ. apply N.pow_succ_r'. Qed.

Lemma shiftr1_pow2_S : forall a : nat, N.shiftr (2 ^ N.of_nat (S a)) 1 = 2 ^ N.of_nat a.
Proof.
  intros a. rewrite N.shiftr_div_pow2. change (2 ^ 1) with 2. rewrite pow2_S.
  rewrite N.mul_comm. apply N.div_mul. discriminate.
Qed.

Lemma mip_loop_ok_brk : forall cfg, mip_loop_ok cfg = true ->
  (forall w h, brk cfg w h = (w <=? 1) || (h <=? 1)) /\ shr_w cfg = 1 /\ shr_h cfg = 1.
Proof.
  intros cfg H. unfold mip_loop_ok in H.
  apply andb_true_iff in H. destruct H as [H G]. apply andb_true_iff in H. destruct H as [H F].
  apply andb_true_iff in H. destruct H as [H E]. apply andb_true_iff in H. destruct H as [H D].
  apply andb_true_iff in H. destruct H as [H C]. apply andb_true_iff in H. destruct H as [A B].
  apply cmp_eqb_eq in A, C. apply N.eqb_eq in B, D, F, G.
  repeat split; try assumption.
  intros w h. unfold brk. rewrite A, B, C, D, E. reflexivity.
Qed.

(** The loop of [VTF.__init__] on a 2^a x 2^b texture creates exactly the levels 0 .. min a b, level i being
    2^(a-i) x 2^(b-i), and leaves [mip_count] = min a b (the LAST INDEX). For every sufficient fuel. *)
Lemma init_loop_spec : forall cfg, mip_loop_ok cfg = true ->
  forall m a b k fuel, m = Nat.min a b -> (m < fuel)%nat ->
    init_loop cfg fuel k (2 ^ N.of_nat a) (2 ^ N.of_nat b)
    = (map (level_of a b k) (seq 0 (S m)), k + N.of_nat m).
Proof.
  intros cfg Hok. destruct (mip_loop_ok_brk cfg Hok) as [Hbrk [Hsw Hsh]].
  induction m as [|m IH]; intros a b k fuel Hm Hf.
  - destruct fuel as [|f]; [lia|]. cbn [init_loop]. rewrite Hbrk.
    assert (E : (2 ^ N.of_nat a <=? 1) || (2 ^ N.of_nat b <=? 1) = true).
    { destruct a as [|a']; [reflexivity|]. destruct b as [|b']; [apply orb_true_r|]. cbn in Hm. lia. }
    rewrite E. cbn [seq map]. unfold level_of. rewrite !Nat.sub_0_r. change (N.of_nat 0) with 0. rewrite !N.add_0_r. reflexivity.
  - destruct a as [|a']; [cbn in Hm; lia|]. destruct b as [|b']; [cbn in Hm; lia|].
    cbn in Hm. injection Hm as Hm.
    destruct fuel as [|f]; [lia|]. cbn [init_loop]. rewrite Hbrk.
    assert (E : (2 ^ N.of_nat (S a') <=? 1) || (2 ^ N.of_nat (S b') <=? 1) = false).
    { apply orb_false_iff. split; apply N.leb_gt; rewrite pow2_S;
        [pose proof (pow2_pos (N.of_nat a')) | pose proof (pow2_pos (N.of_nat b'))]; lia. }
    rewrite E, Hsw, Hsh, !shiftr1_pow2_S.
    rewrite (IH a' b' (k + 1) f Hm ltac:(lia)).
    f_equal.
    + change (seq 0 (S (S m))) with (0%nat :: seq 1 (S m)). cbn [map]. f_equal.
      * unfold level_of. now rewrite N.add_0_r.
      * rewrite <- seq_shift, map_map. apply map_ext. intros i. unfold level_of.
        rewrite Nat2N.inj_succ. cbn [Nat.sub].
        replace (k + N.succ (N.of_nat i)) with (k + 1 + N.of_nat i) by lia. reflexivity.
    + rewrite Nat2N.inj_succ. lia.
Qed.

Lemma shiftr_pow2 : forall a i : nat, (i <= a)%nat -> N.shiftr (2 ^ N.of_nat a) (N.of_nat i) = 2 ^ N.of_nat (a - i).
Proof.
  intros a i H. rewrite N.shiftr_div_pow2. rewrite Nat2N.inj_sub.
  symmetry. apply N.pow_sub_r; [discriminate|lia].
Qed.

(** What [read] (and [save]) walk for a declared count [mc] <= number of levels: the first [mc] levels with
    the very same sizes, largest index first. *)
Lemma read_levels_spec : forall a b mc, (mc <= S (Nat.min a b))%nat ->
  read_levels (2 ^ N.of_nat a) (2 ^ N.of_nat b) mc = rev (map (level_of a b 0) (seq 0 mc)).
Proof.
  intros a b mc H. unfold read_levels, NrangeL. rewrite <- map_rev, <- map_rev, map_map.
  apply map_ext_in. intros i Hi. apply in_rev in Hi. apply in_seq in Hi.
  unfold level_of. rewrite !shiftr_pow2 by lia. rewrite N.add_0_l.
  rewrite !N.max_l by apply pow2_pos. reflexivity.
Qed.

Theorem mip_table_consistent : forall cfg, mip_loop_ok cfg = true -> mip_count_ok cfg = true ->
  forall a b fuel, (Nat.min a b < fuel)%nat ->
    let '(created, last) := init_loop cfg fuel 0 (2 ^ N.of_nat a) (2 ^ N.of_nat b) in
    created = ideal_levels a b
    /\ declared_count cfg last = N.of_nat (length created)
    /\ read_levels (2 ^ N.of_nat a) (2 ^ N.of_nat b) (length created) = rev created.
Proof.
  intros cfg Hok Hc a b fuel Hf.
  rewrite (init_loop_spec cfg Hok (Nat.min a b) a b 0 fuel eq_refl Hf).
  unfold mip_count_ok in Hc. apply N.eqb_eq in Hc. unfold declared_count. rewrite Hc.
  rewrite map_length, seq_length. repeat split.
  - rewrite Nat2N.inj_succ. lia.
  - now apply read_levels_spec.
Qed.

(** Halved dimensions: each level is half the previous one in both directions. *)
Theorem ideal_levels_halved : forall a b i, (i < Nat.min a b)%nat ->
  2 * 2 ^ N.of_nat (a - S i) = 2 ^ N.of_nat (a - i) /\ 2 * 2 ^ N.of_nat (b - S i) = 2 ^ N.of_nat (b - i).
Proof.
  intros a b i H. split; rewrite <- pow2_S; f_equal; f_equal; lia.
Qed.

(** ** The pinned tree ([count_delta] = 0): the declared count is the last index, so the levels below it are
    written and read back with the right sizes, and exactly the smallest level is never written. *)
Theorem mip_table_pinned : forall cfg, mip_loop_ok cfg = true -> count_delta cfg = 0 ->
  forall a b fuel, (Nat.min a b < fuel)%nat ->
    let '(created, last) := init_loop cfg fuel 0 (2 ^ N.of_nat a) (2 ^ N.of_nat b) in
    created = ideal_levels a b
    /\ declared_count cfg last = N.of_nat (Nat.min a b)
    /\ read_levels (2 ^ N.of_nat a) (2 ^ N.of_nat b) (Nat.min a b) = rev (removelast created).
Proof.
  intros cfg Hok Hc a b fuel Hf.
  rewrite (init_loop_spec cfg Hok (Nat.min a b) a b 0 fuel eq_refl Hf).
  unfold declared_count. rewrite Hc. repeat split.
  - lia.
  - rewrite read_levels_spec by lia. f_equal.
    rewrite seq_S, map_app. cbn [map]. now rewrite removelast_last.
Qed.

End Mip.

Section Bounds.
Open Scope Z_scope.

Lemma bvar_eqb_eq : forall a b, bvar_eqb a b = true -> a = b.
Proof. destruct a, b; cbn; congruence. Qed.
Lemma bbnd_eqb_eq : forall a b, bbnd_eqb a b = true -> a = b.
Proof. destruct a, b; cbn; try congruence. intros H. apply Z.eqb_eq in H. now subst. Qed.
Lemma atom_eqb_eq : forall a b, atom_eqb a b = true -> a = b.
Proof.
  intros [[v c] n] [[v' c'] n']. cbn. intros H.
  apply andb_true_iff in H. destruct H as [H H3]. apply andb_true_iff in H. destruct H as [H1 H2].
  apply bvar_eqb_eq in H1. apply cmp_eqb_eq in H2. apply bbnd_eqb_eq in H3. now subst.
Qed.

Lemma has_not_rejected : forall ds a x y w h, has ds a = true -> rejects ds x y w h = false -> atom_eval a x y w h = false.
Proof.
  intros ds a x y w h (a' & Hin & ->%atom_eqb_eq)%existsb_exists Hr. exact (proj1 (existsb_false _ _ _) Hr a' Hin).
Qed.

(** Every accepted (x, y) is inside the frame, and so are the four bytes of its pixel. *)
Theorem accepted_in_bounds : forall ds, bounds_ok ds = true ->
  forall x y w h, rejects ds x y w h = false ->
    0 <= x < w /\ 0 <= y < h /\ 0 <= pixel_off x y w /\ pixel_off x y w + 4 <= 4 * w * h.
Proof.
  intros ds H x y w h Hr. unfold bounds_ok in H.
  apply andb_true_iff in H. destruct H as [H H4]. apply andb_true_iff in H. destruct H as [H H3].
  apply andb_true_iff in H. destruct H as [H1 H2].
  pose proof (has_not_rejected _ _ _ _ _ _ H1 Hr) as A1. pose proof (has_not_rejected _ _ _ _ _ _ H2 Hr) as A2.
  pose proof (has_not_rejected _ _ _ _ _ _ H3 Hr) as A3. pose proof (has_not_rejected _ _ _ _ _ _ H4 Hr) as A4.
  cbn in A1, A2, A3, A4.
  apply Z.ltb_ge in A1, A3. apply Z.leb_gt in A2, A4.
  unfold pixel_off. repeat split; try lia; nia.
Qed.

(** ... for any offset formula that computes [pixel_off] and an access of at most four bytes *)
Corollary item_in_bounds : forall ds (off : Z -> Z -> Z -> Z -> Z) span,
  (forall x y w h, off x y w h = pixel_off x y w) -> bounds_ok ds = true -> span <=? 4 = true ->
  forall x y w h, rejects ds x y w h = false ->
    0 <= x < w /\ 0 <= y < h /\ 0 <= off x y w h /\ off x y w h + span <= 4 * w * h.
Proof.
  intros ds off span Hoff Hb Hs%Z.leb_le x y w h Hr. rewrite Hoff.
  destruct (accepted_in_bounds _ Hb x y w h Hr) as (A & B & C & D). repeat split; lia.
Qed.

End Bounds.

Section Scale.
Open Scope Z_scope.

(** What the source's four values have to be (proved of the generated functions in VtfGenProofs.v). *)
Definition scale_spec (c : scalecfg) : Prop :=
  forall sw sh w h, sw = w \/ sw = 2 * w ->
    horiz_off c sw sh w h = (if Z.eqb w sw then 0 else 4)
    /\ per_column c sw sh w h = (if Z.eqb w sw then 1 else 2)
    /\ vert_off c sw sh w h = (if Z.eqb h sh then 0 else 4 * sw)
    /\ per_row c sw sh w h = (if Z.eqb h sh then sw else 2 * sw).

(** the four values for a source that is twice as wide ([bw]) and/or twice as high ([bh]) as the destination *)
Lemma scale_spec_at : forall c, scale_spec c -> forall w h (bw bh : bool), 0 < w -> 0 < h ->
  let sw := if bw then 2 * w else w in let sh := if bh then 2 * h else h in
  horiz_off c sw sh w h = (if bw then 4 else 0) /\ per_column c sw sh w h = (if bw then 2 else 1)
  /\ vert_off c sw sh w h = (if bh then 4 * sw else 0) /\ per_row c sw sh w h = (if bh then 2 * sw else sw).
Proof.
  intros c Hc w h bw bh Hw Hh sw sh.
  destruct (Hc sw sh w h ltac:(destruct bw; auto)) as (-> & -> & -> & ->).
  replace (w =? sw) with (negb bw) by (destruct bw; [symmetry; apply Z.eqb_neq; lia|symmetry; apply Z.eqb_refl]).
  replace (h =? sh) with (negb bh) by (destruct bh; [symmetry; apply Z.eqb_neq; lia|symmetry; apply Z.eqb_refl]).
  destruct bw, bh; auto.
Qed.

(** the four source texels of destination texel (x, y): two columns where the source is twice as wide, two rows where it is
    twice as high, the same texel twice where it is not *)
Lemma src_offsets_at : forall c, scale_spec c -> forall w h x y (bw bh : bool), 0 < w -> 0 < h ->
  let sw := if bw then 2 * w else w in let sh := if bh then 2 * h else h in
  let x0 := if bw then 2 * x else x in let x1 := if bw then 2 * x + 1 else x in
  let y0 := if bh then 2 * y else y in let y1 := if bh then 2 * y + 1 else y in
  src_offsets c sw sh w h x y = [texel_off sw x0 y0; texel_off sw x1 y0; texel_off sw x0 y1; texel_off sw x1 y1].
Proof.
  intros c Hc w h x y bw bh Hw Hh. cbv zeta. unfold src_offsets.
  destruct (scale_spec_at c Hc w h bw bh Hw Hh) as (-> & -> & -> & ->). unfold texel_off.
  destruct bw, bh; repeat (apply (f_equal2 (@cons Z)); [ring|]); reflexivity.
Qed.

(** Halving both directions: destination texel (x, y) is made from the 2x2 source block at (2x, 2y), and all
    four source texels lie inside the source buffer. *)
Theorem scale_down_block : forall c, scale_spec c ->
  forall w h x y, 0 < w -> 0 < h -> 0 <= x < w -> 0 <= y < h ->
    let sw := 2 * w in let sh := 2 * h in
    src_offsets c sw sh w h x y
    = [texel_off sw (2 * x) (2 * y); texel_off sw (2 * x + 1) (2 * y);
       texel_off sw (2 * x) (2 * y + 1); texel_off sw (2 * x + 1) (2 * y + 1)]
    /\ Forall (fun o => 0 <= o /\ o + 4 <= 4 * sw * sh) (src_offsets c sw sh w h x y).
Proof.
  intros c Hc w h x y Hw Hh Hx Hy sw sh. subst sw sh. rewrite (src_offsets_at c Hc w h x y true true Hw Hh).
  split; [reflexivity|]. unfold texel_off. repeat constructor; nia.
Qed.

Lemma terms_eqb_eq : forall a b, terms_eqb a b = true -> a = b.
Proof.
  induction a as [|[x y] a IH]; destruct b as [|[u v] b]; cbn; try discriminate; [reflexivity|].
  unfold terms_eqb. cbn. intros H. apply andb_true_iff in H. destruct H as [Hl H].
  apply andb_true_iff in H. destruct H as [Hh Ht]. apply andb_true_iff in Hh. destruct Hh as [H1 H2].
  apply Bool.eqb_prop in H1, H2. subst. f_equal. apply IH. unfold terms_eqb. now rewrite Hl, Ht.
Qed.

(** The bilinear filter writes the floor of the mean of the 2x2 parent block, channel by channel. *)
Theorem bilinear_is_block_mean : forall c terms div, scale_spec c -> terms_eqb terms block_terms = true -> div = 4 ->
  forall src w h x y ch, 0 < w -> 0 < h ->
    let sw := 2 * w in let sh := 2 * h in
    bilinear c terms div src sw sh w h x y ch
    = (src (texel_off sw (2 * x) (2 * y) + ch) + src (texel_off sw (2 * x + 1) (2 * y) + ch)
       + src (texel_off sw (2 * x) (2 * y + 1) + ch) + src (texel_off sw (2 * x + 1) (2 * y + 1) + ch)) / 4.
Proof.
  intros c terms div Hc Ht -> src w h x y ch Hw Hh sw sh.
  apply terms_eqb_eq in Ht. subst terms sw sh. unfold bilinear, block_terms, term_off. cbn [map fold_right fst snd].
  destruct (scale_spec_at c Hc w h true true Hw Hh) as (-> & -> & -> & ->).
  unfold texel_off. f_equal. rewrite !Z.add_0_r, !Z.add_assoc. repeat apply (f_equal2 Z.add); apply f_equal; ring.
Qed.

(** Same size in one direction (never produced by the mip table, but allowed by [rescale_from]). *)
Theorem scale_down_row : forall c, scale_spec c ->
  forall w h x y, 0 < w -> 0 < h -> 0 <= x < w -> 0 <= y < h ->
    let sw := 2 * w in
    src_offsets c sw h w h x y
    = [texel_off sw (2 * x) y; texel_off sw (2 * x + 1) y; texel_off sw (2 * x) y; texel_off sw (2 * x + 1) y].
Proof.
  intros c Hc w h x y Hw Hh _ _. exact (src_offsets_at c Hc w h x y true false Hw Hh).
Qed.

Theorem scale_down_column : forall c, scale_spec c ->
  forall w h x y, 0 < w -> 0 < h -> 0 <= x < w -> 0 <= y < h ->
    let sh := 2 * h in
    src_offsets c w sh w h x y
    = [texel_off w x (2 * y); texel_off w x (2 * y); texel_off w x (2 * y + 1); texel_off w x (2 * y + 1)].
Proof.
  intros c Hc w h x y Hw Hh _ _. exact (src_offsets_at c Hc w h x y false true Hw Hh).
Qed.
End Scale.
