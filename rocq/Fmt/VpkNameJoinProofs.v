(** Proofs about the name helpers as read from the source (Fmt/VpkNameJoin.v). *)
From Coq Require Import List NArith Bool.
From SV Require Import Fmt.VpkDir SM.VpkProofs Fmt.VpkName Fmt.VpkNameSplit Fmt.VpkNameJoin.
Import ListNotations.
Open Scope N_scope.

(** ---- an accepted table is [join_parts] ---- *)
Definition jatom_val (k : key) (a : jatom) : bytes :=
  let '(e, d, n) := k in match a with APath => d | AName => n | AExt => e | AByte b => [b] end.
Definition aeval (k : key) (l : list jatom) : bytes := flat_map (jatom_val k) l.

Lemma jatoms_eqb_eq a : forall b, jatoms_eqb a b = true -> a = b.
Proof.
  induction a as [|x a IH]; intros [|y b] H; try discriminate; [reflexivity|].
  cbn in H. apply andb_true_iff in H. destruct H as [H1 H2]. f_equal; [|now apply IH].
  destruct x, y; try discriminate; try reflexivity. cbn in H1. apply N.eqb_eq in H1. now subst.
Qed.

Lemma flat_map_bytes k b : flat_map (jatom_val k) (map AByte b) = b.
Proof. destruct k as [[e d] n]. induction b as [|x b IH]; [reflexivity|]. cbn. now rewrite IH. Qed.

Lemma aeval_jatoms e d n ps :
  aeval (e, d, n) (flat_map (jatoms (jnil d) (jnil n) (jnil e)) ps) = jeval (e, d, n) ps.
Proof.
  unfold aeval, jeval. induction ps as [|p ps IH]; [reflexivity|].
  cbn [flat_map]. rewrite flat_map_app, IH. f_equal.
  destruct p; cbn [jatoms jpiece_val].
  - destruct d; reflexivity || (cbn; now rewrite app_nil_r).
  - destruct n; reflexivity || (cbn; now rewrite app_nil_r).
  - destruct e; reflexivity || (cbn; now rewrite app_nil_r).
  - apply (flat_map_bytes (e, d, n)).
Qed.

Lemma aeval_want e d n : aeval (e, d, n) (want_atoms (jnil d) (jnil n) (jnil e)) = join_parts (e, d, n).
Proof.
  unfold aeval, want_atoms, join_parts.
  destruct d as [|d0 d'], n as [|n0 n'], e as [|e0 e']; cbn [jnil flat_map app jatom_val]; rewrite ?app_nil_r; try reflexivity;
    repeat (rewrite <- ?app_assoc; cbn [app]); reflexivity.
Qed.

(** Every table accepted by [join_table_ok] is [join_parts] of the hand model, on every key. *)
Theorem join_table_ok_is_join_parts tb : join_table_ok tb = true -> forall k, join_k tb k = Some (join_parts k).
Proof.
  intros H [[e d] n]. apply andb_prop in H as [Hrows Hcov]. rewrite forallb_forall in Hrows, Hcov.
  assert (Hs : In (jnil d, jnil n, jnil e) all_jscen) by (destruct d, n, e; cbn; auto 9).
  destruct (find_covered (jrow_matches (e, d, n)) tb (Hcov _ Hs)) as (r & Hf & Hin & Hm).
  unfold join_k. rewrite Hf. specialize (Hrows r Hin).
  apply andb_prop in Hm as [Hm He]. apply andb_prop in Hm as [Hd Hn].
  apply eqb_prop in Hd, Hn, He. unfold jrow_ok in Hrows. rewrite Hd, Hn, He in Hrows.
  apply jatoms_eqb_eq in Hrows. f_equal. rewrite <- aeval_jatoms, Hrows. apply aeval_want.
Qed.

(** ---- an accepted description of _get_file_parts is [file_parts_k] ---- *)
Theorem gparts_ok_is_file_parts g : gparts_ok g = true -> forall normpath k f,
  file_parts_g normpath k g f = file_parts_k normpath k f.
Proof.
  unfold gparts_ok. destruct (gparts_eq_dec g gparts_pinned) as [->|]; [|discriminate].
  intros _ normpath k f. unfold file_parts_g, file_parts_k. destruct f as [s|d x|d n e]; cbn [gparts_pinned gp_str gp_pair gp_triple gp_split gp_chain].
  - cbn [psrc_val]. destruct (split_path s) as [h t]. cbn [fst snd]. destruct (split_ext_k k t []). reflexivity.
  - cbn [psrc_val form_elems]. change (nth (N.to_nat 0) [d; x] []) with d. change (nth (N.to_nat 1) [d; x] []) with x.
    destruct (split_ext_k k x []). reflexivity.
  - cbn [psrc_val form_elems]. change (nth (N.to_nat 0) [d; n; e] []) with d. change (nth (N.to_nat 1) [d; n; e] []) with n.
    change (nth (N.to_nat 2) [d; n; e] []) with e. destruct (split_ext_k k n e). reflexivity.
Qed.

(** ---- string lemmas ---- *)
Lemma rsplit1_none c s : jhas c s = false -> rsplit1 c s = None.
Proof.
  induction s as [|x s IH]; [reflexivity|]. cbn. intros H. apply orb_false_iff in H. destruct H as [H1 H2].
  rewrite (IH H2), H1. reflexivity.
Qed.

Lemma rsplit1_app c a b : jhas c b = false -> rsplit1 c (a ++ c :: b) = Some (a, b).
Proof.
  intros H. induction a as [|x a IH]; cbn.
  - rewrite (rsplit1_none _ _ H), N.eqb_refl. reflexivity.
  - rewrite IH. reflexivity.
Qed.

Lemma rsplit1_spec c s : forall a b, rsplit1 c s = Some (a, b) -> s = a ++ c :: b.
Proof.
  induction s as [|x s IH]; intros a b H; [discriminate|]. cbn in H.
  destruct (rsplit1 c s) as [[a' b']|].
  - inversion H; subst. cbn. f_equal. now apply IH.
  - destruct (x =? c) eqn:E; [|discriminate]. apply N.eqb_eq in E. inversion H; subst. reflexivity.
Qed.

Lemma rstrip_snoc c p : rstrip c (p ++ [c]) = rstrip c p.
Proof.
  induction p as [|x p IH]; cbn.
  - now rewrite N.eqb_refl.
  - now rewrite IH.
Qed.

Lemma rstrip_all c p : forallb (fun x => x =? c) p = true -> rstrip c p = [].
Proof.
  induction p as [|x p IH]; [reflexivity|]. cbn. intros H. apply andb_true_iff in H. destruct H as [H1 H2].
  rewrite (IH H2), H1. reflexivity.
Qed.

Lemma rstrip_idem c p : rstrip c (rstrip c p) = rstrip c p.
Proof.
  induction p as [|x p IH]; [reflexivity|]. cbn.
  destruct (rstrip c p) as [|y r] eqn:E.
  - destruct (x =? c) eqn:Ex; cbn; [reflexivity|]. now rewrite Ex.
  - cbn. cbn in IH. rewrite IH. reflexivity.
Qed.

Lemma dot_empty_fix q : rstrip 47 q = q -> rstrip 47 (match q with [46] => [] | _ => q end) = match q with [46] => [] | _ => q end.
Proof.
  intros Hq. destruct q as [|a [|b q']]; [exact Hq| |].
  - destruct a as [|p]; [exact Hq|].
    do 6 (try (destruct p as [p|p|]; try exact Hq)); reflexivity.
  - destruct a as [|p]; [exact Hq|].
    do 6 (try (destruct p as [p|p|]; try exact Hq)).
Qed.

Lemma norm_dir_fix_rstrip normpath d : norm_dir normpath d = d -> rstrip 47 d = d.
Proof. unfold norm_dir. intros H. rewrite <- H. apply dot_empty_fix, rstrip_idem. Qed.

Lemma split_path_noslash t : jhas 47 t = false -> split_path t = ([], t).
Proof. intros H. unfold split_path. now rewrite (rsplit1_none _ _ H). Qed.

Lemma split_path_join d t : d <> [] -> rstrip 47 d = d -> jhas 47 t = false -> split_path (d ++ 47 :: t) = (d, t).
Proof.
  intros Hd Hr Ht. unfold split_path. rewrite (rsplit1_app _ _ _ Ht).
  destruct (forallb (fun x => x =? 47) (d ++ [47])) eqn:E.
  - rewrite forallb_app in E. apply andb_true_iff in E. destruct E as [E _].
    apply rstrip_all in E. rewrite Hr in E. contradiction.
  - now rewrite rstrip_snoc, Hr.
Qed.

Lemma jhas_app c a b : jhas c (a ++ b) = jhas c a || jhas c b.
Proof. unfold jhas. apply existsb_app. Qed.

(** ---- joining inverts splitting ---- *)

(** The listed name of a listable key resolves back to the key: for every os.path.normpath. *)
Theorem parts_of_join normpath k : key_listable normpath k ->
  file_parts normpath (NStr (join_parts k)) = k.
Proof.
  destruct k as [[e d] n]. intros (Hd & Hn & He & Hed & Hnd).
  assert (Ht : jhas 47 (n ++ match e with [] => [] | _ => [46] end ++ e) = false).
  { rewrite jhas_app, Hn. destruct e as [|e0 e']; [reflexivity|]. cbn in He |- *. exact He. }
  assert (Hsp : split_path (join_parts (e, d, n)) = (d, n ++ match e with [] => [] | _ => [46] end ++ e)).
  { unfold join_parts. destruct d as [|d0 d'].
    - cbn [app]. now apply split_path_noslash.
    - change ((d0 :: d') ++ [47] ++ n ++ match e with [] => [] | _ => [46] end ++ e)
        with ((d0 :: d') ++ 47 :: (n ++ match e with [] => [] | _ => [46] end ++ e)).
      apply split_path_join; [discriminate| |exact Ht]. now apply (norm_dir_fix_rstrip normpath). }
  unfold file_parts. rewrite Hsp.
  assert (Hse : split_ext (n ++ match e with [] => [] | _ => [46] end ++ e) [] = (n, e)).
  { unfold split_ext. destruct e as [|e0 e'].
    - cbn [app]. rewrite app_nil_r. now rewrite (rsplit1_none _ _ (Hnd eq_refl)).
    - cbn [app]. now rewrite (rsplit1_app 46 n (e0 :: e') Hed). }
  rewrite Hse, Hd. reflexivity.
Qed.

(** The same for the generated objects: an accepted join table, an accepted description of _get_file_parts, a split at the last dot. *)
Theorem generated_parts_of_join normpath sk g tb : split_kind_ok sk = true -> gparts_ok g = true -> join_table_ok tb = true ->
  forall k, key_listable normpath k ->
  exists s, join_k tb k = Some s /\ file_parts_g normpath sk g (NStr s) = k.
Proof.
  intros Hsk Hg Htb k Hk. exists (join_parts k). split; [now apply join_table_ok_is_join_parts|].
  rewrite (gparts_ok_is_file_parts g Hg). destruct sk as [c|c|]; [|discriminate|discriminate]. cbn in Hsk. apply N.eqb_eq in Hsk. subst c.
  now apply parts_of_join.
Qed.

(** Seeded c13_8: the split done with os.path.splitext.  It agrees with "cut at the last '.'" except for names that start with dots and
    have no later dot: the string 'a/.b' resolves to (folder 'a', name '.b', no extension), while the entry the 3-tuple ('a', '', 'b')
    names — and load_dirfile creates for such a file — is (folder 'a', name '', extension 'b').  Both are listed as 'a/.b'; the listed name
    of the second one does not resolve to it. *)
Lemma name_forms_splitext_refuted :
  let s := [97; 47; 46; 98] in
  split_kind_ok SplitExt = false
  /\ file_parts_k posix_normpath SplitExt (NStr s) = ([], [97], [46; 98])
  /\ file_parts_k posix_normpath SplitExt (NTriple [97] [] [98]) = ([98], [97], [])
  /\ join_k join_table_pinned ([98], [97], []) = Some s
  /\ join_k join_table_pinned ([], [97], [46; 98]) = Some s
  /\ file_parts_k posix_normpath (SplitLast 46) (NStr s) = ([98], [97], [])
  /\ (forall n, splitext (46 :: n) = None \/ exists a b, splitext (46 :: n) = Some (46 :: a, b))
  /\ file_parts_k posix_normpath SplitExt (NStr [97; 47; 98; 46; 99; 46; 100]) = file_parts_k posix_normpath (SplitLast 46) (NStr [97; 47; 98; 46; 99; 46; 100]).
Proof.
  cbv zeta. split; [reflexivity|]. split; [vm_compute; reflexivity|]. split; [vm_compute; reflexivity|].
  split; [vm_compute; reflexivity|]. split; [vm_compute; reflexivity|]. split; [vm_compute; reflexivity|].
  split; [|vm_compute; reflexivity].
  intros n. unfold splitext. destruct (rsplit1 46 (46 :: n)) as [[a b]|] eqn:E; [|left; reflexivity].
  destruct (existsb (N.eqb 47) b); [left; reflexivity|].
  destruct a as [|x a'].
  - left. reflexivity.
  - cbn [rsplit1] in E. destruct (rsplit1 46 n) as [[a2 b2]|]; [inversion E; subst|].
    + destruct (forallb _ _); [left; reflexivity|right; eauto].
    + cbn in E. inversion E.
Qed.
