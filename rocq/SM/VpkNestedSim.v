(** The nested dicts simulate the flat table of SM/Vpk.v: the relation "lookup in the nested dicts = lookup in the table" holds for the
    empty archive and is preserved by new_file / an in-place update (insertion, SM/VpkNestedMap.v [nins] vs [aset]) and by __delitem__
    (SM/VpkNested.v [ndel] vs [adel]), for the translated descriptions accepted by [goc_ok] / [prog_safe].  So every table that the state
    machine reaches by these operations is the lookup function of the nested dicts the implementation holds at that point. *)
From Coq Require Import List NArith Bool.
From SV Require Import Fmt.VpkDir SM.Vpk SM.VpkProofs SM.VpkNested SM.VpkNestedMap SM.VpkNestedMapProofs.
Import ListNotations.
Open Scope N_scope.

Definition nrel (t : tree) (tb : list (key * info)) : Prop := forall k, nlookup t k = alookup k tb.

Lemma nrel_nil : nrel [] [].
Proof. intros k. rewrite nlookup_nil. reflexivity. Qed.

Theorem nrel_nins g1 g2 : goc_ok g1 = true -> goc_ok g2 = true -> forall t tb k i, nrel t tb ->
  exists t', nins g1 g2 t k i = Some t' /\ nrel t' (aset k i tb).
Proof.
  intros H1 H2 t tb k i R. destruct (nlookup_nins g1 g2 H1 H2 t k i) as (t' & E & L). exists t'. split; [exact E|].
  intros k'. rewrite L, alookup_aset. destruct (key_eqb k' k); [reflexivity|apply R].
Qed.

(** A KeyError only when the table has no such file; in every case the relation is preserved.  (That the delete does raise whenever the
    table has no such file needs that no dict entry is shadowed by an earlier one with the same key, which Python dicts guarantee and
    association lists do not; on the flat view it is c13_nested_delete_is_flat_delete.) *)
Theorem nrel_ndel prog : prog_safe prog = true -> forall t tb k, nrel t tb ->
  match ndel prog t k with
  | Some t' => nrel t' (adel k tb)
  | None => alookup k tb = None
  end.
Proof.
  intros Hs t tb k R. pose proof (nlookup_ndel prog Hs t k) as L.
  destruct (ndel prog t k) as [t'|].
  - intros k'. rewrite L, alookup_adel. destruct (key_eqb k' k); [reflexivity|apply R].
  - rewrite <- R. exact L.
Qed.
