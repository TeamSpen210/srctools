(** [want_cut] / [want_dest] of SM/VpkPlace.v are what [write_info] of SM/Vpk.v does, for every configuration, state, entry, data and
    index.  The table example of the pinned code and two wrong tables. *)
From Coq Require Import List NArith Bool Lia.
From SV Require Import Fmt.VpkDir SM.Vpk SM.VpkPlace.
Import ListNotations.
Open Scope N_scope.

Lemma split_rule_want cf :
  split_rule cf = (cut_val cf (want_cut (v_is_dir cf) (class_of cf)), forced (v_is_dir cf) (class_of cf)).
Proof.
  unfold split_rule, want_cut, forced, class_of, cut_val. destruct (v_is_dir cf); cbn [negb orb]; destruct (v_limit cf) as [l|]; cbn [lim_eqb]; try reflexivity.
  destruct (N.leb_spec l (v_max_pre cf)); cbn [lim_eqb]; f_equal; lia.
Qed.

Lemma all_scen_complete d l i t : In (d, l, i, t) all_scen.
Proof.
  unfold all_scen. apply in_flat_map. exists d. split; [destruct d; cbn; auto|].
  apply in_flat_map. exists l. split; [destruct l; cbn; auto|].
  apply in_flat_map. exists i. split; [destruct i; cbn; auto|].
  apply in_map. destruct t; cbn; auto.
Qed.

Definition is_none {A} (o : option A) : bool := match o with None => true | Some _ => false end.
Definition is_nil' {A} (l : list A) : bool := match l with [] => true | _ => false end.

Theorem write_info_want crc cf st i d ix : (crc d =? icrc i) = false ->
  let cut := cut_val cf (want_cut (v_is_dir cf) (class_of cf)) in
  let tail := skipn (N.to_nat cut) d in
  let dest := want_dest (v_is_dir cf) (class_of cf) (is_none ix) (is_nil' tail) in
  let '(st', i') := write_info crc cf st i d ix in
  icrc i' = crc d /\ ipre i' = firstn (N.to_nat cut) d /\ ilen i' = len tail /\
  match dest with
  | DNone => st' = st /\ iidx i' = None /\ ioff i' = 0
  | DFooter => foot st' = foot st ++ tail /\ archs st' = archs st /\ tbl st' = tbl st /\ iidx i' = None /\ ioff i' = len (foot st)
  | DArch => exists x, ix = Some x /\ archs st' = arch_app x tail (archs st) /\ foot st' = foot st /\ tbl st' = tbl st
                       /\ iidx i' = Some x /\ ioff i' = len (arch_get x (archs st))
  | DOther => False
  end.
Proof.
  intros Hc. cbv zeta. unfold write_info. rewrite Hc, split_rule_want. unfold want_dest.
  set (cut := cut_val cf (want_cut (v_is_dir cf) (class_of cf))).
  destruct (skipn (N.to_nat cut) d) as [|t0 tl] eqn:Et; cbn [is_nil'].
  - cbn [icrc ipre ilen iidx ioff]. repeat split; reflexivity.
  - destruct (forced (v_is_dir cf) (class_of cf)) eqn:Ef; cbn [orb].
    + cbn [icrc ipre ilen iidx ioff foot archs tbl]. repeat split; reflexivity.
    + destruct ix as [x|]; cbn [is_none].
      * cbn [icrc ipre ilen iidx ioff foot archs tbl]. repeat split; try reflexivity. exists x. repeat split; reflexivity.
      * cbn [icrc ipre ilen iidx ioff foot archs tbl]. repeat split; reflexivity.
Qed.

(** the table of vpk.py as pinned (what the translator produces today), and two wrong ones *)
Definition row_of (d : bool) (l : lim_class) (i t : bool) : prow :=
  let ds := want_dest d l i t in mkRow d l i t (want_cut d l) ds (negb (dest_eqb ds DArch)) (want_off ds) true.
Definition table_pinned : list prow := map (fun s => let '(d, l, i, t) := s in row_of d l i t) all_scen.
(** no cap at MAX_PRELOAD when the limit is larger (defect 20 of round 1) *)
Definition table_no_cap : list prow :=
  map (fun r => if lim_eqb (r_lim r) LBig && r_dir r then mkRow (r_dir r) (r_lim r) (r_idx_none r) (r_tail_empty r) CLimit (r_dest r) (r_stored_none r) (r_off r) true else r) table_pinned.
(** the rest of a file with arch_index None is dropped instead of going to footer_data (defect 19 of round 1) *)
Definition table_tail_dropped : list prow :=
  map (fun r => match r_dest r with DFooter => mkRow (r_dir r) (r_lim r) (r_idx_none r) (r_tail_empty r) (r_cut r) DNone true OZero true | _ => r end) table_pinned.
Example place_tables_computed :
  place_table_ok table_pinned = true /\ length table_pinned = 24%nat
  /\ place_cut_ok table_no_cap = false /\ place_dest_ok table_tail_dropped = false /\ place_table_ok [] = false.
Proof. vm_compute. repeat split; reflexivity. Qed.

Definition rtable_pinned : list rrow := [mkRRow false false RArch RArch; mkRRow false true RFooter RFooter; mkRRow true false RNone RNone; mkRRow true true RNone RNone].
Example read_tables_computed :
  read_table_ok rtable_pinned = true
  (* verify() that does not seek to the offset checks other bytes than read() returns *)
  /\ read_table_ok [mkRRow false false RArch ROther; mkRRow false true RFooter RFooter; mkRRow true false RNone RNone; mkRRow true true RNone RNone] = false
  /\ read_table_ok [mkRRow false false RArch RArch] = false.
Proof. vm_compute. repeat split; reflexivity. Qed.
