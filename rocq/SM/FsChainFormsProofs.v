(** C19 — proofs about SM/FsChainForms.v. *)
From Coq Require Import List NArith Bool.
From SV Require Import SM.FsChain SM.FsChainProofs SM.FsChainWitness SM.FsChainForms.
Import ListNotations.
Open Scope N_scope.

(** * [name in chain] *)

Lemma slash_only_apply ops s : slash_only ops = true -> apply_ops ops s = s \/ apply_ops ops s = slash s.
Proof.
  unfold apply_ops. revert s. induction ops as [|o r IH]; intros s H; [left; reflexivity|].
  cbn [slash_only forallb] in H. apply andb_true_iff in H as [Ho Hr]. destruct o; try discriminate.
  cbn [fold_left apply_op]. destruct (IH (slash s) Hr) as [E|E]; rewrite E; [right; reflexivity|].
  right. apply slash_idem.
Qed.

(** A member whose lookup does not tell the two slashes apart is asked, by a loop that joins the parameter with the
    member's own prefix, for a name it treats like the one [_get_file] asks it for. *)
Definition slash_blind (m : member) : Prop := forall n, m_lookup m (slash n) = m_lookup m n.

Lemma join_name_asks cond ops m q :
  slash_only ops = true -> slash_blind m ->
  m_lookup m (join_name cond ops (m_prefix m) q) = m_lookup m (full_name (m_prefix m) q).
Proof.
  intros Ho Hb. unfold full_name.
  assert (G : m_lookup m (apply_ops ops (pjoin (m_prefix m) q)) = m_lookup m (slash (pjoin (m_prefix m) q))).
  { destruct (slash_only_apply ops (pjoin (m_prefix m) q) Ho) as [E|E]; rewrite E; [symmetry; apply Hb|reflexivity]. }
  unfold join_name. destruct cond; [|exact G]. destruct (m_prefix m) as [|c p] eqn:Ep; [|exact G].
  rewrite pjoin_nil. symmetry. apply Hb.
Qed.

Definition xmember_ok (m : xmember) : Prop :=
  slash_blind (x_base m) /\ forall n, x_exists m n = is_some (m_lookup (x_base m) n).

Lemma chain_exists_loop_agrees cond ops ms cur q :
  slash_only ops = true -> Forall xmember_ok ms ->
  chain_exists_loop false cond ops ms cur q = is_some (chain_get (map x_base ms) q).
Proof.
  intros Ho Hms. revert cur. induction Hms as [|m r [Hb Hx] _ IH]; intros cur; [reflexivity|].
  cbn [chain_exists_loop map chain_get]. rewrite Hx, (join_name_asks cond ops (x_base m) q Ho Hb).
  destruct (m_lookup (x_base m) (full_name (m_prefix (x_base m)) q)); [reflexivity|]. apply IH.
Qed.

(** Every recognised sound shape of [_file_exists] answers exactly when [_get_file] finds a file: [name in chain]
    agrees with [chain[name]] for every chain (any ordering, restricted members that miss before members that hit). *)
Theorem chain_exists_agrees em ms q :
  exists_mode_ok em = true -> Forall xmember_ok ms ->
  chain_exists em ms q = is_some (chain_get (map x_base ms) q).
Proof.
  intros Hok Hms. destruct em as [|carry cond ops]; [reflexivity|].
  cbn [exists_mode_ok] in Hok. apply andb_true_iff in Hok as [Hc Ho]. destruct carry; [discriminate|].
  cbn [chain_exists]. apply chain_exists_loop_agrees; assumption.
Qed.

(** Backends of today's form are such members. *)
Lemma xmember_of_ok b fs p :
  backend_keys_norm b = true -> clean_fs fs = true -> xmember_ok (xmember_of b fs p).
Proof.
  intros Hk Hc. split.
  - intros n. cbn [xmember_of x_base member_of m_lookup]. rewrite !lookup_slashnorm, slash_idem by assumption. reflexivity.
  - intros n. cbn [xmember_of x_base x_exists member_of m_lookup].
    rewrite (lookup_slashnorm b fs n Hk Hc), (exists_slashnorm b fs n Hk Hc). reflexivity.
Qed.

(** A loop that re-assigns the name it joins: after a restricted member that misses, the next member is asked for the
    wrong name.  "s"-restricted member without "s/x", then an unrestricted member holding "x": [chain["x"]] finds the
    file, ["x" in chain] says no. *)
Definition carry_witness : list xmember :=
  [xmember_of fixed_zip [([121], [9])] [115]; xmember_of fixed_zip [([120], [1])] []].

(** * the bytes of a file kept in a VPK *)

Lemma cexpr_whole_sound c : forall nt f,
  cexpr_whole nt c = true -> (nt = true -> vf_tail f = []) -> ceval c f = vf_read f.
Proof.
  induction c as [| |a IHa b IHb|a IHa b IHb]; intros nt f H Hnt; cbn [ceval cexpr_whole] in *.
  - reflexivity.
  - unfold vf_read. rewrite (Hnt H), app_nil_r. reflexivity.
  - apply andb_true_iff in H as [Ha Hb]. destruct (vf_in_dir f); [eapply IHa|eapply IHb]; eassumption.
  - apply andb_true_iff in H as [Ha Hb]. destruct (vf_tail f) eqn:E.
    + apply (IHa true f Ha). intros _. exact E.
    + apply (IHb nt f Hb). intros Hn. specialize (Hnt Hn). discriminate.
Qed.

Lemma vf_place_read limit in_dir data : vf_read (vf_place limit in_dir data) = data.
Proof. unfold vf_read, vf_place. cbn [vf_pre vf_tail]. apply firstn_skipn. Qed.

(** An expression recognised as whole yields the stored bytes for every split between preload and rest and for both
    homes of the rest: preload only ([limit >= length data]), directory tail, numbered archive, single-file VPK. *)
Theorem ceval_whole_all_placements c limit in_dir data :
  cexpr_whole false c = true -> ceval c (vf_place limit in_dir data) = data.
Proof.
  intros H. rewrite (cexpr_whole_sound c false _ H); [apply vf_place_read|discriminate].
Qed.

(** ... hence a VPK backend whose [open_bin] reads through such an expression returns, for every query, the bytes any
    other backend of today's form holding the same files returns. *)
Theorem open_bytes_same c limit in_dir b1 b2 fs q :
  cexpr_whole false c = true -> backend_keys_norm b1 = true -> backend_keys_norm b2 = true -> clean_fs fs = true ->
  open_bytes c limit in_dir b1 fs q = option_map snd (open_ b2 fs q)
  /\ open_bytes c limit in_dir b1 fs q = option_map snd (lookup b2 fs q).
Proof.
  intros Hc H1 H2 Hf. unfold open_bytes.
  rewrite (open_slashnorm b1 fs q H1 Hf), (open_slashnorm b2 fs q H2 Hf), (lookup_slashnorm b2 fs q H2 Hf).
  destruct (spec_lookup fs (normpath (slash q))) as [e|]; cbn [option_map]; [|split; reflexivity].
  rewrite (ceval_whole_all_placements c limit in_dir (snd e) Hc). split; reflexivity.
Qed.

