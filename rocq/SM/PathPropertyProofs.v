(** C18 — proofs about SM/PathProperty.v. *)
From Coq Require Import List NArith Bool String Lia.
From SV Require Import SM.PathNorm SM.PathNormProofs SM.PathOps SM.PathOpsProofs SM.PathMemo SM.PathMemoProofs
  SM.PathHistory SM.PathHistoryProofs SM.PathProperty.
Import ListNotations.

Theorem prop_run_transparent wf g cwd evict :
  only_drops evict ->
  forall steps c, cache_valid g cwd c -> forallb (step_covered wf) steps = true ->
    prop_run wf g cwd evict c steps = map (step_plain g cwd) steps.
Proof.
  intros He. induction steps as [|st rest IH]; intros c Hv Hall; [reflexivity|].
  cbn in Hall. apply andb_prop in Hall as [Hc Hr]. cbn [prop_run map]. unfold step_plain at 1.
  destruct (step_op g cwd st) as [op|] eqn:Hop; [|f_equal; now apply IH].
  assert (Hcov : wf || oc_con op = true).
  { unfold step_op in Hop. destruct (route_in g cwd (sp_root st) (sp_con st) (sp_in st) (sp_route st)); [|discriminate].
    inversion Hop; subst op. exact Hc. }
  destruct (peval_m_transparent wf g cwd evict (oc_root op) (oc_con op) (oc_in op) He Hcov (st_arg (oc_site op)) c Hv)
    as (c' & -> & Hv').
  unfold op_plain. f_equal. now apply IH.
Qed.

(** Without any table (the policy that keeps nothing: today's source) the key does not matter at all. *)
Lemma peval_m_no_table wf g cwd root_arg con i :
  forall e, peval_m wf g cwd (fun _ => []) [] root_arg con i e = ([], peval g con cwd root_arg i e).
Proof.
  induction e; cbn [peval_m peval]; try reflexivity.
  - rewrite IHe. reflexivity.
  - rewrite IHe1. destruct (peval g con cwd root_arg i e1); [|reflexivity]. rewrite IHe2.
    destruct (peval g con cwd root_arg i e2); reflexivity.
  - rewrite IHe. destruct (peval g con cwd root_arg i e) as [s|]; [|reflexivity].
    unfold memo_step. cbn [lookup]. unfold plain. cbn.
    destruct (resolve g con cwd root_arg s); reflexivity.
Qed.

Theorem prop_run_no_table wf g cwd :
  forall steps, prop_run wf g cwd (fun _ => []) [] steps = map (step_plain g cwd) steps.
Proof.
  induction steps as [|st rest IH]; [reflexivity|]. cbn [prop_run map]. unfold step_plain at 1.
  destruct (step_op g cwd st) as [op|]; [|now rewrite IH].
  rewrite peval_m_no_table. unfold op_plain. now rewrite IH.
Qed.

Lemma step_op_fields g cwd st op : step_op g cwd st = Some op ->
  oc_root op = sp_root st /\ oc_con op = sp_con st /\ oc_site op = sp_site st.
Proof.
  unfold step_op. destruct (route_in g cwd (sp_root st) (sp_con st) (sp_in st) (sp_route st)); [|discriminate].
  intro H. inversion H. cbn. repeat split.
Qed.

Lemma all_sites_ok s x : calls_ok s = true -> In x (all_sites s) -> site_ok x = true.
Proof. unfold calls_ok, sites_ok. rewrite forallb_forall. intros H Hin. now apply H. Qed.

(** [calls_ok] needs both: every RawFileSystem site validated, and no OS call anywhere else *)
Lemma calls_ok_spec s : calls_ok s = true <-> sites_ok (src_sites s) = true /\ src_other s = [].
Proof.
  unfold calls_ok, all_sites, sites_ok. rewrite forallb_app. split.
  - intro H. apply andb_prop in H as [H1 H2]. split; [exact H1|].
    destruct (src_other s) as [|x r]; [reflexivity|]. cbn in H2. discriminate.
  - intros [H1 H2]. rewrite H1, H2. reflexivity.
Qed.

Lemma step_plain_inside s cwd st a :
  guard_ok s = true -> calls_ok s = true -> is_abs cwd = true ->
  sp_con st = true -> In (sp_site st) (all_sites s) ->
  step_plain (src_guard s) cwd st = Some a ->
  exists p, resolve (src_guard s) true cwd (sp_root st) p = Ok a.
Proof.
  intros Hg Hs Hc Hcon Hin Hp. unfold step_plain in Hp.
  destruct (step_op (src_guard s) cwd st) as [op|] eqn:Hop; [|discriminate].
  destruct (step_op_fields _ _ _ _ Hop) as (Hr & Hco & Hsi). unfold op_plain in Hp. rewrite Hr, Hco, Hsi, Hcon in Hp.
  exact (peval_resolved (src_guard s) true cwd (sp_root st) (oc_in op) _ a (all_sites_ok s _ Hs Hin) Hp).
Qed.

Section Property.
  Variable s : source.
  Hypothesis Hok : source_ok s = true.
  Variable cwd : str.
  Hypothesis Hcwd : is_abs cwd = true.

  Lemma source_ok_parts : guard_ok s = true /\ calls_ok s = true.
  Proof.
    unfold source_ok in Hok. apply andb_prop in Hok as [Hok _]. apply andb_prop in Hok as [Hok _].
    apply andb_prop in Hok as [Hok _]. apply andb_prop in Hok as [Hg Hc]. split; assumption.
  Qed.

  Lemma step_accesses_inside st a :
    sp_con st = true -> In (sp_site st) (all_sites s) -> step_plain (src_guard s) cwd st = Some a ->
    inside (abspath cwd (sp_root st)) a.
  Proof.
    intros Hcon Hin Hp. destruct source_ok_parts as [Hg Hs].
    destruct (step_plain_inside s cwd st a Hg Hs Hcwd Hcon Hin Hp) as [p Hres].
    exact (segprefix_guard_sound _ cwd (sp_root st) p a Hg Hcwd Hres).
  Qed.

  (** every history, any table whose key covers the steps *)
  Theorem property_accesses_inside wf evict steps :
    only_drops evict -> forallb (step_covered wf) steps = true ->
    forall n st a, nth_error steps n = Some st -> sp_con st = true -> In (sp_site st) (all_sites s) ->
      nth_error (prop_run wf (src_guard s) cwd evict [] steps) n = Some (Some a) ->
      inside (abspath cwd (sp_root st)) a.
  Proof.
    intros He Hall n st a Hn Hcon Hin Hr.
    rewrite (prop_run_transparent wf _ cwd evict He steps [] (cache_valid_nil _ cwd) Hall) in Hr.
    exact (step_accesses_inside st a Hcon Hin (nth_error_map_eq _ _ _ _ _ Hn Hr)).
  Qed.

  (** every history of today's table-free source: no condition on the objects at all *)
  Theorem property_accesses_inside_no_table wf steps :
    forall n st a, nth_error steps n = Some st -> sp_con st = true -> In (sp_site st) (all_sites s) ->
      nth_error (prop_run wf (src_guard s) cwd (fun _ => []) [] steps) n = Some (Some a) ->
      inside (abspath cwd (sp_root st)) a.
  Proof.
    intros n st a Hn Hcon Hin Hr. rewrite prop_run_no_table in Hr.
    exact (step_accesses_inside st a Hcon Hin (nth_error_map_eq _ _ _ _ _ Hn Hr)).
  Qed.

  (** folder walks: whatever a constrained step hands to os.walk, everything os.walk lists and finds from there is inside *)
  Theorem property_walk_inside (os_walk : str -> list (str * list str)) :
    walk_contract os_walk ->
    forall st top d fs f, sp_con st = true -> In (sp_site st) (all_sites s) ->
      step_plain (src_guard s) cwd st = Some top -> In (d, fs) (os_walk top) ->
      inside (abspath cwd (sp_root st)) d /\ (In f fs -> inside (abspath cwd (sp_root st)) (pjoin d f)).
  Proof.
    intros Hw st top d fs f Hcon Hin Hp Hd. destruct source_ok_parts as [Hg Hs].
    destruct (step_plain_inside s cwd st top Hg Hs Hcwd Hcon Hin Hp) as [p Hres]. split.
    - exact (walk_dirs_inside os_walk Hw _ cwd (sp_root st) p top d fs Hg Hcwd Hres Hd).
    - intro Hf. exact (walk_found_inside os_walk Hw _ cwd (sp_root st) p top d fs f Hg Hcwd Hres Hd Hf).
  Qed.
End Property.

(** The whole property. *)
Theorem property_holds :
  forall s, source_ok s = true ->
  forall cwd, is_abs cwd = true ->
  forall wf evict steps,
    (only_drops evict /\ forallb (step_covered wf) steps = true) \/ evict = (fun _ => []) ->
    let run := prop_run wf (src_guard s) cwd evict [] steps in
    (* the table is invisible *)
    run = map (step_plain (src_guard s) cwd) steps /\
    (* every path a constrained object hands to the OS is inside its root *)
    (forall n st a, nth_error steps n = Some st -> sp_con st = true -> In (sp_site st) (all_sites s) ->
       nth_error run n = Some (Some a) -> inside (abspath cwd (sp_root st)) a) /\
    (* and so is everything a folder walk started there lists and finds, for any os.walk obeying the entry-name contract *)
    (forall os_walk, walk_contract os_walk ->
     forall n st top d fs f, nth_error steps n = Some st -> sp_con st = true -> In (sp_site st) (all_sites s) ->
       nth_error run n = Some (Some top) -> In (d, fs) (os_walk top) ->
       inside (abspath cwd (sp_root st)) d /\ (In f fs -> inside (abspath cwd (sp_root st)) (pjoin d f))).
Proof.
  intros s Hok cwd Hc wf evict steps Hpol run.
  assert (Hrun : run = map (step_plain (src_guard s) cwd) steps).
  { unfold run. destruct Hpol as [[He Hall]| ->].
    - exact (prop_run_transparent wf _ cwd evict He steps [] (cache_valid_nil _ cwd) Hall).
    - apply prop_run_no_table. }
  split; [exact Hrun|]. split.
  - intros n st a Hn Hcon Hin Hr. rewrite Hrun in Hr.
    exact (step_accesses_inside s Hok cwd Hc st a Hcon Hin (nth_error_map_eq _ _ _ _ _ Hn Hr)).
  - intros w Hw n st top d fs f Hn Hcon Hin Hr Hd. rewrite Hrun in Hr.
    exact (property_walk_inside s Hok cwd Hc w Hw st top d fs f Hcon Hin (nth_error_map_eq _ _ _ _ _ Hn Hr) Hd).
Qed.

Open Scope string_scope.
Open Scope list_scope.
Definition site_of (m c b : string) (e : pexp) : site := {| st_method := m; st_callee := c; st_branch := b; st_arg := e |}.
Definition example_source : source :=
  {| src_guard := guard_rstrip_sep; src_root_abs := true; src_root_reassigned := false; src_flag_ctor := true;
     src_ctor_sig := true;
     src_sites := [ site_of "open_bin" "open" "str" (PResolve (PUnbs PArg));
                    site_of "open_bin" "open" "File" (PResolve (PUnbs PHandleData));
                    site_of "_get_file" "os.path.isfile" "str" (PResolve (PUnbs PArg));
                    site_of "walk_folder" "os.walk" "str" (PResolve (PUnbs PArg)) ];
     src_other := [];
     src_chain := [ {| cc_method := "_get_file"; cc_member := "_get_file"; cc_arg := PUnbs (PJoin PPrefix PArg) |} ];
     src_entries := [ {| cc_method := "__getitem__"; cc_member := "_get_file"; cc_arg := PArg |};
                      {| cc_method := "File.open_bin"; cc_member := "open_bin"; cc_arg := PHandleData |} ];
     src_entry_unread := []; src_census := [[]; []; []] |}.

(** user code: chain[name] on a chain inside a chain (prefixes "sub" and "x"), landing in the member on /t/root *)
Definition example_step (con : bool) (name : string) : step :=
  {| sp_root := s2l "/t/root"; sp_con := con;
     sp_route := [ {| h_call := {| cc_method := "__getitem__"; cc_member := "_get_file"; cc_arg := PArg |}; h_prefix := [] |};
                   {| h_call := {| cc_method := "_get_file"; cc_member := "_get_file"; cc_arg := PUnbs (PJoin PPrefix PArg) |};
                      h_prefix := s2l "sub" |};
                   {| h_call := {| cc_method := "_get_file"; cc_member := "_get_file"; cc_arg := PUnbs (PJoin PPrefix PArg) |};
                      h_prefix := s2l "x" |} ];
     sp_site := site_of "_get_file" "os.path.isfile" "str" (PResolve (PUnbs PArg));
     sp_in := {| i_arg := s2l name; i_data := []; i_hpath := []; i_prefix := []; i_walked := [] |} |}.

(** each conjunct of [calls_ok] / [guard_ok] is needed: drop one and an access leaves the root *)
Definition with_sites (l : list site) (o : triples) (g : gx) : source :=
  {| src_guard := g; src_root_abs := true; src_root_reassigned := false; src_flag_ctor := true; src_ctor_sig := true;
     src_sites := l; src_other := o; src_chain := []; src_entries := []; src_entry_unread := []; src_census := [] |}.
Definition direct (st : site) (name : string) : step :=
  {| sp_root := s2l "/t/root"; sp_con := true; sp_route := []; sp_site := st;
     sp_in := {| i_arg := s2l name; i_data := []; i_hpath := []; i_prefix := []; i_walked := [] |} |}.

(** A table kept on ONE object (root and flag fixed) is a history in which every call has the same root and flag: even a
    key that ignores the flag (the table is the object's own) is transparent. *)
Theorem per_object_table_transparent g cwd evict root con :
  only_drops evict ->
  forall paths,
    memo_run true g cwd evict [] (map (fun p => {| rc_root := root; rc_con := con; rc_path := p |}) paths)
    = map (fun p => resolve g con cwd root p) paths.
Proof.
  intros He paths.
  rewrite (memo_transparent true g cwd evict He _ [] (cache_valid_nil g cwd)).
  - rewrite map_map. reflexivity.
  - rewrite forallb_forall. intros x _. reflexivity.
Qed.

Lemma real_link_free lnk : forall rest fuel base,
  link_free lnk base rest -> (List.length rest < fuel)%nat -> real lnk fuel base rest = Some (base ++ rest).
Proof.
  induction rest as [|c r IH]; intros fuel base Hl Hf.
  - destruct fuel; [cbn in Hf; lia|]. cbn. now rewrite app_nil_r.
  - destruct fuel; [cbn in Hf; lia|]. cbn [real]. destruct Hl as [H1 H2]. rewrite H1.
    rewrite (IH fuel (base ++ [c]) H2); [|cbn in Hf; lia]. now rewrite <- app_assoc.
Qed.

(** ... and with a link inside the root that points out, a lexically inside path is really outside: _resolve_path
    (os.path.abspath, no file-system access) accepts link/secret.txt under /t/root while the kernel opens /t/outside/secret.txt.
    With os.path.realpath in place of abspath the same name would be refused.  C18 is read lexically. *)
Fixpoint seglist_eqb (a b : list str) : bool :=
  match a, b with
  | [], [] => true
  | x :: a', y :: b' => str_eqb x y && seglist_eqb a' b'
  | _, _ => false
  end.
Definition example_links (p : list str) : option (list str) :=
  if seglist_eqb p [s2l "t"; s2l "root"; s2l "link"] then Some [s2l "t"; s2l "outside"] else None.

(** Drive letters, UNC prefixes, NUL and over-long names are ordinary characters for posixpath; the containment theorem
    quantifies over all strings, these are the computed instances (root /t/root, cwd /w): what is accepted is inside. *)
Definition verdict_of (name : str) : res := resolve guard_rstrip_sep true (s2l "/w") (s2l "/t/root") (unbackslash name).
