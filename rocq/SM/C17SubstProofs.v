(** C17 — proofs about the model of EntityFixup.substitute (SM/C17Subst.v). *)
From Coq Require Import NArith List Bool Arith Lia Sorted.
From SV Require Import SM.C17Name SM.C17Subst.
Import ListNotations.
Open Scope N_scope.

(** *** What a match consumes. *)
Lemma match_pre_split : forall ci k s m r, match_pre ci k s = Some (m, r) -> s = m ++ r /\ length m = length k.
Proof.
  induction k as [|x k IH]; intros s m r H; cbn [match_pre] in H.
  - injection H as <- <-. split; reflexivity.
  - destruct s as [|y s]; [discriminate|]. destruct (ceq ci x y); [|discriminate].
    destruct (match_pre ci k s) as [[m' r']|] eqn:E; [|discriminate]. injection H as <- <-.
    destruct (IH _ _ _ E) as [-> L]. split; cbn [app length]; [reflexivity | now rewrite L].
Qed.

Lemma span_split : forall f s a b, span f s = (a, b) -> s = a ++ b.
Proof.
  induction s as [|c s IH]; intros a b H; cbn [span] in H.
  - injection H as <- <-. reflexivity.
  - destruct (f c).
    + destruct (span f s) as [a' b'] eqn:E. injection H as <- <-. cbn [app]. f_equal. now apply IH.
    + injection H as <- <-. reflexivity.
Qed.

Lemma match_ident_split : forall ci s m r, match_ident ci s = Some (m, r) -> s = m ++ r.
Proof.
  intros ci [|c s] m r H; cbn [match_ident] in H; [discriminate|].
  destruct (ident_start ci c); [|discriminate]. destruct (span (ident_char ci) s) as [a b] eqn:E.
  injection H as <- <-. cbn [app]. f_equal. now apply (span_split _ _ _ _ E).
Qed.

Lemma first_match_some : forall ci ks s x, first_match ci ks s = Some x -> exists k, In k ks /\ match_pre ci k s = Some x.
Proof.
  induction ks as [|k ks IH]; intros s x H; cbn [first_match] in H; [discriminate|].
  destruct (match_pre ci k s) as [y|] eqn:E.
  - injection H as ->. exists k. split; [now left | exact E].
  - destruct (IH _ _ H) as (k' & I & M). exists k'. split; [now right | exact M].
Qed.

Lemma first_match_split : forall ci ks s m r, first_match ci ks s = Some (m, r) -> s = m ++ r.
Proof. intros ci ks s m r H. destruct (first_match_some _ _ _ _ H) as (k & _ & M). now apply (match_pre_split _ _ _ _ _ M). Qed.

Lemma name_at_split : forall cfg tbl s m r, name_at cfg tbl s = Some (m, r) -> s = m ++ r.
Proof.
  unfold name_at. intros cfg tbl s m r H.
  destruct (first_match (sc_ignore_case cfg) (alternatives cfg tbl) s) as [[m' r']|] eqn:E.
  - injection H as <- <-. now apply (first_match_split _ _ _ _ _ E).
  - destruct (sc_ident_fallback cfg); [|discriminate]. now apply (match_ident_split _ _ _ _ H).
Qed.

Lemma var_at_len : forall cfg tbl d f s out rest, var_at cfg tbl d f s = Repl out rest -> (length rest <= length s)%nat.
Proof.
  unfold var_at. intros cfg tbl d f s out rest H.
  destruct (name_at cfg tbl s) as [[m r]|] eqn:E; [|discriminate].
  destruct (value_of cfg tbl d m); [|discriminate]. injection H as _ <-.
  rewrite (name_at_split _ _ _ _ _ E), app_length. lia.
Qed.

(** A replacement at the head of [t] is a variable reference after "$" or after "!$"; either way it consumes text. *)
Lemma step_repl : forall cfg inv tbl d t out rest, step cfg inv tbl d t = Repl out rest ->
  exists f s, (f = (fun v => v) \/ f = apply_bang cfg inv) /\ var_at cfg tbl d f s = Repl out rest /\ (length s < length t)%nat.
Proof.
  intros cfg inv tbl d [|c r] out rest H; unfold step in H; [discriminate|].
  destruct (c =? DOLLAR).
  - exists (fun v => v), r. split; [now left|]. split; [exact H | cbn [length]; lia].
  - destruct (sc_bang_group cfg && (c =? BANG)); [|discriminate].
    destruct r as [|c' r']; [discriminate|]. destruct (c' =? DOLLAR); [|discriminate].
    exists (apply_bang cfg inv), r'. split; [now right|]. split; [exact H | cbn [length]; lia].
Qed.

Lemma step_len : forall cfg inv tbl d t out rest, step cfg inv tbl d t = Repl out rest -> (length rest < length t)%nat.
Proof. intros cfg inv tbl d t out rest H. destruct (step_repl _ _ _ _ _ _ _ H) as (f & s & _ & E & L). apply var_at_len in E. lia. Qed.

(** *** The fuel is irrelevant once it covers the text. *)
Lemma scan_fuel2 : forall cfg inv tbl d f1 f2 t, (length t <= f1)%nat -> (length t <= f2)%nat ->
  scan cfg inv tbl d f1 t = scan cfg inv tbl d f2 t.
Proof.
  induction f1 as [|f1 IH]; intros f2 t H1 H2.
  - destruct t; [|cbn [length] in H1; lia]. destruct f2; reflexivity.
  - destruct t as [|c r]; [destruct f2; reflexivity|].
    destruct f2 as [|f2]; [cbn [length] in H2; lia|]. cbn [scan].
    destruct (step cfg inv tbl d (c :: r)) as [| |out rest] eqn:E; [|reflexivity|].
    + cbn [length] in H1, H2. rewrite (IH f2 r); [reflexivity|lia|lia].
    + apply step_len in E. cbn [length] in E, H1, H2. rewrite (IH f2 rest); [reflexivity|lia|lia].
Qed.

Lemma scan_fuel : forall cfg inv tbl d f t, (length t <= f)%nat ->
  scan cfg inv tbl d f t = substitute cfg inv tbl d t.
Proof. intros. unfold substitute. apply scan_fuel2; [assumption|apply Nat.le_refl]. Qed.

(** So [substitute] satisfies the equation of [re.sub] without any fuel. *)
Lemma substitute_cons : forall cfg inv tbl d c r, substitute cfg inv tbl d (c :: r) =
  match step cfg inv tbl d (c :: r) with
  | KeyErr => None
  | Repl out rest => option_map (app out) (substitute cfg inv tbl d rest)
  | NoMatch => option_map (cons c) (substitute cfg inv tbl d r)
  end.
Proof.
  intros. unfold substitute at 1. cbn [length scan].
  destruct (step cfg inv tbl d (c :: r)) as [| |out rest] eqn:E; [reflexivity|reflexivity|].
  apply step_len in E. cbn [length] in E. rewrite scan_fuel by lia. reflexivity.
Qed.

(** *** A text without '$' is returned unchanged (this is also the early-out of the Python code). *)
Lemma dollar_free_cons : forall c s, dollar_free (c :: s) = negb (c =? DOLLAR) && dollar_free s.
Proof. reflexivity. Qed.

Lemma step_no_dollar : forall cfg inv tbl d t, dollar_free t = true -> step cfg inv tbl d t = NoMatch.
Proof.
  intros cfg inv tbl d [|c r] H; [reflexivity|]. unfold step.
  rewrite dollar_free_cons in H. apply andb_true_iff in H as [H1 H2]. apply negb_true_iff in H1. rewrite H1.
  destruct (sc_bang_group cfg && (c =? BANG)); [|reflexivity].
  destruct r as [|c' r']; [reflexivity|]. rewrite dollar_free_cons in H2. apply andb_true_iff in H2 as [H2 _].
  apply negb_true_iff in H2. now rewrite H2.
Qed.

Lemma scan_no_dollar : forall cfg inv tbl d f t, dollar_free t = true -> scan cfg inv tbl d f t = Some t.
Proof.
  induction f as [|f IH]; intros t H; [reflexivity|]. destruct t as [|c r]; [reflexivity|]. cbn [scan].
  rewrite (step_no_dollar _ _ _ _ _ H). rewrite dollar_free_cons in H. apply andb_true_iff in H as [_ H].
  now rewrite (IH r H).
Qed.

Theorem substitute_no_dollar : forall cfg inv tbl d t, dollar_free t = true -> substitute cfg inv tbl d t = Some t.
Proof. intros. apply scan_no_dollar. assumption. Qed.

(** *** No '$' is left when every '$' is a variable reference and the values contain none. *)
Lemma dollar_free_app : forall a b, dollar_free (a ++ b) = dollar_free a && dollar_free b.
Proof. intros. apply forallb_app. Qed.

Lemma assoc_in : forall (k : str) (l : table) v, assoc k l = Some v -> exists k', In (k', v) l.
Proof.
  induction l as [|[k' v'] l IH]; intros v H; cbn [assoc] in H; [discriminate|].
  destruct (str_eqb k k').
  - injection H as <-. exists k'. now left.
  - destruct (IH _ H) as [k'' I]. exists k''. now right.
Qed.

Lemma value_of_dollar_free : forall cfg tbl d m v, values_dollar_free tbl d = true ->
  value_of cfg tbl d m = Some v -> dollar_free v = true.
Proof.
  unfold values_dollar_free, value_of. intros cfg tbl d m v H E. apply andb_true_iff in H as [H1 H2].
  destruct (assoc _ tbl) as [v'|] eqn:A.
  - injection E as <-. destruct (assoc_in _ _ _ A) as [k' I].
    rewrite forallb_forall in H1. exact (H1 _ I).
  - subst d. exact H2.
Qed.

Lemma invert_dollar_free : forall cfg v, dollar_free v = true -> dollar_free (invert cfg v) = true.
Proof. unfold invert. intros cfg v H. destruct (assoc _ (sc_bools cfg)) as [[|]|]; [reflexivity|reflexivity|assumption]. Qed.

Lemma apply_bang_dollar_free : forall cfg inv v, dollar_free v = true -> dollar_free (apply_bang cfg inv v) = true.
Proof.
  unfold apply_bang. intros cfg inv v H. destruct inv; [now apply invert_dollar_free|].
  destruct (sc_bang_readd cfg); [|assumption]. rewrite dollar_free_cons, H. reflexivity.
Qed.

Lemma var_at_dollar_free : forall cfg tbl d f s out rest, values_dollar_free tbl d = true ->
  (forall v, dollar_free v = true -> dollar_free (f v) = true) ->
  var_at cfg tbl d f s = Repl out rest -> dollar_free out = true.
Proof.
  unfold var_at. intros cfg tbl d f s out rest H Hf E.
  destruct (name_at cfg tbl s) as [[m r]|]; [|discriminate].
  destruct (value_of cfg tbl d m) as [v|] eqn:V; [|discriminate]. injection E as <- _.
  apply Hf. exact (value_of_dollar_free _ _ _ _ _ H V).
Qed.

Lemma step_dollar_free : forall cfg inv tbl d t out rest, values_dollar_free tbl d = true ->
  step cfg inv tbl d t = Repl out rest -> dollar_free out = true.
Proof.
  intros cfg inv tbl d t out rest H E. destruct (step_repl _ _ _ _ _ _ _ E) as (f & s & [-> | ->] & V & _);
    apply (var_at_dollar_free _ _ _ _ _ _ _ H) in V; auto using apply_bang_dollar_free.
Qed.

Lemma scan_dollar_free : forall cfg inv tbl d, values_dollar_free tbl d = true ->
  forall f t out, all_refs cfg inv tbl d f t = true -> (length t <= f)%nat ->
  scan cfg inv tbl d f t = Some out -> dollar_free out = true.
Proof.
  intros cfg inv tbl d HV. induction f as [|f IH]; intros t out HA HL HS.
  - destruct t; [|cbn [length] in HL; lia]. injection HS as <-. reflexivity.
  - destruct t as [|c r]; [injection HS as <-; reflexivity|]. cbn [scan all_refs] in HS, HA.
    destruct (step cfg inv tbl d (c :: r)) as [| |o rest] eqn:E; [|discriminate|].
    + apply andb_true_iff in HA as [HA1 HA2].
      destruct (scan cfg inv tbl d f r) as [o'|] eqn:S; [|discriminate]. injection HS as <-.
      rewrite dollar_free_cons, HA1. cbn [andb]. cbn [length] in HL. apply (IH r o' HA2); [lia|assumption].
    + destruct (scan cfg inv tbl d f rest) as [o'|] eqn:S; [|discriminate]. injection HS as <-.
      rewrite dollar_free_app, (step_dollar_free _ _ _ _ _ _ _ HV E). cbn [andb].
      apply step_len in E. cbn [length] in HL, E. apply (IH rest o' HA); [lia|assumption].
Qed.

Theorem substitute_leaves_no_dollar : forall cfg inv tbl d t out,
  values_dollar_free tbl d = true -> closed_text cfg inv tbl d t = true ->
  substitute cfg inv tbl d t = Some out -> dollar_free out = true.
Proof. intros cfg inv tbl d t out HV HC HS. exact (scan_dollar_free _ _ _ _ HV _ _ _ HC (Nat.le_refl _) HS). Qed.

(** *** The longest defined name wins. *)
Definition longer_first (a b : str) : Prop := (length b <= length a)%nat.

Lemma insert_key_in : forall k l x, In x (insert_key k l) <-> x = k \/ In x l.
Proof.
  induction l as [|y l IH]; intros x; cbn [insert_key].
  - cbn. intuition.
  - destruct (length y <=? length k)%nat.
    + cbn [In]. intuition.
    + cbn [In]. rewrite IH. intuition.
Qed.

Lemma sort_keys_in : forall ks x, In x (sort_keys ks) <-> In x ks.
Proof.
  induction ks as [|k ks IH]; intros x; [reflexivity|]. unfold sort_keys. cbn [fold_right].
  rewrite insert_key_in. fold (sort_keys ks). rewrite IH. cbn [In]. intuition.
Qed.

Lemma insert_key_sorted : forall k l, StronglySorted longer_first l -> StronglySorted longer_first (insert_key k l).
Proof.
  induction l as [|y l IH]; intros H; cbn [insert_key].
  - constructor; constructor.
  - destruct (length y <=? length k)%nat eqn:E.
    + apply Nat.leb_le in E. constructor; [assumption|].
      apply StronglySorted_inv in H as [_ H]. constructor; [exact E|].
      rewrite Forall_forall in *. intros z Hz. unfold longer_first in *. specialize (H z Hz). lia.
    + apply Nat.leb_gt in E. apply StronglySorted_inv in H as [H1 H2]. constructor; [now apply IH|].
      rewrite Forall_forall in *. intros z Hz. apply insert_key_in in Hz as [-> | Hz].
      * unfold longer_first. lia.
      * now apply H2.
Qed.

Lemma sort_keys_sorted : forall ks, StronglySorted longer_first (sort_keys ks).
Proof.
  induction ks as [|k ks IH]; [constructor|]. unfold sort_keys. cbn [fold_right]. now apply insert_key_sorted.
Qed.

Lemma first_match_none : forall ci ks s, first_match ci ks s = None -> forall k, In k ks -> match_pre ci k s = None.
Proof.
  induction ks as [|k0 ks IH]; intros s H k I; [destruct I|]. cbn [first_match] in H.
  destruct (match_pre ci k0 s) eqn:E; [discriminate|]. destruct I as [<- | I]; [assumption|now apply IH].
Qed.

Lemma first_match_longest : forall ci ks s m r, StronglySorted longer_first ks ->
  first_match ci ks s = Some (m, r) ->
  forall k, In k ks -> match_pre ci k s <> None -> (length k <= length m)%nat.
Proof.
  induction ks as [|k0 ks IH]; intros s m r HS H; cbn [first_match] in H; [discriminate|].
  apply StronglySorted_inv in HS as [HS1 HS2].
  destruct (match_pre ci k0 s) as [[m' r']|] eqn:E.
  - injection H as <- <-. destruct (match_pre_split _ _ _ _ _ E) as [_ L]. intros k [<- | I] _; [lia|].
    rewrite Forall_forall in HS2. specialize (HS2 _ I). unfold longer_first in HS2. lia.
  - intros k [<- | I] N; [congruence|]. now apply (IH _ _ _ HS1 H).
Qed.

(** A defined name that follows the '$' is always taken as a reference to a defined name (never the fallback). *)
Theorem name_at_defined : forall cfg tbl s k, In k (map fst tbl) -> match_pre (sc_ignore_case cfg) k s <> None ->
  exists k0 m r, In k0 (map fst tbl) /\ match_pre (sc_ignore_case cfg) k0 s = Some (m, r) /\ name_at cfg tbl s = Some (m, r).
Proof.
  unfold name_at. intros cfg tbl s k I N.
  assert (A : forall x, In x (alternatives cfg tbl) <-> In x (map fst tbl))
    by (intros x; unfold alternatives; destruct (sc_longest_first cfg); [apply sort_keys_in | reflexivity]).
  destruct (first_match (sc_ignore_case cfg) _ s) as [[m r]|] eqn:E.
  - destruct (first_match_some _ _ _ _ E) as (k0 & I0 & M0). exists k0, m, r. split; [now apply A|]. split; [assumption|reflexivity].
  - exfalso. apply N. apply (first_match_none _ _ _ E). now apply A.
Qed.

(** *** Without allow_invert the optional '!' of the pattern is transparent: the pattern could as well not have it. *)
Definition without_bang (cfg : subst_cfg) : subst_cfg :=
  {| sc_longest_first := sc_longest_first cfg; sc_ident_fallback := sc_ident_fallback cfg;
     sc_ignore_case := sc_ignore_case cfg; sc_bang_group := false; sc_bang_readd := sc_bang_readd cfg;
     sc_lookup_folded := sc_lookup_folded cfg; sc_bools := sc_bools cfg |}.

Lemma var_at_without_bang : forall cfg tbl d f s, var_at (without_bang cfg) tbl d f s = var_at cfg tbl d f s.
Proof. reflexivity. Qed.

Lemma substitute_bang_transparent : forall cfg tbl d, sc_bang_readd cfg = true ->
  forall t, substitute cfg false tbl d t = substitute (without_bang cfg) false tbl d t.
Proof.
  intros cfg tbl d HR t. pose proof (Nat.le_refl (length t)) as HL. revert HL. generalize (length t) at 2 as n.
  intros n. revert t. induction n as [|n IH]; intros [|c r] HL; try reflexivity; cbn [length] in HL; [lia|].
  rewrite !substitute_cons. unfold step. cbn [sc_bang_group without_bang andb]. rewrite !var_at_without_bang.
  destruct (c =? DOLLAR).
  - destruct (var_at cfg tbl d (fun v => v) r) as [| |out rest] eqn:E; [|reflexivity|].
    + rewrite (IH r) by lia. reflexivity.
    + apply var_at_len in E. rewrite (IH rest) by lia. reflexivity.
  - rewrite <- (IH r) by lia. destruct (sc_bang_group cfg && (c =? BANG)) eqn:EB; [|reflexivity].
    apply andb_true_iff in EB as [_ EB]. apply N.eqb_eq in EB. subst c.
    destruct r as [|c' r']; [reflexivity|]. destruct (c' =? DOLLAR) eqn:EC'; [|reflexivity].
    (* "!$...": with the group the '!' is part of the match and re-added; without it, it is a literal in front of "$..." *)
    rewrite substitute_cons. unfold step. rewrite EC'. unfold var_at.
    destruct (name_at cfg tbl r') as [[m rest]|]; [|reflexivity].
    destruct (value_of cfg tbl d m) as [v|]; [|reflexivity].
    unfold apply_bang. rewrite HR. destruct (substitute cfg false tbl d rest); reflexivity.
Qed.

(** *** Non-vacuity / worked examples on the reference configuration. *)
Example ref_subst_cfg_ok : subst_cfg_ok ref_subst_cfg = true.
Proof. reflexivity. Qed.

(* {"ab": "L", "a": "S"}: "$abc $A !$a $zz $" -> "Lc S !S  $"   (longest name, case, re-added '!', default '', bare '$') *)
Example substitute_example :
  substitute ref_subst_cfg false [([97], [83]); ([97;98], [76])] (Some [])
    [36;97;98;99; 32; 36;65; 32; 33;36;97; 32; 36;122;122; 32; 36]
  = Some [76;99; 32; 83; 32; 33;83; 32; 32; 36].
Proof. vm_compute. reflexivity. Qed.

(* allow_invert: "!$a" with a = "1" -> "0"; with a = "text" -> "text"; a missing variable without default raises *)
Example substitute_invert_example :
  substitute ref_subst_cfg true [([97], [49])] None [33;36;97] = Some [48] /\
  substitute ref_subst_cfg true [([97], [116;101;120;116])] None [33;36;97] = Some [116;101;120;116] /\
  substitute ref_subst_cfg true [] None [36;97] = None.
Proof. vm_compute. repeat split; reflexivity. Qed.
