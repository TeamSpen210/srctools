(** C19 — the chain walk is complete: whatever the chain's lookup finds inside the folder is listed (once), with that
    very File; and the lookup does not depend on the spelling of a clean name. *)
From Coq Require Import List.
From SV Require Import SM.FsChain SM.FsChainProofs SM.FsChainCompose SM.FsChainWalkGen.
Import ListNotations.
Open Scope N_scope.

Lemma asks_variant m q q' :
  sound_member m -> clean_name q = true -> clean_name q' = true -> nkey q = nkey q' -> asks q m = asks q' m.
Proof.
  intros [b [fs [p [-> [_ [Hk [Hc Hp]]]]]]] Hq Hq' E. rewrite !asks_member by assumption. apply spec_lookup_variant.
  destruct (full_name_listed p q Hp Hq) as [_ H]. destruct (full_name_listed p q' Hp Hq') as [_ H']. rewrite <- E in H'.
  exact (under_fun p _ _ _ H H').
Qed.

(** The chain's lookup ignores case (and slash kind) of a clean name. *)
Theorem chain_get_variant ms q q' :
  Forall sound_member ms -> clean_name q = true -> clean_name q' = true -> nkey q = nkey q' ->
  chain_get ms q = chain_get ms q'.
Proof.
  intros Hms Hq Hq' Hk. induction Hms as [|m ms Hm _ IH]; [reflexivity|].
  pose proof (asks_variant m q q' Hm Hq Hq' Hk) as E. unfold asks in E. cbn [chain_get]. rewrite E, IH. reflexivity.
Qed.

(** If the chain serves a (clean) name lying inside the folder, the de-duplicated walk of that folder lists the name
    (up to case) with the very File the lookup returns. *)
Theorem chain_walk_complete dops ms folder q f :
  dedup_ops_ok dops = true -> Forall sound_member ms -> okp folder ->
  clean_name q = true -> path_prefix (nkey folder) (nkey q) ->
  chain_get ms q = Some f ->
  exists x, In x (chain_walk RelDropSegs dops ms folder) /\ nkey (fst x) = nkey q /\ snd x = f.
Proof.
  intros Hd Hms Hfo Hq Hin Hget.
  assert (Hok : forall m, In m ms -> walk_member_ok folder m).
  { intros m Hm. apply sound_member_walk_ok; [|exact Hfo]. exact (proj1 (Forall_forall _ _) Hms m Hm). }
  destruct (proj1 (chain_first_match ms q f) Hget) as [pre [m [post [Hsplit [Hask _]]]]].
  assert (Hm : In m ms) by (rewrite Hsplit; apply in_or_app; right; left; reflexivity).
  (* the member that serves [q] lists [f], under a name with the key of [q] *)
  destruct (Hok m Hm) as [_ HB]. destruct (HB q f Hq Hin Hask) as [Hfw [Hclr Hkr]].
  set (x0 := (drop_segs (fst f) (m_prefix m), f)).
  assert (Hrep : In x0 (chain_walk_repeat RelDropSegs ms folder)).
  { apply in_chain_walk_repeat. exists m, f. split; [exact Hm|]. split; [exact Hfw|reflexivity]. }
  (* an entry [y] with that key survives the de-duplication; its name is clean *)
  destruct (chain_walk_dedup RelDropSegs dops ms folder) as [_ [Hsub [Hcov _]]]. cbv zeta in Hsub, Hcov.
  destruct (Hcov x0 Hrep) as [y [Hy Hky]].
  assert (Hcly : clean_name (fst y) = true).
  { destruct (proj1 (in_chain_walk_repeat _ _ _ _) (Hsub y Hy)) as [m' [e [Hm' [He ->]]]].
    destruct (Hok m' Hm') as [HA _]. apply (HA e He). }
  assert (Hyk : nkey (fst y) = nkey q).
  { rewrite (dedup_key dops _ Hd Hcly) in Hky. unfold x0 in Hky. cbn [fst] in Hky.
    rewrite (dedup_key dops _ Hd Hclr) in Hky. rewrite Hky. exact Hkr. }
  exists y. split; [exact Hy|]. split; [exact Hyk|].
  (* what is listed is what the lookup returns, and the lookup does not see the difference between the two names *)
  pose proof (chain_walk_lookup_closed dops ms folder y Hd Hms Hfo Hy) as Hcl.
  rewrite (chain_get_variant ms (fst y) q Hms Hcly Hq Hyk) in Hcl. congruence.
Qed.
