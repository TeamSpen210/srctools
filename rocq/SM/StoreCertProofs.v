(** C09 — soundness of the certificate checker of StoreCert.v: an accepted export satisfies every premise
    of the frame theorem, hence copy and original are independent under all mutation histories. *)
From Coq Require Import List ZArith Bool FMapPositive.
From SV Require Import SM.Store SM.StoreCert.
Import ListNotations.

Lemma smem_mk_set x l : smem x (mk_set l) = true -> In x l.
Proof.
  unfold smem. induction l as [|y l IH]; cbn [mk_set fold_right].
  - rewrite PositiveMap.mem_find, PositiveMap.gempty. discriminate.
  - destruct (Pos.eq_dec x y) as [->|Hne]; [left; reflexivity|].
    rewrite PositiveMap.mem_find, PositiveMap.gso by assumption.
    rewrite <- PositiveMap.mem_find. right. auto.
Qed.

Lemma find_mk_heap x nd l : PositiveMap.find x (mk_heap l) = Some nd -> In (x, nd) l.
Proof.
  induction l as [|[k v] l IH]; cbn [mk_heap fold_right fst snd].
  - rewrite PositiveMap.gempty. discriminate.
  - destruct (Pos.eq_dec x k) as [->|Hne].
    + rewrite PositiveMap.gss. intros H. inversion H. left. reflexivity.
    + rewrite PositiveMap.gso by assumption. right. auto.
Qed.

(** A closed set that contains [a] contains everything reachable from [a]. *)
Lemma closed_set_reach m S a :
  closed_set m S (mk_set S) = true -> smem a (mk_set S) = true ->
  forall l, reach (hof m) a l -> smem l (mk_set S) = true.
Proof.
  intros Hc Ha l Hr. induction Hr; [assumption|].
  unfold closed_set in Hc. rewrite forallb_forall in Hc.
  specialize (Hc l (smem_mk_set _ _ IHHr)). unfold hof in H. rewrite H in Hc.
  rewrite forallb_forall in Hc. exact (Hc (VRef l') H0).
Qed.

Lemma closed_set_alloc m S x :
  closed_set m S (mk_set S) = true -> smem x (mk_set S) = true -> alloc (hof m) x.
Proof.
  intros Hc Hx. unfold closed_set in Hc. rewrite forallb_forall in Hc.
  specialize (Hc x (smem_mk_set _ _ Hx)). unfold alloc, hof.
  destruct (PositiveMap.find x m); discriminate.
Qed.

Lemma cert_ok_sound m a b SA SB :
  cert_ok m a b SA SB = true ->
  alloc (hof m) a /\ alloc (hof m) b /\ sep (hof m) a [b].
Proof.
  unfold cert_ok. rewrite !andb_true_iff. intros [[[[Ha Hb] HcA] HcB] Hd].
  split; [exact (closed_set_alloc m SA a HcA Ha)|]. split; [exact (closed_set_alloc m SB b HcB Hb)|].
  intros l Hla (r & [<-|[]] & Hlb) (nd & Hnd & Hm).
  pose proof (closed_set_reach _ _ _ HcA Ha l Hla) as HlA.
  pose proof (closed_set_reach _ _ _ HcB Hb l Hlb) as HlB.
  rewrite forallb_forall in Hd. specialize (Hd l (smem_mk_set _ _ HlA)).
  unfold mutb in Hd. unfold hof in Hnd. rewrite Hnd, HlB, Hm in Hd. discriminate.
Qed.

Lemma heap_closed_sound l : heap_closed_b (mk_heap l) l = true -> closed (hof (mk_heap l)).
Proof.
  unfold heap_closed_b. rewrite forallb_forall. intros H x nd x' Hx Hin.
  specialize (H (x, nd) (find_mk_heap _ _ _ Hx)). cbn [snd] in H.
  rewrite forallb_forall in H. specialize (H (VRef x') Hin). cbn in H.
  unfold alloc, hof. rewrite PositiveMap.mem_find in H.
  destruct (PositiveMap.find x' (mk_heap l)); discriminate.
Qed.

(** The checker is not vacuous: it accepts a two-object heap that shares an immutable node and
    rejects one that shares a mutable node. *)
Example export_ok_accepts :
  export_ok [(1, Node true [VRef 3; VRef 5]); (2, Node true [VRef 4; VRef 5]); (3, Node true [VAtom 1]);
             (4, Node true [VAtom 1]); (5, Node false [VAtom 7])]%positive 1%positive 2%positive [1;3;5]%positive [2;4;5]%positive = true.
Proof. vm_compute. reflexivity. Qed.

Example export_ok_rejects :
  export_ok [(1, Node true [VRef 3]); (2, Node true [VRef 3]); (3, Node true [VAtom 1])]%positive
            1%positive 2%positive [1;3]%positive [2;3]%positive = false.
Proof. vm_compute. reflexivity. Qed.
