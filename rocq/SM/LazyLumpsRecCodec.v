(** C10: the codec premise of a view that is a plain array of fixed [struct] records (one lump, the reader
    is [Struct.iter_unpack fmt], the writer packs every record with the same format), for EVERY content of the lump,
    from the well-formedness of the format alone.  C11's [unpack_pack] is about values a user assigns (hypothesis:
    the values fit the format); the direction C10 needs is supplied here: whatever [unpack] returns for a string of
    bytes fits the format ([unpack_fits]). *)
From Coq Require Import List ZArith Bool Lia.
From SV Require Import Bin.LE Bin.Struct Bin.StructProofs.
Import ListNotations.
Close Scope N_scope.

Lemma all_bytes_app : forall a b, all_bytes (a ++ b) = all_bytes a && all_bytes b.
Proof. intros. unfold all_bytes. apply forallb_app. Qed.

Lemma all_bytes_firstn : forall n l, all_bytes l = true -> all_bytes (firstn n l) = true.
Proof.
  intros n l H. rewrite <- (firstn_skipn n l), all_bytes_app in H. apply andb_prop in H. tauto.
Qed.
Lemma all_bytes_skipn : forall n l, all_bytes l = true -> all_bytes (skipn n l) = true.
Proof.
  intros n l H. rewrite <- (firstn_skipn n l), all_bytes_app in H. apply andb_prop in H. tauto.
Qed.

Lemma pow256_4 : (256 ^ N.of_nat 4 = 2 ^ 32)%N.
Proof. reflexivity. Qed.

(** One field: what the reader makes of [ksize k] bytes fits the field. *)
Lemma unpack1_fits : forall k bs, wf_kind k = true -> k <> KPad -> length bs = ksize k -> all_bytes bs = true ->
  fits1 k (unpack1 k bs) = true.
Proof.
  intros k bs Hw Hp Hl Hb. pose proof (all_bytes_ok bs Hb) as Hok. destruct k; cbn [unpack1 fits1 ksize] in *.
  - apply Nat.ltb_lt in Hw.
    pose proof (le_dec_bound bs Hok) as B. rewrite Hl in B.
    destruct (to_of_unsigned signed w (le_dec bs) Hw B) as [R _]. exact R.
  - pose proof (le_dec_bound bs Hok) as B. rewrite Hl, pow256_4 in B. apply N.ltb_lt. exact B.
  - reflexivity.
  - rewrite Hl, Nat.eqb_refl, Hb. reflexivity.
  - congruence.
Qed.

(** A whole record: the values [unpack] returns for bytes fit the format. *)
Lemma unpack_fits : forall f bs vs, wf_fmt f = true -> all_bytes bs = true -> unpack f bs = Some vs -> fits f vs = true.
Proof.
  induction f as [|k f IH]; intros bs vs Hw Hb E.
  - cbn [unpack] in E. destruct bs; [|discriminate]. injection E as <-. reflexivity.
  - cbn [wf_fmt forallb] in Hw. apply andb_prop in Hw. destruct Hw as [Hk Hw].
    cbn [unpack] in E. destruct (length bs <? ksize k) eqn:L; [discriminate|]. apply Nat.ltb_ge in L.
    destruct (unpack f (skipn (ksize k) bs)) as [r|] eqn:U; [|discriminate].
    pose proof (IH _ _ Hw (all_bytes_skipn _ _ Hb) U) as Hr.
    assert (F1 : k <> KPad -> fits1 k (unpack1 k (firstn (ksize k) bs)) = true).
    { intros Hp. apply unpack1_fits; [exact Hk | exact Hp | rewrite firstn_length; lia | apply all_bytes_firstn; exact Hb]. }
    destruct k; injection E as <-; cbn [fits];
      try (apply andb_true_intro; split; [apply F1; discriminate | exact Hr]). exact Hr.
Qed.

(** The array: [iter_unpack] of back-to-back packed records gives the records back. *)
Definition pack_or_nil (f : fmt) (r : list value) : list N := match pack f r with Some b => b | None => [] end.
Definition pack_all (f : fmt) (recs : list (list value)) : list N := concat (map (pack_or_nil f) recs).

Lemma iter_unpack_pack_all : forall f, wf_fmt f = true -> 0 < calcsize f ->
  forall recs fuel, Forall (fun r => fits f r = true) recs -> length recs <= fuel ->
  iter_unpack fuel f (pack_all f recs) = Some recs.
Proof.
  intros f Hw Hc. induction recs as [|r recs IH]; intros fuel Hf Hn.
  - destruct fuel; reflexivity.
  - inversion Hf as [|? ? Hr Hrest]; subst.
    destruct (unpack_pack f r Hw Hr) as (b & Pb & Ub). pose proof (pack_length _ _ _ Pb) as Lb.
    unfold pack_all. cbn [map concat]. unfold pack_or_nil at 1. rewrite Pb. fold (pack_all f recs).
    destruct fuel as [|fuel]; [cbn [length] in Hn; lia|].
    destruct b as [|b0 b]; [cbn [length] in Lb; lia|].
    cbn [iter_unpack app]. change (b0 :: b ++ pack_all f recs) with ((b0 :: b) ++ pack_all f recs).
    assert (L : (length ((b0 :: b) ++ pack_all f recs) <? calcsize f) = false).
    { apply Nat.ltb_ge. rewrite app_length. lia. }
    rewrite L, <- Lb, firstn_length_app, skipn_length_app.
    rewrite Ub, IH; [reflexivity | exact Hrest | cbn [length] in Hn; lia].
Qed.

(** Every record [iter_unpack] returns for a string of bytes fits the format, and there are at most as many
    records as bytes. *)
Lemma iter_unpack_fits : forall f, wf_fmt f = true -> 0 < calcsize f ->
  forall fuel bs recs, all_bytes bs = true -> iter_unpack fuel f bs = Some recs ->
  Forall (fun r => fits f r = true) recs /\ length recs <= length bs.
Proof.
  intros f Hw Hc. induction fuel as [|fuel IH]; intros bs recs Hb E.
  - destruct bs; cbn [iter_unpack] in E; [|discriminate]. injection E as <-. split; [constructor | cbn; lia].
  - destruct bs as [|b0 bs']; cbn [iter_unpack] in E; [injection E as <-; split; [constructor | cbn; lia]|].
    set (bs := b0 :: bs') in *.
    destruct (length bs <? calcsize f) eqn:L; [discriminate|]. apply Nat.ltb_ge in L.
    destruct (unpack f (firstn (calcsize f) bs)) as [r|] eqn:U; [|discriminate].
    destruct (iter_unpack fuel f (skipn (calcsize f) bs)) as [rs|] eqn:I; [|discriminate].
    injection E as <-.
    destruct (IH _ _ (all_bytes_skipn _ _ Hb) I) as [F Ln]. split.
    + constructor; [|exact F]. eapply unpack_fits; [exact Hw | apply all_bytes_firstn; exact Hb | exact U].
    + cbn [length]. rewrite skipn_length in Ln. lia.
Qed.

(** The view: one lump; the reader iterates over whole records (anything else is [struct.error]), the writer packs
    every record. *)
Definition rec_view_rd (f : fmt) (ds : list (list N)) : option (list (list value)) :=
  match ds with [data] => iter_unpack (S (length data)) f data | _ => None end.
Definition rec_view_wr (f : fmt) (recs : list (list value)) : list (list N) := [pack_all f recs].

Lemma pack_all_length : forall f recs, Forall (fun r => fits f r = true) recs -> wf_fmt f = true ->
  length (pack_all f recs) = length recs * calcsize f.
Proof.
  intros f recs Hf Hw. induction Hf as [|r recs Hr _ IH]; [reflexivity|].
  unfold pack_all. cbn [map concat]. fold (pack_all f recs). rewrite app_length, IH.
  destruct (unpack_pack f r Hw Hr) as (b & Pb & _). unfold pack_or_nil. rewrite Pb, (pack_length _ _ _ Pb). cbn [length]. lia.
Qed.

(** The codec premise of a record-array view, for EVERY content of its lump that is a string of bytes. *)
Theorem rec_view_codec : forall f, wf_fmt f = true -> 0 < calcsize f ->
  forall data recs, all_bytes data = true -> rec_view_rd f [data] = Some recs ->
  rec_view_rd f (rec_view_wr f recs) = Some recs /\ length (rec_view_wr f recs) = 1.
Proof.
  intros f Hw Hc data recs Hb E. cbn [rec_view_rd] in E.
  destruct (iter_unpack_fits f Hw Hc _ _ _ Hb E) as [F Ln]. split; [|reflexivity].
  cbn [rec_view_rd rec_view_wr]. apply iter_unpack_pack_all; [exact Hw | exact Hc | exact F|].
  rewrite (pack_all_length f recs F Hw). nia.
Qed.

(** Non-vacuity and the nearby wrong shape: the plane record [<ffffi] (CUBEMAPS [<iiii], VERTEXES [<fff] alike) on a
    two-record lump; a writer that packs the last field as a SHORT ([<ffffh]) writes records the reader rejects. *)
Definition fmt_plane : fmt := [KFloat; KFloat; KFloat; KFloat; KInt true 4].
Definition ex_planes : list N :=
  [0; 0; 128; 63; 0; 0; 0; 0; 0; 0; 0; 0; 0; 0; 128; 66; 0; 0; 0; 0;
   0; 0; 0; 0; 0; 0; 128; 191; 0; 0; 0; 0; 0; 0; 0; 192; 255; 255; 255; 255]%N.
Example rec_view_codec_example :
  wf_fmt fmt_plane = true /\ calcsize fmt_plane = 20 /\ all_bytes ex_planes = true /\
  option_map (@length _) (rec_view_rd fmt_plane [ex_planes]) = Some 2 /\
  option_map (rec_view_wr fmt_plane) (rec_view_rd fmt_plane [ex_planes]) = Some [ex_planes].
Proof. vm_compute. repeat split; reflexivity. Qed.

Example rec_view_other_writer_format_refuted :
  let wr_short := [KFloat; KFloat; KFloat; KFloat; KInt true 2] in
  match rec_view_rd fmt_plane [ex_planes] with
  | Some recs => rec_view_rd fmt_plane (rec_view_wr wr_short recs) = None
  | None => False
  end.
Proof. vm_compute. reflexivity. Qed.

(** * From the object C11 generates: a stream of Gen/BspFormats_gen.v (reader and writer alternatives of one lump, as
    format sites) whose alternatives all denote one well-formed format of positive size in a layout table gives the
    codec premise of the record-array view for ANY pairing of a reading and a writing alternative
    ([c10_record_array_codec_from_generated_stream] in Props/C10.v). *)
From Coq Require Import String.
From SV Require Import Fmt.BspFormatsSpec Fmt.BspFormatsProofs.

Definition rec_stream_ok_in (lay : list (string * string)) (st : stream) : bool :=
  stream_ok_in lay st &&
  match st with
  | (_, _, r0 :: _, _) => match alt_fmt lay r0 with Some f0 => (0 <? calcsize f0)%nat | None => false end
  | _ => false
  end.

(** In every layout table the stream applies to. *)
Definition rec_stream_ok (layouts : list (string * list (string * string))) (sts : list stream) (n : string) : bool :=
  match stream_named n sts with
  | Some st => let '(_, appl, _, _) := st in
      existsb (fun l => applies appl (fst l)) layouts &&
      forallb (fun l => if applies appl (fst l) then rec_stream_ok_in (snd l) st else true) layouts
  | None => false
  end.
