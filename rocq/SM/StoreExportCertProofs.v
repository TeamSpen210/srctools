(** C09 — soundness of the completeness certificate of StoreExportCert.v.
    Key lemmas: an unfolding cut at a smaller depth is the unfolding to that depth ([trunc_munfold]); an unfolding that
    does not change when unfolded one level deeper never changes again ([munfold_stable]); hence equality at one stable
    depth is equality at every depth ([mobs_eq_b_sound]). *)
From Coq Require Import List ZArith Bool String FMapPositive Lia.
From SV Require Import SM.Store SM.StoreCert SM.StoreCopy
  SM.StoreCopySrc SM.StoreCopyExport
  SM.StoreRowCert SM.StoreRowCertProofs SM.StoreExportCert.
Import ListNotations.

Fixpoint tree_eqb_eq (a b : tree) {struct a} : tree_eqb a b = true -> a = b.
Proof.
  destruct a as [z| | |m ch], b as [z'| | |m' ch']; cbn; intros H; try discriminate; try reflexivity.
  - apply Z.eqb_eq in H. congruence.
  - apply andb_true_iff in H. destruct H as [Hm Hc]. apply Bool.eqb_prop in Hm. subst m'. f_equal.
    revert ch' Hc. induction ch as [|x r IHr]; intros [|y r'] Hc; try discriminate; [reflexivity|].
    apply andb_true_iff in Hc. destruct Hc as [H1 H2]. f_equal; [apply tree_eqb_eq; exact H1 | apply IHr; exact H2].
Qed.

Lemma mask_eqb_eq a : forall b, mask_eqb a b = true -> a = b.
Proof.
  induction a as [|x a IH]; intros [|y b]; cbn; intros H; try discriminate; [reflexivity|].
  apply andb_true_iff in H. destruct H as [H1 H2]. apply Bool.eqb_prop in H1. f_equal; auto.
Qed.

Section Depth.
  Variable mk : loc -> list bool.

  Lemma trunc_mask m : forall msk ts, map (trunc m) (mask_apply msk ts) = mask_apply msk (map (trunc m) ts).
  Proof.
    induction msk as [|b msk IH]; intros ts; [reflexivity|].
    destruct ts as [|t ts]; [destruct b; reflexivity|].
    destruct b; cbn [mask_apply map]; rewrite IH; [destruct m; reflexivity | reflexivity].
  Qed.

  Lemma trunc_munfold h : forall m n v, m <= n -> trunc m (munfold mk n h v) = munfold mk m h v.
  Proof.
    induction m as [|m IH]; intros n v Hle; destruct v as [z|l]; try (destruct n; reflexivity).
    - destruct n as [|n]; [reflexivity|]. cbn [munfold]. destruct (h l); reflexivity.
    - destruct n as [|n]; [lia|]. cbn [munfold]. destruct (h l) as [nd|]; [|reflexivity].
      cbn [trunc]. f_equal. rewrite trunc_mask. f_equal. rewrite map_map. apply map_ext. intros v. apply IH. lia.
  Qed.

  Lemma mask_pointwise (F G F' G' : val -> tree) : forall fs msk,
    mask_apply msk (map F fs) = mask_apply msk (map G fs) ->
    (forall v, In v fs -> F v = G v -> F' v = G' v) ->
    mask_apply msk (map F' fs) = mask_apply msk (map G' fs).
  Proof.
    induction fs as [|v fs IH]; intros msk Heq Hp; [destruct msk as [|[|] msk]; reflexivity|].
    assert (Hp' : forall w, In w fs -> F w = G w -> F' w = G' w) by (intros w Hw; apply Hp; right; exact Hw).
    destruct msk as [|[|] msk]; cbn [mask_apply map] in *.
    - injection Heq as H1 H2. rewrite (Hp v (or_introl eq_refl) H1). f_equal. exact (IH [] H2 Hp').
    - injection Heq as H2. f_equal. exact (IH msk H2 Hp').
    - injection Heq as H1 H2. rewrite (Hp v (or_introl eq_refl) H1). f_equal. exact (IH msk H2 Hp').
  Qed.

  Lemma munfold_stable h : forall n v,
    munfold mk n h v = munfold mk (S n) h v -> forall k, munfold mk (n + k) h v = munfold mk n h v.
  Proof.
    induction n as [|n IH]; intros v Heq k; destruct v as [z|l]; try (destruct k; reflexivity).
    - cbn [munfold] in Heq. destruct (h l); discriminate.
    - cbn [plus]. cbn [munfold] in *. destruct (h l) as [nd|]; [|reflexivity].
      injection Heq as Hq. f_equal.
      apply (mask_pointwise (munfold mk n h) (munfold mk (S n) h) (munfold mk (n + k) h) (munfold mk n h) _ _ Hq).
      intros v _ Hv. apply IH. exact Hv.
  Qed.

  Theorem mobs_eq_b_sound N h h' v v' : mobs_eq_b mk N h h' v v' = true -> mobs_eq mk h h' v v'.
  Proof.
    unfold mobs_eq_b. rewrite !andb_true_iff. intros [[H1 H2] H3].
    apply tree_eqb_eq in H1. apply tree_eqb_eq in H2. apply tree_eqb_eq in H3. intros n.
    destruct (le_lt_dec n N) as [Hle|Hlt].
    - rewrite <- (trunc_munfold h' n N v' Hle), <- (trunc_munfold h n N v Hle). f_equal. exact H1.
    - replace n with (N + (n - N)) by lia.
      rewrite (munfold_stable h' N v' H3), (munfold_stable h N v H2). exact H1.
  Qed.
End Depth.

Section Rows.
  Variables (mk : loc -> list bool) (m' : fheap) (so : pset) (N : nat).
  Let h := hold m' so.
  Let h' := hof m'.

  Lemma how_complete_sound w v v' : how_complete_b mk m' so N w v v' = true -> how_complete mk w h h' v v'.
  Proof.
    destruct w; cbn [how_complete_b how_complete]; intros H; try exact I.
    - apply val_eqb_eq; exact H.
    - apply mobs_eq_b_sound in H. exact H.
    - destruct v as [z|c]; [apply val_eqb_eq; exact H|].
      destruct v' as [z'|c']; [discriminate|].
      destruct (hfind m' so c) as [nd|] eqn:Ec; [|discriminate].
      destruct (PositiveMap.find c' m') as [nd'|] eqn:Ec'; [|discriminate].
      rewrite !andb_true_iff in H. destruct H as [[Hm Hf] Hk].
      apply Bool.eqb_prop in Hm. apply mask_eqb_eq in Hk.
      exists c', nd. repeat split; auto.
      rewrite <- Hm. exact (find_same_fields m' c' nd' _ Ec' Hf).
    - apply val_eqb_eq; exact H.
  Qed.

  Lemma erows_ok_sound orig rows :
    forall vs', erows_ok_b mk m' so N orig rows vs' = true -> fields_rel_c mk h h' orig rows vs'.
  Proof.
    induction rows as [|[[mm w] j] rows IH]; intros [|v' vs']; cbn [erows_ok_b]; intros H; try discriminate; [constructor|].
    apply andb_true_iff in H. destruct H as [H1 H2]. constructor; [|apply IH; exact H2].
    intros Hmm. subst mm. destruct j as [i|]; [|discriminate]. destruct (nth_error orig i) as [v|] eqn:E; [|discriminate].
    exists i, v. repeat split; auto. apply how_complete_sound; exact H1.
  Qed.
End Rows.

(** What the certificate certifies: the completeness premises themselves, for the exported heap. *)
Theorem export_cert_premises : forall l' old la lc masks N c s reads,
  export_cert_ok l' old la lc masks N c s reads = true ->
  let mk := mk_of (mk_masks masks) in let h' := hof (mk_heap l') in let h := hold (mk_heap l') (mk_set old) in
  closed h /\
  exists nd nd', h la = Some nd /\ h' lc = Some nd' /\ nmut nd' = nmut nd /\
                 mk la = obs_mask c reads /\ mk lc = obs_mask c reads /\ List.length (nfields nd) = List.length c /\
                 fields_rel_c mk h h' (nfields nd) (eresolve c s reads) (nfields nd').
Proof.
  intros l' old la lc masks N c s reads H mk h' h. unfold export_cert_ok in H. cbv zeta in H.
  destruct (PositiveMap.find la (mk_heap l')) as [nd|] eqn:Ela; [|rewrite andb_false_r in H; discriminate].
  destruct (PositiveMap.find lc (mk_heap l')) as [nd'|] eqn:Elc; [|rewrite andb_false_r in H; discriminate].
  rewrite !andb_true_iff in H. destruct H as [[Hocl Hla] [[[[Hm Hma] Hmc] Hlen] Hr]].
  split; [apply old_closed_sound; exact Hocl|]. exists nd, nd'. repeat split.
  - rewrite <- Ela. apply hold_old, Hla.
  - exact Elc.
  - apply Bool.eqb_prop in Hm. exact Hm.
  - apply mask_eqb_eq; exact Hma.
  - apply mask_eqb_eq; exact Hmc.
  - apply Nat.eqb_eq; exact Hlen.
  - apply (erows_ok_sound _ _ _ N); exact Hr.
Qed.

(** Not vacuous, and sensitive (id masked, number shared, vector copied; then the vector's value changed). *)
Definition xc_census : census := [("id"%string, KId, HNewId); ("a"%string, KImm, HShare); ("v"%string, KMut, HDeep)].
Definition xc_sources : srcmap := [("id"%string, []); ("a"%string, ["a"%string]); ("v"%string, ["v"%string])].
Definition xc_reads : list string := ["id"%string; "a"%string; "v"%string].

Example export_cert_accepts :
  export_cert_ok [(1, Node true [VAtom 10; VAtom 5; VRef 3]); (3, Node true [VAtom 255]);
                  (2, Node true [VAtom 11; VAtom 5; VRef 4]); (4, Node true [VAtom 255])]%positive
                 [1; 3]%positive 1%positive 2%positive
                 [(1%positive, obs_mask xc_census xc_reads); (2%positive, obs_mask xc_census xc_reads)]
                 4 xc_census xc_sources xc_reads = true.
Proof. vm_compute. reflexivity. Qed.

Example export_cert_rejects_changed_vector :
  export_cert_ok [(1, Node true [VAtom 10; VAtom 5; VRef 3]); (3, Node true [VAtom 255]);
                  (2, Node true [VAtom 11; VAtom 5; VRef 4]); (4, Node true [VAtom 128])]%positive
                 [1; 3]%positive 1%positive 2%positive
                 [(1%positive, obs_mask xc_census xc_reads); (2%positive, obs_mask xc_census xc_reads)]
                 4 xc_census xc_sources xc_reads = false.
Proof. vm_compute. reflexivity. Qed.

(** A depth that is too small for the graph is rejected (the unfolding has not stabilised), never wrongly accepted. *)
Example export_cert_rejects_unstable_depth :
  export_cert_ok [(1, Node true [VAtom 10; VAtom 5; VRef 3]); (3, Node true [VAtom 255]);
                  (2, Node true [VAtom 11; VAtom 5; VRef 4]); (4, Node true [VAtom 255])]%positive
                 [1; 3]%positive 1%positive 2%positive
                 [(1%positive, obs_mask xc_census xc_reads); (2%positive, obs_mask xc_census xc_reads)]
                 0 xc_census xc_sources xc_reads = false.
Proof. vm_compute. reflexivity. Qed.
