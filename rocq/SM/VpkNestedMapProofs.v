(** Proofs for SM/VpkNestedMap.v: the nested dicts with the translated insertion and clean-up are a finite map. *)
From Coq Require Import List NArith Bool.
From SV Require Import Fmt.VpkDir SM.Vpk SM.VpkProofs SM.VpkNested SM.VpkNestedProofs SM.VpkNestedMap.
Import ListNotations.
Open Scope N_scope.

Section b.
  Context {V : Type}.
  Lemma bget_bset k' k (v : V) l : bget k' (bset k v l) = if bytes_eqb k' k then Some v else bget k' l.
  Proof.
    induction l as [|[k0 v0] l IH]; cbn [bset bget]; [reflexivity|].
    destruct (bytes_eqb_spec k k0) as [->|N]; cbn [bget]; [now destruct (bytes_eqb k' k0)|].
    rewrite IH. destruct (bytes_eqb_spec k' k0) as [->|]; [|reflexivity]. now rewrite bytes_eqb_neq by auto.
  Qed.
  Lemma bget_filter k' k (l : list (bytes * V)) :
    bget k' (filter (fun d => negb (bytes_eqb (fst d) k)) l) = if bytes_eqb k' k then None else bget k' l.
  Proof.
    induction l as [|[k0 v0] l IH]; cbn [filter bget fst]; [now destruct (bytes_eqb k' k)|].
    destruct (bytes_eqb_spec k0 k) as [->|N]; cbn [negb bget]; rewrite IH.
    - destruct (bytes_eqb k' k); reflexivity.
    - destruct (bytes_eqb_spec k' k0) as [->|]; [|reflexivity]. now rewrite bytes_eqb_neq by auto.
  Qed.
  Lemma bget_In k (l : list (bytes * V)) v : bget k l = Some v -> In (k, v) l.
  Proof.
    induction l as [|[k0 v0] l IH]; cbn [bget]; [discriminate|].
    destruct (bytes_eqb_spec k k0) as [->|]; [intros [= <-]; now left|intros H; right; auto].
  Qed.
  Lemma bget_existsb (P : bytes * V -> bool) k l v : bget k l = Some v -> P (k, v) = true -> existsb P l = true.
  Proof. intros Hb Hp. apply existsb_exists. exists (k, v). split; [now apply bget_In|exact Hp]. Qed.
  (** mapping a function over the values that only changes the entries with key [k] *)
  Lemma bget_map k' k (f : bytes * V -> bytes * V) (l : list (bytes * V)) :
    (forall e, fst (f e) = fst e) ->
    bget k' (map (fun e => if bytes_eqb (fst e) k then f e else e) l) =
    if bytes_eqb k' k then option_map (fun v => snd (f (k', v))) (bget k' l) else bget k' l.
  Proof.
    intros Hf. induction l as [|[k0 v0] l IH]; cbn [map bget fst].
    - now destruct (bytes_eqb k' k).
    - destruct (bytes_eqb k0 k) eqn:E.
      + pose proof (Hf (k0, v0)) as Hk. destruct (f (k0, v0)) as [k1 v1] eqn:Ef. cbn [fst] in Hk. subst k1. cbn [bget].
        destruct (bytes_eqb k' k0) eqn:E0.
        * apply bytes_eqb_eq in E0. subst k0. rewrite E. cbn [option_map]. rewrite Ef. reflexivity.
        * exact IH.
      + cbn [bget]. destruct (bytes_eqb k' k0) eqn:E0; [|exact IH].
        apply bytes_eqb_eq in E0. subst k0. rewrite E. reflexivity.
  Qed.
End b.

Lemma key_eqb_split x' p' n' x p n : key_eqb (x', p', n') (x, p, n) = bytes_eqb x' x && bytes_eqb p' p && bytes_eqb n' n.
Proof. reflexivity. Qed.

(** ---- law 1: the empty archive has no file ---- *)
Lemma nlookup_nil k : nlookup [] k = None.
Proof. destruct k as [[x p] n]. reflexivity. Qed.

(** ---- law 2: lookup after insert ---- *)
Lemma goc_ok_step {V} g k (l : list (bytes * list V)) : goc_ok g = true ->
  goc_step g k l = Some (match bget k l with Some v => v | None => [] end, true).
Proof.
  unfold goc_ok, goc_step. destruct (g_present g), (g_absent g); try discriminate. intros _. now destruct (bget k l).
Qed.

Theorem nlookup_nins g1 g2 : goc_ok g1 = true -> goc_ok g2 = true -> forall t k i,
  exists t', nins g1 g2 t k i = Some t' /\ forall k', nlookup t' k' = if key_eqb k' k then Some i else nlookup t k'.
Proof.
  intros H1 H2 t [[x p] n] i. unfold nins. rewrite (goc_ok_step g1 x t H1), (goc_ok_step g2 p _ H2).
  eexists. split; [reflexivity|]. intros [[x' p'] n']. rewrite key_eqb_split. unfold nlookup.
  rewrite bget_bset. destruct (bytes_eqb x' x) eqn:Ex; cbn [andb]; [|reflexivity].
  apply bytes_eqb_eq in Ex. subst x'.
  rewrite bget_bset. destruct (bytes_eqb p' p) eqn:Ep; cbn [andb].
  - apply bytes_eqb_eq in Ep. subst p'. rewrite bget_bset. destruct (bytes_eqb n' n); [reflexivity|].
    destruct (bget x t) as [ds|]; [|reflexivity]. destruct (bget p ds); reflexivity.
  - destruct (bget x t) as [ds|]; reflexivity.
Qed.

(** ---- law 3: lookup after delete ---- *)
Lemma nlookup_rm_name x p n t k' :
  nlookup (rm_name x p n t) k' = if key_eqb k' (x, p, n) then None else nlookup t k'.
Proof.
  destruct k' as [[x' p'] n']. rewrite key_eqb_split. unfold nlookup, rm_name.
  rewrite (bget_map x' x (fun e => (fst e, map (fun d => if bytes_eqb (fst d) p
                                           then (fst d, filter (fun f => negb (bytes_eqb (fst f) n)) (snd d)) else d) (snd e)))) by reflexivity.
  destruct (bytes_eqb x' x) eqn:Ex; cbn [andb]; [|reflexivity].
  destruct (bget x' t) as [ds|]; cbn [option_map snd]; [|now destruct (bytes_eqb p' p && bytes_eqb n' n)].
  rewrite (bget_map p' p (fun d => (fst d, filter (fun f => negb (bytes_eqb (fst f) n)) (snd d)))) by reflexivity.
  destruct (bytes_eqb p' p) eqn:Ep; cbn [andb]; [|reflexivity].
  destruct (bget p' ds) as [fs|]; cbn [option_map snd]; [|now destruct (bytes_eqb n' n)].
  apply bget_filter.
Qed.

Lemma files_empty_bget x p t ds fs : files_empty x p t = true -> bget x t = Some ds -> bget p ds = Some fs -> fs = [].
Proof.
  unfold files_empty. intros H Et Ed. apply bget_In in Et, Ed.
  rewrite forallb_forall in H. specialize (H _ Et). cbn [fst snd] in H. rewrite bytes_eqb_refl, forallb_forall in H.
  specialize (H _ Ed). cbn [fst snd] in H. rewrite bytes_eqb_refl in H. now destruct fs.
Qed.

Lemma nlookup_pop_folder x p t k' : files_empty x p t = true -> nlookup (pop_folder x p t) k' = nlookup t k'.
Proof.
  intros He. destruct k' as [[x' p'] n']. unfold nlookup, pop_folder.
  rewrite (bget_map x' x (fun e => (fst e, filter (fun d => negb (bytes_eqb (fst d) p)) (snd e)))) by reflexivity.
  destruct (bytes_eqb_spec x' x) as [->|]; [|reflexivity].
  destruct (bget x t) as [ds|] eqn:Et; cbn [option_map snd]; [|reflexivity].
  rewrite bget_filter. destruct (bytes_eqb_spec p' p) as [->|]; [|reflexivity].
  destruct (bget p ds) as [fs|] eqn:Ed; [|reflexivity]. now rewrite (files_empty_bget x p t ds fs He Et Ed).
Qed.

Lemma others_none_bget x p t ds p' fs : others_none x p t = true -> bget x t = Some ds -> bget p' ds = Some fs -> bytes_eqb p' p = true.
Proof.
  unfold others_none. intros H Et Ed. apply bget_In in Et, Ed.
  rewrite forallb_forall in H. specialize (H _ Et). cbn [fst snd] in H. rewrite bytes_eqb_refl, forallb_forall in H.
  exact (H _ Ed).
Qed.

Lemma nlookup_pop_ext x p t k' : files_empty x p t = true -> others_none x p t = true -> nlookup (pop_ext x t) k' = nlookup t k'.
Proof.
  intros He Ho. destruct k' as [[x' p'] n']. unfold nlookup, pop_ext. rewrite bget_filter.
  destruct (bytes_eqb_spec x' x) as [->|]; [|reflexivity].
  destruct (bget x t) as [ds|] eqn:Et; [|reflexivity].
  destruct (bget p' ds) as [fs|] eqn:Ed; [|reflexivity].
  pose proof (others_none_bget x p t ds p' fs Ho Et Ed) as Ep. apply bytes_eqb_eq in Ep. subst p'.
  now rewrite (files_empty_bget x p t ds fs He Et Ed).
Qed.

Lemma nmem_nlookup_none t k : nmem t k = false -> nlookup t k = None.
Proof.
  destruct k as [[x p] n]. unfold nmem, nlookup. intros H.
  destruct (bget x t) as [ds|] eqn:Et; [|reflexivity]. destruct (bget p ds) as [fs|] eqn:Ed; [|reflexivity].
  destruct (bget n fs) as [i|] eqn:Ef; [|reflexivity].
  (* the entry found at each level is one the membership test accepts *)
  rewrite (bget_existsb _ _ _ _ Et) in H; [discriminate|]. cbn [fst snd]. rewrite bytes_eqb_refl.
  apply (bget_existsb _ _ _ _ Ed). cbn [fst snd]. rewrite bytes_eqb_refl.
  apply (bget_existsb _ _ _ _ Ef). apply bytes_eqb_refl.
Qed.

Theorem nlookup_ndel prog : prog_safe prog = true -> forall t k,
  match ndel prog t k with
  | Some t' => forall k', nlookup t' k' = if key_eqb k' k then None else nlookup t k'
  | None => nlookup t k = None
  end.
Proof.
  intros Hs t [[x p] n]. unfold ndel. destruct (nmem t (x, p, n)) eqn:Hm; [|now apply nmem_nlookup_none].
  pose proof (fun k' => cleanup_invisible (fun t => nlookup t k') prog x p _ Hs
                          (nlookup_pop_folder x p (rm_name x p n t) k') (nlookup_pop_ext x p _ k')) as H. revert H.
  destruct (outcome prog _ _ false false) as [[fp ep]|]; intros H; [|destruct (H (x, p, n))].
  intros k'. rewrite <- nlookup_rm_name. exact (H k').
Qed.

(** ---- refutations ---- *)
Definition ex_t2 : tree := [([116], [([97], [([120], ex_info)]); ([98], [([121], ex_info)])])].
Example goc_refuted :
  goc_ok goc_pinned = true /\ goc_ok goc_always_new = false /\ goc_ok goc_forgets_store = false
  (* a fresh dict for the extension on every new_file: adding c/z.t loses a/x.t *)
  /\ option_map (fun t => nlookup t ([116], [97], [120])) (nins goc_always_new goc_pinned ex_t2 ([116], [99], [122]) ex_info) = Some None
  /\ option_map (fun t => nlookup t ([116], [97], [120])) (nins goc_pinned goc_pinned ex_t2 ([116], [99], [122]) ex_info) = Some (Some ex_info)
  (* the new folder dict is not stored: the file just added is not there *)
  /\ option_map (fun t => nlookup t ([116], [99], [122])) (nins goc_pinned goc_forgets_store ex_t2 ([116], [99], [122]) ex_info) = Some None.
Proof. vm_compute. repeat split; reflexivity. Qed.
