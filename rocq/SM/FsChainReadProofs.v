(** C19 — proofs about SM/FsChainRead.v. *)
From Coq Require Import List ZArith Bool Lia.
From SV Require Import SM.FsChain SM.FsChainForms SM.FsChainRead.
Import ListNotations.

Lemma slice_exact off len l :
  slice (Z.of_nat off + 0) (Z.of_nat off + Z.of_nat len + 0) l = firstn len (skipn off l).
Proof.
  unfold slice. rewrite !Z.add_0_r, <- Nat2Z.inj_add, !Nat2Z.id.
  replace (off + len - off)%nat with len by lia. reflexivity.
Qed.

Definition ctx_ok (d : option bool) (nt : bool) (f : rfile) : Prop :=
  (forall v, d = Some v -> r_in_dir f = v) /\ (nt = true -> r_len f = O).

Lemma r_tail_none f : r_len f = O -> r_tail f = [].
Proof. intros H. unfold r_tail. rewrite H. reflexivity. Qed.

Lemma rexpr_whole_sound e : forall d nt f,
  rexpr_whole d nt e = true -> ctx_ok d nt f -> reval e f = r_whole f.
Proof.
  induction e as [|dir a b|x IHx y IHy|x IHx y IHy|x IHx y IHy]; intros d nt f H [Hd Hn].
  - cbn in H. cbn [reval]. unfold r_whole. rewrite (r_tail_none f (Hn H)), app_nil_r. reflexivity.
  - discriminate.
  - destruct x; try discriminate. destruct y as [|dir a b| | |]; try discriminate.
    cbn [rexpr_whole] in H. apply andb_true_iff in H as [H Hk]. apply andb_true_iff in H as [Ha Hb].
    apply Z.eqb_eq in Ha, Hb. subst a b.
    destruct d as [w|]; [|discriminate]. cbn [known_is] in Hk. apply eqb_prop in Hk. subst w.
    cbn [reval]. rewrite (Hd dir eq_refl), eqb_reflx, slice_exact. reflexivity.
  - cbn [rexpr_whole] in H. cbn [reval]. destruct d as [[|]|].
    + rewrite (Hd true eq_refl). apply (IHx (Some true) nt f H). split; assumption.
    + rewrite (Hd false eq_refl). apply (IHy (Some false) nt f H). split; assumption.
    + apply andb_true_iff in H as [Hx Hy]. destruct (r_in_dir f) eqn:E.
      * apply (IHx (Some true) nt f Hx). split; [intros v Hv; injection Hv as <-; exact E|exact Hn].
      * apply (IHy (Some false) nt f Hy). split; [intros v Hv; injection Hv as <-; exact E|exact Hn].
  - cbn [rexpr_whole] in H. cbn [reval]. destruct nt.
    + rewrite (Hn eq_refl). apply (IHx d true f H). split; assumption.
    + apply andb_true_iff in H as [Hx Hy]. destruct (r_len f) eqn:E.
      * apply (IHx d true f Hx). split; [exact Hd|intros _; exact E].
      * apply (IHy d false f Hy). split; [exact Hd|discriminate].
Qed.

Lemma rfile_of_whole before after limit in_dir data :
  r_whole (rfile_of before after limit in_dir data) = data.
Proof.
  unfold r_whole, r_tail, rfile_of. cbn [r_pre r_home r_off r_len].
  rewrite skipn_app, skipn_all, Nat.sub_diag. cbn [skipn app].
  rewrite firstn_app, firstn_all, Nat.sub_diag. cbn [firstn]. rewrite app_nil_r. apply firstn_skipn.
Qed.

(** Today's reader is such an expression; the reader that slices one byte short in the directory block is not, and loses
    the last byte of a file whose rest is kept there. *)
Theorem reader_today_whole : rexpr_whole None false reader_today = true.
Proof. reflexivity. Qed.
Theorem reader_short_refuted :
  rexpr_whole None false reader_short = false
  /\ reval reader_short (rfile_of [9%N] [8%N] 1 true [1%N; 2%N; 3%N]) = [1%N; 2%N]
  /\ reval reader_today (rfile_of [9%N] [8%N] 1 true [1%N; 2%N; 3%N]) = [1%N; 2%N; 3%N]
  /\ reval reader_short (rfile_of [9%N] [8%N] 1 false [1%N; 2%N; 3%N]) = [1%N; 2%N; 3%N].
Proof. vm_compute. repeat split; reflexivity. Qed.

(** The backend's content expression over the translated reader: a content expression recognised as whole
    ([cexpr_whole], FsChainForms) over a reader recognised as whole hands out the stored bytes - preload only, directory
    tail, numbered archive, single-file VPK, any split, any position of the rest in its home. *)
Lemma ceval_r_sound rd c : forall nt f,
  rexpr_whole None false rd = true -> cexpr_whole nt c = true -> (nt = true -> r_len f = O) ->
  ceval_r rd c f = r_whole f.
Proof.
  intros nt f Hrd. revert nt. induction c as [| |a IHa b IHb|a IHa b IHb]; intros nt H Hn; cbn [ceval_r cexpr_whole] in *.
  - apply (rexpr_whole_sound rd None false f Hrd). split; discriminate.
  - unfold r_whole. rewrite (r_tail_none f (Hn H)), app_nil_r. reflexivity.
  - apply andb_true_iff in H as [Ha Hb]. destruct (r_in_dir f); [eapply IHa|eapply IHb]; eassumption.
  - apply andb_true_iff in H as [Ha Hb]. destruct (r_len f) eqn:E.
    + apply (IHa true Ha). intros _. reflexivity.
    + apply (IHb nt Hb). intros Hnt. specialize (Hn Hnt). discriminate.
Qed.

Theorem open_through_reader_all_placements rd c before after limit in_dir data :
  rexpr_whole None false rd = true -> cexpr_whole false c = true ->
  ceval_r rd c (rfile_of before after limit in_dir data) = data.
Proof.
  intros Hrd Hc. rewrite (ceval_r_sound rd c false _ Hrd Hc); [apply rfile_of_whole|discriminate].
Qed.

(** With the short reader, a backend that opens through [file.read()] loses the byte too. *)
Theorem open_through_short_reader_refuted :
  ceval_r reader_short CRead (rfile_of [9%N] [8%N] 1 true [1%N; 2%N; 3%N]) = [1%N; 2%N]
  /\ ceval_r reader_today CRead (rfile_of [9%N] [8%N] 1 true [1%N; 2%N; 3%N]) = [1%N; 2%N; 3%N].
Proof. vm_compute. split; reflexivity. Qed.
