(** C09 — proofs about SM/StorePickleState.v. *)
From Coq Require Import List String Bool ZArith.
From SV Require Import SM.StorePickleState.
Import ListNotations.

Lemma sl_eqb_eq : forall a b, sl_eqb a b = true -> a = b.
Proof.
  induction a as [|x a IH]; destruct b as [|y b]; simpl; try discriminate; auto.
  intro H. apply andb_true_iff in H. destruct H as [H1 H2]. apply String.eqb_eq in H1. subst. f_equal. auto.
Qed.

Lemma existsb_eqb_in : forall f l, existsb (String.eqb f) l = true -> In f l.
Proof.
  intros f l H. apply existsb_exists in H. destruct H as [x [Hx He]]. apply String.eqb_eq in He. subst. exact Hx.
Qed.

Lemma existsb_eqb_notin : forall f l, existsb (String.eqb f) l = false -> ~ In f l.
Proof.
  intros f l H HI. assert (existsb (String.eqb f) l = true) as E.
  { apply existsb_exists. exists f. split; [exact HI | apply String.eqb_refl]. }
  rewrite E in H. discriminate.
Qed.

(** [alookup] returns the first binding, so this holds of any [l], with or without duplicates. *)
Lemma lookup_combine_map : forall (g : string -> option Z) l f, In f l ->
  alookup f (combine l (map g l)) = Some (g f).
Proof.
  induction l as [|x r IH]; simpl; intros f HI; [contradiction|].
  destruct (String.eqb x f) eqn:E.
  - apply String.eqb_eq in E. subst. reflexivity.
  - destruct HI as [->|HI]; [rewrite String.eqb_refl in E; discriminate|]. apply IH; assumption.
Qed.

(** Swapping two positions on the reading side only (write and read side inconsistent) is rejected, and the object that
    comes back has the two values exchanged. *)
Definition ps_fields : list string := ["inst_out"%string; "inst_in"%string; "delay"%string].
Definition ps_obj : list (string * Z) := [("inst_out"%string, 1%Z); ("inst_in"%string, 2%Z); ("delay"%string, 3%Z)].
