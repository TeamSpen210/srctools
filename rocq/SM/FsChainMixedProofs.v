(** C19 — proofs about SM/FsChainMixed.v. *)
From Coq Require Import List NArith.
From SV Require Import SM.FsChain SM.FsChainProofs SM.FsChainRaw SM.FsChainMixed.
Import ListNotations.
Open Scope N_scope.

Lemma find_all_false {A} (f : A -> bool) l : (forall x, In x l -> f x = false) -> find f l = None.
Proof.
  induction l as [|a l IH]; intros H; [reflexivity|]. cbn [find]. rewrite (H a (or_introl eq_refl)).
  apply IH. intros x Hx. apply H. right. exact Hx.
Qed.

Lemma raw_member_spec ops fs p q :
  raw_ops_ok ops = true -> clean_fs fs = true -> NoDup (map (fun e => nkey (fst e)) fs) ->
  exact_or_absent fs (normpath (slash (pjoin p q))) ->
  raw_lookup_ops ops fs (full_name p q) = spec_lookup fs (normpath (slash (pjoin p q))).
Proof.
  intros Ho Hc Hnd [[e [He Hn]]|Habs].
  - destruct (raw_lookup_slash_agree ops fs e (full_name p q) Ho Hc Hnd He) as [Hr Hs].
    + rewrite slash_full_name. symmetry. exact Hn.
    + rewrite slash_full_name in Hs. rewrite Hr, Hs. reflexivity.
  - unfold raw_lookup_ops, spec_lookup. rewrite (raw_ops_sem ops _ Ho), slash_full_name.
    rewrite !find_all_false; [reflexivity| |].
    + intros x Hx. apply in_rev in Hx. destruct (eqb_str_spec (nkey (fst x)) (nkey (normpath (slash (pjoin p q))))) as [E|_]; [|reflexivity].
      exfalso. exact (Habs x Hx E).
    + intros x Hx. apply in_rev in Hx. destruct (eqb_str_spec (fst x) (normpath (slash (pjoin p q)))) as [E|_]; [|reflexivity].
      exfalso. apply (Habs x Hx). rewrite E. reflexivity.
Qed.

(** The premise cannot be dropped: a directory member asked for a name in the wrong case misses where a folding member
    holding the same file hits - and a later member's file is served instead. *)
Theorem mchain_case_needs_exact_refuted :
  map m_spec mixed_raw = map m_spec mixed_fold
  /\ mchain_get mixed_raw [97] = None /\ mchain_get mixed_fold [97] = Some ([65], [1])
  /\ mchain_get mixed_raw [65] = Some ([65], [1]) /\ mchain_get mixed_fold [65] = Some ([65], [1])
  /\ Forall (mmember_ok [65]) mixed_raw.
Proof.
  split; [reflexivity|]. split; [vm_compute; reflexivity|]. split; [vm_compute; reflexivity|].
  split; [vm_compute; reflexivity|]. split; [vm_compute; reflexivity|].
  unfold mixed_raw. apply Forall_cons; [|apply Forall_cons; [|apply Forall_nil]].
  - cbn [mmember_ok]. split; [reflexivity|]. split; [reflexivity|]. split; [repeat constructor; intros []|].
    left. exists ([65], [1]). split; [left; reflexivity|vm_compute; reflexivity].
  - cbn [mmember_ok]. split; [vm_compute; reflexivity|]. split; [vm_compute; reflexivity|exact I].
Qed.
