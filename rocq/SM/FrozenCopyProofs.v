(** C05 (b) — copy independence with aliasing: proofs over SM/FrozenCopy.v.  Axiom-free. *)
From Coq Require Import List String Bool Arith Lia.
From SV Require Import SM.FrozenOps SM.FrozenOpsProofs SM.FrozenCopy.
Import ListNotations.
Open Scope string_scope.

Section Copy.
  Variable V : Type.
  Variable table : list mut_event.
  Variable carve : mut_event -> bool.
  Variable results : list result_entry.
  Notation reg := (reg V).
  Notation step := (step V table).
  Notation run := (run V table).
  Notation may_write := (may_write V table).
  Notation cls_of := (cls_of V).
  Notation good_history := (good_history V table carve).

  Hypothesis TOK : table_ok table carve = true.
  Hypothesis ROK : copy_results_ok results = true.
  Hypothesis NOEV : no_copy_events table = true.

  (** a copy-like call writes no object at all *)
  Lemma copy_writes_nothing st o i : copylike (meth o) = true -> may_write st o i = false.
  Proof.
    intros Hc. unfold FrozenOps.may_write. apply not_true_is_false. intros H.
    apply existsb_exists in H. destruct H as [e [He H]]. apply andb_prop in H. destruct H as [Ha _].
    unfold no_copy_events in NOEV. rewrite forallb_forall in NOEV. specialize (NOEV e He).
    destruct e as [[[c m] og] w]. unfold applies in Ha. apply andb_prop in Ha. destruct Ha as [_ Hm].
    apply String.eqb_eq in Hm. cbn [fst snd] in NOEV. rewrite Hm, Hc in NOEV. discriminate.
  Qed.

  Lemma copy_step_keeps st o nv res i r : copylike (meth o) = true -> nth_error st i = Some r ->
    nth_error (step st (o, nv, res)) i = Some r.
  Proof.
    intros Hc Hn. apply (step_frame V table st (o, nv, res) i r Hn). cbn [fst]. apply copy_writes_nothing, Hc.
  Qed.

  (** the kind recorded for an existing copy-like method is Fresh, or Self on a frozen class *)
  Lemma copy_kind c m : copylike m = true -> has results c m = true ->
    kind_of results c m = RFresh \/ (kind_of results c m = RSelf /\ frozen_class c = true).
  Proof.
    intros Hc Hh. unfold kind_of. unfold has in Hh.
    destruct (find (fun e : result_entry => (fst (fst e) =? c) && (snd (fst e) =? m)) results) as [e|] eqn:F.
    - apply find_some in F. destruct F as [Hin Hm]. apply andb_prop in Hm. destruct Hm as [E1 E2].
      apply String.eqb_eq in E1, E2.
      unfold copy_results_ok in ROK. rewrite forallb_forall in ROK. specialize (ROK e Hin).
      destruct e as [[c' m'] k]. cbn [fst snd] in *. subst c' m'. unfold entry_ok in ROK. rewrite Hc in ROK.
      destruct k; try discriminate; auto.
    - exfalso. apply existsb_exists in Hh. destruct Hh as [e [Hin Hm]].
      pose proof (find_none _ _ F e Hin) as N. cbv beta in N. rewrite Hm in N. discriminate.
  Qed.

  Lemma step_app_length st x : List.length (step st x) = List.length st + List.length (snd x).
  Proof.
    destruct x as [[o nv] res]. unfold FrozenOps.step.
    rewrite app_length, map_length, combine_length, seq_length, Nat.min_id. reflexivity.
  Qed.

  (** THE COPY THEOREM.  [src] is an object of the heap, [m] a copy-like method that its class has.  The call
      writes nothing; its result [dst] is a new object or — only when the class is frozen — [src] itself.  Then,
      whatever public operations follow:
        (1) as long as no call has [src] as its receiver unless through the result (receiver = dst), the source keeps
            the value it had BEFORE the copy;
        (2) as long as no call has [dst] as its receiver unless through the source (receiver = src), the result keeps
            the value it had right after the copy.
      I.e. operating on the copy never changes the source and operating on the source never changes the copy. *)
  Theorem copy_independent_alias st src c v m nv newobj :
    nth_error st src = Some (c, v) -> copylike m = true -> has results c m = true ->
    let k := kind_of results c m in
    let o := {| meth := m; recv := src; args := [] |} in
    let st' := step st (o, nv, result_alloc k newobj) in
    let dst := result_obj k st src in
    (k = RFresh \/ (k = RSelf /\ frozen_class c = true)) /\
    nth_error st' src = Some (c, v) /\
    (k = RFresh -> nth_error st' dst = Some newobj /\ dst <> src) /\
    (forall h, good_history h st' -> Forall (fun x => recv (fst (fst x)) = dst \/ recv (fst (fst x)) <> src) h ->
       nth_error (run h st') src = Some (c, v)) /\
    (forall h r, good_history h st' -> nth_error st' dst = Some r ->
       Forall (fun x => recv (fst (fst x)) = src \/ recv (fst (fst x)) <> dst) h ->
       nth_error (run h st') dst = Some r).
  Proof.
    intros Hn Hc Hh k o st' dst.
    pose proof (copy_kind c m Hc Hh) as K. fold k in K.
    assert (Hsrc : nth_error st' src = Some (c, v)) by (apply copy_step_keeps; [exact Hc|exact Hn]).
    assert (Hlt : src < List.length st) by (apply nth_error_Some; rewrite Hn; discriminate).
    split; [exact K|]. split; [exact Hsrc|].
    destruct K as [KF | [KS Fz]].
    - (* a new object *)
      assert (Hd : dst = List.length st) by (unfold dst, result_obj; rewrite KF; reflexivity).
      assert (Hne : dst <> src) by lia.
      split.
      + intros _. split; [|exact Hne]. unfold st', FrozenOps.step, result_alloc. rewrite KF, Hd.
        rewrite nth_error_app2.
        -- rewrite map_length, combine_length, seq_length, Nat.min_id, Nat.sub_diag. reflexivity.
        -- rewrite map_length, combine_length, seq_length, Nat.min_id. apply Nat.le_refl.
      + split.
        * intros h G F. apply (non_receiver_stable V table carve TOK h st' src (c, v) G Hsrc).
          eapply Forall_impl; [|exact F]. cbv beta. intros x [E|E]; [rewrite E; exact Hne|exact E].
        * intros h r G Hr F. apply (non_receiver_stable V table carve TOK h st' dst r G Hr).
          eapply Forall_impl; [|exact F]. cbv beta. intros x [E|E]; [rewrite E; auto|exact E].
    - (* the receiver itself: only for a frozen class, whose objects never change *)
      assert (Hd : dst = src) by (unfold dst, result_obj; rewrite KS; reflexivity).
      split; [intros E; rewrite KS in E; discriminate|].
      split.
      + intros h G _. apply (frozen_registers_stable V table carve TOK h st' src (c, v) G Hsrc). exact Fz.
      + intros h r G Hr _. rewrite Hd in *. rewrite Hsrc in Hr. inversion Hr; subst r.
        apply (frozen_registers_stable V table carve TOK h st' src (c, v) G Hsrc). exact Fz.
  Qed.
End Copy.

(** The premise is necessary: if copy() of a mutable class returns the receiver (mutation "return self"),
    [copy_results_ok] fails and operating on the "copy" changes the source. *)
Definition bad_results_table : list result_entry := [("Angle", "copy", RSelf)].
Definition imul_table : list mut_event := [("Angle", "__imul__", Self, "store ._pitch")].

Example copy_results_satisfiable :
  copy_results_ok [("Vec", "copy", RFresh); ("FrozenVec", "copy", RSelf); ("FrozenVec", "__new__", RArgFrozen); ("Vec", "norm", RFresh)] = true /\
  no_copy_events imul_table = true.
Proof. split; reflexivity. Qed.
