(** VMF.search returns exactly the entities in the map whose current name / class matches (SM/IndexModel.v [search]). *)
From stdpp Require Import gmap.
From Coq Require Import NArith.
From SV Require Import SM.IndexModel SM.IndexProofs.

Section search.
  Variable fold : str → str.

  (** what search() should return, read off the entities themselves *)
  Definition search_spec (name : str) (st : mstate) (e : nat) : Prop :=
    name ≠ [] ∧ present st e ∧
    let nm := fold name in
    if ends_star nm then ∃ k, tgt_of fold st e = Some k ∧ is_prefix (removelast nm) k = true
    else tgt_of fold st e = Some nm ∨ cls_of fold st e = nm.

  (** the scan of by_target with a test [q] on the keys that are names *)
  Lemma scan_spec (q : str → bool) st e : Inv fold st →
    e ∈ ⋃ (map snd (List.filter (λ kv : option str * gset nat, match kv.1 with Some k => q k | None => false end)
                                (map_to_list (by_target st))))
    ↔ present st e ∧ ∃ k, tgt_of fold st e = Some k ∧ q k = true.
  Proof.
    intros HI. rewrite elem_of_union_list. split.
    - intros (X & HX & He). apply elem_of_list_In, in_map_iff in HX as ([ko X'] & <- & Hin).
      apply filter_In in Hin as [Hin Hp]. apply elem_of_list_In, elem_of_map_to_list in Hin. simpl in Hin, Hp.
      destruct ko as [k|]; [|done].
      assert (He' : e ∈ ix_get (by_target st) (Some k)) by (unfold ix_get; rewrite Hin; done).
      apply (inv_by_target fold) in He' as [Hpres Htg]; [|done]. eauto.
    - intros (Hpres & k & Htg & Hp).
      assert (He' : e ∈ ix_get (by_target st) (Some k)) by (apply (inv_by_target fold); done).
      unfold ix_get in He'. destruct (by_target st !! Some k) as [X|] eqn:E; simpl in He'; [|set_solver].
      exists X. split; [|done]. apply elem_of_list_In, in_map_iff. exists (Some k, X). split; [done|].
      apply filter_In. split; [|done]. by apply elem_of_list_In, elem_of_map_to_list.
  Qed.

  Hypothesis fold_idem : ∀ s, fold (fold s) = fold s.

  Lemma tgt_of_folded st e k : tgt_of fold st e = Some k → fold k = k.
  Proof.
    unfold tgt_of, tgt_of_keys, or_none. case_decide; [done|]. intros [= <-]. apply fold_idem.
  Qed.

  (** the keys are folded already: folding them again before the test changes nothing *)
  Lemma named_spec (p : str → bool) st e : Inv fold st →
    e ∈ ⋃ (map snd (List.filter (λ kv : option str * gset nat, match kv.1 with Some k => p (fold k) | None => false end)
                                (map_to_list (by_target st))))
    ↔ present st e ∧ ∃ k, tgt_of fold st e = Some k ∧ p k = true.
  Proof.
    intros HI. rewrite (scan_spec (λ k, p (fold k))) by done.
    split; intros (Hp & k & Htg & Hk); (split; [done|]); exists k; (split; [done|]);
      by rewrite (tgt_of_folded _ _ _ Htg) in *.
  Qed.

  Theorem search_sound_complete name st e : Inv fold st → e ∈ search fold name st ↔ search_spec name st e.
  Proof.
    intros HI. unfold search, search_spec. destruct (decide (name = [])) as [->|Hne].
    - split; [set_solver|]. intros [? _]. done.
    - cbv beta zeta. destruct (ends_star (fold name)) eqn:Hstar.
      + pose proof (named_spec (is_prefix (removelast (fold name))) st e HI) as Hn. cbv beta in Hn.
        rewrite Hn. naive_solver.
      + pose proof (named_spec (λ k, bool_decide (k = fold name)) st e HI) as Hn. cbv beta in Hn.
        rewrite elem_of_union, Hn.
        change (default ∅ (by_class st !! fold name)) with (ix_get (by_class st) (fold name)).
        rewrite (inv_by_class fold) by done. split.
        * intros [(Hp & k & Htg & Hk)|[Hp Hc]].
          -- apply bool_decide_eq_true in Hk as ->. naive_solver.
          -- naive_solver.
        * intros (_ & Hp & [Htg|Hc]).
          -- left. split; [done|]. exists (fold name). split; [done|]. by apply bool_decide_eq_true.
          -- right. done.
  Qed.
End search.
