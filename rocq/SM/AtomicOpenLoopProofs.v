(** The temp-name loop of [AtomicWriter.make_tempfile] ([for i in count(1): try open('x') except FileExistsError])
    terminates, and where it settles.

    * One writer alone, at most the names tmp_1..tmp_N present: the loop settles on the *least free* index j <= N+1
      after exactly j attempts, creates only tmp_j and touches nothing else ([open_loop_least_free]).
    * Two writers under every schedule and fault pattern: every open attempt, every held temp name and every EOpen
      event in the trace has an index <= N+2 ([temp_index_bounded]); indexes of one writer's attempts strictly
      increase, so each writer makes at most N+2 attempts however the two are interleaved. *)
From Coq Require Import List Bool Arith PeanoNat Lia.
From SV Require Import SM.AtomicWriter SM.AtomicWriterProofs SM.AtomicWriterThms SM.AtomicExit SM.AtomicExitProofs.
Import ListNotations.

(** * Alone: least free index *)
Definition exist_events (i n : nat) : list event := map (fun k => (EOpen k, RExist)) (seq i n).

Lemma run1_step c s fu k p d : finished p = false ->
  run1 c s (S fu) k [] p d =
  let '(p', d', e) := wstep c s p d false in
  let '(pf, df, es) := run1 c s fu (S k) [] p' d' in
  (pf, df, match e with Some e => e :: es | None => es end).
Proof. destruct p; intros H; try discriminate; reflexivity. Qed.

Lemma run1_open_loop c s : c_excl c = true -> forall n i d k0,
  (forall k, i <= k < i + n -> d (Tmp k) <> None) -> d (Tmp (i + n)) = None ->
  run1 c s (S n) k0 [] (POpen i) d =
  (after_body s (i + n) 0, upd d (Tmp (i + n)) (Some []), exist_events i n ++ [(EOpen (i + n), ROk)]).
Proof.
  intros Hx. induction n as [|n IH]; intros i d k0 Hex Hfree.
  - rewrite Nat.add_0_r in *. rewrite run1_step by reflexivity. cbn [wstep]. rewrite Hx, Hfree. cbn. reflexivity.
  - rewrite run1_step by reflexivity. cbn [wstep]. rewrite Hx.
    destruct (d (Tmp i)) eqn:E; [|exfalso; apply (Hex i); [lia|exact E]].
    cbn [andb is_some].
    specialize (IH (S i) d (S k0)).
    replace (S i + n) with (i + S n) in IH by lia.
    rewrite IH.
    + reflexivity.
    + intros k Hk. apply Hex. lia.
    + exact Hfree.
Qed.

(** The least free index at or above [i], searching [fuel] candidates. *)
Fixpoint least_free (d : dir) (i fuel : nat) : option nat :=
  match fuel with
  | O => None
  | S fu => if is_some (d (Tmp i)) then least_free d (S i) fu else Some i
  end.

Lemma least_free_spec d : forall fuel i j, least_free d i fuel = Some j ->
  i <= j < i + fuel /\ d (Tmp j) = None /\ forall k, i <= k < j -> d (Tmp k) <> None.
Proof.
  induction fuel as [|fu IH]; intros i j H; cbn in H; [discriminate|].
  destruct (d (Tmp i)) eqn:E; cbn in H.
  - apply IH in H as (A & B & C). repeat split; auto; try lia.
    intros k Hk. destruct (Nat.eq_dec k i) as [->|]; [congruence|]. apply C. lia.
  - inversion H; subst. repeat split; auto; try lia; intros; lia.
Qed.

Lemma least_free_exists d N : (forall i, N < i -> d (Tmp i) = None) ->
  forall fuel i, i + fuel = S (S N) -> 1 <= fuel -> exists j, least_free d i fuel = Some j.
Proof.
  intros HN. induction fuel as [|fu IH]; intros i Hs Hf; [lia|]. cbn.
  destruct (d (Tmp i)) eqn:E; cbn; [|eauto].
  destruct fu as [|fu'].
  - (* i = N+1: must be free *) rewrite HN in E by lia. discriminate.
  - apply IH; lia.
Qed.

Theorem open_loop_least_free c s d0 N : c_excl c = true -> (forall i, N < i -> d0 (Tmp i) = None) ->
  exists j, 1 <= j <= S N /\ d0 (Tmp j) = None /\ (forall k, 1 <= k < j -> d0 (Tmp k) <> None) /\
    run1 c s (S j) 0 [] PMkdir d0 =
    (after_body s j 0, upd d0 (Tmp j) (Some []),
     (EMkdir, ROk) :: exist_events 1 (j - 1) ++ [(EOpen j, ROk)]).
Proof.
  intros Hx HN. destruct (least_free_exists d0 N HN (S N) 1) as [j Hj]; [lia|lia|].
  destruct (least_free_spec _ _ _ _ Hj) as (A & B & C).
  exists j. repeat split; auto; try lia.
  rewrite run1_step by reflexivity. cbn [wstep].
  destruct j as [|j']; [lia|].
  pose proof (run1_open_loop c s Hx j' 1 d0 1) as H.
  replace (1 + j') with (S j') in H by lia.
  rewrite H.
  - replace (S j' - 1) with j' by lia. reflexivity.
  - intros k Hk. apply C. lia.
  - exact B.
Qed.

(** * Two writers, every schedule: the index is bounded *)
Definition pre_open (p : pc) : bool := match p with PMkdir | POpen _ => true | _ => false end.
(** The index a writer is trying to create, holds, or has left behind. *)
Definition idx (p : pc) : option nat := match p with POpen i => Some i | _ => assoc p end.

Section Bound.
Variable c : cfg.
Hypothesis Hsafe : cfg_safe c = true.
Variable d0 : dir.
Variables s1 s2 : scen.
Hypothesis Hdest : dest s1 <> dest s2.
Variable N : nat.
Hypothesis HN : forall i, N < i -> d0 (Tmp i) = None.

Lemma idx_after_tail s i j : idx (after_tail s i j) = Some i.
Proof. unfold after_tail. destruct (j <? length (tail s)); reflexivity. Qed.
Lemma idx_after_body s i k : idx (after_body s i k) = Some i.
Proof.
  unfold after_body. destruct (raises_here s k); [reflexivity|].
  destruct (k <? length (body s)); [reflexivity|apply idx_after_tail].
Qed.
Lemma pre_after_tail s i j : pre_open (after_tail s i j) = false.
Proof. unfold after_tail. destruct (j <? length (tail s)); reflexivity. Qed.
Lemma pre_after_body s i k : pre_open (after_body s i k) = false.
Proof.
  unfold after_body. destruct (raises_here s k); [reflexivity|].
  destruct (k <? length (body s)); [reflexivity|apply pre_after_tail].
Qed.
Lemma idx_act a i : idx (act_pc a i) = Some i.
Proof. destruct a; reflexivity. Qed.
Lemma pre_act a i : pre_open (act_pc a i) = false.
Proof. destruct a; reflexivity. Qed.

Lemma idx_step s p d f p' d' e : wstep c s p d f = (p', d', e) -> forall i, idx p' = Some i ->
  idx p = Some i \/ (p = PMkdir /\ i = 1) \/ (exists j, p = POpen j /\ i = S j /\ d (Tmp j) <> None).
Proof.
  intros H. apply wstep_rel_iff in H.
  destruct H as [| |j|j v Hx Hv|j|j k|j k|j k|j k|j exc failed|j exc|j exc|j|j v Hv|j Hn|j|j v Hv|j Hn|r l f]; intros i Hi;
    rewrite ?idx_after_body, ?idx_after_tail, ?idx_act in Hi; cbn in Hi |- *; try discriminate; auto.
  - injection Hi as <-. auto.
  - injection Hi as <-. right; right. exists j. repeat split. congruence.
  - destruct (c_close_guard c); auto.
  - destruct (c_close_guard c); auto.
  - destruct (c_replace_guard c); auto.
  - destruct (c_replace_guard c); [auto|discriminate].
Qed.

Lemma pre_open_mono s p d f p' d' e : wstep c s p d f = (p', d', e) -> pre_open p = false -> pre_open p' = false.
Proof.
  intros H. apply wstep_rel_iff in H.
  destruct H; cbn; intros Hp; try discriminate; auto using pre_after_body, pre_after_tail, pre_act.
  - destruct (c_close_guard c); reflexivity.
  - destruct (c_close_guard c); reflexivity.
  - destruct (c_replace_guard c); reflexivity.
  - destruct (c_replace_guard c); reflexivity.
Qed.

Lemma assoc_not_pre p i : assoc p = Some i -> pre_open p = false.
Proof. destruct p; cbn; intros; try discriminate; reflexivity. Qed.
Lemma open_event s p d f p' d' i r : wstep c s p d f = (p', d', Some (EOpen i, r)) -> p = POpen i.
Proof. intros H. apply wstep_rel_iff in H. inversion H; reflexivity. Qed.

Definition BndOne (pa pb : pc) : Prop :=
  forall i, idx pa = Some i -> i <= N + 2 /\ (i = N + 2 -> pre_open pb = false).

Record J (st : sys) : Prop := {
  j_one : BndOne (p1 st) (p2 st);
  j_two : BndOne (p2 st) (p1 st);
  j_tr : forall w i r, In (w, (EOpen i, r)) (tr st) -> i <= N + 2
}.

(** One writer [pa] steps, the other [pb] stands still. *)
Lemma bnd_step sa sb pa pb d f pa' d' e :
  Frame d0 sa sb pa pb d -> BndOne pa pb -> BndOne pb pa ->
  wstep c sa pa d f = (pa', d', e) ->
  BndOne pa' pb /\ BndOne pb pa' /\ (forall i r, e = Some (EOpen i, r) -> i <= N + 2).
Proof.
  intros Fr B1 B2 H. split; [|split].
  - intros i Hi. destruct (idx_step _ _ _ _ _ _ _ H i Hi) as [A|[[-> ->]|(j & -> & -> & Hex)]].
    + exact (B1 i A).
    + lia.
    + destruct (B1 j eq_refl) as [Hle Hpre].
      destruct (Nat.le_gt_cases j N) as [Hs|Hb]; [lia|].
      (* tmp_j exists and is not an initial file: the other writer holds it *)
      assert (Hheld : assoc pb = Some j).
      { destruct (assoc pb) as [m|] eqn:Em; [destruct (Nat.eq_dec m j) as [->|Hne]; [reflexivity|]|];
          exfalso; apply Hex; rewrite (Frame_tmp d0 _ _ _ _ _ j Fr) by (cbn; congruence); apply HN; lia. }
      assert (Hidx : idx pb = Some j) by (destruct pb; cbn in *; congruence).
      destruct (B2 j Hidx) as [Hle2 Hpre2].
      destruct (Nat.eq_dec j (N + 2)) as [->|Hne].
      * (* the other writer acquired N+2 only while we were past the open loop: contradiction *)
        specialize (Hpre2 eq_refl). discriminate.
      * split; [lia|]. intros _. exact (assoc_not_pre _ _ Hheld).
  - intros i Hi. destruct (B2 i Hi) as [Hle Hpre]. split; [exact Hle|].
    intros Hi2. eapply pre_open_mono; eauto.
  - intros i0 r0 ->. apply open_event in H. subst. exact (proj1 (B1 i0 eq_refl)).
Qed.

Lemma J_step st wf : Inv d0 s1 s2 st -> J st -> J (step2 c s1 s2 st wf).
Proof.
  intros [_ _ _ _ _ Fr] [B1 B2 Bt]. destruct wf as [who f]. unfold step2. destruct who.
  - destruct (wstep c s2 (p2 st) (sd st) f) as [[p' d'] e] eqn:E.
    destruct (bnd_step s2 s1 _ _ _ _ _ _ _ (Frame_sym _ _ _ _ _ _ Fr) B2 B1 E) as (A & B & C).
    constructor; cbn; auto.
    intros w i r Hin. destruct e as [e|]; [|eauto].
    apply in_app_or in Hin as [Hin|[Hin|[]]]; [eauto|]. inversion Hin; subst. eapply C; eauto.
  - destruct (wstep c s1 (p1 st) (sd st) f) as [[p' d'] e] eqn:E.
    destruct (bnd_step s1 s2 _ _ _ _ _ _ _ Fr B1 B2 E) as (A & B & C).
    constructor; cbn; auto.
    intros w i r Hin. destruct e as [e|]; [|eauto].
    apply in_app_or in Hin as [Hin|[Hin|[]]]; [eauto|]. inversion Hin; subst. eapply C; eauto.
Qed.

Lemma J_run sched st : Inv d0 s1 s2 st -> J st -> J (run2 c s1 s2 sched st).
Proof.
  intros HI HJ. apply (run2_invariant c s1 s2 (fun st => Inv d0 s1 s2 st /\ J st)); [|now split].
  intros st' wf [HI' HJ']. split; [now apply inv_step | now apply J_step].
Qed.

Lemma J_start : J (start d0).
Proof. constructor; cbn; try (intros i H; discriminate). intros w i r []. Qed.

Theorem temp_index_bounded : forall sched,
  let st := run2 c s1 s2 sched (start d0) in
  (forall i, idx (p1 st) = Some i -> i <= N + 2) /\
  (forall i, idx (p2 st) = Some i -> i <= N + 2) /\
  (forall w i r, In (w, (EOpen i, r)) (tr st) -> i <= N + 2).
Proof.
  intros sched st.
  destruct (J_run sched (start d0) (inv_start d0 s1 s2) J_start) as [B1 B2 Bt].
  repeat split; auto.
  - intros i Hi. exact (proj1 (B1 i Hi)).
  - intros i Hi. exact (proj1 (B2 i Hi)).
Qed.
End Bound.

(** The index on the tree machine, for the transfer to every generated protocol in the family. *)
Definition idxt (p : pct) : option nat := match p with TOpen i => Some i | _ => assoct p end.
Lemma R_idx c pt p : R c pt p -> idxt pt = idx p.
Proof. destruct 1; reflexivity. Qed.

(** The bound is attained: with tmp_1..tmp_N present (here N = 1) and a concurrent writer that has taken tmp_2,
    the first writer settles on tmp_3 = tmp_(N+2). *)
Example bound_is_tight :
  let d := dir_of [(File 0, [100]); (Tmp 1, [111])] in
  let st := run2 cfg_fixed sc_a sc_b
              [(true, false); (true, false); (true, false); (false, false); (false, false); (false, false);
               (false, false)] (start d) in
  assoc (p2 st) = Some 2 /\ assoc (p1 st) = Some 3.
Proof. vm_compute. auto. Qed.
