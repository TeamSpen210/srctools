(** C09 — proofs about the short form of a pickling pair (model: StorePickleShort.v). *)
From Coq Require Import List String Bool ZArith Lia.
From SV Require Import SM.StorePickleShort.
Import ListNotations.

Lemma lt_other_int : forall cs c, In c cs -> (c < other_int cs)%Z.
Proof.
  unfold other_int. induction cs as [|x cs IH]; intros c H; [destruct H|].
  cbn [map fold_right]. destruct H as [->|H].
  - lia.
  - specialize (IH c H). lia.
Qed.

Lemma other_int_not_in : forall cs, ~ In (other_int cs) cs.
Proof. intros cs H. apply lt_other_int in H. lia. Qed.

Lemma consts_has_zero : forall ts d, In 0%Z (consts_of ts d).
Proof. intros. unfold consts_of. apply in_or_app. right. apply in_or_app. right. left. reflexivity. Qed.

Lemma consts_has_default : forall ts z, In z (consts_of ts (DIntC z)).
Proof. intros. unfold consts_of. apply in_or_app. left. left. reflexivity. Qed.

Lemma consts_has_neq : forall ts d c, In (TNeqInt c) ts -> In c (consts_of ts d).
Proof.
  intros ts d c H. unfold consts_of. apply in_or_app. right. apply in_or_app. left.
  apply in_flat_map. exists (TNeqInt c). split; [exact H | left; reflexivity].
Qed.

(** an integer that is none of the constants of the row passes every test of the row *)
Lemma outside_int_passes : forall ts d w t, ~ In w (consts_of ts d) -> In t ts -> test_holds t (VInt w) = true.
Proof.
  intros ts d w t Hout Hin.
  assert (Hz : w <> 0%Z) by (intros ->; apply Hout, consts_has_zero).
  destruct t; cbn [test_holds truthy]; try reflexivity.
  - apply negb_true_iff, Z.eqb_neq, Hz.
  - apply negb_true_iff, Z.eqb_neq. intros ->. apply Hout. eapply consts_has_neq; eauto.
  - apply negb_true_iff, Z.eqb_neq, Hz.
  - apply negb_true_iff, Z.eqb_neq, Hz.
Qed.

(** MEANING of the obligation: an accepted row restores, for EVERY value of the field's type on which the field's own
    disjuncts of the long-form test all fail, a constant that exports like the value. *)
Theorem row_ok_sound : forall f ty ts d, row_ok (f, ty, ts, d) = true ->
  forall v, has_type ty v = true -> all_fail ts v = true -> export_equiv ty v (default_val d) = true.
Proof.
  intros f ty ts d H v Hty Hfail. unfold row_ok in H. apply andb_true_iff in H. destruct H as [Hd Hall].
  rewrite forallb_forall in Hall.
  assert (Hin : In v (classes_of ty ts d) -> export_equiv ty v (default_val d) = true).
  { intros Hi. specialize (Hall v Hi). rewrite Hfail in Hall. exact Hall. }
  destruct ty; destruct v; cbn [has_type] in Hty; try discriminate Hty;
    try (apply Hin; cbn [classes_of]; cbn [In]; tauto).
  (* TyInt, an arbitrary integer z *)
  cbn [classes_of] in Hin, Hall.
  destruct (in_dec Z.eq_dec z (consts_of ts d)) as [Hc|Hout].
  - apply Hin. right. apply in_map. exact Hc.
  - exfalso. destruct ts as [|t ts'] eqn:Ets.
    + (* no test at all: the representative outside the constants must equal the default — impossible *)
      pose proof (Hall (VInt (other_int (consts_of [] d))) (or_introl eq_refl)) as Ho.
      cbn [all_fail forallb implb] in Ho.
      destruct d; cbn [default_val export_equiv] in Ho; try discriminate Ho.
      apply Z.eqb_eq in Ho. apply (other_int_not_in (consts_of [] (DIntC z0))). rewrite Ho at 1. apply consts_has_default.
    + (* some test: it passes on an integer outside the constants *)
      cbn [all_fail forallb] in Hfail. rewrite (outside_int_passes (t :: ts') d z t Hout (or_introl eq_refl)) in Hfail.
      discriminate Hfail.
Qed.

Theorem short_untested_int_refuted :
  row_ok ("times"%string, TyInt, [], DIntC (-1)) = false /\ row_ok ("times"%string, TyInt, [TNeqInt 1], DIntC (-1)) = false /\
  row_ok ("times"%string, TyInt, [TNeqInt (-1)], DIntC (-1)) = true.
Proof. vm_compute. repeat split. Qed.

Theorem short_optstr_accepted_and_str_refuted :
  row_ok ("inst_in"%string, TyOptStr, [TTruthy], DNone) = true /\
  row_ok ("params"%string, TyStr, [TTruthy], DEmptyStr) = true /\
  row_ok ("params"%string, TyStr, [TTruthy], DNone) = false /\
  row_ok ("inst_in"%string, TyOptStr, [TNotNone], DEmptyStr) = true /\
  row_ok ("inst_in"%string, TyOptStr, [], DNone) = false.
Proof. vm_compute. repeat split. Qed.
