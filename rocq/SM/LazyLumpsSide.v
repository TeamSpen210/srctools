(** Stores of lump writers into lumps that no view owns (FACEIDS).

    [_write_faces_common] (the writer of the views faces, hdr_faces and orig_faces) stores, besides the lumps of its
    view, the FACEIDS lump: a lump that is in no [ParsedLump.to_clear], which the faces reader reads raw and which the
    property wants back byte-identical.  In [LazyLumps.save_step] a writer can only store lumps its view owns; here it
    additionally performs [wside v p : list (lump * data)].

    Result, for every order-consistent graph, every ok shape and every access sequence (looks that raise included):
    if every such store, on the value the reader parsed from this file, goes to an unowned lump and puts there exactly
    what the file holds ([side_ok]; for FACEIDS: the hammer ids the reader took from the lump serialise to the lump),
    then saving with side stores is saving without them, lump for lump and view for view ([side_save_equiv]), hence
    lossless under the hypotheses of the main theorem ([c10_store_outside_view_lossless] in Props/C10.v).  States are compared pointwise
    ([seqv]): a store of the value a lump already holds changes the function [raw] only intensionally, and no
    extensionality axiom is used; [getf_ext] shows that looks respect [seqv].

    Closed counterexamples: a writer that fabricates ids for a file whose FACEIDS lump is empty (the defect repaired
    by fix b7b21cf) or pads a short lump (fix 81886b6) violates [side_ok] and changes the lump. *)
From Coq Require Import List Arith Bool Lia.
From SV Require Import SM.LazyLumps SM.LazyLumpsProofs.
Import ListNotations.

Section Side.
  Variables D P : Type.
  Variable empty : D.
  Variable rd : nat -> list D -> option P.
  Variable wr : nat -> P -> list D.
  Variable wside : nat -> P -> list (nat * D).     (* stores of the writer of view v into lumps outside its view *)
  Variable g : graph.
  Variable sh : shape.

  Notation nviews := (nviews g).
  Notation decl := (decl g).
  Notation own := (own g).
  Notation state := (state D P).
  Notation look_all := (look_all D P).
  Notation getf := (getf D P empty rd g sh).
  Notation get := (get D P empty rd g sh).
  Notation run := (run D P empty rd g sh).
  Notation clear_lumps := (clear_lumps D P empty).
  Notation set_cache := (set_cache D P).
  Notation pre_clear := (pre_clear D P empty g sh).
  Notation parse_input := (parse_input D P g).
  Notation save_step := (save_step D P empty rd wr g sh).
  Notation save := (save D P empty rd wr g sh).
  Notation own_data := (own_data D P g).

  Fixpoint side_store (ss : list (nat * D)) (r : nat -> D) : nat -> D :=
    match ss with [] => r | (l, d) :: ss' => side_store ss' (upd r l d) end.

  (** One iteration of the loop of BSP.save with a writer that also stores lumps outside its view. *)
  Definition save_step_s (acc : bool * state) (v : nat) : bool * state :=
    if fst acc then
      let s := snd acc in
      match cache s v with
      | None => acc
      | Some p =>
          let s1 := set_cache v None s in
          let r := look_all get (v_wdeps (decl v)) s1 in
          if fst r then
            let s2 := snd r in
            let p' := if mem v (v_wdeps (decl v)) then match cache s2 v with Some q => q | None => p end else p in
            (true, mkS (side_store (wside v p') (store_sel D (v_wstore (decl v)) (own v) (wr v p') (raw s2))) (cache s2))
          else r
      end
    else acc.
  Definition save_s (s : state) : bool * state := fold_left save_step_s (save_todo D P g sh s) (true, s).

  (** Pointwise equality of states. *)
  Definition seqv (s s' : state) : Prop := (forall l, raw s l = raw s' l) /\ (forall v, cache s v = cache s' v).

  Lemma seqv_refl : forall s, seqv s s.
  Proof. intros s. split; reflexivity. Qed.

  Lemma clear_lumps_ext : forall ls s s', seqv s s' -> seqv (clear_lumps ls s) (clear_lumps ls s').
  Proof.
    intros ls s s' [Hr Hc]. split; cbn [raw cache LazyLumps.clear_lumps]; [|exact Hc].
    intros l. destruct (mem l ls); [reflexivity | apply Hr].
  Qed.

  Lemma set_cache_ext : forall v o s s', seqv s s' -> seqv (set_cache v o s) (set_cache v o s').
  Proof.
    intros v o s s' [Hr Hc]. split; cbn [raw cache LazyLumps.set_cache]; [exact Hr|].
    intros w. unfold upd. destruct (Nat.eqb w v); [reflexivity | apply Hc].
  Qed.

  Lemma look_all_ext : forall (look : nat -> state -> bool * state) ds,
    (forall d s s', seqv s s' -> fst (look d s) = fst (look d s') /\ seqv (snd (look d s)) (snd (look d s'))) ->
    forall s s', seqv s s' ->
    fst (look_all look ds s) = fst (look_all look ds s') /\ seqv (snd (look_all look ds s)) (snd (look_all look ds s')).
  Proof. intros look ds H. exact (look_all_rel D P seqv look look ds (fun d a b _ => H d a b)). Qed.

  (** Looking at a view respects pointwise equality. *)
  Lemma getf_ext : forall f v s s', seqv s s' ->
    fst (getf f v s) = fst (getf f v s') /\ seqv (snd (getf f v s)) (snd (getf f v s')).
  Proof.
    induction f as [|f IH]; intros v s s' Hs; cbn [getf LazyLumps.getf].
    - split; [reflexivity | exact Hs].
    - destruct (v <? nviews); [|split; [reflexivity | exact Hs]].
      destruct Hs as [Hr Hc]. rewrite (Hc v). destruct (cache s' v); [split; [reflexivity | split; assumption]|].
      assert (Hpre : seqv (pre_clear v s) (pre_clear v s')).
      { unfold LazyLumps.pre_clear. destruct (sh_early_main sh || sh_early_extra sh); [apply clear_lumps_ext|]; split; assumption. }
      destruct (look_all_ext (getf f) (v_rdeps (decl v)) IH _ _ Hpre) as [Hf Hq].
      destruct (look_all (getf f) (v_rdeps (decl v)) (pre_clear v s)) as [b q].
      destruct (look_all (getf f) (v_rdeps (decl v)) (pre_clear v s')) as [b' q']. cbn [fst snd] in *. subst b'.
      destruct b; [|split; [reflexivity | exact Hq]].
      assert (Hin : parse_input s q v = parse_input s' q' v).
      { unfold LazyLumps.parse_input. destruct (own v) as [|m ex]; [reflexivity|]. f_equal; [apply Hr|].
        apply map_ext. intros l. apply (proj1 Hq). }
      rewrite Hin. destruct (rd v (parse_input s' q' v)); cbn [fst snd]; (split; [reflexivity|]); [|exact Hq].
      apply clear_lumps_ext, set_cache_ext, Hq.
  Qed.

  Lemma get_ext : forall v s s', seqv s s' -> fst (get v s) = fst (get v s') /\ seqv (snd (get v s)) (snd (get v s')).
  Proof. intros v s s' Hs. unfold LazyLumps.get. now apply getf_ext. Qed.

  Lemma store_sel_ext : forall ws ls ds (r r' : nat -> D), (forall l, r l = r' l) ->
    forall l, store_sel D ws ls ds r l = store_sel D ws ls ds r' l.
  Proof.
    intros ws. induction ls as [|a ls IH]; intros ds r r' H l; destruct ds as [|d ds]; cbn [store_sel]; try apply H.
    apply IH. intros x. destruct (mem a ws); [|apply H]. unfold upd. destruct (Nat.eqb x a); [reflexivity | apply H].
  Qed.

  (** A store of the value the lump already holds changes nothing. *)
  Lemma side_store_noop : forall ss (r : nat -> D), (forall l d, In (l, d) ss -> r l = d) -> forall x, side_store ss r x = r x.
  Proof.
    induction ss as [|[l d] ss IH]; intros r H x; cbn [side_store]; [reflexivity|].
    assert (Hl : r l = d) by (apply H; now left).
    rewrite IH.
    - unfold upd. destruct (Nat.eqb x l) eqn:E; [apply Nat.eqb_eq in E; subst x; now rewrite Hl | reflexivity].
    - intros l' d' Hin. unfold upd. destruct (Nat.eqb l' l) eqn:E.
      + apply Nat.eqb_eq in E. subst l'. rewrite <- Hl. apply H. now right.
      + apply H. now right.
  Qed.

  Section Consistent.
    Hypothesis OC : order_consistent g = true.
    Hypothesis SH : shape_ok sh = true.
    Variable s0 : state.
    Hypothesis Hlen : wr_len_ok D P rd wr g s0.

    (** On the value parsed from the file, every store outside the view goes to a lump that no view owns and puts
        there what the file holds. *)
    Definition side_ok : Prop :=
      forall v p, v < nviews -> rd v (own_data s0 v) = Some p ->
      forall l d, In (l, d) (wside v p) -> ~ owned g l /\ d = raw s0 l.
    Hypothesis Hside : side_ok.

    Notation Inv := (Inv D P rd wr g s0 (fun _ => True)).

    Lemma save_step_s_sim : forall k acc acc', k < nviews -> fst acc = fst acc' -> seqv (snd acc) (snd acc') ->
      (fst acc' = true -> Inv k k (snd acc')) ->
      fst (save_step_s acc k) = fst (save_step acc' k) /\ seqv (snd (save_step_s acc k)) (snd (save_step acc' k)).
    Proof.
      intros k [b s] [b' s'] Hk Hb Hs HI. cbn [fst snd] in Hb, Hs, HI. subst b'.
      unfold save_step_s, LazyLumps.save_step. cbn [fst snd].
      destruct b; [|split; [reflexivity | exact Hs]]. specialize (HI eq_refl).
      rewrite (proj2 Hs k). destruct (cache s' k) as [p|] eqn:Ec; [|split; [reflexivity | exact Hs]].
      pose proof (writer_looks_spec D P empty rd wr g sh OC SH s0 (fun _ => True) (closed_all g) k p s' Hk HI Ec) as H.
      cbv zeta in H. destruct H as ((_ & _ & Hpk) & -> & (_ & _ & _ & Hd) & _).
      destruct (look_all_ext get (v_wdeps (decl k)) get_ext _ _ (set_cache_ext k None s s' Hs)) as [Hf Hq].
      destruct (look_all get (v_wdeps (decl k)) (set_cache k None s)) as [b2 s2].
      destruct (look_all get (v_wdeps (decl k)) (set_cache k None s')) as [[] s2']; cbn [fst snd] in *; subst b2;
        [|split; [reflexivity | exact Hq]].
      split; [reflexivity|]. split; cbn [fst snd raw cache]; [|exact (proj2 Hq)].
      (* every store outside the view puts back what the lump holds: no view owns it, so neither looks nor the
         writer's own stores have touched it *)
      intros x. rewrite side_store_noop; [apply store_sel_ext, (proj1 Hq)|].
      intros l d Hin. destruct (Hside k p Hk Hpk l d Hin) as [Hun ->].
      rewrite (store_sel_ext _ _ _ _ _ (proj1 Hq)), (store_sel_other D); [exact (Hd l Hun)|].
      intros Hl. apply Hun. exists k. split; assumption.
    Qed.

    (** Saving with side stores is saving without them. *)
    Theorem side_save_equiv : fresh D P s0 -> forall accs,
      fst (save_s (run accs s0)) = fst (save (run accs s0)) /\ seqv (snd (save_s (run accs s0))) (snd (save (run accs s0))).
    Proof.
      intros Hf accs. unfold save_s, LazyLumps.save. rewrite (save_todo_std D P g sh SH).
      refine (proj1 (fold_seq_rel _ _ save_step_s save_step
                (fun k a a' => (fst a = fst a' /\ seqv (snd a) (snd a')) /\ (fst a' = true -> Inv k k (snd a')))
                nviews _ nviews 0 _ _ eq_refl _)).
      - intros k a a' Hk [[Hb Hs] HI]. split; [exact (save_step_s_sim k a a' Hk Hb Hs HI)|].
        exact (proj1 (save_step_inv D P empty rd wr g sh OC SH s0 (fun _ => True) (closed_all g) Hlen k a' Hk HI)).
      - split; [split; [reflexivity | apply seqv_refl]|]. intros _. exact (inv_run_all D P empty rd wr g sh OC SH s0 accs Hf).
    Qed.

  End Consistent.
End Side.

(** Closed instances (FACEIDS).
    View 0 (faces) owns lump 2; lump 5 (FACEIDS) is owned by nobody.  The parsed value is the list of face records;
    the ids the writer stores are derived from it by [ids]. *)
Definition sx_rd (v : nat) (ds : list (list nat)) : option (list nat) := match ds with [m] => Some m | _ => None end.
Definition sx_wr (v : nat) (p : list nat) : list (list nat) := [p].
Definition g_side : graph := [ mkV [2] [] [] [2] ].
Definition sx_file (ids : list nat) : state (list nat) (list nat) :=
  mkS (fun l => if Nat.eqb l 2 then [7; 8] else if Nat.eqb l 5 then ids else []) (fun _ => None).
(* a writer that always writes one id per face, 0 where the reader found none (before fixes b7b21cf / 81886b6) *)
Definition sx_pad (have : list nat) (v : nat) (p : list nat) : list (nat * list nat) :=
  [(5, have ++ repeat 0 (length p - length have))].
(* today's writer: the ids as read, nothing invented; no store at all when there are none *)
Definition sx_asread (have : list nat) (v : nat) (p : list nat) : list (nat * list nat) :=
  match have with [] => [] | _ => [(5, have)] end.
Notation sx_save ws s := (save_s (list nat) (list nat) [] sx_rd sx_wr ws g_side std_shape s).
Notation sx_run accs s := (run (list nat) (list nat) [] sx_rd g_side std_shape accs s).

Example side_store_hyps_satisfiable :
  let s0 := sx_file [100] in
  order_consistent g_side = true /\ fresh (list nat) (list nat) s0 /\
  wr_len_ok (list nat) (list nat) sx_rd sx_wr g_side s0 /\ codec_ok (list nat) (list nat) sx_rd sx_wr g_side s0 /\
  side_ok (list nat) (list nat) sx_rd (sx_asread [100]) g_side s0 /\
  raw (snd (sx_save (sx_asread [100]) (sx_run [0] s0))) 5 = [100] /\
  raw (snd (sx_save (sx_asread [100]) (sx_run [0] s0))) 2 = [7; 8].
Proof.
  cbv zeta. split; [reflexivity|]. split; [intros v; reflexivity|]. split; [|split; [|split; [|split; reflexivity]]].
  - intros v p Hv Hr. destruct v as [|v]; [|cbn in Hv; lia]. vm_compute in Hr. injection Hr as <-. reflexivity.
  - intros v p Hv Hr. destruct v as [|v]; [|cbn in Hv; lia]. vm_compute in Hr. injection Hr as <-. reflexivity.
  - intros v p Hv Hr l d Hin. destruct v as [|v]; [|cbn in Hv; lia]. cbn in Hin. destruct Hin as [E|[]]. injection E as <- <-.
    split; [|reflexivity]. intros (w & Hw & Hl). destruct w as [|w]; [|cbn in Hw; lia].
    cbn in Hl. destruct Hl as [E|[]]. discriminate.
Qed.

(** Ids fabricated for an empty FACEIDS lump (fix b7b21cf) and a short lump padded with zeros (fix 81886b6): the
    lump without a view changes although every condition on the graph holds; what fails is [side_ok]. *)
Example side_store_fabricated_refuted :
  raw (snd (sx_save (sx_pad []) (sx_run [0] (sx_file [])))) 5 = [0; 0] /\
  raw (snd (sx_save (sx_pad [100]) (sx_run [0] (sx_file [100])))) 5 = [100; 0] /\
  raw (snd (sx_save (sx_asread []) (sx_run [0] (sx_file [])))) 5 = [] /\
  ~ side_ok (list nat) (list nat) sx_rd (sx_pad [100]) g_side (sx_file [100]).
Proof.
  split; [reflexivity|]. split; [reflexivity|]. split; [reflexivity|]. intros H.
  destruct (H 0 [7; 8] ltac:(cbn; lia) eq_refl 5 [100; 0] (or_introl eq_refl)) as [_ E]. discriminate.
Qed.
