(** Helpers for running the VPK model against the implementation (correspondence, checks/c13.py).
    Nothing here is used by a theorem. *)
From Coq Require Import List NArith ZArith Bool Uint63.
From SV Require Import Fmt.VpkDir Fmt.VpkDirV2 SM.Vpk Fmt.VpkArchName Fmt.VpkNullStr.
Import ListNotations.
Open Scope N_scope.

(** Deterministic test data, the same formula as checks/c13.py [gen_data]; on primitive 63-bit integers
    because it is evaluated for several hundred KiB per run. *)
Fixpoint gen_from (fuel : nat) (s i : int) : bytes :=
  match fuel with
  | O => []
  | S f => Z.to_N (to_Z ((s * 31 + i * 7 + (i >> 8) * 13 + s * i) mod 251)%uint63) :: gen_from f s (i + 1)%uint63
  end.
Definition gen (s n : N) : bytes := gen_from (N.to_nat n) (of_Z (Z.of_N s)) 0%uint63.

(** CRC-32 on primitive integers (same algorithm as [Vpk.crc32], which is kept as the readable reference). *)
Definition fstep (c : int) : int := (if (c land 1 =? 1) then (c >> 1) lxor 3988292384 else c >> 1)%uint63.
Definition fbyte (c : int) (b : N) : int :=
  let c := (c lxor (of_Z (Z.of_N b)))%uint63 in fstep (fstep (fstep (fstep (fstep (fstep (fstep (fstep c))))))).
Definition fcrc32 (d : bytes) : N := Z.to_N (to_Z ((fold_left fbyte d 4294967295) lxor 4294967295)%uint63).
Example fcrc32_check : fcrc32 [49;50;51;52;53;54;55;56;57] = 3421780262 /\ crc32 (gen 5 300) = fcrc32 (gen 5 300).
Proof. vm_compute. split; reflexivity. Qed.

Fixpoint nlist_eqb (a b : list N) : bool :=
  match a, b with [], [] => true | x :: a', y :: b' => (x =? y) && nlist_eqb a' b' | _, _ => false end.

(** digest of a byte string: (length, crc32) *)
Definition dg (b : bytes) : N * N := (len b, fcrc32 b).
Definition dg_eqb (a b : N * N) : bool := (fst a =? fst b) && (snd a =? snd b).

(** per-file observation: key -> (digest of read(), verify()) *)
Definition obs_t := (key * ((N * N) * bool))%type.
Definition model_obs (cf : vcfg) (st : vstate) : list obs_t :=
  map (fun e => (fst e, (dg (fst (snd e)), snd (snd e)))) (observe fcrc32 st).
Definition obs_match (ex md : list obs_t) : bool :=
  Nat.eqb (length ex) (length md) &&
  forallb (fun e => match alookup (fst e) md with
                    | Some (d, v) => dg_eqb d (fst (snd e)) && Bool.eqb v (snd (snd e))
                    | None => false end) ex.

(** per-operation trace: result code, number of files, sum of content digests mod 2^32, all verify *)
Definition summary (cf : vcfg) (st : vstate) : list N :=
  let o := model_obs cf st in
  [N.of_nat (length o);
   fold_left (fun a e => (a + fst (fst (snd e)) + snd (fst (snd e))) mod 4294967296) o 0;
   if forallb (fun e => snd (snd e)) o then 1 else 0].
Fixpoint trace (cf : vcfg) (st : vstate) (ops : list op) : option (vstate * list N) :=
  match ops with
  | [] => Some (st, [])
  | o :: r => match step fcrc32 cf st o with
              | None => None
              | Some (st', c) => match trace cf st' r with
                                 | None => None
                                 | Some (st'', t) => Some (st'', c :: summary cf st' ++ t) end
              end
  end.

Definition archs_match (ex : list (N * (N * N))) (st : vstate) : bool :=
  Nat.eqb (length ex) (length (archs st)) &&
  forallb (fun e => dg_eqb (dg (arch_get (fst e) (archs st))) (snd e)) ex.

(** 0 = model and implementation agree; otherwise the first aspect that differs. *)
Definition check_case (cf : vcfg) (ops : list op) (tr : list N) (fin : list obs_t) (dsk : N * N)
           (ars : list (N * (N * N))) : N :=
  match trace cf (init) ops with
  | None => 1
  | Some (st, t) =>
      if negb (nlist_eqb t tr) then 2
      else if negb (obs_match fin (model_obs cf st)) then 3
      else if negb (dg_eqb (dg (disk st)) dsk) then 4
      else if negb (archs_match ars st) then 5
      else 0
  end.

(** Independent decode: the model decoder applied to the bytes the implementation wrote.
    Expected: the FileInfo fields the implementation itself loaded, and its footer. *)
Definition ent_t := (key * (N * (N * N) * option N * N * N))%type.   (* crc, digest of preload, index, offset, arch_len *)
Definition ent_of (e : key * info) : ent_t :=
  (fst e, (icrc (snd e), dg (ipre (snd e)), iidx (snd e), ioff (snd e), ilen (snd e))).
Definition oN_eqb (a b : option N) : bool :=
  match a, b with None, None => true | Some x, Some y => x =? y | _, _ => false end.
Definition ent_match (ex : list ent_t) (md : list (key * info)) : bool :=
  Nat.eqb (length ex) (length md) &&
  forallb (fun e => match alookup (fst e) md with
                    | Some i => let '(c, p, x, o, l) := snd e in
                                (icrc i =? c) && dg_eqb (dg (ipre i)) p && oN_eqb (iidx i) x && (ioff i =? o) && (ilen i =? l)
                    | None => false end) ex.
Definition check_decode (dc : dcfg) (file : bytes) (ex : option (list ent_t * (N * N))) : bool :=
  match dec_file dc file, ex with
  | None, None => true
  | Some (es, f), Some (xs, fd) => ent_match xs (load_table es) && dg_eqb (dg f) fd
  | _, _ => false
  end.

Definition entry_widths_expected : list N := [4; 2; 2; 4; 4; 2].

Fixpoint bad_idx {A} (f : A -> bool) (n : N) (l : list A) : list N :=
  match l with [] => [] | x :: r => (if f x then [] else [n]) ++ bad_idx f (n + 1) r end.

(** Archive naming: the model's [_dir_prefix] and per-index names of the write / read / verify sites against the names the
    implementation's sites really open. *)
Definition oB_eqb (a b : option bytes) : bool :=
  match a, b with None, None => true | Some x, Some y => bytes_eqb x y | _, _ => false end.
Fixpoint list_eqb {A} (f : A -> A -> bool) (a b : list A) : bool :=
  match a, b with [], [] => true | x :: a', y :: b' => f x y && list_eqb f a' b' | _, _ => false end.
Definition check_archname (c : ncfg) (f : bytes) (idxs : list N) (ex : option bytes * list (list (option bytes))) : bool :=
  let '(dp, names) := obs_name c f idxs in
  oB_eqb dp (fst ex) && list_eqb (list_eqb oB_eqb) names (snd ex).

(** The same for both header versions: (VPK.version, entries, footer). *)
Definition check_decode_v (dc : dcfg) (file : bytes) (ex : option (N * list ent_t * (N * N))) : bool :=
  match dec_file_v dc file, ex with
  | None, None => true
  | Some (v, es, f), Some (xv, xs, fd) => (v =? xv) && ent_match xs (load_table es) && dg_eqb (dg f) fd
  | _, _ => false
  end.

(** run-length literal used by checks/c13.py for long names and streams *)
Definition nrep (x n : N) : bytes := repeat x (N.to_nat n).

(** iter_nullstr on a byte stream: the strings it yields as (length, crc32) digests and the number of bytes left, or that it raises. *)
Fixpoint dgs_eqb (a : list bytes) (b : list (N * N)) : bool :=
  match a, b with [], [] => true | x :: a', y :: b' => dg_eqb (dg x) y && dgs_eqb a' b' | _, _ => false end.
Definition check_nullstr_dg (k : ncodec) (bs : bytes) (ex : option (list (N * N) * N)) : bool :=
  match iter_nullstr_k k bs, ex with
  | None, None => true
  | Some (l, r), Some (l', n) => dgs_eqb l l' && (len r =? n)
  | _, _ => false
  end.

(** VPK.__delitem__ on the nested dicts (SM/VpkNested.v): which deletes succeed and the key structure left, in dict order. *)
From SV Require Import SM.VpkNested.
Definition shape_t := list (bytes * list (bytes * list bytes)).
Definition tree_shape (t : tree) : shape_t := map (fun e => (fst e, map (fun d => (fst d, map fst (snd d))) (snd e))) t.
Definition shape_tree (s : shape_t) : tree :=
  map (fun e => (fst e, map (fun d => (fst d, map (fun n => (n, mkInfo 0 [] None 0 0)) (snd d))) (snd e))) s.
Fixpoint blist_eqb' (a b : list bytes) : bool :=
  match a, b with [], [] => true | x :: a', y :: b' => bytes_eqb x y && blist_eqb' a' b' | _, _ => false end.
Fixpoint dshape_eqb (a b : list (bytes * list bytes)) : bool :=
  match a, b with [], [] => true | (x, l) :: a', (y, m) :: b' => bytes_eqb x y && blist_eqb' l m && dshape_eqb a' b' | _, _ => false end.
Fixpoint shape_eqb (a b : shape_t) : bool :=
  match a, b with [], [] => true | (x, l) :: a', (y, m) :: b' => bytes_eqb x y && dshape_eqb l m && shape_eqb a' b' | _, _ => false end.
Fixpoint bools_eqb (a b : list bool) : bool :=
  match a, b with [], [] => true | x :: a', y :: b' => Bool.eqb x y && bools_eqb a' b' | _, _ => false end.
Definition check_ndel (prog : dprog) (s : shape_t) (ks : list key) (oks : list bool) (after : shape_t) : bool :=
  let '(l, t) := ndel_all prog (shape_tree s) ks in bools_eqb l oks && shape_eqb (tree_shape t) after.

(** Extended histories (SM/VpkApi.v): the same comparison as [check_case] over [xstep] and the translated __exit__ table. *)
From SV Require Import SM.VpkApi.
Fixpoint xtrace (et : list exit_row) (cf : vcfg) (st : vstate) (xs : list xop) : option (vstate * list N) :=
  match xs with
  | [] => Some (st, [])
  | x :: r => match xstep et fcrc32 cf st x with
              | None => None
              | Some (st', c) => match xtrace et cf st' r with
                                 | None => None
                                 | Some (st'', t) => Some (st'', c :: summary cf st' ++ t) end
              end
  end.
Definition check_xcase (et : list exit_row) (cf : vcfg) (xs : list xop) (tr : list N) (fin : list obs_t) (dsk : N * N)
           (ars : list (N * (N * N))) : N :=
  match xtrace et cf (init) xs with
  | None => 1
  | Some (st, t) =>
      if negb (nlist_eqb t tr) then 2
      else if negb (obs_match fin (model_obs cf st)) then 3
      else if negb (dg_eqb (dg (disk st)) dsk) then 4
      else if negb (archs_match ars st) then 5
      else 0
  end.

(** new_file / del sequences on the nested dicts from an empty archive (SM/VpkNestedMap.v [nrun] over the translated descriptions), the
    key structure left, and membership of probe names. *)
From SV Require Import SM.VpkNestedMap.
Definition check_nrun (g1 g2 : goc) (chk : bool) (prog : dprog) (ops : list nop) (oks : list bool) (after : shape_t)
           (probes : list (key * bool)) : bool :=
  let '(l, t) := nrun g1 g2 chk prog [] ops in
  bools_eqb l oks && shape_eqb (tree_shape t) after
  && forallb (fun pb => Bool.eqb (match nlookup t (fst pb) with Some _ => true | None => false end) (snd pb)) probes.

(** The same through the program compiled from load_dirfile (Fmt/VpkDirRead.v [rexec] over Gen/VpkDirProg_gen.v [g_rprog]). *)
From SV Require Import Fmt.VpkDirProg Fmt.VpkDirRead.
Definition check_decode_p (dc : dcfg) (p : rprog) (file : bytes) (ex : option (N * list ent_t * (N * N))) : bool :=
  match rexec dc p file, ex with
  | None, None => true
  | Some (v, es, f), Some (xv, xs, fd) => (v =? xv) && ent_match xs (load_table es) && dg_eqb (dg f) fd
  | _, _ => false
  end.

(** Plain histories (no with-blocks, no load_dirfile() on the same object) through the machine assembled from the generated objects
    (SM/VpkGenMachine.v [gstep]: FileInfo.write from the placement table, write_dirfile / reopen as the translated programs). *)
From SV Require Import SM.VpkPlace SM.VpkGenMachine.
Fixpoint gtrace (pt : list prow) (wp : wprog) (rp : rprog) (cf : vcfg) (st : vstate) (ops : list op) : option (vstate * list N) :=
  match ops with
  | [] => Some (st, [])
  | o :: r => match gstep pt wp rp fcrc32 cf st o with
              | None => None
              | Some (st', c) => match gtrace pt wp rp cf st' r with
                                 | None => None
                                 | Some (st'', t) => Some (st'', c :: summary cf st' ++ t) end
              end
  end.
Definition check_gcase (pt : list prow) (wp : wprog) (rp : rprog) (cf : vcfg) (ops : list op) (tr : list N) (fin : list obs_t) (dsk : N * N)
           (ars : list (N * (N * N))) : N :=
  match gtrace pt wp rp cf (init) ops with
  | None => 1
  | Some (st, t) =>
      if negb (nlist_eqb t tr) then 2
      else if negb (obs_match fin (model_obs cf st)) then 3
      else if negb (dg_eqb (dg (disk st)) dsk) then 4
      else if negb (archs_match ars st) then 5
      else 0
  end.
