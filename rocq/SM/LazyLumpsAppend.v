(** What C10 needs from writers that APPEND to a view they look at ([find_or_insert(self.texinfo)] ...).

    In SM/LazyLumps.v a writer leaves the cached values of the views it looks at unchanged.  The real writers hand
    those lists to [find_or_insert] / [find_or_extend] (Bin/FindInsert.v, the model used by C11), which append an
    item when it is not found.  On an unmodified BSP every reference a parsed value holds was resolved FROM the
    table it refers to, so every requested item is already present: then [find_or_insert] never appends, the
    looked-at view is literally unchanged, and the writer's "appending" use is a read.  (C11's
    [fi_run_sound] adds that the indexes handed out denote the requested items, and that when something is
    appended — a modified BSP — earlier indexes never move.) *)
From Coq Require Import NArith List.
From SV Require Import Bin.FindInsert.
Import ListNotations.
Local Open Scope N_scope.

(** The index knows every item of the table. *)
Definition fi_complete (s : fi_state) : Prop := forall k, In k (items s) -> lookup k (index s) <> None.

Lemma build_from_complete : forall l i d k, In k l \/ lookup k d <> None -> lookup k (build_from i l d) <> None.
Proof.
  induction l as [|a l IH]; intros i d k H; cbn [build_from].
  - destruct H as [[]|H]; exact H.
  - apply IH. destruct H as [[->|H]|H].
    + right. cbn [lookup]. rewrite N.eqb_refl. discriminate.
    + left. exact H.
    + right. cbn [lookup]. destruct (k =? a); [discriminate | exact H].
Qed.

Lemma fi_init_complete : forall l, fi_complete (fi_init l).
Proof. intros l k H. unfold fi_init. cbn [items index] in *. apply build_from_complete. now left. Qed.

Lemma fi_find_present : forall s k, fi_complete s -> In k (items s) -> fst (fi_find s k) = s.
Proof.
  intros s k Hc Hin. unfold fi_find. destruct (lookup k (index s)) eqn:E; [reflexivity|].
  exfalso. exact (Hc k Hin E).
Qed.

(** A whole run of requests for items that are all in the table leaves the table (and its index) unchanged. *)
Theorem fi_run_present_noop : forall ks s, fi_complete s -> (forall k, In k ks -> In k (items s)) -> fst (fi_run s ks) = s.
Proof.
  induction ks as [|k r IH]; intros s Hc Hin; cbn [fi_run]; [reflexivity|].
  pose proof (fi_find_present s k Hc (Hin k (or_introl eq_refl))) as H1.
  destruct (fi_find s k) as [s1 i]. cbn [fst] in H1. subst s1.
  pose proof (IH s Hc (fun k' H' => Hin k' (or_intror H'))) as H2.
  destruct (fi_run s r) as [s2 is2]. cbn [fst] in *. exact H2.
Qed.

(** ... and a request for an item that is NOT in the table does append (so the hypothesis cannot be dropped):
    the origin vertex of the dummy edge before fix dae40a3. *)
Example append_when_missing : items (fst (fi_run (fi_init [5; 6]) [6; 7])) = [5; 6; 7].
Proof. vm_compute. reflexivity. Qed.
