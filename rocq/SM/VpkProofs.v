(** Proofs about the VPK state machine (SM/Vpk.v). *)
From Coq Require Import List NArith Bool Lia Permutation.
From SV Require Import Fmt.VpkDir Fmt.VpkDirProofs SM.Vpk.
Import ListNotations.
Open Scope N_scope.

Definition mutating (o : op) : bool := match o with OReopen _ => false | _ => true end.

Section ro.
  Variable crc : bytes -> N.
  Variable cf : vcfg.

  (** A VPK opened in read mode rejects every mutation: the state is unchanged and the result is an error. *)
  Lemma readonly_rejects st o :
    md st = MR -> mutating o = true ->
    exists c, step crc cf st o = Some (st, c) /\ (c = rReadOnly \/ c = rMissing).
  Proof.
    intros Hm Ho. destruct o; try discriminate; cbn [step]; rewrite Hm; cbn [writable negb].
    - eauto.
    - eauto.
    - destruct (alookup k (tbl st)); eauto.
    - eauto.
    - eauto.
  Qed.
End ro.

(** ---- association lists ---- *)

(** [find] in the decision tables: a table that has a row for a key ([existsb]) yields one ([find]) *)
Lemma find_covered {A} (P : A -> bool) (t : list A) : existsb P t = true -> exists r, find P t = Some r /\ In r t /\ P r = true.
Proof.
  intros H. destruct (find P t) as [r|] eqn:F.
  - exists r. apply find_some in F. tauto.
  - apply existsb_exists in H as (r & Hin & Hr). now rewrite (find_none _ _ F r Hin) in Hr.
Qed.
Lemma find_ext_in {A} (P Q : A -> bool) (t : list A) : (forall r, In r t -> P r = Q r) -> find P t = find Q t.
Proof.
  induction t as [|r t IH]; intros H; [reflexivity|]. cbn [find]. rewrite (H r (or_introl eq_refl)).
  destruct (Q r); [reflexivity|]. apply IH. intros x Hx. apply H. now right.
Qed.

Lemma bytes_eqb_eq a : forall b, bytes_eqb a b = true <-> a = b.
Proof.
  induction a as [|x a IH]; destruct b as [|y b]; cbn; split; try congruence; try discriminate.
  - intros H. apply andb_prop in H as [H1 H2]. apply N.eqb_eq in H1. apply IH in H2. congruence.
  - intros [= -> ->]. rewrite N.eqb_refl. now apply IH.
Qed.
Lemma key_eqb_eq a b : key_eqb a b = true <-> a = b.
Proof.
  destruct a as [[e1 d1] n1], b as [[e2 d2] n2]. cbn. split.
  - intros H. apply andb_prop in H as [H H3]. apply andb_prop in H as [H1 H2].
    apply bytes_eqb_eq in H1, H2, H3. congruence.
  - intros [= -> -> ->]. rewrite !(proj2 (bytes_eqb_eq _ _) eq_refl). reflexivity.
Qed.
Lemma key_eqb_refl a : key_eqb a a = true.
Proof. now apply key_eqb_eq. Qed.
Lemma key_eqb_neq a b : a <> b -> key_eqb a b = false.
Proof. intros H. destruct (key_eqb a b) eqn:E; [apply key_eqb_eq in E; contradiction|reflexivity]. Qed.

Lemma bytes_eqb_spec a b : reflect (a = b) (bytes_eqb a b).
Proof. apply iff_reflect. symmetry. apply bytes_eqb_eq. Qed.
Lemma key_eqb_spec a b : reflect (a = b) (key_eqb a b).
Proof. apply iff_reflect. symmetry. apply key_eqb_eq. Qed.
Lemma bytes_eqb_refl a : bytes_eqb a a = true.
Proof. now apply bytes_eqb_eq. Qed.
Lemma bytes_eqb_neq a b : a <> b -> bytes_eqb a b = false.
Proof. intros H. now destruct (bytes_eqb_spec a b). Qed.
Lemma bytes_eqb_sym a b : bytes_eqb a b = bytes_eqb b a.
Proof. destruct (bytes_eqb_spec a b) as [->|]; [now rewrite bytes_eqb_refl|now rewrite bytes_eqb_neq by auto]. Qed.

Section assoc_lemmas.
  Context {V : Type}.
  Implicit Types l : list (key * V).

  Lemma alookup_In k v l : alookup k l = Some v -> In (k, v) l.
  Proof.
    induction l as [|[k' v'] l IH]; cbn; [discriminate|].
    destruct (key_eqb_spec k k') as [->|]; [intros [= ->]; now left|auto].
  Qed.
  Lemma alookup_None k l : alookup k l = None <-> ~ In k (map fst l).
  Proof.
    induction l as [|[k' v'] l IH]; cbn; [tauto|].
    destruct (key_eqb_spec k k') as [->|]; [|rewrite IH]; intuition congruence.
  Qed.
  Lemma In_alookup k v l : NoDup (map fst l) -> In (k, v) l -> alookup k l = Some v.
  Proof.
    induction l as [|[k' v'] l IH]; cbn; [tauto|]. intros Hnd [H|H].
    - injection H as -> ->. now rewrite key_eqb_refl.
    - inversion Hnd; subst. destruct (key_eqb_spec k k') as [->|]; [|auto].
      exfalso. apply H2. apply (in_map fst) in H. exact H.
  Qed.
  Lemma alookup_perm l1 l2 : Permutation l1 l2 -> NoDup (map fst l1) -> forall k, alookup k l1 = alookup k l2.
  Proof.
    intros Hp Hnd k.
    assert (NoDup (map fst l2)) as Hnd2 by (eapply Permutation_NoDup; [apply Permutation_map, Hp|exact Hnd]).
    destruct (alookup k l1) as [v|] eqn:E.
    - symmetry. apply In_alookup; [assumption|]. eapply Permutation_in; [exact Hp|]. now apply alookup_In.
    - symmetry. apply alookup_None. apply alookup_None in E. intros H. apply E.
      eapply Permutation_in; [apply Permutation_sym, Permutation_map, Hp|exact H].
  Qed.

  Lemma alookup_aset k k' v l : alookup k (aset k' v l) = if key_eqb k k' then Some v else alookup k l.
  Proof.
    induction l as [|[k0 v0] l IH]; cbn; [reflexivity|].
    destruct (key_eqb_spec k' k0) as [->|N]; cbn; [now destruct (key_eqb k k0)|].
    rewrite IH. destruct (key_eqb_spec k k0) as [->|]; [|reflexivity]. now rewrite key_eqb_neq by auto.
  Qed.
  Lemma aset_keys k v l : NoDup (map fst l) -> NoDup (map fst (aset k v l)).
  Proof.
    induction l as [|[k0 v0] l IH]; cbn; intros H.
    - constructor; [tauto|constructor].
    - inversion H; subst. destruct (key_eqb_spec k k0) as [->|N]; cbn; [now constructor|].
      constructor; [|auto]. intros Hin. apply H2.
      (* a name of [aset k v l] other than [k] is a name of [l]: read it off the lookups *)
      destruct (alookup k0 l) eqn:L; [apply alookup_In in L; apply (in_map fst) in L; exact L|].
      exfalso. revert Hin. apply alookup_None. now rewrite alookup_aset, L, key_eqb_neq by auto.
  Qed.
  Lemma alookup_adel k k' l : alookup k (adel k' l) = if key_eqb k k' then None else alookup k l.
  Proof.
    induction l as [|[k0 v0] l IH]; cbn; [now destruct (key_eqb k k')|].
    destruct (key_eqb_spec k' k0) as [->|N]; cbn; rewrite IH; [now destruct (key_eqb k k0)|].
    destruct (key_eqb_spec k k0) as [->|]; [|reflexivity]. now rewrite key_eqb_neq by auto.
  Qed.
  Lemma adel_in k x l : In x (map fst (adel k l)) -> In x (map fst l).
  Proof.
    induction l as [|[k1 v1] l IH]; cbn; [tauto|].
    destruct (key_eqb k k1); cbn; tauto.
  Qed.
  Lemma adel_keys k l : NoDup (map fst l) -> NoDup (map fst (adel k l)).
  Proof.
    induction l as [|[k0 v0] l IH]; cbn; intros H; [constructor|].
    inversion H; subst. destruct (key_eqb k k0); cbn; [auto|].
    constructor; [|auto]. intros Hin. apply H2. eapply adel_in, Hin.
  Qed.

  Lemma load_lookup (es : list (key * V)) : forall acc k, NoDup (map fst es) ->
    alookup k (fold_left (fun t e => aset (fst e) (snd e) t) es acc)
    = match alookup k es with Some v => Some v | None => alookup k acc end.
  Proof.
    induction es as [|[k0 v0] es IH]; intros acc k Hnd; cbn [fold_left alookup]; [reflexivity|].
    inversion Hnd; subst. rewrite IH by assumption. cbn [fst snd]. rewrite alookup_aset.
    destruct (key_eqb_spec k k0) as [->|]; [|reflexivity]. apply alookup_None in H1. now rewrite H1.
  Qed.
  Lemma load_keys (es : list (key * V)) : forall acc, NoDup (map fst acc) ->
    NoDup (map fst (fold_left (fun t e => aset (fst e) (snd e) t) es acc)).
  Proof. induction es as [|e es IH]; intros acc H; cbn; [exact H|]. apply IH, aset_keys, H. Qed.
End assoc_lemmas.

(** two tables that define the same names list the same names *)
Lemma keys_perm {V W} (l : list (key * V)) (l' : list (key * W)) : NoDup (map fst l) -> NoDup (map fst l') ->
  (forall k, alookup k l = None <-> alookup k l' = None) -> Permutation (map fst l) (map fst l').
Proof.
  intros H1 H2 H. apply NoDup_Permutation; [exact H1|exact H2|]. intros k. split; intros Hin.
  - destruct (alookup k l') eqn:E; [apply alookup_In in E; apply (in_map fst) in E; exact E|].
    apply (H k), alookup_None in E. contradiction.
  - destruct (alookup k l) eqn:E; [apply alookup_In in E; apply (in_map fst) in E; exact E|].
    apply (H k), alookup_None in E. contradiction.
Qed.

(** ---- grouping/sorting (tree_of) keeps exactly the entries of the table ---- *)
Section perm.
  Context {V X : Type}.
  Variable g : bytes -> V -> list X.
  Definition flatg (l : list (bytes * V)) : list X := flat_map (fun e => g (fst e) (snd e)) l.

  Lemma upsert_perm k f x l :
    (forall o, Permutation (g k (f o)) (x :: match o with Some v => g k v | None => [] end)) ->
    Permutation (flatg (upsert k f l)) (x :: flatg l).
  Proof.
    intros H. induction l as [|[k' v] l IH]; cbn [upsert].
    - unfold flatg. cbn. rewrite app_nil_r. apply (H None).
    - destruct (bytes_eqb_spec k k') as [<-|_].
      + exact (Permutation_app_tail (flatg l) (H (Some v))).
      + destruct (bytes_ltb k k').
        * exact (Permutation_app_tail (flatg ((k', v) :: l)) (H None)).
        * eapply Permutation_trans; [exact (Permutation_app_head (g k' v) IH)|]. apply Permutation_sym, Permutation_middle.
  Qed.
End perm.

Lemma sins_perm {V} k (v : V) l : Permutation (sins k v l) ((k, v) :: l).
Proof.
  induction l as [|[k' v'] l IH]; cbn [sins]; [reflexivity|].
  destruct (bytes_ltb k k'); [reflexivity|].
  eapply Permutation_trans; [apply perm_skip, IH|]. apply perm_swap.
Qed.

Definition g2 (e d : bytes) (fs : list (bytes * info)) : list (key * info) := map (fun f => ((e, d, fst f), snd f)) fs.
Definition g1 (e : bytes) (ds : list (bytes * list (bytes * info))) : list (key * info) := flatg (g2 e) ds.
Lemma flat_tree_flatg t : flat_tree t = flatg g1 t.
Proof. reflexivity. Qed.

Lemma tree_insert_perm kv t : Permutation (flat_tree (tree_insert kv t)) (kv :: flat_tree t).
Proof.
  destruct kv as [[[e d] n] i]. unfold tree_insert.
  change (Permutation (flatg g1 (upsert e (fun od => upsert d (fun ofs => sins n i (odflt ofs)) (odflt od)) t)) ((e, d, n, i) :: flatg g1 t)).
  apply upsert_perm. intros od. unfold g1 at 1.
  eapply Permutation_trans.
  - apply upsert_perm with (x := ((e, d, n), i)). intros ofs. unfold g2.
    eapply Permutation_trans; [apply Permutation_map, sins_perm|]. cbn [map fst snd].
    destruct ofs; reflexivity.
  - destruct od; reflexivity.
Qed.

Lemma tree_of_perm tb : Permutation (flat_tree (tree_of tb)) tb.
Proof.
  induction tb as [|kv tb IH]; cbn [tree_of fold_right]; [reflexivity|].
  eapply Permutation_trans; [apply tree_insert_perm|]. now apply perm_skip.
Qed.

Section wf.
  Variable c : dcfg.
  Lemma upsert_Forall {V} (Q : V -> Prop) k f (l : list (bytes * V)) :
    Forall (fun e => str_ok (fst e) = true /\ Q (snd e)) l -> str_ok k = true ->
    Q (f None) -> (forall v, Q v -> Q (f (Some v))) ->
    Forall (fun e => str_ok (fst e) = true /\ Q (snd e)) (upsert k f l).
  Proof.
    intros Hl Hk Hn Hs. induction Hl as [|[k' v] l [Hk' Hv] Hl IH]; cbn [upsert].
    - repeat constructor; assumption.
    - destruct (bytes_eqb k k'); [|destruct (bytes_ltb k k')]; repeat (constructor; cbn [fst snd]); auto.
  Qed.
  Lemma sins_Forall {V} (P : bytes * V -> Prop) k v l : Forall P l -> P (k, v) -> Forall P (sins k v l).
  Proof.
    intros Hl Hp. induction Hl as [|[k' v'] l Hx Hl IH]; cbn [sins]; [constructor; auto|].
    destruct (bytes_ltb k k'); repeat constructor; assumption.
  Qed.

  Definition entry_wf (kv : key * info) : Prop := key_ok (fst kv) = true /\ idx_wf c (snd kv).

  Lemma tree_insert_wf kv t : wf_tree c t -> entry_wf kv -> wf_tree c (tree_insert kv t).
  Proof.
    destruct kv as [[[e d] n] i]. intros Ht [Hk Hi]. cbn [fst snd key_ok] in *.
    apply andb_prop in Hk as [Hk Hn]. apply andb_prop in Hk as [He Hd].
    unfold tree_insert, wf_tree.
    apply (upsert_Forall (wf_dirs c)); auto.
    - cbn [odflt upsert sins]. repeat (constructor; cbn [fst snd]); assumption.
    - intros ds Hds. cbn [odflt]. apply (upsert_Forall (wf_files c)); auto.
      + cbn [odflt sins]. repeat (constructor; cbn [fst snd]); assumption.
      + intros fs Hfs. cbn [odflt]. apply sins_Forall; [assumption|]. split; assumption.
  Qed.
  Lemma tree_of_wf tb : Forall entry_wf tb -> wf_tree c (tree_of tb).
  Proof.
    induction 1 as [|kv tb Hkv Htb IH]; cbn [tree_of fold_right]; [constructor|].
    now apply tree_insert_wf.
  Qed.
End wf.

Lemma nmap_keys l : map fst (nmap l) = map fst l.
Proof. unfold nmap. rewrite map_map. reflexivity. Qed.
Lemma alookup_nmap k l : alookup k (nmap l) = option_map norm_info (alookup k l).
Proof.
  induction l as [|[k' v] l IH]; cbn; [reflexivity|]. destruct (key_eqb k k'); [reflexivity|exact IH].
Qed.

(** The table [load_dirfile] rebuilds from the entries [write_dirfile] emits for [tb]: the same names, offsets normalised. *)
Lemma saved_table tb : NoDup (map fst tb) ->
  NoDup (map fst (load_table (nmap (flat_tree (tree_of tb)))))
  /\ forall k, alookup k (load_table (nmap (flat_tree (tree_of tb)))) = option_map norm_info (alookup k tb).
Proof.
  intros Hnd.
  assert (Permutation (nmap (flat_tree (tree_of tb))) (nmap tb)) as Hp by (apply Permutation_map, tree_of_perm).
  assert (NoDup (map fst (nmap (flat_tree (tree_of tb))))) as Hnd'.
  { rewrite nmap_keys. eapply Permutation_NoDup; [apply Permutation_sym, Permutation_map, tree_of_perm|exact Hnd]. }
  split; [apply load_keys; constructor|].
  intros k. unfold load_table. rewrite load_lookup by exact Hnd'. cbn [alookup].
  rewrite (alookup_perm _ _ Hp Hnd' k), alookup_nmap. destruct (alookup k tb); reflexivity.
Qed.

(** ---- write_dirfile followed by reopening: the table comes back, wherever the data is placed ---- *)
Section save.
  Variable crc : bytes -> N.
  Variable cf : vcfg.
  Hypothesis Hcf : dcfg_ok (v_dc cf) = true.

  Lemma read_norm st st' i :
    archs st' = archs st -> foot st' = foot st ->
    read_info st' (norm_info i) = read_info st i /\ verify_info crc st' (norm_info i) = verify_info crc st i.
  Proof.
    intros Ha Hf.
    assert (read_info st' (norm_info i) = read_info st i) as E.
    { unfold read_info, container, norm_info. cbn [ipre ilen iidx ioff]. rewrite Ha, Hf.
      destruct (ilen i =? 0); reflexivity. }
    split; [exact E|]. unfold verify_info. rewrite E. reflexivity.
  Qed.

  Theorem save_reopen st st1 m :
    m <> MW -> NoDup (map fst (tbl st)) -> Forall (entry_wf (v_dc cf)) (tbl st) ->
    step crc cf st OSave = Some (st1, rOk) ->
    exists st2, step crc cf st1 (OReopen m) = Some (st2, rOk)
      /\ archs st2 = archs st /\ foot st2 = foot st /\ md st2 = m /\ disk st2 = disk st1
      /\ NoDup (map fst (tbl st2))
      /\ forall k, alookup k (tbl st2) = option_map norm_info (alookup k (tbl st)).
  Proof.
    intros Hm Hnd Hwf. cbn [step].
    destruct (negb (writable (md st))); [discriminate|].
    destruct (enc_file (v_dc cf) (tree_of (tbl st)) (foot st)) as [b|] eqn:Eb; [|discriminate].
    intros [= <-].
    pose proof (dirtree_roundtrip (v_dc cf) Hcf _ _ _ (tree_of_wf _ _ Hwf) Eb) as Hd.
    destruct (saved_table _ Hnd) as [Hk Hl].
    eexists. split.
    - destruct m; [|contradiction|]; cbn [step disk]; rewrite Hd; reflexivity.
    - cbn [archs foot md disk tbl]. repeat split; assumption.
  Qed.

End save.

(** ---- one FileInfo.write: the file then reads back the data and verifies, for every placement ---- *)
Lemma arch_get_app_same x d a : arch_get x (arch_app x d a) = arch_get x a ++ d.
Proof.
  induction a as [|[y b] a IH]; cbn [arch_app arch_get].
  - now rewrite N.eqb_refl.
  - destruct (x =? y) eqn:E; cbn [arch_get]; rewrite E; [reflexivity|exact IH].
Qed.
Lemma arch_get_app_other x y d a : x <> y -> arch_get x (arch_app y d a) = arch_get x a.
Proof.
  intros Hn. induction a as [|[z b] a IH]; cbn [arch_app arch_get].
  - destruct (N.eqb_spec x y); [contradiction|reflexivity].
  - destruct (y =? z) eqn:E; cbn [arch_get].
    + apply N.eqb_eq in E. subst z. destruct (N.eqb_spec x y); [contradiction|reflexivity].
    + now rewrite IH.
Qed.

Lemma slice_end (a t : bytes) : slice (a ++ t) (len a) (len t) = t.
Proof.
  unfold slice. rewrite skipn_len_app. rewrite <- (app_nil_r t) at 2. apply firstn_len_app.
Qed.
Lemma len_cons_nz x (t : bytes) : (len (x :: t) =? 0) = false.
Proof. apply N.eqb_neq. rewrite len_cons. lia. Qed.

(** archives and footer only grow at the end *)
Definition aext (ar ar' : list (N * bytes)) : Prop := forall x, exists t, arch_get x ar' = arch_get x ar ++ t.
Definition fext (ft ft' : bytes) : Prop := exists t, ft' = ft ++ t.
Lemma aext_refl ar : aext ar ar.
Proof. intros x. exists []. now rewrite app_nil_r. Qed.
Lemma fext_refl ft : fext ft ft.
Proof. exists []. now rewrite app_nil_r. Qed.
Lemma aext_app x t ar : aext ar (arch_app x t ar).
Proof.
  intros y. destruct (N.eq_dec y x) as [->|Hn].
  - exists t. apply arch_get_app_same.
  - exists []. rewrite app_nil_r. now apply arch_get_app_other.
Qed.

Section write.
  Variable crc : bytes -> N.
  Variable cf : vcfg.

  (** What one [write_info] with a changed checksum stores, for every placement: table, mode and disk untouched, containers extended at
      the end, and an entry with the new checksum that reads back the data from inside its container; an archive index is stored only
      in a directory VPK, and then it is the one given. *)
  Lemma write_info_stores st i d ix st' i' :
    (crc d =? icrc i) = false -> write_info crc cf st i d ix = (st', i') ->
    tbl st' = tbl st /\ md st' = md st /\ disk st' = disk st /\ aext (archs st) (archs st') /\ fext (foot st) (foot st')
    /\ icrc i' = crc d /\ read_info st' i' = d
    /\ (ilen i' <> 0 -> ioff i' + ilen i' <= len (container st' i'))
    /\ (forall x, iidx i' = Some x -> ix = Some x /\ v_is_dir cf = true).
  Proof.
    intros Hc. unfold write_info. rewrite Hc.
    destruct (split_rule cf) as [lim force] eqn:Esr.
    pose proof (firstn_skipn (N.to_nat lim) d) as Hd.
    destruct (skipn (N.to_nat lim) d) as [|t0 tail] eqn:Et.
    - intros [= <- <-]. repeat split; auto using aext_refl, fext_refl; cbn [ilen iidx]; [now intros Hn|discriminate|discriminate].
    - destruct (if force then None else ix) as [x|] eqn:Eix; intros [= <- <-]; cbn [archs foot tbl md disk];
        repeat split; auto using aext_refl, fext_refl, aext_app.
      + unfold read_info, container. cbn [ipre ilen iidx ioff archs]. now rewrite len_cons_nz, arch_get_app_same, slice_end.
      + unfold container. cbn [ilen iidx ioff archs]. intros _. rewrite arch_get_app_same, len_app. lia.
      + destruct force; [discriminate|]. cbn [iidx] in *. congruence.
      + destruct force; [discriminate|]. unfold split_rule in Esr. destruct (v_is_dir cf); [reflexivity|destruct (v_limit cf); discriminate].
      + now exists (t0 :: tail).
      + unfold read_info, container. cbn [ipre ilen iidx ioff foot]. now rewrite len_cons_nz, slice_end.
      + unfold container. cbn [ilen iidx ioff foot]. intros _. rewrite len_app. lia.
      + discriminate.
      + discriminate.
  Qed.

End write.

(** ---- runs: a relation with the specification that every step keeps is kept by every run ----
    [rn] / [srn] stand for [run] / [srun] and their extensions over other operation types; the four equations hold by computation. *)
Section runs.
  Context {S T O : Type}.
  Variables (stp : S -> O -> option (S * N)) (sstp : T -> O -> T * N).
  Variables (rn : S -> list O -> option (S * list N)) (srn : T -> list O -> T * list N).
  Hypothesis rn_nil : forall st, rn st [] = Some (st, []).
  Hypothesis rn_cons : forall st o r, rn st (o :: r) =
    match stp st o with
    | None => None
    | Some (st', c) => match rn st' r with None => None | Some (st'', cs) => Some (st'', c :: cs) end
    end.
  Hypothesis srn_nil : forall s, srn s [] = (s, []).
  Hypothesis srn_cons : forall s o r, srn s (o :: r) = let '(s', c) := sstp s o in let '(s'', cs) := srn s' r in (s'', c :: cs).

  Lemma srun_app_gen a : forall s b,
    srn s (a ++ b) = let '(s1, c1) := srn s a in let '(s2, c2) := srn s1 b in (s2, c1 ++ c2).
  Proof.
    induction a as [|o a IH]; intros s b; cbn [app]; rewrite ?srn_nil, ?srn_cons.
    - destruct (srn s b). reflexivity.
    - destruct (sstp s o) as [s' c]. rewrite IH. destruct (srn s' a) as [s1 c1]. destruct (srn s1 b) as [s2 c2]. reflexivity.
  Qed.

  Variables (R : S -> T -> Prop) (ok : O -> Prop).
  Hypothesis step_ok : forall st s o st' c, R st s -> ok o -> stp st o = Some (st', c) ->
    c = snd (sstp s o) /\ R st' (fst (sstp s o)).

  Lemma runs_refine ops : forall st s st' cs, R st s -> Forall ok ops -> rn st ops = Some (st', cs) ->
    cs = snd (srn s ops) /\ R st' (fst (srn s ops)).
  Proof.
    induction ops as [|o ops IH]; intros st s st' cs HR Hops; rewrite ?rn_nil, ?rn_cons, ?srn_nil, ?srn_cons.
    - intros [= <- <-]. auto.
    - inversion Hops as [|? ? Ho Hops']; subst.
      destruct (stp st o) as [[st1 c]|] eqn:Es; [|discriminate].
      destruct (rn st1 ops) as [[st2 cs']|] eqn:Er; [|discriminate]. intros [= <- <-].
      destruct (step_ok _ _ _ _ _ HR Ho Es) as [Hc HR1].
      destruct (sstp s o) as [s1 c1]. cbn [fst snd] in Hc, HR1.
      destruct (IH _ _ _ _ HR1 Hops' Er) as [Hcs HR2].
      destruct (srn s1 ops) as [s2 cs2]. cbn [fst snd] in *. subst. auto.
  Qed.
End runs.

(** ---- a concrete history (non-vacuity of the premises above) ---- *)
Definition ex_cfg : vcfg :=
  {| v_dc := {| c_sig := 1437209140; c_dir_index := 32767; c_term := 65535 |}; v_is_dir := true;
     v_limit := Some 4; v_max_pre := 65535; v_chk_idx := true; v_chk_name := true |}.
Definition ex_k1 : key := ([116; 120; 116], [97], [98]).
Definition ex_k2 : key := ([], [], [99]).
Definition ex_k3 : key := ([101], [120; 47; 121], []).
Definition ex_ops : list op :=
  [OAdd ex_k1 [1; 2; 3; 4; 5; 6] (Some 0); OAdd ex_k2 [9; 9; 9; 9; 9; 9; 9] None; OAdd ex_k3 [7; 7] (Some 3);
   OWrite ex_k1 [8; 8; 8; 8; 8; 8; 8; 8] (Some 1); OSave; OReopen MR].
Definition example_history_ok : bool :=
  match run crc32 ex_cfg init ex_ops with
  | Some (st, codes) =>
      forallb (fun c => c =? 0) codes &&
      match observe crc32 st with
      | [(_, (a, true)); (_, (b, true)); (_, (c, true))] =>
          bytes_eqb a [9; 9; 9; 9; 9; 9; 9] && bytes_eqb b [7; 7] && bytes_eqb c [8; 8; 8; 8; 8; 8; 8; 8]
      | _ => false
      end
  | None => false
  end.
