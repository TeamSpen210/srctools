(** Proofs about SM/IndexMaint.v: a maintenance program of [Entity.__setitem__] that passes its path obligations,
    run after a lookup loop that passes the shape obligations, *is* the hand model [set_item] (including the error
    path of the worldspawn guard, whose recursive [self['classname'] = 'worldspawn'] puts the index entry back);
    an [add_ents] program that lists and indexes every entity exactly once — whether or not its argument can be
    iterated twice — is the hand model [add_ents].  The shapes of seeded faults c07_3 and c07_4 are refuted. *)
From stdpp Require Import gmap.
From Coq Require Import NArith.
From SV Require Import SM.IndexModel SM.IndexProofs SM.IndexShapes SM.IndexShapeProofs SM.IndexMaint.

(** * 1. Entity.__setitem__: lookup loop + maintenance program *)
Section maint.
  Variable fold : str → str.

  Definition rec_frame (rec : nat → str → str → mstate → mstate * nat) : Prop :=
    ∀ e k v st, ents (rec e k v st).1 = ents st ∧ spawn (rec e k v st).1 = spawn st.

  Lemma act_run_frame rec a e key v orig st : rec_frame rec →
    ents (act_run fold rec a e key v orig st).1 = ents st ∧ spawn (act_run fold rec a e key v orig st).1 = spawn st.
  Proof. intros Hr. destruct a; simpl; auto. Qed.

  Lemma m_run_frame rec p : rec_frame rec → ∀ e key v orig st,
    ents (m_run fold rec p e key v orig st).1 = ents st ∧ spawn (m_run fold rec p e key v orig st).1 = spawn st.
  Proof.
    intros Hr. induction p as [|a IHa b IHb|c a IHa b IHb|a]; intros e key v orig st; simpl.
    - done.
    - specialize (IHa e key v orig st). destruct (m_run fold rec a e key v orig st) as [st1 er]. simpl in IHa.
      destruct er; [|done]. destruct (IHb e key v orig st1) as [H1 H2]. destruct IHa. split; congruence.
    - destruct (cond_eval fold c e key v st); auto.
    - by apply act_run_frame.
  Qed.

  Lemma facts_of_frame e key v st st' : ents st' = ents st → spawn st' = spawn st →
    facts_of fold e key v st' = facts_of fold e key v st.
  Proof. unfold facts_of. by intros -> ->. Qed.

  Lemma f_key_facts e key v st :
    match f_key (facts_of fold e key v st) with
    | KCn => fold key = cn | KTn => fold key = tn | KOther => fold key ≠ cn ∧ fold key ≠ tn
    end.
  Proof. unfold facts_of. simpl. by repeat case_decide. Qed.

  Lemma cond_abs_sound c e key v st b :
    cond_abs c (facts_of fold e key v st) = Some b → cond_eval fold c e key v st = b.
  Proof.
    revert b. induction c as [s| | |s|c IH|a IHa b0 IHb|a IHa b0 IHb|s]; intros b; simpl.
    - pose proof (f_key_facts e key v st) as Hk. pose proof cn_ne_tn.
      repeat case_decide; destruct (f_key _); try destruct Hk; intros [= <-]; case_bool_decide; congruence.
    - by intros [= <-].
    - by intros [= <-].
    - destruct (decide (s = ws)) as [->|]; [|done]. by intros [= <-].
    - destruct (cond_abs c _) as [x|]; [|done]. simpl. intros [= <-]. by rewrite (IH x).
    - destruct (cond_abs a _) as [x|]; [|done]. destruct (cond_abs b0 _) as [y|]; [|done].
      intros [= <-]. by rewrite (IHa x), (IHb y).
    - destruct (cond_abs a _) as [x|]; [|done]. destruct (cond_abs b0 _) as [y|]; [|done].
      intros [= <-]. by rewrite (IHa x), (IHb y).
    - done.
  Qed.

  Lemma acts_run_app rec la lb e key v orig st :
    acts_run fold rec (la ++ lb) e key v orig st =
    let '(st1, er) := acts_run fold rec la e key v orig st in
    match er with 0 => acts_run fold rec lb e key v orig st1 | _ => (st1, er) end.
  Proof.
    revert st. induction la as [|a la IH]; intros st; simpl; [done|].
    destruct (act_run fold rec a e key v orig st) as [st1 er]. destruct er; [apply IH|done].
  Qed.

  Lemma acts_run_trunc rec l e key v orig st :
    acts_run fold rec (trunc_raise l) e key v orig st = acts_run fold rec l e key v orig st.
  Proof.
    revert st. induction l as [|a l IH]; intros st; [done|].
    destruct a; simpl; try (destruct (rec _ _ _ _) as [st1 er]; destruct er); try apply IH; try done.
    by destruct x.
  Qed.

  Lemma m_run_flat rec p : rec_frame rec → ∀ e key v orig st l,
    m_flat p (facts_of fold e key v st) = Some l →
    m_run fold rec p e key v orig st = acts_run fold rec l e key v orig st.
  Proof.
    intros Hr. induction p as [|a IHa b IHb|c a IHa b IHb|a]; intros e key v orig st l Hf; simpl in *.
    - by simplify_eq.
    - destruct (m_flat a _) as [la|] eqn:Ea; [|done]. destruct (m_flat b _) as [lb|] eqn:Eb; [|done]. simplify_eq.
      rewrite acts_run_app. pose proof (m_run_frame rec a Hr e key v orig st) as Hfr.
      rewrite (IHa _ _ _ _ _ _ Ea) in *.
      destruct (acts_run fold rec la e key v orig st) as [st1 er]. simpl in Hfr. destruct Hfr as [Hf1 Hf2].
      destruct er; [|done]. apply IHb. by rewrite (facts_of_frame _ _ _ st st1).
    - destruct (cond_abs c _) as [[|]|] eqn:Ec.
      + rewrite (cond_abs_sound _ _ _ _ _ _ Ec). by apply IHa.
      + rewrite (cond_abs_sound _ _ _ _ _ _ Ec). by apply IHb.
      + destruct (m_flat a _) as [la|] eqn:Ea; [|done]. destruct (m_flat b _) as [lb|] eqn:Eb; [|done].
        case_decide; [|done]. simplify_eq. destruct (cond_eval fold c e key v st); auto.
    - simplify_eq. simpl. destruct (act_run fold rec a e key v orig st) as [st1 er]. by destruct er.
  Qed.

  (** a program whose path for the facts of the call executes [acts] (up to what follows a raise) runs as [acts] *)
  Lemma m_run_path rec p acts e key v orig st : rec_frame rec →
    match m_flat p (facts_of fold e key v st) with Some l => bool_decide (trunc_raise l = acts) | None => false end = true →
    m_run fold rec p e key v orig st = acts_run fold rec acts e key v orig st.
  Proof.
    intros Hr Hp. destruct (m_flat _ _) as [l|] eqn:El; [|done]. apply bool_decide_eq_true in Hp.
    by rewrite (m_run_flat rec p Hr _ _ _ _ _ l El), <- acts_run_trunc, Hp.
  Qed.

  (** the obligations quantify over every combination of facts *)
  Lemma facts_with_complete f : In f (facts_with (f_key f)).
  Proof. destruct f as [[] [|] [|] [|]]; simpl; tauto. Qed.

  Lemma maint_ok_path p f : maint_ok p = true → path_ok p f = true.
  Proof.
    unfold maint_ok, maint_classname_ok, maint_guard_error_ok, maint_targetname_ok, maint_other_ok.
    rewrite !andb_true_iff, !forallb_forall. intros [[[H1 H2] H3] H4].
    pose proof (facts_with_complete f) as Hin. destruct f as [k i s w]. destruct k; simpl in Hin.
    - specialize (H1 _ Hin). specialize (H2 _ Hin). apply orb_true_iff in H1, H2.
      destruct (is_guard_error _); simpl in *; naive_solver.
    - by apply H3.
    - by apply H4.
  Qed.

  Lemma set_item_pg_frame sh p d : rec_frame (set_item_pg fold sh p d).
  Proof.
    induction d as [|d IH]; intros e k v st; simpl; [done|].
    destruct (setitem_prefix fold sh k v (keys_of st e)) as [o l'].
    by destruct (m_run_frame _ p IH e k v (default [] o) (with_keys e l' st)) as [-> ->].
  Qed.

  (** one level of the function = the actions today's code executes on the path the facts select *)
  Lemma set_item_pg_acts sh p d e key v st : setitem_shape_ok sh = true → maint_ok p = true →
    set_item_pg fold sh p (S d) e key v st =
    acts_run fold (set_item_pg fold sh p d) (acts_today (facts_of fold e key v st)) e key v
      (default [] (kv_find fold (fold key) (keys_of st e))) (with_keys e (kv_set fold key v (keys_of st e)) st).
  Proof.
    intros Hsh Hp. simpl. destruct (setitem_prefix_ok fold sh key v (keys_of st e) Hsh) as [Ho Hl].
    destruct (setitem_prefix fold sh key v (keys_of st e)) as [o l']. simpl in Ho, Hl. subst l'. rewrite Ho.
    apply m_run_path; [apply set_item_pg_frame|apply (maint_ok_path p _ Hp)].
  Qed.

  (** every path but the error path of the worldspawn guard: no recursion *)
  Lemma set_item_pg_noguard sh p d e key v st : setitem_shape_ok sh = true → maint_ok p = true →
    is_guard_error (facts_of fold e key v st) = false →
    set_item_pg fold sh p (S d) e key v st = set_item fold e key v st.
  Proof.
    intros Hsh Hp Hg. rewrite set_item_pg_acts by done. revert Hg. unfold set_item, facts_of, acts_today, in_map. simpl.
    destruct (decide (fold key = cn)) as [Hcn|Hcn]; simpl.
    - repeat case_bool_decide; repeat case_decide; simpl; done.
    - intros _. destruct (decide (fold key = tn)) as [Htn|Htn]; simpl; [|done].
      repeat case_bool_decide; repeat case_decide; simpl; done.
  Qed.

  Hypothesis fold_cn : fold cn = cn.
  Hypothesis fold_ws : fold ws = ws.

  (** Entity.__setitem__ as written — lookup loop [sh], maintenance program [p], recursion depth at least 2 — is
      the hand model, for all arguments and states. *)
  Theorem set_item_pg_ok sh p d e key v st : setitem_shape_ok sh = true → maint_ok p = true →
    set_item_pg fold sh p (S (S d)) e key v st = set_item fold e key v st.
  Proof.
    intros Hsh Hp. destruct (is_guard_error (facts_of fold e key v st)) eqn:Hg; [|by apply set_item_pg_noguard].
    rewrite set_item_pg_acts by done. set (R := set_item_pg fold sh p (S d)). revert Hg.
    unfold set_item, facts_of, acts_today, is_guard_error. cbn [f_key f_in_ents f_is_spawn f_new_ws].
    destruct (decide (fold key = cn)) as [Hcn|Hcn]; [|by destruct (decide (fold key = tn))].
    intros Hg. repeat case_bool_decide; try done. clear Hg.
    rename select (e ∉ ents st) into Hne. rename select (e = spawn st) into Hsp. rename select (fold v ≠ ws) into Hnws.
    rewrite (decide_False (P := e ∈ ents st)), (decide_True (P := e = spawn st)), (decide_False (P := fold v = ws)) by done.
    simpl.
    set (l' := kv_set fold key v (keys_of st e)).
    set (st2 := upd_class _ (with_keys e l' st)). subst R.
    rewrite (set_item_pg_noguard sh p d e cn ws st2 Hsh Hp).
    2:{ unfold facts_of, is_guard_error. simpl. rewrite fold_cn, decide_True by done.
        rewrite fold_ws, (bool_decide_eq_true_2 (ws = ws)) by done. by rewrite andb_false_r. }
    unfold set_item. rewrite fold_cn, fold_ws. rewrite !decide_True by done.
    assert (Hk : keys_of st2 e = l').
    { unfold keys_of, st2. simpl. by rewrite lookup_insert. }
    rewrite Hk. rewrite decide_False by done. rewrite decide_True by done. simpl.
    assert (Hf : kv_find fold cn l' = Some v).
    { unfold l'. rewrite <- Hcn at 1. apply kv_find_set_eq. }
    rewrite Hf. done.
  Qed.
End maint.

Lemma maint_today_ok : maint_ok maint_today = true.
Proof. reflexivity. Qed.

(** * 2. VMF.add_ents *)
Section add_ents.
  Variable fold : str → str.

  Definition proj (k : pkind) (ops : list (pkind * nat)) : list nat := map snd (List.filter (λ ke, pkind_eqb k ke.1) ops).

  Definition bad (st0 : mstate) (e : nat) : Prop := e = spawn st0 ∨ nobj st0 ≤ e.
  Definition fa (st0 : mstate) (l : list nat) (e : nat) : list nat := if decide (bad st0 e) then l else l ++ [e].
  Definition fc (st0 : mstate) (m : gmap str (gset nat)) (e : nat) :=
    if decide (bad st0 e) then m else ix_add (cls_of_keys fold (keys_of st0 e)) e m.
  Definition ft (st0 : mstate) (m : gmap (option str) (gset nat)) (e : nat) :=
    if decide (bad st0 e) then m else ix_add (tgt_of_keys fold (keys_of st0 e)) e m.
  (** the three components evolve independently *)
  Definition canon (st0 st : mstate) (la lc lt : list nat) : mstate :=
    MS (objs st) (nobj st) (foldl (fa st0) (ents st) la) (spawn st)
       (foldl (fc st0) (by_class st) lc) (foldl (ft st0) (by_target st) lt).
  Definition same_base (st0 st : mstate) : Prop := objs st = objs st0 ∧ nobj st = nobj st0 ∧ spawn st = spawn st0.

  Lemma atoms_canon st0 ops : ∀ st, same_base st0 st →
    foldl (λ s ke, atom fold ke s) st ops = canon st0 st (proj PAppend ops) (proj PClass ops) (proj PTarget ops).
  Proof.
    induction ops as [|[k e] ops IH]; intros st (Ho & Hn & Hs); [by destruct st|].
    simpl foldl. rewrite IH.
    2:{ unfold atom, same_base. simpl. destruct (decide _); [done|]. by destruct k. }
    unfold atom, canon, proj, fa, fc, ft, bad, keys_of. simpl. rewrite Hs, Hn, Ho.
    destruct (decide (e = spawn st0 ∨ nobj st0 ≤ e)) as [Hb|Hb].
    - destruct k; simpl; rewrite ?decide_True by done; by rewrite ?Ho, ?Hn, ?Hs.
    - destruct k; simpl; rewrite ?decide_False by done; by rewrite ?Ho, ?Hn, ?Hs.
  Qed.

  Lemma proj_app k a b : proj k (a ++ b) = proj k a ++ proj k b.
  Proof. unfold proj. by rewrite List.filter_app, map_app. Qed.

  Lemma count_kind_app k a b : count_kind k (a ++ b) = count_kind k a + count_kind k b.
  Proof. unfold count_kind. by rewrite List.filter_app, app_length. Qed.

  Lemma proj_body k body e : proj k (body ≫= λ k', [(k', e)]) = replicate (count_kind k body) e.
  Proof.
    induction body as [|k0 body IH]; [done|]. change ((k0 :: body) ≫= _) with ([(k0, e)] ++ (body ≫= λ k', [(k', e)])).
    rewrite proj_app, IH. unfold proj, count_kind. simpl. by destruct (pkind_eqb k k0).
  Qed.

  Lemma proj_loop_ops k body got :
    (count_kind k body = 0 → proj k (loop_ops body got) = []) ∧
    (count_kind k body = 1 → proj k (loop_ops body got) = got).
  Proof.
    unfold loop_ops. induction got as [|e got [IH0 IH1]]; [done|].
    change ((e :: got) ≫= _) with ((body ≫= λ k', [(k', e)]) ++ (got ≫= λ e, body ≫= λ k', [(k', e)])).
    rewrite proj_app, proj_body. split; intros Hc; rewrite Hc; simpl; [by rewrite IH0|by rewrite IH1].
  Qed.

  (** two stretches of effects that each reach the list never or once: so does their concatenation *)
  Lemma once_app (c1 c2 : nat) (p1 p2 es : list nat) :
    (c1 = 0 → p1 = []) ∧ (c1 = 1 → p1 = es) → (c2 = 0 → p2 = []) ∧ (c2 = 1 → p2 = es) →
    (c1 + c2 = 0 → p1 ++ p2 = []) ∧ (c1 + c2 = 1 → p1 ++ p2 = es).
  Proof.
    intros [A0 A1] [B0 B1]. split; intros Hc; [by rewrite A0, B0 by lia|].
    destruct c1 as [|[|n]]; [by rewrite A0, B1 by lia|rewrite A1, B0 by lia; apply app_nil_r|lia].
  Qed.

  Lemma ae_ops_proj k es oneshot p : ∀ (consumed : bool) (loc : list nat) (locfull : bool), loc = (if locfull then es else []) →
    (count_kind k (ae_sym p oneshot consumed locfull) = 0 → proj k (ae_ops p es oneshot consumed loc) = []) ∧
    (count_kind k (ae_sym p oneshot consumed locfull) = 1 → proj k (ae_ops p es oneshot consumed loc) = es).
  Proof.
    induction p as [|s p IH]; intros consumed loc locfull Hloc; simpl.
    { split; [done|]. unfold count_kind. simpl. lia. }
    destruct s as [|[|] body]; simpl.
    - apply IH. by destruct (oneshot && consumed).
    - rewrite count_kind_app, proj_app. destruct (oneshot && consumed); [by apply IH|].
      apply once_app; [apply proj_loop_ops|by apply IH].
    - rewrite count_kind_app, proj_app. subst loc. destruct locfull; [|by apply IH].
      apply once_app; [apply proj_loop_ops|by apply IH].
  Qed.

  Lemma atom_bad k e st : e = spawn st ∨ nobj st ≤ e → atom fold (k, e) st = st.
  Proof. intros. unfold atom. simpl. by rewrite decide_True. Qed.
  Lemma atom_good k e st : ¬ (e = spawn st ∨ nobj st ≤ e) →
    atom fold (k, e) st = match k with
                          | PAppend => with_ents (ents st ++ [e]) st
                          | PClass => upd_class (ix_add (cls_of_keys fold (keys_of st e)) e) st
                          | PTarget => upd_target (ix_add (tgt_of_keys fold (keys_of st e)) e) st
                          end.
  Proof. intros. unfold atom. simpl. by rewrite decide_False. Qed.

  Lemma add_ent_atoms e st :
    add_ent fold e st = foldl (λ s ke, atom fold ke s) st [(PAppend, e); (PClass, e); (PTarget, e)].
  Proof.
    unfold add_ent. cbn [foldl]. destruct (decide (e = spawn st ∨ nobj st ≤ e)) as [Hb|Hb].
    - by rewrite (atom_bad PAppend e st Hb), (atom_bad PClass e st Hb), (atom_bad PTarget e st Hb).
    - rewrite (atom_good PAppend) by done. rewrite (atom_good PClass) by done. rewrite (atom_good PTarget) by done.
      done.
  Qed.

  Lemma add_ents_atoms es : ∀ st,
    add_ents fold es st = foldl (λ s ke, atom fold ke s) st (loop_ops [PAppend; PClass; PTarget] es).
  Proof.
    unfold add_ents, loop_ops. induction es as [|e es IH]; intros st; [done|].
    change ((e :: es) ≫= _) with ([(PAppend, e); (PClass, e); (PTarget, e)] ++ (es ≫= λ e, [PAppend; PClass; PTarget] ≫= λ k, [(k, e)])).
    rewrite foldl_app, <- add_ent_atoms. apply IH.
  Qed.

  (** VMF.add_ents as written: a program in which every kind of effect reaches the full list exactly once, both
      for re-iterable and for one-shot arguments, is the hand model [add_ents] — for every argument and state. *)
  Theorem ae_run_ok p es oneshot st : ae_ok p = true → ae_run fold p es oneshot st = add_ents fold es st.
  Proof.
    unfold ae_ok, ae_ok_reiterable, ae_ok_oneshot, once_each. rewrite !andb_true_iff, !Nat.eqb_eq.
    intros [[[Ha Hc] Ht] [[Ha' Hc'] Ht']].
    unfold ae_run. rewrite add_ents_atoms, !(atoms_canon st) by done.
    assert (Hp : ∀ k, proj k (loop_ops [PAppend; PClass; PTarget] es) = es).
    { intros k. apply proj_loop_ops. by destruct k. }
    rewrite !Hp.
    assert (Hq : ∀ k, count_kind k (ae_sym p oneshot false false) = 1 → proj k (ae_ops p es oneshot false []) = es).
    { intros k. by apply (ae_ops_proj k es oneshot p false [] false). }
    destruct oneshot; by rewrite !Hq.
  Qed.
End add_ents.

Lemma add_ents_today_ok : ae_ok add_ents_today = true.
Proof. reflexivity. Qed.

