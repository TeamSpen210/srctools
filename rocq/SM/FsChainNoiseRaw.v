(** C19 — directory members under any spelling of their subfolder, walked with any spelling of the folder.

    The directory backend resolves a name through normpath after the slash conversion as well (abspath), so a directory
    mounted under [p] and walked as [f] behaves like the one mounted under the clean [p0] and walked as the clean [f0];
    exactness of the folder is asked of the clean spellings. *)
From Coq Require Import List.
From SV Require Import SM.FsChain SM.FsChainProofs SM.FsChainCompose SM.FsChainRaw SM.FsChainAdd SM.FsChainWalkGen SM.FsChainNoise.
Import ListNotations.
Open Scope N_scope.

Lemma raw_walk_normal_form ops fs f f' :
  raw_ops_ok ops = true -> normpath (slash f) = normpath (slash f') -> raw_walk ops fs f = raw_walk ops fs f'.
Proof. intros Ho E. unfold raw_walk, raw_folder. rewrite !(raw_ops_sem ops _ Ho), E. reflexivity. Qed.

Lemma raw_lookup_normal_form ops fs q q' :
  raw_ops_ok ops = true -> normpath (slash q) = normpath (slash q') -> raw_lookup_ops ops fs q = raw_lookup_ops ops fs q'.
Proof. intros Ho E. unfold raw_lookup_ops. rewrite !(raw_ops_sem ops _ Ho), E. reflexivity. Qed.

Definition noisy_raw_member (f f0 : str) (m : member) : Prop :=
  exists r ops fs p p0, m = raw_member_of r ops fs p /\ raw_rel_ok r = true /\ raw_ops_ok ops = true /\ clean_fs fs = true
    /\ NoDup (map (fun e => nkey (fst e)) fs) /\ okp p0 /\ spells p p0 /\ okp f0 /\ spells f f0 /\ folder_exact fs p0 f0.

Lemma noisy_raw_member_walk_ok m f f0 : noisy_raw_member f f0 m -> walk_member_ok_at (nkey f0) f m.
Proof.
  intros [r [ops [fs [p [p0 [-> [Hr [Ho [Hc [Hnd [Hp0 [Hsp [Hf0 [Hsf Hex]]]]]]]]]]]]]].
  apply (walk_member_ok_transport _ f f0 _ (raw_member_of r ops fs p0)); unfold asks; cbn [raw_member_of m_walk m_lookup m_prefix].
  - unfold raw_walk_rel. rewrite (raw_walk_normal_form ops fs (full_name p f) (full_name p0 f0) Ho); [reflexivity|].
    apply spells_full_name; assumption.
  - intros q Hq. apply raw_lookup_normal_form; [exact Ho|]. apply spells_full_name; [exact Hsp|].
    apply spells_refl, clean_name_plain, Hq.
  - intros x. apply spells_drop_segs. exact Hsp.
  - apply raw_member_walk_ok; [|exact Hf0]. exists r, ops, fs, p0. repeat split; assumption.
Qed.

(** Members of either kind under any spelling. *)
Definition any_member_spelt (f f0 : str) (m : member) : Prop := noisy_member f f0 m \/ noisy_raw_member f f0 m.

Theorem chain_walk_lookup_closed_spelt dops ms f f0 x :
  dedup_ops_ok dops = true -> Forall (any_member_spelt f f0) ms ->
  In x (chain_walk RelDropSegs dops ms f) ->
  chain_get ms (fst x) = Some (snd x).
Proof.
  intros Hd Hms. apply (chain_walk_lookup_closed_at (nkey f0)); [exact Hd|].
  eapply Forall_impl; [|exact Hms]. intros m [H|H]; [apply noisy_member_walk_ok|apply noisy_raw_member_walk_ok]; exact H.
Qed.

(** [any_member] (clean folder for directories) is a special case. *)
Lemma any_member_is_spelt f f0 m : any_member f f0 m -> any_member_spelt f f0 m.
Proof.
  intros [H|[-> [Hf [r [ops [fs [p [-> [Hr [Ho [Hc [Hnd [Hp Hex]]]]]]]]]]]]]; [left; exact H|right].
  pose proof (spells_refl p (okp_plain p Hp)). pose proof (spells_refl f0 (okp_plain f0 Hf)).
  exists r, ops, fs, p, p. split; [reflexivity|]. repeat (split; [assumption|]). assumption.
Qed.
