(** Proofs about the entry of a writer that still holds a temp file (model: SM/AtomicAbandon.v), and the whole
    property in one statement, for a protocol and for the generated object. *)
From Coq Require Import List Bool Arith PeanoNat.
From SV Require Import SM.AtomicWriter SM.AtomicWriterProofs SM.AtomicExit SM.AtomicReuse SM.AtomicRetry
  SM.AtomicRetryProofs SM.AtomicReuseProofs SM.AtomicAbandon.
Import ListNotations.

Lemma is_leaf_inv t : is_leaf t = true -> exists b, t = XDone b.
Proof. destruct t; cbn; try discriminate. eauto. Qed.
Lemma is_raise_inv t : is_raise t = true -> t = XDone true.
Proof. destruct t as [[]| | | |]; cbn; try discriminate. reflexivity. Qed.

(** Removing tmp_j, whatever follows its three results: nothing but tmp_j changes, and the prologue ends. *)
Lemma pro_run_unlink_leaves a b c j fs d :
  let r := pro_run (XUnlink (XDone a) (XDone b) (XDone c)) j fs d in
  (exists x, snd r = Some x) /\ (forall n, n <> Tmp j -> fst r n = d n) /\
  (fst r (Tmp j) = None \/ fst r (Tmp j) = d (Tmp j)).
Proof.
  cbn. destruct (hd false fs); [|destruct (d (Tmp j)) eqn:E]; cbn; repeat split; eauto.
  - intros n Hn. now apply upd_other.
  - left. apply upd_same.
Qed.

(** A prologue that gives the old temp file up changes nothing but tmp_j and never ends outside the model: after the
    close it removes tmp_j, or (close refused) fails at once or after trying to remove it. *)
Lemma gives_up_run t : gives_up t = true -> forall j fs d,
  (exists b, snd (pro_run t j fs d) = Some b) /\
  (forall n, n <> Tmp j -> fst (pro_run t j fs d) n = d n) /\
  (fst (pro_run t j fs d) (Tmp j) = None \/ fst (pro_run t j fs d) (Tmp j) = d (Tmp j)).
Proof.
  intros H j fs d. destruct t as [| |[| | | |[[]| | | |] b c] fl| |]; try discriminate. cbn [gives_up] in H.
  apply andb_prop in H as [H Hfl]. apply andb_prop in H as [Hb Hc].
  apply is_leaf_inv in Hb as [rb ->]. apply is_leaf_inv in Hc as [rc ->].
  cbn [pro_run]. destruct (hd false fs); [|apply pro_run_unlink_leaves].
  destruct fl as [[]| | | |x y z]; try discriminate; [cbn; eauto|]. cbn [fail_part] in Hfl.
  apply andb_prop in Hfl as [Hx Hz]. apply andb_prop in Hx as [Hx Hy].
  apply is_raise_inv in Hx, Hy, Hz. subst. apply pro_run_unlink_leaves.
Qed.

(** The whole property in one statement: two writers to different files of one directory, every schedule (= every
    kill point, every pattern of refused operations, every interleaving): old or complete new, new exactly when the
    rename has succeeded; the [with] statement raised exactly when nothing was committed, and then the previous
    contents remain; a use abandoned by its body never commits; no temp file left by a handled failure (the carve-out:
    the cleanup unlink itself was refused); concurrent writers never share or clobber temp files and touch nothing
    that existed before. *)
Definition two_writer_property (x : xproto) : Prop :=
  forall d0 s1 s2, dest s1 <> dest s2 -> forall sched, let st := run2t x s1 s2 sched (startt d0) in
  (sdt st (File (dest s1)) = (if committedt (q1 st) then Some (new s1) else d0 (File (dest s1))) /\
   sdt st (File (dest s2)) = (if committedt (q2 st) then Some (new s2) else d0 (File (dest s2)))) /\
  (forall r l b, q1 st = TDone r l b ->
     b = negb (committedt (q1 st)) /\ (b = true -> sdt st (File (dest s1)) = d0 (File (dest s1)))) /\
  (forall r, raise_at s1 = Some r -> r <= length (body s1) -> committedt (q1 st) = false) /\
  (finishedt (q1 st) = true -> (forall i, ~ In (false, (EUnlink i, RFault)) (trt st)) ->
   assoct (q1 st) = None /\ forall i, assoct (q2 st) <> Some i -> sdt st (Tmp i) = d0 (Tmp i)) /\
  ((forall i, assoct (q1 st) = Some i -> assoct (q2 st) = Some i -> False) /\
   (forall i, assoct (q1 st) = Some i \/ assoct (q2 st) = Some i -> d0 (Tmp i) = None /\ sdt st (Tmp i) <> None) /\
   (forall i, about_to_replace (q1 st) i -> sdt st (Tmp i) = Some (new s1)) /\
   (forall i, about_to_replace (q2 st) i -> sdt st (Tmp i) = Some (new s2)) /\
   (forall n, n <> File (dest s1) -> n <> File (dest s2) -> d0 n <> None -> sdt st n = d0 n)).

(** It holds for an exit protocol with or without retries whose collapse is in the good part of the family and which
    returns normally only after a rename. *)
Theorem whole_property x : retry_ok x = true -> proto_outcome_ok x = true -> two_writer_property x.
Proof.
  intros Hok Ho d0 s1 s2 Hd sched st. pose proof (retry_ok_safe x Hok) as Hs.
  pose proof (retry_crash_atomic x d0 s1 s2 Hd Hs sched) as A. fold st in A.
  split; [exact A|]. split.
  - intros r l b E. destruct (outcome_inv x Ho d0 s1 s2 sched) as [O1 _]. fold st in O1.
    pose proof (O1 r l b E) as Eb. split; [exact Eb|]. intros ->.
    destruct A as [A1 _]. cbn zeta in A1. destruct (committedt (q1 st)); [discriminate|]. exact A1.
  - split; [intros r Hr Hle; exact (proj1 (retry_body_exception_keeps_old x d0 s1 s2 Hd Hs r sched Hr Hle))|].
    split; [exact (retry_no_temp_after_handled_failure x d0 s1 s2 Hd Hok sched)|].
    exact (retry_two_writers_isolated x d0 s1 s2 Hd Hs sched).
Qed.

(** Entering a writer that still holds tmp_j (prologue tree [t]), then using it (one writer alone, any refused
    operations in the prologue and in the use): the prologue touches nothing but tmp_j; when it fails every file is as
    before; when it goes on, the use that follows is a good single use relative to the directory the prologue left — in
    particular the destination ends up with its previous content or with the complete new content of THIS use (the
    tokens written to a temp file created afresh by the temp-name loop), never with anything the abandoned attempt
    wrote. *)
Definition reentry_property (x : xproto) (t : xtree) : Prop :=
  forall j fs d s faults,
  let d' := fst (pro_run t j fs d) in
  let r := snd (pro_run t j fs d) in
  let st := alonet x s faults d' in
  (exists b, r = Some b) /\
  (forall n, n <> Tmp j -> d' n = d n) /\
  (d' (Tmp j) = None \/ d' (Tmp j) = d (Tmp j)) /\
  (r = Some false ->
     good_use d' s st /\
     sdt st (File (dest s)) = (if committedt (q1 st) then Some (new s) else d (File (dest s)))).

Theorem reentry_then_good_use x : retry_ok x = true -> proto_outcome_ok x = true ->
  forall t, gives_up t = true -> reentry_property x t.
Proof.
  intros Hok Hout t Ht j fs d s faults d' r st.
  destruct (gives_up_run t Ht j fs d) as (Hb & Hn & Hj).
  split; [exact Hb |]. split; [exact Hn |]. split; [exact Hj |].
  intros _. pose proof (retry_good_use x d' s Hok Hout faults) as Hg. fold st in Hg.
  split; [exact Hg |]. destruct Hg as (Hd & _). rewrite Hd.
  destruct (committedt (q1 st)); [reflexivity |]. apply Hn. discriminate.
Qed.

(** The generated-object form: [reentry_ok o p] gives [gives_up] for the tree of every state with a handle. *)
Lemma reentry_ok_gives_up o p : reentry_ok o p = true -> forall a, In a (holding o) -> gives_up (reentry_tree o p a) = true.
Proof.
  unfold reentry_ok. intros H a Ha. apply andb_prop in H as [_ H]. rewrite forallb_forall in H. apply H. exact Ha.
Qed.

(** Today's class satisfies the hypotheses (8 named subclasses), with the earlier prologue [prologue_r4] and the
    repaired one [prologue_r5]. *)
Lemma generated_object_hypotheses_hold :
  all_classes 8 obj_fixed (fun o' => retry_ok (obj_proto o') && proto_outcome_ok (obj_proto o') && reuse_indep o') = true /\
  reentry_ok obj_fixed prologue_r5 = true /\ reentry_ok obj_fixed prologue_r4 = true /\
  all_classes 8 obj_fixed (fun o' => proto_ok (obj_proto o')) = true /\ holding obj_fixed <> [].
Proof.
  destruct obj_fixed_reusable as (Hi & Hok & _). destruct (proto_ok_retry_hyps _ Hok) as [Hr Ho].
  split; [apply all_classes_same; [exact with_class_obj_fixed | now rewrite Hr, Ho, Hi]|].
  split; [vm_compute; reflexivity|]. split; [vm_compute; reflexivity|].
  split; [exact (all_classes_same 8 _ _ with_class_obj_fixed Hok) | vm_compute; discriminate].
Qed.
