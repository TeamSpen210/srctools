(** C18 — proofs about SM/PathMemo.v (memo table in front of _resolve_path, histories over several objects). *)
From Coq Require Import List NArith Bool.
From SV Require Import SM.PathNorm SM.PathNormProofs SM.PathMemo.
Import ListNotations.

Lemma resolve_is_resolve_abs g con cwd root_arg path :
  resolve g con cwd root_arg path = resolve_abs g con cwd (abspath cwd root_arg) path.
Proof. reflexivity. Qed.

Lemma mkey_eqb_eq a b : mkey_eqb a b = true -> a = b.
Proof.
  unfold mkey_eqb. intro H. apply andb_prop in H as [H Hp]. apply andb_prop in H as [Hr Hc].
  apply str_eqb_eq in Hr. apply str_eqb_eq in Hp. apply Bool.eqb_prop in Hc.
  destruct a, b; cbn in *; congruence.
Qed.

(** invariant of the table: every entry is what the unmemoised function answers for its key *)
Definition cache_valid (g : gx) (cwd : str) (c : cache) : Prop :=
  forall k a, lookup k c = Some a -> resolve_abs g (k_con k) cwd (k_root k) (k_path k) = Ok a.

Lemma cache_valid_nil g cwd : cache_valid g cwd [].
Proof. intros k a H. discriminate H. Qed.

Lemma key_plain wf g cwd call : key_covers wf call = true ->
  let k := key_of wf cwd call in
  resolve_abs g (k_con k) cwd (k_root k) (k_path k) = plain g cwd call.
Proof.
  intros Hc. unfold plain. rewrite resolve_is_resolve_abs. cbn.
  unfold key_covers in Hc. destruct wf; cbn in *; [reflexivity|]. now rewrite Hc.
Qed.

Lemma memo_step_transparent wf g cwd evict c call :
  only_drops evict -> cache_valid g cwd c -> key_covers wf call = true ->
  exists c', memo_step wf g cwd evict c call = (c', plain g cwd call) /\ cache_valid g cwd c'.
Proof.
  intros He Hv Hc. unfold memo_step. pose proof (key_plain wf g cwd call Hc) as Hk. cbv zeta in Hk.
  destruct (lookup (key_of wf cwd call) c) as [a|] eqn:El.
  - exists c. split; [|exact Hv]. apply Hv in El. now rewrite <- Hk, El.
  - destruct (plain g cwd call) as [a|] eqn:Ep; eexists; (split; [reflexivity|]); [|exact Hv].
    intros k b Hb. apply He in Hb. cbn [lookup] in Hb.
    destruct (mkey_eqb k (key_of wf cwd call)) eqn:Ek; [|now apply Hv].
    apply mkey_eqb_eq in Ek. subst k. now injection Hb as <-.
Qed.

(** For every history, every replacement policy, every guard (sound or not): a table whose key contains the flag, or
    that is only ever used by constrained systems, answers exactly what the unmemoised method answers. *)
Theorem memo_transparent wf g cwd evict :
  only_drops evict ->
  forall calls c, cache_valid g cwd c -> forallb (key_covers wf) calls = true ->
    memo_run wf g cwd evict c calls = map (plain g cwd) calls.
Proof.
  intros He. induction calls as [|call rest IH]; intros c Hv Hall; [reflexivity|].
  cbn in Hall. apply andb_prop in Hall as [Hc Hr]. cbn [memo_run map].
  destruct (memo_step_transparent wf g cwd evict c call He Hv Hc) as (c' & -> & Hv').
  f_equal. now apply IH.
Qed.

Lemma nth_error_map_eq {A B} (f : A -> B) l n x y :
  nth_error l n = Some x -> nth_error (map f l) n = Some y -> f x = y.
Proof. intros Hx Hy. rewrite nth_error_map, Hx in Hy. now injection Hy. Qed.

Lemma plain_inside g cwd call a :
  raise_sound g = true -> is_abs cwd = true -> rc_con call = true -> plain g cwd call = Ok a ->
  inside (abspath cwd (rc_root call)) a.
Proof.
  intros Hg Hc Hcon Hp. unfold plain in Hp. rewrite Hcon in Hp.
  exact (segprefix_guard_sound g cwd (rc_root call) (rc_path call) a Hg Hc Hp).
Qed.

(** ... hence, with a sound guard, whatever any constrained object is answered at any point of any history over any
    number of objects (constrained or not, same or different roots) is inside that object's root. *)
Theorem memo_history_inside g cwd evict :
  raise_sound g = true -> is_abs cwd = true -> only_drops evict ->
  forall calls n call a,
    nth_error calls n = Some call -> rc_con call = true ->
    nth_error (memo_run true g cwd evict [] calls) n = Some (Ok a) ->
    inside (abspath cwd (rc_root call)) a.
Proof.
  intros Hg Hc He calls n call a Hn Hcon Hr.
  rewrite (memo_transparent true g cwd evict He calls [] (cache_valid_nil g cwd)) in Hr.
  2:{ apply forallb_forall. intros x _. reflexivity. }
  exact (plain_inside g cwd call a Hg Hc Hcon (nth_error_map_eq _ _ _ _ _ Hn Hr)).
Qed.

(** no table at all is a policy *)
Lemma drop_all_only_drops : only_drops (fun _ => []).
Proof. intros c k a H. discriminate H. Qed.
Lemma keep_all_only_drops : only_drops (fun c => c).
Proof. intros c k a H. exact H. Qed.
(** bounded table (lru_cache(maxsize=n)): keep the n newest *)
Lemma firstn_only_drops n : only_drops (firstn n).
Proof.
  intros c. revert n. induction c as [|[k' v] r IH]; intros n k a H.
  - now rewrite firstn_nil in H.
  - destruct n; [discriminate H|]. cbn in *. destruct (mkey_eqb k k'); [exact H|]. now apply (IH n).
Qed.

From Coq Require Import String.
Open Scope string_scope.
(** The fault: the key of functools.lru_cache on the method ignores constrain_path.  History: an unconstrained
    RawFileSystem('/t/root') resolves '../secret.txt'; a constrained RawFileSystem('/t/root') is asked the same. *)
Definition fault_history : list rcall :=
  [ {| rc_root := s2l "/t/root"; rc_con := false; rc_path := s2l "../secret.txt" |};
    {| rc_root := s2l "/t/root"; rc_con := true;  rc_path := s2l "../secret.txt" |} ].

