(** C09 — the WHOLE property for one copy method, composed from the three strands:
      independence (census with sources + heap frame theorem over all mutation histories),
      completeness  (census against the export reads: masked unfolding equal at every depth),
    into one statement about the observation the property speaks of (the export: [munfold mk]):
      (1) at copy time the copy exports like the original;
      (2) after EVERY mutation history performed through the copy, the original still exports as it did before the
          copy was made;
      (3) after EVERY mutation history performed through the original, the copy still exports like the original did
          when it was copied. *)
From Coq Require Import List ZArith String.
From SV Require Import SM.Store SM.StoreProofs SM.StoreCopy SM.StoreCopyProofs SM.StoreCopySrc SM.StoreCopySrcProofs
  SM.StoreCopyExport SM.StoreCopyExportProofs.
Import ListNotations.

(** The frame theorem for the masked observation. *)
Theorem frame_masked_observation (mk : loc -> list bool) : forall ms h R h' R' a,
  closed h -> alloc h a -> roots_alloc h R -> sep h a R -> steps (h, R) ms (h', R') ->
  forall n, munfold mk n h' (VRef a) = munfold mk n h (VRef a).
Proof.
  intros ms h R h' R' a Hc Ha HR Hsep Hs n.
  destruct (frame_steps _ _ _ _ _ _ Hc Ha HR Hsep Hs) as (Hag & _).
  apply (munfold_agree mk h h' a Hag). constructor.
Qed.

Theorem copy_complete_and_independent :
  forall (mk : loc -> list bool) (c : census) (s : srcmap) (reads : list string) h h' la lc nd nd',
  closed h -> closed h' -> extends h h' -> h la = Some nd -> h lc = None -> h' lc = Some nd' ->
  nmut nd' = nmut nd -> mk la = obs_mask c reads -> mk lc = obs_mask c reads ->
  List.length (nfields nd) = List.length c ->
  copy_fresh_mutables c = true -> copy_sources_match c s = true -> copy_export_ok c s reads = true ->
  kinds_rel h c (nfields nd) ->
  fields_rel_src h h' (nfields nd) (resolve c s) (nfields nd') ->
  fields_rel_c mk h h' (nfields nd) (eresolve c s reads) (nfields nd') ->
  mobs_eq mk h h' (VRef la) (VRef lc) /\
  (forall ms h'' R, steps (h', [lc]) ms (h'', R) -> forall n, munfold mk n h'' (VRef la) = munfold mk n h (VRef la)) /\
  (forall ms h'' R, steps (h', [la]) ms (h'', R) -> forall n, munfold mk n h'' (VRef lc) = munfold mk n h (VRef la)).
Proof.
  intros mk c s reads h h' la lc nd nd' Hc Hc' He Hla Hlc Hlc' Hm Hmka Hmkc Hlen Hf Hs Hx Hk Hr Hrc.
  destruct (census_copy_sep c h h' la lc nd nd' Hc He Hla Hlc Hlc' Hf (sources_fields_rel h h' c s _ _ Hs Hk Hr))
    as (Ha' & Hcc & Hsep).
  assert (Heq : mobs_eq mk h h' (VRef la) (VRef lc)) by (eapply copy_export_equal; eauto).
  split; [exact Heq|]. split; intros ms h'' R Hst n.
  - rewrite (frame_masked_observation mk ms h' [lc] h'' R la Hc' Ha' (roots_alloc_one h' lc Hcc) Hsep Hst).
    apply (share_mobs_eq mk h h' (VRef la) Hc He). unfold val_alloc, alloc. congruence.
  - rewrite (frame_masked_observation mk ms h' [la] h'' R lc Hc' Hcc (roots_alloc_one h' la Ha') (sep_sym _ _ _ Hsep) Hst).
    apply Heq.
Qed.

(** The hypotheses are satisfiable (the 3-field example of StoreCopyExportProofs: id / blend / alpha). *)
Example copy_complete_and_independent_applies :
  let h := ex_h in let h' := ex_h' 7%Z in
  mobs_eq ex_mk h h' (VRef 1%positive) (VRef 2%positive) /\
  (forall ms h'' R, steps (h', [2%positive]) ms (h'', R) ->
     forall n, munfold ex_mk n h'' (VRef 1%positive) = munfold ex_mk n h (VRef 1%positive)) /\
  (forall ms h'' R, steps (h', [1%positive]) ms (h'', R) ->
     forall n, munfold ex_mk n h'' (VRef 2%positive) = munfold ex_mk n h (VRef 1%positive)).
Proof.
  cbv zeta.
  eapply (copy_complete_and_independent ex_mk ex_census ex_src_good ex_reads ex_h (ex_h' 7%Z) 1%positive 2%positive);
    try reflexivity; [exact ex_closed | | apply ex_extends | | | exact ex_fields_rel_c].
  - intros l nd0 l' Hl. destruct l as [[l|l|]|[l|l|]|]; try discriminate; cbn in Hl; inversion Hl; subst; cbn;
      intros [H|[H|[H|[]]]]; discriminate.
  - repeat constructor; intros l Hl; destruct Hl.
  - cbn. constructor; [cbn; exists 11%Z; reflexivity|].
    constructor; [cbn; exists 1%nat, (VAtom 5%Z); auto|].
    constructor; [cbn; exists 2%nat, (VAtom 7%Z); auto|]. constructor.
Qed.

(** Independence is not implied by completeness: a copy that SHARES a mutable field exports equally at copy time
    (the census passes [copy_export_ok]) and fails (2) after one store through the copy. *)
Definition sh_census : census := [("color"%string, KMut, HShare)].
Definition sh_src : srcmap := [("color"%string, ["color"%string])].
Definition sh_reads : list string := ["color"%string].
Definition sh_mk : loc -> list bool := fun l => match l with 3%positive => [] | _ => obs_mask sh_census sh_reads end.
Definition sh_h : heap := fun l => match l with
  | 1%positive => Some (Node true [VRef 3%positive]) | 3%positive => Some (Node true [VAtom 255%Z]) | _ => None end.
Definition sh_h' : heap := fun l => match l with
  | 1%positive => Some (Node true [VRef 3%positive]) | 2%positive => Some (Node true [VRef 3%positive])
  | 3%positive => Some (Node true [VAtom 255%Z]) | _ => None end.

