(** C19 — proofs about [add_sys] histories, the names the directory backend lists, and the impossibility behind
    the known finding (definitions in FsChainAdd.v). *)
From Coq Require Import List NArith.
From SV Require Import SM.FsChain SM.FsChainWitness SM.FsChainWhole SM.FsChainAdd.
Import ListNotations.
Open Scope N_scope.

(** * (1) histories *)
Section Hist.
  Context {A : Type}.

  Lemma fold_always (same : A -> A -> bool) (h : list (bool * A)) acc :
    fold_left (fun acc x => add_sys_g AddAlways same (InsertAt 0) Append (fst x) (snd x) acc) h acc
    = rev (map snd (filter (fun x => fst x) h)) ++ acc ++ map snd (filter (fun x => negb (fst x)) h).
  Proof.
    revert acc. induction h as [|[p m] h IH]; intros acc; cbn [fold_left filter map rev fst snd].
    - rewrite app_nil_r. reflexivity.
    - rewrite IH. destruct p; cbn [negb add_sys_g ins_at firstn skipn app map rev fst snd].
      + rewrite <- app_assoc. reflexivity.
      + rewrite <- app_assoc. reflexivity.
  Qed.

  (** Whatever the sequence of calls: with a method that always inserts, first for priority and last otherwise, the
      chain is the priority members latest first, then the others in the order they were added - every member that was
      added is in it, as often as it was added. *)
  Theorem build_chain_priority_order g (same : A -> A -> bool) prio plain (h : list (bool * A)) :
    guard_ok g = true -> actions_ok prio plain = true ->
    build_chain g same prio plain h = priority_order h.
  Proof.
    intros Hg Ha. destruct g; [|discriminate].
    destruct prio as [[|n]|]; try discriminate. destruct plain; try discriminate.
    unfold build_chain, priority_order. rewrite fold_always. reflexivity.
  Qed.

End Hist.

(** the priority order only rearranges the members that were added *)
Lemma In_priority_order {A} (h : list (bool * A)) m : In m (priority_order h) <-> In m (map snd h).
Proof.
  unfold priority_order. split; intros H.
  - apply in_app_or in H as [H|H]; [apply in_rev in H|]; apply in_map_iff in H as [x [<- Hx]];
      apply filter_In in Hx as [Hx _]; apply in_map; exact Hx.
  - apply in_map_iff in H as [[[|] x] [<- Hx]]; apply in_or_app.
    + left. apply in_rev. rewrite rev_involutive. apply (in_map snd _ (true, x)), filter_In. split; [exact Hx|reflexivity].
    + right. apply (in_map snd _ (false, x)), filter_In. split; [exact Hx|reflexivity].
Qed.

Lemma Forall_priority_order {A} (P : A -> Prop) (h : list (bool * A)) :
  Forall P (map snd h) -> Forall P (priority_order h).
Proof. rewrite !Forall_forall. intros H m Hm. apply H, In_priority_order, Hm. Qed.

(** A guard that skips a member comparing equal (same kind and path label, same subfolder) to a mounted one:
    (a) a second archive mounted under the label of the first is dropped - a name only it holds is missing although a
        member that was added has it;
    (b) re-adding a mounted member with priority does not move it to the front - the lower-priority copy keeps winning. *)
Definition hist_twins : list (bool * dmember) :=
  [(false, (1, [([120], [1])], [])); (false, (1, [([121], [2])], []))].
Definition hist_promote : list (bool * dmember) :=
  [(false, (1, [([120], [1])], [])); (false, (2, [([120], [2])], [])); (true, (2, [([120], [2])], []))].

(** * (2) the names the directory backend lists *)
(** Joining the directory's relative path with the file name afterwards: a file of the root folder is listed as "./x",
    which is not a stored name; in a chain it is not recognised as the "x" of another member, so the name is listed
    twice and the second entry is not what the lookup of "x" returns. *)
Definition rootfile : list file := [([120], [1])].
Definition chain_dir_mem (r : raw_rel) : list member :=
  [raw_member_of r [OSlash] rootfile []; member_of fixed_zip [([120], [2])] []].

(** * (3) the known finding: "the file stored last wins" is not a function of a container that forgets the order *)
Theorem winner_needs_order {C : Type} (container : list file -> C) (serve : C -> str -> option file) :
  container [dup_a; dup_A] = container [dup_A; dup_a] ->
  ~ (forall fs q, serve (container fs) q = spec_lookup fs q).
Proof.
  intros Hc H. pose proof (H [dup_a; dup_A] [97; 47; 120]) as H1. pose proof (H [dup_A; dup_a] [97; 47; 120]) as H2.
  rewrite Hc, H2 in H1. vm_compute in H1. discriminate.
Qed.

(** ... whereas without case-duplicates the order does not matter ([c19_lookup_order_irrelevant] in Props/C19.v), and the two
    witnesses are clean file sets: the hypotheses describe a real situation. *)
Example winner_witness_clean : clean_fs [dup_a; dup_A] = true /\ spec_lookup [dup_a; dup_A] [97; 47; 120] = Some dup_A
                               /\ spec_lookup [dup_A; dup_a] [97; 47; 120] = Some dup_a.
Proof. vm_compute. repeat split. Qed.
