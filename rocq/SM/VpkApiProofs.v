(** Proofs for SM/VpkApi.v: extended histories (with-blocks, load_dirfile() on the same object) refine the specification map. *)
From Coq Require Import List NArith Bool Permutation.
From SV Require Import Fmt.VpkDir SM.Vpk SM.VpkProofs SM.VpkRefine SM.VpkApi.
Import ListNotations.
Open Scope N_scope.

Lemma exit_table_ok_lookup et : exit_table_ok et = true -> forall e w,
  exit_lookup et e w = Some ((if e && w then 1 else 0), false).
Proof.
  unfold exit_table_ok. intros H e w. repeat (apply andb_prop in H; destruct H as [H ?]).
  assert (exit_row_ok et e w = true) as Hr by (destruct e, w; assumption).
  unfold exit_row_ok in Hr. destruct (exit_lookup et e w) as [[c r]|]; [|discriminate].
  apply andb_prop in Hr. destruct Hr as [Hc Hn]. apply N.eqb_eq in Hc. apply negb_true_iff in Hn. now subst.
Qed.

(** For an accepted table, leaving a with-block is write_dirfile() exactly when no exception is in flight and the mode is writable. *)
Lemma xstep_exit et crc cf st e : exit_table_ok et = true ->
  xstep et crc cf st (XExit e) = if e && writable (md st) then step crc cf st OSave else Some (st, rOk).
Proof.
  intros H. cbn [xstep]. rewrite (exit_table_ok_lookup et H). destruct (e && writable (md st)); reflexivity.
Qed.

Section xrefine.
  Variable et : list exit_row.
  Hypothesis Htbl : exit_table_ok et = true.
  Variable crc : bytes -> N.
  Variable cf : vcfg.
  Hypothesis Hcf : vcfg_okb cf = true.
  Variable D : bytes -> Prop.
  Hypothesis D_nil : D [].
  Hypothesis D_inj : forall d1 d2, D d1 -> D d2 -> crc d1 = crc d2 -> d1 = d2.

  Definition xop_D (x : xop) : Prop := match x with XOp o => op_D D o | _ => True end.

  Lemma xstep_refines st s x st' c :
    inv crc cf D st s -> xop_D x -> xstep et crc cf st x = Some (st', c) ->
    c = snd (sxstep cf s x) /\ inv crc cf D st' (fst (sxstep cf s x)).
  Proof.
    intros Hinv Hx. pose proof Hinv as (Hm & _). destruct x as [o|e|].
    - cbn [xstep sxstep]. apply (step_refines crc cf Hcf D D_nil D_inj); assumption.
    - rewrite (xstep_exit et crc cf st e Htbl). cbn [sxstep]. rewrite <- Hm.
      destruct (e && writable (md st)).
      + apply (step_refines crc cf Hcf D D_nil D_inj); [assumption|constructor].
      + intros [= <- <-]. cbn [fst snd]. auto.
    - cbn [xstep sxstep]. rewrite <- Hm.
      destruct (step crc cf st (OReopen (md st))) as [[st1 c1]|] eqn:E; [|discriminate].
      destruct (c1 =? rOk); [|discriminate]. intros [= <- <-].
      apply (step_refines crc cf Hcf D D_nil D_inj) with (st := st); [assumption|constructor|exact E].
  Qed.

  Lemma xrun_refines xs : forall st s st' cs,
    inv crc cf D st s -> Forall xop_D xs -> xrun et crc cf st xs = Some (st', cs) ->
    cs = snd (sxrun cf s xs) /\ inv crc cf D st' (fst (sxrun cf s xs)).
  Proof. apply (runs_refine (xstep et crc cf) (sxstep cf) (xrun et crc cf) (sxrun cf)); try reflexivity. exact xstep_refines. Qed.
End xrefine.

(** Every history over the six operations, with-blocks left normally or by an exception, and load_dirfile() on the same object. *)
Theorem vpk_api_refines_map et crc cf : exit_table_ok et = true -> vcfg_okb cf = true -> forall xs st codes,
  collision_free crc (xplain xs) ->
  xrun et crc cf (init) xs = Some (st, codes) ->
  let '(s, scodes) := sxrun cf sinit xs in
  codes = scodes /\ md st = smd s /\ Permutation (map fst (tbl st)) (map fst (cur s)) /\
  forall k, match alookup k (tbl st), alookup k (cur s) with
            | Some i, Some d => read_info st i = d /\ verify_info crc st i = true
            | None, None => True
            | _, _ => False
            end.
Proof.
  intros Htbl Hcf xs st codes Hfree Hrun.
  set (D := fun d => In d (datas (xplain xs))).
  assert (D []) as D_nil by (left; reflexivity).
  assert (Forall (xop_D D) xs) as Hxs.
  { apply Forall_forall. intros x Hx. destruct x as [o| |]; cbn [xop_D]; [|exact I|exact I].
    unfold op_D. apply Forall_forall. intros d Hd. right. apply in_flat_map. exists o. split; [|exact Hd].
    unfold xplain. apply in_flat_map. exists (XOp o). split; [exact Hx|now left]. }
  destruct (xrun_refines et Htbl crc cf Hcf D D_nil Hfree xs _ _ _ _ (inv_init crc cf D) Hxs Hrun) as [Hc Hinv].
  destruct (sxrun cf sinit xs) as [s scodes]. cbn [fst snd] in *.
  split; [exact Hc|]. exact (inv_observe crc cf D _ _ Hinv).
Qed.

Lemma sxrun_app cf a : forall s b,
  sxrun cf s (a ++ b) = let '(s1, c1) := sxrun cf s a in let '(s2, c2) := sxrun cf s1 b in (s2, c1 ++ c2).
Proof. apply (srun_app_gen (sxstep cf)); reflexivity. Qed.
Lemma xplain_app a b : xplain (a ++ b) = xplain a ++ xplain b.
Proof. unfold xplain. apply flat_map_app. Qed.

(** The with-statement: any extended history that leaves the archive writable, then the block is left normally, then the archive is
    opened again for reading or appending: it lists exactly the files of the map, each reading back its bytes and verifying. *)
Theorem vpk_with_block_saves et crc cf : exit_table_ok et = true -> vcfg_okb cf = true -> forall xs m st codes,
  m <> MW -> collision_free crc (xplain xs) ->
  xrun et crc cf (init) (xs ++ [XExit true; XOp (OReopen m)]) = Some (st, codes) ->
  let '(s0, c0) := sxrun cf sinit xs in
  writable (smd s0) = true ->
  codes = c0 ++ [rOk; rOk] /\ md st = m /\ Permutation (map fst (tbl st)) (map fst (cur s0)) /\
  forall k, match alookup k (tbl st), alookup k (cur s0) with
            | Some i, Some d => read_info st i = d /\ verify_info crc st i = true
            | None, None => True
            | _, _ => False
            end.
Proof.
  intros Htbl Hcf xs m st codes Hm Hfree Hrun.
  assert (collision_free crc (xplain (xs ++ [XExit true; XOp (OReopen m)]))) as Hfree'.
  { unfold collision_free in *. rewrite xplain_app. cbn [xplain flat_map app]. unfold datas. rewrite flat_map_app. cbn [flat_map op_data app]. rewrite app_nil_r. exact Hfree. }
  pose proof (vpk_api_refines_map et crc cf Htbl Hcf _ _ _ Hfree' Hrun) as H.
  rewrite sxrun_app in H. destruct (sxrun cf sinit xs) as [s0 c0]. intros Hw.
  cbn [sxrun sxstep andb] in H. rewrite Hw in H. cbn [sstep] in H. rewrite Hw in H. cbn [negb saved] in H.
  destruct m; [|contradiction|]; cbn [cur smd] in H; exact H.
Qed.

