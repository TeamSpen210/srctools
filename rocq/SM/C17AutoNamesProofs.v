(** Proofs for SM/C17AutoNames.v: a counter kept across the passes never gives a number twice. *)
From Coq Require Import List.
From SV Require Import SM.C17AutoNames.
Import ListNotations.

Lemma auto_names_kept_is_seq : forall passes c, auto_names false c passes = seq (S c) (list_sum passes).
Proof.
  induction passes as [|n r IH]; intros c.
  - reflexivity.
  - change (list_sum (n :: r)) with (n + list_sum r). cbn [auto_names]. rewrite IH, seq_app.
    reflexivity.
Qed.

Theorem auto_names_kept_distinct : forall passes c, NoDup (auto_names false c passes).
Proof. intros. rewrite auto_names_kept_is_seq. apply seq_NoDup. Qed.

Theorem auto_names_kept_above_start : forall passes c k, In k (auto_names false c passes) -> c < k.
Proof. intros passes c k H. rewrite auto_names_kept_is_seq in H. apply in_seq in H. exact (proj1 H). Qed.

