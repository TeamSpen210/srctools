(** C17 — proofs about the value sites of collapse_one (SM/C17Sites.v) over the name and substitution models. *)
From Coq Require Import NArith List Bool.
From SV Require Import SM.C17Name SM.C17Subst SM.C17Sites.
Import ListNotations.
Open Scope N_scope.

Lemma is_core_eq : forall e, is_core e = true -> e = SSubst SRaw.
Proof. intros [| |[]| | | | |]; cbn; intros H; try discriminate; reflexivity. Qed.

(** Every accepted site is "substitute the raw text, then [post]". *)
Theorem site_ok_substitutes_first : forall e, site_ok e = true ->
  forall S F x, seval S F e x = obind (S x) (post F e).
Proof.
  induction e as [| |a IH|a IH|a IH|a IH|a IH|a IHa b IHb]; intros H S F x; cbn [site_ok] in H; try discriminate.
  - destruct a; try discriminate. cbn. destruct (S x); reflexivity.
  - apply is_core_eq in H. subst a. reflexivity.
  - apply is_core_eq in H. subst a. reflexivity.
  - apply is_core_eq in H. subst a. cbn. destruct (S x); reflexivity.
  - cbn [seval post]. now apply IH.
  - apply andb_true_iff in H as [H _]. cbn [seval post]. now apply IHa.
Qed.

(** The other order is a different function.  Witness: `$v` with v = `@global`, instance `i`, PREFIX style.
    substitute-then-name gives `@global`; name-then-substitute gives `i-@global`; and so does every style but NONE;
    not substituting at all gives `i-$v`. *)
Definition w_tbl : table := [([118], [64;103;108;111;98;97;108])].
Definition w_S := substitute ref_subst_cfg false w_tbl (Some []).
Definition w_F := fixup_name ref_cfg SPrefix [105].

(** For ordinary values the two orders agree, which is why the swap looks harmless: `$v` with v = `door`. *)
Example orders_agree_on_ordinary_names :
  let S := substitute ref_subst_cfg false [([118], [100;111;111;114])] (Some []) in
  seval S w_F (SName (SSubst SRaw)) [36;118] = seval S w_F (SSubst (SName SRaw)) [36;118].
Proof. vm_compute. reflexivity. Qed.

Example site_ok_examples :
  site_ok (SName (SSubst SRaw)) = true /\ site_ok (SKey (SSubst SRaw)) = true /\
  site_ok (SWrap (SWrap (SParse (SSubst SRaw)))) = true /\ site_ok (SJoin (SName (SSubst SRaw)) (SSubst SRaw)) = true /\
  site_ok SRaw = false /\ site_ok (SParse SRaw) = false.
Proof. repeat split; reflexivity. Qed.
