(** Proofs about SM/LazyLumps.v: looking at views and saving is lossless for every access sequence,
    provided the dependency graph is order-consistent. *)
From Coq Require Import List Arith Bool Lia.
From SV Require Import SM.LazyLumps.
Import ListNotations.

Lemma mem_In : forall x l, mem x l = true <-> In x l.
Proof.
  intros x l. unfold mem. rewrite existsb_exists. split.
  - intros [y [Hy He]]. apply Nat.eqb_eq in He. subst. exact Hy.
  - intros H. exists x. split; [exact H | apply Nat.eqb_refl].
Qed.

Lemma mem_false : forall x l, mem x l = false <-> ~ In x l.
Proof.
  intros x l. split.
  - intros H Hin. apply mem_In in Hin. congruence.
  - intros H. destruct (mem x l) eqn:E; [apply mem_In in E; contradiction | reflexivity].
Qed.

Lemma nodupb_NoDup : forall l, nodupb l = true -> NoDup l.
Proof.
  induction l as [|x r IH]; cbn [nodupb]; intros H; constructor.
  - apply andb_prop in H. destruct H as [H _]. apply negb_true_iff in H. now apply mem_false in H.
  - apply andb_prop in H. destruct H as [_ H]. auto.
Qed.

Lemma map_eq_pointwise : forall {A B} (f h : A -> B) l, map f l = map h l -> forall x, In x l -> f x = h x.
Proof.
  induction l as [|a r IH]; cbn [map]; intros H x Hin; [destruct Hin|].
  injection H as H1 H2. destruct Hin as [->|Hin]; auto.
Qed.

Lemma upd_eq : forall A (f : nat -> A) k a, upd f k a k = a.
Proof. intros. unfold upd. now rewrite Nat.eqb_refl. Qed.

Lemma upd_neq : forall A (f : nat -> A) k a x, x <> k -> upd f k a x = f x.
Proof. intros A f k a x H. unfold upd. apply Nat.eqb_neq in H. now rewrite H. Qed.

(** A walk over positions [k .. n-1] keeps an invariant indexed by the position; the same for two walks side by side. *)
Lemma fold_seq_rel : forall (A B : Type) (f : A -> nat -> A) (h : B -> nat -> B) (I : nat -> A -> B -> Prop) n,
  (forall k a b, k < n -> I k a b -> I (S k) (f a k) (h b k)) ->
  forall m k a b, k + m = n -> I k a b -> I n (fold_left f (seq k m) a) (fold_left h (seq k m) b).
Proof.
  intros A B f h I n H. induction m as [|m IH]; intros k a b Hkm Hab; cbn [seq fold_left].
  - now replace n with k by lia.
  - apply IH; [lia | apply H; [lia | exact Hab]].
Qed.

Lemma fold_seq_inv : forall (A : Type) (f : A -> nat -> A) (I : nat -> A -> Prop) n,
  (forall k a, k < n -> I k a -> I (S k) (f a k)) ->
  forall m k a, k + m = n -> I k a -> I n (fold_left f (seq k m) a).
Proof. intros A f I n H m k a. exact (fold_seq_rel A A f f (fun k a _ => I k a) n (fun k a _ => H k a) m k a a). Qed.

Section Proofs.
  Variables D P : Type.
  Variable empty : D.
  Variable rd : nat -> list D -> option P.
  Variable wr : nat -> P -> list D.
  Variable g : graph.
  Variable sh : shape.

  Notation nviews := (nviews g).
  Notation decl := (decl g).
  Notation own := (own g).
  Notation state := (state D P).
  Notation own_data := (own_data D P g).
  Notation look_all := (look_all D P).
  Notation getf := (getf D P empty rd g sh).
  Notation get := (get D P empty rd g sh).
  Notation run := (run D P empty rd g sh).
  Notation save_step := (save_step D P empty rd wr g sh).
  Notation save_todo := (save_todo D P g sh).
  Notation save := (save D P empty rd wr g sh).
  Notation save_step_a := (save_step_a D P empty rd wr g sh).
  Notation save_a := (save_a D P empty rd wr g sh).
  Notation denote := (denote D P rd g).
  Notation fresh := (fresh D P).
  Notation owned := (owned g).
  Notation clear_lumps := (clear_lumps D P empty).
  Notation set_cache := (set_cache D P).
  Notation pre_clear := (pre_clear D P empty g sh).
  Notation parse_input := (parse_input D P g).

  (** Saving when nothing is cached changes nothing (no condition on the graph or the shape needed). *)
  Lemma save_steps_fresh : forall l (s : state), fresh s -> fold_left save_step l (true, s) = (true, s).
  Proof.
    induction l as [|v r IH]; intros s Hf; cbn [fold_left]; [reflexivity|].
    unfold save_step at 2. cbn [fst snd]. rewrite (Hf v). apply IH, Hf.
  Qed.

  Lemma save_fresh_id : forall s : state, fresh s -> save s = (true, s).
  Proof. intros s Hf. unfold save, LazyLumps.save. now apply save_steps_fresh. Qed.

  (** BSP.save with an except clause around the writer call ([save_a]) differs from the plain loop only in the
      state it leaves behind when a writer raises. *)
  Lemma save_step_a_flag : forall b acc k,
    fst (save_step_a b acc k) = fst (save_step acc k) /\
    (b = false \/ fst (save_step acc k) = true -> save_step_a b acc k = save_step acc k).
  Proof.
    intros b [[] s] k; unfold LazyLumps.save_step_a, LazyLumps.save_step; cbn [fst snd]; [|auto].
    destruct (cache s k); [|auto].
    destruct (look_all get (v_wdeps (decl k)) (set_cache k None s)) as [[] s2]; cbn [fst snd]; [auto|].
    split; [reflexivity|]. intros [->|H]; [reflexivity | discriminate].
  Qed.

  Lemma save_step_a_stopped : forall b acc k, fst acc = false -> save_step_a b acc k = acc.
  Proof. intros b [f s] k H. cbn [fst] in H. subst f. reflexivity. Qed.

  Lemma save_step_stopped : forall acc k, fst acc = false -> save_step acc k = acc.
  Proof. intros [f s] k H. cbn [fst] in H. subst f. reflexivity. Qed.

  Lemma save_steps_a_rel : forall b l acc acc', fst acc = fst acc' -> (b = false \/ fst acc' = true -> acc = acc') ->
    let r := fold_left (save_step_a b) l acc in let r' := fold_left save_step l acc' in
    fst r = fst r' /\ (b = false \/ fst r' = true -> r = r').
  Proof.
    intros b. induction l as [|a l IH]; intros acc acc' Hf He; cbn [fold_left]; [split; assumption|].
    destruct (fst acc') eqn:E.
    - rewrite (He (or_intror eq_refl)). apply IH; apply save_step_a_flag.
    - rewrite (save_step_a_stopped b acc a Hf), (save_step_stopped acc' a E). apply IH; [congruence|].
      intros H. apply He. rewrite E in H. exact H.
  Qed.

  (** Whether the save completes does not depend on the except clause, a save that completes is the plain save, and
      without the clause [save_a] is [save]. *)
  Lemma save_a_summary : forall b s, fst (save_a b s) = fst (save s) /\ (fst (save s) = true -> save_a b s = save s) /\
    save_a false s = save s.
  Proof.
    intros b s. unfold LazyLumps.save_a, LazyLumps.save.
    destruct (save_steps_a_rel b (save_todo s) (true, s) (true, s) eq_refl (fun _ => eq_refl)) as [A B].
    destruct (save_steps_a_rel false (save_todo s) (true, s) (true, s) eq_refl (fun _ => eq_refl)) as [_ B'].
    split; [exact A|]. split; [intros H; apply B; now right | apply B'; now left].
  Qed.

  Lemma own_overflow : forall v, nviews <= v -> own v = [].
  Proof. intros v H. unfold LazyLumps.own, LazyLumps.decl. rewrite nth_overflow; [reflexivity | exact H]. Qed.

  Lemma parse_input_eq : forall (s s1 : state) v, own_data s1 v = own_data s v -> parse_input s s1 v = own_data s v.
  Proof.
    intros s s1 v H. unfold LazyLumps.parse_input, LazyLumps.own_data in *. destruct (own v) as [|m ex]; [reflexivity|].
    cbn [map] in *. injection H as _ H. now rewrite H.
  Qed.

  (** A failed look of a view whose reader looks at no other view leaves the object exactly as it was: nothing
      cached, nothing cleared (needs only the statement order of __get__, not the graph conditions). *)
  Lemma failed_get_leaf_identity : sh_early_main sh = false -> sh_early_extra sh = false ->
    forall f v (s : state), v_rdeps (decl v) = [] -> fst (getf f v s) = false -> snd (getf f v s) = s.
  Proof.
    intros E1 E2 f v s Hd. destruct f as [|f]; cbn [getf LazyLumps.getf]; [reflexivity|].
    destruct (v <? nviews); [|reflexivity]. destruct (cache s v); [reflexivity|].
    rewrite Hd. cbn [LazyLumps.look_all fst snd]. unfold LazyLumps.pre_clear. rewrite E1, E2. cbn [orb].
    destruct (rd v (parse_input s s v)); cbn [fst snd]; [discriminate | reflexivity].
  Qed.

  (** What a sequence of looks preserves, and what it preserves between two machines that run side by side. *)
  Lemma look_all_pres : forall (Q : state -> Prop) (look : nat -> state -> bool * state) ds,
    (forall d s, In d ds -> Q s -> Q (snd (look d s))) -> forall s, Q s -> Q (snd (look_all look ds s)).
  Proof.
    intros Q look. induction ds as [|d r IH]; intros H s Hs; cbn [LazyLumps.look_all]; [exact Hs|].
    pose proof (H d s (or_introl eq_refl) Hs) as H1. destruct (look d s) as [[] s1]; cbn [fst snd] in *; [|exact H1].
    apply IH; [|exact H1]. intros d' s' Hd'. apply H. now right.
  Qed.

  Lemma look_all_rel : forall (Rel : state -> state -> Prop) (look' look : nat -> state -> bool * state) ds,
    (forall d a b, In d ds -> Rel a b -> fst (look' d a) = fst (look d b) /\ Rel (snd (look' d a)) (snd (look d b))) ->
    forall a b, Rel a b ->
    fst (look_all look' ds a) = fst (look_all look ds b) /\ Rel (snd (look_all look' ds a)) (snd (look_all look ds b)).
  Proof.
    intros Rel look' look. induction ds as [|d ds IH]; intros H a b Hab; cbn [LazyLumps.look_all]; [split; [reflexivity | exact Hab]|].
    destruct (H d a b (or_introl eq_refl) Hab) as [Hf H1].
    destruct (look' d a) as [x a1], (look d b) as [[] b1]; cbn [fst snd] in *; subst x; [|split; [reflexivity | exact H1]].
    apply IH; [|exact H1]. intros d' a' b' Hd'. apply H. now right.
  Qed.

  (** A property of the state that emptying lumps keeps, and that the step "cache the parsed value, empty the lumps of the
      view" keeps at every view of a set [V] closed under the readers' dependencies, is kept by a look at a view of [V]. *)
  Lemma getf_pres : forall (Q : state -> Prop) (V : nat -> Prop),
    (forall v d, v < nviews -> V v -> In d (v_rdeps (decl v)) -> V d) ->
    (forall ls s, Q s -> Q (clear_lumps ls s)) ->
    (forall v p s, v < nviews -> V v -> Q s -> Q (clear_lumps (own v) (set_cache v (Some p) s))) ->
    forall f v s, V v -> Q s -> Q (snd (getf f v s)).
  Proof.
    intros Q V HV Hcl Hstep. induction f as [|f IH]; intros v s Hv Hs; cbn [getf LazyLumps.getf]; [exact Hs|].
    destruct (v <? nviews) eqn:Ev; [|exact Hs]. apply Nat.ltb_lt in Ev. destruct (cache s v); [exact Hs|].
    assert (Hpre : Q (pre_clear v s)).
    { unfold LazyLumps.pre_clear. destruct (sh_early_main sh || sh_early_extra sh); [apply Hcl|]; exact Hs. }
    pose proof (look_all_pres Q (getf f) (v_rdeps (decl v)) (fun d s' Hd => IH d s' (HV v d Ev Hv Hd)) _ Hpre) as H1.
    destruct (look_all (getf f) (v_rdeps (decl v)) (pre_clear v s)) as [[] s1]; cbn [fst snd] in *; [|exact H1].
    destruct (rd v _); cbn [fst snd]; [now apply Hstep | exact H1].
  Qed.

  Section Consistent.
    Hypothesis OC : order_consistent g = true.
    Hypothesis SH : shape_ok sh = true.

    Lemma sh_flags : sh_early_main sh = false /\ sh_early_extra sh = false /\ sh_snapshot sh = false.
    Proof.
      pose proof SH as H. unfold shape_ok in H. rewrite !andb_true_iff, !negb_true_iff in H.
      destruct H as ((H1 & H2) & H3). auto.
    Qed.

    Lemma pre_clear_id : forall v (s : state), pre_clear v s = s.
    Proof. intros v s. destruct sh_flags as (E1 & E2 & _). unfold LazyLumps.pre_clear. now rewrite E1, E2. Qed.

    Lemma save_todo_std : forall s : state, save_todo s = seq 0 nviews.
    Proof. intros s. destruct sh_flags as (_ & _ & E3). unfold LazyLumps.save_todo. now rewrite E3. Qed.

    Lemma oc_at : forall i, i < nviews ->
      deps_later g i = true /\ owns_stored g i = true /\ own_nodup g i = true /\ own_disjoint g i = true.
    Proof.
      intros i Hi. pose proof OC as H. unfold order_consistent in H. rewrite forallb_forall in H.
      specialize (H i). rewrite in_seq in H. specialize (H ltac:(lia)). rewrite !andb_true_iff in H.
      destruct H as (((H1 & H2) & H3) & H4). auto.
    Qed.

    Lemma deps_gt : forall i d, i < nviews -> In d (v_rdeps (decl i) ++ v_wdeps (decl i)) -> i < d /\ d < nviews.
    Proof.
      intros i d Hi Hd. destruct (oc_at i Hi) as [H _]. unfold deps_later in H.
      rewrite forallb_forall in H. specialize (H d Hd). apply andb_prop in H. destruct H as [H1 H2].
      apply Nat.ltb_lt in H1. apply Nat.ltb_lt in H2. auto.
    Qed.

    Lemma own_disj : forall i j l, i < nviews -> j < nviews -> i <> j -> In l (own i) -> ~ In l (own j).
    Proof.
      intros i j l Hi Hj Hne Hl. destruct (oc_at i Hi) as (_ & _ & _ & H). unfold own_disjoint in H.
      rewrite forallb_forall in H. specialize (H j). rewrite in_seq in H. specialize (H ltac:(lia)).
      apply orb_prop in H. destruct H as [H|H]; [apply Nat.eqb_eq in H; contradiction|].
      unfold disjointb in H. rewrite forallb_forall in H. specialize (H l Hl).
      apply negb_true_iff in H. now apply mem_false in H.
    Qed.

    Lemma own_lt : forall v l, In l (own v) -> v < nviews.
    Proof.
      intros v l H. destruct (Nat.lt_ge_cases v nviews) as [Hv|Hv]; [exact Hv|]. rewrite (own_overflow v Hv) in H. destruct H.
    Qed.

    (** A lump of the view [v] belongs to no other view, inside or outside the rebuild order. *)
    Lemma own_other : forall v w l, v < nviews -> w <> v -> In l (own w) -> ~ In l (own v).
    Proof.
      intros v w l Hv Hne Hl Hlv. exact (own_disj v w l Hv (own_lt w l Hl) (fun e => Hne (eq_sym e)) Hlv Hl).
    Qed.

    Lemma own_data_clear_other : forall (s : state) v w, v < nviews -> w <> v ->
      own_data (clear_lumps (own v) s) w = own_data s w.
    Proof.
      intros s v w Hv Hne. unfold LazyLumps.own_data. apply map_ext_in. intros l Hl. cbn [raw LazyLumps.clear_lumps].
      now rewrite (proj2 (mem_false l (own v)) (own_other v w l Hv Hne Hl)).
    Qed.

    Section Run.
      Variable s0 : state.
      Variable R : nat -> Prop.     (* any set of views closed under the dependencies *)
      Hypothesis Rclosed : forall v d, v < nviews -> R v -> In d (v_rdeps (decl v) ++ v_wdeps (decl v)) -> R d.

      (** What the reader of [v] makes of the file's data ([None]: it raises). *)
      Definition pv (v : nat) : option P := rd v (own_data s0 v).

      (** A look at [v] succeeds: its reader and the readers of everything it looks at accept the file's data. *)
      Inductive good : nat -> Prop :=
        good_i : forall v, pv v <> None -> (forall d, In d (v_rdeps (decl v)) -> good d) -> good v.

      (** Views below [lo] have been saved, views from [hi] on are either untouched or cached. *)
      Definition Inv (lo hi : nat) (s : state) : Prop :=
        (forall v, nviews <= v -> cache s v = None) /\
        (forall v, v < lo -> cache s v = None /\
            (own_data s v = own_data s0 v \/ (R v /\ exists p, pv v = Some p /\ own_data s v = wr v p))) /\
        (forall v, hi <= v -> v < nviews ->
            (cache s v = None /\ own_data s v = own_data s0 v) \/ (R v /\ good v /\ cache s v = pv v)) /\
        (forall l, ~ owned l -> raw s l = raw s0 l).

      Definition get_post (lo hi v : nat) (s : state) (r : bool * state) : Prop :=
        Inv lo hi (snd r) /\
        (v < nviews -> fst r = true -> cache (snd r) v = pv v /\ good v) /\
        (v < nviews -> fst r = false -> exists e, v <= e /\ e < nviews /\ pv e = None) /\
        (v < nviews -> good v -> fst r = true) /\
        (forall w, w < v \/ (w = v /\ fst r = false) -> cache (snd r) w = cache s w /\ own_data (snd r) w = own_data s w).

      Lemma good_pv : forall v, good v -> pv v <> None.
      Proof. intros v H. now inversion H. Qed.

      (** The invariant read at one view of the upper part: cached with the value parsed from the file, or untouched. *)
      Lemma Inv_at : forall lo hi s v, Inv lo hi s -> hi <= v -> v < nviews ->
        match cache s v with
        | Some p => R v /\ good v /\ pv v = Some p
        | None => own_data s v = own_data s0 v
        end.
      Proof.
        intros lo hi s v (_ & _ & Hc & _) Hv Hn. destruct (Hc v Hv Hn) as [[-> Ho]|(HR & Hg & ->)]; [exact Ho|].
        pose proof (good_pv v Hg) as Hp. destruct (pv v); [auto | contradiction].
      Qed.

      (** ... and at one view of the lower part: not cached, and its lumps parse to what the file's lumps parse to,
          provided the writer inverts the reader there. *)
      Lemma Inv_below : forall lo hi s v, Inv lo hi s -> v < lo -> (forall p, pv v = Some p -> rd v (wr v p) = Some p) ->
        cache s v = None /\ rd v (own_data s v) = pv v.
      Proof.
        intros lo hi s v (_ & Hb & _) Hv Hcodec. destruct (Hb v Hv) as [Hn [Ho|(_ & p & Hp & Ho)]]; rewrite Ho; split; auto.
        rewrite Hp. auto.
      Qed.

      Lemma Inv_end_fresh : forall s, Inv nviews nviews s -> fresh s.
      Proof.
        intros s (Ha & Hb & _) v. destruct (Nat.lt_ge_cases v nviews) as [Hv|Hv]; [apply Hb, Hv | apply Ha, Hv].
      Qed.

      (** The invariant under the four changes of state: a look caches a view and empties its lumps; save pops the view
          at its position; the writer's data are stored; the except clause puts the popped value back. *)
      Lemma Inv_cache : forall lo hi v p s, lo <= hi -> hi <= v -> v < nviews -> R v -> good v -> pv v = Some p ->
        Inv lo hi s -> Inv lo hi (clear_lumps (own v) (set_cache v (Some p) s)).
      Proof.
        intros lo hi v p s Hlh Hhi Hv HR Hg Hp (Ha & Hb & Hc & Hd). split; [|split; [|split]].
        - intros v' Hv'. cbn [cache LazyLumps.clear_lumps LazyLumps.set_cache]. rewrite upd_neq by lia. auto.
        - intros v' Hv'. rewrite own_data_clear_other by lia.
          cbn [cache LazyLumps.clear_lumps LazyLumps.set_cache]. rewrite upd_neq by lia. exact (Hb v' Hv').
        - intros v' Hv' Hn. destruct (Nat.eq_dec v' v) as [->|Hne].
          + right. cbn [cache LazyLumps.clear_lumps LazyLumps.set_cache]. rewrite upd_eq. now rewrite Hp.
          + rewrite own_data_clear_other by assumption.
            cbn [cache LazyLumps.clear_lumps LazyLumps.set_cache]. rewrite upd_neq by exact Hne. exact (Hc v' Hv' Hn).
        - intros l Hl. cbn [raw LazyLumps.clear_lumps LazyLumps.set_cache]. destruct (mem l (own v)) eqn:E; [|exact (Hd l Hl)].
          exfalso. apply Hl. exists v. split; [exact Hv | now apply mem_In].
      Qed.

      Lemma Inv_pop : forall k s, Inv k k s -> Inv k (S k) (set_cache k None s).
      Proof.
        intros k s (Ha & Hb & Hc & Hd). split; [|split; [|split; [|exact Hd]]]; cbn [cache LazyLumps.set_cache].
        - intros v Hv. destruct (Nat.eq_dec v k) as [->|Hne]; [apply upd_eq | rewrite upd_neq by exact Hne; auto].
        - intros v Hv. rewrite upd_neq by lia. exact (Hb v Hv).
        - intros v Hv Hn. rewrite upd_neq by lia. exact (Hc v ltac:(lia) Hn).
      Qed.

      Lemma Inv_put_back : forall k p s, k < nviews -> R k -> good k -> pv k = Some p ->
        Inv k (S k) s -> Inv k k (set_cache k (Some p) s).
      Proof.
        intros k p s Hk HR Hg Hp (Ha & Hb & Hc & Hd). split; [|split; [|split; [|exact Hd]]]; cbn [cache LazyLumps.set_cache].
        - intros v Hv. rewrite upd_neq by lia. auto.
        - intros v Hv. rewrite upd_neq by lia. exact (Hb v Hv).
        - intros v Hv Hn. destruct (Nat.eq_dec v k) as [->|Hne].
          + right. rewrite upd_eq. now rewrite Hp.
          + rewrite upd_neq by exact Hne. exact (Hc v ltac:(lia) Hn).
      Qed.

      Lemma Inv_skip : forall k s, k < nviews -> Inv k k s -> cache s k = None -> Inv (S k) (S k) s.
      Proof.
        intros k s Hk HI Ec. pose proof (Inv_at k k s k HI (le_n k) Hk) as Hat. rewrite Ec in Hat.
        destruct HI as (Ha & Hb & Hc & Hd). split; [exact Ha|]. split; [|split; [|exact Hd]].
        - intros v Hv. destruct (Nat.eq_dec v k) as [->|Hne]; [auto | apply Hb; lia].
        - intros v Hv Hn. apply Hc; lia.
      Qed.

      Lemma look_all_spec : forall (look : nat -> state -> bool * state) lo hi v ds,
        (forall d s, In d ds -> Inv lo hi s -> get_post lo hi d s (look d s)) ->
        (forall d, In d ds -> v < d /\ d < nviews) ->
        forall s, Inv lo hi s ->
        let r := look_all look ds s in
        Inv lo hi (snd r) /\
        (forall w, w <= v -> cache (snd r) w = cache s w /\ own_data (snd r) w = own_data s w) /\
        (fst r = true -> forall d, In d ds -> good d) /\
        (fst r = false -> exists e, v <= e /\ e < nviews /\ pv e = None) /\
        ((forall d, In d ds -> good d) -> fst r = true).
      Proof.
        intros look lo hi v ds. induction ds as [|d r0 IH]; intros Hlook Hds s HI; cbn [LazyLumps.look_all].
        - cbn [fst snd]. split; [exact HI|]. split; [intros; split; reflexivity|].
          split; [intros _ d []|]. split; [discriminate | reflexivity].
        - destruct (Hds d (or_introl eq_refl)) as [Hvd Hdn].
          destruct (Hlook d s (or_introl eq_refl) HI) as (HI1 & Hok & Hfail & Hgood & Hfr).
          destruct (look d s) as [[] s1]; cbn [fst snd] in *.
          + destruct (IH (fun d' s' Hd' => Hlook d' s' (or_intror Hd')) (fun d' Hd' => Hds d' (or_intror Hd')) s1 HI1)
              as (HI2 & Hfr2 & Hok2 & Hfail2 & Hgood2).
            split; [exact HI2|]. split; [|split; [|split]].
            * intros w Hw. assert (Hwd : w < d) by lia. destruct (Hfr2 w Hw) as [A B], (Hfr w (or_introl Hwd)) as [A' B']. split; congruence.
            * intros Ht d' [<-|Hd']; [exact (proj2 (Hok Hdn eq_refl)) | exact (Hok2 Ht d' Hd')].
            * exact Hfail2.
            * intros Hg. apply Hgood2. intros d' Hd'. apply Hg. now right.
          + split; [exact HI1|]. split; [|split; [|split]].
            * intros w Hw. apply Hfr. left. lia.
            * discriminate.
            * intros _. destruct (Hfail Hdn eq_refl) as (e & He1 & He2). exists e. split; [lia | exact He2].
            * intros Hg. apply (Hgood Hdn). apply Hg. now left.
      Qed.

      (** The two ways a look ends without touching the view: outside the rebuild order, or some reader raised. *)
      Lemma get_post_out : forall lo hi v s, Inv lo hi s -> nviews <= v -> get_post lo hi v s (false, s).
      Proof.
        intros lo hi v s HI Hv. split; [exact HI|]. cbn [fst snd].
        split; [intros; lia|]. split; [intros; lia|]. split; [intros; lia|]. intros; split; reflexivity.
      Qed.

      Lemma get_post_raised : forall lo hi v s s1, Inv lo hi s1 ->
        (forall w, w <= v -> cache s1 w = cache s w /\ own_data s1 w = own_data s w) ->
        (exists e, v <= e /\ e < nviews /\ pv e = None) -> ~ good v -> get_post lo hi v s (false, s1).
      Proof.
        intros lo hi v s s1 HI Hfr He Hng. split; [exact HI|]. cbn [fst snd].
        split; [discriminate|]. split; [intros _ _; exact He|]. split; [intros _ Hg; contradiction|].
        intros w Hw. apply Hfr. lia.
      Qed.

      Lemma get_spec : forall f lo hi v s, lo <= hi -> Inv lo hi s -> hi <= v -> R v -> nviews <= f + v ->
        get_post lo hi v s (getf f v s).
      Proof.
        induction f as [|f IH]; intros lo hi v s Hlh HI Hhi HR Hfuel; cbn [getf LazyLumps.getf].
        - apply get_post_out; [exact HI | lia].
        - destruct (v <? nviews) eqn:Ev; [apply Nat.ltb_lt in Ev | apply Nat.ltb_ge in Ev; now apply get_post_out].
          pose proof (Inv_at lo hi s v HI Hhi Ev) as Hat.
          destruct (cache s v) as [p|] eqn:Ec.
          + (* already cached *)
            destruct Hat as (_ & Hg & Hp). split; [exact HI|]. cbn [fst snd].
            split; [intros _ _; split; [congruence | exact Hg]|]. split; [discriminate|]. split; [reflexivity|].
            intros; split; reflexivity.
          + (* parse *)
            rewrite pre_clear_id.
            assert (Hds : forall d, In d (v_rdeps (decl v)) -> v < d /\ d < nviews).
            { intros d Hd. apply (deps_gt v d Ev), in_or_app. now left. }
            assert (Hlook : forall d s', In d (v_rdeps (decl v)) -> Inv lo hi s' -> get_post lo hi d s' (getf f d s')).
            { intros d s' Hd HI'. destruct (Hds d Hd). apply IH; [exact Hlh | exact HI' | lia | | lia].
              apply (Rclosed v d Ev HR), in_or_app. now left. }
            pose proof (look_all_spec (getf f) lo hi v (v_rdeps (decl v)) Hlook Hds s HI) as Hfold. cbv zeta in Hfold.
            destruct (look_all (getf f) (v_rdeps (decl v)) s) as [b s1]. cbn [fst snd] in *.
            destruct Hfold as (HI1 & Hfr & Hok & Hfail & Hgood).
            destruct (Hfr v (le_n v)) as [Hcv Hov].
            destruct b.
            * rewrite (parse_input_eq s s1 v Hov), Hat. change (rd v (own_data s0 v)) with (pv v).
              destruct (pv v) as [p|] eqn:Epv.
              -- (* the reader succeeds *)
                 assert (Hg : good v) by (constructor; [congruence | exact (Hok eq_refl)]).
                 split; [now apply Inv_cache|]. cbn [fst snd].
                 split; [intros _ _; split; [rewrite Epv; apply upd_eq | exact Hg]|]. split; [discriminate|]. split; [reflexivity|].
                 intros w [Hw|[_ Hw]]; [|discriminate]. destruct (Hfr w ltac:(lia)) as [A B].
                 rewrite own_data_clear_other by lia.
                 cbn [cache LazyLumps.clear_lumps LazyLumps.set_cache]. rewrite upd_neq by lia. split; assumption.
              -- (* the reader raises: nothing cached, nothing cleared *)
                 apply get_post_raised; [exact HI1 | exact Hfr | exists v; auto|].
                 intros Hg. apply good_pv in Hg. congruence.
            * (* a dependency's reader raised *)
              apply get_post_raised; [exact HI1 | exact Hfr | exact (Hfail eq_refl)|].
              intros Hg. specialize (Hgood ltac:(now inversion Hg)). discriminate.
      Qed.

      Lemma inv_fresh : fresh s0 -> Inv 0 0 s0.
      Proof. intros Hf. split; [|split; [|split]]; intros; auto; lia. Qed.

      Lemma run_inv : forall accs s, (forall v, In v accs -> R v) -> Inv 0 0 s -> Inv 0 0 (run accs s).
      Proof.
        induction accs as [|v r IH]; intros s HR HI; cbn [run LazyLumps.run fold_left]; [exact HI|].
        apply IH; [intros; apply HR; now right|].
        exact (proj1 (get_spec nviews 0 0 v s (le_n 0) HI ltac:(lia) (HR v (or_introl eq_refl)) ltac:(lia))).
      Qed.

      (** What the object denotes in a state where the views below [j] have been saved and the others are untouched or
          cached (the writer has to invert the reader only for the views already saved). *)
      Lemma inv_mid_denote : forall j s, Inv j j s ->
        (forall v p, v < j -> v < nviews -> pv v = Some p -> rd v (wr v p) = Some p) ->
        forall v, v < nviews -> denote s v = pv v.
      Proof.
        intros j s HI Hcodec v Hv. unfold LazyLumps.denote. destruct (Nat.lt_ge_cases v j) as [Hlt|Hge].
        - destruct (Inv_below j j s v HI Hlt (fun p => Hcodec v p Hlt Hv)) as [-> Hr]. exact Hr.
        - pose proof (Inv_at j j s v HI Hge Hv) as Hat. destruct (cache s v); [symmetry; apply Hat|].
          unfold pv. now rewrite Hat.
      Qed.

      Lemma inv_denote : forall s v, Inv 0 0 s -> v < nviews -> denote s v = pv v.
      Proof. intros s v HI. apply (inv_mid_denote 0 s HI). intros; lia. Qed.

      Hypothesis wr_len : forall v p, v < nviews -> pv v = Some p -> length (wr v p) = length (own v).

      Lemma store_sel_other : forall ws ls ds r l, ~ In l ls -> store_sel D ws ls ds r l = r l.
      Proof.
        induction ls as [|a ls IH]; intros ds r l Hl; destruct ds as [|d ds]; cbn [store_sel]; try reflexivity.
        rewrite IH by (intros H; apply Hl; now right).
        destruct (mem a ws); [|reflexivity]. apply upd_neq. intros ->. apply Hl. now left.
      Qed.

      Lemma store_sel_own : forall ws ls ds r, NoDup ls -> length ds = length ls ->
        (forall l, In l ls -> mem l ws = true) -> map (store_sel D ws ls ds r) ls = ds.
      Proof.
        induction ls as [|a ls IH]; intros ds r Hnd Hlen Hws; destruct ds as [|d ds]; cbn [length] in Hlen; try discriminate; [reflexivity|].
        cbn [store_sel map]. inversion Hnd as [|? ? Hna Hnd']; subst.
        rewrite (Hws a (or_introl eq_refl)). f_equal.
        - rewrite store_sel_other by exact Hna. apply upd_eq.
        - apply IH; [exact Hnd' | lia | intros; apply Hws; now right].
      Qed.

      Lemma Inv_store : forall k p s, k < nviews -> R k -> pv k = Some p -> cache s k = None -> Inv k (S k) s ->
        Inv (S k) (S k) (mkS (store_sel D (v_wstore (decl k)) (own k) (wr k p) (raw s)) (cache s)).
      Proof.
        intros k p s Hk HR Hp Ec (Ha & Hb & Hc & Hd).
        destruct (oc_at k Hk) as (_ & Hst & Hnd & _). unfold owns_stored in Hst. rewrite forallb_forall in Hst.
        assert (Hother : forall w, w <> k ->
                  own_data (mkS (store_sel D (v_wstore (decl k)) (own k) (wr k p) (raw s)) (cache s)) w = own_data s w).
        { intros w Hne. unfold LazyLumps.own_data. cbn [raw]. apply map_ext_in. intros l Hl. apply store_sel_other.
          exact (own_other k w l Hk Hne Hl). }
        split; [exact Ha|]. split; [|split].
        - intros v Hv. destruct (Nat.eq_dec v k) as [->|Hne].
          + split; [exact Ec|]. right. split; [exact HR|]. exists p. split; [exact Hp|]. unfold LazyLumps.own_data at 1. cbn [raw].
            apply store_sel_own; [now apply nodupb_NoDup | exact (wr_len k p Hk Hp) | exact Hst].
          + rewrite (Hother v Hne). apply Hb. lia.
        - intros v Hv Hn. rewrite (Hother v ltac:(lia)). exact (Hc v Hv Hn).
        - intros l Hl. cbn [raw]. rewrite store_sel_other; [exact (Hd l Hl)|].
          intros Hin. apply Hl. exists k. split; assumption.
      Qed.

      (** Every view a writer looks at can be parsed whenever the writer's own view could. *)
      Definition WG : Prop := forall v d, v < nviews -> good v -> In d (v_wdeps (decl v)) -> good d.

      (** The first half of an iteration of the save loop at a cached view: the view is popped, its writer looks at its
          dependencies (all later in the rebuild order, so the popped view stays out of the cache). *)
      Lemma writer_looks_spec : forall k p s, k < nviews -> Inv k k s -> cache s k = Some p ->
        let r := look_all get (v_wdeps (decl k)) (set_cache k None s) in
        (R k /\ good k /\ pv k = Some p) /\ mem k (v_wdeps (decl k)) = false /\
        Inv k (S k) (snd r) /\ cache (snd r) k = None /\ (WG -> fst r = true).
      Proof.
        intros k p s Hk HI Ec. pose proof (Inv_at k k s k HI (le_n k) Hk) as Hat. rewrite Ec in Hat.
        assert (Hwd : forall d, In d (v_wdeps (decl k)) -> k < d /\ d < nviews).
        { intros d Hd. apply (deps_gt k d Hk), in_or_app. now right. }
        assert (Hlook : forall d s', In d (v_wdeps (decl k)) -> Inv k (S k) s' -> get_post k (S k) d s' (get d s')).
        { intros d s' Hd HI'. destruct (Hwd d Hd). apply get_spec; [lia | exact HI' | lia | | lia].
          apply (Rclosed k d Hk (proj1 Hat)), in_or_app. now right. }
        pose proof (look_all_spec get k (S k) k (v_wdeps (decl k)) Hlook Hwd _ (Inv_pop k s HI)) as Hfold.
        cbv zeta in Hfold |- *. destruct Hfold as (HI2 & Hfr & _ & _ & Hgood).
        split; [exact Hat|]. split; [|split; [exact HI2|split]].
        - apply mem_false. intros Hin. destruct (Hwd k Hin). lia.
        - rewrite (proj1 (Hfr k (le_n k))). apply upd_eq.
        - intros Hwg. apply Hgood. intros d Hd. exact (Hwg k d Hk (proj1 (proj2 Hat)) Hd).
      Qed.

      (** One iteration of the save loop, with or without the except clause: a step that completes moves the invariant
          one position on; with the clause, a step that raises leaves the invariant of its own position intact (the
          popped view is cached again, the views looked at meanwhile are cached, nothing else moved). *)
      Lemma save_step_a_inv : forall b k acc, k < nviews -> (fst acc = true -> Inv k k (snd acc)) ->
        (fst (save_step_a b acc k) = true -> Inv (S k) (S k) (snd (save_step_a b acc k))) /\
        (fst acc = true -> fst (save_step_a b acc k) = false -> b = true -> Inv k k (snd (save_step_a b acc k))) /\
        (fst acc = true -> WG -> fst (save_step_a b acc k) = true).
      Proof.
        intros b k [[] s] Hk HI; unfold LazyLumps.save_step_a; cbn [fst snd] in *;
          [|split; [|split]; intros; discriminate].
        specialize (HI eq_refl). destruct (cache s k) as [p|] eqn:Ec; cbn [fst snd].
        2:{ split; [intros _; now apply Inv_skip|]. split; [discriminate | reflexivity]. }
        pose proof (writer_looks_spec k p s Hk HI Ec) as H. cbv zeta in H.
        destruct H as ((HRk & Hgk & Hpk) & -> & HI2 & Hck & Hgo).
        destruct (look_all get (v_wdeps (decl k)) (set_cache k None s)) as [[] s2]; cbn [fst snd] in *.
        - split; [intros _; now apply Inv_store|]. split; [discriminate | reflexivity].
        - split; [discriminate|]. split; [intros _ _ ->; now apply Inv_put_back | intros _; exact Hgo].
      Qed.

      Lemma save_step_inv : forall k acc, k < nviews -> (fst acc = true -> Inv k k (snd acc)) ->
        let r := save_step acc k in
        (fst r = true -> Inv (S k) (S k) (snd r)) /\ (fst acc = true -> WG -> fst r = true).
      Proof.
        intros k acc Hk HI. destruct (save_step_a_inv false k acc Hk HI) as (A & _ & B).
        rewrite (proj2 (save_step_a_flag false acc k) (or_introl eq_refl)) in A, B. exact (conj A B).
      Qed.

      Lemma save_inv : forall s, Inv 0 0 s ->
        (fst (save s) = true -> Inv nviews nviews (snd (save s))) /\ (WG -> fst (save s) = true).
      Proof.
        intros s HI. unfold LazyLumps.save. rewrite save_todo_std.
        apply (fold_seq_inv _ save_step (fun k acc => (fst acc = true -> Inv k k (snd acc)) /\ (WG -> fst acc = true)) nviews)
          with (k := 0); [|reflexivity | split; [intros _; exact HI | reflexivity]].
        intros k acc Hk [H1 H2]. destruct (save_step_inv k acc Hk H1) as [A B]. split; [exact A | auto].
      Qed.

      (** A save with the except clause, completed or aborted, ends in the invariant of the position it reached. *)
      Lemma save_a_inv : forall s, Inv 0 0 s -> exists j, Inv j j (snd (save_a true s)).
      Proof.
        intros s HI. unfold LazyLumps.save_a. rewrite save_todo_std.
        set (I := fun k (acc : bool * state) => if fst acc then Inv k k (snd acc) else exists j, Inv j j (snd acc)).
        assert (H : I nviews (fold_left (save_step_a true) (seq 0 nviews) (true, s))).
        { apply (fold_seq_inv _ _ I nviews) with (k := 0); [|reflexivity | exact HI].
          intros k [[] s1] Hk Hs; [|exact Hs].
          destruct (save_step_a_inv true k (true, s1) Hk (fun _ => Hs)) as (A & B & _). unfold I.
          destruct (fst (save_step_a true (true, s1) k)); [auto | exists k; auto]. }
        unfold I in H. destruct (fst _); [exists nviews; exact H | exact H].
      Qed.
    End Run.

    (** The writer inverts the reader on whatever the reader makes of the file's lumps (property C11). *)
    Definition codec_ok (s0 : state) : Prop :=
      forall v p, v < nviews -> rd v (own_data s0 v) = Some p -> rd v (wr v p) = Some p.
    Definition same_content (s s0 : state) : Prop :=
      (forall v, v < nviews -> rd v (own_data s v) = rd v (own_data s0 v)) /\
      (forall l, ~ owned l -> raw s l = raw s0 l).
    (** The writer returns one datum per owned lump (on the values parsed from this file). *)
    Definition wr_len_ok (s0 : state) : Prop :=
      forall v p, v < nviews -> rd v (own_data s0 v) = Some p -> length (wr v p) = length (own v).
    (** Whenever a view can be looked at, so can every view its writer looks at (otherwise save raises). *)
    Definition writers_can_look (s0 : state) : Prop := WG s0.

    Lemma writers_can_look_from_graph : wdeps_within_rdeps g = true -> forall s0, writers_can_look s0.
    Proof.
      intros H s0 v d Hv Hg Hd. unfold wdeps_within_rdeps in H. rewrite forallb_forall in H.
      specialize (H v). rewrite in_seq in H. specialize (H ltac:(lia)). rewrite forallb_forall in H.
      specialize (H d Hd). apply mem_In in H. inversion Hg as [? _ Hall]. exact (Hall d H).
    Qed.

    Lemma closed_all : forall v d, v < nviews -> True -> In d (v_rdeps (decl v) ++ v_wdeps (decl v)) -> True.
    Proof. auto. Qed.

    Lemma inv_run_all : forall s0 accs, fresh s0 -> Inv s0 (fun _ => True) 0 0 (run accs s0).
    Proof.
      intros s0 accs Hf. apply (run_inv s0 (fun _ => True) closed_all); [intros; exact I | now apply inv_fresh].
    Qed.

    (** After a save that completed nothing is cached, every view's lumps parse to what the file's lumps parse to, and the
        lumps without a view are the file's. *)
    Lemma Inv_end_lossless : forall s0 R s, codec_ok s0 -> Inv s0 R nviews nviews s -> fresh s /\ same_content s s0.
    Proof.
      intros s0 R s Hcodec HI. split; [exact (Inv_end_fresh s0 R s HI)|]. split; [|exact (proj2 (proj2 (proj2 HI)))].
      intros v Hv. exact (proj2 (Inv_below s0 R nviews nviews s v HI Hv (fun p => Hcodec v p Hv))).
    Qed.

    Lemma get_post_run : forall s0 accs v, fresh s0 ->
      get_post s0 (fun _ => True) 0 0 v (run accs s0) (get v (run accs s0)).
    Proof.
      intros s0 accs v Hf. apply (get_spec s0 (fun _ => True) closed_all); [lia | now apply inv_run_all | lia | exact I | lia].
    Qed.

    (** A look that raises changes nothing the property can observe: the view is still not cached, none of its
        lumps was touched, every view still denotes what it denoted, lumps without a view are untouched. *)
    Theorem failed_get_is_identity : forall s0 accs v, fresh s0 -> v < nviews ->
      let s := run accs s0 in let r := get v s in fst r = false ->
      cache (snd r) v = None /\ (forall l, In l (own v) -> raw (snd r) l = raw s l) /\
      (forall w, w < nviews -> denote (snd r) w = denote s w) /\
      (forall l, ~ owned l -> raw (snd r) l = raw s l).
    Proof.
      intros s0 accs v Hf Hv s r Hff.
      assert (HIs : Inv s0 (fun _ => True) 0 0 s) by now apply inv_run_all.
      destruct (get_post_run s0 accs v Hf) as (HI & _ & _ & Hgood & Hfr). fold s in HI, Hgood, Hfr. fold r in HI, Hgood, Hfr.
      destruct (Hfr v (or_intror (conj eq_refl Hff))) as [Hc Ho].
      split; [|split; [|split]].
      - rewrite Hc. pose proof (Inv_at s0 _ 0 0 s v HIs ltac:(lia) Hv) as Hat. destruct (cache s v); [|reflexivity].
        rewrite (Hgood Hv (proj1 (proj2 Hat))) in Hff. discriminate.
      - intros l Hl. exact (map_eq_pointwise _ _ _ Ho l Hl).
      - intros w Hw. rewrite (inv_denote s0 _ _ w HI Hw). now rewrite (inv_denote s0 _ _ w HIs Hw).
      - intros l Hl. destruct HI as (_ & _ & _ & Hd). destruct HIs as (_ & _ & _ & Hd'). now rewrite Hd, Hd'.
    Qed.

    Theorem view_look_preserves : forall s0 accs, fresh s0 ->
      let s := run accs s0 in
      (forall v, v < nviews -> denote s v = denote s0 v) /\ (forall l, ~ owned l -> raw s l = raw s0 l).
    Proof.
      intros s0 accs Hf s.
      assert (HI : Inv s0 (fun _ => True) 0 0 s) by now apply inv_run_all.
      split.
      - intros v Hv. rewrite (inv_denote s0 _ s v HI Hv). unfold LazyLumps.denote. now rewrite (Hf v).
      - destruct HI as (_ & _ & _ & Hd). exact Hd.
    Qed.

    Lemma save_inv_all : forall s0 accs, fresh s0 -> wr_len_ok s0 ->
      let r := save (run accs s0) in
      (fst r = true -> Inv s0 (fun _ => True) nviews nviews (snd r)) /\ (writers_can_look s0 -> fst r = true).
    Proof.
      intros s0 accs Hf Hlen. apply (save_inv s0 (fun _ => True) closed_all Hlen). now apply inv_run_all.
    Qed.

    (** Main statement, over access sequences that may contain looks that raise. *)
    Theorem save_lossless : forall s0 accs, fresh s0 -> wr_len_ok s0 -> codec_ok s0 ->
      let r := save (run accs s0) in
      (fst r = true -> fresh (snd r) /\ same_content (snd r) s0) /\ (writers_can_look s0 -> fst r = true).
    Proof.
      intros s0 accs Hf Hlen Hcodec r.
      destruct (save_inv_all s0 accs Hf Hlen) as [H1 H2]. fold r in H1, H2. split; [|exact H2].
      intros Ht. exact (Inv_end_lossless s0 _ _ Hcodec (H1 Ht)).
    Qed.

    (** Byte identity for every lump whose view is outside a dependency-closed set containing the accesses. *)
    Theorem save_untouched_exact : forall s0 accs (R : nat -> Prop), fresh s0 -> wr_len_ok s0 ->
      (forall v d, v < nviews -> R v -> In d (v_rdeps (decl v) ++ v_wdeps (decl v)) -> R d) ->
      (forall v, In v accs -> R v) ->
      let r := save (run accs s0) in fst r = true ->
      forall v l, v < nviews -> ~ R v -> In l (own v) -> raw (snd r) l = raw s0 l.
    Proof.
      intros s0 accs R Hf Hlen Hcl Hacc r Ht v l Hv HnR Hl.
      assert (HI : Inv s0 R nviews nviews (snd r)).
      { apply (save_inv s0 R Hcl Hlen); [|exact Ht]. apply (run_inv s0 R Hcl); [exact Hacc | now apply inv_fresh]. }
      destruct HI as (_ & Hb & _ & _). destruct (Hb v Hv) as [_ [Ho|[HR _]]]; [|contradiction].
      exact (map_eq_pointwise _ _ _ Ho l Hl).
    Qed.

    (** Look/save cycles; a cycle whose save raised leaves the rest of the history unexamined (flag false). *)
    Definition run_cycles (cs : list (list nat)) (s : state) : bool * state :=
      fold_left (fun (acc : bool * state) accs => if fst acc then save (run accs (snd acc)) else acc) cs (true, s).

    Lemma fresh_same_hyps : forall s s0, same_content s s0 -> wr_len_ok s0 -> codec_ok s0 -> wr_len_ok s /\ codec_ok s.
    Proof.
      intros s s0 (Hp & _) Hlen Hcodec. split.
      - intros v p Hv Hr. rewrite (Hp v Hv) in Hr. exact (Hlen v p Hv Hr).
      - intros v p Hv Hr. rewrite (Hp v Hv) in Hr. exact (Hcodec v p Hv Hr).
    Qed.

    Lemma same_content_trans : forall s1 s2 s3, same_content s1 s2 -> same_content s2 s3 -> same_content s1 s3.
    Proof.
      intros s1 s2 s3 [A B] [A' B']. split; [intros v Hv; rewrite (A v Hv) | intros l Hl; rewrite (B l Hl)]; auto.
    Qed.

    (** A state with the same lumps, and nothing cached where the other has nothing cached, is lossless with it. *)
    Lemma lossless_ext : forall s' s s0, (forall l, raw s' l = raw s l) -> (forall v, cache s v = None -> cache s' v = None) ->
      fresh s /\ same_content s s0 -> fresh s' /\ same_content s' s0.
    Proof.
      intros s' s s0 Er Ec [Afr [Av Au]]. split; [|split].
      - intros v. apply Ec, Afr.
      - intros v Hv. rewrite <- (Av v Hv). f_equal. unfold LazyLumps.own_data. apply map_ext. intros l. apply Er.
      - intros l Hl. rewrite Er. apply Au, Hl.
    Qed.

    (** Repeated read / look / save cycles. *)
    Theorem cycles_lossless : forall cs s0, fresh s0 -> wr_len_ok s0 -> codec_ok s0 ->
      let r := run_cycles cs s0 in fst r = true -> fresh (snd r) /\ same_content (snd r) s0.
    Proof.
      intros cs s0 Hf Hlen Hcodec. cbv zeta. unfold run_cycles.
      assert (G : forall acc, (fst acc = true -> fresh (snd acc) /\ same_content (snd acc) s0) ->
                  let r := fold_left (fun (acc : bool * state) accs => if fst acc then save (run accs (snd acc)) else acc) cs acc in
                  fst r = true -> fresh (snd r) /\ same_content (snd r) s0).
      { induction cs as [|accs r IH]; intros acc Hs; cbn [fold_left]; [exact Hs|].
        apply IH. destruct acc as [[] s]; cbn [fst snd] in *; [|exact Hs].
        destruct (Hs eq_refl) as (Hfs & Hsc). destruct (fresh_same_hyps s s0 Hsc Hlen Hcodec) as [Hls Hcs].
        intros Ht. destruct (proj1 (save_lossless s accs Hfs Hls Hcs) Ht) as (Hf' & Hsc').
        split; [exact Hf' | exact (same_content_trans _ _ _ Hsc' Hsc)]. }
      apply G. cbn [fst snd]. intros _. split; [exact Hf|]. split; auto.
    Qed.

    (** Saving again changes nothing: after a save nothing is cached, so the next save is the identity. *)
    Theorem save_idempotent : forall s0 accs, fresh s0 -> wr_len_ok s0 ->
      let r := save (run accs s0) in fst r = true -> save (snd r) = (true, snd r).
    Proof.
      intros s0 accs Hf Hlen r Ht. apply save_fresh_id.
      exact (Inv_end_fresh s0 _ _ (proj1 (save_inv_all s0 accs Hf Hlen) Ht)).
    Qed.

    (** After a save that may have raised half-way (with the except clause that puts the popped view back), ANY further
        looks and a save that completes are lossless with respect to the original file.  The state after the aborted save
        is an ordinary "looked-at" state of another file [ref_after]: the lumps of the views still cached are those of the
        original, every other lump is what the object holds now (rewritten by the writers that already ran). *)
    Definition cached_owner (s : state) (l : nat) : bool :=
      existsb (fun v => is_cached D P s v && mem l (own v)) (seq 0 nviews).
    Definition ref_after (s0 s : state) : state :=
      mkS (fun l => if cached_owner s l then raw s0 l else raw s l) (fun _ => None).

    Lemma cached_owner_own : forall (s : state) v l, v < nviews -> In l (own v) -> cached_owner s l = is_cached D P s v.
    Proof.
      intros s v l Hv Hl. unfold cached_owner. destruct (is_cached D P s v) eqn:E.
      - apply existsb_exists. exists v. split; [apply in_seq; lia|]. rewrite E. cbn [andb]. now apply mem_In.
      - destruct (existsb _ _) eqn:Ex; [|reflexivity]. apply existsb_exists in Ex. destruct Ex as (w & Hw & Hb).
        apply andb_prop in Hb. destruct Hb as [Hc Hm]. apply mem_In in Hm.
        destruct (Nat.eq_dec w v) as [->|Hne]; [congruence|]. destruct (own_other v w l Hv Hne Hm Hl).
    Qed.

    Lemma ref_after_own_data : forall (s0 s : state) v, v < nviews ->
      own_data (ref_after s0 s) v = if is_cached D P s v then own_data s0 v else own_data s v.
    Proof.
      intros s0 s v Hv. unfold LazyLumps.own_data at 1. cbn [raw ref_after].
      destruct (is_cached D P s v) eqn:E; unfold LazyLumps.own_data; apply map_ext_in; intros l Hl;
        rewrite (cached_owner_own s v l Hv Hl), E; reflexivity.
    Qed.

    Lemma ref_after_unowned : forall (s0 s : state) l, ~ owned l -> raw (ref_after s0 s) l = raw s l.
    Proof.
      intros s0 s l Hl. cbn [raw ref_after]. destruct (cached_owner s l) eqn:E; [|reflexivity].
      exfalso. apply Hl. unfold cached_owner in E. apply existsb_exists in E. destruct E as (w & Hw & Hb).
      apply in_seq in Hw. apply andb_prop in Hb. destruct Hb as [_ Hm]. apply mem_In in Hm. exists w. split; [lia | exact Hm].
    Qed.

    Lemma ref_after_pv : forall (s0 s : state) j, codec_ok s0 -> Inv s0 (fun _ => True) j j s ->
      forall v, v < nviews -> pv (ref_after s0 s) v = pv s0 v.
    Proof.
      intros s0 s j Hcodec HI v Hv. unfold pv at 1. rewrite (ref_after_own_data s0 s v Hv). unfold LazyLumps.is_cached.
      pose proof (inv_mid_denote s0 _ j s HI (fun w p _ => Hcodec w p) v Hv) as Hd. unfold LazyLumps.denote in Hd.
      destruct (cache s v); [reflexivity | exact Hd].
    Qed.

    Lemma ref_after_good : forall (s0 s : state) j, codec_ok s0 -> Inv s0 (fun _ => True) j j s ->
      forall v, v < nviews -> good s0 v -> good (ref_after s0 s) v.
    Proof.
      intros s0 s j Hcodec HI v Hv Hg. revert Hv. induction Hg as [v Hp Hd IH]. intros Hv. constructor.
      - rewrite (ref_after_pv s0 s j Hcodec HI v Hv). exact Hp.
      - intros d Hin. apply IH; [exact Hin|]. apply (deps_gt v d Hv). apply in_or_app. now left.
    Qed.

    Lemma ref_after_inv : forall (s0 s : state) j, codec_ok s0 -> Inv s0 (fun _ => True) j j s ->
      Inv (ref_after s0 s) (fun _ => True) 0 0 s.
    Proof.
      intros s0 s j Hcodec HI. pose proof HI as (Ha & Hb & _ & _). split; [exact Ha|]. split; [intros v Hv; lia|]. split.
      - intros v _ Hv. rewrite (ref_after_own_data s0 s v Hv), (ref_after_pv s0 s j Hcodec HI v Hv). unfold LazyLumps.is_cached.
        destruct (Nat.lt_ge_cases v j) as [Hlt|Hge].
        + destruct (Hb v Hlt) as [-> _]. left. split; reflexivity.
        + pose proof (Inv_at s0 _ j j s v HI Hge Hv) as Hat. destruct (cache s v); [right | left; split; reflexivity].
          destruct Hat as (_ & Hg & ->). split; [exact I|]. split; [exact (ref_after_good s0 s j Hcodec HI v Hv Hg) | reflexivity].
      - intros l Hl. now rewrite ref_after_unowned.
    Qed.

    Theorem retry_after_aborted_save_lossless : forall s0 accs accs2, fresh s0 -> wr_len_ok s0 -> codec_ok s0 ->
      let r := save_a true (run accs s0) in
      let r2 := save_a true (run accs2 (snd r)) in
      fst r2 = true -> fresh (snd r2) /\ same_content (snd r2) s0.
    Proof.
      intros s0 accs accs2 Hf Hlen Hcodec r r2 Ht.
      destruct (save_a_inv s0 (fun _ => True) closed_all Hlen (run accs s0) (inv_run_all s0 accs Hf)) as (j & HI).
      fold r in HI. set (s1 := ref_after s0 (snd r)).
      assert (Hsame : same_content s1 s0).
      { split; [exact (ref_after_pv s0 (snd r) j Hcodec HI)|].
        intros l Hl. unfold s1. rewrite ref_after_unowned by exact Hl. exact (proj2 (proj2 (proj2 HI)) l Hl). }
      destruct (fresh_same_hyps s1 s0 Hsame Hlen Hcodec) as [Hlen1 Hcodec1].
      assert (HI1 : Inv s1 (fun _ => True) 0 0 (run accs2 (snd r))).
      { apply (run_inv s1 (fun _ => True) closed_all); [intros; exact I | exact (ref_after_inv s0 (snd r) j Hcodec HI)]. }
      destruct (save_a_summary true (run accs2 (snd r))) as (Hfl & Heq & _). fold r2 in Hfl, Heq.
      rewrite Hfl in Ht. rewrite (Heq Ht).
      destruct (Inv_end_lossless s1 _ _ Hcodec1 (proj1 (save_inv s1 (fun _ => True) closed_all Hlen1 _ HI1) Ht)) as [Hfr Hsc].
      split; [exact Hfr | exact (same_content_trans _ _ _ Hsc Hsame)].
    Qed.
  End Consistent.
End Proofs.

(** Data are numbers (0 = b''), parsed values are the list of data; the writer is the identity, the reader is
    the identity except that it raises on a lump that starts with the datum 99 ("malformed"). *)
Definition ex_rd (v : nat) (ds : list nat) : option (list nat) :=
  match ds with 99 :: _ => None | _ => Some ds end.
Definition ex_wr (v : nat) (p : list nat) : list nat := p.
Definition ex_s0 : state nat (list nat) := mkS (fun l => S l) (fun _ => None).
(** The same file with lump 2 malformed. *)
Definition ex_bad : state nat (list nat) := mkS (fun l => if Nat.eqb l 2 then 99 else S l) (fun _ => None).
Notation ex_get g sh := (get nat (list nat) 0 ex_rd g sh).
Notation ex_run g sh := (run nat (list nat) 0 ex_rd g sh).
Notation ex_save g sh := (save nat (list nat) 0 ex_rd ex_wr g sh).

(** The hypotheses of the theorems are satisfiable: a consistent graph with reader and writer dependencies. *)
Definition g_ok : graph :=
  [ mkV [0] [1; 2] [2] [0]; mkV [1; 5] [2] [] [1; 5]; mkV [2; 3] [] [] [2; 3; 9] ].
Example g_ok_consistent : order_consistent g_ok = true.
Proof. vm_compute. reflexivity. Qed.
Example ex_hyps : fresh nat (list nat) ex_s0 /\ wr_len_ok nat (list nat) ex_rd ex_wr g_ok ex_s0 /\
  codec_ok nat (list nat) ex_rd ex_wr g_ok ex_s0 /\ writers_can_look nat (list nat) ex_rd g_ok ex_s0.
Proof.
  split; [intros v; reflexivity|]. split; [|split]; [| | exact (writers_can_look_from_graph nat (list nat) ex_rd g_ok eq_refl ex_s0)].
  all: intros v p Hv Hr; destruct v as [|[|[|v]]]; cbn in Hv; try lia; vm_compute in Hr; injection Hr as <-; reflexivity.
Qed.
Example g_ok_run : let r := ex_save g_ok std_shape (ex_run g_ok std_shape [0] ex_s0) in
  fst r = true /\ map (raw (snd r)) [0; 1; 2; 3; 4; 5] = [1; 2; 3; 4; 5; 6] /\ map (cache (snd r)) [0; 1; 2] = [None; None; None].
Proof. vm_compute. repeat split; reflexivity. Qed.
(** ... and they do not exclude looks that raise: on [ex_bad] looking at view 0 looks at view 1 (cached, lumps 1 and 5
    cleared), then at view 2 whose reader raises; view 0 is not cached, lumps 0, 2, 3 are untouched, and save
    writes everything back. *)
Definition g_part : graph := [ mkV [0] [1; 2] [] [0]; mkV [1; 5] [] [] [1; 5]; mkV [2; 3] [] [] [2; 3] ].
Example g_part_failing_look :
  let q := ex_get g_part std_shape 0 ex_bad in let r := ex_save g_part std_shape (snd q) in
  order_consistent g_part = true /\
  fst q = false /\ map (cache (snd q)) [0; 1; 2] = [None; Some [2; 6]; None] /\
  map (raw (snd q)) [0; 1; 2; 3; 5] = [1; 0; 99; 4; 0] /\
  fst r = true /\ map (raw (snd r)) [0; 1; 2; 3; 5] = [1; 2; 99; 4; 6] /\ map (cache (snd r)) [0; 1; 2] = [None; None; None].
Proof. vm_compute. repeat split; reflexivity. Qed.

(** Known defect #16 as a graph: a writer that looks at its own view (after it was popped). Looking at the
    view and saving empties the lump and leaves a stale cache entry. *)
Definition g_self : graph := [ mkV [0] [] [0] [0] ].
Example self_dependent_writer_refuted :
  let r := ex_save g_self std_shape (ex_run g_self std_shape [0] ex_s0) in
  order_consistent g_self = false /\ raw ex_s0 0 = 1 /\ fst r = true /\ raw (snd r) 0 = 0 /\ cache (snd r) 0 = Some [0].
Proof. vm_compute. repeat split; reflexivity. Qed.

(** A writer that looks at a view placed EARLIER in the rebuild order: that view is parsed after its turn,
    its lump stays cleared and the cache is not empty after save. *)
Definition g_order : graph := [ mkV [0] [] [] [0]; mkV [1] [] [0] [1] ].
Example rebuild_order_refuted :
  let r := ex_save g_order std_shape (ex_run g_order std_shape [1] ex_s0) in
  order_consistent g_order = false /\ raw ex_s0 0 = 1 /\ fst r = true /\ raw (snd r) 0 = 0 /\ cache (snd r) 0 = Some [1].
Proof. vm_compute. repeat split; reflexivity. Qed.

(** A lump that is cleared by the view but not stored by its writer is lost. *)
Definition g_unstored : graph := [ mkV [0; 1] [] [] [0] ].
Example cleared_lump_not_rewritten_refuted :
  let r := ex_save g_unstored std_shape (ex_run g_unstored std_shape [0] ex_s0) in
  order_consistent g_unstored = false /\ raw ex_s0 1 = 2 /\ fst r = true /\ raw (snd r) 1 = 0.
Proof. vm_compute. repeat split; reflexivity. Qed.

(** Two views sharing a lump: the second parse sees the cleared lump. *)
Definition g_shared : graph := [ mkV [0; 7] [] [] [0; 7]; mkV [1; 7] [] [] [1; 7] ].
Example shared_lump_refuted :
  let r := ex_save g_shared std_shape (ex_run g_shared std_shape [0; 1] ex_s0) in
  order_consistent g_shared = false /\ raw ex_s0 7 = 8 /\ fst r = true /\ raw (snd r) 7 = 0.
Proof. vm_compute. repeat split; reflexivity. Qed.

(** Each flag of [shape] is harmful on a perfectly consistent graph. *)
(** __get__ empties the main lump before the reader has run: a look that raises loses the lump (nothing is
    cached, so save has nothing to write back). *)
Definition g_one : graph := [ mkV [2; 3] [] [] [2; 3] ].
Example clear_before_parse_refuted :
  let sh := mkShape true false false in
  let q := ex_get g_one sh 0 ex_bad in let r := ex_save g_one sh (snd q) in
  order_consistent g_one = true /\ shape_ok sh = false /\ raw ex_bad 2 = 99 /\
  fst q = false /\ cache (snd q) 0 = None /\ fst r = true /\ raw (snd r) 2 = 0 /\ raw (snd r) 3 = 4.
Proof. vm_compute. repeat split; reflexivity. Qed.
(** The same for the extra lumps (here the reader sees the emptied extra lump, accepts it, and the lump's
    content is lost although nothing raised: the parsed value is [99 is absent; 0]). *)
Example clear_extra_before_parse_refuted :
  let sh := mkShape false true false in
  let r := ex_save g_one sh (ex_run g_one sh [0] ex_s0) in
  order_consistent g_one = true /\ shape_ok sh = false /\ raw ex_s0 3 = 4 /\ fst r = true /\ raw (snd r) 3 = 0.
Proof. vm_compute. repeat split; reflexivity. Qed.
(** save walks a snapshot of the views that were cached when it started: a view first parsed by a writer during
    the walk is never written, its lump stays empty and it stays in the cache. *)
Definition g_wdep : graph := [ mkV [0] [] [1] [0]; mkV [1] [] [] [1] ].
Example snapshot_save_refuted :
  let sh := mkShape false false true in
  let r := ex_save g_wdep sh (ex_run g_wdep sh [0] ex_s0) in
  order_consistent g_wdep = true /\ shape_ok sh = false /\ raw ex_s0 1 = 2 /\
  fst r = true /\ raw (snd r) 1 = 0 /\ cache (snd r) 1 = Some [2] /\
  raw (snd (ex_save g_wdep std_shape (ex_run g_wdep std_shape [0] ex_s0))) 1 = 2.
Proof. vm_compute. repeat split; reflexivity. Qed.

(** BSP.save without the except clause (the tree before the fix): the writer of view 0 looks at view 1, whose
    lumps are malformed ([ex_bad]); the reader of view 0 does not.  Looking at view 0 succeeds (lump 0 is cleared, the value
    cached); save pops view 0, its writer raises, the popped value is gone; the caller carries on and saves again: that save
    completes and lump 0 is written empty.  With the except clause the view is cached again, the second save raises like
    the first and the object still denotes the file's content. *)
Definition g_wabort : graph := [ mkV [0] [] [1] [0]; mkV [2; 3] [] [] [2; 3] ].
Notation ex_save_a g sh b := (save_a nat (list nat) 0 ex_rd ex_wr g sh b).
Example aborted_save_drops_view_refuted :
  let s := ex_run g_wabort std_shape [0] ex_bad in
  let r := ex_save_a g_wabort std_shape false s in let r2 := ex_save_a g_wabort std_shape false (snd r) in
  let q := ex_save_a g_wabort std_shape true s in let q2 := ex_save_a g_wabort std_shape true (snd q) in
  order_consistent g_wabort = true /\ raw ex_bad 0 = 1 /\ cache s 0 = Some [1] /\
  fst r = false /\ cache (snd r) 0 = None /\ raw (snd r) 0 = 0 /\ fst r2 = true /\ raw (snd r2) 0 = 0 /\
  fst q = false /\ cache (snd q) 0 = Some [1] /\ fst q2 = false /\ cache (snd q2) 0 = Some [1].
Proof. vm_compute. repeat split; reflexivity. Qed.
