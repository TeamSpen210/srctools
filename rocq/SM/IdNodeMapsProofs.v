From stdpp Require Import gmap.
From SV Require Import SM.IdMan SM.IdManProofs SM.IdNode SM.IdNodeProofs SM.IdNodeMaps.
Open Scope Z_scope.

(** Every map's node world satisfies the single-map invariant. *)
Definition MInv (w : mworld) : Prop := ∀ m, NInv (mmap w m).

Lemma nw0_inv : NInv nw0.
Proof. apply held_init. Qed.

Lemma mw0_inv : MInv mw0.
Proof. intros m. unfold mmap. simpl. rewrite lookup_empty. apply nw0_inv. Qed.

Lemma mmap_insert ms d m w' m' :
  mmap {| mmaps := <[m := w']> ms; mdir := d |} m' = if decide (m' = m) then w' else default nw0 (ms !! m').
Proof.
  unfold mmap. simpl. destruct (decide (m' = m)) as [->|Hn]; [by rewrite lookup_insert|by rewrite lookup_insert_ne].
Qed.

Lemma minv_insert w m w' d : MInv w → NInv w' → MInv {| mmaps := <[m := w']> (mmaps w); mdir := d |}.
Proof. intros H H' m'. rewrite mmap_insert. destruct (decide (m' = m)); [done|apply H]. Qed.

Section proofs.
  Variables ra rd : bool.
  Notation mstep_ok := (mstep ra false rd true).

  Lemma mlocal_inv w m e : MInv w → MInv (mlocal ra false rd true w m e).
  Proof. intros H. apply minv_insert; [done|]. apply nstep_inv, H. Qed.

  Lemma mcopy_inv w k m : MInv w → MInv (mcopy ra true w k m).
  Proof.
    intros H. unfold mcopy. destruct (mdir w !! k) as [[ms j]|]; [|done].
    destruct (nents (mmap w ms) !! j) as [o|]; [|done]. destruct (nalive o); [|done].
    apply minv_insert; [done|]. apply ncreate_inv, H.
  Qed.

  Lemma mrewrite_inv w k : MInv w → MInv (mrewrite ra false rd true w k).
  Proof.
    intros H. unfold mrewrite. destruct (mdir w !! k) as [[m j]|]; [|done].
    destruct (nents (mmap w m) !! j) as [o|]; [|done]. destruct (nid o) as [i|]; [|done].
    destruct (get_id i (nman (mmap w m))) as [[r ?]|]; [|done]. by do 2 apply mlocal_inv.
  Qed.

  Lemma mstep_inv w e : MInv w → MInv (mstep_ok w e).
  Proof.
    intros H. destruct e as [m d|k o|k m|m d|ks m]; cbn [mstep].
    - apply minv_insert; [done|]. apply nstep_inv, H.
    - destruct (mdir w !! k) as [[m j]|]; [|done]. by apply mlocal_inv.
    - by apply mcopy_inv.
    - by apply mlocal_inv.
    - apply fold_left_inv; [apply mrewrite_inv|]. apply fold_left_inv; [|done]. intros w1 k. apply mcopy_inv.
  Qed.

  Lemma mrun_inv es : MInv (mrun ra false rd true es).
  Proof.
    apply (fold_left_inv MInv); [apply mstep_inv|apply mw0_inv].
  Qed.
End proofs.

(** Several maps: after every history of construction / parse with any 'nodeid' value in any map, key assignment,
    deletion, removal, re-adding, destruction, copy within and ACROSS maps, reservations by Instance.fixup_key and
    collapse_one of node entities into another map, in every map the node IDs held by existing entities are
    pairwise distinct and positive — when remove_ent does not release and copies register their node ID; for
    either shape of add_ent and of the destructor. *)
Theorem node_maps_ids_nodup_pos ra rd es m : let w := mrun ra false rd true es in
  NoDup (nids (nents (mmap w m))) ∧ (∀ i, i ∈ nids (nents (mmap w m)) → 0 < i).
Proof. exact (held_unique _ _ (mrun_inv ra rd es m)). Qed.

(** collapse_one on the shape of the source: map 1 holds nodes 1, 2, 3; the instance map 0 holds nodes 2 and 7.
    The copies get 4 and 7, the reservations 5 and 6 stay taken (next free ID: 8). *)
Example node_collapse_example :
  let w := mrun false false true true
             [MCreate 1 (Some 1); MCreate 1 (Some 2); MCreate 1 (Some 3); MCreate 0 (Some 2); MCreate 0 (Some 7);
              MCreate 0 None; MCollapse [3; 4; 5]%nat 1] in
  nids (nents (mmap w 1)) = [1; 2; 3; 4; 7] ∧ (fst <$> get_id (-1) (nman (mmap w 1))) = Some 8.
Proof. vm_compute. done. Qed.
