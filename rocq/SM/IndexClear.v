(** Source-shaped model for property C07: [Entity.clear] as written — a straight-line list of steps read off
    vmf.py by translate/c07_index_del.py on every run ([gen_clear] in Gen/IndexDel_gen.v): the classname is reset
    through __setitem__ and the targetname deleted through __delitem__ (so that the indexes follow) *before* the key
    dict is emptied directly, and the classname is stored back directly afterwards.

    Executable definitions only; proofs are in IndexClearProofs.v. *)
From stdpp Require Import gmap sets list.
From Coq Require Import NArith.
From SV Require Import SM.IndexModel SM.IndexShapes SM.IndexMaint.

Inductive cstep :=
| CSetClass          (* self['classname'] = classname   where classname = 'worldspawn' if self is self.map.spawn else 'info_null' *)
| CDelKey (k : str)  (* del self['<k>'] *)
| CKeysClear         (* self._keys.clear() *)
| CStoreClass.       (* self._keys['classname'] = classname *)

Global Instance cstep_eq_dec : EqDecision cstep.
Proof. solve_decision. Defined.

Section clear.
  Variable fold : str → str.

  Definition cstep_run (s : cstep) (c : str) (e : nat) (st : mstate) : mstate * nat :=
    match s with
    | CSetClass => set_item fold e cn c st
    | CDelKey k => del_item fold e k st
    | CKeysClear => (with_keys e [] st, 0)
    | CStoreClass => (with_keys e (dset cn c (keys_of st e)) st, 0)   (* exact dict store *)
    end.
  Fixpoint csteps_run (l : list cstep) (c : str) (e : nat) (st : mstate) : mstate * nat :=
    match l with
    | [] => (st, 0)
    | s :: r => let '(st1, er) := cstep_run s c e st in
                match er with 0 => csteps_run r c e st1 | _ => (st1, er) end
    end.
  Definition clear_pg (l : list cstep) (e : nat) (st : mstate) : mstate * nat :=
    csteps_run l (if decide (e = spawn st) then ws else inull) e st.

  (** the named obligations *)
  Fixpoint before_clear (l : list cstep) : list cstep :=
    match l with [] => [] | CKeysClear :: _ => [] | s :: r => s :: before_clear r end.
  Fixpoint from_clear (l : list cstep) : list cstep :=
    match l with [] => [] | CKeysClear :: r => CKeysClear :: r | _ :: r => from_clear r end.
  (** before the dict is emptied: the classname reset, then the targetname deletion, then at most `del self['nodeid']` *)
  Definition clear_reindexes_before_emptying (l : list cstep) : bool :=
    bool_decide (before_clear l = [CSetClass; CDelKey tn]) || bool_decide (before_clear l = [CSetClass; CDelKey tn; CDelKey nodeid]).
  (** the dict is emptied once and the classname stored back *)
  Definition clear_keeps_the_classname (l : list cstep) : bool := bool_decide (from_clear l = [CKeysClear; CStoreClass]).
  Definition clear_ok (l : list cstep) : bool := clear_reindexes_before_emptying l && clear_keeps_the_classname l.

  Definition clear_today : list cstep := [CSetClass; CDelKey tn; CDelKey nodeid; CKeysClear; CStoreClass].
  (** without `del self['targetname']`: the name index is not told *)
  Definition clear_forgets_targetname : list cstep := [CSetClass; CDelKey nodeid; CKeysClear; CStoreClass].
End clear.
