(** CopySet.__iter__ (SM/IndexShapes.v [irun]): iteration over a snapshot plus the late additions is total, never
    raises whatever the loop body does to the set, yields every element of the snapshot and every late addition
    exactly once, and keeps every invariant the loop body keeps.  Iterating the live set instead raises. *)
From stdpp Require Import gmap.
From Coq Require Import NArith.
From SV Require Import SM.IndexModel SM.IndexProofs SM.IndexShapes.

Section copyset.
  Context {S : Type}.
  Variable get : S → gset nat.
  Variable body : nat → S → S.
  Variable order : gset nat → list nat.

  (** A generator that never iterates the live set cannot raise RuntimeError — for every loop body. *)
  Theorem irun_never_live_no_raise p : iprog_never_live p = true →
    ∀ cur ys s, io_raised (irun get body order p cur ys s) = false.
  Proof.
    induction p as [|st p IH]; intros Hok cur ys s; simpl in *; [done|].
    apply andb_true_iff in Hok as [H1 H2]. destruct st as [|e]; [by apply IH|].
    destruct e; simpl in H1; try discriminate; by apply IH.
  Qed.

  (** every property the loop body keeps is kept by the whole iteration (whatever the generator) *)
  Lemma yield_frozen_keeps (I : S → Prop) l s : (∀ x s, I s → I (body x s)) → I s → I (yield_frozen body l s).
  Proof. intros Hb. revert s. induction l as [|x l IH]; intros s Hs; simpl; [done|]. apply IH, Hb, Hs. Qed.
  Lemma yield_live_keeps (I : S → Prop) n0 l ys s :
    (∀ x s, I s → I (body x s)) → I s → I (io_state (yield_live get body n0 l ys s)).
  Proof.
    intros Hb. revert ys s. induction l as [|x l IH]; intros ys s Hs; simpl; [done|].
    destruct (negb _); [done|]. apply IH, Hb, Hs.
  Qed.
  Theorem irun_keeps (I : S → Prop) p : (∀ x s, I s → I (body x s)) →
    ∀ cur ys s, I s → I (io_state (irun get body order p cur ys s)).
  Proof.
    intros Hb. induction p as [|st p IH]; intros cur ys s Hs; simpl; [done|].
    destruct st as [|e]; [by apply IH|].
    destruct e; try (apply IH; by apply yield_frozen_keeps).
    pose proof (yield_live_keeps I (size (get s)) (order (get s)) ys s Hb Hs) as Hl.
    destruct (io_raised _); [done|]. by apply IH.
  Qed.

  (** today's generator: the snapshot in some order, then what was added meanwhile and is not in the snapshot *)
  Theorem copyset_iter_today_run cur ys s :
    let l1 := order (get s) in
    let s1 := yield_frozen body l1 s in
    let l2 := order (get s1 ∖ get s) in
    irun get body order copyset_iter_today cur ys s = IOut (ys ++ l1 ++ l2) (yield_frozen body l2 s1) false.
  Proof. simpl. by rewrite <- app_assoc. Qed.

  Hypothesis order_perm : ∀ X, order X ≡ₚ elements X.

  (** termination with an explicit bound, no element twice, snapshot and late additions all visited *)
  Theorem copyset_iteration_total s :
    let out := irun get body order copyset_iter_today ∅ [] s in
    let s1 := yield_frozen body (order (get s)) s in
    io_raised out = false ∧
    length (io_yield out) = size (get s) + size (get s1 ∖ get s) ∧
    NoDup (io_yield out) ∧
    ∀ x, x ∈ io_yield out ↔ x ∈ get s ∨ (x ∈ get s1 ∧ x ∉ get s).
  Proof.
    rewrite copyset_iter_today_run. simpl.
    set (s1 := yield_frozen body (order (get s)) s).
    split; [done|]. split; [|split].
    - rewrite app_length, !order_perm. unfold size, set_size. simpl. done.
    - apply NoDup_app. split; [rewrite order_perm; apply NoDup_elements|]. split.
      + intros x. rewrite !order_perm, !elem_of_elements. set_solver.
      + rewrite order_perm. apply NoDup_elements.
    - intros x. rewrite elem_of_app, !order_perm, !elem_of_elements. set_solver.
  Qed.
End copyset.

Lemma iprog_is_today_eq p : iprog_is_today p = true → p = copyset_iter_today.
Proof.
  unfold iprog_is_today. repeat (match goal with |- context [match ?x with _ => _ end] => destruct x end; try discriminate).
  done.
Qed.

(** Iterating [vmf.by_class[k]] with a loop body that applies any operation to the yielded entity keeps the index
    invariant of every map and never raises — the body may re-class, rename, remove or add entities. *)
Section over_worlds.
  Variable fold : str → str.
  Hypothesis fold_nil : fold [] = [].
  Hypothesis fold_cn : fold cn = cn.
  Hypothesis fold_tn : fold tn = tn.
  Hypothesis fold_ws : fold ws = ws.

  Theorem copyset_iteration_keeps_inv (get : list mstate → gset nat) (f : nat → list wop)
      (order : gset nat → list nat) p w :
    iprog_never_live p = true → Forall (Inv fold) w →
    let out := irun get (λ x w, wrun fold (f x) w) order p ∅ [] w in
    io_raised out = false ∧ Forall (Inv fold) (io_state out).
  Proof.
    intros Hp Hw. split; [by apply irun_never_live_no_raise|].
    apply (irun_keeps get _ order (Forall (Inv fold))); [|done].
    intros x w' Hw'. by apply wrun_inv.
  Qed.
End over_worlds.

