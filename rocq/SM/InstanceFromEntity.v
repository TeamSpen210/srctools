(** C09 — [Instance.from_entity]: what of the func_instance entity reaches the Instance built from it.
    [instance_from_entity] (Gen/C09Collapse_gen.v): per constructor parameter / attribute stored afterwards, the origin of
    the value ([CTemplate] here = an object of the ENTITY itself or a container of its own objects).  The Instance may
    share nothing with the entity except what is listed as read-only by design (the Output list: collapse_one only reads
    these outputs, Output.combine builds new ones — census of collapse_one); the $fixup values must be copies. *)
From Coq Require Import List String Bool.
From SV Require Import SM.CollapseCensus.
Import ListNotations.

Definition origin_shared (o : corigin) : bool :=
  match o with CTemplate | CTarget | CInst | CLocal => true | _ => false end.

Definition from_entity_shares_only (allowed : list string) (rows : list (string * corigin)) : bool :=
  forallb (fun p => negb (origin_shared (snd p)) || existsb (String.eqb (fst p)) allowed) rows.

Definition from_entity_copies (f : string) (rows : list (string * corigin)) : bool :=
  existsb (fun p => String.eqb (fst p) f && match snd p with CCopy => true | _ => false end) rows &&
  forallb (fun p => negb (String.eqb (fst p) f) || match snd p with CCopy => true | _ => false end) rows.
