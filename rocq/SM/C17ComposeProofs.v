(** Proofs about SM/C17Compose.v. *)
From Coq Require Import List Permutation.
From SV Require Import SM.C17Compose.
Import ListNotations.

Section Proofs.
  Variables T G P A M Obs : Type.
  Variable obs : T -> Obs.
  Variable collapse : T -> G -> P -> A -> M * T * G.
  Variable ident : P.
  Variable transform : P -> M -> M.
  Notation c_out := (c_out T G M).
  Notation c_tmpl := (c_tmpl T G M).
  Notation c_history := (c_history T G P A M collapse).
  Notation as_if_first := (as_if_first T G P A M collapse ident transform).

  Hypothesis reads_obs : forall t t' g p a, obs t = obs t' -> c_out (collapse t g p a) = c_out (collapse t' g p a).
  Hypothesis template_intact : forall t g p a, obs (c_tmpl (collapse t g p a)) = obs t.
  Hypothesis state_independent : forall t g g' p a, c_out (collapse t g p a) = c_out (collapse t g' p a).
  Hypothesis equivariant : forall t g p a, c_out (collapse t g p a) = transform p (c_out (collapse t g ident a)).

  Lemma history_from : forall cs t t0 g g0, obs t = obs t0 -> c_history cs t g = map (as_if_first t0 g0) cs.
  Proof.
    induction cs as [|[p a] r IH]; intros t t0 g g0 Ho; cbn [C17Compose.c_history map]; [reflexivity|].
    f_equal.
    - unfold C17Compose.as_if_first; cbn [fst snd].
      rewrite equivariant, (state_independent t g g0 ident a), (reads_obs t t0 g0 ident a Ho). reflexivity.
    - apply IH. rewrite template_intact. exact Ho.
  Qed.

  (** Every result of the c_history is what that call alone gives on the untouched template in a new process at the
      identity placement, moved to its own placement: it depends on nothing that happened before. *)
  Theorem each_result_as_if_first : forall cs t g g0, c_history cs t g = map (as_if_first t g0) cs.
  Proof. intros. apply history_from. reflexivity. Qed.

  (** ... so the order does not matter: a permuted c_history gives the permuted results ... *)
  Corollary order_independent : forall cs cs' t g, Permutation cs cs' -> Permutation (c_history cs t g) (c_history cs' t g).
  Proof.
    intros cs cs' t g Hp. rewrite (each_result_as_if_first cs t g g), (each_result_as_if_first cs' t g g).
    apply Permutation_map. exact Hp.
  Qed.

  (** ... repeating a call repeats its result, however many collapses lie in between ... *)
  Corollary repeat_same : forall cs1 cs2 c t g d,
    nth (length cs1) (c_history (cs1 ++ c :: cs2 ++ [c]) t g) d = nth (length cs1 + S (length cs2)) (c_history (cs1 ++ c :: cs2 ++ [c]) t g) d.
  Proof.
    intros. rewrite (each_result_as_if_first _ t g g), <- (map_length (as_if_first t g) cs1), <- (map_length (as_if_first t g) cs2).
    rewrite map_app. cbn [map]. rewrite map_app. cbn [map]. rewrite nth_middle.
    (* the second position is the last one: the index is the length of everything before the final element *)
    change (length ?a + S (length ?b)) with (length a + length (as_if_first t g c :: b)).
    rewrite <- app_length, app_comm_cons, app_assoc. symmetry. apply nth_middle.
  Qed.

  (** ... and two placements of the same call differ only by the placement. *)
  Corollary differ_only_by_placement : forall p1 p2 a t g g0,
    c_history [(p1, a); (p2, a)] t g =
    [transform p1 (c_out (collapse t g0 ident a)); transform p2 (c_out (collapse t g0 ident a))].
  Proof. intros. rewrite (each_result_as_if_first _ t g g0). reflexivity. Qed.
End Proofs.

(** The hypotheses are satisfiable together (and the theorem is not about the empty c_history only). *)
Definition toy_collapse (t g p a : nat) : nat * nat * nat := (t + a + p, t, S g).
Example compose_hypotheses_satisfiable :
  (forall t t' g p a, (fun x : nat => x) t = t' -> c_out _ _ _ (toy_collapse t g p a) = c_out _ _ _ (toy_collapse t' g p a)) /\
  (forall t g p a, c_tmpl _ _ _ (toy_collapse t g p a) = t) /\
  (forall t g g' p a, c_out _ _ _ (toy_collapse t g p a) = c_out _ _ _ (toy_collapse t g' p a)) /\
  (forall t g p a, c_out _ _ _ (toy_collapse t g p a) = (fun p m => m + p) p (c_out _ _ _ (toy_collapse t g 0 a))) /\
  c_history _ _ _ _ _ toy_collapse [(1, 2); (3, 4)] 10 0 = [13; 17].
Proof.
  repeat split; intros; cbn; try reflexivity.
  - subst; reflexivity.
  - rewrite PeanoNat.Nat.add_0_r. reflexivity.
Qed.
