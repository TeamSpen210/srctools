From Coq Require Import List String Bool Arith Lia.
From SV Require Import SM.FrozenOps.
Import ListNotations.
Open Scope string_scope.

Section Proofs.
  Variable V : Type.
  Variable table : list mut_event.
  Variable carve : mut_event -> bool.
  Notation reg := (reg V).
  Notation step := (step V table).
  Notation run := (run V table).
  Notation may_write := (may_write V table).
  Notation cls_of := (cls_of V).

  (** the op does not trigger a carved-out (known-bad) event *)
  Definition not_carved (st : list reg) (o : op) : Prop :=
    forall e, In e table -> carve e = true -> applies (cls_of st (recv o)) (meth o) e = false.

  Lemma nth_error_combine_seq (st : list reg) k i :
    nth_error (combine (seq k (List.length st)) st) i = option_map (fun r => (k + i, r)) (nth_error st i).
  Proof.
    revert k i; induction st as [|r st IH]; intros k [|i]; simpl; auto.
    - f_equal. f_equal. lia.
    - rewrite IH. destruct (nth_error st i); simpl; auto. f_equal. f_equal. lia.
  Qed.

  Lemma step_nth st o nv res i c v : nth_error st i = Some (c, v) ->
    nth_error (step st (o, nv, res)) i = Some (if may_write st o i then (c, nv i) else (c, v)).
  Proof.
    intros H. unfold FrozenOps.step.
    rewrite nth_error_app1.
    - rewrite nth_error_map, nth_error_combine_seq. unfold FrozenOps.reg in *. rewrite H. simpl. reflexivity.
    - rewrite map_length, combine_length, seq_length, Nat.min_id. apply nth_error_Some. unfold FrozenOps.reg in *. rewrite H. discriminate.
  Qed.

  (** frame: a register that the call may not write keeps class and value *)
  Lemma step_frame st x i r : nth_error st i = Some r -> may_write st (fst (fst x)) i = false ->
    nth_error (step st x) i = Some r.
  Proof.
    destruct x as [[o nv] res], r as [c v]. cbn [fst]. intros H M. rewrite (step_nth _ _ _ _ _ _ _ H), M. reflexivity.
  Qed.

  Lemma step_cls st x i : i < List.length st -> cls_of (step st x) i = cls_of st i.
  Proof.
    intros Hi. destruct x as [[o nv] res]. unfold FrozenOps.cls_of at 2.
    destruct (nth_error st i) as [[c v]|] eqn:E.
    - unfold FrozenOps.cls_of. rewrite (step_nth _ o nv res _ _ _ E). destruct (may_write st o i); reflexivity.
    - apply nth_error_None in E. lia.
  Qed.

  Lemma step_length st x : List.length st <= List.length (step st x).
  Proof.
    destruct x as [[o nv] res]. unfold FrozenOps.step.
    rewrite app_length, map_length, combine_length, seq_length, Nat.min_id. lia.
  Qed.

  Lemma frozen_class_reachable c : frozen_class c = true ->
    frozen_reachable c = true /\ frozen_reachable (base_of c) = true.
  Proof.
    unfold frozen_class. intros H. apply orb_prop in H. destruct H as [H|H]; [apply orb_prop in H; destruct H as [H|H]|];
      apply String.eqb_eq in H; subst; split; reflexivity.
  Qed.

  Hypothesis OK : table_ok table carve = true.

  (** What the census leaves: the event behind a write by a public, not carved-out call writes into [self] (or a
      copy of it that is [self]), and its class — the receiver's or the base of that — is reached by no frozen object. *)
  Lemma write_event st o i : public o = true -> not_carved st o -> may_write st o i = true ->
    i = recv o /\ exists c, (c =? cls_of st (recv o)) || (c =? base_of (cls_of st (recv o))) = true /\ frozen_reachable c = false.
  Proof.
    intros Hp Hc H. unfold FrozenOps.may_write in H.
    apply existsb_exists in H. destruct H as [e [He H]]. apply andb_prop in H. destruct H as [Ha Hcond].
    unfold table_ok in OK. rewrite forallb_forall in OK. specialize (OK e He). specialize (Hc e He).
    destruct e as [[[c m] og] w]. unfold event_ok in OK. simpl in Hcond.
    pose proof Ha as Ha'. unfold applies in Ha'. apply andb_prop in Ha'. destruct Ha' as [Hcls Hm].
    apply String.eqb_eq in Hm. apply orb_prop in OK. destruct OK as [OK1|OK1].
    - apply orb_prop in OK1. destruct OK1 as [Hh|Hcv].
      + unfold public in Hp. rewrite <- Hm in Hp. rewrite Hh in Hp. discriminate.
      + rewrite (Hc Hcv) in Ha. discriminate.
    - assert (Hi : Nat.eqb i (recv o) = true).
      { destruct og; try discriminate; [exact Hcond|apply andb_prop in Hcond; tauto]. }
      split; [apply Nat.eqb_eq, Hi|]. exists c. split; [exact Hcls|].
      destruct og; try discriminate; apply negb_true_iff, OK1.
  Qed.

  (** a public call writes no register other than its receiver *)
  Lemma only_receiver_written st o i : public o = true -> not_carved st o -> i <> recv o -> may_write st o i = false.
  Proof.
    intros Hp Hc Hi. apply not_true_is_false. intros H. destruct (write_event st o i Hp Hc H) as [E _]. contradiction.
  Qed.

  (** a public call never writes a frozen register, not even its receiver *)
  Lemma frozen_not_written st o i : public o = true -> not_carved st o ->
    frozen_class (cls_of st i) = true -> may_write st o i = false.
  Proof.
    intros Hp Hc Hf. apply not_true_is_false. intros H.
    destruct (write_event st o i Hp Hc H) as [-> (c & Hcls & Hr)].
    destruct (frozen_class_reachable _ Hf) as [R1 R2].
    apply orb_prop in Hcls. destruct Hcls as [E|E]; apply String.eqb_eq in E; subst c; congruence.
  Qed.

  (** histories of public, not carved-out calls *)
  Fixpoint good_history (h : list (op * (nat -> V) * list reg)) (st : list reg) : Prop :=
    match h with
    | [] => True
    | x :: h' => public (fst (fst x)) = true /\ not_carved st (fst (fst x)) /\ good_history h' (step st x)
    end.

  (** THE FRAME THEOREM (frozen part): whatever public operations are executed, with whatever registers as
      receivers and arguments, a register of a frozen class keeps its observable value. *)
  Theorem frozen_registers_stable h : forall st i r, good_history h st ->
    nth_error st i = Some r -> frozen_class (fst r) = true -> nth_error (run h st) i = Some r.
  Proof.
    induction h as [|x h IH]; intros st i r G Hn Hf; simpl; auto.
    destruct G as (Hp & Hc & G).
    apply IH; auto. apply step_frame; auto. apply frozen_not_written; auto.
    unfold FrozenOps.cls_of. rewrite Hn. destruct r; exact Hf.
  Qed.

  (** (independence part): a register that is never the RECEIVER of a call keeps its value, even when it is
      passed as an argument: in particular the source of copy()/freeze()/thaw()/pickle (whose result is a
      new register) is unaffected by anything done to the result, and vice versa. *)
  Theorem non_receiver_stable h : forall st i r, good_history h st ->
    nth_error st i = Some r -> Forall (fun x => recv (fst (fst x)) <> i) h -> nth_error (run h st) i = Some r.
  Proof.
    induction h as [|x h IH]; intros st i r G Hn Hr; simpl; auto.
    destruct G as (Hp & Hc & G). inversion Hr; subst.
    apply IH; auto. apply step_frame; auto. apply only_receiver_written; auto.
  Qed.
End Proofs.

(** The hypothesis is necessary: with the event of defect #5 in the table and no carve-out, a frozen
    register changes. *)
Definition bad_table : list mut_event := [("MatrixBase", "__matmul__", CopyOfSelf, "call ._mat_mul()")].

Example table_ok_satisfiable :
  table_ok [("Vec", "__imatmul__", Self, "arg of ._vec_rot()"); ("MatrixBase", "_mat_mul", Self, "store ._aa")] no_carve = true.
Proof. reflexivity. Qed.
