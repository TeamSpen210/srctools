From Coq Require Import List Bool.
From SV Require Import SM.KvAdd.
Import ListNotations.

(** With every append going to the copy and the copy returned, '+' is pure and complete. *)
Theorem kv_add_pure {A} : forall r1 r2 ret,
  recv_is_copy r1 && recv_is_copy r2 && recv_is_copy ret = true ->
  forall single (self other : list A), kv_add r1 r2 ret single self other = (self, self ++ other).
Proof.
  intros [|] [|] [|] H; try discriminate. intros [|] self other; reflexivity.
Qed.

