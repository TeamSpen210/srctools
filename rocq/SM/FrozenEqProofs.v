(** C05 (b) — objects whose slots hold the same values compare equal: "a copy is equal to its source" for ==. *)
From Coq Require Import Qabs List String.
From SV Require Import SM.FrozenHash SM.FrozenHashProofs SM.FrozenEq.
Import ListNotations.

Lemma cmp_refl_eval c a b : cmp_refl c = true -> a == b -> cmp_eval c a b = true.
Proof.
  intros Hc Hab. destruct c as [s t| |]; simpl in *; try discriminate.
  - assert (E : Qabs (a - b) == 0).
    { rewrite Hab. setoid_replace (b - b) with 0 by ring. reflexivity. }
    destruct s; unfold Qlt_bool in *.
    + rewrite <- Hc. f_equal. apply eq_true_iff_eq. rewrite !Qle_bool_iff. rewrite E. reflexivity.
    + rewrite <- Hc. apply eq_true_iff_eq. rewrite !Qle_bool_iff. rewrite E. reflexivity.
  - apply Qeq_bool_iff. exact Hab.
Qed.

(** For every table that passes [eq_table_ok]: two objects of one family whose slots hold the same (finite) values
    compare equal - whatever the tolerance is, as long as it accepts a difference of zero. *)
Theorem eq_same_value rows : eq_table_ok rows = true ->
  forall fam l, In (fam, l) rows -> forall a b : string -> Q,
  (forall s, In s (family_slots fam) -> a s == b s) -> eq_eval l a b = true.
Proof.
  unfold eq_table_ok. intros H fam l Hin a b Hs.
  apply andb_prop in H. destruct H as [H _]. rewrite forallb_forall in H. specialize (H _ Hin).
  unfold eq_row_ok in H; simpl in H. apply andb_prop in H. destruct H as [H Hsub2]. apply andb_prop in H. destruct H as [Hr _].
  unfold eq_eval. rewrite forallb_forall in *. intros [s c] Hsc. simpl.
  apply cmp_refl_eval; [exact (Hr _ Hsc)|]. apply Hs.
  eapply subset_in; [exact Hsub2|]. apply in_map_iff. exists (s, c). split; auto.
Qed.

Example eq_table_satisfiable :
  eq_table_ok [("VecBase"%string, [("_x"%string, CTol true (1 # 1000000)); ("_y"%string, CTol true (1 # 1000000)); ("_z"%string, CTol true (1 # 1000000))]);
               ("AngleBase"%string, [("_pitch"%string, CTol false (1 # 1000000)); ("_yaw"%string, CTol false (1 # 1000000)); ("_roll"%string, CTol false (1 # 1000000))]);
               ("MatrixBase"%string, map (fun s => (s, CExact)) (family_slots "MatrixBase"))] = true.
Proof. reflexivity. Qed.
