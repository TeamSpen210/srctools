(** Accepted tables mean [write_info] / [read_info] / [verify_info] of SM/Vpk.v on all inputs. *)
From Coq Require Import List NArith Bool.
From SV Require Import Fmt.VpkDir SM.Vpk SM.VpkProofs SM.VpkPlace SM.VpkPlaceProofs SM.VpkPlaceTable.
Import ListNotations.
Open Scope N_scope.

Lemma lim_eqb_true a b : lim_eqb a b = true -> a = b.
Proof. destruct a, b; cbn; congruence. Qed.
Lemma cut_eqb_true a b : cut_eqb a b = true -> a = b.
Proof. destruct a, b; cbn; congruence. Qed.
Lemma dest_eqb_true a b : dest_eqb a b = true -> a = b.
Proof. destruct a, b; cbn; congruence. Qed.
Lemma off_eqb_true a b : off_eqb a b = true -> a = b.
Proof. destruct a, b; cbn; congruence. Qed.
Lemma rsrc_eqb_true a b : rsrc_eqb a b = true -> a = b.
Proof. destruct a, b; cbn; congruence. Qed.

(** An accepted row is the row [want_cut] / [want_dest] prescribe for its own scenario. *)
Lemma row_ok_row_of r : row_ok r = true -> r = row_of (r_dir r) (r_lim r) (r_idx_none r) (r_tail_empty r).
Proof.
  destruct r as [d l i t c ds sn o ex]. unfold row_ok, row_cut_ok, row_dest_ok, row_of. cbv zeta.
  cbn [r_dir r_lim r_idx_none r_tail_empty r_cut r_dest r_stored_none r_off r_exact]. intros H.
  apply andb_prop in H as [Hc H]. apply andb_prop in Hc as [Hc ->]. apply andb_prop in H as [H Hsn]. apply andb_prop in H as [Hds Ho].
  apply cut_eqb_true in Hc. apply dest_eqb_true in Hds. apply off_eqb_true in Ho. apply eqb_prop in Hsn. now subst.
Qed.

Section write.
  Variables (cf : vcfg) (d : bytes) (ix : option N).
  Let tail := skipn (N.to_nat (cut_val cf (want_cut (v_is_dir cf) (class_of cf)))) d.
  Let scen (r : prow) : bool :=
    Bool.eqb (r_dir r) (v_is_dir cf) && lim_eqb (r_lim r) (class_of cf) && Bool.eqb (r_idx_none r) (onone ix) && Bool.eqb (r_tail_empty r) (lnil tail).

  (** [row_applies] tests the rest left by the row's own cut; on an accepted row that cut is the wanted one as soon as kind and limit
      class agree, so the test is the test of the scenario [covers] enumerates. *)
  Lemma row_applies_scen r : row_ok r = true -> row_applies cf d ix r = scen r.
  Proof.
    intros H. apply row_ok_row_of in H. unfold row_applies, scen. rewrite H. cbn [row_of r_dir r_lim r_idx_none r_tail_empty r_cut].
    destruct (Bool.eqb (r_dir r) (v_is_dir cf)) eqn:Ed; [|reflexivity]. destruct (lim_eqb (r_lim r) (class_of cf)) eqn:El; [|reflexivity].
    apply eqb_prop in Ed. apply lim_eqb_true in El. now rewrite Ed, El.
  Qed.

  Lemma place_table_row pt : place_table_ok pt = true ->
    find (row_applies cf d ix) pt = Some (row_of (v_is_dir cf) (class_of cf) (onone ix) (lnil tail)).
  Proof.
    intros Hok. apply andb_prop in Hok as [Hrows Hcov]. rewrite forallb_forall in Hrows.
    rewrite (find_ext_in _ scen) by (intros r Hr; apply row_applies_scen, Hrows, Hr).
    unfold covers in Hcov. rewrite forallb_forall in Hcov.
    destruct (find_covered scen pt (Hcov _ (all_scen_complete _ _ _ _))) as (r & -> & Hin & Hs).
    rewrite (row_ok_row_of r (Hrows r Hin)). unfold scen in Hs.
    apply andb_prop in Hs as [Hs Ht]. apply andb_prop in Hs as [Hs Hi]. apply andb_prop in Hs as [Hd Hl].
    apply eqb_prop in Hd, Hi, Ht. apply lim_eqb_true in Hl. now rewrite Hd, Hl, Hi, Ht.
  Qed.
End write.

Theorem write_info_t_is_write_info pt : place_table_ok pt = true -> forall crc cf st i d ix,
  write_info_t pt crc cf st i d ix = Some (write_info crc cf st i d ix).
Proof.
  intros Hok crc cf st i d ix. unfold write_info_t, write_info. destruct (crc d =? icrc i); [reflexivity|].
  rewrite (place_table_row cf d ix pt Hok), split_rule_want. unfold row_of, want_dest.
  cbn [r_cut r_dest r_stored_none r_off].
  destruct (skipn (N.to_nat (cut_val cf (want_cut (v_is_dir cf) (class_of cf)))) d) as [|t0 tl]; cbn [lnil]; [reflexivity|].
  destruct (forced (v_is_dir cf) (class_of cf)); cbn [orb]; [reflexivity|].
  destruct ix as [x|]; reflexivity.
Qed.

Theorem read_info_t_is_read_info rt : read_table_ok rt = true -> forall crc st i,
  read_info_t rt st i = Some (read_info st i) /\ verify_info_t rt crc st i = Some (verify_info crc st i).
Proof.
  intros Hok crc st i. apply andb_prop in Hok as [Hrows Hcov]. rewrite forallb_forall in Hrows, Hcov.
  assert (Hs : In (ilen i =? 0, onone (iidx i)) [(false, false); (false, true); (true, false); (true, true)])
    by (destruct (ilen i =? 0), (onone (iidx i)); cbn; auto).
  destruct (find_covered (rrow_applies i) rt (Hcov _ Hs)) as (r & Hf & Hin & Ha).
  unfold read_info_t, verify_info_t. rewrite Hf.
  apply andb_prop in Ha as [Hz Hn]. apply eqb_prop in Hz, Hn.
  specialize (Hrows r Hin). apply andb_prop in Hrows as [Hr Hv]. apply rsrc_eqb_true in Hr, Hv. rewrite Hr, Hv, Hz, Hn.
  unfold verify_info, read_info, container, want_src.
  destruct (ilen i =? 0); cbn [src_bytes]; [split; reflexivity|].
  destruct (iidx i) as [x|] eqn:Ei; cbn [onone src_bytes]; rewrite ?Ei; split; reflexivity.
Qed.

(** ... so a table whose files read back the bytes of a map and verify does so through the read table. *)
Corollary read_table_reads rt : read_table_ok rt = true -> forall crc st (tb : list (key * info)) (m : list (key * bytes)),
  (forall k, match alookup k tb, alookup k m with
             | Some i, Some d => read_info st i = d /\ verify_info crc st i = true
             | None, None => True
             | _, _ => False
             end) ->
  forall k, match alookup k tb, alookup k m with
            | Some i, Some d => read_info_t rt st i = Some d /\ verify_info_t rt crc st i = Some true
            | None, None => True
            | _, _ => False
            end.
Proof.
  intros Hrt crc st tb m H k. specialize (H k). destruct (alookup k tb) as [i|], (alookup k m) as [d|]; try exact H.
  destruct H as [<- Hv]. destruct (read_info_t_is_read_info rt Hrt crc st i) as [R V]. now rewrite R, V, Hv.
Qed.
