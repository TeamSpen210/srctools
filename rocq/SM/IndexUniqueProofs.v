(** Entity.make_unique: the [while True] search for a free numbered name always ends.
    The model runs the loop on fuel [S (size by_target)]; here: that fuel is never exhausted (pigeonhole over the
    names in use — the candidate names [base ++ str(i)] are pairwise distinct even after case folding), the name
    found is the first unused one, and make_unique never reports the "fuel exhausted" code.
    Case folding is abstract: [fold (b ++ str i) = fold b ++ str i] (folding works code point by code point and
    leaves digits alone; true of str.casefold, shown for [ascii_fold]). *)
From stdpp Require Import gmap.
From Coq Require Import NArith DecimalN.
From SV Require Import SM.IndexModel SM.IndexProofs.

Lemma uint_codes_inj u u' : uint_codes u = uint_codes u' → u = u'.
Proof.
  revert u'. induction u as [|u IH|u IH|u IH|u IH|u IH|u IH|u IH|u IH|u IH|u IH]; intros [] H; simpl in H;
    try discriminate; try done; f_equal; apply IH; by injection H.
Qed.

Lemma dec_inj n m : dec n = dec m → n = m.
Proof.
  unfold dec. intros H%uint_codes_inj. apply (f_equal N.of_uint) in H. by rewrite !Unsigned.of_to in H.
Qed.

Section unique.
  Variable fold : str → str.
  Hypothesis fold_app_dec : ∀ b i, fold (b ++ dec i) = fold b ++ dec i.

  Definition cand (base : str) (i : N) (j : nat) : option str := Some (fold (base ++ dec (i + N.of_nat j))).

  Lemma cand_inj base i : Inj (=) (=) (cand base i).
  Proof.
    intros j j' H. unfold cand in H. injection H as H. rewrite !fold_app_dec in H.
    apply app_inv_head, dec_inj in H. lia.
  Qed.

  (** what the loop returns: the first candidate that is not in use; None only if all [fuel] candidates are *)
  Lemma free_name_some fuel i base bt name : free_name fold fuel i base bt = Some name →
    ∃ j, (j < fuel)%nat ∧ name = base ++ dec (i + N.of_nat j) ∧ ix_get bt (cand base i j) = ∅ ∧
         ∀ j', (j' < j)%nat → ix_get bt (cand base i j') ≠ ∅.
  Proof.
    revert i. induction fuel as [|f IH]; intros i; simpl; [done|]. case_decide as Hd.
    - intros [= <-]. exists 0%nat. unfold cand. rewrite N.add_0_r. repeat split; [lia|done|lia].
    - intros (j & Hj & -> & He & Hl)%IH. exists (S j). unfold cand in *.
      replace (i + N.of_nat (S j))%N with (i + 1 + N.of_nat j)%N by lia. repeat split; [lia|done|].
      intros [|j'] Hj'; [by rewrite N.add_0_r|].
      replace (i + N.of_nat (S j'))%N with (i + 1 + N.of_nat j')%N by lia. apply Hl. lia.
  Qed.

  Lemma free_name_none fuel i base bt : free_name fold fuel i base bt = None →
    ∀ j, (j < fuel)%nat → ix_get bt (cand base i j) ≠ ∅.
  Proof.
    revert i. induction fuel as [|f IH]; intros i; simpl; [lia|]. case_decide as Hd; [done|].
    intros Hn [|j] Hj; unfold cand in *; [by rewrite N.add_0_r|].
    replace (i + N.of_nat (S j))%N with (i + 1 + N.of_nat j)%N by lia. apply (IH _ Hn). lia.
  Qed.

  (** Termination: [size by_target + 1] candidates cannot all be in use. *)
  Theorem free_name_total (bt : gmap (option str) (gset nat)) base i :
    is_Some (free_name fold (S (size bt)) i base bt).
  Proof.
    destruct (free_name fold (S (size bt)) i base bt) eqn:E; [eauto|]. exfalso.
    pose proof (free_name_none _ _ _ _ E) as Hused.
    set (ks := cand base i <$> seq 0 (S (size bt))).
    assert (Hnd : NoDup ks) by (apply (NoDup_fmap_2 _ (Inj0 := cand_inj base i)), NoDup_seq).
    assert (Hsub : list_to_set (C := gset (option str)) ks ⊆ dom bt).
    { intros k. rewrite elem_of_list_to_set. unfold ks. rewrite elem_of_list_fmap. intros (j & -> & Hj).
      apply elem_of_seq in Hj. apply elem_of_dom. specialize (Hused j ltac:(lia)).
      unfold ix_get in Hused. destruct (bt !! cand base i j); [eauto|done]. }
    apply subseteq_size in Hsub. rewrite size_list_to_set, size_dom in Hsub by done.
    unfold ks in Hsub. rewrite fmap_length, seq_length in Hsub. lia.
  Qed.

  Hypothesis fold_tn : fold tn = tn.

  Lemma set_item_tn_err e v st : (set_item fold e tn v st).2 = 0.
  Proof.
    unfold set_item. rewrite fold_tn. rewrite decide_False by (intros H; by apply cn_ne_tn).
    rewrite decide_True by done. by destruct (in_map st e).
  Qed.

  (** make_unique never raises and never runs out of candidates (error code 9 of the model is unreachable) *)
  Theorem make_unique_terminates e p st : (make_unique fold e p st).2 = 0.
  Proof.
    unfold make_unique. case_decide; [done|].
    destruct (if decide (default [] (kv_find fold tn (keys_of st e)) = []) then (st, 0) else set_item fold e tn [] st)
      as [st1 er1].
    case_decide; [apply set_item_tn_err|].
    destruct (free_name_total (by_target st1) (rstrip_digits
      (if decide (default [] (kv_find fold tn (keys_of st e)) = []) then p else default [] (kv_find fold tn (keys_of st e)))) 1)
      as [name ->].
    apply set_item_tn_err.
  Qed.
End unique.

(** the folding hypothesis is satisfiable: ASCII lower-casing leaves digits alone *)
Lemma uint_codes_digits u : Forall (λ c, (48 ≤ c ≤ 57)%N) (uint_codes u).
Proof. induction u; simpl; constructor; try done; lia. Qed.
Lemma ascii_fold_digits s : Forall (λ c, (48 ≤ c ≤ 57)%N) s → ascii_fold s = s.
Proof.
  intros H. induction H as [|c r [H1 H2] Hr IH]; [done|]. simpl. rewrite IH. f_equal. unfold ascii_lower.
  destruct (65 <=? c)%N eqn:E; [apply N.leb_le in E; lia|done].
Qed.
