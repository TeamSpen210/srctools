(** Proofs about SM/AtomicExit.v: a protocol in the five-flag family is [proto_of_cfg] of its derived flags; the tree
    machine on [proto_of_cfg c] and the flag machine on [c] are bisimilar (same directory, same trace, related program
    counters at every step of every schedule); hence every theorem of AtomicWriterThms.v holds for every generated
    exit program whose trees are in the family. *)
From Coq Require Import List Bool Arith PeanoNat.
From SV Require Import SM.AtomicWriter SM.AtomicWriterProofs SM.AtomicWriterThms SM.AtomicExit.
Import ListNotations.

Lemma xtree_eqb_eq a : forall b, xtree_eqb a b = true -> a = b.
Proof.
  induction a; destruct b; cbn; intros H; try discriminate; auto.
  - apply eqb_prop in H. now subst.
  - apply andb_prop in H as [H1 H2]. f_equal; auto.
  - apply andb_prop in H as [H12 H3]. apply andb_prop in H12 as [H1 H2]. f_equal; auto.
  - apply andb_prop in H as [H12 H3]. apply andb_prop in H12 as [H1 H2]. f_equal; auto.
Qed.

Lemma in_family_eq x : in_family x = true -> x = proto_of_cfg (derive_cfg x).
Proof.
  unfold in_family. intros H. apply andb_prop in H as [H1 H2].
  apply xtree_eqb_eq in H1. apply xtree_eqb_eq in H2.
  destruct x as [e o x']. unfold proto_of_cfg. cbn [x_excl x_ok x_exc] in *. now rewrite <- H1, <- H2.
Qed.

Lemma xtree_eqb_refl a : xtree_eqb a a = true.
Proof. induction a; cbn; rewrite ?IHa1, ?IHa2, ?IHa3; auto. now destruct raised. Qed.

(** ** One-step simulation *)
Inductive R (c : cfg) : pct -> pc -> Prop :=
| R_mkdir : R c TMkdir PMkdir
| R_open i : R c (TOpen i) (POpen i)
| R_body i k : R c (TBody i k) (PBody i k)
| R_tail i j : R c (TTail i j) (PTail i j)
| R_close i exc failed : R c (TExit i (close_tree c exc) failed false false) (PCloseFd i exc failed)
| R_replace i r g : R c (TExit i (replace_tree c r) false g false) (PReplace i)
| R_unlink i r g : R c (TExit i (unlink_tree r) false g false) (PUnlink i)
| R_done r l b : R c (TDone r l b) (PDone r l).
#[local] Hint Constructors R : core.

Lemma R_after_fail c i guard g :
  R c (settle i (after_fail guard) false g false) (if guard then PUnlink i else PDone FNot (if g then None else Some i)).
Proof. destruct guard; cbn; auto. Qed.

Lemma R_act c i a r :
  R c (settle i (act_tree c a r) false false false) (act_pc a i).
Proof. destruct a; cbn; auto. Qed.

Lemma R_after_tail c s i j : R c (aftert_tail (proto_of_cfg c) s i j) (after_tail s i j).
Proof.
  unfold aftert_tail, after_tail. destruct (j <? length (tail s)); [constructor|].
  exact (R_close c i false false).
Qed.

Lemma R_after_body c s i k : R c (aftert_body (proto_of_cfg c) s i k) (after_body s i k).
Proof.
  unfold aftert_body, after_body. destruct (raises_here s k); [exact (R_close c i true false)|].
  destruct (k <? length (body s)); auto using R_after_tail.
Qed.

Lemma wstept_sim c s pt p d f : R c pt p ->
  let rt := wstept (proto_of_cfg c) s pt d f in
  let r := wstep c s p d f in
  snd (fst rt) = snd (fst r) /\ snd rt = snd r /\ R c (fst (fst rt)) (fst (fst r)).
Proof.
  destruct 1; cbn [wstept wstep proto_of_cfg x_excl x_ok x_exc].
  - destruct f; cbn; auto.
  - destruct f; [|destruct (c_excl c && is_some (d (Tmp i)))]; cbn; auto using R_after_body.
  - destruct f; cbn; auto using R_after_body.
  - destruct f; cbn; auto using R_after_tail.
  - unfold close_tree. destruct (f || failed) eqn:Hff; cbn [fst snd].
    + repeat split. exact (R_after_fail c i _ false).
    + apply orb_false_elim in Hff as [-> ->]. auto using R_act.
  - unfold replace_tree. destruct f; [|destruct (d (Tmp i))]; cbn [fst snd]; repeat split.
    + exact (R_after_fail c i _ false).
    + cbn. auto.
    + exact (R_after_fail c i _ true).
  - unfold unlink_tree. destruct f; [|destruct (d (Tmp i))]; cbn; auto.
  - cbn. auto.
Qed.

(** ** Whole runs *)
Definition Rsys (c : cfg) (a : syst) (b : sys) : Prop :=
  sdt a = sd b /\ trt a = tr b /\ R c (q1 a) (p1 b) /\ R c (q2 a) (p2 b).

Lemma step2t_sim c s1 s2 a b wf : Rsys c a b -> Rsys c (step2t (proto_of_cfg c) s1 s2 a wf) (step2 c s1 s2 b wf).
Proof.
  intros (Hd & Ht & H1 & H2). destruct wf as [who f]. unfold step2t, step2. rewrite <- Hd.
  destruct who.
  - pose proof (wstept_sim c s2 _ _ (sdt a) f H2) as W.
    destruct (wstept (proto_of_cfg c) s2 (q2 a) (sdt a) f) as [[pt' d'] e], (wstep c s2 (p2 b) (sdt a) f) as [[p' d''] e'].
    cbn in W. destruct W as (-> & -> & HR). unfold Rsys; cbn. rewrite Ht. auto.
  - pose proof (wstept_sim c s1 _ _ (sdt a) f H1) as W.
    destruct (wstept (proto_of_cfg c) s1 (q1 a) (sdt a) f) as [[pt' d'] e], (wstep c s1 (p1 b) (sdt a) f) as [[p' d''] e'].
    cbn in W. destruct W as (-> & -> & HR). unfold Rsys; cbn. rewrite Ht. auto.
Qed.

Lemma run2t_sim c s1 s2 sched : forall a b, Rsys c a b ->
  Rsys c (run2t (proto_of_cfg c) s1 s2 sched a) (run2 c s1 s2 sched b).
Proof.
  induction sched as [|wf sched IH]; intros a b H; cbn; auto.
  apply IH. now apply step2t_sim.
Qed.

Lemma Rsys_start c d0 : Rsys c (startt d0) (start d0).
Proof. unfold Rsys; cbn; auto. Qed.
Lemma Rsys_start1 c d0 : Rsys c (start1t d0) (start1 d0).
Proof. unfold Rsys; cbn; auto. Qed.

Lemma R_committed c pt p : R c pt p -> committedt pt = committed p.
Proof. destruct 1; reflexivity. Qed.
Lemma R_finished c pt p : R c pt p -> finishedt pt = finished p.
Proof. destruct 1; reflexivity. Qed.
Lemma R_assoc c pt p : R c pt p -> assoct pt = assoc p.
Proof. destruct 1; reflexivity. Qed.
Lemma R_about_to_replace c pt p i : R c pt p -> about_to_replace pt i -> p = PReplace i.
Proof.
  intros HR (ok & fl & ne & fd & g & r & ->). inversion HR; subst; auto.
Qed.

(** The refinement theorem: for a protocol in the family, every run of the tree machine is a run of the flag machine
    with the derived flags — same directory, same trace, related program counters. *)
Theorem run2t_refines x : in_family x = true -> forall d0 s1 s2 sched,
  Rsys (derive_cfg x) (run2t x s1 s2 sched (startt d0)) (run2 (derive_cfg x) s1 s2 sched (start d0)).
Proof.
  intros H d0 s1 s2 sched. pose proof (in_family_eq x H) as E.
  rewrite E at 2. apply run2t_sim, Rsys_start.
Qed.

Theorem alonet_refines x : in_family x = true -> forall d0 s faults,
  Rsys (derive_cfg x) (alonet x s faults d0) (alone (derive_cfg x) s faults d0).
Proof.
  intros H d0 s faults. pose proof (in_family_eq x H) as E. unfold alonet, alone.
  rewrite E at 2. apply run2t_sim, Rsys_start1.
Qed.

(** ** The property for every generated protocol *)
Lemma psafe_family x : proto_safe x = true -> in_family x = true /\ cfg_safe (derive_cfg x) = true.
Proof. unfold proto_safe. intros H. now apply andb_prop in H. Qed.
Lemma pok_family x : proto_ok x = true -> in_family x = true /\ cfg_ok (derive_cfg x) = true.
Proof. unfold proto_ok. intros H. now apply andb_prop in H. Qed.
Lemma proto_ok_safe x : proto_ok x = true -> proto_safe x = true.
Proof.
  intros H. destruct (pok_family x H) as [Hf Hc]. unfold proto_safe. rewrite Hf. cbn. now apply cfg_ok_safe.
Qed.
(** The good part of the family is one protocol. *)
Lemma proto_ok_eq x : proto_ok x = true -> x = proto_of_cfg cfg_fixed.
Proof. intros H. destruct (pok_family x H) as [Hf Hc]. rewrite <- (cfg_ok_is_fixed _ Hc). now apply in_family_eq. Qed.

Section Transfer.
Variable x : xproto.
Variables (d0 : dir) (s1 s2 : scen).
Hypothesis Hdest : dest s1 <> dest s2.

Theorem proto_crash_atomic : proto_safe x = true -> forall sched,
  let st := run2t x s1 s2 sched (startt d0) in
  sdt st (File (dest s1)) = (if committedt (q1 st) then Some (new s1) else d0 (File (dest s1))) /\
  sdt st (File (dest s2)) = (if committedt (q2 st) then Some (new s2) else d0 (File (dest s2))).
Proof.
  intros H sched st. destruct (psafe_family x H) as [Hf Hs].
  destruct (run2t_refines x Hf d0 s1 s2 sched) as (Hd & _ & H1 & H2). fold st in Hd, H1, H2.
  rewrite Hd, (R_committed _ _ _ H1), (R_committed _ _ _ H2).
  exact (crash_atomic (derive_cfg x) d0 s1 s2 Hdest Hs sched).
Qed.

Theorem proto_body_exception_keeps_old : proto_safe x = true -> forall r sched,
  raise_at s1 = Some r -> r <= length (body s1) ->
  let st := run2t x s1 s2 sched (startt d0) in
  committedt (q1 st) = false /\ sdt st (File (dest s1)) = d0 (File (dest s1)).
Proof.
  intros H r sched Hr Hle st. destruct (psafe_family x H) as [Hf Hs].
  destruct (run2t_refines x Hf d0 s1 s2 sched) as (Hd & Ht & H1 & H2). fold st in Hd, Ht, H1, H2.
  rewrite Hd, (R_committed _ _ _ H1).
  exact (body_exception_keeps_old (derive_cfg x) d0 s1 s2 Hdest Hs r sched Hr Hle).
Qed.

Theorem proto_no_temp_after_handled_failure : proto_ok x = true -> forall sched,
  let st := run2t x s1 s2 sched (startt d0) in
  finishedt (q1 st) = true -> (forall i, ~ In (false, (EUnlink i, RFault)) (trt st)) ->
  assoct (q1 st) = None /\ forall i, assoct (q2 st) <> Some i -> sdt st (Tmp i) = d0 (Tmp i).
Proof.
  intros H sched st. destruct (pok_family x H) as [Hf Hs].
  destruct (run2t_refines x Hf d0 s1 s2 sched) as (Hd & Ht & H1 & H2). fold st in Hd, Ht, H1, H2.
  rewrite Hd, Ht, (R_finished _ _ _ H1), (R_assoc _ _ _ H1), (R_assoc _ _ _ H2).
  exact (no_temp_after_handled_failure (derive_cfg x) d0 s1 s2 Hdest Hs sched).
Qed.

Theorem proto_two_writers_isolated : proto_safe x = true -> forall sched,
  let st := run2t x s1 s2 sched (startt d0) in
  (forall i, assoct (q1 st) = Some i -> assoct (q2 st) = Some i -> False) /\
  (forall i, assoct (q1 st) = Some i \/ assoct (q2 st) = Some i -> d0 (Tmp i) = None /\ sdt st (Tmp i) <> None) /\
  (forall i, about_to_replace (q1 st) i -> sdt st (Tmp i) = Some (new s1)) /\
  (forall i, about_to_replace (q2 st) i -> sdt st (Tmp i) = Some (new s2)) /\
  (forall n, n <> File (dest s1) -> n <> File (dest s2) -> d0 n <> None -> sdt st n = d0 n).
Proof.
  intros H sched st. destruct (psafe_family x H) as [Hf Hs].
  destruct (run2t_refines x Hf d0 s1 s2 sched) as (Hd & Ht & H1 & H2). fold st in Hd, Ht, H1, H2.
  destruct (two_writers_isolated (derive_cfg x) d0 s1 s2 Hdest Hs sched) as (A & B & C & D & E).
  rewrite Hd, (R_assoc _ _ _ H1), (R_assoc _ _ _ H2). repeat split; auto.
  - apply (B i); auto.
  - apply (B i); auto.
  - intros i Hi. apply C. eapply R_about_to_replace; eauto.
  - intros i Hi. apply D. eapply R_about_to_replace; eauto.
Qed.
End Transfer.

Section TransferAlone.
Variable x : xproto.
Variables (d0 : dir) (s : scen).

Theorem proto_alone_crash_atomic : proto_safe x = true -> forall faults,
  let st := alonet x s faults d0 in
  sdt st (File (dest s)) = (if committedt (q1 st) then Some (new s) else d0 (File (dest s))).
Proof.
  intros H faults st. destruct (psafe_family x H) as [Hf Hs].
  destruct (alonet_refines x Hf d0 s faults) as (Hd & _ & H1 & _). fold st in Hd, H1.
  rewrite Hd, (R_committed _ _ _ H1). exact (alone_crash_atomic (derive_cfg x) d0 s Hs faults).
Qed.

Theorem proto_alone_fault_keeps_old : proto_safe x = true -> forall faults,
  let st := alonet x s faults d0 in
  faulted false (trt st) -> committedt (q1 st) = false /\ sdt st (File (dest s)) = d0 (File (dest s)).
Proof.
  intros H faults st. destruct (psafe_family x H) as [Hf Hs].
  destruct (alonet_refines x Hf d0 s faults) as (Hd & Ht & H1 & _). fold st in Hd, Ht, H1.
  rewrite Hd, Ht, (R_committed _ _ _ H1). exact (alone_fault_keeps_old (derive_cfg x) d0 s Hs faults).
Qed.

Theorem proto_alone_body_exception_cleans : proto_ok x = true -> forall r faults,
  raise_at s = Some r -> r <= length (body s) ->
  let st := alonet x s faults d0 in
  sdt st (File (dest s)) = d0 (File (dest s)) /\
  (finishedt (q1 st) = true -> (forall i, ~ In (false, (EUnlink i, RFault)) (trt st)) -> forall n, sdt st n = d0 n).
Proof.
  intros H r faults Hr Hle st. destruct (pok_family x H) as [Hf Hs].
  destruct (alonet_refines x Hf d0 s faults) as (Hd & Ht & H1 & _). fold st in Hd, Ht, H1.
  rewrite Hd, Ht, (R_finished _ _ _ H1).
  exact (alone_body_exception_cleans (derive_cfg x) d0 s Hs r faults Hr Hle).
Qed.

Theorem proto_alone_no_temp_left : proto_ok x = true -> forall faults,
  let st := alonet x s faults d0 in
  finishedt (q1 st) = true -> (forall i, ~ In (false, (EUnlink i, RFault)) (trt st)) ->
  forall i, sdt st (Tmp i) = d0 (Tmp i).
Proof.
  intros H faults st. destruct (pok_family x H) as [Hf Hs].
  destruct (alonet_refines x Hf d0 s faults) as (Hd & Ht & H1 & _). fold st in Hd, Ht, H1.
  rewrite Hd, Ht, (R_finished _ _ _ H1). exact (alone_no_temp_left (derive_cfg x) d0 s Hs faults).
Qed.

(** BSP.save: if the rebuild phase raises, nothing at all happens in the directory; otherwise the writer's
    guarantees apply. *)
Theorem save_pre_failure_touches_nothing : forall faults,
  let st := save_alone x false s faults d0 in
  (forall n, sdt st n = d0 n) /\ trt st = [] /\ committedt (q1 st) = false.
Proof. intros faults; cbn; auto. Qed.

End TransferAlone.

(** ** Example programs outside the family *)

