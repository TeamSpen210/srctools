(** Accepted walk descriptions list exactly the matching entries of the default walk. *)
From Coq Require Import List NArith Bool.
From SV Require Import Fmt.VpkDir SM.Vpk SM.VpkProofs SM.VpkNestedMap SM.VpkListing.
Import ListNotations.
Open Scope N_scope.

Lemma filter_flat_map {A B} (p : B -> bool) (f : A -> list B) l :
  filter p (flat_map f l) = flat_map (fun x => filter p (f x)) l.
Proof.
  induction l as [|x l IH]; [reflexivity|]. cbn. rewrite <- IH. clear IH.
  induction (f x) as [|y r IH]; [reflexivity|]. cbn. destruct (p y); cbn; now rewrite IH.
Qed.

Lemma filter_map_const {A B} (p : B -> bool) (g : A -> B) (c : bool) l :
  (forall a, p (g a) = c) -> filter p (map g l) = if c then map g l else [].
Proof.
  intros H. induction l as [|a l IH]; [now destruct c|]. cbn. rewrite H, IH. now destruct c.
Qed.

Lemma flat_map_nil_in {A B} (f : A -> list B) l : (forall x, In x l -> f x = []) -> flat_map f l = [].
Proof. induction l as [|x l IH]; [reflexivity|]. intros H. cbn. rewrite (H x (or_introl eq_refl)), IH; [reflexivity|]. intros y Hy. apply H. now right. Qed.

(** the one dict stored under the key, for a dict without duplicate keys, is "all entries with that key" *)
Lemma only_is_filter {V B} (F : bytes * V -> list B) ext (t : list (bytes * V)) : NoDup (map fst t) ->
  flat_map F (match bget ext t with Some ds => [(ext, ds)] | None => [] end)
  = flat_map (fun e => if bytes_eqb ext (fst e) then F e else []) t.
Proof.
  induction t as [|[k v] r IH]; [reflexivity|]. intros Hnd. inversion Hnd as [|? ? Hnotin Hnd']. subst.
  cbn [bget flat_map fst]. destruct (bytes_eqb ext k) eqn:E.
  - apply bytes_eqb_eq in E. subst k. cbn [flat_map]. f_equal. symmetry. apply flat_map_nil_in.
    intros [k' v'] Hin. cbn [fst]. destruct (bytes_eqb ext k') eqn:E'; [|reflexivity].
    apply bytes_eqb_eq in E'. subst k'. exfalso. apply Hnotin. apply (in_map fst) in Hin. exact Hin.
  - cbn [app]. apply IH. exact Hnd'.
Qed.

Theorem list_walk_is_filter eg fg w : walk_ok eg fg w = true -> forall ext folder t, NoDup (map fst t) ->
  list_walk w ext folder t = filter (listed eg fg ext folder) (flat_tree t).
Proof.
  intros Hw ext folder t Hnd. unfold walk_ok in Hw. apply andb_true_iff in Hw. destruct Hw as [Hw Hev].
  apply andb_true_iff in Hw. destruct Hw as [He Hd].
  unfold list_walk, flat_tree. rewrite Hev. rewrite filter_flat_map.
  assert (Hinner : forall e : bytes * list (bytes * list (bytes * info)),
    filter (listed eg fg ext folder) (flat_map (fun d => map (fun f => ((fst e, fst d, fst f), snd f)) (snd d)) (snd e))
    = if (if eg then bytes_eqb ext (fst e) else true)
      then flat_map (fun d => if dir_taken w folder (fst d) && true then map (fun f => ((fst e, fst d, fst f), snd f)) (snd d) else []) (snd e)
      else []).
  { intros e. rewrite filter_flat_map.
    destruct (if eg then bytes_eqb ext (fst e) else true) eqn:Ex.
    - apply flat_map_ext. intros d.
      rewrite (filter_map_const _ _ (dir_taken w folder (fst d) && true)); [reflexivity|].
      intros f. cbn [listed]. rewrite Ex. cbn [andb]. rewrite andb_true_r. unfold dir_taken.
      destruct (lw_dir w), fg; try discriminate; reflexivity.
    - apply flat_map_nil_in. intros d _. rewrite (filter_map_const _ _ false); [reflexivity|].
      intros f. cbn [listed]. rewrite Ex. reflexivity. }
  unfold ext_dicts. destruct (lw_ext w), eg; try discriminate.
  - apply flat_map_ext. intros e. now rewrite Hinner.
  - etransitivity; [exact (only_is_filter _ ext t Hnd)|]. apply flat_map_ext. intros e. now rewrite Hinner.
Qed.

(** every entry of [walks_ok] tables is such a filter *)
Corollary walks_ok_lists_matching ws : walks_ok ws = true -> forall eg fg w, In (eg, fg, w) ws -> forall ext folder t, NoDup (map fst t) ->
  list_walk w ext folder t = filter (listed eg fg ext folder) (flat_tree t).
Proof.
  intros H eg fg w Hin. unfold walks_ok in H. apply andb_true_iff in H. destruct H as [H _].
  rewrite forallb_forall in H. specialize (H _ Hin). cbn in H. apply list_walk_is_filter. exact H.
Qed.

Lemma filter_all {A} (p : A -> bool) l : (forall x, p x = true) -> filter p l = l.
Proof. intros H. induction l as [|x l IH]; [reflexivity|]. cbn. now rewrite H, IH. Qed.

(** extract_all writes exactly one file per entry of the default walk: named by the entry's listed name, holding what read() returns *)
Theorem extract_all_writes_every_file {A B} w (names : key -> A) (rd : info -> B) : walk_ok false false w = true -> forall t, NoDup (map fst t) ->
  extract_files w names rd t = map (fun e => (names (fst e), rd (snd e))) (flat_tree t).
Proof.
  intros Hw t Hnd. unfold extract_files. rewrite (list_walk_is_filter false false w Hw [] [] t Hnd).
  rewrite filter_all; [reflexivity|]. intros [[[x d] n] i]. reflexivity.
Qed.
