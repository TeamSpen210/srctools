(** C19 — proofs about SM/FsChainWhole.v. *)
From Coq Require Import List NArith.
From SV Require Import SM.FsChain SM.FsChainProofs SM.FsChainCompose SM.FsChainForms SM.FsChainFormsProofs SM.FsChainWhole.
Import ListNotations.
Open Scope N_scope.

Lemma k_lookup_spec m q : kmember_ok m ->
  lookup (k_b m) (k_fs m) (full_name (k_p m) q) = spec_lookup (k_fs m) (normpath (slash (pjoin (k_p m) q))).
Proof.
  intros [Hk [Hc _]]. rewrite (lookup_slashnorm _ _ _ Hk Hc), slash_full_name. reflexivity.
Qed.

Lemma k_read_whole m e : kmember_ok m -> k_read m e = snd e.
Proof.
  intros [_ [_ Hs]]. unfold k_read. destruct (k_store m) as [[[c limit] in_dir]|]; [|reflexivity].
  apply ceval_whole_all_placements. exact Hs.
Qed.

Lemma chain_get_spec ms q : Forall kmember_ok ms -> chain_get (map k_member ms) q = chain_spec (map k_spec ms) q.
Proof.
  induction 1 as [|m r Hm _ IH]; [reflexivity|].
  cbn [map chain_get chain_spec k_spec]. cbn [k_member member_of m_lookup m_prefix].
  rewrite (k_lookup_spec m q Hm). destruct (spec_lookup _ _); [reflexivity|exact IH].
Qed.

Lemma chain_read_spec ms q : Forall kmember_ok ms -> chain_read ms q = option_map snd (chain_spec (map k_spec ms) q).
Proof.
  induction 1 as [|m r Hm _ IH]; [reflexivity|].
  cbn [map chain_read chain_spec k_spec]. rewrite (k_lookup_spec m q Hm).
  destruct (spec_lookup _ _) as [e|]; [|exact IH]. cbn [option_map]. rewrite (k_read_whole m e Hm). reflexivity.
Qed.

Lemma k_xmember_ok m : kmember_ok m -> xmember_ok (k_xmember m).
Proof. intros [Hk [Hc _]]. apply xmember_of_ok; assumption. Qed.

Lemma map_x_base ms : map x_base (map k_xmember ms) = map k_member ms.
Proof. rewrite map_map. apply map_ext. reflexivity. Qed.

(** Every public lookup form of a chain against the one specification: the File of [chain[q]] / [_get_file(q)], the
    answer of [q in chain] / [_file_exists(q)] in every sound shape, and the bytes read from [open_bin(q)] /
    [open_str(q)] - for every query string, every ordering of members of whatever kind, restricted members that miss
    before members that hit. *)
Theorem chain_every_form_spec em ms q :
  exists_mode_ok em = true -> Forall kmember_ok ms ->
  chain_get (map k_member ms) q = chain_spec (map k_spec ms) q
  /\ chain_open (map k_member ms) q = chain_spec (map k_spec ms) q
  /\ chain_exists em (map k_xmember ms) q = is_some (chain_spec (map k_spec ms) q)
  /\ chain_read ms q = option_map snd (chain_spec (map k_spec ms) q).
Proof.
  intros Hem Hms. split; [apply chain_get_spec; exact Hms|]. split; [apply chain_get_spec; exact Hms|].
  split; [|apply chain_read_spec; exact Hms].
  rewrite (chain_exists_agrees em (map k_xmember ms) q Hem).
  - rewrite map_x_base, (chain_get_spec ms q Hms). reflexivity.
  - apply Forall_forall. intros x Hx. apply in_map_iff in Hx as [m [<- Hm]].
    apply k_xmember_ok. exact (proj1 (Forall_forall _ _) Hms m Hm).
Qed.

Lemma kmembers_sound ms : Forall kmember_walk_ok ms -> Forall sound_member (map k_member ms) /\ Forall kmember_ok ms.
Proof.
  intros H. split.
  - apply Forall_forall. intros x Hx. apply in_map_iff in Hx as [m [<- Hm]].
    destruct (proj1 (Forall_forall _ _) H m Hm) as [[Hk [Hc _]] [Hw Hp]].
    exists (k_b m), (k_fs m), (k_p m). split; [reflexivity|]. split; [exact Hw|]. split; [|split; assumption].
    apply backend_keys_norm_ok. exact Hk.
  - eapply Forall_impl; [|exact H]. intros m [Hm _]. exact Hm.
Qed.

