(** C09 — a copy built according to a census all of whose fields pass [field_fresh] shares no mutable
    location with the original; with the frame theorem: copy and original are independent under every
    mutation history.  Observational equality (completeness) composes field by field. *)
From Coq Require Import List Bool String.
From SV Require Import SM.Store SM.StoreProofs SM.StoreCopy.
Import ListNotations.

Lemma extends_alloc h h' l : extends h h' -> alloc h l -> h' l = h l.
Proof. unfold alloc. intros He Ha. destruct (h l) as [nd|] eqn:E; [exact (He l nd E)|congruence]. Qed.

(** In an extension of a closed heap, what an old object reaches is old and reached as before. *)
Lemma old_reach h h' r l :
  closed h -> extends h h' -> alloc h r -> reach h' r l -> reach h r l /\ alloc h l.
Proof.
  intros Hc He Ha Hr. induction Hr; [split; [constructor|assumption]|].
  destruct IHHr as (Hr0 & Hal). rewrite (extends_alloc h h' l He Hal) in H.
  split; [eapply reach_step; eauto | eapply Hc; eauto].
Qed.

Lemma extends_agree h h' r :
  closed h -> extends h h' -> alloc h r -> forall x, reach h r x -> h' x = h x.
Proof. intros Hc He Ha x Hx. exact (extends_alloc h h' x He (reach_alloc h r x Hc Ha Hx)). Qed.

Lemma no_mut_ext h h' v :
  closed h -> extends h h' -> val_alloc h v -> no_mut h v -> new_mut h h' v.
Proof.
  intros Hc He Hv Hn l Hl Hm. destruct v as [z|r]; [destruct Hl|]. cbn in *.
  destruct (old_reach _ _ _ _ Hc He Hv Hl) as (Hr & Hal). exfalso. apply (Hn l Hr).
  destruct Hm as (nd & E & Hm). rewrite (extends_alloc h h' l He Hal) in E. exists nd. auto.
Qed.

Lemma reach_head h r l :
  reach h r l -> l = r \/ exists nd r', h r = Some nd /\ In (VRef r') (nfields nd) /\ reach h r' l.
Proof.
  intros Hr. induction Hr; [left; reflexivity|]. right.
  destruct IHHr as [->|(nd1 & r1 & H1 & H2 & H3)].
  - exists nd, l'. split; [assumption|]. split; [assumption|constructor].
  - exists nd1, r1. split; [assumption|]. split; [assumption|]. eapply reach_step; eauto.
Qed.

(** A new node whose field values reach only new mutables reaches only new mutables. *)
Lemma node_new_mut h h' c nd' :
  h c = None -> h' c = Some nd' -> (forall v', In v' (nfields nd') -> new_mut h h' v') ->
  new_mut h h' (VRef c).
Proof.
  intros Hc Hc' Hf l Hl Hm. cbn in Hl. destruct (reach_head _ _ _ Hl) as [->|(nd & r' & H1 & H2 & H3)].
  - exact Hc.
  - rewrite Hc' in H1. inversion H1; subst nd. exact (Hf (VRef r') H2 l H3 Hm).
Qed.

Lemma no_mut_elem h c nd el : no_mut h (VRef c) -> h c = Some nd -> In el (nfields nd) -> no_mut h el.
Proof.
  intros Hn Hc Hin l Hl. destruct el as [z|r]; [destruct Hl|]. cbn in *.
  apply Hn. eapply reach_trans; [|exact Hl]. eapply reach_step; [constructor| exact Hc | exact Hin].
Qed.

Lemma closed_fields_alloc h l nd v : closed h -> h l = Some nd -> In v (nfields nd) -> val_alloc h v.
Proof. intros Hc Hl Hin. destruct v as [z|x]; [exact I|]. exact (Hc _ _ _ Hl Hin). Qed.

(** For a container copied shallowly, an accepted kind says that its elements reach nothing mutable. *)
Lemma shallow_elems_no_mut k h c :
  field_fresh k HShallow = true -> kind_sem k h (VRef c) ->
  forall nd el, h c = Some nd -> In el (nfields nd) -> no_mut h el.
Proof.
  intros Hf Hk nd el H1 H2.
  destruct k as [| | | |[|]]; try discriminate Hf; try exact (no_mut_elem h c nd el Hk H1 H2).
  exact (Hk nd el H1 H2).
Qed.

(** One field: an accepted (kind, how) pair yields a value whose mutable reach is entirely new. *)
Lemma field_new_mut k w h h' v v' :
  closed h -> extends h h' -> val_alloc h v ->
  field_fresh k w = true -> kind_sem k h v -> how_sem w h h' v v' -> new_mut h h' v'.
Proof.
  intros Hc He Hv Hok Hk Hw.
  assert (Hatom : forall z, new_mut h h' (VAtom z)) by (intros z l []).
  destruct w; cbn in Hw.
  - (* HShare *) subst v'. destruct k as [| | | |[|]]; try discriminate; apply no_mut_ext; auto.
  - (* HDeep *) exact Hw.
  - (* HShallow: a new node holding the old elements *)
    destruct v as [z|c]; [subst v'; apply Hatom|].
    destruct Hw as (c' & nd & m & -> & Hn & Hnd & Hnd').
    eapply node_new_mut; eauto. cbn. intros el Hin. apply no_mut_ext; auto.
    + exact (closed_fields_alloc h c nd el Hc Hnd Hin).
    + exact (shallow_elems_no_mut k h c Hok Hk nd el Hnd Hin).
  - (* HMissing *) exact Hw.
  - (* HCtx *) subst v'. destruct k as [| | | |[|]]; try discriminate; apply no_mut_ext; auto.
  - (* HNewId *) destruct Hw as (z & ->). apply Hatom.
Qed.

Lemma fields_new_mut h h' :
  closed h -> extends h h' ->
  forall cen vs vs', fields_rel h h' cen vs vs' ->
  (forall v, In v vs -> val_alloc h v) ->
  forallb (fun p => field_fresh (fst p) (snd p)) cen = true ->
  forall v', In v' vs' -> new_mut h h' v'.
Proof.
  intros Hc He cen vs vs' Hr. induction Hr; intros Hal Hok v0 Hin; [destruct Hin|].
  cbn in Hok. rewrite andb_true_iff in Hok. destruct Hok as [Hok1 Hok2].
  destruct Hin as [<-|Hin].
  - eapply field_new_mut; eauto. apply Hal. left. reflexivity.
  - apply IHHr; auto. intros x Hx. apply Hal. right. exact Hx.
Qed.

Lemma ck_fresh c :
  copy_fresh_mutables c = true -> forallb (fun p => field_fresh (fst p) (snd p)) (ck c) = true.
Proof.
  unfold copy_fresh_mutables, ck. induction c as [|[[s k] w] c IH]; [reflexivity|].
  cbn. rewrite !andb_true_iff. intros [H1 H2]. auto.
Qed.

(** Class level: the copy of [a] is a new node [c] whose fields are related to [a]'s by the census. *)
Theorem census_copy_new_mut : forall (c : census) h h' la lc nd nd',
  closed h -> extends h h' -> h la = Some nd -> h lc = None -> h' lc = Some nd' ->
  copy_fresh_mutables c = true ->
  fields_rel h h' (ck c) (nfields nd) (nfields nd') ->
  new_mut h h' (VRef lc).
Proof.
  intros c h h' la lc nd nd' Hc He Hla Hlc Hlc' Hok Hrel.
  eapply node_new_mut; eauto.
  eapply fields_new_mut; eauto using ck_fresh.
  intros v Hin. exact (closed_fields_alloc h la nd v Hc Hla Hin).
Qed.

(** A copy all of whose mutables are new is separated from the original. *)
Theorem copy_sep h h' a c :
  closed h -> extends h h' -> alloc h a -> new_mut h h' (VRef c) -> sep h' a [c].
Proof.
  intros Hc He Ha Hn l Hla (r & [<-|[]] & Hlc) Hm.
  destruct (old_reach _ _ _ _ Hc He Ha Hla) as (_ & Hal). apply Hal. exact (Hn l Hlc Hm).
Qed.

(** The copy of [la] is a new node [lc] built as a fresh census says: both are allocated, and separated. *)
Lemma census_copy_sep (c : census) h h' la lc nd nd' :
  closed h -> extends h h' -> h la = Some nd -> h lc = None -> h' lc = Some nd' ->
  copy_fresh_mutables c = true -> fields_rel h h' (ck c) (nfields nd) (nfields nd') ->
  alloc h' la /\ alloc h' lc /\ sep h' la [lc].
Proof.
  intros Hc He Hla Hlc Hlc' Hok Hrel.
  split; [unfold alloc; rewrite (He _ _ Hla); discriminate|]. split; [unfold alloc; congruence|].
  apply (copy_sep h h' la lc Hc He); [unfold alloc; congruence|].
  exact (census_copy_new_mut c h h' la lc nd nd' Hc He Hla Hlc Hlc' Hok Hrel).
Qed.

(** Census + frame theorem: copy and original are independent under every mutation history. *)
Theorem census_copy_independent : forall (c : census) h h' la lc nd nd',
  closed h -> closed h' -> extends h h' -> h la = Some nd -> h lc = None -> h' lc = Some nd' ->
  copy_fresh_mutables c = true ->
  fields_rel h h' (ck c) (nfields nd) (nfields nd') ->
  (forall ms h'' R, steps (h', [lc]) ms (h'', R) -> forall n, unfold n h'' (VRef la) = unfold n h' (VRef la)) /\
  (forall ms h'' R, steps (h', [la]) ms (h'', R) -> forall n, unfold n h'' (VRef lc) = unfold n h' (VRef lc)).
Proof.
  intros c h h' la lc nd nd' Hc Hc' He Hla Hlc Hlc' Hok Hrel.
  destruct (census_copy_sep c h h' la lc nd nd' Hc He Hla Hlc Hlc' Hok Hrel) as (Ha & Hb & Hsep).
  exact (sep_independent h' la lc Hc' Ha Hb Hsep).
Qed.

(** Census booleans unfold to statements about every field. *)
Theorem covers_all_fields (c : census) :
  copy_covers_fields c = true -> forall f k w, In (f, k, w) c -> w <> HMissing.
Proof.
  unfold copy_covers_fields. rewrite forallb_forall. intros H f k w Hin ->.
  specialize (H _ Hin). discriminate.
Qed.

Theorem fresh_all_fields (c : census) :
  copy_fresh_mutables c = true -> forall f k w, In (f, k, w) c -> field_fresh k w = true.
Proof.
  unfold copy_fresh_mutables. rewrite forallb_forall. intros H f k w Hin. exact (H _ Hin).
Qed.
