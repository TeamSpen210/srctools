(** Readers that change, in place, objects of a view they look at (hidden mutations).

    [_lmp_read_bmodels] takes the "model" key out of the brush entities of the CACHED [ents] view (the brush model is
    reachable through [bsp.bmodels[ent]] instead); [_lmp_write_bmodels] looks at [ents] again and puts the keys back
    before it serialises; [bmodels] precedes [ents] in the rebuild order, so the entity lump is written with the keys.
    In [LazyLumps.getf] a look leaves the cached values of the views the reader looked at unchanged.  Here:

    - [mdeps v]: the views whose cached value the reader of [v] changes ([mut v d]), once its own parse has succeeded;
    - the writer of [v], after it looked at its dependencies, undoes the change ([unmut v d]) and then serialises;
    - [early = true] models a reader that changes the objects BEFORE it can still raise (the defect repaired by fix
      477021c): the change stays although nothing is cached for [v].

    Result ([mut_save_equiv]; [c10_hidden_mutation_lossless] in Props/C10.v): if [early = false], every mutated view is looked at by both the
    reader and the writer of the mutating view ([mdeps v] within [v_rdeps] and [v_wdeps]), no two views change the
    same view, and [unmut v d (mut v d p) = p] for the values [p] parsed from this file, then for every order-consistent graph, every ok shape and all access
    sequences (looks that raise included) saving in the mutating machine completes exactly when it does in the plain
    one and leaves the same lumps and the same (empty) cache — so it is lossless under the hypotheses of the main
    theorem.  The proof is a simulation: the mutating state is the plain state with [mut w x] applied to the cached value
    of [x] for the (unique) cached — or, during its writer, just popped — view [w] that mutates [x] ([R]); [C] says the
    views a cached view mutates are cached too.

    Closed counterexamples: [early = true] (a look that raises leaves the change behind: the entity lump is written
    without the keys), and a writer that does not undo the change. *)
From Coq Require Import List Arith Lia.
From SV Require Import SM.LazyLumps SM.LazyLumpsProofs SM.LazyLumpsCond SM.LazyLumpsSide.
Import ListNotations.

Section Mut.
  Variables D P : Type.
  Variable empty : D.
  Variable rd : nat -> list D -> option P.
  Variable wr : nat -> P -> list D.
  Variable g : graph.
  Variable sh : shape.
  Variable mdeps : nat -> list nat.               (* views whose cached value the reader of v changes in place *)
  Variable mut unmut : nat -> nat -> P -> P.       (* the change made by the reader of v to the value of d / undone by its writer *)
  Variable early : bool.                           (* the change is made before the reader's last statement that can raise *)

  Notation nviews := (nviews g).
  Notation decl := (decl g).
  Notation own := (own g).
  Notation state := (state D P).
  Notation look_all := (look_all D P).
  Notation getf := (getf D P empty rd g sh).
  Notation get := (get D P empty rd g sh).
  Notation run := (run D P empty rd g sh).
  Notation clear_lumps := (clear_lumps D P empty).
  Notation set_cache := (set_cache D P).
  Notation pre_clear := (pre_clear D P empty g sh).
  Notation parse_input := (parse_input D P g).
  Notation save_step := (save_step D P empty rd wr g sh).
  Notation save := (save D P empty rd wr g sh).

  Definition app_cache (f : nat -> nat -> P -> P) (v : nat) (s : state) : state :=
    mkS (raw s) (fun x => if mem x (mdeps v) then option_map (f v x) (cache s x) else cache s x).

  (** ParsedLump.__get__ with a reader that changes cached values of the views it looked at. *)
  Fixpoint getf_m (fuel : nat) (v : nat) (s : state) : bool * state :=
    match fuel with
    | 0 => (false, s)
    | S f =>
        if v <? nviews then
          match cache s v with
          | Some _ => (true, s)
          | None =>
              let r := look_all (getf_m f) (v_rdeps (decl v)) (pre_clear v s) in
              if fst r then
                let q := if early then app_cache mut v (snd r) else snd r in
                match rd v (parse_input s (snd r) v) with
                | Some p => (true, (if early then (fun x => x) else app_cache mut v) (clear_lumps (own v) (set_cache v (Some p) q)))
                | None => (false, q)
                end
              else r
          end
        else (false, s)
    end.
  Definition get_m : nat -> state -> bool * state := getf_m nviews.
  Definition run_m (accs : list nat) (s : state) : state := fold_left (fun s v => snd (get_m v s)) accs s.

  (** One iteration of the loop of BSP.save: the writer looks at its dependencies, undoes its reader's changes, serialises. *)
  Definition save_step_m (acc : bool * state) (v : nat) : bool * state :=
    if fst acc then
      let s := snd acc in
      match cache s v with
      | None => acc
      | Some p =>
          let s1 := set_cache v None s in
          let r := look_all get_m (v_wdeps (decl v)) s1 in
          if fst r then
            let s2 := app_cache unmut v (snd r) in
            let p' := if mem v (v_wdeps (decl v)) then match cache s2 v with Some q => q | None => p end else p in
            (true, mkS (store_sel D (v_wstore (decl v)) (own v) (wr v p') (raw s2)) (cache s2))
          else r
      end
    else acc.
  Definition save_m (s : state) : bool * state := fold_left save_step_m (save_todo D P g sh s) (true, s).

  Lemma getf_mono : forall x f v (s : state), cache s x <> None -> cache (snd (getf f v s)) x <> None.
  Proof.
    intros x f v s. apply (getf_pres D P empty rd g sh (fun s => cache s x <> None) (fun _ => True)); [auto | auto | | exact I].
    intros u p s' _ _ H. cbn [cache LazyLumps.clear_lumps LazyLumps.set_cache].
    destruct (Nat.eq_dec x u) as [->|Hne]; [rewrite upd_eq; discriminate | now rewrite upd_neq].
  Qed.

  Lemma getf_caches : forall f v (s : state), fst (getf f v s) = true -> cache (snd (getf f v s)) v <> None.
  Proof.
    intros [|f] v s; cbn [getf LazyLumps.getf]; [discriminate|].
    destruct (v <? nviews); [|discriminate]. destruct (cache s v) eqn:E; [intros _; cbn [snd]; congruence|].
    destruct (look_all (getf f) (v_rdeps (decl v)) (pre_clear v s)) as [b q]. cbn [fst snd].
    destruct b; [|discriminate]. destruct (rd v _); cbn [fst snd]; [intros _|discriminate].
    cbn [cache LazyLumps.clear_lumps LazyLumps.set_cache]. rewrite upd_eq. discriminate.
  Qed.

  Lemma look_all_all_cached : forall f ds (s : state), fst (look_all (getf f) ds s) = true ->
    forall d, In d ds -> cache (snd (look_all (getf f) ds s)) d <> None.
  Proof.
    intros f. induction ds as [|a ds IH]; intros s Ht d Hd; [destruct Hd|]. cbn [LazyLumps.look_all] in *.
    pose proof (getf_caches f a s) as Hc. destruct (getf f a s) as [b q]. cbn [fst snd] in *.
    destruct b; [|discriminate]. destruct Hd as [<-|Hd]; [|exact (IH q Ht d Hd)].
    apply (look_all_pres D P (fun s' => cache s' a <> None) (getf f) ds); [|exact (Hc eq_refl)].
    intros d' s' _ Hs'. now apply getf_mono.
  Qed.

  Definition cached (s : state) (w : nat) : Prop := cache s w <> None.
  (** The views whose changes are in force: the cached ones and the one whose writer is running. *)
  Definition mutr (e : option nat) (s : state) (w : nat) : Prop := cached s w \/ e = Some w.
  Definition R (e : option nat) (s' s : state) : Prop :=
    (forall l, raw s' l = raw s l) /\
    (forall x, match cache s x with
               | None => cache s' x = None
               | Some p => cache s' x <> None /\
                           (forall w, mutr e s w -> In x (mdeps w) -> cache s' x = Some (mut w x p)) /\
                           ((forall w, mutr e s w -> ~ In x (mdeps w)) -> cache s' x = Some p)
               end).
  Definition C (e : option nat) (s : state) : Prop := forall w d, mutr e s w -> In d (mdeps w) -> cached s d.

  Lemma look_all_sim : forall e (look' look : nat -> state -> bool * state) ds,
    (forall d a b, In d ds -> R e a b -> C e b ->
       fst (look' d a) = fst (look d b) /\ R e (snd (look' d a)) (snd (look d b)) /\ C e (snd (look d b))) ->
    forall a b, R e a b -> C e b ->
    fst (look_all look' ds a) = fst (look_all look ds b) /\ R e (snd (look_all look' ds a)) (snd (look_all look ds b)) /\
    C e (snd (look_all look ds b)).
  Proof.
    intros e look' look ds H a b HR HC.
    exact (look_all_rel D P (fun a b => R e a b /\ C e b) look' look ds (fun d a b Hd Hab => H d a b Hd (proj1 Hab) (proj2 Hab))
             a b (conj HR HC)).
  Qed.

  Section Consistent.
    Hypothesis OC : order_consistent g = true.
    Hypothesis SH : shape_ok sh = true.
    Hypothesis Hearly : early = false.
    Hypothesis Hsub : forall v d, In d (mdeps v) -> In d (v_rdeps (decl v)) /\ In d (v_wdeps (decl v)).
    Hypothesis Huniq : forall v w x, In x (mdeps v) -> In x (mdeps w) -> v = w.
    Variable s0 : state.
    (* on the values parsed from this file the writer's undo restores what the reader changed *)
    Hypothesis Hundo : forall v d p, In d (mdeps v) -> d < nviews -> rd d (own_data D P g s0 d) = Some p ->
      unmut v d (mut v d p) = p.
    Hypothesis Hlen : wr_len_ok D P rd wr g s0.
    Notation Inv := (Inv D P rd wr g s0 (fun _ => True)).

    Lemma mdeps_gt : forall w d, In d (mdeps w) -> w < d.
    Proof.
      intros w d Hin. destruct (Hsub w d Hin) as [Hr _]. destruct (Nat.lt_ge_cases w nviews) as [Hw|Hw].
      - destruct (deps_gt g OC w d Hw (in_or_app _ _ _ (or_introl Hr))). lia.
      - unfold LazyLumps.decl in Hr. rewrite nth_overflow in Hr by exact Hw. destruct Hr.
    Qed.

    Lemma look_all_below : forall w f ds (s : state), (forall d, In d ds -> w < d) ->
      cache (snd (look_all (getf f) ds s)) w = cache s w.
    Proof.
      intros w f ds s H. apply (look_all_pres D P (fun s' => cache s' w = cache s w) (getf f) ds); [|reflexivity].
      intros d s' Hd Hs'. rewrite (getf_cache_below D P empty rd g sh OC w f d s' (H d Hd)). exact Hs'.
    Qed.

    (** The step "cache the parsed value, clear the lumps, change the looked-at views". *)
    Lemma cache_step_sim : forall e v p (q' q : state), v < nviews -> (forall k, e = Some k -> k < v) ->
      R e q' q -> C e q -> cache q v = None -> (forall d, In d (v_rdeps (decl v)) -> cache q d <> None) ->
      R e (app_cache mut v (clear_lumps (own v) (set_cache v (Some p) q'))) (clear_lumps (own v) (set_cache v (Some p) q)) /\
      C e (clear_lumps (own v) (set_cache v (Some p) q)).
    Proof.
      intros e v p q' q Hv He [Hr Hc] HC Hqv Hall.
      assert (Hvm : ~ In v (mdeps v)) by (intros H; pose proof (mdeps_gt v v H); lia).
      assert (Hnew : forall w, mutr e (clear_lumps (own v) (set_cache v (Some p) q)) w <-> (w = v \/ mutr e q w)).
      { intros w. unfold mutr, cached. cbn [cache LazyLumps.clear_lumps LazyLumps.set_cache]. unfold upd.
        destruct (Nat.eqb w v) eqn:E.
        - apply Nat.eqb_eq in E. subst. split; [auto | intros _; left; discriminate].
        - apply Nat.eqb_neq in E. split; [intros [H|H]; right; [left | right]; assumption|].
          intros [H|[H|H]]; [contradiction | left; assumption | right; assumption]. }
      split.
      - split.
        + intros l. cbn [raw app_cache LazyLumps.clear_lumps LazyLumps.set_cache]. destruct (mem l (own v)); [reflexivity | apply Hr].
        + intros x. cbn [cache app_cache LazyLumps.clear_lumps LazyLumps.set_cache]. unfold upd.
          destruct (Nat.eqb x v) eqn:Exv.
          * apply Nat.eqb_eq in Exv. subst x.
            assert (Hm : mem v (mdeps v) = false) by (apply mem_false; exact Hvm). rewrite Hm.
            split; [discriminate|]. split; [|reflexivity].
            intros w Hw Hin. exfalso. apply Hnew in Hw. destruct Hw as [->|Hw]; [exact (Hvm Hin)|]. exact (HC w v Hw Hin Hqv).
          * pose proof (Hc x) as Hx. destruct (cache q x) as [px|] eqn:Eqx.
            2:{ rewrite Hx. destruct (mem x (mdeps v)); reflexivity. }
            destruct Hx as (Hne & Ha & Hb).
            destruct (mem x (mdeps v)) eqn:Em.
            -- apply mem_In in Em.
               assert (Hq'x : cache q' x = Some px).
               { apply Hb. intros w Hw Hin. pose proof (Huniq _ _ _ Hin Em). subst w.
                 destruct Hw as [Hw|Hw]; [exact (Hw Hqv) | specialize (He v Hw); lia]. }
               rewrite Hq'x. cbn [option_map]. split; [discriminate|]. split.
               ++ intros w Hw Hin. rewrite (Huniq _ _ _ Hin Em). reflexivity.
               ++ intros Hno. exfalso. apply (Hno v); [apply Hnew; now left | exact Em].
            -- apply mem_false in Em. split; [exact Hne|]. split.
               ++ intros w Hw Hin. apply Hnew in Hw. destruct Hw as [->|Hw]; [contradiction|]. exact (Ha w Hw Hin).
               ++ intros Hno. apply Hb. intros w Hw. apply Hno. apply Hnew. now right.
      - intros w d Hw Hin. apply Hnew in Hw. unfold cached. cbn [cache LazyLumps.clear_lumps LazyLumps.set_cache]. unfold upd.
        destruct (Nat.eqb d v) eqn:E; [discriminate|].
        destruct Hw as [->|Hw]; [apply Hall; apply (Hsub v d Hin) | exact (HC w d Hw Hin)].
    Qed.

    (** Looking at a view in the two machines. *)
    Lemma getf_m_sim : forall e f v (s' s : state), (forall k, e = Some k -> k < v) -> R e s' s -> C e s ->
      fst (getf_m f v s') = fst (getf f v s) /\ R e (snd (getf_m f v s')) (snd (getf f v s)) /\ C e (snd (getf f v s)).
    Proof.
      intros e. induction f as [|f IH]; intros v s' s He HR HC; cbn [getf_m getf LazyLumps.getf].
      - split; [reflexivity | split; assumption].
      - destruct (v <? nviews) eqn:Ev; [|split; [reflexivity | split; assumption]].
        apply Nat.ltb_lt in Ev. pose proof (proj2 HR v) as Hv.
        destruct (cache s v) as [pv|] eqn:Ecv.
        + destruct Hv as (Hne & _). destruct (cache s' v); [|contradiction]. split; [reflexivity | split; assumption].
        + rewrite Hv. rewrite !(pre_clear_id D P empty g sh SH). rewrite Hearly.
          assert (Hdeps : forall d, In d (v_rdeps (decl v)) -> v < d).
          { intros d Hd. destruct (deps_gt g OC v d Ev (in_or_app _ _ _ (or_introl Hd))). lia. }
          destruct (look_all_sim e (getf_m f) (getf f) (v_rdeps (decl v))
                      (fun d a b Hd => IH d a b (fun k Hk => Nat.lt_trans _ _ _ (He k Hk) (Hdeps d Hd))) s' s HR HC) as (Hf & HRq & HCq).
          pose proof (look_all_below v f (v_rdeps (decl v)) s Hdeps) as Hbelow.
          pose proof (look_all_all_cached f (v_rdeps (decl v)) s) as Hall.
          destruct (look_all (getf_m f) (v_rdeps (decl v)) s') as [b' q'].
          destruct (look_all (getf f) (v_rdeps (decl v)) s) as [b q]. cbn [fst snd] in *. subst b'.
          destruct b; [|split; [reflexivity | split; assumption]].
          assert (Hin : parse_input s' q' v = parse_input s q v).
          { unfold LazyLumps.parse_input. destruct (own v) as [|m ex]; [reflexivity|]. f_equal; [apply (proj1 HR)|].
            apply map_ext. intros l. apply (proj1 HRq). }
          rewrite Hin. destruct (rd v (parse_input s q v)) as [p|]; cbn [fst snd]; [|split; [reflexivity | split; assumption]].
          split; [reflexivity|]. apply cache_step_sim; try assumption.
          * congruence.
          * exact (Hall eq_refl).
    Qed.

    Lemma run_m_sim : forall accs (s' s : state), R None s' s -> C None s ->
      R None (run_m accs s') (run accs s) /\ C None (run accs s).
    Proof.
      induction accs as [|v accs IH]; intros s' s HR HC; cbn [run_m LazyLumps.run fold_left]; [split; assumption|].
      destruct (getf_m_sim None nviews v s' s ltac:(discriminate) HR HC) as (_ & HR1 & HC1).
      exact (IH _ _ HR1 HC1).
    Qed.

    (** Save pops the view [k] (nothing below [k] is cached any more): its changes stay in force while its writer runs. *)
    Lemma pop_sim : forall k p (s' s : state), cache s k = Some p -> (forall w, w < k -> cache s w = None) ->
      R None s' s -> C None s -> R (Some k) (set_cache k None s') (set_cache k None s) /\ C (Some k) (set_cache k None s).
    Proof.
      intros k p s' s Ec Hlow HR HC.
      assert (Hm1 : forall w, mutr (Some k) (set_cache k None s) w <-> mutr None s w).
      { intros w. unfold mutr, cached. cbn [cache LazyLumps.set_cache]. destruct (Nat.eq_dec w k) as [->|E].
        - rewrite upd_eq. split; [intros _; left; congruence | intros _; now right].
        - rewrite upd_neq by exact E. split; [intros [Hw|Hw]; [now left | congruence] | intros [Hw|Hw]; [now left | discriminate]]. }
      split.
      - split; [exact (proj1 HR)|]. intros x. cbn [cache LazyLumps.set_cache]. unfold upd.
        destruct (Nat.eqb x k); [reflexivity|]. pose proof (proj2 HR x) as Hx. destruct (cache s x); [|exact Hx].
        destruct Hx as (Hne & Ha & Hbb). split; [exact Hne|]. split.
        + intros w Hw. apply Ha. apply Hm1. exact Hw.
        + intros Hno. apply Hbb. intros w Hw. apply Hno. apply Hm1. exact Hw.
      - intros w d Hw Hin. apply Hm1 in Hw. pose proof (HC w d Hw Hin) as Hd. unfold cached in *.
        cbn [cache LazyLumps.set_cache]. destruct (Nat.eq_dec d k) as [->|E]; [|now rewrite upd_neq].
        exfalso. destruct Hw as [Hw|Hw]; [|discriminate]. apply Hw. apply Hlow. exact (mdeps_gt w k Hin).
    Qed.

    (** The writer of the popped view [k] undoes its reader's changes and stores its lumps: the window closes. *)
    Lemma unmut_sim : forall k (q' q : state) (r' r : nat -> D), cache q k = None -> (forall l, r' l = r l) ->
      (forall x px, In x (mdeps k) -> cache q x = Some px -> unmut k x (mut k x px) = px) ->
      R (Some k) q' q -> C (Some k) q ->
      R None (mkS r' (cache (app_cache unmut k q'))) (mkS r (cache q)) /\ C None (mkS r (cache q)).
    Proof.
      intros k q' q r' r Hqk Hr Hun HRq HCq. split; [split; [exact Hr|]|].
      - intros x. cbn [cache app_cache]. pose proof (proj2 HRq x) as Hx. destruct (cache q x) as [px|] eqn:Eqx.
        2:{ rewrite Hx. destruct (mem x (mdeps k)); reflexivity. }
        destruct Hx as (Hne & Ha & Hbb). destruct (mem x (mdeps k)) eqn:Em.
        + apply mem_In in Em. rewrite (Ha k (or_intror eq_refl) Em). cbn [option_map]. rewrite (Hun x px Em Eqx).
          split; [discriminate|]. split; [|reflexivity].
          intros w [Hw|Hw] Hin; [|discriminate]. exfalso. rewrite (Huniq _ _ _ Hin Em) in Hw. exact (Hw Hqk).
        + apply mem_false in Em. split; [exact Hne|]. split.
          * intros w [Hw|Hw] Hin; [|discriminate]. apply Ha; [now left | exact Hin].
          * intros Hno. apply Hbb. intros w [Hw|Hw]; [apply Hno; now left | injection Hw as <-; exact Em].
      - intros w d [Hw|Hw] Hin; [|discriminate]. exact (HCq w d (or_introl Hw) Hin).
    Qed.

    (** One iteration of the save loop in the two machines; views below [k] have been saved. *)
    Lemma save_step_m_sim : forall k (acc' acc : bool * state), k < nviews -> fst acc' = fst acc ->
      (fst acc = true -> R None (snd acc') (snd acc) /\ C None (snd acc) /\ Inv k k (snd acc)) ->
      fst (save_step_m acc' k) = fst (save_step acc k) /\
      (fst (save_step acc k) = true -> R None (snd (save_step_m acc' k)) (snd (save_step acc k)) /\ C None (snd (save_step acc k))).
    Proof.
      intros k [b' s'] [b s] Hk Hb H. cbn [fst snd] in Hb, H. subst b'.
      unfold save_step_m, LazyLumps.save_step. cbn [fst snd].
      destruct b; [|split; [reflexivity | discriminate]].
      destruct (H eq_refl) as (HR & HC & HI).
      assert (Hlow : forall w, w < k -> cache s w = None) by (intros w Hw; exact (proj1 (proj1 (proj2 HI) w Hw))).
      pose proof (proj2 HR k) as Hkx.
      destruct (cache s k) as [p|] eqn:Ec.
      2:{ rewrite Hkx. cbn [fst snd]. split; [reflexivity|]. intros _. split; [exact HR | exact HC]. }
      destruct Hkx as (_ & _ & Hb').
      assert (Ek' : cache s' k = Some p).
      { apply Hb'. intros w [Hw|Hw] Hin; [|discriminate]. apply Hw. apply Hlow. exact (mdeps_gt w k Hin). }
      rewrite Ek'.
      pose proof (writer_looks_spec D P empty rd wr g sh OC SH s0 (fun _ => True) (closed_all g) k p s Hk HI Ec) as HW.
      cbv zeta in HW. destruct HW as (_ & -> & HI2 & Hqk & _).
      assert (Hwd : forall d, In d (v_wdeps (decl k)) -> k < d).
      { intros d Hd. destruct (deps_gt g OC k d Hk (in_or_app _ _ _ (or_intror Hd))). lia. }
      destruct (pop_sim k p s' s Ec Hlow HR HC) as [HR1 HC1].
      destruct (look_all_sim (Some k) get_m get (v_wdeps (decl k))
                  (fun d a b Hd => getf_m_sim (Some k) nviews d a b (fun k0 Hk0 => ltac:(injection Hk0 as <-; exact (Hwd d Hd))))
                  _ _ HR1 HC1) as (Hf & HRq & HCq).
      destruct (look_all get_m (v_wdeps (decl k)) (set_cache k None s')) as [b2' q'].
      destruct (look_all get (v_wdeps (decl k)) (set_cache k None s)) as [b2 q]. cbn [fst snd] in *. subst b2'.
      destruct b2; cbn [fst snd] in *; [|split; [reflexivity | discriminate]].
      split; [reflexivity|]. intros _.
      (* the values the writer's undo meets were parsed from this file *)
      assert (Hun : forall x px, In x (mdeps k) -> cache q x = Some px -> unmut k x (mut k x px) = px).
      { intros x px Hin Hq. destruct (Hsub k x Hin) as [Hrx _].
        destruct (deps_gt g OC k x Hk (in_or_app _ _ _ (or_introl Hrx))) as [Hkx Hxn].
        pose proof (Inv_at D P rd wr g s0 _ k (S k) q x HI2 Hkx Hxn) as Hat. rewrite Hq in Hat.
        exact (Hundo k x px Hin Hxn (proj2 (proj2 Hat))). }
      exact (unmut_sim k q' q _ _ Hqk (store_sel_ext D (v_wstore (decl k)) (own k) (wr k p) (raw q') (raw q) (proj1 HRq))
               Hun HRq HCq).
    Qed.

    Hypothesis Hf : fresh D P s0.

    (** Saving in the mutating machine completes exactly when it does in the plain one, with the same lumps and cache. *)
    Theorem mut_save_equiv : forall accs,
      fst (save_m (run_m accs s0)) = fst (save (run accs s0)) /\
      (fst (save (run accs s0)) = true -> R None (snd (save_m (run_m accs s0))) (snd (save (run accs s0)))).
    Proof.
      intros accs. unfold save_m, LazyLumps.save. rewrite !(save_todo_std D P g sh SH).
      assert (HR0 : R None s0 s0).
      { split; [reflexivity|]. intros x. rewrite (Hf x). reflexivity. }
      assert (HC0 : C None s0).
      { intros w d [Hw|Hw]; [|discriminate]. exfalso. apply Hw. apply Hf. }
      destruct (run_m_sim accs s0 s0 HR0 HC0) as [HR HC].
      destruct (fold_seq_rel _ _ save_step_m save_step
                  (fun k a' a => fst a' = fst a /\ (fst a = true -> R None (snd a') (snd a) /\ C None (snd a) /\ Inv k k (snd a)))
                  nviews) with (m := nviews) (k := 0) (a := (true, run_m accs s0)) (b := (true, run accs s0)) as [Hb H].
      - intros k a' a Hk [Hb H]. destruct (save_step_m_sim k a' a Hk Hb H) as [Hb1 H1]. split; [exact Hb1|].
        intros Ht. destruct (H1 Ht) as [HR1 HC1]. split; [exact HR1|]. split; [exact HC1|].
        exact (proj1 (save_step_inv D P empty rd wr g sh OC SH s0 (fun _ => True) (closed_all g) Hlen k a Hk
                        (fun Ha => proj2 (proj2 (H Ha)))) Ht).
      - reflexivity.
      - split; [reflexivity|]. intros _. exact (conj HR (conj HC (inv_run_all D P empty rd wr g sh OC SH s0 accs Hf))).
      - split; [exact Hb | intros Ht; exact (proj1 (H Ht))].
    Qed.

  End Consistent.
End Mut.

(** Closed instances (bmodels / ents).
    View 0 (bmodels) owns lump 0, looks at view 1 (ents, lump 1) when read and when written, and changes its value:
    the reader drops the first item (the "model" key), the writer puts 9 back in front. *)
Definition mx_rd (bad0 : bool) (v : nat) (ds : list (list nat)) : option (list nat) :=
  match ds with [m] => if (Nat.eqb v 0 && bad0)%bool then None else Some m | _ => None end.
Definition mx_wr (v : nat) (p : list nat) : list (list nat) := [p].
Definition g_mut : graph := [ mkV [0] [1] [1] [0]; mkV [1] [] [] [1] ].
Definition mx_mdeps (v : nat) : list nat := match v with 0 => [1] | _ => [] end.
Definition mx_mut (v d : nat) (p : list nat) : list nat := tl p.
Definition mx_unmut (v d : nat) (p : list nat) : list nat := 9 :: p.
Definition mx_file : state (list nat) (list nat) := mkS (fun l => if Nat.eqb l 0 then [5] else if Nat.eqb l 1 then [9; 7] else []) (fun _ => None).
Notation mx_save bad un early s := (save_m (list nat) (list nat) [] (mx_rd bad) mx_wr g_mut std_shape mx_mdeps mx_mut un early s).
Notation mx_run bad early accs s := (run_m (list nat) (list nat) [] (mx_rd bad) g_mut std_shape mx_mdeps mx_mut early accs s).

(** The hypotheses hold on the values of this file ([unmut (mut p) = p] for the entity list [9; 7]), and the history
    "look at bmodels, then at ents, save" is lossless although the user saw the entities without the key. *)
Example mut_example_lossless :
  order_consistent g_mut = true /\
  (forall v d, In d (mx_mdeps v) -> In d (v_rdeps (decl g_mut v)) /\ In d (v_wdeps (decl g_mut v))) /\
  (forall v w x, In x (mx_mdeps v) -> In x (mx_mdeps w) -> v = w) /\
  (forall v d p, In d (mx_mdeps v) -> d < nviews g_mut -> mx_rd false d (own_data (list nat) (list nat) g_mut mx_file d) = Some p ->
     mx_unmut v d (mx_mut v d p) = p) /\
  cache (mx_run false false [0; 1] mx_file) 1 = Some [7] /\
  fst (mx_save false mx_unmut false (mx_run false false [0; 1] mx_file)) = true /\
  raw (snd (mx_save false mx_unmut false (mx_run false false [0; 1] mx_file))) 1 = [9; 7] /\
  raw (snd (mx_save false mx_unmut false (mx_run false false [0; 1] mx_file))) 0 = [5].
Proof.
  split; [reflexivity|]. split; [|split; [|split; [|repeat split; reflexivity]]].
  - intros v d H. destruct v as [|v]; [|destruct H]. destruct H as [<-|[]]. split; left; reflexivity.
  - intros v w x Hv Hw. destruct v as [|v]; [|destruct Hv]. destruct w as [|w]; [reflexivity | destruct Hw].
  - intros v d p H _ Hr. destruct v as [|v]; [|destruct H]. destruct H as [<-|[]]. vm_compute in Hr. injection Hr as <-. reflexivity.
Qed.

(** [early = true] (fix 477021c): the reader of view 0 raises on this file after it changed the entities; nothing is
    cached for view 0, so its writer never runs, and the entity lump is written without the key.  With
    [early = false] the same history is lossless. *)
Example mut_before_raise_refuted :
  fst (get_m (list nat) (list nat) [] (mx_rd true) g_mut std_shape mx_mdeps mx_mut true 0 mx_file) = false /\
  cache (mx_run true true [0] mx_file) 0 = None /\ cache (mx_run true true [0] mx_file) 1 = Some [7] /\
  fst (mx_save true mx_unmut true (mx_run true true [0] mx_file)) = true /\
  raw (snd (mx_save true mx_unmut true (mx_run true true [0] mx_file))) 1 = [7] /\
  raw (snd (mx_save true mx_unmut false (mx_run true false [0] mx_file))) 1 = [9; 7].
Proof. repeat split; reflexivity. Qed.

(** A writer that does not undo its reader's change loses the key. *)
Example mut_not_undone_refuted :
  raw (snd (mx_save false (fun _ _ p => p) false (mx_run false false [0] mx_file))) 1 = [7].
Proof. reflexivity. Qed.
