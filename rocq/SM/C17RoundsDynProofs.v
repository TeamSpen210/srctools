(** C17 — the ancestry check is exact also when file names come from $variables: [loop3] (parents recorded along literal
    links, reset at links through a $variable) decides like the loop without the check on the state graph. *)
From Coq Require Import List Lia Permutation.
From SV Require Import SM.C17Rounds SM.C17RoundsProofs SM.C17RoundsDyn.
Import ListNotations.

Section Graph3.
  Variable fl : nat -> file.
  Variable kids : nat -> list (nat * bool).
  Hypothesis lit : lit_by_file fl kids.
  Variable perm : list item3 -> list item3.
  Hypothesis perm_ok : forall l, Permutation (perm l) l.
  Notation loop := (loop (children3 kids)).
  Notation loop3 := (loop3 fl kids perm).

  Theorem dyn_cycle_check_exact : forall limit roots,
    l_outcome (loop3 limit (start3 roots)) = l_outcome (loop limit roots) /\
    (l_outcome (loop limit roots) = Done -> loop3 limit (start3 roots) = loop limit roots) /\
    l_work (loop3 limit (start3 roots)) <= l_work (loop limit roots) /\
    l_rounds (loop3 limit (start3 roots)) <= l_rounds (loop limit roots).
  Proof.
    intros limit roots. pose proof (loop3_vs_loop fl kids lit perm perm_ok limit _ (start3_good fl kids roots)) as H.
    rewrite map_fst_start3 in H. exact H.
  Qed.
End Graph3.

(** *** Witnesses.  A file that contains itself through a `$variable` file name, with a counter handed down in the fixups
    (state [n] = "n levels to go", all states are the same file 0): it ends, and the check - parents reset at the
    `$variable` link - does not fire; had the link been recorded like a literal one, the second level would raise. *)
Definition countdown_fl (_ : nat) : file := 0.
Definition countdown (s : nat) : list (nat * bool) := match s with 0 => [] | S k => [(k, false)] end.
Definition countdown_as_literal (s : nat) : list (nat * bool) := match s with 0 => [] | S k => [(k, true)] end.

Lemma countdown_lit : lit_by_file countdown_fl countdown.
Proof. intros s s' _ c H. destruct s as [|k]; [destruct H | destruct H as [H|[]]; discriminate H]. Qed.

Example dyn_chain_terminates : loop3 countdown_fl countdown (fun l => l) 100 (start3 [3]) = (Done, 4, 4).
Proof. reflexivity. Qed.

Example dyn_chain_recorded_as_literal_refuted :
  loop3 countdown_fl countdown_as_literal (fun l => l) 100 (start3 [3]) = (Raise, 2, 1) /\
  loop (children3 countdown_as_literal) 100 [3] = (Done, 4, 4) /\ ~ lit_by_file countdown_fl countdown_as_literal.
Proof.
  split; [reflexivity|]. split; [reflexivity|]. intros H.
  destruct (H 1 0 eq_refl 0 (or_introl eq_refl)) as (c & [] & _).
Qed.

(** A `$variable` link (state 1, file 1) into a file that contains itself literally (state 0, file 0): one collapse of
    each, then the second instance of file 0 finds its file among its parents. *)
Definition into_cycle_fl (s : nat) : file := s.
Definition into_cycle (s : nat) : list (nat * bool) := match s with 1 => [(0, false)] | 0 => [(0, true)] | _ => [] end.

Lemma into_cycle_lit : lit_by_file into_cycle_fl into_cycle.
Proof. exact (lit_by_file_id into_cycle). Qed.

Example dyn_link_into_literal_cycle : forall limit, 3 <= limit ->
  loop3 into_cycle_fl into_cycle (fun l => l) limit (start3 [1]) = (Raise, 3, 2).
Proof. intros [|[|[|k]]] H; try lia. reflexivity. Qed.
