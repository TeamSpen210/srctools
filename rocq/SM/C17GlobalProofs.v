(** Proofs about SM/C17Global.v: non-interference of process-global state with the result of a collapse. *)
From Coq Require Import List Bool.
From SV Require Import SM.C17Global.
Import ListNotations.

Section Proofs.
  Variables St G : Type.
  Variable m : sem St G.

  Notation run := (run St G m).
  Notation iter := (iter St G).
  Notation result := (result St G).

  (** Quiet code leaves the program state alone and ends normally (or, inside a helper, by a bare `return`). *)
  Lemma quiet_gen_run : forall p ret, quiet_gen ret p = true -> forall s g,
    exists g' t, run p s g = (s, g', t) /\ (t = Normal \/ (ret = true /\ t = Jumped JReturn)).
  Proof.
    induction p; cbn [quiet_gen]; intros ret Hq s g; try discriminate.
    - (* KNil *) do 2 eexists; split; [reflexivity | left; reflexivity].
    - (* KSeq *)
      apply andb_true_iff in Hq as [Ha Hb].
      destruct (IHp1 ret Ha s g) as (g1 & t1 & E1 & [-> | [-> ->]]).
      + destruct (IHp2 ret Hb s g1) as (g2 & t2 & E2 & H2).
        exists g2, t2. cbn [C17Global.run]. rewrite E1. split; assumption.
      + exists g1, (Jumped JReturn). cbn [C17Global.run]. rewrite E1. split; [reflexivity | right; split; reflexivity].
    - (* KLog *) do 2 eexists; split; [reflexivity | left; reflexivity].
    - (* KUpd *) do 2 eexists; split; [reflexivity | left; reflexivity].
    - (* KJump *)
      destruct k; try discriminate. subst ret.
      do 2 eexists; split; [reflexivity | right; split; reflexivity].
    - (* KIf *)
      apply andb_true_iff in Hq as [Ha Hb].
      destruct t; cbn [C17Global.run].
      + destruct (cond St G m i s); [apply IHp1 | apply IHp2]; assumption.
      + destruct (gcond St G m i s g); [apply IHp1 | apply IHp2]; assumption.
    - (* KCall *)
      destruct (IHp true Hq s g) as (g1 & t1 & E1 & [-> | [_ ->]]);
        exists g1, Normal; cbn [C17Global.run]; rewrite E1; (split; [reflexivity | left; reflexivity]).
  Qed.

  Lemma quiet_run : forall p, quiet p = true -> forall s g, exists g', run p s g = (s, g', Normal).
  Proof.
    intros p Hq s g. destruct (quiet_gen_run p false Hq s g) as (g' & t & E & [-> | [H _]]); [|discriminate].
    exists g'. exact E.
  Qed.

  Lemma result_inv : forall (r1 r2 : outcome St G),
    result r1 = result r2 -> exists s t g1 g2, r1 = (s, g1, t) /\ r2 = (s, g2, t).
  Proof. intros [[s1 g1] t1] [[s2 g2] t2] [= -> ->]. exists s2, t2, g1, g2. split; reflexivity. Qed.

  Lemma iter_ni : forall n (f : St -> G -> outcome St G),
    (forall s g1 g2, result (f s g1) = result (f s g2)) ->
    forall s g1 g2, result (iter n f s g1) = result (iter n f s g2).
  Proof.
    induction n; intros f Hf s g1 g2; cbn [C17Global.iter]; [reflexivity|].
    destruct (result_inv _ _ (Hf s g1 g2)) as (s2 & t2 & h1 & h2 & -> & ->).
    destruct t2 as [|[]]; try reflexivity; apply IHn; assumption.
  Qed.

  (** The theorem: with [gates_ok], the program state and the way control leaves the function do not depend on the
      process-global state the function started with. *)
  Theorem noninterference : forall p, gates_ok p = true ->
    forall s g1 g2, result (run p s g1) = result (run p s g2).
  Proof.
    induction p; cbn [gates_ok]; intros Hg s g1 g2; try discriminate; try reflexivity.
    - (* KSeq *)
      apply andb_true_iff in Hg as [Ha Hb]. cbn [C17Global.run].
      destruct (result_inv _ _ (IHp1 Ha s g1 g2)) as (s2 & t2 & h1 & h2 & -> & ->).
      destruct t2; [apply IHp2; assumption | reflexivity].
    - (* KEff *)
      cbn [C17Global.run]. destruct (eff St G m i s); reflexivity.
    - (* KIf *)
      destruct t; cbn [C17Global.run].
      + apply andb_true_iff in Hg as [Ha Hb].
        destruct (cond St G m i s); [apply IHp1 | apply IHp2]; assumption.
      + apply andb_true_iff in Hg as [Ha Hb].
        assert (Q : forall g, exists g', run (KIf (TGlobal i) p1 p2) s g = (s, g', Normal)).
        { intro g. apply quiet_run. unfold quiet in *. cbn [quiet_gen]. rewrite Ha, Hb. reflexivity. }
        cbn [C17Global.run] in Q.
        destruct (Q g1) as [h1 E1]. destruct (Q g2) as [h2 E2]. rewrite E1, E2. reflexivity.
    - (* KLoop *)
      cbn [C17Global.run]. apply iter_ni. intros s' h1 h2. apply IHp. assumption.
    - (* KTry *)
      apply andb_true_iff in Hg as [Hab Hc]. apply andb_true_iff in Hab as [Ha Hb]. cbn [C17Global.run].
      destruct (result_inv _ _ (IHp1 Ha s g1 g2)) as (s2 & t2 & h1 & h2 & -> & ->).
      destruct t2 as [|[]]; try reflexivity; [apply IHp3 | apply IHp2]; assumption.
    - (* KCall *)
      cbn [C17Global.run]. apply orb_true_iff in Hg as [Hg | Hq].
      + destruct (result_inv _ _ (IHp Hg s g1 g2)) as (s2 & t2 & h1 & h2 & -> & ->).
        destruct t2 as [|[]]; reflexivity.
      + destruct (quiet_gen_run p true Hq s g1) as (h1 & t1 & E1 & [-> | [_ ->]]);
          destruct (quiet_gen_run p true Hq s g2) as (h2 & t2 & E2 & [-> | [_ ->]]);
          rewrite E1, E2; reflexivity.
  Qed.

  Corollary call_noninterference : forall body, fn_ok body = true ->
    forall s g1 g2, result (run (KCall body) s g1) = result (run (KCall body) s g2).
  Proof. intros body H. apply noninterference. exact H. Qed.

  (** Any history of calls in one process: the program state at the end does not depend on the global state at the
      start, however many functions ran and updated it on the way. *)
  Theorem history_independent : forall ps, forallb gates_ok ps = true ->
    forall s g1 g2, fst (run_many St G m ps s g1) = fst (run_many St G m ps s g2).
  Proof.
    induction ps as [|p r IH]; cbn [forallb run_many]; intros H s g1 g2; [reflexivity|].
    apply andb_true_iff in H as [Hp Hr].
    destruct (result_inv _ _ (noninterference p Hp s g1 g2)) as (s2 & t2 & h1 & h2 & -> & ->).
    apply IH; assumption.
  Qed.
End Proofs.

(** *** The hypothesis is needed, and satisfiable. *)
(** Program state: how many keyvalues were written; global state: "this (classname, key) was seen before". *)
Definition demo_sem : sem nat bool := {|
  eff := fun _ s => (S s, false);
  teff := fun _ s _ => (s, false);
  cond := fun _ _ => true;
  gcond := fun _ _ g => g;
  gupd := fun _ _ _ => true;
  count := fun _ _ => 1;
  next := fun _ s => s |}.

(** today's shape:   if key not in SEEN: log; SEEN.add(key)      then   new_ent[key] = value *)
Definition shape_log_once : skel := KSeq (KIf (TGlobal 0) KNil (KSeq KLog (KUpd 0))) (KEff 1).
(** guard-clause shape:   if key in SEEN: continue      then   log; SEEN.add(key); new_ent[key] = value *)
Definition shape_guard_clause : skel := KSeq (KIf (TGlobal 0) (KJump JContinue) KNil) (KSeq KLog (KSeq (KUpd 0) (KEff 1))).

(** the same inside a helper:   def warn_once(k): if k in SEEN: return;  log; SEEN.add(k)      caller: warn_once(key); new_ent[key] = value *)
Definition shape_helper_log_once : skel :=
  KSeq (KCall (KSeq (KIf (TGlobal 0) (KJump JReturn) KNil) (KSeq KLog (KUpd 0)))) (KEff 1).
(** a helper that decides:   def first_time(k): if k in SEEN: return False; SEEN.add(k); return True      caller: if not first_time(key): continue *)
Definition shape_helper_decides : skel :=
  KSeq (KCall (KSeq (KIf (TGlobal 0) (KSeq (KTainted 2) (KJump JReturn)) KNil) (KSeq (KUpd 0) (KSeq (KEff 3) (KJump JReturn)))))
       (KSeq (KIf (TOther 4) (KJump JContinue) KNil) (KEff 1)).

Lemma shape_helpers : gates_ok shape_helper_log_once = true /\ gates_ok shape_helper_decides = false /\
  fst (run_many nat bool demo_sem [shape_helper_log_once; shape_helper_log_once] 0 false) = 2.
Proof. repeat split; reflexivity. Qed.

Lemma shape_log_once_ok : gates_ok shape_log_once = true.
Proof. reflexivity. Qed.

