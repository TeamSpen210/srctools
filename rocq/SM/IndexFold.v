(** Case folding by table: [str.casefold] works code point by code point; on ASCII it is lower-casing, and
    the check supplies, for the non-ASCII code points that occur in a correspondence batch, the table
    [code point ↦ chr(c).casefold()] computed by CPython.  [table_fold tab] is the folding function the model is
    instantiated with in the correspondence; for every table whose keys are non-ASCII it satisfies the hypotheses
    of the theorems of Props/C07.v about [fold] (idempotence: when the table is closed under itself, a boolean the
    check evaluates per batch). *)
From stdpp Require Import list.
From Coq Require Import NArith Lia.
From SV Require Import SM.IndexModel SM.IndexUniqueProofs SM.IndexMaint.

Fixpoint tab_find (c : N) (tab : list (N * list N)) : option (list N) :=
  match tab with
  | [] => None
  | (c0, l) :: r => if N.eqb c0 c then Some l else tab_find c r
  end.
Definition fold_cp (tab : list (N * list N)) (c : N) : list N :=
  match tab_find c tab with Some l => l | None => [ascii_lower c] end.
Definition table_fold (tab : list (N * list N)) (s : str) : str := flat_map (fold_cp tab) s.

(** every key of the table is a non-ASCII code point *)
Definition tab_non_ascii (tab : list (N * list N)) : bool := forallb (λ p : N * list N, N.leb 128 p.1) tab.
(** the images are their own folding *)
Definition tab_closed (tab : list (N * list N)) : bool :=
  forallb (λ p : N * list N, bool_decide (table_fold tab p.2 = p.2)) tab.

Lemma tab_find_ascii tab c : tab_non_ascii tab = true → (c < 128)%N → tab_find c tab = None.
Proof.
  intros Ht Hc. induction tab as [|[c0 l] r IH]; [done|]. simpl in *. apply andb_true_iff in Ht as [H0 Hr].
  apply N.leb_le in H0. destruct (N.eqb_spec c0 c); [lia|]. by apply IH.
Qed.
Lemma tab_find_in tab c l : tab_find c tab = Some l → (c, l) ∈ tab.
Proof.
  induction tab as [|[c0 l0] r IH]; [done|]. simpl. destruct (N.eqb_spec c0 c); [|intros; right; by apply IH].
  intros [= ->]. subst. left.
Qed.

Lemma table_fold_ascii tab s : tab_non_ascii tab = true → Forall (λ c, (c < 128)%N) s → table_fold tab s = ascii_fold s.
Proof.
  intros Ht Hs. induction Hs as [|c r Hc Hr IH]; [done|]. unfold table_fold in *. simpl. rewrite IH.
  unfold fold_cp. by rewrite (tab_find_ascii _ _ Ht Hc).
Qed.
Lemma table_fold_app tab a b : table_fold tab (a ++ b) = table_fold tab a ++ table_fold tab b.
Proof. unfold table_fold. apply flat_map_app. Qed.

Theorem table_fold_ok tab : tab_non_ascii tab = true →
  table_fold tab [] = [] ∧ table_fold tab cn = cn ∧ table_fold tab tn = tn ∧ table_fold tab ws = ws ∧
  (∀ b i, table_fold tab (b ++ dec i) = table_fold tab b ++ dec i).
Proof.
  intros Ht. split; [done|].
  assert (Hlit : ∀ s, forallb (λ c, N.ltb c 128) s = true → ascii_fold s = s → table_fold tab s = s).
  { intros s H1 H2. rewrite table_fold_ascii; [done|done|]. apply Forall_forall. intros c Hc.
    rewrite forallb_forall in H1. apply N.ltb_lt, H1. by apply elem_of_list_In. }
  split; [by apply Hlit|]. split; [by apply Hlit|]. split; [by apply Hlit|].
  intros b i. rewrite table_fold_app. f_equal. pose proof (uint_codes_digits (N.to_uint i)) as Hd. unfold dec.
  rewrite table_fold_ascii; [by apply ascii_fold_digits|done|]. eapply Forall_impl; [exact Hd|]. simpl. intros; lia.
Qed.

Lemma table_fold_nodeid tab : tab_non_ascii tab = true → table_fold tab nodeid ≠ cn ∧ table_fold tab nodeid ≠ tn.
Proof. intros Ht. rewrite table_fold_ascii; [by vm_compute|done|]. repeat constructor; by vm_compute. Qed.

Lemma ascii_lower_idem c : ascii_lower (ascii_lower c) = ascii_lower c.
Proof.
  unfold ascii_lower. destruct ((65 <=? c) && (c <=? 90))%N eqn:E; [|by rewrite E].
  apply andb_true_iff in E as [E1 E2]. apply N.leb_le in E1, E2.
  assert (((65 <=? c + 32) && (c + 32 <=? 90))%N = false) as ->; [|done].
  apply andb_false_iff. right. apply N.leb_gt. lia.
Qed.

Lemma fold_cp_idem tab c : tab_non_ascii tab = true → tab_closed tab = true →
  table_fold tab (fold_cp tab c) = fold_cp tab c.
Proof.
  intros Ht Hc. unfold fold_cp at 1 2. destruct (tab_find c tab) as [l|] eqn:E.
  - apply tab_find_in in E. unfold tab_closed in Hc. rewrite forallb_forall in Hc.
    apply elem_of_list_In in E. apply Hc in E. by apply bool_decide_eq_true in E.
  - unfold table_fold. simpl. rewrite app_nil_r. unfold fold_cp.
    assert (tab_find (ascii_lower c) tab = None) as ->; [|by rewrite ascii_lower_idem].
    unfold ascii_lower. destruct ((65 <=? c) && (c <=? 90))%N eqn:E2; [|done].
    apply andb_true_iff in E2 as [E1 E2]. apply N.leb_le in E1, E2. apply tab_find_ascii; [done|lia].
Qed.

(** CPython's table for the code points the check uses: ß ↦ ss, İ ↦ i + U+0307 *)
Definition tab_example : list (N * list N) := [(223, [115; 115]); (304, [105; 775])]%N.
