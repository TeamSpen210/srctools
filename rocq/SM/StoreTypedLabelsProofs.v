(** C09 — proofs about SM/StoreTypedLabels.v (kernel-derived census labels of exported nodes). *)
From Coq Require Import List String Bool ZArith FMapPositive.
From SV Require Import SM.Store SM.StoreCert SM.StoreCopy SM.StoreCopySrc SM.StoreCopyExport SM.StoreTypedLabels.
Import ListNotations.

Lemma str_list_eqb_eq : forall a b, str_list_eqb a b = true -> a = b.
Proof.
  induction a as [|x a IH]; destruct b as [|y b]; simpl; try discriminate; auto.
  intro H. apply andb_true_iff in H. destruct H as [H1 H2].
  apply String.eqb_eq in H1. subst. f_equal. auto.
Qed.

Lemma msig_eqb_mask : forall c c0 reads, msig_eqb (msig c) (msig c0) = true -> obs_mask c reads = obs_mask c0 reads.
Proof.
  induction c as [|row c IH]; destruct c0 as [|row0 c0]; simpl; try discriminate; auto.
  intros reads H.
  apply andb_true_iff in H. destruct H as [H H3]. apply andb_true_iff in H. destruct H as [H1 H2].
  apply String.eqb_eq in H1. apply Bool.eqb_prop in H2.
  unfold obs_mask in *. simpl. f_equal; [|apply IH; exact H3].
  unfold observed. rewrite H1, H2. reflexivity.
Qed.

Lemma tlookup_in : forall {A} k (l : list (string * A)) v, tlookup k l = Some v -> In (k, v) l.
Proof.
  intros A k l v H. unfold tlookup in H.
  destruct (find (fun q => String.eqb (fst q) k) l) as [[k' v']|] eqn:E; [|discriminate].
  simpl in H. injection H as ->. apply find_some in E. destruct E as [E1 E2].
  simpl in E2. apply String.eqb_eq in E2. subst. exact E1.
Qed.

(** Every label of a class gives the same export mask as the first label of that class. *)
Theorem labels_agree_same_mask : forall allc col lab cls c,
  labels_agree allc col = true -> tlookup lab col = Some cls -> tlookup lab allc = Some c ->
  exists l0 c0, label_of_type col cls = Some l0 /\ tlookup l0 allc = Some c0 /\
                forall reads, obs_mask c reads = obs_mask c0 reads.
Proof.
  intros allc col lab cls c HA HL HC.
  unfold labels_agree in HA. rewrite forallb_forall in HA.
  specialize (HA (lab, cls) (tlookup_in _ _ _ HL)). simpl in HA.
  destruct (label_of_type col cls) as [l0|]; [|discriminate].
  rewrite HC in HA.
  destruct (tlookup l0 allc) as [c0|] eqn:E0; [|discriminate].
  exists l0, c0. repeat split; auto. intro reads. apply msig_eqb_mask. exact HA.
Qed.

(** What an accepted list of typed nodes means: for every node the kernel found a label of that type name, the census of
    that label, and the attribute names the harness read are the census's field names in census order; the node has
    exactly that many fields. *)
Theorem typed_nodes_ok_spec : forall allc col l' tns,
  typed_nodes_ok allc col l' tns = true ->
  forall loc cls nms, In (loc, cls, nms) tns ->
  exists lab c nd, label_of_type col cls = Some lab /\ tlookup lab allc = Some c /\
                   PositiveMap.find loc (mk_heap l') = Some nd /\
                   nms = names c /\ List.length (nfields nd) = List.length c.
Proof.
  intros allc col l' tns H loc cls nms HI.
  unfold typed_nodes_ok in H. rewrite forallb_forall in H. specialize (H _ HI).
  unfold typed_node_ok in H. simpl in H.
  destruct (label_of_type col cls) as [lab|] eqn:E1; [|discriminate].
  destruct (tlookup lab allc) as [c|] eqn:E2; [|discriminate].
  destruct (PositiveMap.find loc (mk_heap l')) as [nd|] eqn:E3; [|discriminate].
  apply andb_true_iff in H. destruct H as [H1 H2].
  exists lab, c, nd.
  split; [reflexivity|]. split; [exact E2|]. split; [reflexivity|].
  split; [apply str_list_eqb_eq; exact H1 | apply Nat.eqb_eq; exact H2].
Qed.

(** The label found for a type name really is a label of that class. *)
Lemma label_of_type_class : forall col cls lab, label_of_type col cls = Some lab -> In (lab, cls) col.
Proof.
  induction col as [|[l c] r IH]; simpl; intros cls lab H; [discriminate|].
  destruct (String.eqb c cls) eqn:E.
  - injection H as <-. apply String.eqb_eq in E. subst. left. reflexivity.
  - right. apply IH. exact H.
Qed.

(** Not vacuous / sensitive: a two-label table. *)
Definition tl_census_a : census := [("id"%string, KId, HNewId); ("pos"%string, KMut, HDeep)].
Definition tl_census_b : census := [("id"%string, KId, HNewId); ("pos"%string, KMut, HShare)].
Definition tl_census_bad : census := [("pos"%string, KMut, HDeep); ("id"%string, KId, HNewId)].
Definition tl_all : list (string * census) := [("T_copy"%string, tl_census_a); ("T_deepcopy"%string, tl_census_b)].
Definition tl_col : list (string * string) := [("T_copy"%string, "T"%string); ("T_deepcopy"%string, "T"%string)].
Definition tl_heap : list (loc * node) := [(1%positive, Node true [VAtom 7%Z; VRef 2%positive]); (2%positive, Node true [VAtom 1%Z])].
