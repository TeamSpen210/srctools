(** Source-shaped models for property C07: the *index maintenance* part of [Entity.__setitem__] (everything
    after the lookup loop: the [if key_fold == 'classname' ... elif key_fold == 'targetname' ...] chain with the
    worldspawn guard and its error path) and [VMF.add_ents] over an iterable argument that may be one-shot
    (generator, map object, iterator).  Both are read off vmf.py by translate/c07_index_shapes.py on every run
    ([gen_setitem_maint], [gen_add_ents] in Gen/IndexShapes_gen.v).

    Executable definitions only; proofs are in IndexMaintProofs.v. *)
From stdpp Require Import gmap sets list.
From Coq Require Import NArith.
From SV Require Import SM.IndexModel SM.IndexShapes.

(** * 1. The maintenance part of Entity.__setitem__ as a program *)
(** the value folded into an index key: the previous value [(orig_val or '').casefold()], the new value
    [str_val.casefold()], or a literal ([by_target] keys are [<this> or None]) *)
Inductive mkey := MKOrig | MKNew | MKLit (s : str).
Inductive mexn := EKey | EValue | EOther.
Definition exn_code (x : mexn) : nat := match x with EKey => 1 | EValue => 2 | EOther => 9 end.
Inductive mcond :=
| MCKeyIs (s : str)          (* key_fold == '<s>' *)
| MCInEnts                   (* self in self.map.entities *)
| MCIsSpawn                  (* self is self.map.spawn *)
| MCNewIs (s : str)          (* str_val.casefold() == '<s>' *)
| MCNot (c : mcond) | MCOr (a b : mcond) | MCAnd (a b : mcond)
| MCCached (attr : str).     (* self.<attr>: a flag kept on the entity object (round 5).  The model has no such state:
                                the facts never decide it ([cond_abs] = None), so a program passes a path obligation only
                                if both branches under it execute the same actions; [cond_eval] gives it an arbitrary
                                value that no theorem about passing programs depends on *)
Inductive mact :=
| ARemClass (k : mkey)       (* _remove_copyset(self.map.by_class, <k>, self) *)
| AAddClass (k : mkey)       (* self.map.by_class[<k>].add(self) *)
| ARemTarget (k : mkey)      (* _remove_copyset(self.map.by_target, <k> or None, self) *)
| AAddTarget (k : mkey)      (* self.map.by_target[<k> or None].add(self) *)
| ASelfSet (k v : str)       (* self['<k>'] = '<v>': the whole of __setitem__ again *)
| AStoreKey (v : str)        (* self._keys[key] = '<v>': a direct store under the spelling just used *)
| AStoreKeyOrig (dflt : str) (* self._keys[key] = orig_val or '<dflt>': the previous value is put back directly (round 4) *)
| ARaise (x : mexn).
Inductive mprog := MSkip | MSeq (a b : mprog) | MIf (c : mcond) (a b : mprog) | MAct (a : mact).

Global Instance mkey_eq_dec : EqDecision mkey.
Proof. solve_decision. Defined.
Global Instance mexn_eq_dec : EqDecision mexn.
Proof. solve_decision. Defined.
Global Instance mact_eq_dec : EqDecision mact.
Proof. solve_decision. Defined.

(** 'nodeid' (its processing is property C08; here it is only a key that is neither of the two indexed ones) *)
Definition nodeid : str := [110;111;100;101;105;100]%N.

Section maint.
  Variable fold : str → str.

  Definition mkey_val (k : mkey) (orig v : str) : str :=
    match k with MKOrig => fold orig | MKNew => fold v | MKLit s => s end.

  Fixpoint cond_eval (c : mcond) (e : nat) (key v : str) (st : mstate) : bool :=
    match c with
    | MCKeyIs s => bool_decide (fold key = s)
    | MCInEnts => bool_decide (e ∈ ents st)
    | MCIsSpawn => bool_decide (e = spawn st)
    | MCNewIs s => bool_decide (fold v = s)
    | MCNot c => negb (cond_eval c e key v st)
    | MCOr a b => cond_eval a e key v st || cond_eval b e key v st
    | MCAnd a b => cond_eval a e key v st && cond_eval b e key v st
    | MCCached _ => false
    end.

  (** [rec e k v st]: what [self[k] = v] does (the function itself, one level down) *)
  Definition act_run (rec : nat → str → str → mstate → mstate * nat) (a : mact)
      (e : nat) (key v orig : str) (st : mstate) : mstate * nat :=
    match a with
    | ARemClass k => (upd_class (ix_remove (mkey_val k orig v) e) st, 0)
    | AAddClass k => (upd_class (ix_add (mkey_val k orig v) e) st, 0)
    | ARemTarget k => (upd_target (ix_remove (or_none (mkey_val k orig v)) e) st, 0)
    | AAddTarget k => (upd_target (ix_add (or_none (mkey_val k orig v)) e) st, 0)
    | ASelfSet k' v' => rec e k' v' st
    | AStoreKey v' => (with_keys e (kv_set fold key v' (keys_of st e)) st, 0)
    | AStoreKeyOrig d => (with_keys e (kv_set fold key (if decide (orig = []) then d else orig) (keys_of st e)) st, 0)
    | ARaise x => (st, exn_code x)
    end.

  (** the program, statement by statement; a non-zero error code stops it (an exception propagates) *)
  Fixpoint m_run (rec : nat → str → str → mstate → mstate * nat) (p : mprog)
      (e : nat) (key v orig : str) (st : mstate) : mstate * nat :=
    match p with
    | MSkip => (st, 0)
    | MSeq a b => let '(st1, er) := m_run rec a e key v orig st in
                  match er with 0 => m_run rec b e key v orig st1 | _ => (st1, er) end
    | MIf c a b => if cond_eval c e key v st then m_run rec a e key v orig st else m_run rec b e key v orig st
    | MAct a => act_run rec a e key v orig st
    end.

  (** a straight-line list of actions (what one path through the program executes) *)
  Fixpoint acts_run (rec : nat → str → str → mstate → mstate * nat) (l : list mact)
      (e : nat) (key v orig : str) (st : mstate) : mstate * nat :=
    match l with
    | [] => (st, 0)
    | a :: r => let '(st1, er) := act_run rec a e key v orig st in
                match er with 0 => acts_run rec r e key v orig st1 | _ => (st1, er) end
    end.

  (** Entity.__setitem__ as written: the lookup loop of shape [sh] (SM/IndexShapes.v), then the maintenance
      program [p]; [self[k] = v] inside [p] runs the same function with one unit of depth less (depth 0: error
      code 9, shown unreachable for programs that pass the obligations). *)
  Fixpoint set_item_pg (sh : setitem_shape) (p : mprog) (depth : nat)
      (e : nat) (key v : str) (st : mstate) : mstate * nat :=
    match depth with
    | O => (st, 9)
    | S d =>
        let '(o, l') := setitem_prefix fold sh key v (keys_of st e) in
        m_run (set_item_pg sh p d) p e key v (default [] o) (with_keys e l' st)
    end.

  (** ** The obligation: which actions each path executes *)
  (** the facts the conditions of the program test: which keyvalue, is the entity in the entity list, is it the
      worldspawn, is the new value 'worldspawn' *)
  Inductive kcls := KCn | KTn | KOther.
  Record mfacts := MF { f_key : kcls; f_in_ents : bool; f_is_spawn : bool; f_new_ws : bool }.

  Definition facts_of (e : nat) (key v : str) (st : mstate) : mfacts :=
    MF (if decide (fold key = cn) then KCn else if decide (fold key = tn) then KTn else KOther)
       (bool_decide (e ∈ ents st)) (bool_decide (e = spawn st)) (bool_decide (fold v = ws)).

  (** three-valued: [None] = these facts do not decide the condition *)
  Fixpoint cond_abs (c : mcond) (f : mfacts) : option bool :=
    match c with
    | MCKeyIs s =>
        if decide (s = cn) then Some (match f_key f with KCn => true | _ => false end)
        else if decide (s = tn) then Some (match f_key f with KTn => true | _ => false end)
        else match f_key f with KOther => None | _ => Some false end
    | MCInEnts => Some (f_in_ents f)
    | MCIsSpawn => Some (f_is_spawn f)
    | MCNewIs s => if decide (s = ws) then Some (f_new_ws f) else None
    | MCNot c => negb <$> cond_abs c f
    | MCOr a b => match cond_abs a f, cond_abs b f with Some x, Some y => Some (x || y) | _, _ => None end
    | MCAnd a b => match cond_abs a f, cond_abs b f with Some x, Some y => Some (x && y) | _, _ => None end
    | MCCached _ => None
    end.

  (** state census (round 5): the program decides everything from its arguments, the entity list and the spawn — it
      reads no flag cached on the entity object (seeded fault c07_7: [self._in_map], set by add_ent only) *)
  Fixpoint cond_stateless (c : mcond) : bool :=
    match c with
    | MCCached _ => false
    | MCNot c => cond_stateless c
    | MCOr a b | MCAnd a b => cond_stateless a && cond_stateless b
    | _ => true
    end.
  Fixpoint prog_stateless (p : mprog) : bool :=
    match p with
    | MSkip | MAct _ => true
    | MSeq a b => prog_stateless a && prog_stateless b
    | MIf c a b => cond_stateless c && prog_stateless a && prog_stateless b
    end.

  (** the actions on the path these facts select; a condition the facts do not decide is accepted only when both
      branches execute the same actions *)
  Fixpoint m_flat (p : mprog) (f : mfacts) : option (list mact) :=
    match p with
    | MSkip => Some []
    | MAct a => Some [a]
    | MSeq a b => match m_flat a f, m_flat b f with Some la, Some lb => Some (la ++ lb) | _, _ => None end
    | MIf c a b =>
        match cond_abs c f with
        | Some true => m_flat a f
        | Some false => m_flat b f
        | None => match m_flat a f, m_flat b f with
                  | Some la, Some lb => if decide (la = lb) then Some la else None
                  | _, _ => None
                  end
        end
    end.

  (** nothing runs after a [raise] *)
  Fixpoint trunc_raise (l : list mact) : list mact :=
    match l with
    | [] => []
    | ARaise x :: _ => [ARaise x]
    | a :: r => a :: trunc_raise r
    end.

  (** what today's code executes, path by path *)
  Definition acts_today (f : mfacts) : list mact :=
    match f_key f with
    | KCn => ARemClass MKOrig ::
             (if f_in_ents f then [AAddClass MKNew]
              else if f_is_spawn f then
                     (if f_new_ws f then [AAddClass (MKLit ws)] else [ASelfSet cn ws; ARaise EValue])
                   else [])
    | KTn => ARemTarget MKOrig :: (if f_is_spawn f || f_in_ents f then [AAddTarget MKNew] else [])
    | KOther => []
    end.

  Definition path_ok (p : mprog) (f : mfacts) : bool :=
    match m_flat p f with Some l => bool_decide (trunc_raise l = acts_today f) | None => false end.

  Definition bools : list bool := [false; true].
  Definition facts_with (k : kcls) : list mfacts :=
    i ← bools; s ← bools; w ← bools; [MF k i s w].
  Definition is_guard_error (f : mfacts) : bool :=
    match f_key f with KCn => negb (f_in_ents f) && f_is_spawn f && negb (f_new_ws f) | _ => false end.

  (** the named obligations *)
  Definition maint_classname_ok (p : mprog) : bool :=
    forallb (λ f, is_guard_error f || path_ok p f) (facts_with KCn).
  Definition maint_guard_error_ok (p : mprog) : bool :=
    forallb (λ f, negb (is_guard_error f) || path_ok p f) (facts_with KCn).
  Definition maint_targetname_ok (p : mprog) : bool := forallb (path_ok p) (facts_with KTn).
  Definition maint_other_ok (p : mprog) : bool := forallb (path_ok p) (facts_with KOther).
  Definition maint_ok (p : mprog) : bool :=
    maint_classname_ok p && maint_guard_error_ok p && maint_targetname_ok p && maint_other_ok p.

  (** today's maintenance program, and the one of seeded fault c07_3 (the rejected re-class of the worldspawn is
      reverted with a direct store, the index entry removed before is not put back) *)
  Definition maint_today : mprog :=
    MIf (MCKeyIs cn)
      (MSeq (MAct (ARemClass MKOrig))
         (MIf MCInEnts (MAct (AAddClass MKNew))
            (MIf MCIsSpawn
               (MSeq (MIf (MCNot (MCNewIs ws)) (MSeq (MAct (ASelfSet cn ws)) (MAct (ARaise EValue))) MSkip)
                     (MAct (AAddClass (MKLit ws))))
               MSkip)))
      (MIf (MCKeyIs tn)
         (MSeq (MAct (ARemTarget MKOrig)) (MIf (MCOr MCIsSpawn MCInEnts) (MAct (AAddTarget MKNew)) MSkip))
         (MIf (MCKeyIs nodeid) MSkip MSkip)).
  Definition maint_direct_revert : mprog :=
    MIf (MCKeyIs cn)
      (MSeq (MAct (ARemClass MKOrig))
         (MIf MCInEnts (MAct (AAddClass MKNew))
            (MIf MCIsSpawn
               (MSeq (MIf (MCNot (MCNewIs ws)) (MSeq (MAct (AStoreKey ws)) (MAct (ARaise EValue))) MSkip)
                     (MAct (AAddClass (MKLit ws))))
               MSkip)))
      (MIf (MCKeyIs tn)
         (MSeq (MAct (ARemTarget MKOrig)) (MIf (MCOr MCIsSpawn MCInEnts) (MAct (AAddTarget MKNew)) MSkip))
         MSkip).
  (** the program of seeded fault c07_7: membership is read from a flag on the entity instead of scanning the list *)
  Definition in_map_attr : str := [95;105;110;95;109;97;112]%N.
  Definition maint_cached_flag : mprog :=
    MIf (MCKeyIs cn)
      (MSeq (MAct (ARemClass MKOrig))
         (MIf (MCCached in_map_attr) (MAct (AAddClass MKNew))
            (MIf MCIsSpawn
               (MSeq (MIf (MCNot (MCNewIs ws)) (MSeq (MAct (ASelfSet cn ws)) (MAct (ARaise EValue))) MSkip)
                     (MAct (AAddClass (MKLit ws))))
               MSkip)))
      (MIf (MCKeyIs tn)
         (MSeq (MAct (ARemTarget MKOrig)) (MIf (MCOr MCIsSpawn (MCCached in_map_attr)) (MAct (AAddTarget MKNew)) MSkip))
         (MIf (MCKeyIs nodeid) MSkip MSkip)).
End maint.

(** * 2. VMF.add_ents over an iterable *)
(** what the loop body does with one item *)
Inductive pkind := PAppend | PClass | PTarget.
(** the argument as passed (possibly a one-shot iterator), or the local list made by [list(ents)] *)
Inductive aesrc := SArg | SMat.
Inductive aestmt :=
| AEMaterialise                           (* <local> = list(<argument>) *)
| AELoop (s : aesrc) (body : list pkind). (* for item in <s>: <body>;  entities.extend(<s>) = AELoop s [PAppend] *)
Definition aeprog := list aestmt.

Definition pkind_eqb (a b : pkind) : bool :=
  match a, b with PAppend, PAppend | PClass, PClass | PTarget, PTarget => true | _, _ => false end.

Section add_ents.
  Variable fold : str → str.

  (** one elementary effect on one entity; entities outside the modelled domain (the worldspawn object, objects
      that do not exist) are skipped, exactly as in [add_ent] of SM/IndexModel.v *)
  Definition atom (ke : pkind * nat) (st : mstate) : mstate :=
    let e := ke.2 in
    if decide (e = spawn st ∨ nobj st ≤ e) then st else
    match ke.1 with
    | PAppend => with_ents (ents st ++ [e]) st
    | PClass => upd_class (ix_add (cls_of_keys fold (keys_of st e)) e) st
    | PTarget => upd_target (ix_add (tgt_of_keys fold (keys_of st e)) e) st
    end.

  Definition loop_ops (body : list pkind) (got : list nat) : list (pkind * nat) :=
    e ← got; k ← body; [(k, e)].

  (** the elementary effects in execution order.  [es]: what the argument yields the first time it is iterated;
      [oneshot]: it yields nothing when iterated again; [consumed]: it has been iterated; [loc]: the local list *)
  Fixpoint ae_ops (p : aeprog) (es : list nat) (oneshot consumed : bool) (loc : list nat) : list (pkind * nat) :=
    match p with
    | [] => []
    | AEMaterialise :: r => ae_ops r es oneshot true (if oneshot && consumed then [] else es)
    | AELoop SArg body :: r =>
        loop_ops body (if oneshot && consumed then [] else es) ++ ae_ops r es oneshot true loc
    | AELoop SMat body :: r => loop_ops body loc ++ ae_ops r es oneshot consumed loc
    end.

  Definition ae_run (p : aeprog) (es : list nat) (oneshot : bool) (st : mstate) : mstate :=
    foldl (λ s ke, atom ke s) st (ae_ops p es oneshot false []).

  (** symbolic run: which kinds of effect are applied to the full list of entities, with multiplicity *)
  Fixpoint ae_sym (p : aeprog) (oneshot consumed locfull : bool) : list pkind :=
    match p with
    | [] => []
    | AEMaterialise :: r => ae_sym r oneshot true (negb (oneshot && consumed))
    | AELoop SArg body :: r => (if oneshot && consumed then [] else body) ++ ae_sym r oneshot true locfull
    | AELoop SMat body :: r => (if locfull then body else []) ++ ae_sym r oneshot consumed locfull
    end.
  Definition count_kind (k : pkind) (l : list pkind) : nat := length (List.filter (pkind_eqb k) l).
  Definition once_each (l : list pkind) : bool :=
    Nat.eqb (count_kind PAppend l) 1 && Nat.eqb (count_kind PClass l) 1 && Nat.eqb (count_kind PTarget l) 1.
  (** the named obligations: every entity is listed once and indexed once in both indexes — for an argument that
      can be iterated again (list, tuple) and for one that cannot (generator, map object, iterator) *)
  Definition ae_ok_reiterable (p : aeprog) : bool := once_each (ae_sym p false false false).
  Definition ae_ok_oneshot (p : aeprog) : bool := once_each (ae_sym p true false false).
  Definition ae_ok (p : aeprog) : bool := ae_ok_reiterable p && ae_ok_oneshot p.

  (** today's add_ents, and seeded fault c07_4 / mutation M12 (the argument is iterated twice) *)
  Definition add_ents_today : aeprog := [AEMaterialise; AELoop SMat [PAppend]; AELoop SMat [PClass; PTarget]].
  Definition add_ents_twice : aeprog := [AELoop SArg [PAppend]; AELoop SArg [PClass; PTarget]].
End add_ents.
