(** C09 — proofs about SM/StoreCondRow.v. *)
From Coq Require Import List ZArith Bool String Arith.
From SV Require Import SM.Store SM.StoreProofs SM.StoreCopy SM.StoreCondRow.
Import ListNotations.

(** The joined row is fresh exactly when both branch rows are: recording the weaker branch loses nothing and hides
    nothing, for every kind of field. *)
Lemma join_fresh : forall k a b, how_carries a = true -> how_carries b = true ->
  field_fresh k (how_join a b) = field_fresh k a && field_fresh k b.
Proof.
  intros k a b Ha Hb.
  destruct a; try discriminate; destruct b; try discriminate; destruct k as [| | | |[|]]; reflexivity.
Qed.

(** ... hence: accepted row => whichever branch an input takes, the row that describes THAT input is fresh. *)
Lemma join_fresh_sound : forall k a b, how_carries a = true -> how_carries b = true ->
  field_fresh k (how_join a b) = true -> forall t : bool, field_fresh k (if t then a else b) = true.
Proof.
  intros k a b Ha Hb H t. rewrite (join_fresh k a b Ha Hb) in H. apply andb_true_iff in H. destruct H, t; assumption.
Qed.

(** The joined row still carries the value (completeness is not affected by the choice). *)
Lemma join_carries : forall a b, how_carries a = true -> how_carries b = true ->
  how_carries (how_join a b) = true /\ field_covered (how_join a b) = true.
Proof. intros a b Ha Hb. destruct a; try discriminate; destruct b; try discriminate; split; reflexivity. Qed.

(** `copies if x else x` on a mutable container field: deep in one branch, shared in the other — rejected. *)
Lemma cond_share_rejected :
  how_join HDeep HShare = HShare /\ field_fresh (KCont true) (how_join HDeep HShare) = false /\
  field_fresh (KCont false) (how_join HShallow HShare) = false /\ field_fresh KMut (how_join HDeep HShare) = false /\
  (* for an immutable field the same shape is harmless *)
  field_fresh KImm (how_join HDeep HShare) = true.
Proof. repeat split; reflexivity. Qed.

Lemma how_eqb_eq : forall a b, how_eqb a b = true -> a = b.
Proof. destruct a, b; simpl; intro H; try discriminate; reflexivity. Qed.

Lemma row_how_in : forall c f w, row_how c f = Some w -> exists k, In (f, k, w) c.
Proof.
  induction c as [|[[n k] w0] r IH]; simpl; intros f w H; [discriminate|].
  destruct (String.eqb n f) eqn:E.
  - injection H as <-. apply String.eqb_eq in E. subst. exists k. left. reflexivity.
  - destruct (IH _ _ H) as [k' Hk]. exists k'. right. exact Hk.
Qed.

(** What the instance obligation [conditional_rows_are_joins] means: every conditional row the translator found is,
    in the generated census, the join of its two branch rows; so if that census passes [copy_fresh_mutables] the row
    describing the branch an input really takes is fresh too, whatever the test says for that input. *)
Theorem cond_rows_ok_spec : forall allc rows, cond_rows_ok allc rows = true ->
  forall lab f a b, In (lab, f, a, b) rows ->
  exists c k, clookup lab allc = Some c /\ In (f, k, how_join a b) c /\
              (field_fresh k (how_join a b) = true -> forall t : bool, field_fresh k (if t then a else b) = true).
Proof.
  intros allc rows H lab f a b HI.
  unfold cond_rows_ok in H. rewrite forallb_forall in H. specialize (H _ HI). simpl in H.
  apply andb_true_iff in H. destruct H as [H H3]. apply andb_true_iff in H. destruct H as [Ha Hb].
  destruct (clookup lab allc) as [c|] eqn:E; [|discriminate].
  destruct (row_how c f) as [w|] eqn:E2; [|discriminate].
  apply how_eqb_eq in H3. subst w.
  destruct (row_how_in _ _ _ E2) as [k Hk].
  exists c, k. split; [reflexivity|]. split; [exact Hk|].
  intros Hf t. exact (join_fresh_sound k a b Ha Hb Hf t).
Qed.

(** Not vacuous / sensitive: the census of seeded fault c09_6 (Keyvalues.copy with `value and isinstance(value, list)`). *)
Definition cr_census : census := [("_real_name"%string, KImm, HShare); ("_value"%string, KCont true, HShare)].
Definition cr_census_claims_deep : census := [("_real_name"%string, KImm, HShare); ("_value"%string, KCont true, HDeep)].
