From stdpp Require Import list.
From SV Require Import SM.IdManProofs SM.IdLife SM.IdLifeProofs SM.IdFixupHist.
Open Scope Z_scope.

Lemma fx_empty_inv : FxInv [].
Proof. split; [constructor|]. intros i Hi. inversion Hi. Qed.

Lemma fx_step_inv f o : FxInv f → FxInv (fx_step true true f o).
Proof.
  intros H. destruct o as [v|v| | |]; simpl.
  - by apply fx_set_inv.
  - by apply fx_del_inv.
  - apply fx_empty_inv.
  - apply fx_init_inv.
  - done.
Qed.

(** After the constructor on ANY list and EVERY sequence of operations, the replaceNN indexes of one entity are
    pairwise distinct and positive. *)
Theorem fx_hist_inv l ops : FxInv (fx_hist true true l ops).
Proof.
  apply (fold_left_inv FxInv); [apply fx_step_inv|apply fx_init_inv].
Qed.

(** The variables of a table stay distinct as well (one index per variable, one variable per index). *)
Definition FxVars (f : fixups) : Prop := NoDup (f.*1).

Lemma fx_set_vars v f : FxVars f → FxVars (fx_set v f).
Proof.
  unfold FxVars, fx_set. intros H. destruct (decide _) as [|Hn]; [done|].
  rewrite fmap_app. simpl. apply NoDup_app. split; [done|]. split; [|apply NoDup_singleton].
  intros x Hx Hx'. apply elem_of_list_singleton in Hx' as ->. done.
Qed.

Lemma fx_filter_vars (P : Z * Z → Prop) `{∀ p, Decision (P p)} f : FxVars f → FxVars (filter P f).
Proof. unfold FxVars. intros H'. eapply my_sublist_NoDup; [|exact H']. apply fmap_sublist, my_sublist_filter. Qed.

(** Rebuilding a table from its own values (Entity.copy) keeps every variable's index: when the indexes are
    distinct and positive and the variables distinct, the constructor accepts every value as it is. *)
Lemma fx_init_pass_id l : ∀ seen f extra,
  NoDup (l.*2) → (∀ i, i ∈ l.*2 → 0 < i ∧ i ∉ seen) → NoDup (l.*1) → (∀ v, v ∈ l.*1 → v ∉ f.*1) →
  fx_init_pass true true l seen f extra = (f ++ l, extra).
Proof.
  induction l as [|[v i] r IH]; intros seen f extra Hnd Hok Hv Hf; cbn [fx_init_pass].
  - by rewrite app_nil_r.
  - rewrite fmap_cons in Hnd, Hv, Hok, Hf. cbn [fst snd] in *.
    apply NoDup_cons in Hnd as [Hir Hnd]. apply NoDup_cons in Hv as [Hvr Hv].
    destruct (Hok i) as [Hpos Hns]; [left|].
    assert (Hacc : accept true i seen = true).
    { unfold accept. apply andb_true_iff. split; by apply bool_decide_eq_true. }
    rewrite Hacc.
    assert (Hall : ∀ p, p ∈ f → p.1 ≠ v).
    { intros p Hp Heq. apply (Hf v); [left|]. rewrite <- Heq. apply elem_of_list_fmap. eauto. }
    assert (Hfil : ∀ g : list (Z * Z), (∀ p, p ∈ g → p.1 ≠ v) → filter (λ p : Z * Z, p.1 ≠ v) g = g).
    { clear. induction g as [|p g IHg]; intros Hall; [done|].
      rewrite filter_cons_True by (apply Hall; left). f_equal. apply IHg. intros q Hq. apply Hall. by right. }
    unfold fixups in *. rewrite (Hfil f Hall).
    rewrite (IH (i :: seen) (f ++ [(v, i)]) extra); [by rewrite <- app_assoc| done | | done |].
    + intros j Hj. destruct (Hok j) as [? ?]; [by right|]. split; [done|].
      intros Hx. apply elem_of_cons in Hx as [->|Hx]; done.
    + intros w Hw Hx. rewrite fmap_app in Hx. apply elem_of_app in Hx as [Hx|Hx].
      * apply (Hf w); [by right|done].
      * simpl in Hx. apply elem_of_list_singleton in Hx as ->. done.
Qed.

