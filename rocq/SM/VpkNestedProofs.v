(** Proofs about SM/VpkNested.v: for every clean-up program that [prog_safe] accepts, deleting from the nested dicts is deleting
    from the flat table of SM/Vpk.v ([adel]), and raises KeyError exactly when the flat table has no such key — for every tree.
    The program of seeded fault c13_3 is refuted with a computed tree. *)
From Coq Require Import List NArith Bool Permutation.
From SV Require Import Fmt.VpkDir Fmt.VpkDirProofs SM.Vpk SM.VpkProofs SM.VpkNested.
Import ListNotations.
Open Scope N_scope.

Lemma adel_app {V} k (a b : list (key * V)) : adel k (a ++ b) = adel k a ++ adel k b.
Proof.
  induction a as [|[k' v] a IH]; cbn [app adel]; [reflexivity|].
  destruct (key_eqb k k'); [assumption|]. cbn [app]. now rewrite IH.
Qed.

(** ---- removing the file ---- *)
Lemma adel_flat_files x p n e d fs :
  adel (x, p, n) (flat_files e d fs) =
  if bytes_eqb e x && bytes_eqb d p then flat_files e d (filter (fun f => negb (bytes_eqb (fst f) n)) fs)
  else flat_files e d fs.
Proof.
  induction fs as [|f fs IH].
  - cbn. now destruct (bytes_eqb e x && bytes_eqb d p).
  - unfold flat_files in *. cbn [map adel filter key_eqb]. rewrite IH.
    rewrite (bytes_eqb_sym x e), (bytes_eqb_sym p d), (bytes_eqb_sym n (fst f)).
    destruct (bytes_eqb e x); cbn [andb]; [|reflexivity].
    destruct (bytes_eqb d p); cbn [andb]; [|reflexivity].
    destruct (bytes_eqb (fst f) n); cbn [negb]; reflexivity.
Qed.

Lemma adel_flat_dirs x p n e ds :
  adel (x, p, n) (flat_dirs e ds) =
  if bytes_eqb e x
  then flat_dirs e (map (fun d => if bytes_eqb (fst d) p
                                  then (fst d, filter (fun f => negb (bytes_eqb (fst f) n)) (snd d)) else d) ds)
  else flat_dirs e ds.
Proof.
  induction ds as [|d ds IH].
  - cbn. now destruct (bytes_eqb e x).
  - cbn [map]. rewrite flat_dirs_cons, adel_app, IH, adel_flat_files.
    destruct (bytes_eqb e x); cbn [andb]; [|reflexivity].
    destruct (bytes_eqb (fst d) p); reflexivity.
Qed.

Lemma flat_rm_name x p n t : flat_tree (rm_name x p n t) = adel (x, p, n) (flat_tree t).
Proof.
  induction t as [|e t IH]; [reflexivity|].
  unfold rm_name in *. cbn [map]. rewrite !flat_tree_cons, adel_app, IH, adel_flat_dirs.
  destruct (bytes_eqb (fst e) x); reflexivity.
Qed.

(** ---- membership ---- *)
Lemma existsb_flat_files x p n e d fs :
  existsb (fun kv => key_eqb (x, p, n) (fst kv)) (flat_files e d fs)
  = bytes_eqb e x && bytes_eqb d p && existsb (fun f => bytes_eqb (fst f) n) fs.
Proof.
  induction fs as [|f fs IH].
  - cbn. now rewrite andb_false_r.
  - change (flat_files e d (f :: fs)) with (((e, d, fst f), snd f) :: flat_files e d fs).
    cbn [existsb]. rewrite IH. cbn [fst key_eqb].
    rewrite (bytes_eqb_sym x e), (bytes_eqb_sym p d), (bytes_eqb_sym n (fst f)).
    destruct (bytes_eqb e x), (bytes_eqb d p), (bytes_eqb (fst f) n); reflexivity.
Qed.

Lemma nmem_flat t x p n :
  nmem t (x, p, n) = existsb (fun kv => key_eqb (x, p, n) (fst kv)) (flat_tree t).
Proof.
  induction t as [|e t IH]; [reflexivity|].
  rewrite flat_tree_cons, existsb_app. cbn [nmem existsb] in *. rewrite IH. f_equal.
  induction (snd e) as [|d ds IHd].
  - cbn. now rewrite andb_false_r.
  - rewrite flat_dirs_cons. cbn [existsb]. rewrite existsb_app, existsb_flat_files, <- IHd.
    destruct (bytes_eqb (fst e) x), (bytes_eqb (fst d) p); reflexivity.
Qed.

Lemma existsb_alookup {V} k (l : list (key * V)) :
  existsb (fun kv => key_eqb k (fst kv)) l = match alookup k l with Some _ => true | None => false end.
Proof.
  induction l as [|[k' v] l IH]; [reflexivity|]. cbn [existsb alookup fst].
  destruct (key_eqb k k'); [reflexivity|assumption].
Qed.

(** ---- popping empty dicts ---- *)
Definition dirs_empty (p : bytes) (ds : list (bytes * list (bytes * info))) : bool :=
  forallb (fun d => if bytes_eqb (fst d) p then is_nil (snd d) else true) ds.
Definition dirs_only (p : bytes) (ds : list (bytes * list (bytes * info))) : bool :=
  forallb (fun d => bytes_eqb (fst d) p) ds.

Lemma flat_dirs_pop e p ds : dirs_empty p ds = true ->
  flat_dirs e (filter (fun d => negb (bytes_eqb (fst d) p)) ds) = flat_dirs e ds.
Proof.
  induction ds as [|d ds IH]; [reflexivity|]. unfold dirs_empty in *. cbn [forallb filter].
  intros H. apply andb_prop in H as [Hd Hs]. rewrite flat_dirs_cons. destruct (bytes_eqb (fst d) p); cbn [negb].
  - destruct (snd d); [|discriminate]. now apply IH.
  - now rewrite flat_dirs_cons, IH.
Qed.

Lemma flat_dirs_nil e p ds : dirs_empty p ds = true -> dirs_only p ds = true -> flat_dirs e ds = [].
Proof.
  induction ds as [|d ds IH]; [reflexivity|]. unfold dirs_empty, dirs_only in *. cbn [forallb].
  intros H1 H2. apply andb_prop in H1 as [Hd Hs]. apply andb_prop in H2 as [Hp Ho]. rewrite Hp in Hd.
  rewrite flat_dirs_cons. destruct (snd d); [|discriminate]. now apply IH.
Qed.

Lemma flat_pop_folder x p t : files_empty x p t = true -> flat_tree (pop_folder x p t) = flat_tree t.
Proof.
  induction t as [|e t IH]; [reflexivity|]. unfold files_empty, pop_folder in *. cbn [forallb map].
  intros H. apply andb_prop in H as [He Ht]. rewrite !flat_tree_cons, (IH Ht).
  destruct (bytes_eqb (fst e) x); [|reflexivity]. cbn [fst snd]. now rewrite (flat_dirs_pop _ _ _ He).
Qed.

Lemma flat_pop_ext x p t : files_empty x p t = true -> others_none x p t = true ->
  flat_tree (pop_ext x t) = flat_tree t.
Proof.
  induction t as [|e t IH]; [reflexivity|]. unfold files_empty, others_none, pop_ext in *. cbn [forallb filter].
  intros H1 H2. apply andb_prop in H1 as [He Ht]. apply andb_prop in H2 as [Ho Hot].
  destruct (bytes_eqb (fst e) x); cbn [negb].
  - rewrite flat_tree_cons, (flat_dirs_nil _ _ _ He Ho). cbn [app]. now apply IH.
  - rewrite !flat_tree_cons. now rewrite IH.
Qed.

Lemma pop_ext_pop_folder x p t : pop_ext x (pop_folder x p t) = pop_ext x t.
Proof.
  induction t as [|e t IH]; [reflexivity|]. unfold pop_ext, pop_folder in *. cbn [map filter].
  destruct (bytes_eqb (fst e) x) eqn:E; cbn [fst]; rewrite E; cbn [negb]; now rewrite IH.
Qed.

Lemma prog_safe_at p fe oth0 : prog_safe p = true -> safe_at p fe oth0 = true.
Proof.
  unfold prog_safe. intros H. apply andb_prop in H as [H H4]. apply andb_prop in H as [H H3]. apply andb_prop in H as [H1 H2].
  destruct fe, oth0; assumption.
Qed.

(** The clean-up of an accepted program pops only dicts that are empty: whatever does not see empty dicts does not see the clean-up. *)
Lemma cleanup_invisible {X} (F : tree -> X) prog x p t : prog_safe prog = true ->
  (files_empty x p t = true -> F (pop_folder x p t) = F t) ->
  (files_empty x p t = true -> others_none x p t = true -> F (pop_ext x t) = F t) ->
  match outcome prog (files_empty x p t) (others_none x p t) false false with
  | Some (fp, ep) => F (let t2 := if fp then pop_folder x p t else t in if ep then pop_ext x t2 else t2) = F t
  | None => False
  end.
Proof.
  intros Hs Hf He. pose proof (prog_safe_at prog (files_empty x p t) (others_none x p t) Hs) as Hat. unfold safe_at in Hat.
  destruct (outcome prog _ _ false false) as [[fp ep]|]; [|discriminate].
  apply andb_prop in Hat as [Hfp Hep]. cbv zeta. destruct ep.
  - cbn [implb] in Hep. apply andb_prop in Hep as [Hfe Ho]. destruct fp; [rewrite pop_ext_pop_folder|]; now apply He.
  - destruct fp; [|reflexivity]. cbn [implb] in Hfp. now apply Hf.
Qed.

(** The nested delete is the flat delete. *)
Theorem ndel_is_adel prog : prog_safe prog = true -> forall t k,
  match ndel prog t k with
  | Some t' => alookup k (flat_tree t) <> None /\ flat_tree t' = adel k (flat_tree t)
  | None => alookup k (flat_tree t) = None
  end.
Proof.
  intros Hs t [[x p] n]. unfold ndel. rewrite nmem_flat, existsb_alookup.
  destruct (alookup (x, p, n) (flat_tree t)) as [i|] eqn:L; [|reflexivity].
  pose proof (cleanup_invisible (@flat_tree) prog x p _ Hs (flat_pop_folder x p (rm_name x p n t)) (flat_pop_ext x p _)) as H. revert H.
  destruct (outcome prog _ _ false false) as [[fp ep]|]; [|contradiction].
  intros H. split; [discriminate|]. rewrite <- flat_rm_name. exact H.
Qed.

(** The pinned clean-up is accepted (and leaves no empty dict behind); the program of seeded fault c13_3 is not, and loses a file:
    deleting the only file of folder [a] with extension [t] also deletes [b/y.t]. *)
Example del_prog_pinned_safe : prog_safe del_prog_pinned = true /\ prog_tidy del_prog_pinned = true.
Proof. vm_compute. split; reflexivity. Qed.

Definition ex_info : info := mkInfo 0 [] None 0 0.
Definition ex_tree : tree := [([116], [([97], [([120], ex_info)]); ([98], [([121], ex_info)])])].
Example del_prog_c13_3_refuted :
  prog_safe del_prog_c13_3 = false
  /\ option_map (@flat_tree) (ndel del_prog_c13_3 ex_tree ([116], [97], [120])) = Some []
  /\ adel ([116], [97], [120]) (flat_tree ex_tree) = [(([116], [98], [121]), ex_info)]
  /\ option_map (@flat_tree) (ndel del_prog_pinned ex_tree ([116], [97], [120])) = Some [(([116], [98], [121]), ex_info)].
Proof. vm_compute. repeat split; reflexivity. Qed.

(** ---- on the table of the state machine: the nested dicts that hold the table [tb] are [tree_of tb] up to order ---- *)
Lemma adel_perm {V} k (l1 l2 : list (key * V)) : Permutation l1 l2 -> Permutation (adel k l1) (adel k l2).
Proof.
  induction 1 as [|[k' v] l l' _ IH|[k1 v1] [k2 v2] l|l l' l'' _ IH1 _ IH2]; cbn [adel].
  - constructor.
  - destruct (key_eqb k k'); [assumption|now constructor].
  - destruct (key_eqb k k1), (key_eqb k k2); try apply Permutation_refl. apply perm_swap.
  - now transitivity (adel k l').
Qed.

Lemma alookup_none_perm {V} k (l1 l2 : list (key * V)) : Permutation l1 l2 -> alookup k l1 = None -> alookup k l2 = None.
Proof.
  intros P H. apply alookup_None. apply alookup_None in H. intros Hin. apply H.
  apply Permutation_in with (l := map fst l2); [|assumption]. apply Permutation_map. now apply Permutation_sym.
Qed.

