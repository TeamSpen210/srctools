(** Proofs about SM/IndexModel.v: the index invariant holds initially, after VMF.parse, and is preserved by
    every operation; hence for every operation sequence on every family of maps. *)
From stdpp Require Import gmap.
From Coq Require Import NArith.
From SV Require Import SM.IndexModel.

(** ** Index primitives *)
Section ix.
  Context {K : Type} `{Countable K}.
  Implicit Types m : gmap K (gset nat).

  (** what a reader sees after an addition / a removal *)
  Lemma ix_get_add k e m k' :
    ix_get (ix_add k e m) k' = if decide (k' = k) then {[e]} ∪ ix_get m k else ix_get m k'.
  Proof.
    unfold ix_add. unfold ix_get at 1. destruct (decide (k' = k)) as [->|].
    - by rewrite lookup_insert.
    - by rewrite lookup_insert_ne.
  Qed.
  Lemma ix_get_remove k e m k' :
    ix_get (ix_remove k e m) k' = if decide (k' = k) then ix_get m k ∖ {[e]} else ix_get m k'.
  Proof.
    unfold ix_remove. destruct (m !! k) as [s|] eqn:E.
    - destruct (decide (s ∖ {[e]} = ∅)) as [He|He]; destruct (decide (k' = k)) as [->|Hk]; unfold ix_get.
      + rewrite lookup_delete, E. simpl. by rewrite He.
      + by rewrite lookup_delete_ne.
      + by rewrite lookup_insert, E.
      + by rewrite lookup_insert_ne.
    - destruct (decide (k' = k)) as [->|]; [|done]. unfold ix_get. rewrite E. simpl. set_solver.
  Qed.

  Lemma elem_of_ix_add k e m k' e' :
    e' ∈ ix_get (ix_add k e m) k' ↔ (k = k' ∧ e' = e) ∨ e' ∈ ix_get m k'.
  Proof. rewrite ix_get_add. case_decide; set_solver. Qed.
  Lemma elem_of_ix_remove k e m k' e' :
    e' ∈ ix_get (ix_remove k e m) k' ↔ e' ∈ ix_get m k' ∧ ¬ (k = k' ∧ e' = e).
  Proof. rewrite ix_get_remove. case_decide; set_solver. Qed.

  (** a defaultdict read changes nothing a reader can see *)
  Lemma ix_get_probe k m k' : ix_get (probe k m) k' = ix_get m k'.
  Proof.
    unfold probe, ix_get. destruct (m !! k) eqn:E; [done|].
    destruct (decide (k = k')) as [<-|Hne]; [by rewrite lookup_insert, E|by rewrite lookup_insert_ne].
  Qed.

  (** An index is [good] for a presence predicate and a key function when it is exactly their scan. *)
  Definition good m (P : nat → Prop) (f : nat → K) : Prop := ∀ k e, e ∈ ix_get m k ↔ P e ∧ f e = k.
End ix.

(** [list.remove] takes out the first occurrence only *)
Lemma elem_of_remove_first e x l : x ∈ remove_first e l ↔ x ∈ l ∧ (x ≠ e ∨ e ∈ remove_first e l).
Proof.
  induction l as [|y l IH]; simpl; [set_solver|]. destruct (decide (y = e)) as [->|Hy].
  - rewrite elem_of_cons. destruct (decide (x = e)) as [->|]; intuition congruence.
  - rewrite !elem_of_cons, IH. destruct (decide (x = e)) as [->|]; intuition congruence.
Qed.

Section kv.
  Variable fold : str → str.
  Notation kv_find := (kv_find fold). Notation kv_set := (kv_set fold). Notation kv_del := (kv_del fold).

  Definition fkeys (l : kvs) : list str := map (λ kv, fold kv.1) l.
  Definition fold_nodup (l : kvs) : Prop := NoDup (fkeys l).

  Lemma kv_find_set_eq key v l : kv_find (fold key) (kv_set key v l) = Some v.
  Proof.
    induction l as [|[k v0] l IH]; simpl.
    - by rewrite decide_True.
    - destruct (decide (fold k = fold key)) as [E|E]; simpl.
      + by rewrite decide_True.
      + by rewrite decide_False.
  Qed.
  Lemma kv_find_set_ne kf key v l : kf ≠ fold key → kv_find kf (kv_set key v l) = kv_find kf l.
  Proof.
    intros Hne. induction l as [|[k v0] l IH]; simpl.
    - by rewrite decide_False.
    - destruct (decide (fold k = fold key)) as [E|E]; simpl.
      + rewrite !decide_False by congruence. done.
      + destruct (decide (fold k = kf)); done.
  Qed.
  Lemma kv_find_none kf l : kf ∉ fkeys l → kv_find kf l = None.
  Proof.
    induction l as [|[k v0] l IH]; simpl; [done|]. intros Hn.
    rewrite decide_False by set_solver. apply IH. set_solver.
  Qed.
  Lemma kv_find_del_eq kf l : fold_nodup l → kv_find kf (kv_del kf l) = None.
  Proof.
    unfold fold_nodup. induction l as [|[k v0] l IH]; simpl; [done|]. intros Hnd.
    apply NoDup_cons in Hnd as [Hn Hnd]. destruct (decide (fold k = kf)) as [<-|E]; simpl.
    - by apply kv_find_none.
    - rewrite decide_False by done. auto.
  Qed.
  Lemma kv_find_del_ne kf' kf l : kf' ≠ kf → kv_find kf' (kv_del kf l) = kv_find kf' l.
  Proof.
    intros Hne. induction l as [|[k v0] l IH]; simpl; [done|].
    destruct (decide (fold k = kf)) as [E|E]; simpl.
    - rewrite decide_False by congruence. done.
    - destruct (decide (fold k = kf')); done.
  Qed.
  Lemma fkeys_del_sub kf l x : x ∈ fkeys (kv_del kf l) → x ∈ fkeys l.
  Proof.
    induction l as [|[k v0] l IH]; simpl; [done|]. destruct (decide (fold k = kf)); simpl; rewrite ?elem_of_cons; tauto.
  Qed.
  Lemma fold_nodup_del kf l : fold_nodup l → fold_nodup (kv_del kf l).
  Proof.
    unfold fold_nodup. induction l as [|[k v0] l IH]; simpl; [done|]. intros Hnd.
    apply NoDup_cons in Hnd as [Hn Hnd]. destruct (decide (fold k = kf)); simpl; [done|].
    apply NoDup_cons. split; [|auto]. intros Hin. apply Hn. by eapply fkeys_del_sub.
  Qed.
  Lemma fkeys_set_sub key v l x : x ∈ fkeys (kv_set key v l) → x ∈ fkeys l ∨ x = fold key.
  Proof.
    induction l as [|[k v0] l IH]; simpl; [|destruct (decide (fold k = fold key)); simpl]; rewrite ?elem_of_cons, ?elem_of_nil; tauto.
  Qed.
  Lemma fold_nodup_set key v l : fold_nodup l → fold_nodup (kv_set key v l).
  Proof.
    unfold fold_nodup. induction l as [|[k v0] l IH]; simpl.
    - intros _. apply NoDup_singleton.
    - intros Hnd. apply NoDup_cons in Hnd as [Hn Hnd]. destruct (decide (fold k = fold key)) as [E|E]; simpl.
      + apply NoDup_cons; done.
      + apply NoDup_cons. split; [|auto]. intros Hin. apply fkeys_set_sub in Hin as [Hin|Heq]; [done|congruence].
  Qed.
End kv.

(** ** Compositional facts about one index *)
Section good.
  Context {K : Type} `{Countable K}.
  Implicit Types m : gmap K (gset nat).

  (** [good_ex m P f e]: the index is right for everybody but [e], and [e] is in no set. *)
  Definition good_ex m (P : nat → Prop) (f : nat → K) (e : nat) : Prop :=
    ∀ k x, x ∈ ix_get m k ↔ x ≠ e ∧ P x ∧ f x = k.

  Lemma good_singleton (k0 : K) e0 (P : nat → Prop) f :
    (∀ x, P x ↔ x = e0) → f e0 = k0 → good {[k0 := {[e0]}]} P f.
  Proof.
    intros HP Hf k e. unfold ix_get. rewrite HP. destruct (decide (k = k0)) as [->|Hne].
    - rewrite lookup_singleton. simpl. rewrite elem_of_singleton. naive_solver.
    - rewrite lookup_singleton_ne by done. simpl. rewrite elem_of_empty. naive_solver.
  Qed.

  Lemma good_to_ex m P f e kold : good m P f → (P e → kold = f e) → good_ex (ix_remove kold e m) P f e.
  Proof.
    intros Hg Hk k x. rewrite elem_of_ix_remove, (Hg k x).
    destruct (decide (x = e)) as [->|]; naive_solver.
  Qed.
  Lemma good_ex_remove m P f e k0 : good_ex m P f e → good_ex (ix_remove k0 e m) P f e.
  Proof. intros Hg k x. rewrite elem_of_ix_remove, (Hg k x). naive_solver. Qed.
  Lemma good_ex_add m P f e k0 :
    good_ex m P f e → P e → good (ix_add k0 e m) P (λ x, if decide (x = e) then k0 else f x).
  Proof.
    intros Hg HP k x. rewrite elem_of_ix_add, (Hg k x).
    destruct (decide (x = e)) as [->|]; naive_solver.
  Qed.
  Lemma good_ex_out m P f e k0 :
    good_ex m P f e → ¬ P e → good m P (λ x, if decide (x = e) then k0 else f x).
  Proof.
    intros Hg HP k x. rewrite (Hg k x). destruct (decide (x = e)) as [->|]; naive_solver.
  Qed.
  Lemma good_keep m P f e k0 :
    good m P f → (P e → k0 = f e) → good m P (λ x, if decide (x = e) then k0 else f x).
  Proof.
    intros Hg HP k x. rewrite (Hg k x). destruct (decide (x = e)) as [->|]; naive_solver.
  Qed.
  Lemma good_ext m P f P' f' : good m P f → (∀ x, P' x ↔ P x) → (∀ x, f' x = f x) → good m P' f'.
  Proof. intros Hg HP Hf k x. rewrite (Hg k x), HP, Hf. done. Qed.
  Lemma good_add_present m P f P' e k0 :
    good m P f → k0 = f e → (∀ x, P' x ↔ P x ∨ x = e) → good (ix_add k0 e m) P' f.
  Proof.
    intros Hg -> HP k x. rewrite elem_of_ix_add, (Hg k x), HP.
    destruct (decide (x = e)) as [->|]; naive_solver.
  Qed.
  Lemma good_remove_present m P f P' e k0 :
    good m P f → k0 = f e → (∀ x, P' x ↔ P x ∧ x ≠ e) → good (ix_remove k0 e m) P' f.
  Proof.
    intros Hg -> HP k x. rewrite elem_of_ix_remove, (Hg k x), HP.
    destruct (decide (x = e)) as [->|]; naive_solver.
  Qed.
  Lemma good_remove_absent m P f e k0 : good m P f → ¬ P e → good (ix_remove k0 e m) P f.
  Proof. intros Hg HP k x. rewrite elem_of_ix_remove, (Hg k x). naive_solver. Qed.
  Lemma good_add_new m P f e k0 :
    good m P f → ¬ P e → good (ix_add k0 e m) (λ x, P x ∨ x = e) (λ x, if decide (x = e) then k0 else f x).
  Proof.
    intros Hg HP k x. rewrite elem_of_ix_add, (Hg k x). destruct (decide (x = e)) as [->|]; naive_solver.
  Qed.
  (** [old] leaves the index and the newcomer [e] enters it under [knew] *)
  Lemma good_swap2 m P f old e knew :
    good m P f → ¬ P e →
    good (ix_add knew e (ix_remove (f old) old m))
         (λ x, (P x ∧ x ≠ old) ∨ x = e) (λ x, if decide (x = e) then knew else f x).
  Proof. intros Hg Hne. apply good_add_new; [by eapply good_remove_present|tauto]. Qed.
  (** the same when the newcomer is first removed from where it never was *)
  Lemma good_swap3 m P f old e k1 knew :
    good m P f → ¬ P e →
    good (ix_add knew e (ix_remove k1 e (ix_remove (f old) old m)))
         (λ x, (P x ∧ x ≠ old) ∨ x = e) (λ x, if decide (x = e) then knew else f x).
  Proof.
    intros Hg Hne. apply good_add_new; [apply good_remove_absent|]; [by eapply good_remove_present|tauto..].
  Qed.
End good.

(** ** The invariant *)
Section inv.
  Variable fold : str → str.
  Hypothesis fold_nil : fold [] = [].
  Hypothesis fold_cn : fold cn = cn.
  Hypothesis fold_tn : fold tn = tn.
  Hypothesis fold_ws : fold ws = ws.

  Notation cls_of := (cls_of fold). Notation tgt_of := (tgt_of fold).
  Notation cls_of_keys := (cls_of_keys fold). Notation tgt_of_keys := (tgt_of_keys fold).
  Notation fold_nodup := (fold_nodup fold).

  (** the entities "in the map": the entity list plus the worldspawn entity *)
  Definition present (st : mstate) (e : nat) : Prop := e = spawn st ∨ e ∈ ents st.

  Record Inv (st : mstate) : Prop := {
    inv_class : good (by_class st) (present st) (cls_of st);
    inv_target : good (by_target st) (present st) (tgt_of st);
    inv_spawn : cls_of st (spawn st) = ws;
    inv_spawn_ents : spawn st ∉ ents st;
    inv_keys : ∀ e, fold_nodup (keys_of st e);
    inv_fresh : ∀ e, nobj st ≤ e → ¬ present st e;
  }.

  Lemma in_map_present st e : in_map st e = true ↔ present st e.
  Proof.
    unfold in_map, present. rewrite orb_true_iff, !bool_decide_eq_true. done.
  Qed.
  Lemma in_map_not_present st e : in_map st e = false ↔ ¬ present st e.
  Proof. rewrite <- in_map_present. destruct (in_map st e); naive_solver. Qed.

  Lemma cn_ne_tn : cn ≠ tn. Proof. done. Qed.
  Lemma mapver_ne_cn : mapver ≠ cn. Proof. done. Qed.
  Lemma mapver_ne_tn : mapver ≠ tn. Proof. done. Qed.

  (** Plumbing: the keys of one object are replaced, the spawn and both indexes are given, the rest is kept. *)
  Lemma inv_rekey_spawn st e l' sp' bc' bt' :
    Inv st → fold_nodup l' → sp' < nobj st → sp' ∉ ents st →
    good bc' (λ x, x = sp' ∨ x ∈ ents st) (λ x, if decide (x = e) then cls_of_keys l' else cls_of st x) →
    good bt' (λ x, x = sp' ∨ x ∈ ents st) (λ x, if decide (x = e) then tgt_of_keys l' else tgt_of st x) →
    (if decide (sp' = e) then cls_of_keys l' else cls_of st sp') = ws →
    Inv (MS (<[e := l']> (objs st)) (nobj st) (ents st) sp' bc' bt').
  Proof.
    intros [Hc Ht Hs Hse Hk Hf] Hnd Hlt Hnin Hc' Ht' Hsp.
    assert (Hko : ∀ x, keys_of (MS (<[e := l']> (objs st)) (nobj st) (ents st) sp' bc' bt') x
                       = if decide (x = e) then l' else keys_of st x).
    { intros x. unfold keys_of. simpl. destruct (decide (x = e)) as [->|].
      - by rewrite lookup_insert.
      - by rewrite lookup_insert_ne. }
    split; simpl.
    - eapply good_ext; [exact Hc'|done|]. intros x. unfold IndexModel.cls_of. rewrite Hko.
      by destruct (decide (x = e)).
    - eapply good_ext; [exact Ht'|done|]. intros x. unfold IndexModel.tgt_of. rewrite Hko.
      by destruct (decide (x = e)).
    - unfold IndexModel.cls_of. rewrite Hko. by destruct (decide (sp' = e)).
    - done.
    - intros x. rewrite Hko. destruct (decide (x = e)); auto.
    - intros x Hle. unfold present. simpl. intros [->|Hin]; [lia|]. apply (Hf x Hle). by right.
  Qed.

  (** ... with the spawn kept *)
  Lemma inv_rekey st e l' bc' bt' :
    Inv st → fold_nodup l' →
    good bc' (present st) (λ x, if decide (x = e) then cls_of_keys l' else cls_of st x) →
    good bt' (present st) (λ x, if decide (x = e) then tgt_of_keys l' else tgt_of st x) →
    (e = spawn st → cls_of_keys l' = ws) →
    Inv (MS (<[e := l']> (objs st)) (nobj st) (ents st) (spawn st) bc' bt').
  Proof.
    intros HI Hnd Hc' Ht' Hsp. pose proof HI as [_ _ Hs Hse _ Hf]. apply inv_rekey_spawn; try done.
    - destruct (decide (spawn st < nobj st)); [done|]. destruct (Hf (spawn st)); [lia|by left].
    - case_decide; [auto|done].
  Qed.

  (** same, when the state is written with the model's update functions *)
  Lemma rekey_eq st e l' fc ft :
    upd_target ft (upd_class fc (with_keys e l' st))
    = MS (<[e := l']> (objs st)) (nobj st) (ents st) (spawn st) (fc (by_class st)) (ft (by_target st)).
  Proof. done. Qed.

  (** the indexed keys after a store / a delete in the key list *)
  Lemma cls_of_keys_set key v l :
    cls_of_keys (kv_set fold key v l) = if decide (fold key = cn) then fold v else cls_of_keys l.
  Proof.
    unfold IndexModel.cls_of_keys. case_decide as E; [|by rewrite kv_find_set_ne].
    by rewrite <- E, kv_find_set_eq.
  Qed.
  Lemma tgt_of_keys_set key v l :
    tgt_of_keys (kv_set fold key v l) = if decide (fold key = tn) then or_none (fold v) else tgt_of_keys l.
  Proof.
    unfold IndexModel.tgt_of_keys. case_decide as E; [|by rewrite kv_find_set_ne].
    by rewrite <- E, kv_find_set_eq.
  Qed.
  Lemma cls_of_keys_del kf l : kf ≠ cn → cls_of_keys (kv_del fold kf l) = cls_of_keys l.
  Proof. intros. unfold IndexModel.cls_of_keys. by rewrite kv_find_del_ne. Qed.
  Lemma tgt_of_keys_del kf l : fold_nodup l →
    tgt_of_keys (kv_del fold kf l) = if decide (kf = tn) then None else tgt_of_keys l.
  Proof.
    intros. unfold IndexModel.tgt_of_keys. case_decide as E; [|by rewrite kv_find_del_ne].
    rewrite <- E, kv_find_del_eq by done. simpl. by rewrite fold_nil.
  Qed.

  Lemma keys_set_cn v l :
    cls_of_keys (kv_set fold cn v l) = fold v ∧ tgt_of_keys (kv_set fold cn v l) = tgt_of_keys l.
  Proof. rewrite cls_of_keys_set, tgt_of_keys_set, fold_cn, decide_True, decide_False by done. done. Qed.

  (** *** Entity.__setitem__ *)
  Lemma set_item_inv e key v st : Inv st → Inv (set_item fold e key v st).1.
  Proof.
    intros HI. pose proof HI as [Hc Ht Hs Hse Hk Hf]. unfold set_item.
    set (l := keys_of st e). set (l' := kv_set fold key v l).
    assert (Hnd' : fold_nodup l') by apply fold_nodup_set, Hk.
    pose proof (cls_of_keys_set key v l) as Hcl. pose proof (tgt_of_keys_set key v l) as Htg. fold l' in Hcl, Htg.
    (* the index that the key does not concern keeps its entry for [e] *)
    assert (Hkc : cls_of_keys l' = cls_of st e → good (by_class st) (present st)
                    (λ x, if decide (x = e) then cls_of_keys l' else cls_of st x))
      by (intros ->; by apply good_keep).
    assert (Hkt : tgt_of_keys l' = tgt_of st e → good (by_target st) (present st)
                    (λ x, if decide (x = e) then tgt_of_keys l' else tgt_of st x))
      by (intros ->; by apply good_keep).
    destruct (decide (fold key = cn)) as [Hcn|Hncn].
    { rewrite decide_False in Htg by (rewrite Hcn; apply cn_ne_tn). rewrite Hcn. fold (cls_of st e).
      assert (Hex : good_ex (ix_remove (cls_of st e) e (by_class st)) (present st) (cls_of st) e)
        by (by apply good_to_ex).
      destruct (decide (e ∈ ents st)) as [Hin|Hnin]; simpl.
      - apply (inv_rekey st e l' _ (by_target st)); auto.
        + rewrite Hcl. apply good_ex_add; [done|by right].
        + intros ->. done.
      - destruct (decide (e = spawn st)) as [Hsp|Hnsp].
        + destruct (decide (fold v = ws)) as [Hws|Hnws]; simpl.
          * apply (inv_rekey st e l' _ (by_target st)); auto.
            -- rewrite Hcl, Hws. apply good_ex_add; [done|by left].
            -- intros _. by rewrite Hcl.
          * (* the rejected re-class: the key list is stored a second time, with 'worldspawn' *)
            set (l'' := kv_set fold cn ws l').
            destruct (keys_set_cn ws l') as [Hcl'' Htg'']. rewrite fold_ws in Hcl''. fold l'' in Hcl'', Htg''.
            replace (upd_class _ _) with
              (MS (<[e := l'']> (objs st)) (nobj st) (ents st) (spawn st)
                  (ix_add ws e (ix_remove (fold v) e (ix_remove (cls_of st e) e (by_class st)))) (by_target st)).
            2:{ unfold upd_class, with_keys. simpl. f_equal. by rewrite insert_insert. }
            apply inv_rekey; auto.
            -- by apply fold_nodup_set.
            -- rewrite Hcl''. apply good_ex_add; [by apply good_ex_remove|by left].
            -- rewrite Htg'', Htg. by apply good_keep.
        + simpl. apply (inv_rekey st e l' _ (by_target st)); auto.
          * apply good_ex_out; [done|]. unfold present. naive_solver.
          * done. }
    assert (Hsp : e = spawn st → cls_of_keys l' = ws) by (intros ->; by rewrite Hcl).
    destruct (decide (fold key = tn)) as [Htn|Hntn]; [|by apply (inv_rekey st e l' (by_class st) (by_target st)); auto].
    rewrite Htn. fold (tgt_of st e).
    assert (Hex : good_ex (ix_remove (tgt_of st e) e (by_target st)) (present st) (tgt_of st) e)
      by (by apply good_to_ex).
    destruct (in_map st e) eqn:Him; simpl; apply (inv_rekey st e l' (by_class st)); auto.
    - rewrite Htg. apply good_ex_add; [done|by apply in_map_present].
    - apply good_ex_out; [done|by apply in_map_not_present].
  Qed.

  (** *** Entity.__delitem__ *)
  Lemma del_item_inv e key st : Inv st → Inv (del_item fold e key st).1.
  Proof.
    intros HI. pose proof HI as [Hc Ht Hs Hse Hk Hf]. unfold del_item.
    set (l := keys_of st e). set (kf := fold key). set (l' := kv_del fold kf l).
    assert (Hnd' : fold_nodup l') by apply fold_nodup_del, Hk.
    pose proof (tgt_of_keys_del kf l (Hk e)) as Htg. fold l' in Htg.
    destruct (decide (kf = cn)) as [Hcn|Hncn].
    { rewrite decide_False by (rewrite Hcn; apply cn_ne_tn). done. }
    pose proof (cls_of_keys_del kf l Hncn) as Hcl. fold l' in Hcl.
    assert (Hkc : good (by_class st) (present st) (λ x, if decide (x = e) then cls_of_keys l' else cls_of st x))
      by (rewrite Hcl; by apply good_keep).
    assert (Hsp : e = spawn st → cls_of_keys l' = ws) by (intros ->; by rewrite Hcl).
    destruct (decide (kf = tn)) as [Htn|Hntn]; simpl.
    - assert (Hex : good_ex (ix_remove (tgt_of_keys l) e (by_target st)) (present st) (tgt_of st) e)
        by (by apply good_to_ex).
      destruct (in_map st e) eqn:Him; apply (inv_rekey st e l' (by_class st)); auto.
      + rewrite Htg. apply good_ex_add; [done|by apply in_map_present].
      + apply good_ex_out; [done|by apply in_map_not_present].
    - apply (inv_rekey st e l' (by_class st) (by_target st)); auto. rewrite Htg. by apply good_keep.
  Qed.

  Lemma del_items_inv e ks st : Inv st → Inv (del_items fold e ks st).1.
  Proof.
    revert st. induction ks as [|k ks IH]; intros st HI; simpl; [done|].
    pose proof (del_item_inv e k st HI) as H1. destruct (del_item fold e k st) as [st' er]. simpl in H1.
    destruct er; auto.
  Qed.

  Lemma pop_item_inv e key st : Inv st → Inv (pop_item fold e key st).1.
  Proof. intros HI. unfold pop_item. destruct (kv_find _ _ _); [by apply del_item_inv|done]. Qed.

  Lemma pop_first_inv e st : Inv st → Inv (pop_first fold e st).1.
  Proof. intros HI. unfold pop_first. destruct (keys_of st e) as [|[k v] r]; [done|by apply del_item_inv]. Qed.

  Lemma update_inv e l st : Inv st → Inv (update fold e l st).1.
  Proof.
    revert st. induction l as [|[k v] l IH]; intros st HI; simpl; [done|].
    pose proof (set_item_inv e k v st HI) as H1. destruct (set_item fold e k v st) as [st' er]. simpl in H1.
    destruct er; auto.
  Qed.

  (** the spawn and the entity list are never changed by key operations *)
  Lemma set_item_frame e key v st :
    spawn (set_item fold e key v st).1 = spawn st ∧ ents (set_item fold e key v st).1 = ents st
    ∧ nobj (set_item fold e key v st).1 = nobj st.
  Proof. unfold set_item. repeat case_decide; try destruct (in_map st e); done. Qed.
  Lemma del_item_frame e key st :
    spawn (del_item fold e key st).1 = spawn st ∧ ents (del_item fold e key st).1 = ents st
    ∧ nobj (del_item fold e key st).1 = nobj st.
  Proof. unfold del_item. repeat case_decide; try destruct (in_map st e); done. Qed.
  Lemma update_frame e l st :
    spawn (update fold e l st).1 = spawn st ∧ ents (update fold e l st).1 = ents st
    ∧ nobj (update fold e l st).1 = nobj st.
  Proof.
    revert st. induction l as [|[k v] l IH]; intros st; simpl; [done|].
    pose proof (set_item_frame e k v st) as H1. destruct (set_item fold e k v st) as [st' er]. simpl in H1.
    destruct er; [|done]. destruct (IH st') as (?&?&?). naive_solver congruence.
  Qed.

  (** what the keys of [e] look up to after a store / a delete *)
  Lemma set_item_keys e key v st :
    keys_of (set_item fold e key v st).1 e = kv_set fold key v (keys_of st e)
    ∨ (e = spawn st ∧ e ∉ ents st ∧ fold key = cn ∧ fold v ≠ ws).
  Proof.
    unfold set_item. repeat case_decide; try destruct (in_map st e); simpl; auto;
      unfold keys_of; simpl; rewrite lookup_insert; auto.
  Qed.
  Lemma del_item_keys e key st :
    fold key ≠ cn → keys_of (del_item fold e key st).1 e = kv_del fold (fold key) (keys_of st e).
  Proof.
    intros Hne. unfold del_item. rewrite (decide_False _ _ Hne).
    case_decide; try destruct (in_map st e); simpl; unfold keys_of; simpl; by rewrite lookup_insert.
  Qed.

  Lemma find_set_cn v l : kv_find fold cn (kv_set fold cn v l) = Some v.
  Proof. rewrite <- fold_cn at 1. apply kv_find_set_eq. Qed.

  (** *** Entity.clear *)
  Lemma clear_inv e st : Inv st → Inv (clear fold e st).1.
  Proof.
    intros HI. unfold clear.
    set (c := if decide (e = spawn st) then ws else inull).
    pose proof (set_item_inv e cn c st HI) as H1. pose proof (set_item_frame e cn c st) as (F1&F2&F3).
    pose proof (set_item_keys e cn c st) as K1.
    destruct (set_item fold e cn c st) as [st1 er1]. simpl in *. destruct er1; [|done].
    pose proof (del_item_inv e tn st1 H1) as H2. pose proof (del_item_frame e tn st1) as (G1&G2&G3).
    pose proof (del_item_keys e tn st1) as K2.
    destruct (del_item fold e tn st1) as [st2 er2]. simpl in *. destruct er2; [|done]. simpl.
    destruct K1 as [K1|(Hsp&_&_&Hne)].
    2:{ exfalso. apply Hne. unfold c. by rewrite decide_True. }
    rewrite fold_tn in K2. specialize (K2 (not_eq_sym cn_ne_tn)).
    pose proof H2 as [Hc Ht Hs Hse Hk Hf].
    assert (Hcl : cls_of_keys [(cn, c)] = cls_of st2 e).
    { unfold IndexModel.cls_of, IndexModel.cls_of_keys. rewrite K2, K1. rewrite kv_find_del_ne by apply cn_ne_tn.
      rewrite find_set_cn. simpl. rewrite decide_True by done. done. }
    assert (Htg : tgt_of_keys [(cn, c)] = tgt_of st2 e).
    { unfold IndexModel.tgt_of, IndexModel.tgt_of_keys. rewrite K2. rewrite kv_find_del_eq.
      - simpl. rewrite decide_False; [done|]. rewrite fold_cn. apply cn_ne_tn.
      - rewrite K1. apply fold_nodup_set. destruct HI as [_ _ _ _ Hk0 _]. apply Hk0. }
    apply (inv_rekey st2 e [(cn, c)] (by_class st2) (by_target st2)); auto.
    - apply NoDup_singleton.
    - rewrite Hcl. by apply good_keep.
    - rewrite Htg. by apply good_keep.
    - intros ->. by rewrite Hcl.
  Qed.

  (** *** new objects, add_ent, remove_ent *)
  Lemma new_obj_inv st : Inv st → Inv (new_obj st).
  Proof.
    intros HI. pose proof HI as [Hc Ht Hs Hse Hk Hf].
    assert (Hnp : ¬ present st (nobj st)) by (apply Hf; lia).
    assert (HI' : Inv (MS (<[nobj st := []]> (objs st)) (nobj st) (ents st) (spawn st) (by_class st) (by_target st))).
    { apply inv_rekey; auto.
      - apply NoDup_nil_2.
      - apply good_keep; [done|]. intros; done.
      - apply good_keep; [done|]. intros; done.
      - intros E. exfalso. apply Hnp. by left. }
    destruct HI' as [Hc' Ht' Hs' Hse' Hk' Hf']. split; auto.
    simpl in *. intros e Hle. apply Hf. lia.
  Qed.

  Lemma new_ent_inv l st : Inv st → Inv (new_ent fold l st).
  Proof. intros HI. unfold new_ent. apply update_inv, new_obj_inv, HI. Qed.
  Lemma new_ent_frame l st :
    spawn (new_ent fold l st) = spawn st ∧ ents (new_ent fold l st) = ents st ∧ nobj (new_ent fold l st) = S (nobj st).
  Proof. unfold new_ent. destruct (update_frame (nobj st) l (new_obj st)) as (?&?&?). done. Qed.

  Lemma add_ent_inv e st : Inv st → Inv (add_ent fold e st).
  Proof.
    intros HI. pose proof HI as [Hc Ht Hs Hse Hk Hf]. unfold add_ent.
    destruct (decide (e = spawn st ∨ nobj st ≤ e)) as [|Hn]; [done|].
    assert (HP : ∀ x, present (MS (objs st) (nobj st) (ents st ++ [e]) (spawn st)
                   (ix_add (cls_of_keys (keys_of st e)) e (by_class st))
                   (ix_add (tgt_of_keys (keys_of st e)) e (by_target st))) x ↔ present st x ∨ x = e).
    { intros x. unfold present. simpl. rewrite elem_of_app, elem_of_list_singleton. naive_solver. }
    split; simpl.
    - eapply good_add_present; [exact Hc|done|exact HP].
    - eapply good_add_present; [exact Ht|done|exact HP].
    - done.
    - rewrite elem_of_app, elem_of_list_singleton. naive_solver.
    - done.
    - intros x Hle. rewrite HP. intros [Hp| ->]; [by eapply Hf|]. apply Hn. right. lia.
  Qed.

  Lemma add_ents_inv es st : Inv st → Inv (add_ents fold es st).
  Proof.
    unfold add_ents. revert st. induction es as [|e es IH]; intros st HI; simpl; [done|].
    apply IH, add_ent_inv, HI.
  Qed.

  Lemma remove_ent_inv e st : Inv st → Inv (remove_ent fold e st).
  Proof.
    intros HI. pose proof HI as [Hc Ht Hs Hse Hk Hf]. unfold remove_ent.
    set (ents' := remove_first e (ents st)).
    assert (Hse' : spawn st ∉ ents') by (intros Hin%elem_of_remove_first; tauto).
    destruct (decide (e = spawn st ∨ e ∈ ents')) as [Hstill|Hgone].
    - assert (HP : ∀ x, present (with_ents ents' st) x ↔ present st x).
      { intros x. unfold present, ents'. simpl. rewrite elem_of_remove_first. destruct (decide (x = e)); naive_solver. }
      split; simpl; [by eapply good_ext|by eapply good_ext|done..|].
      intros x Hle. rewrite HP. by apply Hf.
    - assert (HP : ∀ x, present (upd_target (ix_remove (tgt_of_keys (keys_of st e)) e)
                          (upd_class (ix_remove (cls_of_keys (keys_of st e)) e) (with_ents ents' st))) x
                        ↔ present st x ∧ x ≠ e).
      { intros x. unfold present, ents'. simpl. rewrite elem_of_remove_first. destruct (decide (x = e)); naive_solver. }
      split; simpl; [by eapply good_remove_present|by eapply good_remove_present|done..|].
      intros x Hle. rewrite HP. intros [Hp _]. by eapply Hf.
  Qed.

  Lemma create_ent_inv c l st : Inv st → Inv (create_ent fold c l st).
  Proof. intros HI. unfold create_ent. apply add_ent_inv, new_ent_inv, HI. Qed.

  (** *** make_unique, export *)
  Lemma make_unique_inv e p st : Inv st → Inv (make_unique fold e p st).1.
  Proof.
    intros HI. unfold make_unique. case_decide; [done|].
    set (orig := default [] (kv_find fold tn (keys_of st e))).
    assert (H1 : Inv (if decide (orig = []) then (st, 0) else set_item fold e tn [] st).1).
    { case_decide; [done|by apply set_item_inv]. }
    destruct (if decide (orig = []) then (st, 0) else set_item fold e tn [] st) as [st1 er1]. simpl in H1.
    case_decide; [by apply set_item_inv|].
    destruct (free_name _ _ _ _ _); [by apply set_item_inv|done].
  Qed.

  Lemma export_inv ver st : Inv st → Inv (export fold ver st).1.
  Proof.
    intros HI. unfold export.
    pose proof (set_item_inv (spawn st) mapver ver st HI) as H1.
    destruct (set_item fold (spawn st) mapver ver st) as [st1 er1]. simpl in H1.
    pose proof (set_item_inv (spawn st) cn ws st1 H1) as H2.
    destruct (set_item fold (spawn st) cn ws st1) as [st2 er2]. simpl in H2.
    by apply del_item_inv.
  Qed.

  (** *** reading an index (defaultdict side effect) *)
  Lemma probe_class_inv k st : Inv st → Inv (upd_class (probe k) st).
  Proof.
    intros [Hc Ht Hs Hse Hk Hf]. split; try done. intros k' e. simpl. rewrite ix_get_probe. apply Hc.
  Qed.
  Lemma probe_target_inv k st : Inv st → Inv (upd_target (probe k) st).
  Proof.
    intros [Hc Ht Hs Hse Hk Hf]. split; try done. intros k' e. simpl. rewrite ix_get_probe. apply Ht.
  Qed.

  (** *** every operation, every sequence *)
  Theorem step_inv o st : Inv st → Inv (step fold o st).1.
  Proof.
    intros HI. destruct o; simpl;
      auto using probe_class_inv, probe_target_inv, new_ent_inv, create_ent_inv, add_ent_inv, add_ents_inv, remove_ent_inv, set_item_inv,
        del_item_inv, del_items_inv, pop_item_inv, pop_first_inv, update_inv, clear_inv, make_unique_inv, export_inv.
  Qed.

  Theorem run_inv ops st : Inv st → Inv (run fold ops st).
  Proof.
    unfold run. revert st. induction ops as [|o ops IH]; intros st HI; simpl; [done|].
    apply IH, step_inv, HI.
  Qed.

  (** *** VMF() and VMF.parse *)
  Lemma init_cls : cls_of init 0 = ws.
  Proof.
    unfold IndexModel.cls_of, IndexModel.cls_of_keys, keys_of, init. simpl. rewrite lookup_singleton. simpl.
    rewrite decide_True by done. done.
  Qed.
  Lemma init_tgt : tgt_of init 0 = None.
  Proof.
    unfold IndexModel.tgt_of, IndexModel.tgt_of_keys, keys_of, init. simpl. rewrite lookup_singleton. simpl.
    rewrite decide_False by (rewrite fold_cn; apply cn_ne_tn). simpl. by rewrite fold_nil.
  Qed.

  Theorem init_inv : Inv init.
  Proof.
    assert (HP : ∀ x, present init x ↔ x = 0).
    { intros x. unfold present. simpl. rewrite elem_of_nil. naive_solver. }
    split.
    - apply good_singleton; [done|apply init_cls].
    - apply good_singleton; [done|apply init_tgt].
    - apply init_cls.
    - simpl. apply not_elem_of_nil.
    - intros e. unfold keys_of, init. simpl. destruct (decide (e = 0)) as [->|].
      + rewrite lookup_singleton. simpl. apply NoDup_singleton.
      + rewrite lookup_singleton_ne by done. simpl. apply NoDup_nil_2.
    - intros e Hle. unfold present. simpl in *. rewrite elem_of_nil. intros [->|[]]. lia.
  Qed.

  Lemma set_item_keys_ne e key v st x : x ≠ e → keys_of (set_item fold e key v st).1 x = keys_of st x.
  Proof.
    intros Hne. unfold set_item. repeat case_decide; try destruct (in_map st e); simpl; unfold keys_of; simpl;
      rewrite !lookup_insert_ne by done; done.
  Qed.
  Lemma update_keys_ne e l st x : x ≠ e → keys_of (update fold e l st).1 x = keys_of st x.
  Proof.
    intros Hne. revert st. induction l as [|[k v] l IH]; intros st; simpl; [done|].
    pose proof (set_item_keys_ne e k v st x Hne) as H1. destruct (set_item fold e k v st) as [st' er].
    simpl in H1. destruct er; [|done]. by rewrite IH.
  Qed.
  Lemma new_ent_keys_ne l st x : x ≠ nobj st → keys_of (new_ent fold l st) x = keys_of st x.
  Proof.
    intros Hne. unfold new_ent. rewrite update_keys_ne by done. unfold keys_of, new_obj. simpl.
    by rewrite lookup_insert_ne.
  Qed.

  Lemma replace_spawn_inv l st : Inv st → tgt_of st (spawn st) = None → Inv (replace_spawn fold l st).
  Proof.
    intros HI0 Htn0. unfold replace_spawn.
    pose proof (new_ent_inv l st HI0) as HI. destruct (new_ent_frame l st) as (F1&F2&F3).
    set (st2 := new_ent fold l st) in *. set (e := nobj st). set (old := spawn st2).
    assert (Hold_e : old ≠ e).
    { unfold old. rewrite F1. intros E. destruct HI0 as [_ _ _ _ _ Hf0]. apply (Hf0 (spawn st)); [unfold e in E; lia|by left]. }
    assert (He_np : ¬ present st2 e).
    { destruct HI0 as [_ _ _ _ _ Hf0]. unfold present. rewrite F1, F2. apply (Hf0 e). done. }
    assert (He_nin : e ∉ ents st2) by (intros Hin; apply He_np; by right).
    assert (Htn2 : tgt_of st2 old = None).
    { unfold IndexModel.tgt_of, st2, old. rewrite F1. rewrite new_ent_keys_ne; [exact Htn0|]. rewrite <- F1. exact Hold_e. }
    pose proof HI as [Hc Ht Hs Hse Hk Hf].
    set (L := keys_of st2 e). set (l' := kv_set fold cn ws L).
    destruct (keys_set_cn ws L) as [Hcl' Htg']. rewrite fold_ws in Hcl'. fold l' (tgt_of st2 e) in Hcl', Htg'.
    set (st3 := MS (objs st2) (nobj st2) (ents st2) e (ix_remove ws old (by_class st2)) (ix_remove None old (by_target st2))).
    assert (Hst4 : (set_item fold e cn ws st3).1
                   = MS (<[e := l']> (objs st2)) (nobj st2) (ents st2) e
                        (ix_add ws e (ix_remove (cls_of st2 e) e (ix_remove ws old (by_class st2))))
                        (ix_remove None old (by_target st2))).
    { unfold set_item. rewrite (decide_True _ _ fold_cn). simpl ents.
      rewrite (decide_False _ _ He_nin). simpl spawn. rewrite (decide_True _ _ (eq_refl e)).
      rewrite (decide_True _ _ fold_ws). simpl. rewrite fold_cn. done. }
    rewrite Hst4.
    assert (Hk4 : tgt_of (MS (<[e := l']> (objs st2)) (nobj st2) (ents st2) e
                        (ix_add ws e (ix_remove (cls_of st2 e) e (ix_remove ws old (by_class st2))))
                        (ix_remove None old (by_target st2))) e = tgt_of_keys l').
    { unfold IndexModel.tgt_of, keys_of. simpl. by rewrite lookup_insert. }
    rewrite Hk4. unfold upd_target. simpl.
    assert (HP : ∀ x, x = e ∨ x ∈ ents st2 ↔ present st2 x ∧ x ≠ old ∨ x = e).
    { intros x. unfold present. fold old. split.
      - intros [->|Hin]; [by right|]. left. split; [by right|]. intros ->. by apply Hse.
      - intros [[[->|Hin] Hne]| ->]; [done|by right|by left]. }
    apply inv_rekey_spawn; auto.
    - apply fold_nodup_set, Hk.
    - rewrite F3. unfold e. lia.
    - eapply good_ext.
      + pose proof (good_swap3 (by_class st2) (present st2) (cls_of st2) (spawn st2) e (cls_of st2 e) ws
                      Hc He_np) as G. rewrite Hs in G. exact G.
      + exact HP.
      + intros x. simpl. rewrite Hcl'. done.
    - eapply good_ext.
      + pose proof (good_swap2 (by_target st2) (present st2) (tgt_of st2) (spawn st2) e (tgt_of_keys l')
                      Ht He_np) as G. unfold old in Htn2. rewrite Htn2 in G. exact G.
      + exact HP.
      + intros x. simpl. done.
    - by rewrite decide_True.
  Qed.

  Theorem parse_init_inv sk ek : Inv (parse_init fold sk ek).
  Proof.
    unfold parse_init.
    assert (H0 : Inv (replace_spawn fold sk init)) by (apply replace_spawn_inv; [apply init_inv|apply init_tgt]).
    revert H0. generalize (replace_spawn fold sk init). induction ek as [|l ek IH]; intros st HI; simpl; [done|].
    apply IH. apply add_ent_inv, new_ent_inv, HI.
  Qed.

  (** *** Several maps *)
  Theorem wstep_inv o w : Forall Inv w → Forall Inv (wstep fold o w).1.
  Proof.
    intros HW. destruct o as [|sk ek|m e m2|m o]; simpl.
    - apply Forall_app. split; [done|]. apply Forall_singleton, init_inv.
    - apply Forall_app. split; [done|]. apply Forall_singleton, parse_init_inv.
    - destruct (w !! m) as [sm|]; simpl; [|done]. apply Forall_alter; [done|].
      intros x _ Hx. by apply new_ent_inv.
    - destruct (w !! m) as [sm|] eqn:E; simpl; [|done].
      pose proof (step_inv o sm (Forall_lookup_1 _ _ _ _ HW E)) as H1.
      destruct (step fold o sm) as [sm' er]. simpl in *. by apply Forall_insert.
  Qed.

  Theorem wrun_inv ops w : Forall Inv w → Forall Inv (wrun fold ops w).
  Proof.
    unfold wrun. revert w. induction ops as [|o ops IH]; intros w HW; simpl; [done|].
    apply IH, wstep_inv, HW.
  Qed.

  (** *** What the invariant says to a reader of the indexes *)
  Lemma inv_by_class st k e : Inv st → e ∈ ix_get (by_class st) k ↔ present st e ∧ cls_of st e = k.
  Proof. intros [Hc _ _ _ _ _]. apply Hc. Qed.
  Lemma inv_by_target st k e : Inv st → e ∈ ix_get (by_target st) k ↔ present st e ∧ tgt_of st e = k.
  Proof. intros [_ Ht _ _ _ _]. apply Ht. Qed.
  Lemma inv_worldspawn st : Inv st → cls_of st (spawn st) = ws ∧ spawn st ∈ ix_get (by_class st) ws.
  Proof. intros HI. pose proof HI as [Hc _ Hs _ _ _]. split; [done|]. apply Hc. split; [by left|done]. Qed.

  (** How a computed state is shown to break the invariant: a set holds an entity that is not in the map or is
      keyed otherwise, or an entity in the map is missing from the set of its key. *)
  Lemma not_inv_class_member st k e :
    e ∈ ix_get (by_class st) k → in_map st e && bool_decide (cls_of st e = k) = false → ¬ Inv st.
  Proof.
    intros He Hb HI. apply (inv_by_class st k e HI) in He as [Hp%in_map_present Hk].
    by rewrite Hp, bool_decide_eq_true_2 in Hb.
  Qed.
  Lemma not_inv_target_member st k e :
    e ∈ ix_get (by_target st) k → in_map st e && bool_decide (tgt_of st e = k) = false → ¬ Inv st.
  Proof.
    intros He Hb HI. apply (inv_by_target st k e HI) in He as [Hp%in_map_present Hk].
    by rewrite Hp, bool_decide_eq_true_2 in Hb.
  Qed.
  Lemma not_inv_class_missing st e : in_map st e = true → e ∉ ix_get (by_class st) (cls_of st e) → ¬ Inv st.
  Proof. intros Hp%in_map_present Hn HI. by apply Hn, (inv_by_class st _ e HI). Qed.
  Lemma not_inv_target_missing st e : in_map st e = true → e ∉ ix_get (by_target st) (tgt_of st e) → ¬ Inv st.
  Proof. intros Hp%in_map_present Hn HI. by apply Hn, (inv_by_target st _ e HI). Qed.
End inv.
