(** C17 — what the lookups of SM/C17Frame.v find is in the census (the booleans over them are read out in Props/C17.v),
    and C09's independence theorem read as "mutating the copy leaves the template as it was". *)
From Coq Require Import List String ZArith.
From SV Require Import SM.Store SM.StoreProofs SM.StoreCopy SM.StoreCopyProofs SM.C17Frame.
Import ListNotations.

Lemma lookup_census_in : forall all cls c, lookup_census all cls = Some c -> In (cls, c) all.
Proof.
  induction all as [|[n c'] r IH]; intros cls c H; cbn [lookup_census] in H; [discriminate|].
  destruct (String.eqb n cls) eqn:E.
  - apply String.eqb_eq in E. injection H as <-. subst. now left.
  - right. now apply IH.
Qed.

Lemma lookup_field_in : forall c f k w, lookup_field c f = Some (k, w) -> In (f, k, w) c.
Proof.
  induction c as [|[[n k'] w'] r IH]; intros f k w H; cbn [lookup_field] in H; [discriminate|].
  destruct (String.eqb n f) eqn:E.
  - apply String.eqb_eq in E. injection H as <- <-. subst. now left.
  - right. now apply IH.
Qed.

(** C09's census theorem, in the direction C17 needs: the object at [la] belongs to the template, [lc] is the copy
    collapse_one made of it (field by field as the census [c] says); then after EVERY sequence of in-place stores and
    allocations performed through the copy, every observation of the template object is what it was. *)
Theorem template_intact : forall (c : census) h h' la lc nd nd',
  closed h -> closed h' -> extends h h' -> h la = Some nd -> h lc = None -> h' lc = Some nd' ->
  copy_fresh_mutables c = true ->
  fields_rel h h' (ck c) (nfields nd) (nfields nd') ->
  forall ms h'' R, steps (h', [lc]) ms (h'', R) -> forall n, unfold n h'' (VRef la) = unfold n h' (VRef la).
Proof. intros c h h' la lc nd nd' H1 H2 H3 H4 H5 H6 H7 H8. exact (proj1 (census_copy_independent c h h' la lc nd nd' H1 H2 H3 H4 H5 H6 H7 H8)). Qed.

Lemma extends_alloc : forall h h1 l, extends h h1 -> alloc h l -> alloc h1 l.
Proof.
  unfold alloc. intros h h1 l He Ha. destruct (h l) as [nd|] eqn:E; [|congruence]. rewrite (He _ _ E). discriminate.
Qed.

(** A fresh copy added to the roots keeps the template separated from everything the code holds. *)
Lemma sep_add_copy : forall h h1 a R lc,
  closed h -> extends h h1 -> alloc h a -> roots_alloc h R -> sep h a R -> new_mut h h1 (VRef lc) ->
  sep h1 a (lc :: R).
Proof.
  intros h h1 a R lc Hc He Ha HR Hsep Hn l Hla (r & Hr & Hrl) Hm.
  destruct (old_reach _ _ _ _ Hc He Ha Hla) as (Hla0 & Hal).
  destruct Hr as [<- | Hr].
  - apply Hal. exact (Hn l Hrl Hm).
  - destruct (old_reach _ _ _ _ Hc He (HR _ Hr) Hrl) as (Hrl0 & _).
    apply (Hsep l Hla0); [exists r; split; assumption|].
    unfold alloc in Hal. destruct (h l) as [nd|] eqn:E; [|congruence].
    destruct Hm as (nd' & E' & Hm). rewrite (He _ _ E) in E'. injection E' as <-. exists nd. split; [exact E|assumption].
Qed.

(** "Collapsing the same file any number of times, in any order and at any placement": whatever the sequence of
    collapses and of work on the copies, every observation of the template object stays what it was, and the template
    stays separated from all copies (so the next collapse starts from the same template). *)
Theorem template_intact_any_number_of_collapses : forall a h R h' R',
  collapses h R h' R' ->
  closed h -> alloc h a -> roots_alloc h R -> sep h a R ->
  (forall n, unfold n h' (VRef a) = unfold n h (VRef a)) /\ sep h' a R' /\ closed h' /\ alloc h' a /\ roots_alloc h' R'.
Proof.
  intros a h R h' R' H. induction H as [h R | h R ms h1 R1 h2 R2 Hs _ IH | h R h1 lc h2 R2 Hc1 He Hlc Hn _ IH];
    intros Hc Ha HR Hsep.
  - repeat split; assumption.
  - destruct (frame_steps _ _ _ _ _ _ Hc Ha HR Hsep Hs) as (Hag & Hsep1 & Hc1 & HR1).
    assert (Ha1 : alloc h1 a) by (unfold alloc; rewrite (Hag a (reach_refl _ _)); exact Ha).
    destruct (IH Hc1 Ha1 HR1 Hsep1) as (Hu & Rest). split; [|exact Rest].
    intros n. rewrite Hu. exact (frame_observation _ _ _ _ _ _ Hc Ha HR Hsep Hs n).
  - assert (HR1 : roots_alloc h1 (lc :: R)).
    { intros r [<- | Hr]; [exact Hlc | exact (extends_alloc _ _ _ He (HR _ Hr))]. }
    destruct (IH Hc1 (extends_alloc _ _ _ He Ha) HR1 (sep_add_copy _ _ _ _ _ Hc He Ha HR Hsep Hn)) as (Hu & Rest).
    split; [|exact Rest].
    intros n. rewrite Hu.
    apply (unfold_agree h h1 a (extends_agree _ _ _ Hc He Ha)). constructor.
Qed.

(** The hypotheses are satisfiable and the relation is not trivial: a template vector (node 1), a first copy (node 2),
    an in-place store into that copy, a second copy (node 3). *)
Definition ex_vec (z : Z) : node := Node true [VAtom z].
Definition ex_h0 : heap := fun l => if Pos.eqb l 1%positive then Some (ex_vec 5%Z) else None.
Definition ex_h1 : heap := upd ex_h0 2%positive (ex_vec 5%Z).
Definition ex_h2 : heap := upd ex_h1 2%positive (Node true [VAtom 9%Z]).
Definition ex_h3 : heap := upd ex_h2 3%positive (ex_vec 5%Z).

Lemma atoms_closed : forall h : heap, (forall l nd, h l = Some nd -> exists z, nfields nd = [VAtom z]) -> closed h.
Proof. intros h H l nd l' E I. destruct (H _ _ E) as [z Hz]. rewrite Hz in I. destruct I as [I|[]]. discriminate. Qed.

Lemma atoms_reach : forall (h : heap) r l, (forall l nd, h l = Some nd -> exists z, nfields nd = [VAtom z]) -> reach h r l -> l = r.
Proof.
  intros h r l H Hr. induction Hr as [|l nd l' _ IH E I]; [reflexivity|].
  destruct (H _ _ E) as [z Hz]. rewrite Hz in I. destruct I as [I|[]]. discriminate.
Qed.

Lemma ex_atoms : forall h, In h [ex_h0; ex_h1; ex_h2; ex_h3] -> forall l nd, h l = Some nd -> exists z, nfields nd = [VAtom z].
Proof.
  intros h Hh l nd E. cbn [In] in Hh.
  destruct Hh as [<-|[<-|[<-|[<-|[]]]]]; unfold ex_h3, ex_h2, ex_h1, ex_h0, upd in E;
    repeat match type of E with context [if ?c then _ else _] => destruct c end;
    try discriminate; injection E as <-; eexists; reflexivity.
Qed.

Example collapses_example :
  collapses ex_h0 [] ex_h3 [3%positive; 2%positive] /\ ex_h3 2%positive = Some (Node true [VAtom 9%Z]) /\
  closed ex_h0 /\ alloc ex_h0 1%positive /\ roots_alloc ex_h0 [] /\ sep ex_h0 1%positive [].
Proof.
  assert (A : forall h, In h [ex_h0; ex_h1; ex_h2; ex_h3] -> forall l nd, h l = Some nd -> exists z, nfields nd = [VAtom z])
    by exact ex_atoms.
  split; [|split; [reflexivity|split; [apply atoms_closed, A; cbn; auto|split; [unfold alloc; discriminate|split]]]].
  - apply (col_copy ex_h0 [] ex_h1 2%positive).
    + apply atoms_closed, A. cbn; auto.
    + intros l nd E. unfold ex_h1, upd. destruct (Pos.eqb l 2) eqn:E2; [|exact E].
      apply Pos.eqb_eq in E2. subst l. discriminate E.
    + unfold alloc. discriminate.
    + intros l Hl _. cbn in Hl. rewrite (atoms_reach ex_h1 _ _ (A ex_h1 ltac:(cbn; auto)) Hl). reflexivity.
    + apply (col_work ex_h1 [2%positive] [MStore 2%positive [VAtom 9%Z]] ex_h2 [2%positive]).
      * eapply steps_cons; [|apply steps_nil].
        apply (step_store ex_h1 [2%positive] 2%positive [VAtom 9%Z] (ex_vec 5%Z)).
        -- exists 2%positive. split; [now left|apply reach_refl].
        -- reflexivity.
        -- reflexivity.
        -- intros v [<-|[]]. exact I.
      * apply (col_copy ex_h2 [2%positive] ex_h3 3%positive).
        -- apply atoms_closed, A. cbn; auto.
        -- intros l nd E. unfold ex_h3, upd. destruct (Pos.eqb l 3) eqn:E3; [|exact E].
           apply Pos.eqb_eq in E3. subst l. discriminate E.
        -- unfold alloc. discriminate.
        -- intros l Hl _. cbn in Hl. rewrite (atoms_reach ex_h3 _ _ (A ex_h3 ltac:(cbn; auto)) Hl). reflexivity.
        -- apply col_done.
  - intros r [].
  - intros l _ (r & [] & _).
Qed.

(** The premise matters: a class whose census shares one mutable field is rejected by [class_fresh]. *)
Example shared_vertex_vectors_rejected :
  let bad := [("DispVertex_in_Side"%string, [("normal"%string, KMut, HShare); ("offset"%string, KMut, HDeep)])] in
  class_fresh bad "DispVertex_in_Side" = false /\
  writes_ok bad [("DispVertex_in_Side"%string, "normal"%string, WInPlace)] = false /\
  writes_ok bad [("DispVertex_in_Side"%string, "normal"%string, WRebound); ("DispVertex_in_Side"%string, "offset"%string, WInPlace)] = true.
Proof. vm_compute. repeat split; reflexivity. Qed.
