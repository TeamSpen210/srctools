(** Every operation of SM/IndexModel.v respects [ix_equiv]: two states that differ only in empty sets held by the
    index maps (left behind by defaultdict reads — [vmf.by_class[k]], iteration, [make_unique]'s own lookups, which
    the model does not track) stay indistinguishable, step after step, and raise the same errors.  Together with
    [ix_equiv_inv] / [search_sh_sound_complete] this closes the gap "the model ignores the empty sets of the
    implementation": no operation, lookup or search can depend on them. *)
From stdpp Require Import gmap.
From Coq Require Import NArith.
From SV Require Import SM.IndexModel SM.IndexProofs SM.IndexShapeProofs SM.IndexUniqueProofs.

Section ixe.
  Context {K : Type} `{Countable K}.
  (** same reader's view of one index *)
  Definition ixe (m m' : gmap K (gset nat)) : Prop := ∀ k, ix_get m' k = ix_get m k.

  Lemma ixe_refl m : ixe m m. Proof. done. Qed.
  Lemma ixe_add k e m m' : ixe m m' → ixe (ix_add k e m) (ix_add k e m').
  Proof. intros Hm k'. rewrite !ix_get_add. destruct (decide (k' = k)); by rewrite Hm. Qed.
  Lemma ixe_remove k e m m' : ixe m m' → ixe (ix_remove k e m) (ix_remove k e m').
  Proof. intros Hm k'. rewrite !ix_get_remove. destruct (decide (k' = k)); by rewrite Hm. Qed.
  Lemma ixe_probe k m m' : ixe m m' → ixe (probe k m) (probe k m').
  Proof. intros Hm k'. by rewrite !ix_get_probe. Qed.
End ixe.

Lemma ix_equiv_mk o n en sp bc bc' bt bt' : ixe bc bc' → ixe bt bt' →
  ix_equiv (MS o n en sp bc bt) (MS o n en sp bc' bt').
Proof. intros Hc Ht. repeat split; done. Qed.
Lemma ix_equiv_sym st st' : ix_equiv st st' → ix_equiv st' st.
Proof. intros (?&?&?&?&H1&H2). repeat split; try done; intros k; by rewrite ?H1, ?H2. Qed.

(** equivalent states are the same state up to the two index maps *)
Lemma ix_equiv_cases (Q : mstate → mstate → Prop) :
  (∀ o n en sp bc bt bc' bt', ixe bc bc' → ixe bt bt' → Q (MS o n en sp bc bt) (MS o n en sp bc' bt')) →
  ∀ st st', ix_equiv st st' → Q st st'.
Proof.
  intros HQ [o n en sp bc bt] [o' n' en' sp' bc' bt'] (Ho & Hn & He & Hs & Hc & Ht). simpl in *. subst. by apply HQ.
Qed.

Section resp.
  Variable fold : str → str.

  (** an operation respects the equivalence: equivalent results, same error code *)
  Definition resp (f : mstate → mstate * nat) : Prop :=
    ∀ st st', ix_equiv st st' → ix_equiv (f st).1 (f st').1 ∧ (f st).2 = (f st').2.
  Definition resp1 (f : mstate → mstate) : Prop := ∀ st st', ix_equiv st st' → ix_equiv (f st) (f st').

  Local Hint Resolve ixe_add ixe_remove ixe_probe ix_equiv_mk : ixe.

  Lemma set_item_resp e key v : resp (set_item fold e key v).
  Proof.
    unfold resp. apply ix_equiv_cases. intros o n en sp bc bt bc' bt' Hc Ht. unfold set_item, in_map, keys_of. cbv [objs ents spawn].
    (* the tests read the key list, the entity list and the spawn only; [simpl] here is slow to re-check *)
    repeat case_decide; try destruct (_ || _);
      cbv beta iota zeta delta [fst snd upd_class upd_target with_keys objs nobj ents spawn by_class by_target];
      (split; [|done]); auto 8 with ixe.
  Qed.

  Lemma del_item_resp e key : resp (del_item fold e key).
  Proof.
    unfold resp. apply ix_equiv_cases. intros o n en sp bc bt bc' bt' Hc Ht. unfold del_item, in_map, keys_of. cbv [objs ents spawn].
    (* the tests read the key list, the entity list and the spawn only; [simpl] here is slow to re-check *)
    repeat case_decide; try destruct (_ || _);
      cbv beta iota zeta delta [fst snd upd_class upd_target with_keys objs nobj ents spawn by_class by_target];
      (split; [|done]); auto 8 with ixe.
  Qed.

  (** sequencing with an error check *)
  Lemma resp_seq (f g : mstate → mstate * nat) : resp f → resp g →
    resp (λ st, let '(st1, er) := f st in match er with 0 => g st1 | _ => (st1, er) end).
  Proof.
    intros Hf Hg st st' H. destruct (Hf st st' H) as [H1 H2].
    destruct (f st) as [s1 e1], (f st') as [s1' e1']. simpl in *. subst e1'. destruct e1; [by apply Hg|done].
  Qed.

  Lemma del_items_resp e ks : resp (del_items fold e ks).
  Proof. induction ks as [|k ks IH]; [done|]. exact (resp_seq _ _ (del_item_resp e k) IH). Qed.

  Lemma update_resp e l : resp (update fold e l).
  Proof. induction l as [|[k v] l IH]; [done|]. exact (resp_seq _ _ (set_item_resp e k v) IH). Qed.

  Lemma keys_of_equiv st st' e : ix_equiv st st' → keys_of st' e = keys_of st e.
  Proof. intros (Ho & _). unfold keys_of. by rewrite Ho. Qed.

  Lemma pop_item_resp e key : resp (pop_item fold e key).
  Proof.
    intros st st' H. unfold pop_item. rewrite (keys_of_equiv st st' e H).
    destruct (kv_find _ _ _); [by apply del_item_resp|done].
  Qed.
  Lemma pop_first_resp e : resp (pop_first fold e).
  Proof.
    intros st st' H. unfold pop_first. rewrite (keys_of_equiv st st' e H).
    destruct (keys_of st e) as [|[k v] r]; [done|by apply del_item_resp].
  Qed.

  Lemma with_keys_resp e l : resp1 (with_keys e l).
  Proof. unfold resp1. apply ix_equiv_cases. intros o n en sp bc bt bc' bt' Hc Ht. unfold with_keys. simpl. eauto with ixe. Qed.

  Lemma spawn_equiv st st' : ix_equiv st st' → spawn st' = spawn st.
  Proof. by intros (_&_&_&Hs&_). Qed.
  Lemma nobj_equiv st st' : ix_equiv st st' → nobj st' = nobj st.
  Proof. by intros (_&Hn&_). Qed.

  Lemma clear_resp e : resp (clear fold e).
  Proof.
    intros st st' H. unfold clear. rewrite (spawn_equiv st st' H).
    refine (resp_seq _ _ (set_item_resp e cn _) (resp_seq _ (λ st2, (with_keys e _ st2, 0)) (del_item_resp e tn) _) st st' H).
    intros s2 s2' H2. split; [|done]. by apply with_keys_resp.
  Qed.

  Lemma new_obj_resp : resp1 new_obj.
  Proof. unfold resp1. apply ix_equiv_cases. intros o n en sp bc bt bc' bt' Hc Ht. unfold new_obj. simpl. eauto with ixe. Qed.
  Lemma new_ent_resp l : resp1 (new_ent fold l).
  Proof.
    intros st st' H. unfold new_ent. rewrite (nobj_equiv st st' H).
    apply update_resp. by apply new_obj_resp.
  Qed.
  Lemma add_ent_resp e : resp1 (add_ent fold e).
  Proof.
    unfold resp1. apply ix_equiv_cases. intros o n en sp bc bt bc' bt' Hc Ht. unfold add_ent, keys_of. simpl.
    case_decide; eauto with ixe.
  Qed.
  Lemma add_ents_resp es : resp1 (add_ents fold es).
  Proof.
    unfold add_ents. induction es as [|e es IH]; intros st st' H; simpl; [done|]. apply IH. by apply add_ent_resp.
  Qed.
  Lemma remove_ent_resp e : resp1 (remove_ent fold e).
  Proof.
    unfold resp1. apply ix_equiv_cases. intros o n en sp bc bt bc' bt' Hc Ht. unfold remove_ent, keys_of, upd_class, upd_target, with_ents. simpl.
    case_decide; eauto with ixe.
  Qed.
  Lemma create_ent_resp c l : resp1 (create_ent fold c l).
  Proof.
    intros st st' H. unfold create_ent. rewrite (nobj_equiv st st' H). apply add_ent_resp. by apply new_ent_resp.
  Qed.
  Lemma export_resp ver : resp (export fold ver).
  Proof.
    intros st st' H. unfold export. rewrite (spawn_equiv st st' H).
    destruct (set_item_resp (spawn st) mapver ver st st' H) as [H1 _].
    destruct (set_item fold (spawn st) mapver ver st) as [s1 e1], (set_item fold (spawn st) mapver ver st') as [s1' e1'].
    simpl in *.
    destruct (set_item_resp (spawn st) cn ws s1 s1' H1) as [H3 _].
    destruct (set_item fold (spawn st) cn ws s1) as [s2 e2], (set_item fold (spawn st) cn ws s1') as [s2' e2'].
    simpl in *. by apply del_item_resp.
  Qed.
  Lemma probe_class_resp k : resp1 (upd_class (probe k)).
  Proof. unfold resp1. apply ix_equiv_cases. intros o n en sp bc bt bc' bt' Hc Ht. unfold upd_class. simpl. eauto with ixe. Qed.
  Lemma probe_target_resp k : resp1 (upd_target (probe k)).
  Proof. unfold resp1. apply ix_equiv_cases. intros o n en sp bc bt bc' bt' Hc Ht. unfold upd_target. simpl. eauto with ixe. Qed.

  (** make_unique: the fuel of the model's loop ([size by_target + 1]) differs between equivalent states, the name
      found does not *)
  Section unique.
    Hypothesis fold_app_dec : ∀ b i, fold (b ++ dec i) = fold b ++ dec i.

    Lemma free_name_equiv (f f' : nat) (i : N) (bs : str) (bt bt' : gmap (option str) (gset nat)) (n n' : str) : ixe bt bt' →
      free_name fold f i bs bt = Some n → free_name fold f' i bs bt' = Some n' → n = n'.
    Proof.
      intros Hb (j & _ & -> & He & Hl)%free_name_some (j' & _ & -> & He' & Hl')%free_name_some.
      destruct (lt_eq_lt_dec j j') as [[Hlt| ->]|Hlt]; [|done|].
      - destruct (Hl' j Hlt). by rewrite Hb.
      - destruct (Hl j' Hlt). by rewrite <- Hb.
    Qed.

    Lemma by_target_equiv st st' : ix_equiv st st' → ixe (by_target st) (by_target st').
    Proof. by intros (_&_&_&_&_&Ht). Qed.

    Lemma make_unique_resp e p : resp (make_unique fold e p).
    Proof.
      intros st st' H. unfold make_unique. rewrite (keys_of_equiv st st' e H).
      set (orig := default [] (kv_find fold tn (keys_of st e))).
      rewrite (by_target_equiv st st' H (Some (fold orig))).
      case_decide; [done|].
      assert (H1 : ix_equiv (if decide (orig = []) then (st, 0) else set_item fold e tn [] st).1
                            (if decide (orig = []) then (st', 0) else set_item fold e tn [] st').1).
      { case_decide; [done|]. by apply set_item_resp. }
      destruct (if decide (orig = []) then (st, 0) else set_item fold e tn [] st) as [s1 e1].
      destruct (if decide (orig = []) then (st', 0) else set_item fold e tn [] st') as [s1' e1']. simpl in H1.
      set (base := rstrip_digits (if decide (orig = []) then p else orig)).
      rewrite (by_target_equiv s1 s1' H1 (Some (fold base))).
      case_decide; [by apply set_item_resp|].
      destruct (free_name_total fold fold_app_dec (by_target s1) base 1) as [n1 E1].
      destruct (free_name_total fold fold_app_dec (by_target s1') base 1) as [n1' E1'].
      rewrite E1, E1'. rewrite <- (free_name_equiv _ _ _ _ _ _ _ _ (by_target_equiv s1 s1' H1) E1 E1').
      by apply set_item_resp.
    Qed.

    Lemma resp1_resp f : resp1 f → resp (λ st, (f st, 0)).
    Proof. intros Hf st st' H. split; [by apply Hf|done]. Qed.

    (** Every operation respects the equivalence. *)
    Theorem step_resp o : resp (step fold o).
    Proof.
      destruct o; cbv [step]; try apply resp1_resp;
        auto using new_ent_resp, create_ent_resp, add_ent_resp, add_ents_resp, remove_ent_resp, set_item_resp,
          del_item_resp, del_items_resp, pop_item_resp, pop_first_resp, update_resp, clear_resp, make_unique_resp,
          export_resp, probe_class_resp, probe_target_resp.
      by intros st st' H.
    Qed.

    (** ... hence whole histories: the model state (no empty sets tracked) and any state that additionally holds
        empty sets (the implementation's defaultdicts) evolve in lock step. *)
    Theorem run_resp ops : ∀ st st', ix_equiv st st' → ix_equiv (run fold ops st) (run fold ops st').
    Proof.
      unfold run. induction ops as [|o ops IH]; intros st st' H; simpl; [done|]. apply IH. by apply step_resp.
    Qed.
  End unique.
End resp.
