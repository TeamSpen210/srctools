(** C18 — walk_folder stores os.path.relpath(os.path.join(dirpath, file), self.path) (slashes changed) in the handle
    it yields.  Model of posixpath.relpath and the fidelity theorem: re-resolving the stored string names the very
    file that os.walk found (same segments), so handles yielded by a walk open what was listed -- nothing else. *)
From Coq Require Import List NArith Bool.
From SV Require Import SM.PathNorm SM.PathNormProofs SM.PathOps SM.PathOpsProofs.
Import ListNotations.
Open Scope N_scope.

(** [posixpath.relpath(path, start)]: both made absolute, split into non-empty components (after normpath an
    absolute path has no '.' component, so these are the segments), common prefix dropped, one '..' per remaining
    start component; posixpath.join of the pieces or '.' *)
Definition relpath (cwd path start : str) : str :=
  let sl := segs (abspath cwd start) in
  let pl := segs (abspath cwd path) in
  let i := List.length (lcp sl pl) in
  match repeat [dotc; dotc] (List.length sl - i) ++ skipn i pl with
  | [] => [dotc]
  | x :: r => fold_left pjoin r x
  end.

Lemma fold_norm_no_dd b cs : forall acc,
  Forall (fun c => is_dotdot c = false) cs ->
  fold_left (norm_step b) cs acc = rev (filter (fun c => negb (skip c)) cs) ++ acc.
Proof.
  induction cs as [|c cs IH]; intros acc H; [reflexivity|]. inversion H as [|? ? Hc Hcs]; subst.
  cbn [fold_left filter]. unfold norm_step at 2. destruct (skip c) eqn:Es; cbn [negb].
  - now apply IH.
  - rewrite Hc, (IH (c :: acc) Hcs). cbn [rev]. now rewrite <- app_assoc.
Qed.

Lemma no_dotdot_split p : no_dotdot (segs p) -> Forall (fun c => is_dotdot c = false) (split p).
Proof.
  unfold no_dotdot, segs. intros H. apply Forall_forall. intros c Hc.
  destruct (skip c) eqn:Es.
  - destruct c as [|x c']; [reflexivity|]. cbn [skip] in Es. unfold is_dot in Es. apply str_eqb_eq in Es.
    rewrite Es. reflexivity.
  - rewrite Forall_forall in H. apply H. apply filter_In. split; [exact Hc|]. now rewrite Es.
Qed.

Lemma segs_normpath_no_dd p : is_abs p = true -> no_dotdot (segs p) -> segs (normpath p) = segs p.
Proof.
  intros Ha Hd. destruct (normpath_abs_shape p Ha) as (n & _ & ->). rewrite segs_repeat_sep. unfold norm_comps.
  rewrite (fold_norm_no_dd true _ [] (no_dotdot_split _ Hd)), app_nil_r, rev_involutive.
  apply segs_join, segs_valid_all.
Qed.

Lemma segs_abspath_abs_no_dd cwd p : is_abs p = true -> no_dotdot (segs p) -> segs (abspath cwd p) = segs p.
Proof. intros Ha Hd. rewrite (abspath_abs cwd p Ha). now apply segs_normpath_no_dd. Qed.

Lemma starts_sep_pjoin a b : a <> [] -> starts_sep b = false -> starts_sep (pjoin a b) = starts_sep a.
Proof.
  intros Ha Hb. unfold pjoin. rewrite Hb. destruct a as [|c a']; [congruence|].
  destruct (ends_sep (c :: a')); reflexivity.
Qed.

Lemma pjoin_nonnil a b : a <> [] -> pjoin a b <> [].
Proof.
  intros Ha. unfold pjoin. destruct (starts_sep b) eqn:Eb.
  - destruct b; [discriminate|discriminate].
  - destruct a as [|c a']; [congruence|]. destruct (ends_sep (c :: a')); discriminate.
Qed.

Lemma fold_pjoin_valid r : forall x, x <> [] -> starts_sep x = false -> Forall valid r ->
  segs (fold_left pjoin r x) = segs x ++ r /\ starts_sep (fold_left pjoin r x) = false.
Proof.
  induction r as [|y r IH]; intros x Hx Hs Hr; cbn [fold_left].
  - now rewrite app_nil_r.
  - inversion Hr as [|? ? Hy Hr']; subst. pose proof (valid_not_starts_sep y Hy) as Hys.
    destruct (IH (pjoin x y) (pjoin_nonnil x y Hx)) as [H1 H2]; [|exact Hr'|].
    + now rewrite (starts_sep_pjoin x y Hx Hys).
    + split; [|exact H2]. rewrite H1, (segs_pjoin_rel x y Hys), (segs_single y Hy), <- app_assoc. reflexivity.
Qed.

Lemma valid_nonnil c : valid c -> c <> [].
Proof. intros [_ Hs] ->. discriminate. Qed.

Lemma lcp_app_self a : forall rest, lcp a (a ++ rest) = a.
Proof. induction a as [|x a IH]; intros rest; [reflexivity|]. cbn [app lcp]. now rewrite str_eqb_refl, IH. Qed.

Lemma skipn_app_self {A} (a rest : list A) : skipn (List.length a) (a ++ rest) = rest.
Proof. induction a as [|x a IH]; [reflexivity|]. exact IH. Qed.

Lemma relpath_under cwd path start rest :
  is_abs path = true -> is_abs start = true -> no_dotdot (segs path) -> no_dotdot (segs start) ->
  segs path = segs start ++ rest -> rest <> [] ->
  segs (relpath cwd path start) = rest /\ starts_sep (relpath cwd path start) = false.
Proof.
  intros Hp Hs Hdp Hds Heq Hne. unfold relpath.
  rewrite (segs_abspath_abs_no_dd cwd path Hp Hdp), (segs_abspath_abs_no_dd cwd start Hs Hds), Heq.
  rewrite lcp_app_self, PeanoNat.Nat.sub_diag, skipn_app_self. cbn [repeat app].
  destruct rest as [|x r]; [congruence|].
  assert (Hv : Forall valid (x :: r)).
  { pose proof (segs_valid_all path) as H. rewrite Heq in H. now apply Forall_app in H as [_ H]. }
  inversion Hv as [|? ? Hx Hr]; subst.
  destruct (fold_pjoin_valid r x (valid_nonnil x Hx) (valid_not_starts_sep x Hx) Hr) as [H1 H2].
  split; [|exact H2]. now rewrite H1, (segs_single x Hx).
Qed.

Section WalkFidelity.
  Variable os_walk : str -> list (str * list str).
  Hypothesis walk_shape : forall top d fs, In (d, fs) (os_walk top) ->
    (exists names, forallb entry_nameb names = true /\ d = descend top names) /\ forallb entry_nameb fs = true.

  (** walk_folder(folder) found [file = os.path.join(dirpath, f)] and stores
      [y = os.path.relpath(file, self.path).replace('\\', '/')] in the handle.  If [y] carries no backslash to replace,
      opening the handle computes abspath(join(self.path, y)): it has exactly the segments of the file found. *)
  Theorem walk_yield_names_the_file_found g cwd root_arg folder top d fs f :
    raise_sound g = true -> is_abs cwd = true ->
    resolve g true cwd root_arg folder = Ok top ->
    In (d, fs) (os_walk top) -> In f fs ->
    let root := abspath cwd root_arg in
    let file := pjoin d f in
    let y := relpath cwd file root in
    unbackslash y = y ->
    segs (abspath cwd (pjoin root (unbackslash y))) = segs file.
  Proof.
    intros Hg Hc Hres Hin Hf root file y Hy. rewrite Hy.
    pose proof (walk_found_inside os_walk walk_shape g cwd root_arg folder top d fs f Hg Hc Hres Hin Hf) as Hfile.
    fold root in Hfile. fold file in Hfile. destruct Hfile as (Hfa & [rest Hrest] & Hfd).
    assert (Hra : is_abs root = true) by now apply abspath_is_abs.
    assert (Hrd : no_dotdot (segs root)) by now apply abspath_no_dotdot.
    (* the file has at least its own name below the root's segments *)
    assert (Hne : rest <> []).
    { destruct (walk_shape top d fs Hin) as [_ Hfs]. rewrite forallb_forall in Hfs.
      destruct (entry_nameb_spec f (Hfs f Hf)) as [Hv _].
      destruct (walk_dirs_inside os_walk walk_shape g cwd root_arg folder top d fs Hg Hc Hres Hin) as (_ & [rd Ed] & _).
      unfold file in Hrest. rewrite (segs_pjoin_entry d f Hv), Ed, <- app_assoc in Hrest.
      apply app_inv_head in Hrest. subst rest. now destruct rd. }
    destruct (relpath_under cwd file root rest Hfa Hra Hfd Hrd Hrest Hne) as [Hys Hyr]. fold y in Hys, Hyr.
    assert (Hj : segs (pjoin root y) = segs file) by now rewrite (segs_pjoin_rel root y Hyr), Hys.
    rewrite segs_abspath_abs_no_dd; [exact Hj | now apply pjoin_abs | now rewrite Hj].
  Qed.
End WalkFidelity.
