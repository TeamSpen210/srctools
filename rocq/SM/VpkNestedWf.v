(** Python dicts have no two entries with the same key; the association lists of SM/VpkNested.v can.  [tree_wf] states it for the three
    levels; it holds for the empty archive and is preserved by new_file ([nins]) and __delitem__ ([ndel]).  For such trees the first-match
    lookup of the nested dicts is the lookup in the list of files that __iter__ walks ([flat_tree]), that list has no file twice, and
    with the simulation relation of VpkNestedSim.v it is, as a set, the table of the state machine. *)
From Coq Require Import List NArith Bool Permutation FinFun.
From SV Require Import Fmt.VpkDir Fmt.VpkDirProofs SM.Vpk SM.VpkProofs SM.VpkNested SM.VpkNestedMap SM.VpkNestedMapProofs SM.VpkNestedSim.
Import ListNotations.
Open Scope N_scope.

Definition files_wf (fs : list (bytes * info)) : Prop := NoDup (map fst fs).
Definition dirs_wf (ds : list (bytes * list (bytes * info))) : Prop := NoDup (map fst ds) /\ Forall (fun d => files_wf (snd d)) ds.
Definition tree_wf (t : tree) : Prop := NoDup (map fst t) /\ Forall (fun e => dirs_wf (snd e)) t.

Lemma tree_wf_nil : tree_wf [].
Proof. split; constructor. Qed.

(** ---- association lists with distinct keys ---- *)
Section b.
  Context {V : Type}.
  Lemma bset_keys_in k (v : V) l k' : In k' (map fst (bset k v l)) -> k' = k \/ In k' (map fst l).
  Proof.
    induction l as [|[k0 v0] l IH]; cbn [bset map fst In]; [intros [H|[]]; now left|].
    destruct (bytes_eqb_spec k k0) as [->|]; cbn [map fst In]; intros [H|H]; auto. destruct (IH H); auto.
  Qed.
  Lemma bset_nodup k (v : V) l : NoDup (map fst l) -> NoDup (map fst (bset k v l)).
  Proof.
    induction l as [|[k0 v0] l IH]; cbn [bset map fst]; intros H; [constructor; [intros []|constructor]|].
    inversion H as [|? ? Hn Hd]; subst. destruct (bytes_eqb_spec k k0) as [->|N]; cbn [map fst]; [now constructor|].
    constructor; [|now apply IH]. intros Hin. destruct (bset_keys_in _ _ _ _ Hin) as [->|Hin']; [now apply N|contradiction].
  Qed.
  Lemma bset_Forall (P : bytes * V -> Prop) k v l : (forall k', P (k', v)) -> Forall P l -> Forall P (bset k v l).
  Proof.
    intros Hv. induction 1 as [|[k0 v0] l Hp Hl IH]; cbn [bset]; [repeat constructor; apply Hv|].
    destruct (bytes_eqb k k0); constructor; auto.
  Qed.
  Lemma bget_notin k (l : list (bytes * V)) : ~ In k (map fst l) -> bget k l = None.
  Proof.
    induction l as [|[k0 v0] l IH]; cbn [bget map fst In]; [reflexivity|]. intros H.
    destruct (bytes_eqb_spec k k0) as [->|]; [exfalso; auto|]. apply IH. auto.
  Qed.
  Lemma filter_keys_in (q : bytes * V -> bool) l k : In k (map fst (filter q l)) -> In k (map fst l).
  Proof.
    induction l as [|e l IH]; cbn [filter map]; [auto|]. destruct (q e); cbn [map In]; intros H; [destruct H; auto|auto].
  Qed.
  Lemma filter_nodup (q : bytes * V -> bool) l : NoDup (map fst l) -> NoDup (map fst (filter q l)).
  Proof.
    induction l as [|e l IH]; cbn [filter map]; intros H; [constructor|]. inversion H as [|? ? Hn Hd]; subst.
    destruct (q e); cbn [map]; [|auto]. constructor; [|auto]. intros Hin. apply Hn. eapply filter_keys_in; eassumption.
  Qed.
  Lemma filter_Forall (P : bytes * V -> Prop) (q : bytes * V -> bool) l : Forall P l -> Forall P (filter q l).
  Proof. induction 1 as [|e l Hp Hl IH]; cbn [filter]; [constructor|]. destruct (q e); [constructor|]; auto. Qed.
  Lemma map_keys (f : bytes * V -> bytes * V) l : (forall e, fst (f e) = fst e) -> map fst (map f l) = map fst l.
  Proof. intros Hf. rewrite map_map. now apply map_ext. Qed.
End b.

(** ---- preserved by new_file ---- *)
Lemma dirs_wf_nil : dirs_wf [].
Proof. split; constructor. Qed.
Lemma files_wf_nil : files_wf [].
Proof. constructor. Qed.

Lemma tree_wf_bget t x ds : tree_wf t -> bget x t = Some ds -> dirs_wf ds.
Proof. intros [_ Hf] Hb. apply bget_In in Hb. rewrite Forall_forall in Hf. exact (Hf _ Hb). Qed.
Lemma dirs_wf_bget ds p fs : dirs_wf ds -> bget p ds = Some fs -> files_wf fs.
Proof. intros [_ Hf] Hb. apply bget_In in Hb. rewrite Forall_forall in Hf. exact (Hf _ Hb). Qed.

Theorem tree_wf_nins g1 g2 : goc_ok g1 = true -> goc_ok g2 = true -> forall t k i t',
  tree_wf t -> nins g1 g2 t k i = Some t' -> tree_wf t'.
Proof.
  intros H1 H2 t [[x p] n] i t' Hw. unfold nins. rewrite (goc_ok_step g1 x t H1), (goc_ok_step g2 p _ H2). intros [= E]. subst t'.
  assert (dirs_wf (match bget x t with Some v => v | None => [] end)) as Hds.
  { destruct (bget x t) eqn:E; [eapply tree_wf_bget; eassumption|apply dirs_wf_nil]. }
  set (ds := match bget x t with Some v => v | None => [] end) in *.
  assert (files_wf (match bget p ds with Some v => v | None => [] end)) as Hfs.
  { destruct (bget p ds) eqn:E; [eapply dirs_wf_bget; eassumption|apply files_wf_nil]. }
  destruct Hw as [Hn Hf]. split; [now apply bset_nodup|].
  apply bset_Forall; [|exact Hf]. intros k0. cbn [snd]. pose proof (proj1 Hds) as Hdn. pose proof (proj2 Hds) as Hdf. split; [now apply bset_nodup|].
  apply bset_Forall; [|exact Hdf]. intros k1. cbn [snd]. now apply bset_nodup.
Qed.

(** ---- preserved by __delitem__ ---- *)
Lemma tree_wf_rm_name x p n t : tree_wf t -> tree_wf (rm_name x p n t).
Proof.
  intros [Hn Hf]. unfold rm_name. split.
  - rewrite map_keys; [exact Hn|]. intros e. now destruct (bytes_eqb (fst e) x).
  - apply Forall_map. eapply Forall_impl; [|exact Hf]. intros e [Hdn Hdf]. destruct (bytes_eqb (fst e) x); [|now split]. cbn [snd]. split.
    + rewrite map_keys; [exact Hdn|]. intros d. now destruct (bytes_eqb (fst d) p).
    + apply Forall_map. eapply Forall_impl; [|exact Hdf]. intros d Hd. destruct (bytes_eqb (fst d) p); [|exact Hd]. cbn [snd].
      now apply filter_nodup.
Qed.
Lemma tree_wf_pop_folder x p t : tree_wf t -> tree_wf (pop_folder x p t).
Proof.
  intros [Hn Hf]. unfold pop_folder. split.
  - rewrite map_keys; [exact Hn|]. intros e. now destruct (bytes_eqb (fst e) x).
  - apply Forall_map. eapply Forall_impl; [|exact Hf]. intros e [Hdn Hdf]. destruct (bytes_eqb (fst e) x); [|now split]. cbn [snd].
    split; [now apply filter_nodup|now apply filter_Forall].
Qed.
Lemma tree_wf_pop_ext x t : tree_wf t -> tree_wf (pop_ext x t).
Proof. intros [Hn Hf]. unfold pop_ext. split; [now apply filter_nodup|now apply filter_Forall]. Qed.

Theorem tree_wf_ndel prog t k t' : tree_wf t -> ndel prog t k = Some t' -> tree_wf t'.
Proof.
  destruct k as [[x p] n]. intros Hw. unfold ndel. destruct (nmem t (x, p, n)); [|discriminate].
  destruct (outcome prog _ _ false false) as [[fp ep]|]; [|discriminate]. intros [= E]. subst t'.
  pose proof (tree_wf_rm_name x p n t Hw) as H1.
  destruct ep; [apply tree_wf_pop_ext|]; (destruct fp; [now apply tree_wf_pop_folder|exact H1]).
Qed.

(** ---- for trees without shadowed entries the first-match lookup is the lookup in the list __iter__ walks ---- *)
Lemma alookup_app {V} k (a b : list (key * V)) :
  alookup k (a ++ b) = match alookup k a with Some v => Some v | None => alookup k b end.
Proof. induction a as [|[k0 v0] a IH]; cbn [app alookup]; [reflexivity|]. destruct (key_eqb k k0); [reflexivity|exact IH]. Qed.

Lemma alookup_flat_files x p n e d fs :
  alookup (x, p, n) (flat_files e d fs) = if bytes_eqb x e && bytes_eqb p d then bget n fs else None.
Proof.
  induction fs as [|[n0 i0] fs IH]; unfold flat_files in *; cbn [map alookup bget fst snd key_eqb].
  - now destruct (bytes_eqb x e && bytes_eqb p d).
  - rewrite IH. destruct (bytes_eqb x e), (bytes_eqb p d); cbn [andb]; reflexivity.
Qed.

Lemma alookup_flat_dirs x p n e ds : NoDup (map fst ds) ->
  alookup (x, p, n) (flat_dirs e ds) =
  if bytes_eqb x e then match bget p ds with Some fs => bget n fs | None => None end else None.
Proof.
  induction ds as [|[p0 fs0] ds IH]; intros Hn; cbn [bget].
  - now destruct (bytes_eqb x e).
  - inversion Hn as [|? ? Hni Hnd]; subst. rewrite flat_dirs_cons, alookup_app, alookup_flat_files, (IH Hnd). cbn [fst snd].
    destruct (bytes_eqb x e); cbn [andb]; [|reflexivity].
    destruct (bytes_eqb p p0) eqn:E; [|reflexivity]. apply bytes_eqb_eq in E. subst p0.
    rewrite (bget_notin p ds Hni). now destruct (bget n fs0).
Qed.

Theorem alookup_flat_tree t k : tree_wf t -> alookup k (flat_tree t) = nlookup t k.
Proof.
  destruct k as [[x p] n]. induction t as [|[x0 ds0] t IH]; intros [Hn Hf]; [reflexivity|].
  inversion Hn as [|? ? Hni Hnd]; subst. inversion Hf as [|? ? [Hdn Hdf] Hft]; subst. cbn [snd] in *.
  rewrite flat_tree_cons, alookup_app. cbn [fst snd]. rewrite (alookup_flat_dirs x p n x0 ds0 Hdn).
  unfold nlookup in *. cbn [bget]. destruct (bytes_eqb x x0) eqn:E.
  - apply bytes_eqb_eq in E. subst x0. rewrite (IH (conj Hnd Hft)), (bget_notin x t Hni).
    destruct (bget p ds0) as [fs|]; [|reflexivity]. now destruct (bget n fs).
  - exact (IH (conj Hnd Hft)).
Qed.

(** ---- ... and no file is listed twice ---- *)
Lemma NoDup_app_intro {A} (a b : list A) : NoDup a -> NoDup b -> (forall x, In x a -> ~ In x b) -> NoDup (a ++ b).
Proof.
  induction a as [|x a IH]; cbn [app]; intros Ha Hb Hd; [exact Hb|]. inversion Ha as [|? ? Hx Ha']; subst.
  constructor.
  - intros Hin. apply in_app_or in Hin as [Hin|Hin]; [contradiction|]. exact (Hd x (or_introl eq_refl) Hin).
  - apply IH; auto. intros y Hy. apply Hd. now right.
Qed.

(** One level of the walk: the groups have distinct keys [ka], every name [g b] listed for a group carries the key of its group ([kc]),
    and no group lists a name twice; then no name is listed twice. *)
Lemma flat_map_nodup {A B C K} (g : B -> C) (ka : A -> K) (kc : C -> K) (f : A -> list B) l :
  (forall a b, In b (f a) -> kc (g b) = ka a) -> NoDup (map ka l) -> Forall (fun a => NoDup (map g (f a))) l ->
  NoDup (map g (flat_map f l)).
Proof.
  intros Hk. induction l as [|a l IH]; cbn [flat_map map]; intros Hn Hf; [constructor|].
  inversion Hn as [|? ? Hni Hnd]; subst. inversion Hf as [|? ? Ha Hft]; subst. rewrite map_app.
  apply NoDup_app_intro; auto. intros x Hx Hx'. apply in_map_iff in Hx as (b & <- & Hb). apply in_map_iff in Hx' as (b' & E & Hb').
  apply in_flat_map in Hb' as (a' & Ha' & Hb'). apply Hni. rewrite <- (Hk _ _ Hb), <- E, (Hk _ _ Hb'). now apply in_map.
Qed.

Lemma flat_files_nodup e d fs : files_wf fs -> NoDup (map fst (flat_files e d fs)).
Proof.
  unfold files_wf, flat_files. intros H. apply (Injective_map_NoDup (f := fun n => (e, d, n))) in H; [|now intros n n' [= ->]].
  now rewrite map_map in H |- *.
Qed.
Lemma flat_dirs_nodup e ds : dirs_wf ds -> NoDup (map fst (flat_dirs e ds)).
Proof.
  intros [Hn Hf]. apply (flat_map_nodup fst fst (fun k => snd (fst k))); [|exact Hn|].
  - intros d b Hb. apply in_map_iff in Hb as (f & <- & _). reflexivity.
  - eapply Forall_impl; [|exact Hf]. intros d. apply flat_files_nodup.
Qed.
Theorem flat_tree_nodup t : tree_wf t -> NoDup (map fst (flat_tree t)).
Proof.
  intros [Hn Hf]. apply (flat_map_nodup fst fst (fun k => fst (fst k))); [|exact Hn|].
  - intros x b Hb. apply in_flat_map in Hb as (d & _ & Hb). apply in_map_iff in Hb as (f & <- & _). reflexivity.
  - eapply Forall_impl; [|exact Hf]. intros x. apply flat_dirs_nodup.
Qed.

(** ---- with the simulation relation: what __iter__ walks is the table ---- *)
Theorem wf_walk_is_table t tb : tree_wf t -> nrel t tb -> NoDup (map fst tb) ->
  Permutation (map fst (flat_tree t)) (map fst tb) /\ forall k, alookup k (flat_tree t) = alookup k tb.
Proof.
  intros Hw R Hnd. assert (forall k, alookup k (flat_tree t) = alookup k tb) as L by (intros k; now rewrite alookup_flat_tree, R).
  split; [|exact L]. apply keys_perm; [now apply flat_tree_nodup|exact Hnd|]. intros k. now rewrite L.
Qed.

(** ---- every sequence of new_file / in-place updates / deletes, from the empty archive ---- *)
Inductive tbop := TSet (k : key) (i : info) | TDel (k : key).
Fixpoint tb_run (tb : list (key * info)) (ops : list tbop) : list (key * info) :=
  match ops with
  | [] => tb
  | TSet k i :: r => tb_run (aset k i tb) r
  | TDel k :: r => tb_run (adel k tb) r
  end.
(** on the nested dicts; a delete that raises KeyError changes nothing; [None] = an insertion raised *)
Fixpoint nt_run (g1 g2 : goc) (prog : dprog) (t : tree) (ops : list tbop) : option tree :=
  match ops with
  | [] => Some t
  | TSet k i :: r => match nins g1 g2 t k i with Some t' => nt_run g1 g2 prog t' r | None => None end
  | TDel k :: r => match ndel prog t k with Some t' => nt_run g1 g2 prog t' r | None => nt_run g1 g2 prog t r end
  end.

Lemma adel_absent {V} k (l : list (key * V)) : alookup k l = None -> adel k l = l.
Proof.
  induction l as [|[k0 v0] l IH]; cbn [alookup adel]; [reflexivity|]. destruct (key_eqb k k0); [discriminate|]. intros H. now rewrite IH.
Qed.

Theorem nested_history g1 g2 prog : goc_ok g1 = true -> goc_ok g2 = true -> prog_safe prog = true -> forall ops t tb,
  tree_wf t -> nrel t tb -> NoDup (map fst tb) ->
  exists t', nt_run g1 g2 prog t ops = Some t' /\ tree_wf t' /\ nrel t' (tb_run tb ops) /\ NoDup (map fst (tb_run tb ops)).
Proof.
  intros H1 H2 Hs. induction ops as [|[k i|k] ops IH]; intros t tb Hw R Hn; cbn [nt_run tb_run].
  - exists t. auto.
  - destruct (nrel_nins g1 g2 H1 H2 t tb k i R) as (t1 & E & R1). rewrite E.
    apply IH; [exact (tree_wf_nins g1 g2 H1 H2 t k i t1 Hw E)|exact R1|now apply aset_keys].
  - pose proof (nrel_ndel prog Hs t tb k R) as Hd. destruct (ndel prog t k) as [t1|] eqn:E.
    + apply IH; [exact (tree_wf_ndel prog t k t1 Hw E)|exact Hd|now apply adel_keys].
    + rewrite (adel_absent k tb Hd). now apply IH.
Qed.

(** From the empty archive: the nested dicts never raise on insertion, and what __iter__ walks afterwards is exactly the table the state
    machine holds after the same operations: the same names, none twice, each with the same entry. *)
Theorem nested_history_lists_table g1 g2 prog : goc_ok g1 = true -> goc_ok g2 = true -> prog_safe prog = true -> forall ops,
  exists t, nt_run g1 g2 prog [] ops = Some t
  /\ Permutation (map fst (flat_tree t)) (map fst (tb_run [] ops))
  /\ forall k, alookup k (flat_tree t) = alookup k (tb_run [] ops).
Proof.
  intros H1 H2 Hs ops.
  destruct (nested_history g1 g2 prog H1 H2 Hs ops [] [] tree_wf_nil nrel_nil (NoDup_nil _)) as (t & E & Hw & R & Hn).
  exists t. split; [exact E|]. now apply wf_walk_is_table.
Qed.
