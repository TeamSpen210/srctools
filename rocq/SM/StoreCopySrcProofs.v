(** C09 — with [copy_sources_match] the positional census relation [fields_rel_src] IS the
    field-by-field relation [fields_rel] the census theorems of StoreCopyProofs.v assume; without it a census can pass
    every freshness / coverage check and still produce an observably different copy. *)
From Coq Require Import List ZArith Bool String.
From SV Require Import SM.Store SM.StoreCopy SM.StoreCopyProofs SM.StoreCopySrc.
Import ListNotations.

Lemma how_sem_indep w h h' v1 v2 v' :
  needs_source w = false -> how_sem w h h' v1 v' -> how_sem w h h' v2 v'.
Proof. destruct w; cbn; try discriminate; auto. Qed.

Lemma existsb_eqb_In x l : existsb (String.eqb x) l = true <-> In x l.
Proof.
  rewrite existsb_exists. split.
  - intros (y & Hy & E). apply String.eqb_eq in E. subst. exact Hy.
  - intros H. exists x. split; [exact H|apply String.eqb_refl].
Qed.

Lemma nodupb_NoDup l : nodupb l = true -> NoDup l.
Proof.
  induction l as [|x r IH]; [constructor|]. cbn. rewrite andb_true_iff, negb_true_iff. intros [H1 H2].
  constructor; [|auto]. intros Hin. apply existsb_eqb_In in Hin. congruence.
Qed.

Lemma index_of_nth l : NoDup l -> forall p f, nth_error l p = Some f -> index_of f l = Some p.
Proof.
  induction 1 as [|x r Hx Hnd IH]; intros p f Hp; [destruct p; discriminate|].
  destruct p as [|p]; cbn in *.
  - inversion Hp; subst. rewrite String.eqb_refl. reflexivity.
  - destruct (String.eqb x f) eqn:E.
    + apply String.eqb_eq in E. subst. exfalso. apply Hx. eapply nth_error_In; eauto.
    + rewrite (IH _ _ Hp). reflexivity.
Qed.

(** A row built from exactly its own field resolves to its own position. *)
Lemma own_source_index c s p row :
  NoDup (names c) -> nth_error c p = Some row -> needs_source (snd row) = true -> field_source_ok s row = true ->
  match src_of s (cname row) with Some [g] => index_of g (names c) | _ => None end = Some p.
Proof.
  intros Hnd Er Hn Hs. unfold field_source_ok in Hs. rewrite Hn in Hs.
  destruct (src_of s (cname row)) as [[|g [|? ?]]|]; try discriminate.
  apply String.eqb_eq in Hs. subst g. apply index_of_nth; [exact Hnd|].
  unfold names. rewrite nth_error_map, Er. reflexivity.
Qed.

(** Every row that reads the original reads exactly its own position. *)
Lemma resolve_identity c s :
  copy_sources_match c s = true ->
  forall p k w j, nth_error (resolve c s) p = Some (k, w, j) -> needs_source w = true -> j = Some p.
Proof.
  unfold copy_sources_match. rewrite andb_true_iff. intros [Hnd Hall] p k w j Hp Hw.
  unfold resolve in Hp. rewrite nth_error_map in Hp.
  destruct (nth_error c p) as [row|] eqn:Er; [|discriminate]. cbn in Hp. inversion Hp; subst; clear Hp.
  rewrite forallb_forall in Hall.
  exact (own_source_index c s p row (nodupb_NoDup _ Hnd) Er Hw (Hall row (nth_error_In _ _ Er))).
Qed.

Lemma resolve_kw c s : map (fun r : srow => (fst (fst r), snd (fst r))) (resolve c s) = ck c.
Proof. unfold resolve, ck. rewrite map_map. apply map_ext. intros [[f k] w]. reflexivity. Qed.

(** Positional relation + identity sources = the field-by-field relation.  Generalised over the fields [rest] still to
    be related: all that is needed of a source index is that it points, in [orig], at the field in the row's position. *)
Lemma frs_fields_rel h h' orig :
  forall rows vs', fields_rel_src h h' orig rows vs' ->
  forall (c : census) rest, kinds_rel h c rest ->
  map (fun r : srow => (fst (fst r), snd (fst r))) rows = ck c ->
  (forall p k w i, nth_error rows p = Some (k, w, Some i) -> needs_source w = true ->
                   nth_error orig i = nth_error rest p) ->
  fields_rel h h' (ck c) rest vs'.
Proof.
  induction 1 as [|k w j rows v' vs' Hsem Hr IH]; intros c rest Hk Hm Hid.
  - destruct c as [|row c]; [|discriminate]. inversion Hk; subst. constructor.
  - destruct c as [|[[f k0] w0] c]; [discriminate|]. cbn in Hm. inversion Hm as [[Hk0 Hw0 Hm']]; subst k0 w0; clear Hm.
    inversion Hk as [|f' k' w' c' v vs Hkv Hks]; subst. cbn [ck map fst snd].
    constructor.
    + exact Hkv.
    + unfold how_src_sem in Hsem. destruct (needs_source w) eqn:Ew.
      * destruct Hsem as (i & v0 & -> & Hn & Hs).
        rewrite (Hid 0 k w i eq_refl Ew) in Hn. inversion Hn; subst. exact Hs.
      * eapply how_sem_indep; eauto.
    + apply (IH c vs Hks Hm'). intros p k1 w1 i Hp Hw1. exact (Hid (S p) k1 w1 i Hp Hw1).
Qed.

Theorem sources_fields_rel h h' (c : census) (s : srcmap) orig vs' :
  copy_sources_match c s = true -> kinds_rel h c orig ->
  fields_rel_src h h' orig (resolve c s) vs' -> fields_rel h h' (ck c) orig vs'.
Proof.
  intros Hs Hk Hr. apply (frs_fields_rel h h' orig _ _ Hr c orig Hk (resolve_kw c s)).
  intros p k w i Hp Hw. injection (resolve_identity c s Hs p k w (Some i) Hp Hw) as ->. reflexivity.
Qed.

(** Census with sources ⟹ independence, both directions, every mutation history. *)
Theorem census_src_copy_independent : forall (c : census) (s : srcmap) h h' la lc nd nd',
  closed h -> closed h' -> extends h h' -> h la = Some nd -> h lc = None -> h' lc = Some nd' ->
  copy_fresh_mutables c = true -> copy_sources_match c s = true ->
  kinds_rel h c (nfields nd) ->
  fields_rel_src h h' (nfields nd) (resolve c s) (nfields nd') ->
  (forall ms h'' R, steps (h', [lc]) ms (h'', R) -> forall n, unfold n h'' (VRef la) = unfold n h' (VRef la)) /\
  (forall ms h'' R, steps (h', [la]) ms (h'', R) -> forall n, unfold n h'' (VRef lc) = unfold n h' (VRef lc)).
Proof.
  intros c s h h' la lc nd nd' Hc Hc' He Hla Hlc Hlc' Hf Hs Hk Hr.
  apply (census_copy_independent c h h' la lc nd nd' Hc Hc' He Hla Hlc Hlc' Hf).
  eapply sources_fields_rel; eauto.
Qed.

(** Refutation of the census WITHOUT sources: both rows are (KImm, HShare) — fresh and covered — but the
    second field of the copy is built from the first field of the original; the copy is observably different
    ([c09_wrong_source_observable_refuted]). *)
Definition ws_census : census := [("multi_blend"%string, KImm, HShare); ("multi_alpha"%string, KImm, HShare)].
Definition ws_sources : srcmap := [("multi_blend"%string, ["multi_blend"%string]); ("multi_alpha"%string, ["multi_blend"%string])].
Definition ws_h : heap := fun l => match l with 1%positive => Some (Node true [VAtom 5%Z; VAtom 7%Z]) | _ => None end.
Definition ws_h' : heap := fun l => match l with
  | 1%positive => Some (Node true [VAtom 5%Z; VAtom 7%Z])
  | 2%positive => Some (Node true [VAtom 5%Z; VAtom 5%Z]) | _ => None end.

(** The hypotheses of [census_src_copy_independent] are satisfiable (sources = own fields). *)
Definition ok_sources : srcmap := [("multi_blend"%string, ["multi_blend"%string]); ("multi_alpha"%string, ["multi_alpha"%string])].
Example sources_match_example :
  copy_sources_match ws_census ok_sources = true /\
  fields_rel_src ws_h ws_h' [VAtom 5%Z; VAtom 7%Z] (resolve ws_census ok_sources) [VAtom 5%Z; VAtom 7%Z].
Proof.
  split; [reflexivity|]. cbn. constructor; [|constructor; [|constructor]].
  - exists 0%nat, (VAtom 5%Z). cbn. auto.
  - exists 1%nat, (VAtom 7%Z). cbn. auto.
Qed.
