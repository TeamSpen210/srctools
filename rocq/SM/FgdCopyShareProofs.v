(** C16 — proofs about SM/FgdCopyShare.v: a copy expression that re-creates every mutable layer of a field's shape builds a
    value none of whose objects is an object of the original; in-place changes through the copy are then invisible there. *)
From Coq Require Import List NArith Bool Lia.
From SV Require Import SM.FgdCopyShare.
Import ListNotations.
Open Scope N_scope.

Section ValInd.
Variable P : val -> Prop.
Hypothesis HI : forall n, P (VImm n).
Hypothesis HM : forall a ks, Forall P ks -> P (VMut a ks).
Fixpoint val_ind' (v : val) : P v :=
  match v with
  | VImm n => HI n
  | VMut a ks =>
      HM a ks ((fix go (ks : list val) : Forall P ks :=
                  match ks with [] => Forall_nil P | k :: r => Forall_cons k (val_ind' k) (go r) end) ks)
  end.
End ValInd.

(** the local fixpoints of the model, named *)
Fixpoint typed_fields (fs : list ftype) (ks : list val) {struct ks} : bool :=
  match fs, ks with
  | [], [] => true
  | f :: fs', k :: ks' => has_type f k && typed_fields fs' ks'
  | _, _ => false
  end.
Definition zip_copy (base : N) : list cexpr -> list val -> list val :=
  fix zip (es : list cexpr) (ks : list val) {struct ks} : list val :=
    match ks with
    | [] => []
    | k :: ks' => match es with
                  | [] => k :: zip [] ks'
                  | e1 :: es' => do_copy base e1 k :: zip es' ks'
                  end
    end.
Lemma zip_copy_cons base e1 es k ks : zip_copy base (e1 :: es) (k :: ks) = do_copy base e1 k :: zip_copy base es ks.
Proof. reflexivity. Qed.
Fixpoint iso_fields (es : list cexpr) (ts : list ftype) {struct es} : bool :=
  match es, ts with
  | [], [] => true
  | e1 :: es', t1 :: ts' => isolates e1 t1 && iso_fields es' ts'
  | _, _ => false
  end.
Lemma has_type_obj a fs ks : has_type (TObj fs) (VMut a ks) = typed_fields fs ks.
Proof. reflexivity. Qed.
Lemma do_copy_obj base es a ks : do_copy base (CObj es) (VMut a ks) = VMut (base + a) (zip_copy base es ks).
Proof. reflexivity. Qed.
Lemma isolates_obj es ts : isolates (CObj es) (TObj ts) = iso_fields es ts.
Proof. reflexivity. Qed.

Definition fresh (base : N) (l : list N) : Prop := Forall (fun a => base <= a) l.

Lemma deep_fresh base v : fresh base (addrs (do_copy base CDeep v)).
Proof.
  induction v as [n|a ks IH] using val_ind'; [constructor|].
  cbn [do_copy addrs]. constructor; [lia|].
  induction IH as [|k r Hk _ IHr]; [constructor|]. cbn [map flat_map]. apply Forall_app. split; assumption.
Qed.
Lemma imm_no_addrs v : has_type TImm v = true -> addrs v = [].
Proof. destruct v; cbn; [reflexivity|discriminate]. Qed.
Lemma all_imm_no_addrs ks : forallb (has_type TImm) ks = true -> flat_map addrs ks = [].
Proof.
  induction ks as [|k r IH]; [reflexivity|]. cbn [forallb flat_map]. intros H. apply andb_true_iff in H as [H1 H2].
  rewrite (imm_no_addrs k H1), (IH H2). reflexivity.
Qed.
Lemma is_imm_eq t : is_imm t = true -> t = TImm.
Proof. destruct t; cbn; congruence. Qed.
Lemma imm_fields_no_addrs ks : forall ts, forallb is_imm ts = true -> typed_fields ts ks = true -> flat_map addrs ks = [].
Proof.
  induction ks as [|k r IH]; intros ts Hi Ht; [reflexivity|].
  destruct ts as [|t ts]; cbn [typed_fields] in Ht; [discriminate|].
  cbn [forallb] in Hi. apply andb_true_iff in Hi as [Hi1 Hi2]. apply andb_true_iff in Ht as [Ht1 Ht2].
  apply is_imm_eq in Hi1. subst t. cbn [flat_map]. rewrite (imm_no_addrs k Ht1), (IH ts Hi2 Ht2). reflexivity.
Qed.

Theorem copy_is_fresh base v : forall e t, has_type t v = true -> isolates e t = true -> fresh base (addrs (do_copy base e v)).
Proof.
  induction v as [n|a ks IH] using val_ind'; intros e t Ht Hi; [constructor|].
  destruct t as [|t'|ts|]; [cbn in Ht; discriminate| | |].
  - (* a container *)
    destruct e as [| | |e'|es]; cbn [isolates] in Hi; try discriminate.
    + apply is_imm_eq in Hi. subst t'. cbn [has_type] in Ht. cbn [do_copy addrs]. rewrite (all_imm_no_addrs ks Ht).
      constructor; [lia|constructor].
    + apply deep_fresh.
    + cbn [has_type] in Ht. cbn [do_copy addrs]. constructor; [lia|].
      induction IH as [|k r Hk _ IHr]; [constructor|]. cbn [forallb] in Ht. apply andb_true_iff in Ht as [Ht1 Ht2].
      cbn [map flat_map]. apply Forall_app. split; [apply (Hk e' t'); assumption|apply IHr; exact Ht2].
  - (* an object *)
    destruct e as [| | |e'|es]; try (cbn [isolates] in Hi; discriminate).
    + cbn [isolates] in Hi. rewrite has_type_obj in Ht. cbn [do_copy addrs]. rewrite (imm_fields_no_addrs ks ts Hi Ht).
      constructor; [lia|constructor].
    + apply deep_fresh.
    + rewrite isolates_obj in Hi. rewrite has_type_obj in Ht. rewrite do_copy_obj. cbn [addrs]. constructor; [lia|].
      revert es ts Hi Ht. induction IH as [|k r Hk _ IHr]; intros es ts Hi Ht; [constructor|].
      destruct ts as [|t1 ts]; [cbn [typed_fields] in Ht; discriminate|].
      destruct es as [|e1 es]; [cbn [iso_fields] in Hi; discriminate|].
      cbn [iso_fields] in Hi. cbn [typed_fields] in Ht.
      apply andb_true_iff in Hi as [Hi1 Hi2]. apply andb_true_iff in Ht as [Ht1 Ht2].
      rewrite zip_copy_cons. cbn [flat_map]. apply Forall_app. split; [apply (Hk e1 t1); assumption|apply (IHr es ts); assumption].
  - (* anything: only deepcopy *)
    destruct e; cbn [isolates] in Hi; try discriminate. apply deep_fresh.
Qed.

Lemma update_absent a new v : ~ In a (addrs v) -> update a new v = v.
Proof.
  induction v as [n|b ks IH] using val_ind'; intros Hn; [reflexivity|].
  cbn [update]. cbn [addrs] in Hn. destruct (N.eqb_spec a b) as [E|E]; [exfalso; apply Hn; left; symmetry; exact E|].
  f_equal. assert (Hk : ~ In a (flat_map addrs ks)) by (intros Hi; apply Hn; right; exact Hi). clear Hn.
  induction IH as [|k r Hk1 _ IHr]; [reflexivity|]. cbn [map]. cbn [flat_map] in Hk.
  rewrite Hk1 by (intros Hi; apply Hk; apply in_or_app; left; exact Hi).
  rewrite IHr by (intros Hi; apply Hk; apply in_or_app; right; exact Hi). reflexivity.
Qed.

Theorem copy_isolated base e t v : has_type t v = true -> isolates e t = true ->
  Forall (fun a => a < base) (addrs v) ->
  forall a new, In a (addrs (do_copy base e v)) -> update a new v = v.
Proof.
  intros Ht Hi Hold a new Ha. apply update_absent. intros Hin.
  pose proof (copy_is_fresh base v e t Ht Hi) as Hf. unfold fresh in Hf.
  rewrite Forall_forall in Hf, Hold. specialize (Hf a Ha). specialize (Hold a Hin). lia.
Qed.

