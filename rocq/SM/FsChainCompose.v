(** C19 — a chain member built from a sound backend ([sound_member]): the folder it is asked to walk, what it lists
    for it ([walk_member]), the prefix-relative name under which the chain lists a file ([listed_name]) and which file
    it serves when asked for such a name ([asks_member_iff]).  The composition of walk and lookup over whole chains
    is in FsChainWalkGen.v and FsChainComplete.v. *)
From Coq Require Import List NArith Bool Lia.
From SV Require Import SM.FsChain SM.FsChainProofs SM.FsChainRel.
Import ListNotations.
Open Scope N_scope.

(** * strings *)
Lemma rstrip_snoc s : rstrip_slash (s ++ [SL]) = rstrip_slash s.
Proof. unfold rstrip_slash. rewrite rev_app_distr. reflexivity. Qed.

Lemma rstrip_noslash s : is_prefix [SL] (rev s) = false -> rstrip_slash s = s.
Proof.
  unfold rstrip_slash. intros H. destruct (rev s) as [|x r] eqn:E.
  - rewrite <- (rev_involutive s), E. reflexivity.
  - cbn [is_prefix] in H. rewrite andb_true_r in H. cbn [drop_while]. rewrite N.eqb_sym, H.
    rewrite <- E. apply rev_involutive.
Qed.

Lemma clean_nonempty s : clean s = true -> s <> [].
Proof. intros H ->. discriminate. Qed.

Lemma clean_no_lead_slash s : clean s = true -> is_prefix [SL] s = false.
Proof.
  unfold clean. destruct s as [|x r]; [reflexivity|]. cbn [split_on is_prefix]. rewrite andb_true_r.
  destruct (N.eqb_spec x SL) as [->|Hn].
  - cbn. discriminate.
  - intros _. apply N.eqb_neq. congruence.
Qed.

Lemma clean_app a b : clean (a ++ SL :: b) = clean a && clean b.
Proof. unfold clean. rewrite split_app_sep, forallb_app. reflexivity. Qed.

Lemma normpath_cons s :
  s <> [] ->
  normpath s = match repeat SL (initial_slashes s)
                     ++ join_with SL (rev (fold_left (np_step (negb (Nat.eqb (initial_slashes s) 0))) (split_on SL s) [])) with
               | [] => S_DOT
               | r => r
               end.
Proof. destruct s; [congruence|reflexivity]. Qed.

Lemma normpath_trailing C : clean C = true -> normpath (C ++ [SL]) = C.
Proof.
  intros H. pose proof (clean_no_lead_slash C H) as Hl. pose proof (clean_nonempty C H) as Hne.
  assert (Hi : initial_slashes (C ++ [SL]) = 0%nat).
  { unfold initial_slashes. destruct C as [|x r]; [congruence|]. cbn [app is_prefix] in *.
    rewrite andb_true_r in Hl. rewrite Hl. reflexivity. }
  rewrite normpath_cons by (intros E; apply app_eq_nil in E as [_ E]; discriminate).
  rewrite Hi. cbn [Nat.eqb negb repeat app].
  rewrite split_app_sep. cbn [split_on].
  rewrite fold_left_app. unfold clean in H. rewrite (np_fold_good _ (split_on SL C)) by exact H. cbn [fold_left].
  unfold np_step at 1. cbn [eqb_str orb]. rewrite app_nil_r, rev_involutive, join_split.
  destruct C; [congruence|reflexivity].
Qed.

Lemma gch_dot c : (gch c =? DOT) = (c =? DOT).
Proof.
  unfold gch, slashc, foldc, BS, SL, DOT.
  destruct (N.eqb_spec c 92) as [->|H1]; [reflexivity|].
  destruct ((65 <=? c) && (c <=? 90)) eqn:E; [|reflexivity].
  apply andb_true_iff in E as [E1 E2]. apply N.leb_le in E1, E2.
  destruct (N.eqb_spec (c + 32) 46), (N.eqb_spec c 46); try lia; reflexivity.
Qed.

Lemma nkey_not_dot C : clean C = true -> eqb_str (nkey C) S_DOT = false.
Proof.
  intros H. destruct (eqb_str (nkey C) S_DOT) eqn:E; [|reflexivity]. exfalso.
  apply eqb_str_eq in E. rewrite nkey_map in E. unfold S_DOT in E.
  destruct C as [|c [|c' r]]; try discriminate. cbn [map] in E. injection E as E.
  pose proof (gch_dot c) as G. rewrite E in G. cbn in G. symmetry in G. apply N.eqb_eq in G. subst c.
  discriminate.
Qed.

Lemma nkey_rev_noslash C : clean C = true -> slash C = C -> is_prefix [SL] (rev (nkey C)) = false.
Proof.
  intros H Hs. pose proof (is_prefix_sl_rev_clean C H) as Hr.
  unfold nkey. rewrite Hs. unfold fold. rewrite <- map_rev.
  destruct (rev C) as [|x r]; [reflexivity|]. cbn [map is_prefix] in *. rewrite andb_true_r in *.
  rewrite N.eqb_sym, foldc_sl, N.eqb_sym. exact Hr.
Qed.

(** * the folder a member is asked to walk *)
Lemma folder_ops_nonorm_rstrip l : folder_ops_ok l = true -> uses_norm l = false -> has_rstrip l = true.
Proof.
  unfold folder_ops_ok. intros H Hu. rewrite Hu in H. rewrite <- (has_rstrip_after_norm l).
  destruct (split_sf (after_norm l)) as [a t] eqn:E. apply split_sf_spec in E as [E Hsf]. rewrite E, (has_rstrip_sf a t Hsf).
  apply andb_true_iff in H as [_ Ht]. repeat (destruct t as [|[] t]; try discriminate); reflexivity.
Qed.

Lemma folder_key_clean b C :
  folder_ops_ok (b_wfolder b) = true ->
  clean C = true -> slash C = C -> folder_key b C = nkey C /\ folder_key b (C ++ [SL]) = nkey C.
Proof.
  intros Hfo H Hs. pose proof (folder_ops_nonorm_rstrip (b_wfolder b) Hfo) as Hrs. unfold folder_key, uses_norm in *.
  assert (Hs' : slash (C ++ [SL]) = C ++ [SL]) by (unfold slash in *; rewrite map_app, Hs; reflexivity).
  assert (Hk : nkey (C ++ [SL]) = nkey C ++ [SL]) by (rewrite nkey_app; reflexivity).
  pose proof (rstrip_noslash _ (nkey_rev_noslash C H Hs)) as Hr.
  destruct (norm_kind (b_wfolder b)); [rewrite (Hrs eq_refl)|destruct (has_rstrip (b_wfolder b))..];
    cbn [prenorm]; rewrite ?Hs, ?Hs', ?(clean_normpath C H), ?(normpath_trailing C H),
    ?Hk, ?rstrip_snoc, ?(nkey_not_dot C H), ?Hr; split; reflexivity.
Qed.

(** * one member *)
(** A prefix is empty or a clean relative path (with either slash). *)
Definition okp (p : str) : Prop := p = [] \/ (clean p = true /\ clean (slash p) = true).
Definition sound_member (m : member) : Prop :=
  exists b fs p, m = member_of b fs p /\ walk_ok b = true /\ backend_keys_ok b = true /\ clean_fs fs = true /\ okp p.

(** the folded name [K] lies under prefix [p], with [R] the part below the prefix *)
Definition under (p K R : str) : Prop := (p = [] /\ K = R) \/ (p <> [] /\ K = nkey p ++ SL :: R).
(** the folder key of "prefix joined with folder" *)
Definition gkey (p folder : str) : str :=
  match p, folder with
  | [], _ => nkey folder
  | _ :: _, [] => nkey p
  | _ :: _, _ :: _ => nkey p ++ SL :: nkey folder
  end.

Lemma nkey_nil_inv s : nkey s = [] -> s = [].
Proof. rewrite nkey_map. destruct s; [reflexivity|discriminate]. Qed.

Lemma slash_app_sep a b : slash a ++ SL :: slash b = slash (a ++ SL :: b).
Proof. unfold slash. rewrite map_app. reflexivity. Qed.

(** "a/b" for relative paths either of which may be empty: the shape of [gkey] (on keys), of [FsChainWalkGen.xkey] (on
    names as stored) and of the name a member is asked for. *)
Definition pj (a b : str) : str :=
  match a, b with [], _ => b | _ :: _, [] => a | _ :: _, _ :: _ => a ++ SL :: b end.

Lemma gkey_pj p folder : gkey p folder = pj (nkey p) (nkey folder).
Proof. destruct p, folder; reflexivity. Qed.

Lemma nkey_pj a b : nkey (pj (slash a) (slash b)) = pj (nkey a) (nkey b).
Proof.
  destruct a as [|x a], b as [|y b]; [reflexivity|exact (nkey_slash (y :: b))|exact (nkey_slash (x :: a))|].
  change (nkey (slash (x :: a) ++ SL :: slash (y :: b)) = nkey (x :: a) ++ SL :: nkey (y :: b)).
  rewrite nkey_sep, !nkey_slash. reflexivity.
Qed.

(** inside "P/F" = "P/" followed by something inside F *)
Lemma path_prefix_pj P F K :
  P <> [] -> (path_prefix (pj P F) K <-> exists R, K = P ++ SL :: R /\ path_prefix F R).
Proof.
  unfold path_prefix. intros HP. destruct P as [|x P']; [congruence|]. destruct F as [|y F']; cbn [pj]; split.
  - intros [E|[r ->]]; [discriminate|]. exists r. split; [reflexivity|left; reflexivity].
  - intros [R [-> _]]. right. exists R. reflexivity.
  - intros [E|[r ->]]; [discriminate|]. exists (y :: F' ++ SL :: r).
    split; [rewrite <- app_assoc; reflexivity|right; exists r; reflexivity].
  - intros [R [-> [E|[r ->]]]]; [discriminate|]. right. exists r. rewrite <- app_assoc. reflexivity.
Qed.

Lemma path_prefix_nkey G k : path_prefix G k -> path_prefix (nkey G) (nkey k).
Proof. intros [->|[r ->]]; [left; reflexivity|right; exists (nkey r); apply nkey_sep]. Qed.

(** For an empty or clean prefix and a clean [q], "prefix joined with q" is a clean name with '/' only ... *)
Lemma full_name_pj p q : okp p -> clean q = true -> full_name p q = pj (slash p) (slash q).
Proof.
  intros [->|[Hp _]] Hq; [exact (chain_no_prefix q)|].
  rewrite (chain_prefix_relative p q Hp (clean_no_lead_slash q Hq)).
  destruct p; [discriminate|]. destruct q; [discriminate|]. reflexivity.
Qed.

Lemma pj_clean p q :
  okp p -> clean (slash q) = true ->
  clean (pj (slash p) (slash q)) = true /\ slash (pj (slash p) (slash q)) = pj (slash p) (slash q).
Proof.
  intros [->|[Hp Hsp]] Hq; [split; [exact Hq|exact (slash_idem q)]|].
  destruct p as [|x p]; [discriminate|]. destruct q as [|y q]; [discriminate|].
  change (pj (slash (x :: p)) (slash (y :: q))) with (slash (x :: p) ++ SL :: slash (y :: q)).
  split; [rewrite clean_app, Hsp, Hq; reflexivity|rewrite slash_app_sep; apply slash_idem].
Qed.

(** ... so a function of the folder argument that, like the backends' folder operations, maps a clean C and "C/" to
    [k C] maps "prefix joined with folder" to [k] of the joined path. *)
Lemma full_name_folder (g k : str -> str) p folder :
  g [] = k [] -> (forall C, clean C = true -> slash C = C -> g C = k C /\ g (C ++ [SL]) = k C) ->
  okp p -> okp folder -> g (full_name p folder) = k (pj (slash p) (slash folder)).
Proof.
  intros H0 HC Hp [->|[Hf Hsf]].
  - destruct Hp as [->|[Hp Hsp]]; [exact H0|].
    rewrite (chain_prefix_relative p [] Hp eq_refl). destruct p; [discriminate|]. exact (proj2 (HC _ Hsp (slash_idem _))).
  - rewrite (full_name_pj p folder Hp Hf). destruct (pj_clean p folder Hp Hsf) as [Hc Hs]. exact (proj1 (HC _ Hc Hs)).
Qed.

Lemma member_folder_key b p folder :
  folder_ops_ok (b_wfolder b) = true ->
  okp p -> okp folder -> folder_key b (full_name p folder) = gkey p folder.
Proof.
  intros Hfo Hp Hf. rewrite gkey_pj, <- nkey_pj.
  exact (full_name_folder (folder_key b) nkey p folder (folder_key_empty b) (fun C => folder_key_clean b C Hfo) Hp Hf).
Qed.

Lemma gkey_iff p folder K :
  path_prefix (gkey p folder) K <-> exists R, under p K R /\ path_prefix (nkey folder) R.
Proof.
  rewrite gkey_pj. unfold under. destruct p as [|x p'].
  - split.
    + intros H. exists K. split; [left; split; reflexivity|exact H].
    + intros [R [[[_ ->]|[Hn _]] H]]; [exact H|congruence].
  - rewrite path_prefix_pj by (intros E; apply nkey_nil_inv in E; discriminate). split.
    + intros [R [-> HR]]. exists R. split; [right; split; [discriminate|reflexivity]|exact HR].
    + intros [R [[[E _]|[_ ->]] HR]]; [discriminate|]. exists R. split; [reflexivity|exact HR].
Qed.

(** What a sound member lists for "prefix joined with folder". *)
Lemma walk_member b fs p folder e :
  walk_ok b = true -> clean_fs fs = true -> okp p -> okp folder ->
  (In e (walk b fs (full_name p folder)) <->
   In e (entries b fs) /\ exists R, under p (nkey (fst e)) R /\ path_prefix (nkey folder) R).
Proof.
  intros Hw Hc Hp Hf. rewrite (walk_exact b fs _ e Hw Hc), (member_folder_key b p folder (walk_ok_folder b Hw) Hp Hf), (gkey_iff p folder).
  reflexivity.
Qed.

Lemma drop_segs_nil orig : clean_name orig = true -> drop_segs orig [] = orig.
Proof. intros H. unfold drop_segs. cbn. rewrite join_split. apply clean_name_slash. exact H. Qed.

Lemma slash_sep_clean a b : clean_name b = true -> slash (slash a ++ SL :: b) = slash a ++ SL :: b.
Proof. intros Hb. rewrite <- slash_app_sep, slash_idem, (clean_name_slash b Hb). reflexivity. Qed.

Lemma drop_segs_exact p rest :
  clean (slash p) = true -> clean_name rest = true -> drop_segs (slash p ++ SL :: rest) p = rest.
Proof.
  intros Hp Hr. unfold drop_segs.
  rewrite (slash_sep_clean p rest Hr), (clean_nonempty_segs _ Hp), split_app_sep, skipn_length_app, join_split. reflexivity.
Qed.

(** The listed name [r] of a stored file lying under the prefix: clean, its key is the part below the prefix. *)
Lemma listed_name orig p R :
  clean_name orig = true -> okp p -> under p (nkey orig) R ->
  clean_name (drop_segs orig p) = true /\ nkey (drop_segs orig p) = R.
Proof.
  intros Ho [->|[Hp Hsp]] [[Hpe HK]|[Hpn HK]]; try congruence.
  - rewrite (drop_segs_nil orig Ho). split; [exact Ho|exact HK].
  - exfalso. subst p. discriminate.
  - destruct (drop_segs_suffix orig p Ho Hsp) as [A [HA HnA]].
    { apply is_prefix_spec. exists R. rewrite HK, <- app_assoc. reflexivity. }
    split.
    + unfold clean_name in *. apply andb_true_iff in Ho as [Hc Hb]. rewrite HA in Hc, Hb.
      rewrite clean_app in Hc. apply andb_true_iff in Hc as [_ Hc]. rewrite forallb_app in Hb.
      apply andb_true_iff in Hb as [_ Hb]. cbn [forallb] in Hb. apply andb_true_iff in Hb as [_ Hb].
      rewrite Hc, Hb. reflexivity.
    + rewrite HA, nkey_sep, HnA in HK at 1. apply app_inv_head in HK. injection HK as HK. exact HK.
Qed.

(** The name a member is asked for, for a clean listed name [r], is "prefix/r": clean with '/' only, its key is the key
    under the prefix with rest [nkey r], and dropping the prefix's segments gives [r] back. *)
Section ListedName.
  Variables p r : str.
  Hypothesis (Hp : okp p) (Hr : clean_name r = true).

  Lemma clean_name_clean : clean r = true.
  Proof using Hr. unfold clean_name in Hr. apply andb_true_iff in Hr as [H _]. exact H. Qed.

  Lemma full_name_name : full_name p r = pj (slash p) r.
  Proof using Hp Hr. rewrite (full_name_pj p r Hp clean_name_clean), (clean_name_slash r Hr). reflexivity. Qed.

  Lemma name_pj_clean : clean (pj (slash p) r) = true /\ slash (pj (slash p) r) = pj (slash p) r.
  Proof using Hp Hr.
    rewrite <- (clean_name_slash r Hr). apply (pj_clean p r Hp). rewrite (clean_name_slash r Hr). exact clean_name_clean.
  Qed.

  Lemma name_pj_norm : normpath (slash (pj (slash p) r)) = pj (slash p) r.
  Proof using Hp Hr. destruct name_pj_clean as [Hc Hs]. rewrite Hs. apply clean_normpath. exact Hc. Qed.

  Lemma under_pj : under p (nkey (pj (slash p) r)) (nkey r).
  Proof using Hr.
    clear Hp. destruct p as [|x p']; [left; split; reflexivity|]. destruct r as [|y r']; [discriminate|].
    right. split; [discriminate|]. change (pj (slash (x :: p')) (y :: r')) with (slash (x :: p') ++ SL :: y :: r').
    rewrite nkey_sep, nkey_slash. reflexivity.
  Qed.

  Lemma drop_segs_pj : drop_segs (pj (slash p) r) p = r.
  Proof using Hp Hr.
    destruct Hp as [->|[Hc Hsp]]; [exact (drop_segs_nil r Hr)|].
    destruct p as [|x p']; [discriminate|]. destruct r as [|y r']; [discriminate|]. exact (drop_segs_exact _ _ Hsp Hr).
  Qed.

  Lemma full_name_listed : stable (full_name p r) /\ under p (nkey (full_name p r)) (nkey r).
  Proof using Hp Hr.
    rewrite full_name_name. destruct name_pj_clean as [Hc Hs].
    split; [split; [|rewrite Hs]; apply clean_normpath; exact Hc|exact under_pj].
  Qed.
End ListedName.

Lemma under_fun p K K' R : under p K R -> under p K' R -> K = K'.
Proof. intros [[Hp ->]|[Hp ->]] [[Hp' ->]|[Hp' ->]]; congruence. Qed.

(** Asking a sound member for a clean name: the specification's file for prefix/name. *)
Lemma asks_member b fs p r :
  backend_keys_ok b = true -> clean_fs fs = true -> okp p -> clean_name r = true ->
  asks r (member_of b fs p) = spec_lookup fs (full_name p r).
Proof.
  intros Hk Hc Hp Hr. unfold asks. cbn [member_of m_lookup m_prefix].
  apply backend_keys_ok_inv in Hk as [Hs [Hg _]].
  apply lookup_spec; try assumption. apply (full_name_listed p r Hp Hr).
Qed.

(** ... so it serves [g] exactly when [g] is the surviving file of its key and that key is prefix "/" fold(name). *)
Lemma asks_member_iff b fs p r g :
  backend_keys_ok b = true -> clean_fs fs = true -> okp p -> clean_name r = true ->
  (asks r (member_of b fs p) = Some g <-> spec_lookup fs (fst g) = Some g /\ under p (nkey (fst g)) (nkey r)).
Proof.
  intros Hk Hc Hp Hr. rewrite (asks_member b fs p r Hk Hc Hp Hr).
  destruct (full_name_listed p r Hp Hr) as [_ Hun]. split.
  - intros H. destruct (spec_lookup_sound _ _ _ H) as [_ E]. rewrite E. split; [|exact Hun].
    rewrite <- H. apply spec_lookup_variant. exact E.
  - intros [H Hg]. rewrite <- H. apply spec_lookup_variant. exact (under_fun p _ _ _ Hun Hg).
Qed.

(** * the de-duplicated walk *)
Lemma flat_map_split {A B} (f : A -> list B) ms l1 x l2 :
  flat_map f ms = l1 ++ x :: l2 ->
  exists pre m post a b, ms = pre ++ m :: post /\ f m = a ++ x :: b /\ l1 = flat_map f pre ++ a.
Proof.
  revert l1. induction ms as [|m ms IH]; intros l1 H; cbn [flat_map] in H.
  - destruct l1; discriminate.
  - apply app_eq_app in H as [l [[H1 H2]|[H1 H2]]].
    + (* f m = l1 ++ l, x :: l2 = l ++ flat_map f ms *)
      destruct l as [|z l].
      * cbn [app] in H2. rewrite app_nil_r in H1. symmetry in H2.
        destruct (IH [] H2) as [pre [m' [post [a [b [-> [Hf Hl]]]]]]].
        exists (m :: pre), m', post, a, b. repeat split; [exact Hf|].
        cbn [flat_map]. rewrite <- app_assoc, <- Hl, app_nil_r. symmetry. exact H1.
      * cbn [app] in H2. injection H2 as <- H2. exists [], m, ms, l1, l. repeat split. exact H1.
    + (* l1 = f m ++ l, flat_map f ms = l ++ x :: l2 *)
      destruct (IH l H2) as [pre [m' [post [a [b [-> [Hf Hl]]]]]]].
      exists (m :: pre), m', post, a, b. repeat split; [exact Hf|].
      cbn [flat_map]. rewrite H1, Hl, app_assoc. reflexivity.
Qed.

Definition dedup_ops_ok (l : list sop) : bool := forallb is_sf l && has_fold l.
Lemma dedup_key l s : dedup_ops_ok l = true -> clean_name s = true -> apply_ops l s = nkey s.
Proof.
  unfold dedup_ops_ok. intros H Hs. apply andb_true_iff in H as [H Hf]. exact (apply_sf_fold_clean l s H Hf Hs).
Qed.

Example compose_premises_satisfiable :
  okp [] /\ okp [109; 97; 116] /\ okp [77; 92; 120] /\ dedup_ops_ok [OFold] = true.
Proof. repeat split; try (left; reflexivity); right; split; reflexivity. Qed.
