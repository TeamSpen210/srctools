(** Source-shaped models for property C07: the glue around the index-maintaining functions, as written —
    read off vmf.py by translate/c07_index_glue.py on every run (Gen/IndexGlue_gen.v):

    - [VMF.__init__] (the statements that create the indexes, the entity list and the worldspawn), the worldspawn
      replacement and the entity loop of [VMF.parse], and [VMF.create_ent], as straight-line statement lists
      ([gstmt]) over the map state with one local (the entity the function constructs);
    - the constructor [Entity.__init__] (how the key dict is created and filled) and [Entity.copy] (which keys and
      which map the copy is constructed with) as shapes;
    - [Entity.pop] as a lookup-loop shape;
    - [Entity.make_unique] as a shape: which name is looked up where (folded or not), whether the entity takes itself
      out of the name index before searching, how the candidate numbers are counted.

    Executable definitions only; proofs are in IndexGlueProofs.v. *)
From stdpp Require Import gmap sets list.
From Coq Require Import NArith.
From SV Require Import SM.IndexModel SM.IndexShapes.

(** ** VMF-level glue *)
Inductive gref := GRSpawn            (* <map>.spawn, evaluated where it stands *)
                | GRLoc.             (* the local bound to the entity this function constructed *)
Inductive gtk := GTNone              (* None *)
               | GTCur (r : gref).   (* r['targetname'].casefold() or None *)
Inductive gksrc := GKNone            (* Entity(map) *)
                 | GKArg             (* Entity(map, keys=<argument>) / Entity.parse(map, <block>) *)
                 | GKArgClass.       (* kargs['classname'] = classname; Entity(map, keys=kargs) *)
Inductive gstmt :=
| GFreshClass | GFreshTarget         (* <map>.by_class / by_target = defaultdict(CopySet) *)
| GFreshEnts                         (* <map>.entities = [] *)
| GNewEnt (src : gksrc)              (* local = Entity(...) *)
| GAssignSpawn                       (* <map>.spawn = local *)
| GSetItem (r : gref) (k v : str)    (* r['<k>'] = '<v>' *)
| GRemClass (k : str) (r : gref)     (* _remove_copyset(<map>.by_class, '<k>', r) *)
| GRemTarget (k : gtk) (r : gref)    (* _remove_copyset(<map>.by_target, k, r) *)
| GAddTarget (k : gtk) (r : gref)    (* <map>.by_target[k].add(r) *)
| GAddEnt (r : gref).                (* <map>.add_ent(r) *)

Global Instance gref_eq_dec : EqDecision gref. Proof. solve_decision. Defined.
Global Instance gtk_eq_dec : EqDecision gtk. Proof. solve_decision. Defined.
Global Instance gksrc_eq_dec : EqDecision gksrc. Proof. solve_decision. Defined.
Global Instance gstmt_eq_dec : EqDecision gstmt. Proof. solve_decision. Defined.

(** the state before anything is assigned *)
Definition blank : mstate := MS ∅ 0 [] 0 ∅ ∅.

(** ** Entity-level shapes *)
Inductive ei_how := EISetItemLoop    (* for k, v in keys.items(): self[k] = v *)
                  | EIDirect         (* the key dict is filled directly (update / dict(keys)) *)
                  | EINone.
Record einit_shape := EI {
  ei_fresh_dict : bool;              (* self._keys is a new empty dict before the keys go in *)
  ei_map_first : bool;               (* self.map is assigned before the first store through self[...] *)
  ei_store : ei_how;
}.
Record copy_shape := CP {
  cp_own_keys : bool;                (* keys=self._keys *)
  cp_map_arg_or_own : bool;          (* vmf_file=vmf_file or self.map *)
  cp_through_init : bool;            (* the copy is constructed by Entity(...) *)
}.
Inductive pop_del := PDelStored      (* del self[k] for the stored key k *)
                   | PDelCaller      (* del self[key] for the (folded) key asked for *)
                   | PKeysPop.       (* self._keys.pop(k): the indexes are not told *)
Record pop_shape := PS { ps_fold_stored : bool; ps_key_folded : bool; ps_del : pop_del }.

Record mu_shape := MU {
  mu_fold_unique : bool;             (* by_target[orig_name.casefold()] == {self} *)
  mu_unique_is_self_only : bool;     (* ... compared with {self} (not: merely non-empty) *)
  mu_clears_first : bool;            (* self['targetname'] = '' before the search (named entity) *)
  mu_unnamed_prefix : bool;          (* the unnamed entity searches from the prefix argument *)
  mu_strips : bool;                  (* base_name = orig_name.rstrip('0123456789') *)
  mu_fold_base : bool;               (* by_target[base_name.casefold()] *)
  mu_start : N;                      (* i = <start> *)
  mu_step : N;                       (* i += <step> *)
  mu_fold_cand : bool;               (* by_target[name.casefold()] *)
  mu_cand_is_base_plus_number : bool;  (* name = base_name + str(i) *)
  mu_stores_through_setitem : bool;  (* the name found (and the free base name) is stored with self['targetname'] = ... *)
}.

Section glue.
  Variable fold : str → str.

  Record genv := GE { g_keys : kvs; g_cls : str }.
  Definition g_ref (r : gref) (loc : nat) (st : mstate) : nat := match r with GRSpawn => spawn st | GRLoc => loc end.
  Definition g_tk (k : gtk) (loc : nat) (st : mstate) : option str :=
    match k with GTNone => None | GTCur r => tgt_of fold st (g_ref r loc st) end.
  Definition g_src (s : gksrc) (env : genv) : kvs :=
    match s with GKNone => [] | GKArg => g_keys env | GKArgClass => dset cn (g_cls env) (g_keys env) end.

  Definition g_step (s : gstmt) (env : genv) (loc : nat) (st : mstate) : mstate * nat :=
    match s with
    | GFreshClass => (MS (objs st) (nobj st) (ents st) (spawn st) ∅ (by_target st), loc)
    | GFreshTarget => (MS (objs st) (nobj st) (ents st) (spawn st) (by_class st) ∅, loc)
    | GFreshEnts => (with_ents [] st, loc)
    | GNewEnt src => (new_ent fold (g_src src env) st, nobj st)
    | GAssignSpawn => (MS (objs st) (nobj st) (ents st) loc (by_class st) (by_target st), loc)
    | GSetItem r k v => ((set_item fold (g_ref r loc st) k v st).1, loc)
    | GRemClass k r => (upd_class (ix_remove k (g_ref r loc st)) st, loc)
    | GRemTarget k r => (upd_target (ix_remove (g_tk k loc st) (g_ref r loc st)) st, loc)
    | GAddTarget k r => (upd_target (ix_add (g_tk k loc st) (g_ref r loc st)) st, loc)
    | GAddEnt r => (add_ent fold (g_ref r loc st) st, loc)
    end.
  Fixpoint g_steps (l : list gstmt) (env : genv) (loc : nat) (st : mstate) : mstate :=
    match l with
    | [] => st
    | s :: r => let '(st1, loc1) := g_step s env loc st in g_steps r env loc1 st1
    end.
  Definition g_run (l : list gstmt) (env : genv) (st : mstate) : mstate := g_steps l env 0 st.
  Definition env0 : genv := GE [] [].

  (** *** VMF.__init__: obligations *)
  Definition is_fresh (s : gstmt) : bool :=
    match s with GFreshClass | GFreshTarget | GFreshEnts => true | _ => false end.
  Fixpoint g_prefix (l : list gstmt) : list gstmt :=
    match l with s :: r => if is_fresh s then s :: g_prefix r else [] | [] => [] end.
  Fixpoint g_rest (l : list gstmt) : list gstmt :=
    match l with s :: r => if is_fresh s then g_rest r else l | [] => [] end.
  Definition has (s : gstmt) (l : list gstmt) : bool := bool_decide (s ∈ l).
  (** the indexes and the entity list exist (and are empty) before the worldspawn is made *)
  Definition vmf_init_containers_first (l : list gstmt) : bool :=
    has GFreshClass (g_prefix l) && has GFreshTarget (g_prefix l) && has GFreshEnts (g_prefix l).
  (** then: a new entity without keys becomes the spawn, is classed 'worldspawn' through __setitem__ (which files it
      in by_class), and is filed under no name *)
  Definition vmf_init_spawn_ok (l : list gstmt) : bool :=
    match g_rest l with
    | [GNewEnt GKNone; GAssignSpawn; GSetItem _ k v; GAddTarget GTNone _] => bool_decide (k = cn) && bool_decide (v = ws)
    | [GNewEnt GKNone; GAssignSpawn; GAddTarget GTNone _; GSetItem _ k v] => bool_decide (k = cn) && bool_decide (v = ws)
    | _ => false
    end.
  Definition vmf_init_ok (l : list gstmt) : bool := vmf_init_containers_first l && vmf_init_spawn_ok l.

  (** *** VMF.parse, the worldspawn replacement: the parsed world block becomes an entity, the placeholder leaves both
      indexes *before* the spawn is replaced, the new spawn is classed through __setitem__ and then filed under its
      current name *)
  Definition is_rem_class_old (s : gstmt) : bool :=
    match s with GRemClass k GRSpawn => bool_decide (k = ws) | _ => false end.
  Definition is_rem_target_old (s : gstmt) : bool :=
    match s with GRemTarget GTNone GRSpawn => true | _ => false end.
  Definition parse_drops_the_placeholder (l : list gstmt) : bool :=
    match l with
    | GNewEnt GKArg :: a :: b :: GAssignSpawn :: _ =>
        (is_rem_class_old a && is_rem_target_old b) || (is_rem_target_old a && is_rem_class_old b)
    | _ => false
    end.
  Definition parse_files_the_new_spawn (l : list gstmt) : bool :=
    match l with
    | [_; _; _; GAssignSpawn; GSetItem _ k v; GAddTarget (GTCur _) _] => bool_decide (k = cn) && bool_decide (v = ws)
    | [_; _; _; GAssignSpawn; GAddTarget (GTCur _) _; GSetItem _ k v] => bool_decide (k = cn) && bool_decide (v = ws)
    | _ => false
    end.
  Definition parse_spawn_ok (l : list gstmt) : bool := parse_drops_the_placeholder l && parse_files_the_new_spawn l.
  (** the entity loop: every entity block is parsed into an entity and added through add_ent *)
  Definition parse_ent_ok (l : list gstmt) : bool := bool_decide (l = [GNewEnt GKArg; GAddEnt GRLoc]).
  (** VMF.create_ent *)
  Definition create_ent_ok (l : list gstmt) : bool := bool_decide (l = [GNewEnt GKArgClass; GAddEnt GRLoc]).

  Definition vmf_init_today : list gstmt :=
    [GFreshTarget; GFreshClass; GFreshEnts; GNewEnt GKNone; GAssignSpawn; GSetItem GRSpawn cn ws; GAddTarget GTNone GRSpawn].
  Definition parse_spawn_today : list gstmt :=
    [GNewEnt GKArg; GRemClass ws GRSpawn; GRemTarget GTNone GRSpawn; GAssignSpawn; GSetItem GRLoc cn ws;
     GAddTarget (GTCur GRLoc) GRLoc].
  Definition glue_ent_today : list gstmt := [GNewEnt GKArg; GAddEnt GRLoc].
  Definition create_ent_today : list gstmt := [GNewEnt GKArgClass; GAddEnt GRLoc].
  (** faulty shapes: the constructor forgets to file the spawn under no name; parse replaces the spawn before it takes
      the placeholder out (so the *new* spawn is discarded from sets it is not in and the placeholder stays) *)
  Definition vmf_init_forgets_target : list gstmt :=
    [GFreshTarget; GFreshClass; GFreshEnts; GNewEnt GKNone; GAssignSpawn; GSetItem GRSpawn cn ws].
  Definition parse_spawn_assign_first : list gstmt :=
    [GNewEnt GKArg; GAssignSpawn; GRemClass ws GRSpawn; GRemTarget GTNone GRSpawn; GSetItem GRLoc cn ws;
     GAddTarget (GTCur GRLoc) GRLoc].

  (** VMF.parse as written: constructor, worldspawn replacement, entity loop *)
  Definition parse_pg (pi ps pe : list gstmt) (spawn_keys : kvs) (ent_keys : list kvs) : mstate :=
    foldl (λ st l, g_run pe (GE l []) st) (g_run ps (GE spawn_keys []) (g_run pi env0 blank)) ent_keys.

  (** *** Entity.__init__ / Entity.copy *)
  Definition new_ent_sh (sh : einit_shape) (l : kvs) (st : mstate) : mstate :=
    match ei_store sh with
    | EISetItemLoop => (update fold (nobj st) l (new_obj st)).1
    | EIDirect => with_keys (nobj st) l (new_obj st)
    | EINone => new_obj st
    end.
  Definition einit_ok (sh : einit_shape) : bool :=
    ei_fresh_dict sh && ei_map_first sh && match ei_store sh with EISetItemLoop => true | _ => false end.
  Definition copy_ok (sh : copy_shape) : bool := cp_own_keys sh && cp_map_arg_or_own sh && cp_through_init sh.
  Definition einit_today : einit_shape := EI true true EISetItemLoop.
  Definition einit_direct : einit_shape := EI true true EIDirect.
  Definition copy_today : copy_shape := CP true true true.

  (** *** Entity.pop *)
  Definition pop_item_sh (sh : pop_shape) (e : nat) (key : str) (st : mstate) : mstate * nat :=
    let kf := if ps_key_folded sh then fold key else key in
    let l := keys_of st e in
    match first_match (λ k, bool_decide ((if ps_fold_stored sh then fold k else k) = kf)) l with
    | Some k0 => match ps_del sh with
                 | PDelStored => del_item fold e k0 st
                 | PDelCaller => del_item fold e kf st
                 | PKeysPop => (with_keys e (kv_del fold (fold k0) l) st, 0)
                 end
    | None => (st, 0)
    end.
  Definition pop_lookup_is_case_insensitive (sh : pop_shape) : bool := ps_fold_stored sh && ps_key_folded sh.
  Definition pop_deletes_through_delitem (sh : pop_shape) : bool :=
    match ps_del sh with PKeysPop => false | _ => true end.
  Definition pop_ok (sh : pop_shape) : bool := pop_lookup_is_case_insensitive sh && pop_deletes_through_delitem sh.
  Definition pop_today : pop_shape := PS true true PDelStored.
  Definition pop_direct : pop_shape := PS true true PKeysPop.

  (** *** Entity.make_unique *)
  Definition pk (b : bool) (s : str) : option str := Some (if b then fold s else s).
  Fixpoint free_name_sh (fc : bool) (step : N) (fuel : nat) (i : N) (base : str) (bt : gmap (option str) (gset nat)) : option str :=
    match fuel with
    | O => None
    | S f => let name := base ++ dec i in
             if decide (ix_get bt (pk fc name) = ∅) then Some name else free_name_sh fc step f (i + step)%N base bt
    end.
  Definition make_unique_sh (sh : mu_shape) (e : nat) (prefix : str) (st : mstate) : mstate * nat :=
    let orig := default [] (kv_find fold tn (keys_of st e)) in
    let alone := if mu_unique_is_self_only sh then bool_decide (ix_get (by_target st) (pk (mu_fold_unique sh) orig) = {[e]})
                 else bool_decide (ix_get (by_target st) (pk (mu_fold_unique sh) orig) ≠ ∅) in
    if bool_decide (orig ≠ []) && alone then (st, 0)
    else
      let '(st1, er1) := if decide (orig = []) then (st, 0)
                         else if mu_clears_first sh then set_item fold e tn [] st else (st, 0) in
      let from := if decide (orig = []) then (if mu_unnamed_prefix sh then prefix else []) else orig in
      let base := if mu_strips sh then rstrip_digits from else from in
      if decide (ix_get (by_target st1) (pk (mu_fold_base sh) base) = ∅) then set_item fold e tn base st1
      else match free_name_sh (mu_fold_cand sh) (mu_step sh) (S (size (by_target st1))) (mu_start sh) base (by_target st1) with
           | Some name => set_item fold e tn name st1
           | None => (st1, 9)
           end.
  Definition mu_unique_test_ok (sh : mu_shape) : bool := mu_fold_unique sh && mu_unique_is_self_only sh.
  Definition mu_clears_ok (sh : mu_shape) : bool := mu_clears_first sh && mu_unnamed_prefix sh.
  Definition mu_base_ok (sh : mu_shape) : bool := mu_strips sh && mu_fold_base sh.
  Definition mu_loop_ok (sh : mu_shape) : bool :=
    bool_decide (mu_start sh = 1%N) && bool_decide (mu_step sh = 1%N) && mu_fold_cand sh && mu_cand_is_base_plus_number sh.
  Definition mu_ok (sh : mu_shape) : bool :=
    mu_unique_test_ok sh && mu_clears_ok sh && mu_base_ok sh && mu_loop_ok sh && mu_stores_through_setitem sh.
  Definition mu_today : mu_shape := MU true true true true true true 1 1 true true true.
  (** the candidate looked up with its own spelling: a name that is taken in another letter case is handed out again *)
  Definition mu_unfolded_cand : mu_shape := MU true true true true true true 1 1 false true true.
End glue.
