(** C18 — proofs about SM/PathNorm.v: segment algebra, normpath leaves no '..' in absolute paths,
    every guard accepted by [raise_sound] implies containment. *)
From Coq Require Import List NArith Bool Lia.
From SV Require Import SM.PathNorm.
Import ListNotations.
Open Scope N_scope.

Lemma is_sep_true c : is_sep c = true -> c = sep.
Proof. unfold is_sep. apply N.eqb_eq. Qed.

Lemma str_eqb_eq a b : str_eqb a b = true <-> a = b.
Proof.
  revert b. induction a as [|x a IH]; intros [|y b]; cbn [str_eqb]; split; intro H; try easy.
  - apply andb_true_iff in H as [H1 H2]. apply N.eqb_eq in H1. apply IH in H2. congruence.
  - inversion H; subst. apply andb_true_iff. split; [apply N.eqb_refl | now apply IH].
Qed.

Lemma str_eqb_refl a : str_eqb a a = true.
Proof. now apply str_eqb_eq. Qed.

Lemma split_nonnil s : split s <> [].
Proof. destruct s as [|c r]; cbn [split]; [easy|]. destruct (is_sep c); [easy|]. destruct (split r); easy. Qed.

Lemma split_app_sep u v : split (u ++ sep :: v) = split u ++ split v.
Proof.
  induction u as [|c u IH]; cbn [app split].
  - unfold is_sep at 1. rewrite N.eqb_refl. reflexivity.
  - destruct (is_sep c).
    + now rewrite IH.
    + rewrite IH. destruct (split u) as [|h t] eqn:E; [now apply split_nonnil in E|]. reflexivity.
Qed.

Lemma segs_app_sep u v : segs (u ++ sep :: v) = segs u ++ segs v.
Proof. unfold segs. now rewrite split_app_sep, filter_app. Qed.

Lemma segs_nil : segs [] = [].
Proof. reflexivity. Qed.

Lemma segs_sep_cons v : segs (sep :: v) = segs v.
Proof. change (sep :: v) with ([] ++ sep :: v). now rewrite segs_app_sep. Qed.

Lemma segs_snoc_sep u : segs (u ++ [sep]) = segs u.
Proof. rewrite segs_app_sep, segs_nil. apply app_nil_r. Qed.

Lemma segs_repeat_sep n v : segs (repeat sep n ++ v) = segs v.
Proof. induction n as [|n IH]; cbn [repeat app]; [easy|]. now rewrite segs_sep_cons. Qed.

Lemma segs_app_repeat_sep u n : segs (u ++ repeat sep n) = segs u.
Proof.
  destruct n as [|n]; [now rewrite app_nil_r|]. cbn [repeat].
  rewrite segs_app_sep, <- (app_nil_r (repeat sep n)), segs_repeat_sep. apply app_nil_r.
Qed.

Definition sep_free (c : str) : Prop := Forall (fun x => is_sep x = false) c.
Definition valid (c : str) : Prop := sep_free c /\ skip c = false.

Lemma split_sep_free s : Forall sep_free (split s).
Proof.
  induction s as [|c r IH]; cbn [split].
  - repeat constructor.
  - destruct (is_sep c) eqn:E.
    + constructor; [constructor | exact IH].
    + destruct (split r) as [|h t]; [repeat constructor; exact E|].
      inversion IH; subst. constructor; [constructor; assumption | assumption].
Qed.

Lemma split_of_sep_free c : sep_free c -> split c = [c].
Proof.
  induction 1 as [|x c Hx _ IH]; cbn [split]; [easy|]. now rewrite Hx, IH.
Qed.

Lemma segs_valid_all p : Forall valid (segs p).
Proof.
  unfold segs. apply Forall_forall. intros c Hc. apply filter_In in Hc as [Hin Hs].
  split.
  - pose proof (split_sep_free p) as H. rewrite Forall_forall in H. now apply H.
  - now apply negb_true_iff in Hs.
Qed.

Lemma segs_single c : valid c -> segs c = [c].
Proof. intros [Hf Hs]. unfold segs. rewrite (split_of_sep_free c Hf). cbn [filter]. now rewrite Hs. Qed.

Lemma segs_join l : Forall valid l -> segs (join l) = l.
Proof.
  induction 1 as [|c l Hc Hl IH]; [easy|].
  cbn [join]. destruct l as [|d l']; [now apply segs_single|].
  rewrite segs_app_sep, IH, (segs_single c Hc). reflexivity.
Qed.

Lemma prefixb_app pre s : prefixb pre s = true -> exists rest, s = pre ++ rest.
Proof.
  revert s. induction pre as [|x pre IH]; intros s H; [now exists s|].
  destruct s as [|y s]; [easy|]. cbn [prefixb] in H. apply andb_true_iff in H as [H1 H2].
  apply N.eqb_eq in H1. subst. destruct (IH _ H2) as [r ->]. now exists r.
Qed.

Lemma ends_sep_inv s : ends_sep s = true -> exists u, s = u ++ [sep].
Proof.
  induction s as [|c r IH]; [easy|]. cbn [ends_sep]. destruct r as [|d r'].
  - intros H. apply is_sep_true in H. subst. now exists [].
  - intros H. destruct (IH H) as [u Hu]. exists (c :: u). now rewrite Hu.
Qed.

Lemma ends_sep_snoc u : ends_sep (u ++ [sep]) = true.
Proof.
  induction u as [|c u IH]; [reflexivity|]. cbn [app ends_sep].
  destruct (u ++ [sep]) eqn:E; [now destruct u|]. exact IH.
Qed.

(** If [y] ends with a separator and is a string prefix of [x], then y's segments are a prefix of x's. *)
Lemma prefix_ending_sep_segs y x :
  ends_sep y = true -> prefixb y x = true -> seg_prefix (segs y) (segs x).
Proof.
  intros He Hp. destruct (ends_sep_inv _ He) as [u ->]. destruct (prefixb_app _ _ Hp) as [rest ->].
  exists (segs rest). rewrite segs_snoc_sep, <- app_assoc. cbn [app]. apply segs_app_sep.
Qed.

Lemma rstrip_decomp s : exists n, s = rstrip_sep s ++ repeat sep n.
Proof.
  induction s as [|c r [n Hr]]; [now exists 0%nat|].
  cbn [rstrip_sep]. destruct (rstrip_sep r) as [|d r'] eqn:E.
  - cbn [app] in Hr. destruct (is_sep c) eqn:Ec.
    + apply is_sep_true in Ec. subst c. exists (S n). now rewrite Hr at 1.
    + exists n. now rewrite Hr at 1.
  - exists n. now rewrite Hr at 1.
Qed.

Lemma segs_rstrip s : segs (rstrip_sep s) = segs s.
Proof. destruct (rstrip_decomp s) as [n Hs]. rewrite Hs at 2. now rewrite segs_app_repeat_sep. Qed.

Lemma lcp_prefix_l a b : seg_prefix (lcp a b) a.
Proof.
  revert b. induction a as [|x a IH]; intros b; [now exists []|].
  destruct b as [|y b]; cbn [lcp]; [now exists (x :: a)|].
  destruct (str_eqb x y); [|now exists (x :: a)].
  destruct (IH b) as [r Hr]. exists r. cbn [app]. now rewrite <- Hr.
Qed.

Lemma lcp_prefix_r a b : seg_prefix (lcp a b) b.
Proof.
  revert b. induction a as [|x a IH]; intros b; [now exists b|].
  destruct b as [|y b]; cbn [lcp]; [now exists []|].
  destruct (str_eqb x y) eqn:E; [|now exists (y :: b)].
  apply str_eqb_eq in E. subst. destruct (IH b) as [r Hr]. exists r. cbn [app]. now rewrite <- Hr.
Qed.

Lemma lcp_valid a b : Forall valid a -> Forall valid (lcp a b).
Proof.
  intros H. revert b. induction H as [|x a Hx _ IH]; intros b; [constructor|].
  destruct b as [|y b]; cbn [lcp]; [constructor|]. destruct (str_eqb x y); [|constructor].
  constructor; [exact Hx | apply IH].
Qed.

Lemma segs_commonpath2 a b : segs (commonpath2 a b) = lcp (segs a) (segs b).
Proof.
  unfold commonpath2. assert (H : Forall valid (lcp (segs a) (segs b))) by (apply lcp_valid, segs_valid_all).
  destruct (is_abs a); cbn [app]; [rewrite segs_sep_cons|]; now apply segs_join.
Qed.

(** components as normpath leaves them in an absolute path: real names, no '..' *)
Definition resolved (l : list str) : Prop := Forall (fun d => valid d /\ is_dotdot d = false) l.
Lemma resolved_valid l : resolved l -> Forall valid l.
Proof. apply Forall_impl. now intros d [H _]. Qed.
Lemma resolved_no_dotdot l : resolved l -> no_dotdot l.
Proof. apply Forall_impl. now intros d [_ H]. Qed.

Lemma norm_step_inv c acc :
  sep_free c ->
  resolved acc ->
  resolved (norm_step true acc c).
Proof.
  intros Hc Hacc. unfold norm_step. destruct (skip c) eqn:Es; [exact Hacc|].
  destruct (is_dotdot c) eqn:Ed.
  - destruct acc as [|t r]; [constructor|]. inversion Hacc as [|? ? [_ Ht] Hr]; subst.
    rewrite Ht. exact Hr.
  - constructor; [|exact Hacc]. repeat split; assumption.
Qed.

Lemma fold_norm_inv cs acc :
  Forall sep_free cs ->
  resolved acc ->
  resolved (fold_left (norm_step true) cs acc).
Proof.
  intros H. revert acc. induction H as [|c cs Hc _ IH]; intros acc Hacc; cbn [fold_left]; [exact Hacc|].
  apply IH. now apply norm_step_inv.
Qed.

Lemma norm_comps_abs p :
  resolved (norm_comps true (split p)).
Proof.
  unfold norm_comps. apply Forall_rev. apply fold_norm_inv; [apply split_sep_free | constructor].
Qed.

Lemma lead_slashes_abs p : is_abs p = true -> (1 <= lead_slashes p)%nat.
Proof.
  destruct p as [|a r1]; [easy|]. cbn [is_abs starts_sep lead_slashes]. intros ->.
  destruct r1 as [|b r2]; [lia|]. destruct (is_sep b); [|lia].
  destruct r2 as [|c r3]; [lia|]. destruct (is_sep c); lia.
Qed.

(** Shape of normpath on an absolute path: 1 or 2 slashes, then the joined, fully resolved components. *)
Lemma normpath_abs_shape p : is_abs p = true ->
  exists n, (1 <= n)%nat /\ normpath p = repeat sep n ++ join (norm_comps true (split p)).
Proof.
  intros Ha. pose proof (lead_slashes_abs p Ha) as Hn.
  destruct p as [|a r]; [easy|]. unfold normpath.
  set (n := lead_slashes (a :: r)) in *. exists n. split; [exact Hn|].
  destruct n as [|n']; [lia|]. reflexivity.
Qed.

Lemma normpath_abs_is_abs p : is_abs p = true -> is_abs (normpath p) = true.
Proof.
  intros Ha. destruct (normpath_abs_shape p Ha) as (n & Hn & ->).
  destruct n; [lia|]. reflexivity.
Qed.

Lemma normpath_abs_segs p : is_abs p = true -> resolved (segs (normpath p)).
Proof.
  intros Ha. destruct (normpath_abs_shape p Ha) as (n & _ & ->). pose proof (norm_comps_abs p) as Hc.
  now rewrite segs_repeat_sep, segs_join by apply (resolved_valid _ Hc).
Qed.

Lemma normpath_abs_no_dotdot p : is_abs p = true -> no_dotdot (segs (normpath p)).
Proof. intros Ha. apply resolved_no_dotdot, normpath_abs_segs, Ha. Qed.

Lemma pjoin_abs a b : is_abs a = true -> is_abs (pjoin a b) = true.
Proof.
  intros Ha. unfold pjoin. destruct (starts_sep b) eqn:Eb; [exact Eb|].
  destruct a as [|c a']; [easy|]. destruct (ends_sep (c :: a')); exact Ha.
Qed.

Lemma abspath_abs cwd p : is_abs p = true -> abspath cwd p = normpath p.
Proof. unfold abspath. now intros ->. Qed.

Lemma abspath_arg_abs cwd p : is_abs cwd = true -> is_abs (if is_abs p then p else pjoin cwd p) = true.
Proof. intros Hc. destruct (is_abs p) eqn:E; [exact E | now apply pjoin_abs]. Qed.

Lemma abspath_is_abs cwd p : is_abs cwd = true -> is_abs (abspath cwd p) = true.
Proof. intros Hc. unfold abspath. now apply normpath_abs_is_abs, abspath_arg_abs. Qed.

Lemma abspath_no_dotdot cwd p : is_abs cwd = true -> no_dotdot (segs (abspath cwd p)).
Proof. intros Hc. unfold abspath. now apply normpath_abs_no_dotdot, abspath_arg_abs. Qed.

Lemma is_SAbs_eq x : is_SAbs x = true -> x = SAbs.
Proof. destruct x; try discriminate. reflexivity. Qed.
Lemma is_SRoot_eq x : is_SRoot x = true -> x = SRoot.
Proof. destruct x; try discriminate. reflexivity. Qed.
Lemma is_sep_lit_eq x : is_sep_lit x = true -> x = SLit [sep].
Proof. destruct x; try discriminate. cbn. intros H. apply str_eqb_eq in H. now subst. Qed.
Lemma is_empty_lit_eq x : is_empty_lit x = true -> x = SLit [].
Proof. destruct x as [| |s| | | | | | | | | | | |]; try discriminate. destruct s; [reflexivity|discriminate]. Qed.

Lemma abs_like_segs e x : abs_like x = true -> segs (seval e x) = segs (e_abs e).
Proof.
  destruct x; try discriminate; [reflexivity|]. cbn [abs_like]. intros H. apply andb_true_iff in H as [H1 H2].
  apply is_SAbs_eq in H1. apply is_sep_lit_eq in H2. subst. cbn [seval]. apply segs_snoc_sep.
Qed.

Lemma is_dot_lit_eq x : is_dot_lit x = true -> x = SLit [dotc].
Proof. destruct x; try discriminate. cbn. intros H. apply str_eqb_eq in H. now subst. Qed.

Lemma root_like_segs e x : root_like x = true -> segs (seval e x) = segs (e_root e).
Proof.
  induction x as [| | | | a IHa | | | | | | | |c IHc d IHd a IHa b IHb| |]; try discriminate; cbn [root_like]; intros H; [reflexivity| |].
  - cbn [seval]. rewrite segs_rstrip. now apply IHa.
  - apply andb_true_iff in H as [H Hb]. apply andb_true_iff in H as [H Ha]. apply andb_true_iff in H as [Hc Hd].
    apply is_dot_lit_eq in Hd. apply is_empty_lit_eq in Ha. subst. cbn [seval].
    destruct (str_eqb (seval e c) [dotc]) eqn:E.
    + apply str_eqb_eq in E. rewrite <- (IHc Hc), E. reflexivity.
    + now apply IHb.
Qed.

Lemma root_cat_sep_sem e r s : root_like r = true -> is_sep_lit s = true ->
  ends_sep (seval e (SCat r s)) = true /\ segs (seval e (SCat r s)) = segs (e_root e).
Proof.
  intros Hr Hs. apply is_sep_lit_eq in Hs. subst. cbn [seval].
  split; [apply ends_sep_snoc|]. rewrite segs_snoc_sep. now apply root_like_segs.
Qed.

(** what a recognised prefix expression evaluates to: a string ending in a separator with the root's segments, or the
    empty string when the root has no segments at all (the root directory itself) *)
Lemma root_sep_like_sem e y : is_abs (e_root e) = true -> root_sep_like y = true ->
  (ends_sep (seval e y) = true /\ segs (seval e y) = segs (e_root e)) \/
  (seval e y = [] /\ segs (e_root e) = []).
Proof.
  intros Hr. destruct y as [| | |r s| |r s| |c a b| | | | | |g a b |]; try discriminate; cbn [root_sep_like]; intros H.
  - left. apply andb_true_iff in H as [H1 H2]. now apply root_cat_sep_sem.
  - left. apply andb_true_iff in H as [H1 H2]. apply is_SRoot_eq in H1. apply is_empty_lit_eq in H2. subst.
    cbn [seval]. unfold pjoin. cbn [starts_sep].
    destruct (e_root e) as [|c0 r0] eqn:E; [discriminate|].
    destruct (ends_sep (c0 :: r0)) eqn:Ee.
    + rewrite app_nil_r. now split.
    + split; [apply ends_sep_snoc | apply segs_snoc_sep].
  - left. apply andb_true_iff in H as [H12 H3]. apply andb_true_iff in H12 as [H1 H2].
    apply is_SRoot_eq in H1, H2. subst. destruct b as [| | |r s| | | | | | | | | | |]; try discriminate.
    apply andb_true_iff in H3 as [H3 H4]. apply is_SRoot_eq in H3. subst.
    cbn [seval]. destruct (ends_sep (e_root e)) eqn:Ee; [now split|]. now apply (root_cat_sep_sem e SRoot s).
  - apply andb_true_iff in H as [H12 H3]. apply andb_true_iff in H12 as [H1 H2].
    apply is_empty_lit_eq in H2. subst. destruct b as [| | |r s| | | | | | | | | | |]; try discriminate.
    apply andb_true_iff in H3 as [H3 H4]. cbn [seval].
    destruct (seval e g) as [|c0 g0] eqn:Eg.
    + right. split; [reflexivity|]. now rewrite <- (root_like_segs e g H1), Eg.
    + left. now apply root_cat_sep_sem.
Qed.

Lemma seg_prefix_refl_eq a b : a = b -> seg_prefix a b.
Proof. intros ->. exists []. now rewrite app_nil_r. Qed.

Lemma is_common_abs_root_sem e x : is_common_abs_root x = true ->
  seg_prefix (segs (seval e x)) (segs (e_abs e)).
Proof.
  destruct x as [| | | | | |a b| | | | | | | |]; try discriminate. cbn [is_common_abs_root]. intros H.
  cbn [seval]. rewrite segs_commonpath2.
  apply orb_true_iff in H as [H|H]; apply andb_true_iff in H as [H1 H2].
  - apply is_SAbs_eq in H1. subst. cbn [seval]. apply lcp_prefix_l.
  - apply is_SAbs_eq in H2. subst. cbn [seval]. apply lcp_prefix_r.
Qed.

Lemma eq_inside_sem e a b : eq_inside a b = true -> str_eqb (seval e a) (seval e b) = true ->
  seg_prefix (segs (e_root e)) (segs (e_abs e)).
Proof.
  intros H Heq. apply str_eqb_eq in Heq. unfold eq_inside in H.
  repeat (apply orb_true_iff in H as [H|H]); apply andb_true_iff in H as [H1 H2].
  - apply is_SAbs_eq in H1. apply is_SRoot_eq in H2. subst. cbn [seval] in Heq.
    apply seg_prefix_refl_eq. now rewrite Heq.
  - apply is_SRoot_eq in H1. apply is_SAbs_eq in H2. subst. cbn [seval] in Heq.
    apply seg_prefix_refl_eq. now rewrite Heq.
  - apply is_SRoot_eq in H2. subst. cbn [seval] in Heq. rewrite <- Heq.
    now apply is_common_abs_root_sem.
  - apply is_SRoot_eq in H1. subst. cbn [seval] in Heq. rewrite Heq.
    now apply is_common_abs_root_sem.
Qed.

(** Main semantic lemma about the recogniser. *)
Lemma ok_when_sem e : e_con e = true -> is_abs (e_root e) = true ->
  forall g pol, ok_when pol g = true -> geval e g = pol -> seg_prefix (segs (e_root e)) (segs (e_abs e)).
Proof.
  intros Hc Hr. induction g as [| | |a b|a b|a b|g IH|g IHg h IHh|g IHg h IHh]; intros pol Hok Hev;
    cbn [ok_when geval] in *.
  - rewrite Hc in Hev. subst. easy.
  - subst. easy.
  - subst. easy.
  - apply andb_true_iff in Hok as [Hp Hi]. subst pol. now apply (eq_inside_sem e a b).
  - apply andb_true_iff in Hok as [Hpa Hb]. apply andb_true_iff in Hpa as [Hp Ha]. subst pol.
    destruct (root_sep_like_sem e b Hr Hb) as [[He Hs]|[_ Hs]].
    + pose proof (prefix_ending_sep_segs _ _ He Hev) as Hpre.
      now rewrite Hs, (abs_like_segs e a Ha) in Hpre.
    + rewrite Hs. now exists (segs (e_abs e)).
  - easy.
  - apply (IH (negb pol)); [exact Hok|]. rewrite <- Hev. now rewrite negb_involutive.
  - destruct pol.
    + apply andb_true_iff in Hev as [E1 E2]. apply orb_true_iff in Hok as [H|H].
      * now apply (IHg true). * now apply (IHh true).
    + apply andb_true_iff in Hok as [H1 H2]. apply andb_false_iff in Hev as [E|E].
      * now apply (IHg false). * now apply (IHh false).
  - destruct pol.
    + apply andb_true_iff in Hok as [H1 H2]. apply orb_true_iff in Hev as [E|E].
      * now apply (IHg true). * now apply (IHh true).
    + apply orb_false_iff in Hev as [E1 E2]. apply orb_true_iff in Hok as [H|H].
      * now apply (IHg false). * now apply (IHh false).
Qed.

Theorem segprefix_guard_sound :
  forall raise_if cwd root_arg path a,
    raise_sound raise_if = true -> is_abs cwd = true ->
    resolve raise_if true cwd root_arg path = Ok a ->
    inside (abspath cwd root_arg) a.
Proof.
  intros g cwd root_arg path a Hs Hc Hres. unfold resolve in Hres.
  unfold raise_sound in Hs. apply andb_true_iff in Hs as [_ Hs].
  set (root := abspath cwd root_arg) in *. set (a0 := abspath cwd (pjoin root path)) in *.
  destruct (geval {| e_abs := a0; e_root := root; e_con := true |} g) eqn:Eg; [easy|].
  inversion Hres; subst a. clear Hres.
  assert (Hroot : is_abs root = true) by now apply abspath_is_abs.
  repeat split.
  - now apply abspath_is_abs.
  - exact (ok_when_sem {| e_abs := a0; e_root := root; e_con := true |} eq_refl Hroot g false Hs Eg).
  - now apply abspath_no_dotdot.
Qed.

(** Boolean containment test used by the refutation and by the correspondence. *)
Lemma seg_prefixb_spec r a : seg_prefixb r a = true <-> seg_prefix r a.
Proof.
  revert a. induction r as [|x r IH]; intros a; cbn [seg_prefixb].
  - split; [now exists a | easy].
  - destruct a as [|y a].
    + split; [easy | intros [rest H]; easy].
    + split.
      * intros H. apply andb_true_iff in H as [H1 H2]. apply str_eqb_eq in H1. subst.
        apply IH in H2 as [rest ->]. now exists rest.
      * intros [rest H]. inversion H; subst. apply andb_true_iff. split; [apply str_eqb_refl|].
        apply IH. now exists rest.
Qed.

From Coq Require Import String.
Open Scope string_scope.
Definition sepl : sx := SLit [sep].
(** [self.constrain_path and not abs_path.startswith(self.path)] — the pinned tree *)
Definition guard_strprefix : gx := GAnd GConstrain (GNot (GStarts SAbs SRoot)).
(** [self.constrain_path and abs_path != self.path and not abs_path.startswith(self.path.rstrip(os.sep) + os.sep)] *)
Definition guard_rstrip_sep : gx :=
  GAnd GConstrain (GAnd (GNot (GEq SAbs SRoot)) (GNot (GStarts SAbs (SCat (SRStrip SRoot) sepl)))).
(** [self.constrain_path and not (abs_path == self.path or abs_path.startswith(self.path + os.sep))] *)
Definition guard_eq_or_sep : gx :=
  GAnd GConstrain (GNot (GOr (GEq SAbs SRoot) (GStarts SAbs (SCat SRoot sepl)))).
(** [self.constrain_path and os.path.commonpath([abs_path, self.path]) != self.path] *)
Definition guard_commonpath : gx := GAnd GConstrain (GNot (GEq (SCommon SAbs SRoot) SRoot)).
(** [self.constrain_path and not (abs_path + os.sep).startswith(os.path.join(self.path, ''))] *)
Definition guard_join_empty : gx :=
  GAnd GConstrain (GNot (GStarts (SCat SAbs sepl) (SJoin SRoot (SLit [])))).

(** [self.constrain_path and os.path.commonprefix([abs_path, self.path]) != self.path] — character-wise, unsound *)
Definition guard_commonprefix : gx := GAnd GConstrain (GNot (GEq (SCommonPrefix SAbs SRoot) SRoot)).

(** The plain string-prefix guard admits a sibling directory whose name extends the root's name. *)
Theorem strprefix_guard_refuted :
  exists cwd root_arg path a,
    is_abs cwd = true /\ resolve guard_strprefix true cwd root_arg path = Ok a /\
    ~ seg_prefix (segs (abspath cwd root_arg)) (segs a).
Proof.
  exists (s2l "/w"), (s2l "/t/root"), (s2l "../root_evil/secret.txt"), (s2l "/t/root_evil/secret.txt").
  split; [reflexivity|]. split; [vm_compute; reflexivity|].
  intros H. apply seg_prefixb_spec in H. vm_compute in H. discriminate.
Qed.

(** os.path.commonprefix compares characters, not components: it is not accepted, and it does let a sibling whose
    name extends the root's name through. *)
Theorem commonprefix_guard_refuted :
  raise_sound guard_commonprefix = false /\
  exists cwd root_arg path a,
    is_abs cwd = true /\ resolve guard_commonprefix true cwd root_arg path = Ok a /\
    ~ seg_prefix (segs (abspath cwd root_arg)) (segs a).
Proof.
  split; [reflexivity|].
  exists (s2l "/w"), (s2l "/t/root"), (s2l "../root_evil/secret.txt"), (s2l "/t/root_evil/secret.txt").
  split; [reflexivity|]. split; [vm_compute; reflexivity|].
  intros H. apply seg_prefixb_spec in H. vm_compute in H. discriminate.
Qed.

(** Seeded fault c18_8: the containment test made on NORMALISED NAMES instead of on the absolute strings, through
    the helpers the case-insensitive virtual file systems use:
      root = _norm_name(self.path); name = _norm_name(abs_path)
      raise unless name == root or name.startswith(_folder_prefix(root))
    with _norm_name(x) = normpath(x.replace('\\','/')).replace('\\','/').casefold() and
    _folder_prefix(f) = (g + '/' if g else '') for g = ('' if f == '.' else f).rstrip('/').
    The comparison is component-wise, but on case-folded strings, while the path handed to the OS is the unfolded one:
    on a case-sensitive disk a sibling that differs from the root (or from an ancestor of it) only in case is outside
    and is let through. *)
Definition norm_name (x : sx) : sx := SFold (SUnbs (SNorm (SUnbs x))).
Definition folder_prefix (f : sx) : sx :=
  let g := SRStrip (SIfEq f (SLit [dotc]) (SLit []) f) in SIfEmpty g (SLit []) (SCat g sepl).
Definition guard_casefold : gx :=
  GAnd GConstrain (GAnd (GNot (GEq (norm_name SAbs) (norm_name SRoot)))
                        (GNot (GStarts (norm_name SAbs) (folder_prefix (norm_name SRoot))))).
(** the same test on the strings themselves (what the helpers compute when nothing is folded) is the sound form *)
Definition guard_folder_prefix_unfolded : gx :=
  GAnd GConstrain (GAnd (GNot (GEq SAbs SRoot)) (GNot (GStarts SAbs (folder_prefix SRoot)))).

Theorem casefold_guard_refuted :
  raise_sound guard_casefold = false /\
  raise_sound guard_folder_prefix_unfolded = true /\
  (exists cwd root_arg path a,
    is_abs cwd = true /\ resolve guard_casefold true cwd root_arg path = Ok a /\
    ~ seg_prefix (segs (abspath cwd root_arg)) (segs a)) /\
  (* an ancestor that differs in case only, reached by an absolute name *)
  resolve guard_casefold true (s2l "/w") (s2l "/t/Content/maps") (s2l "/t/content/maps/secret.txt")
    = Ok (s2l "/t/content/maps/secret.txt") /\
  (* what the fault keeps refusing: other siblings, the sibling whose name extends the root's, the parent *)
  resolve guard_casefold true (s2l "/w") (s2l "/t/Maps") (s2l "../other/x") = Escape /\
  resolve guard_casefold true (s2l "/w") (s2l "/t/Maps") (s2l "../Maps_backup/x") = Escape /\
  resolve guard_casefold true (s2l "/w") (s2l "/t/Maps") (s2l "..") = Escape /\
  resolve guard_casefold true (s2l "/w") (s2l "/t/Maps") (s2l "sub/x.txt") = Ok (s2l "/t/Maps/sub/x.txt") /\
  (* the unfolded comparison refuses the case variants *)
  resolve guard_folder_prefix_unfolded true (s2l "/w") (s2l "/t/Maps") (s2l "../maps/secret.txt") = Escape /\
  resolve guard_folder_prefix_unfolded true (s2l "/w") (s2l "/t/Maps") (s2l "..\MAPS\secret.txt")
    = Ok (s2l "/t/Maps/..\MAPS\secret.txt").
Proof.
  split; [reflexivity|]. split; [reflexivity|]. split.
  - exists (s2l "/w"), (s2l "/t/Maps"), (s2l "../maps/secret.txt"), (s2l "/t/maps/secret.txt").
    split; [reflexivity|]. split; [vm_compute; reflexivity|].
    intros H. apply seg_prefixb_spec in H. vm_compute in H. discriminate.
  - vm_compute. repeat split.
Qed.

(** A transformation the guard language has no meaning for is written down as [SOpaque name x] and never
    accepted, wherever it stands — also where the recogniser [ok_when] would not have looked (second example). *)
Definition guard_strip_eq : gx :=
  GAnd GConstrain (GAnd (GNot (GEq (SOpaque (s2l "strip") SAbs) SRoot))
                        (GNot (GStarts SAbs (SCat (SRStrip SRoot) sepl)))).
Theorem opaque_never_accepted :
  (forall g, raise_sound g = true -> gx_plain g = true /\ ok_when false g = true) /\
  raise_sound guard_strip_eq = false /\
  (let g := GNot (GAnd (GEq SAbs SRoot) (GEq (SOpaque (s2l "realpath") SAbs) SRoot)) in
   ok_when false g = true /\ raise_sound g = false).
Proof.
  split; [|split; [reflexivity|split; reflexivity]].
  intros g H. unfold raise_sound in H. now apply andb_true_iff in H.
Qed.

(** Non-vacuity: the sound forms do serve files inside the root (and the root itself). *)
Lemma sound_forms_serve_inside :
  resolve guard_rstrip_sep true (s2l "/w") (s2l "/t/root/") (s2l "sub/../in.txt") = Ok (s2l "/t/root/in.txt") /\
  resolve guard_rstrip_sep true (s2l "/w") (s2l "/") (s2l "etc/x") = Ok (s2l "/etc/x") /\
  resolve guard_rstrip_sep true (s2l "/w") (s2l "t/root") (s2l "") = Ok (s2l "/w/t/root") /\
  resolve guard_commonpath true (s2l "/w") (s2l "/t/root") (s2l "/t/root/a\..\b") = Ok (s2l "/t/root/a\..\b") /\
  resolve guard_rstrip_sep true (s2l "/w") (s2l "/t/root") (s2l "../root_evil/secret.txt") = Escape /\
  resolve guard_rstrip_sep true (s2l "/w") (s2l "/t/root") (s2l "/t/root_evil/secret.txt") = Escape /\
  resolve guard_rstrip_sep true (s2l "/w") (s2l "/t/root") (s2l "..") = Escape.
Proof. vm_compute. repeat split. Qed.

Close Scope string_scope.
Open Scope list_scope.
Definition dd : str := [dotc; dotc].
Definition dd_only_last (l : list str) : Prop := forall l1 l2, l = l1 ++ dd :: l2 -> l2 = [].

Lemma is_dotdot_eq c : is_dotdot c = true <-> c = dd.
Proof. apply str_eqb_eq. Qed.

Lemma split_cons2 r : forall h d t, split r = h :: d :: t -> exists v, r = h ++ sep :: v.
Proof.
  induction r as [|c r IH]; intros h d t H; [discriminate|].
  cbn [split] in H. destruct (is_sep c) eqn:Ec.
  - apply is_sep_true in Ec. subst. inversion H; subst. now exists r.
  - destruct (split r) as [|h' t'] eqn:Er; [discriminate|]. inversion H; subst.
    destruct (IH h' d t eq_refl) as [v ->]. now exists v.
Qed.

(** In a string without the substring "../", a '..' component can only be the last one. *)
Lemma no_parent_ref_split s : has_parent_ref s = false -> dd_only_last (split s).
Proof.
  induction s as [|c r IH]; intros H l1 l2 E.
  - cbn [split] in E. destruct l1 as [|x l1]; [discriminate|]. inversion E. now destruct l1.
  - cbn [has_parent_ref] in H. apply orb_false_iff in H as [H1 H2]. cbn [split] in E.
    destruct (is_sep c) eqn:Ec.
    + destruct l1 as [|x l1]; [discriminate|]. inversion E; subst. now apply (IH H2 l1 l2).
    + destruct (split r) as [|h t] eqn:Er; [now apply split_nonnil in Er|].
      destruct l1 as [|x l1].
      * cbn [app] in E. inversion E; subst. destruct l2 as [|d t']; [reflexivity|]. exfalso.
        destruct (split_cons2 r _ _ _ Er) as [v Hv]. subst r. cbn in H1. discriminate.
      * cbn [app] in E. inversion E; subst. apply (IH H2 (h :: l1) l2). reflexivity.
Qed.

Lemma filter_mid {A} (f : A -> bool) l : forall a x b, filter f l = a ++ x :: b ->
  exists a' b', l = a' ++ x :: b' /\ filter f b' = b.
Proof.
  induction l as [|y l IH]; intros a x b H; [now destruct a|].
  cbn [filter] in H. destruct (f y) eqn:Ey.
  - destruct a as [|z a].
    + cbn [app] in H. inversion H; subst. now exists [], l.
    + cbn [app] in H. inversion H; subst. destruct (IH _ _ _ H2) as (a' & b' & -> & Hb).
      now exists (z :: a'), b'.
  - destruct (IH _ _ _ H) as (a' & b' & -> & Hb). now exists (y :: a'), b'.
Qed.

Lemma dd_only_last_filter f l : dd_only_last l -> dd_only_last (filter f l).
Proof.
  intros H l1 l2 E. destruct (filter_mid f l _ _ _ E) as (a' & b' & Hl & Hb).
  rewrite (H _ _ Hl) in Hb. now subst.
Qed.

Lemma dd_only_last_tl c r : dd_only_last (c :: r) -> dd_only_last r.
Proof. intros H l1 l2 E. apply (H (c :: l1) l2). now rewrite E. Qed.

Lemma stays_below_S l : forall d, dd_only_last l -> stays_below (S d) l = true.
Proof.
  induction l as [|c r IH]; intros d H; [reflexivity|]. cbn [stays_below].
  destruct (is_dotdot c) eqn:Ec.
  - apply is_dotdot_eq in Ec. subst. rewrite (H [] r eq_refl). reflexivity.
  - apply IH. now apply dd_only_last_tl in H.
Qed.

Lemma stays_below_0 l : dd_only_last l -> stays_below 0 l = true \/ l = [dd].
Proof.
  destruct l as [|c r]; intros H; [now left|]. cbn [stays_below].
  destruct (is_dotdot c) eqn:Ec.
  - apply is_dotdot_eq in Ec. subst. rewrite (H [] r eq_refl). now right.
  - left. apply stays_below_S. now apply dd_only_last_tl in H.
Qed.

Lemma segs_lstrip s : segs (lstrip_sep s) = segs s.
Proof.
  induction s as [|c r IH]; [reflexivity|]. cbn [lstrip_sep]. destruct (is_sep c) eqn:Ec; [|reflexivity].
  apply is_sep_true in Ec. subst c. now rewrite segs_sep_cons.
Qed.

(** '..' can only be the LAST segment of an accepted pack path. *)
Theorem unify_path_dotdot_only_last p r : unify_path p = Some r -> dd_only_last (segs r).
Proof.
  unfold unify_path. destruct (has_parent_ref (unbackslash (normpath p))) eqn:E; [discriminate|].
  intros H. inversion H; subst. rewrite segs_lstrip.
  unfold segs. apply dd_only_last_filter. now apply no_parent_ref_split.
Qed.

(** unify_path: an accepted pack path never steps above the directory it is relative to, except for the
    bare '..' (which names the parent directory itself; recorded as an observation in docs/C18.md). *)
Theorem unify_path_no_parent p r : unify_path p = Some r ->
  stays_below 0 (segs r) = true \/ segs r = [dd].
Proof. intros H. exact (stays_below_0 _ (unify_path_dotdot_only_last p r H)). Qed.

(** The carved-out corner is real: unify_path("..") = ".." . *)
Lemma unify_path_bare_parent : unify_path dd = Some dd.
Proof. reflexivity. Qed.

(** [stays_below d l]: starting [d] levels below a base directory, following [l] never leaves the base: the walk
    ends in the base or below it, whatever the base is. *)
Lemma stays_below_follow l : forall d (pre base : list str),
  stays_below d l = true -> List.length pre = d ->
  exists extra, follow (pre ++ base) l = Some (extra ++ base).
Proof.
  induction l as [|c r IH]; intros d pre base H Hl; cbn [stays_below follow] in *.
  - now exists pre.
  - destruct (is_dotdot c).
    + destruct d as [|d']; [discriminate|]. destruct pre as [|x pre']; [discriminate|].
      cbn [app]. apply (IH d' pre' base H). now inversion Hl.
    + apply (IH (S d) (c :: pre) base H). cbn [List.length]. now rewrite Hl.
Qed.

(** The two cases of [unify_path_no_parent] exclude each other, and both occur. *)
Lemma unify_path_corner_exclusive l : l = [dd] -> stays_below 0 l = false.
Proof. intros ->. reflexivity. Qed.

Lemma unify_path_cases_occur :
  unify_path (s2l "a\..") = Some (s2l "a/..") /\
  stays_below 0 (segs (s2l "a/..")) = true /\ unify_path (s2l "a\..\b") = None /\
  unify_path (s2l ".\..") = Some (s2l "./..") /\ segs (s2l "./..") = [dd] /\
  unify_path (s2l "..\..") = None /\ unify_path (s2l "a/../../b") = None.
Proof. vm_compute. repeat split. Qed.
