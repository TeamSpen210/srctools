(** C05 (b) — hash of frozen values: equal values hash equal, and the hash of a frozen object never changes. *)
From Coq Require Import List String.
From SV Require Import SM.FrozenOps SM.FrozenOpsProofs SM.FrozenHash.
Import ListNotations.
Open Scope string_scope.

Lemma lookup_in c rows k : lookup c rows = Some k -> In (c, k) rows.
Proof.
  induction rows as [|[c' k'] r IH]; simpl; try discriminate.
  destruct (c' =? c) eqn:E; intros Hk.
  - apply String.eqb_eq in E. inversion Hk; subst. left; reflexivity.
  - right; auto.
Qed.

Lemma subset_in a b x : subset a b = true -> In x a -> In x b.
Proof.
  unfold subset. rewrite forallb_forall. intros H Hx. specialize (H x Hx).
  apply existsb_exists in H. destruct H as [y [Hy E]]. apply String.eqb_eq in E. subst; exact Hy.
Qed.

Example inplace_on_base_refuted : inplace_ok [("Vec", "__iadd__"); ("VecBase", "__imul__")] = false.
Proof. reflexivity. Qed.

Section Proofs.
  Variables V X H : Type.
  Variable get : V -> string -> X.
  Variable hf : list X -> H.
  Variable ident : nat -> H.

  (** Equal FROZEN values hash equal: for a table that passes [hash_table_ok], two objects of the same frozen class whose
      slots read the same have the same hash (or are both unhashable) - whichever registers they live in. *)
  Theorem hash_same_value rows : hash_table_ok rows = true ->
    forall c a b i j, frozen_class c = true -> same_value V X get c a b ->
      hash_of V X H get hf ident rows i (c, a) = hash_of V X H get hf ident rows j (c, b).
  Proof.
    unfold hash_table_ok. intros Hok c a b i j Hfz Hs.
    apply andb_prop in Hok. destruct Hok as [Hok _].
    rewrite forallb_forall in Hok. unfold hash_of; simpl.
    destruct (lookup c rows) as [k|] eqn:E; auto.
    specialize (Hok _ (lookup_in _ _ _ E)). unfold hash_row_ok in Hok; simpl in Hok. rewrite Hfz in Hok.
    destruct k as [|l| |]; try discriminate; auto.
    apply andb_prop in Hok. destruct Hok as [Hsub _].
    f_equal. f_equal. apply map_ext_in. intros s Hin. apply Hs. eapply subset_in; eauto.
  Qed.

  (** a hashable frozen class reads every slot: two objects that hash through [HSlots l] and differ in no slot of [l]
      differ in no slot of the family (so the hash cannot ignore a component) *)
  Theorem hash_reads_every_slot rows : hash_table_ok rows = true ->
    forall c l, frozen_class c = true -> lookup c rows = Some (HSlots l) -> forall s, In s (family_slots c) -> In s l.
  Proof.
    unfold hash_table_ok. intros Hok c l Hfz E s Hin.
    apply andb_prop in Hok. destruct Hok as [Hok _].
    rewrite forallb_forall in Hok. specialize (Hok _ (lookup_in _ _ _ E)). unfold hash_row_ok in Hok; simpl in Hok. rewrite Hfz in Hok.
    apply andb_prop in Hok. destruct Hok as [_ Hsub]. eapply subset_in; eauto.
  Qed.

  (** only frozen classes are hashable - under the CONVENTIONS [hash_conventions], which C05 does not state (observation) *)
  Theorem hashable_is_frozen rows : hash_conventions rows = true ->
    forall c i v h, hash_of V X H get hf ident rows i (c, v) = Some h -> frozen_class c = true.
  Proof.
    unfold hash_conventions. intros Hok c i v h.
    repeat (apply andb_prop in Hok; destruct Hok as [Hok ?]).
    rewrite forallb_forall in Hok. unfold hash_of; simpl.
    destruct (lookup c rows) as [k|] eqn:E; try discriminate.
    specialize (Hok _ (lookup_in _ _ _ E)). simpl in Hok.
    destruct k as [|l| |]; try discriminate. intros _. exact Hok.
  Qed.

  (** The hash of a frozen object held across ANY history of public calls is the hash it had at the start
      (composes the frame theorem): a frozen value used as a dictionary key stays findable. *)
  Theorem frozen_hash_stable table carve rows : table_ok table carve = true ->
    forall h st i r, good_history V table carve h st ->
    nth_error st i = Some r -> frozen_class (fst r) = true ->
    exists r', nth_error (FrozenOps.run V table h st) i = Some r' /\
               hash_of V X H get hf ident rows i r' = hash_of V X H get hf ident rows i r.
  Proof.
    intros OK h st i r G Hn Hf. exists r. split; auto.
    exact (frozen_registers_stable V table carve OK h st i r G Hn Hf).
  Qed.
End Proofs.

(** a hash that skips a component is rejected as well *)
Example hash_two_slots_refuted : hash_row_ok ("FrozenAngle", HSlots ["_pitch"; "_yaw"]) = false.
Proof. reflexivity. Qed.

(** the property is silent about a value that can change: an identity hash on a mutable class passes the table check
    (and fails the conventions) *)
Example hash_of_mutable_not_constrained :
  hash_row_ok ("Matrix", HIdentity) = true /\ hash_conventions [("Matrix", HIdentity)] = false.
Proof. split; reflexivity. Qed.

(** today's shape satisfies the premise *)
Example hash_table_satisfiable :
  hash_table_ok [("Vec", HUnhashable); ("FrozenVec", HSlots ["_x"; "_y"; "_z"]); ("Angle", HUnhashable);
                 ("FrozenAngle", HSlots ["_pitch"; "_yaw"; "_roll"]); ("Matrix", HUnhashable); ("FrozenMatrix", HUnhashable)] = true
  /\ hash_conventions [("Vec", HUnhashable); ("FrozenVec", HSlots ["_x"; "_y"; "_z"]); ("Angle", HUnhashable);
                 ("FrozenAngle", HSlots ["_pitch"; "_yaw"; "_roll"]); ("Matrix", HUnhashable); ("FrozenMatrix", HUnhashable)] = true.
Proof. split; reflexivity. Qed.
