(** C19 — [property_holds] for every configuration that passes [source_ok]: assembled from the theorems of the other
    FsChain*Proofs files (no new mathematics here, only the composition with all hypotheses visible). *)
From Coq Require Import List Bool.
From SV Require Import SM.FsChain SM.FsChainProofs SM.FsChainRaw SM.FsChainCompose SM.FsChainForms SM.FsChainFormsProofs SM.FsChainWhole SM.FsChainWholeProofs SM.FsChainRead SM.FsChainReadProofs SM.FsChainAdd SM.FsChainAddProofs SM.FsChainNoise SM.FsChainNoiseRaw SM.FsChainProperty.
Import ListNotations.
Open Scope N_scope.

Record source_facts (s : source_cfg) : Prop := {
  f_backend : forall b, In b (s_backends s) -> backend_keys_norm b = true /\ walk_ok b = true /\ walk_norm b = true;
  f_content : forall c, In c (s_contents s) -> cexpr_whole false c = true;
  f_reader : rexpr_whole None false (s_reader s) = true;
  f_get : raw_ops_ok (s_raw_get s) = true; f_exists : raw_ops_ok (s_raw_exists s) = true;
  f_open : raw_ops_ok (s_raw_open s) = true; f_walk : raw_ops_ok (s_raw_walk s) = true;
  f_rel : raw_rel_ok (s_raw_rel s) = true;
  f_guard : guard_ok (s_guard s) = true; f_actions : actions_ok (s_prio s) (s_plain s) = true;
  f_exmode : exists_mode_ok (s_exists s) = true;
  f_dedup : s_dedup s = DedupSkip; f_relmode : s_rel s = RelDropSegs;
  f_dops : dedup_ops_ok (s_dedup_ops s) = true }.

Lemma source_ok_facts s : source_ok s = true -> source_facts s.
Proof.
  unfold source_ok. intros H. repeat (apply andb_true_iff in H as [H ?]).
  constructor; try assumption.
  - intros b Hb. rewrite forallb_forall in H. specialize (H b Hb). unfold backend_today in H.
    apply andb_true_iff in H as [H Hn]. apply andb_true_iff in H as [Hk Hw]. repeat split; assumption.
  - intros c Hc. match goal with Hx : forallb (cexpr_whole false) _ = true |- _ => rewrite forallb_forall in Hx; exact (Hx c Hc) end.
  - destruct (s_dedup s); [reflexivity|discriminate].
  - destruct (s_rel s); [discriminate|reflexivity].
Qed.

Theorem backends_agree_holds s : source_ok s = true -> backends_agree s.
Proof.
  intros Hs. destruct (source_ok_facts s Hs) as [Fb Fc Fr Fg Fe Fo Fw _ _ _ _ _ _ _].
  intros b1 b2 fs q H1 H2 Hc. destruct (Fb b1 H1) as [K1 _]. destruct (Fb b2 H2) as [K2 _].
  destruct (lookup_agree_all b1 b2 fs q K1 K2 Hc) as [A1 [A2 [A3 [A4 [A5 A6]]]]].
  split; [exact A5|]. split; [exact A1|]. split; [exact A2|]. split; [exact A3|].
  split; [rewrite A6, A5; destruct (spec_lookup fs (normpath (slash q))); reflexivity|].
  split.
  - intros c limit in_dir before after Hin. split.
    + apply (open_bytes_same c limit in_dir b1 b2 fs q (Fc c Hin) K1 K2 Hc).
    + intros data. apply open_through_reader_all_placements; [exact Fr|exact (Fc c Hin)].
  - intros e Hnd He Hq.
    destruct (raw_agrees_with_folded b1 (s_raw_get s) fs e q K1 Fg Hc Hnd He Hq) as [R1 [R2 _]].
    destruct (raw_agrees_with_folded b1 (s_raw_exists s) fs e q K1 Fe Hc Hnd He Hq) as [R3 _].
    destruct (raw_agrees_with_folded b1 (s_raw_open s) fs e q K1 Fo Hc Hnd He Hq) as [R4 _].
    repeat split; assumption.
Qed.

Theorem walks_exact_holds s : source_ok s = true -> walks_exact s.
Proof.
  intros Hs. destruct (source_ok_facts s Hs) as [Fb _ _ Fg _ _ Fw Frel _ _ _ _ _ _].
  intros b fs folder Hb Hc. destruct (Fb b Hb) as [K [W _]]. destruct (backend_keys_norm_inv b K) as [Hst [[Hget _] _]].
  split; [|split; [|split; [|split]]].
  - intros e. rewrite (walk_exact b fs folder e W Hc), (entries_spec b fs e Hst Hc). reflexivity.
  - intros e. rewrite (walk_empty_all b fs W). apply (entries_spec b fs e Hst Hc).
  - intros e. apply (walk_lookup_closed b fs folder e W Hget Hc).
  - apply (walk_nodup b fs folder W Hc).
  - intros e Hnd. destruct (s_raw_rel s); [|discriminate]. rewrite raw_walk_rel_file. split.
    + apply raw_walk_exact.
    + apply (raw_walk_lookup_closed (s_raw_get s) (s_raw_walk s) fs folder e Fg Hc Hnd).
Qed.

Theorem chains_honour_priority_holds s : source_ok s = true -> chains_honour_priority s.
Proof.
  intros Hs. destruct (source_ok_facts s Hs) as [Fb Fc _ _ _ _ Fw Frel Fgu Fac Fem Fdd Frm Fdo].
  split.
  - intros same h q Hms. cbv zeta.
    rewrite (build_chain_priority_order (s_guard s) same (s_prio s) (s_plain s) h Fgu Fac).
    split; [reflexivity|]. apply chain_every_form_spec; [exact Fem|]. apply Forall_priority_order.
    eapply Forall_impl; [|exact Hms]. intros m [Hb [Hc Hst]]. destruct (Fb _ Hb) as [K _].
    split; [exact K|]. split; [exact Hc|]. destruct (k_store m) as [[[c l] d]|]; [apply Fc; exact Hst|exact I].
  - intros ms f f0 Hms. cbv zeta. rewrite Fdd, Frm. cbn [chain_walk_mode]. split.
    + apply (chain_walk_dedup RelDropSegs (s_dedup_ops s) ms f).
    + intros x Hx. apply (chain_walk_lookup_closed_spelt (s_dedup_ops s) ms f f0 x Fdo); [|exact Hx].
      eapply Forall_impl; [|exact Hms].
      intros m [[b [fs [p [p0 [Hb [-> [Hc [Hp0 [Hsp [Hf0 Hsf]]]]]]]]]]|[fs [p [p0 [-> [Hc [Hnd [Hp0 [Hsp [Hf0 [Hsf Hex]]]]]]]]]]].
      * left. destruct (Fb _ Hb) as [K [W N]]. exists b, fs, p, p0. split; [reflexivity|]. repeat (split; [assumption|]). assumption.
      * right. exists (s_raw_rel s), (s_raw_walk s), fs, p, p0. split; [reflexivity|]. repeat (split; [assumption|]). assumption.
Qed.

(** The hypotheses are satisfiable: the forms of the repaired tree (FsChainWitness). *)
Definition witness_cfg : source_cfg := {|
  s_backends := [SM.FsChainWitness.fixed_virtual; SM.FsChainWitness.fixed_zip];
  s_contents := [CRead]; s_reader := reader_today;
  s_raw_get := [OSlash]; s_raw_exists := [OSlash]; s_raw_open := [OSlash]; s_raw_walk := [OSlash]; s_raw_rel := RawRelFile;
  s_guard := AddAlways; s_prio := InsertAt 0; s_plain := Append; s_exists := ExViaGet;
  s_dedup := DedupSkip; s_rel := RelDropSegs; s_dedup_ops := [OFold] |}.
Example source_ok_satisfiable : source_ok witness_cfg = true.
Proof. vm_compute. reflexivity. Qed.
