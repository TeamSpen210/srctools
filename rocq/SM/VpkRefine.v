(** Whole-history refinement: for every sequence of operations the state machine SM/Vpk.v ([step]/[run], the model of
    srctools.vpk) is observationally equal to the specification map ([sstep]/[srun]): same result code at every
    operation, same set of names, every file reads back the bytes last written and verifies.
    Invariant + induction over the operation list; all placements, every dir_limit, every preload cap.

    CRC-32 is a [Section] variable.  FileInfo.write skips a write whose checksum equals the stored one, so the theorem
    carries the explicit premise that the data values of the history (and the empty string, the content of a new file)
    have no CRC collision among them ([collision_free]). *)
From Coq Require Import List NArith Bool Lia Permutation.
From SV Require Import Fmt.VpkDir Fmt.VpkDirProofs SM.Vpk SM.VpkProofs.
Import ListNotations.
Open Scope N_scope.

(** what the proof needs of a configuration (Props/C13.v [vcfg_ok] unfolds to this) *)
Definition vcfg_okb (cf : vcfg) : bool :=
  dcfg_ok (v_dc cf) && (v_max_pre cf <=? 65535) && v_chk_idx cf && v_chk_name cf.

Lemma vcfg_okb_inv cf : vcfg_okb cf = true -> dcfg_ok (v_dc cf) = true /\ v_chk_idx cf = true /\ v_chk_name cf = true.
Proof.
  unfold vcfg_okb. intros H. apply andb_prop in H as [H H3]. apply andb_prop in H as [H H2]. apply andb_prop in H as [H H1]. auto.
Qed.

(** the data values of a history, and the content of a freshly created file *)
Definition op_data (o : op) : list bytes :=
  match o with OAdd _ d _ => [d] | OWrite _ d _ => [d] | _ => [] end.
Definition datas (ops : list op) : list bytes := [] :: flat_map op_data ops.
Definition collision_free (crc : bytes -> N) (ops : list op) : Prop :=
  forall d1 d2, In d1 (datas ops) -> In d2 (datas ops) -> crc d1 = crc d2 -> d1 = d2.
(** executable version, for examples and for checking the premise on concrete histories *)
Definition collision_freeb (crc : bytes -> N) (ops : list op) : bool :=
  forallb (fun d1 => forallb (fun d2 => negb (crc d1 =? crc d2) || bytes_eqb d1 d2) (datas ops)) (datas ops).
(** ---- slices of append-only containers ---- *)
Lemma slice_app_inb (b t : bytes) off n : off + n <= len b -> slice (b ++ t) off n = slice b off n.
Proof.
  unfold slice, len. intros H.
  rewrite skipn_app. replace (N.to_nat off - length b)%nat with 0%nat by lia. cbn [skipn].
  rewrite firstn_app. rewrite skipn_length.
  replace (N.to_nat n - (length b - N.to_nat off))%nat with 0%nat by lia. cbn [firstn]. apply app_nil_r.
Qed.

(** contents of a file given the archives and the footer block (= [read_info]) *)
Definition cont (ar : list (N * bytes)) (ft : bytes) (i : info) : bytes :=
  match iidx i with None => ft | Some x => arch_get x ar end.
Definition rd (ar : list (N * bytes)) (ft : bytes) (i : info) : bytes :=
  ipre i ++ (if ilen i =? 0 then [] else slice (cont ar ft i) (ioff i) (ilen i)).
Lemma read_info_rd st i : read_info st i = rd (archs st) (foot st) i.
Proof. reflexivity. Qed.
(** the part stored outside the tree lies inside its container *)
Definition inb (ar : list (N * bytes)) (ft : bytes) (i : info) : Prop :=
  ilen i <> 0 -> ioff i + ilen i <= len (cont ar ft i).

Lemma cont_ext ar ft ar' ft' i : aext ar ar' -> fext ft ft' -> exists t, cont ar' ft' i = cont ar ft i ++ t.
Proof. intros Ha Hf. unfold cont. destruct (iidx i) as [x|]; [apply Ha|apply Hf]. Qed.
Lemma rd_ext ar ft ar' ft' i : aext ar ar' -> fext ft ft' -> inb ar ft i -> rd ar' ft' i = rd ar ft i /\ inb ar' ft' i.
Proof.
  intros Ha Hf Hi. destruct (cont_ext ar ft ar' ft' i Ha Hf) as [t Ht]. unfold rd, inb in *. rewrite Ht. split.
  - destruct (N.eqb_spec (ilen i) 0) as [|Hn]; [reflexivity|]. rewrite slice_app_inb by auto. reflexivity.
  - intros Hn. specialize (Hi Hn). rewrite len_app. lia.
Qed.

Section refine.
  Variable crc : bytes -> N.
  Variable cf : vcfg.
  Hypothesis Hcf : vcfg_okb cf = true.
  (** the data values that occur; no two of them collide under [crc] *)
  Variable D : bytes -> Prop.
  Hypothesis D_nil : D [].
  Hypothesis D_inj : forall d1 d2, D d1 -> D d2 -> crc d1 = crc d2 -> d1 = d2.

  Let Hdc : dcfg_ok (v_dc cf) = true := proj1 (vcfg_okb_inv cf Hcf).
  Let Hci : v_chk_idx cf = true := proj1 (proj2 (vcfg_okb_inv cf Hcf)).
  Let Hcn : v_chk_name cf = true := proj2 (proj2 (vcfg_okb_inv cf Hcf)).

  (** one entry stands for one value of the map *)
  Definition ent_rel (ar : list (N * bytes)) (ft : bytes) (k : key) (i : info) (d : bytes) : Prop :=
    rd ar ft i = d /\ icrc i = crc d /\ inb ar ft i /\ D d /\ entry_wf (v_dc cf) (k, i).
  (** a table stands for a map *)
  Definition rel (ar : list (N * bytes)) (ft : bytes) (tb : list (key * info)) (m : list (key * bytes)) : Prop :=
    NoDup (map fst tb) /\ NoDup (map fst m) /\
    forall k, match alookup k tb, alookup k m with
              | Some i, Some d => ent_rel ar ft k i d
              | None, None => True
              | _, _ => False
              end.
  (** the invariant: same mode; the table stands for the current map; the bytes of the directory file on disk decode
      to a table that stands for the saved map (read against the archives as they are now). *)
  Definition inv (st : vstate) (s : spec) : Prop :=
    md st = smd s /\ rel (archs st) (foot st) (tbl st) (cur s) /\
    match saved s with
    | None => dec_file (v_dc cf) (disk st) = None
    | Some c => exists es f, dec_file (v_dc cf) (disk st) = Some (es, f) /\ rel (archs st) f (load_table es) c
    end.

  Ltac split_ent := unfold ent_rel, entry_wf; cbn [fst snd]; split; [|split; [|split; [|split; [|split]]]].

  Lemma ent_rel_ext ar ft ar' ft' k i d : aext ar ar' -> fext ft ft' -> ent_rel ar ft k i d -> ent_rel ar' ft' k i d.
  Proof.
    intros Ha Hf (Hr & Hc & Hi & Hd & Hw). destruct (rd_ext _ _ _ _ i Ha Hf Hi) as [E Hi'].
    unfold ent_rel. rewrite E. auto.
  Qed.
  Lemma rel_ext ar ft ar' ft' tb m : aext ar ar' -> fext ft ft' -> rel ar ft tb m -> rel ar' ft' tb m.
  Proof.
    intros Ha Hf (H1 & H2 & H). split; [exact H1|]. split; [exact H2|]. intros k. specialize (H k).
    destruct (alookup k tb), (alookup k m); try exact H. eapply ent_rel_ext; eassumption.
  Qed.
  Lemma rel_wf ar ft tb m : rel ar ft tb m -> Forall (entry_wf (v_dc cf)) tb.
  Proof.
    intros (H1 & _ & H). apply Forall_forall. intros [k i] Hin. specialize (H k).
    rewrite (In_alookup _ _ _ H1 Hin) in H. destruct (alookup k m); [|contradiction]. apply H.
  Qed.
  Lemma rel_lookup ar ft tb m k : rel ar ft tb m ->
    (alookup k tb = None /\ alookup k m = None) \/ (exists i d, alookup k tb = Some i /\ alookup k m = Some d /\ ent_rel ar ft k i d).
  Proof.
    intros (_ & _ & H). specialize (H k). destruct (alookup k tb) as [i|], (alookup k m) as [d|]; try contradiction; eauto 8.
  Qed.

  (** replacing / inserting one entry on both sides *)
  Lemma rel_aset ar ft tb m k i d : rel ar ft tb m -> ent_rel ar ft k i d -> rel ar ft (aset k i tb) (aset k d m).
  Proof.
    intros (H1 & H2 & H) He. split; [now apply aset_keys|]. split; [now apply aset_keys|].
    intros k'. rewrite !alookup_aset. destruct (key_eqb k' k) eqn:E.
    - apply key_eqb_eq in E. now subst.
    - apply H.
  Qed.
  Lemma rel_adel ar ft tb m k : rel ar ft tb m -> rel ar ft (adel k tb) (adel k m).
  Proof.
    intros (H1 & H2 & H). split; [now apply adel_keys|]. split; [now apply adel_keys|].
    intros k'. rewrite !alookup_adel. destruct (key_eqb k' k); [exact I|apply H].
  Qed.
  Lemma rel_nil ar ft : rel ar ft [] [].
  Proof. split; [constructor|]. split; [constructor|]. intros k. exact I. Qed.

  (** a new, empty file *)
  Lemma ent_rel_empty ar ft k : key_ok k = true -> ent_rel ar ft k (empty_info crc) [].
  Proof.
    intros Hk. split_ent; [reflexivity|reflexivity| |exact D_nil|exact Hk|].
    - intros Hn. now contradiction Hn.
    - intros x Hx. discriminate.
  Qed.

  (** ---- FileInfo.write ---- *)
  Lemma idx_accepted ix : idx_rejected cf ix = false -> v_is_dir cf = true -> idx_ok cf ix = true.
  Proof. unfold idx_rejected. rewrite Hci. intros H Hd. rewrite Hd in H. cbn in H. now apply negb_false_iff in H. Qed.

  (** The written entry stands for the data; everything stored before is still where it was. *)
  Lemma write_info_rel st i d ix k :
    (crc d =? icrc i) = false -> D d -> key_ok k = true -> idx_rejected cf ix = false ->
    forall st' i', write_info crc cf st i d ix = (st', i') ->
    aext (archs st) (archs st') /\ fext (foot st) (foot st') /\ tbl st' = tbl st /\ md st' = md st /\ disk st' = disk st
    /\ ent_rel (archs st') (foot st') k i' d.
  Proof.
    intros Hc Hd Hk Hix st' i' Ew.
    destruct (write_info_stores crc cf _ _ _ _ _ _ Hc Ew) as (Ht & Hm & Hdk & Ha & Hf & Hcrc & Hrd & Hin & Hidx).
    repeat split; auto.
    intros y Hy. destruct (Hidx y Hy) as [-> Hdir]. pose proof (idx_accepted _ Hix Hdir) as Hok.
    cbn [idx_ok] in Hok. apply N.ltb_lt in Hok. lia.
  Qed.

  (** [do_write] on an entry that stands for [d0] (or on the fresh empty entry, [d0 = []]) *)
  Lemma do_write_inv st s k i d0 d ix :
    inv st s -> D d -> key_ok k = true -> idx_rejected cf ix = false ->
    ent_rel (archs st) (foot st) k i d0 ->
    inv (do_write crc cf st k i d ix) (with_cur s (aset k d (cur s))).
  Proof.
    intros (Hm & Hr & Hs) Hd Hk Hix He. unfold do_write.
    destruct (write_info crc cf st i d ix) as [st' i'] eqn:Ew.
    destruct (crc d =? icrc i) eqn:Hc.
    - (* same checksum: nothing is written; by collision freedom the data is the old data *)
      unfold write_info in Ew. rewrite Hc in Ew. injection Ew as <- <-.
      apply N.eqb_eq in Hc. destruct He as (Hr0 & Hc0 & Hi0 & Hd0 & Hw0).
      assert (d = d0) as -> by (apply D_inj; auto; congruence).
      split; [exact Hm|]. split.
      + cbn [archs foot tbl with_tbl cur with_cur]. apply rel_aset; [exact Hr|]. unfold ent_rel. auto.
      + cbn [saved with_cur archs disk with_tbl]. exact Hs.
    - destruct (write_info_rel st i d ix k Hc Hd Hk Hix _ _ Ew) as (Ha & Hf & Ht & Hmd & Hdk & He').
      split; [cbn [md with_tbl smd with_cur]; congruence|]. split.
      + cbn [archs foot tbl with_tbl cur with_cur]. rewrite Ht. apply rel_aset; [|exact He'].
        eapply rel_ext; eassumption.
      + cbn [saved with_cur archs disk with_tbl]. rewrite Hdk. destruct (saved s) as [c|]; [|exact Hs].
        destruct Hs as (es & f & E & Hrel). exists es, f. split; [exact E|].
        eapply rel_ext; [exact Ha|apply fext_refl|exact Hrel].
  Qed.

  Lemma name_accepted k : name_rejected cf k = false -> key_ok k = true.
  Proof. unfold name_rejected. rewrite Hcn. cbn. now intros H%negb_false_iff. Qed.
  Lemma ent_rel_key ar ft k i d : ent_rel ar ft k i d -> key_ok k = true.
  Proof. intros (_ & _ & _ & _ & Hw & _). exact Hw. Qed.

  (** ---- write_dirfile: the bytes on disk decode to a table that stands for the current map ---- *)
  Lemma ent_rel_norm ar ft k i d : ent_rel ar ft k i d -> ent_rel ar ft k (norm_info i) d.
  Proof.
    intros (Hr & Hc & Hi & Hd & Hk & Hx). cbn [fst snd] in Hk, Hx.
    split_ent; [|exact Hc| |exact Hd|exact Hk|exact Hx]; unfold rd, inb, cont, norm_info in *; cbn [ipre ilen iidx ioff icrc] in *.
    - destruct (ilen i =? 0); exact Hr.
    - intros Hn. destruct (N.eqb_spec (ilen i) 0); [contradiction|auto].
  Qed.

  Lemma save_inv st s b :
    inv st s -> enc_file (v_dc cf) (tree_of (tbl st)) (foot st) = Some b ->
    exists es, dec_file (v_dc cf) b = Some (es, foot st) /\ rel (archs st) (foot st) (load_table es) (cur s).
  Proof.
    intros (Hm & Hr & Hs) Eb. pose proof Hr as (Hnd & Hnd2 & Hl).
    pose proof (rel_wf _ _ _ _ Hr) as Hwf.
    pose proof (dirtree_roundtrip (v_dc cf) Hdc _ _ _ (tree_of_wf _ _ Hwf) Eb) as Hd.
    exists (nmap (flat_tree (tree_of (tbl st)))). split; [exact Hd|].
    destruct (saved_table _ Hnd) as [Hk Hlk]. split; [exact Hk|]. split; [exact Hnd2|].
    intros k. rewrite Hlk. specialize (Hl k).
    destruct (alookup k (tbl st)) as [i|]; cbn [option_map]; destruct (alookup k (cur s)); try exact Hl.
    now apply ent_rel_norm.
  Qed.

  (** ---- one operation preserves the invariant and returns the specification's result code ---- *)
  Definition op_D (o : op) : Prop := Forall D (op_data o).

  Lemma step_refines st s o st' c :
    inv st s -> op_D o -> step crc cf st o = Some (st', c) ->
    c = snd (sstep cf s o) /\ inv st' (fst (sstep cf s o)).
  Proof.
    intros Hinv Ho. pose proof Hinv as (Hm & Hr & Hs). destruct o as [k|k d ix|k d ix|k| |m]; cbn [step sstep].
    - (* new_file *)
      rewrite <- Hm. destruct (negb (writable (md st))); [intros [= <- <-]; auto|].
      destruct (name_rejected cf k) eqn:En; [intros [= <- <-]; auto|].
      destruct (rel_lookup _ _ _ _ k Hr) as [[E1 E2]|(i & d0 & E1 & E2 & He)]; rewrite E1, E2; intros [= <- <-]; [|auto].
      cbn [fst snd]. split; [reflexivity|]. split; [exact Hm|]. split.
      + cbn [archs foot tbl with_tbl cur with_cur]. apply rel_aset; [exact Hr|]. apply ent_rel_empty, name_accepted, En.
      + exact Hs.
    - (* add_file *)
      assert (D d) as Hd by (inversion Ho; assumption).
      rewrite <- Hm. destruct (negb (writable (md st))); [intros [= <- <-]; auto|].
      destruct (idx_rejected cf ix) eqn:Ei; [intros [= <- <-]; auto|].
      destruct (name_rejected cf k) eqn:En; [intros [= <- <-]; auto|].
      destruct (rel_lookup _ _ _ _ k Hr) as [[E1 E2]|(i & d0 & E1 & E2 & He)]; rewrite E1, E2; intros [= <- <-]; [|auto].
      cbn [fst snd]. split; [reflexivity|].
      apply do_write_inv with (d0 := []); auto using name_accepted. apply ent_rel_empty, name_accepted, En.
    - (* FileInfo.write *)
      assert (D d) as Hd by (inversion Ho; assumption).
      destruct (rel_lookup _ _ _ _ k Hr) as [[E1 E2]|(i & d0 & E1 & E2 & He)]; rewrite E1, E2; [intros [= <- <-]; auto|].
      rewrite <- Hm. destruct (negb (writable (md st))); [intros [= <- <-]; auto|].
      destruct (idx_rejected cf ix) eqn:Ei; intros [= <- <-]; [auto|].
      cbn [fst snd]. split; [reflexivity|].
      apply do_write_inv with (d0 := d0); auto. eapply ent_rel_key, He.
    - (* del *)
      rewrite <- Hm. destruct (negb (writable (md st))); [intros [= <- <-]; auto|].
      destruct (rel_lookup _ _ _ _ k Hr) as [[E1 E2]|(i & d0 & E1 & E2 & He)]; rewrite E1, E2; intros [= <- <-]; [auto|].
      cbn [fst snd]. split; [reflexivity|]. split; [exact Hm|]. split; [|exact Hs].
      cbn [archs foot tbl with_tbl cur with_cur]. now apply rel_adel.
    - (* write_dirfile *)
      rewrite <- Hm. destruct (negb (writable (md st))); [intros [= <- <-]; auto|].
      destruct (enc_file (v_dc cf) (tree_of (tbl st)) (foot st)) as [b|] eqn:Eb; [|discriminate].
      intros [= <- <-]. cbn [fst snd]. split; [reflexivity|]. split; [reflexivity|]. split; [exact Hr|].
      cbn [saved disk archs]. destruct (save_inv st s b Hinv Eb) as (es & Hd & Hrel). eauto.
    - (* reopen *)
      destruct m.
      2: { (* 'w' *) intros [= <- <-]. cbn [fst snd]. split; [reflexivity|]. split; [reflexivity|]. split; [apply rel_nil|]. reflexivity. }
      (* 'r' and 'a' alike: the table last saved is loaded; with nothing saved both fail *)
      all: destruct (saved s) as [c0|] eqn:Esv.
      1, 3: destruct Hs as (es & f & E & Hrel); rewrite E; intros [= <- <-]; cbn [fst snd]; split; [reflexivity|];
            split; [reflexivity|]; split; [exact Hrel|]; cbn [saved disk archs]; eauto.
      all: rewrite Hs; intros [= <- <-]; cbn [fst snd]; split; [reflexivity|exact Hinv].
  Qed.

  (** ---- every history ---- *)
  Lemma run_refines ops : forall st s st' cs,
    inv st s -> Forall op_D ops -> run crc cf st ops = Some (st', cs) ->
    cs = snd (srun cf s ops) /\ inv st' (fst (srun cf s ops)).
  Proof. apply (runs_refine (step crc cf) (sstep cf) (run crc cf) (srun cf)); try reflexivity. exact step_refines. Qed.

  Lemma inv_init : inv (init) sinit.
  Proof. split; [reflexivity|]. split; [apply rel_nil|]. reflexivity. Qed.

  (** what the invariant says about observations *)
  Lemma inv_observe st s : inv st s ->
    md st = smd s /\ Permutation (map fst (tbl st)) (map fst (cur s)) /\
    forall k, match alookup k (tbl st), alookup k (cur s) with
              | Some i, Some d => read_info st i = d /\ verify_info crc st i = true
              | None, None => True
              | _, _ => False
              end.
  Proof.
    intros (Hm & (H1 & H2 & Hl) & _). split; [exact Hm|]. split.
    - apply keys_perm; [exact H1|exact H2|]. intros k. specialize (Hl k).
      destruct (alookup k (tbl st)), (alookup k (cur s)); easy.
    - intros k. specialize (Hl k). destruct (alookup k (tbl st)) as [i|], (alookup k (cur s)) as [d|]; try exact Hl.
      destruct Hl as (Hr & Hc & _). rewrite read_info_rd. split; [exact Hr|].
      unfold verify_info. rewrite read_info_rd, Hr, Hc. apply N.eqb_refl.
  Qed.
End refine.

(** The refinement theorem.  For every configuration that validates archive indexes and names, every sequence of
    new_file / add_file / FileInfo.write / del / write_dirfile / reopen('r'|'w'|'a') starting from a fresh archive on which
    no write_dirfile raises struct.error ([run] is not [None]) and whose data values do not collide under the checksum:
    every operation returns the result code of the specification map; afterwards the archive is in the same mode, lists
    exactly the names of the map, and every file reads back exactly the map's bytes and verifies. *)
Theorem vpk_refines_map crc cf : vcfg_okb cf = true -> forall ops st codes,
  collision_free crc ops ->
  run crc cf init ops = Some (st, codes) ->
  let '(s, scodes) := srun cf sinit ops in
  codes = scodes /\ md st = smd s /\ Permutation (map fst (tbl st)) (map fst (cur s)) /\
  forall k, match alookup k (tbl st), alookup k (cur s) with
            | Some i, Some d => read_info st i = d /\ verify_info crc st i = true
            | None, None => True
            | _, _ => False
            end.
Proof.
  intros Hcf ops st codes Hfree Hrun.
  set (D := fun d => In d (datas ops)).
  assert (D []) as D_nil by (left; reflexivity).
  assert (Forall (op_D D) ops) as Hops.
  { apply Forall_forall. intros o Ho. unfold op_D. apply Forall_forall. intros d Hd. right.
    apply in_flat_map. eauto. }
  destruct (run_refines crc cf Hcf D D_nil Hfree ops _ _ _ _ (inv_init crc cf D) Hops Hrun) as [Hc Hinv].
  destruct (srun cf sinit ops) as [s scodes]. cbn [fst snd] in *.
  split; [exact Hc|]. exact (inv_observe crc cf D _ _ Hinv).
Qed.

(** ---- the property's own observation point: any history, then write_dirfile, then reopen for reading or appending ---- *)
Lemma srun_app cf a : forall s b,
  srun cf s (a ++ b) = let '(s1, c1) := srun cf s a in let '(s2, c2) := srun cf s1 b in (s2, c1 ++ c2).
Proof. apply (srun_app_gen (sstep cf)); reflexivity. Qed.
Lemma datas_save_reopen ops m : datas (ops ++ [OSave; OReopen m]) = datas ops.
Proof. unfold datas. rewrite flat_map_app. cbn [flat_map op_data app]. now rewrite app_nil_r. Qed.

(** After any history that leaves the archive writable, [write_dirfile] and reopening in 'r' or 'a' mode both succeed in the
    specification, and the reopened archive lists exactly the files of the map as it was before the save, each reading
    back the bytes last written to it and verifying. *)
Theorem vpk_history_save_reopen crc cf : vcfg_okb cf = true -> forall ops m st codes,
  m <> MW -> collision_free crc ops ->
  run crc cf init (ops ++ [OSave; OReopen m]) = Some (st, codes) ->
  let '(s0, c0) := srun cf sinit ops in
  writable (smd s0) = true ->
  codes = c0 ++ [rOk; rOk] /\ md st = m /\ Permutation (map fst (tbl st)) (map fst (cur s0)) /\
  forall k, match alookup k (tbl st), alookup k (cur s0) with
            | Some i, Some d => read_info st i = d /\ verify_info crc st i = true
            | None, None => True
            | _, _ => False
            end.
Proof.
  intros Hcf ops m st codes Hm Hfree Hrun.
  assert (collision_free crc (ops ++ [OSave; OReopen m])) as Hfree'
    by (unfold collision_free; rewrite datas_save_reopen; exact Hfree).
  pose proof (vpk_refines_map crc cf Hcf _ _ _ Hfree' Hrun) as H.
  rewrite srun_app in H. destruct (srun cf sinit ops) as [s0 c0]. intros Hw.
  cbn [srun sstep] in H. rewrite Hw in H. cbn [negb saved] in H.
  destruct m; [|contradiction|]; cbn [cur smd] in H; exact H.
Qed.

