(** Proofs about SM/AtomicRetry.v.

    1. [outcome_inv]: for ANY protocol with [proto_outcome_ok], a finished writer let its [with] statement return
       normally exactly when its rename succeeded — after every schedule of two writers.
    2. Stutter simulation: every run of a protocol [x] is, up to the refused renames / unlinks that are tried again,
       a run of [collapse_proto x] (same directory; program counters related by [apc]; every event of the collapsed
       run is an event of the run).  Hence the theorems of AtomicExitProofs.v hold for [x] when [collapse_proto x] is
       in the good part of the family ([retry_safe] / [retry_ok]).
    3. The family with a retried rename: good when exhausting the attempts takes the failure path (cleanup unlink,
       then raise), and for each other continuation a computed run shows the stray temp file or the swallowed failure,
       for every number of attempts. *)
From Coq Require Import List Bool Arith PeanoNat.
From SV Require Import SM.AtomicWriter SM.AtomicWriterProofs SM.AtomicWriterThms SM.AtomicExit SM.AtomicExitProofs
  SM.AtomicReuse SM.AtomicReuseProofs SM.AtomicRetry.
Import ListNotations.

(** ** 1. returned normally <-> committed *)
Definition outcome_pc (p : pct) : Prop :=
  match p with
  | TExit _ t _ _ repl => outcome_ok t repl = true
  | TDone r _ b => b = negb (match r with FCommitted => true | FNot => false end)
  | _ => True
  end.

Lemma outcome_settle i t f g repl : outcome_ok t repl = true -> outcome_pc (settle i t f g repl).
Proof.
  destruct t; cbn; intros H; auto.
  - apply eqb_prop in H. subst. now destruct repl.
  - now destruct repl.
Qed.

(** A property of each writer's program counter that its own steps preserve holds along every schedule. *)
Lemma run2t_pcs x (P1 P2 : pct -> Prop) s1 s2 :
  (forall p d f, P1 p -> P1 (fst (fst (wstept x s1 p d f)))) ->
  (forall p d f, P2 p -> P2 (fst (fst (wstept x s2 p d f)))) ->
  forall sched st, P1 (q1 st) -> P2 (q2 st) ->
  P1 (q1 (run2t x s1 s2 sched st)) /\ P2 (q2 (run2t x s1 s2 sched st)).
Proof.
  intros S1 S2. induction sched as [|[who f] sched IH]; intros st H1 H2; cbn [run2t fold_left]; [auto|].
  apply IH; unfold step2t; destruct who.
  - now destruct (wstept x s2 (q2 st) (sdt st) f) as [[p' d'] e].
  - specialize (S1 _ (sdt st) f H1). now destruct (wstept x s1 (q1 st) (sdt st) f) as [[p' d'] e].
  - specialize (S2 _ (sdt st) f H2). now destruct (wstept x s2 (q2 st) (sdt st) f) as [[p' d'] e].
  - now destruct (wstept x s1 (q1 st) (sdt st) f) as [[p' d'] e].
Qed.

Section Outcome.
Variable x : xproto.
Hypothesis Hx : proto_outcome_ok x = true.

Lemma Hx_ok : outcome_ok (x_ok x) false = true.
Proof. unfold proto_outcome_ok in Hx. now apply andb_prop in Hx. Qed.
Lemma Hx_exc : outcome_ok (x_exc x) false = true.
Proof. unfold proto_outcome_ok in Hx. now apply andb_prop in Hx. Qed.

Lemma outcome_after_tail s i j : outcome_pc (aftert_tail x s i j).
Proof. unfold aftert_tail. destruct (j <? length (tail s)); cbn; auto. apply outcome_settle, Hx_ok. Qed.
Lemma outcome_after_body s i k : outcome_pc (aftert_body x s i k).
Proof.
  unfold aftert_body. destruct (raises_here s k); [apply outcome_settle, Hx_exc|].
  destruct (k <? length (body s)); cbn; auto using outcome_after_tail.
Qed.

Lemma outcome_step s p d f : outcome_pc p -> outcome_pc (fst (fst (wstept x s p d f))).
Proof.
  intros H. destruct p; cbn [wstept].
  - destruct f; cbn; auto.
  - destruct f; cbn; auto. destruct (x_excl x && is_some (d (Tmp i))); cbn; auto using outcome_after_body.
  - destruct f; cbn; auto using outcome_after_body. apply outcome_settle, Hx_exc.
  - destruct f; cbn; auto using outcome_after_tail. apply outcome_settle, Hx_ok.
  - cbn [outcome_pc] in H. destruct t; cbn [fst].
    + now apply outcome_settle.
    + now apply outcome_settle.
    + cbn [outcome_ok] in H. apply andb_prop in H as [H1 H2]. destruct (f || failed); now apply outcome_settle.
    + cbn [outcome_ok] in H. apply andb_prop in H as [H12 H3]. apply andb_prop in H12 as [H1 H2].
      destruct f; cbn [fst]; [now apply outcome_settle|].
      destruct (d (Tmp i)); cbn [fst]; now apply outcome_settle.
    + cbn [outcome_ok] in H. apply andb_prop in H as [H12 H3]. apply andb_prop in H12 as [H1 H2].
      destruct f; cbn [fst]; [now apply outcome_settle|].
      destruct (d (Tmp i)); cbn [fst]; now apply outcome_settle.
  - cbn. exact H.
Qed.

Lemma outcome_done p r l b : outcome_pc p -> p = TDone r l b -> b = negb (committedt p).
Proof. intros H ->. now destruct r. Qed.

(** Every finished writer of every schedule: the [with] statement raised iff no rename succeeded. *)
Theorem outcome_inv d0 s1 s2 sched :
  let st := run2t x s1 s2 sched (startt d0) in
  (forall r l b, q1 st = TDone r l b -> b = negb (committedt (q1 st))) /\
  (forall r l b, q2 st = TDone r l b -> b = negb (committedt (q2 st))).
Proof.
  intros st.
  destruct (run2t_pcs x outcome_pc outcome_pc s1 s2 (outcome_step s1) (outcome_step s2) sched (startt d0) I I).
  split; intros r l b; now apply outcome_done.
Qed.

Theorem outcome_inv_alone d0 s faults :
  let st := alonet x s faults d0 in
  forall r l b, q1 st = TDone r l b -> b = negb (committedt (q1 st)).
Proof.
  intros st r l b. apply outcome_done.
  exact (proj1 (run2t_pcs x outcome_pc (fun _ => True) s (other s) (outcome_step s) (fun _ _ _ _ => I) _
                          (start1t d0) I I)).
Qed.
End Outcome.

(** ** 2. Stutter simulation between a protocol and its collapse *)
Definition is_op (t : xtree) : bool := match t with XReplace _ _ _ | XUnlink _ _ _ => true | _ => false end.
(** [gone] is dead at a rename / unlink node (each of the three results overwrites it). *)
Definition ng (p : pct) : pct :=
  match p with TExit i t f g r => TExit i t f (if is_op t then false else g) r | _ => p end.
Definition apc (p : pct) : pct :=
  match p with TExit i t f g r => TExit i (collapse t) f (if is_op t then false else g) r | _ => p end.

Definition root (t : xtree) : nat :=
  match t with XDone _ => 0 | XBad => 1 | XClose _ _ => 2 | XReplace _ _ _ => 3 | XUnlink _ _ _ => 4 end.
Lemma root_collapse t : root (collapse t) = root t.
Proof.
  destruct t; cbn [collapse]; try reflexivity.
  - destruct (collapse t2); try reflexivity. destruct (_ && _); reflexivity.
  - destruct (collapse t2); try reflexivity. destruct (_ && _); reflexivity.
Qed.
Lemma is_op_collapse t : is_op (collapse t) = is_op t.
Proof. pose proof (root_collapse t) as H. destruct t; destruct (collapse _); cbn in *; congruence. Qed.

Lemma collapse_replace a b c :
  (exists fl2, collapse (XReplace a b c) = XReplace (collapse a) fl2 (collapse c) /\
               collapse b = XReplace (collapse a) fl2 (collapse c) /\ exists b1 b2 b3, b = XReplace b1 b2 b3) \/
  collapse (XReplace a b c) = XReplace (collapse a) (collapse b) (collapse c).
Proof.
  cbn [collapse]. destruct (collapse b) eqn:Eb; auto.
  destruct (xtree_eqb x1 (collapse a) && xtree_eqb x3 (collapse c)) eqn:E; auto.
  apply andb_prop in E as [E1 E2]. apply xtree_eqb_eq in E1, E2. subst. left. exists x2. repeat split.
  pose proof (root_collapse b) as R. rewrite Eb in R. destruct b; cbn in R; try discriminate. eauto.
Qed.
Lemma collapse_unlink a b c :
  (exists fl2, collapse (XUnlink a b c) = XUnlink (collapse a) fl2 (collapse c) /\
               collapse b = XUnlink (collapse a) fl2 (collapse c) /\ exists b1 b2 b3, b = XUnlink b1 b2 b3) \/
  collapse (XUnlink a b c) = XUnlink (collapse a) (collapse b) (collapse c).
Proof.
  cbn [collapse]. destruct (collapse b) eqn:Eb; auto.
  destruct (xtree_eqb x1 (collapse a) && xtree_eqb x3 (collapse c)) eqn:E; auto.
  apply andb_prop in E as [E1 E2]. apply xtree_eqb_eq in E1, E2. subst. left. exists x2. repeat split.
  pose proof (root_collapse b) as R. rewrite Eb in R. destruct b; cbn in R; try discriminate. eauto.
Qed.

Lemma ng_settle i t f g r : ng (settle i (collapse t) f g r) = apc (settle i t f g r).
Proof.
  destruct t; try reflexivity.
  - destruct (collapse_replace t1 t2 t3) as [(fl2 & E1 & _)|E1]; cbn [settle apc is_op]; rewrite E1; reflexivity.
  - destruct (collapse_unlink t1 t2 t3) as [(fl2 & E1 & _)|E1]; cbn [settle apc is_op]; rewrite E1; reflexivity.
Qed.

Lemma ng_non_exit pa p : ng pa = p -> (forall i t f g r, p <> TExit i t f g r) -> pa = p.
Proof. destruct pa; cbn; intros E H; auto. subst. exfalso. eapply H. reflexivity. Qed.

Lemma ng_after_tail x s i j : ng (aftert_tail (collapse_proto x) s i j) = apc (aftert_tail x s i j).
Proof. unfold aftert_tail. destruct (j <? length (tail s)); [reflexivity|]. apply ng_settle. Qed.
Lemma ng_after_body x s i k : ng (aftert_body (collapse_proto x) s i k) = apc (aftert_body x s i k).
Proof.
  unfold aftert_body. destruct (raises_here s k); [apply ng_settle|].
  destruct (k <? length (body s)); [reflexivity|apply ng_after_tail].
Qed.

(** the step of the collapsed protocol does not depend on the dead flag *)
Lemma wstept_ng x s pa d f : wstept x s pa d f = wstept x s (ng pa) d f.
Proof. destruct pa; try reflexivity. destruct t; reflexivity. Qed.

(** One step of [x] from [p] against the step of the collapsed protocol from [apc p]: either the step is a refused
    rename / unlink that is tried again (nothing changes, also not [apc p]), or the two steps agree. *)
Lemma wstept_collapse x s p d f :
  let r := wstept x s p d f in
  let ra := wstept (collapse_proto x) s (apc p) d f in
  (snd (fst r) = d /\ apc (fst (fst r)) = apc p /\ snd r <> None) \/
  (ng (fst (fst ra)) = apc (fst (fst r)) /\ snd (fst ra) = snd (fst r) /\ snd ra = snd r).
Proof.
  destruct p as [|i|i k|i j|i t failed g repl|r l b]; cbn [apc wstept collapse_proto x_excl x_ok x_exc].
  - right. destruct f; cbn [fst snd]; auto.
  - right. destruct f; [|destruct (x_excl x && is_some (d (Tmp i)))]; cbn [fst snd]; auto using ng_after_body.
  - right. destruct f; cbn [fst snd]; auto using ng_settle, ng_after_body.
  - right. destruct f; cbn [fst snd]; auto using ng_settle, ng_after_tail.
  - destruct t; cbn [is_op].
    + right. cbn. auto.
    + right. cbn. auto.
    + right. cbn [collapse wstept fst snd]. destruct (f || failed); auto using ng_settle.
    + destruct (collapse_replace t1 t2 t3) as [(fl2 & E1 & E2 & (b1 & b2 & b3 & Eb))|E1];
        rewrite E1; cbn [wstept].
      * destruct f; [left|right; destruct (d (Tmp i))]; cbn [fst snd]; auto using ng_settle.
        split; [reflexivity|]. split; [|discriminate].
        rewrite Eb. cbn [settle apc is_op]. rewrite <- Eb, E2. reflexivity.
      * right. destruct f; [|destruct (d (Tmp i))]; cbn [fst snd]; auto using ng_settle.
    + destruct (collapse_unlink t1 t2 t3) as [(fl2 & E1 & E2 & (b1 & b2 & b3 & Eb))|E1];
        rewrite E1; cbn [wstept].
      * destruct f; [left|right; destruct (d (Tmp i))]; cbn [fst snd]; auto using ng_settle.
        split; [reflexivity|]. split; [|discriminate].
        rewrite Eb. cbn [settle apc is_op]. rewrite <- Eb, E2. reflexivity.
      * right. destruct f; [|destruct (d (Tmp i))]; cbn [fst snd]; auto using ng_settle.
  - right. cbn [fst snd]. auto.
Qed.

(** Related systems: same directory, program counters related, every event of the collapsed run happened in the run. *)
Definition Rc (c a : syst) : Prop :=
  sdt a = sdt c /\ ng (q1 a) = apc (q1 c) /\ ng (q2 a) = apc (q2 c) /\ incl (trt a) (trt c).

Lemma incl_snoc {A} (l m : list A) e : incl l m -> incl (l ++ [e]) (m ++ [e]).
Proof. intros H y Hy. apply in_app_or in Hy as [Hy|Hy]; apply in_or_app; auto. Qed.
Lemma incl_snoc_r {A} (l m : list A) e : incl l m -> incl l (m ++ [e]).
Proof. intros H y Hy. apply in_or_app; auto. Qed.

Lemma step2t_collapse x s1 s2 c a wf : Rc c a ->
  Rc (step2t x s1 s2 c wf) a \/ Rc (step2t x s1 s2 c wf) (step2t (collapse_proto x) s1 s2 a wf).
Proof.
  intros (Hd & H1 & H2 & Ht). destruct wf as [who f]. unfold step2t. rewrite Hd. destruct who.
  - rewrite (wstept_ng _ s2 (q2 a)), H2. pose proof (wstept_collapse x s2 (q2 c) (sdt c) f) as W.
    destruct (wstept x s2 (q2 c) (sdt c) f) as [[p' d'] e].
    destruct (wstept (collapse_proto x) s2 (apc (q2 c)) (sdt c) f) as [[pa' da] ea].
    cbn [fst snd] in W. destruct W as [(-> & Hp & He)|(Hp & -> & ->)]; [left|right]; unfold Rc; cbn.
    + rewrite Hp. destruct e; [auto using incl_snoc_r | contradiction].
    + destruct e; auto using incl_snoc.
  - rewrite (wstept_ng _ s1 (q1 a)), H1. pose proof (wstept_collapse x s1 (q1 c) (sdt c) f) as W.
    destruct (wstept x s1 (q1 c) (sdt c) f) as [[p' d'] e].
    destruct (wstept (collapse_proto x) s1 (apc (q1 c)) (sdt c) f) as [[pa' da] ea].
    cbn [fst snd] in W. destruct W as [(-> & Hp & He)|(Hp & -> & ->)]; [left|right]; unfold Rc; cbn.
    + rewrite Hp. destruct e; [auto using incl_snoc_r | contradiction].
    + destruct e; auto using incl_snoc.
Qed.

Lemma run2t_collapse x s1 s2 sched : forall c a, Rc c a ->
  exists sched', Rc (run2t x s1 s2 sched c) (run2t (collapse_proto x) s1 s2 sched' a).
Proof.
  induction sched as [|wf sched IH]; intros c a H.
  - exists []. exact H.
  - cbn [run2t fold_left]. destruct (step2t_collapse x s1 s2 c a wf H) as [H'|H'].
    + exact (IH _ _ H').
    + destruct (IH _ _ H') as (sched' & Hs). exists (wf :: sched'). exact Hs.
Qed.

Lemma Rc_start d0 : Rc (startt d0) (startt d0).
Proof. unfold Rc; cbn. auto using incl_refl. Qed.
Lemma Rc_start1 d0 : Rc (start1t d0) (start1t d0).
Proof. unfold Rc; cbn. auto using incl_refl. Qed.

(** a single writer: the collapsed run is again a run of one writer alone *)
Lemma run2t_collapse_alone x s o faults : forall c a, Rc c a ->
  exists faults', Rc (run2t x s o (map (fun f => (false, f)) faults) c)
                     (run2t (collapse_proto x) s o (map (fun f => (false, f)) faults') a).
Proof.
  induction faults as [|f faults IH]; intros c a H.
  - exists []. exact H.
  - cbn [map run2t fold_left]. destruct (step2t_collapse x s o c a (false, f) H) as [H'|H'].
    + exact (IH _ _ H').
    + destruct (IH _ _ H') as (faults' & Hs). exists (f :: faults'). exact Hs.
Qed.

Lemma rel_done pa p : ng pa = apc p -> (forall r l b, p = TDone r l b <-> pa = TDone r l b).
Proof.
  intros H r l b. destruct p, pa; cbn in H; try discriminate; split; intros E; try discriminate; congruence.
Qed.
Lemma rel_committed pa p : ng pa = apc p -> committedt pa = committedt p.
Proof. destruct p, pa; cbn; intros H; try discriminate; try reflexivity. now inversion H. Qed.
Lemma rel_finished pa p : ng pa = apc p -> finishedt pa = finishedt p.
Proof. destruct p, pa; cbn; intros H; try discriminate; reflexivity. Qed.
Lemma rel_assoc pa p : ng pa = apc p -> assoct pa = assoct p.
Proof. destruct p, pa; cbn; intros H; try discriminate; try reflexivity; now inversion H. Qed.
Lemma rel_about_to_replace pa p i : ng pa = apc p -> about_to_replace p i -> about_to_replace pa i.
Proof.
  intros H (ok & fl & ne & fd & g & r & ->). cbn [apc] in H.
  destruct (collapse_replace ok fl ne) as [(fl2 & E1 & _)|E1]; rewrite E1 in H;
    destruct pa; cbn in H; try discriminate; inversion H; subst; unfold about_to_replace; eauto 10.
Qed.

(** ** The property for every protocol whose collapse is in the good part of the family *)
Section RetryTransfer.
Variable x : xproto.
Variables (d0 : dir) (s1 s2 : scen).
Hypothesis Hdest : dest s1 <> dest s2.

Theorem retry_crash_atomic : retry_safe x = true -> forall sched,
  let st := run2t x s1 s2 sched (startt d0) in
  sdt st (File (dest s1)) = (if committedt (q1 st) then Some (new s1) else d0 (File (dest s1))) /\
  sdt st (File (dest s2)) = (if committedt (q2 st) then Some (new s2) else d0 (File (dest s2))).
Proof.
  intros H sched st. destruct (run2t_collapse x s1 s2 sched _ _ (Rc_start d0)) as (sched' & Hd & H1 & H2 & _).
  fold st in Hd, H1, H2. rewrite <- Hd, <- (rel_committed _ _ H1), <- (rel_committed _ _ H2).
  exact (proto_crash_atomic (collapse_proto x) d0 s1 s2 Hdest H sched').
Qed.

Theorem retry_body_exception_keeps_old : retry_safe x = true -> forall r sched,
  raise_at s1 = Some r -> r <= length (body s1) ->
  let st := run2t x s1 s2 sched (startt d0) in
  committedt (q1 st) = false /\ sdt st (File (dest s1)) = d0 (File (dest s1)).
Proof.
  intros H r sched Hr Hle st. destruct (run2t_collapse x s1 s2 sched _ _ (Rc_start d0)) as (sched' & Hd & H1 & H2 & _).
  fold st in Hd, H1, H2. rewrite <- Hd, <- (rel_committed _ _ H1).
  exact (proto_body_exception_keeps_old (collapse_proto x) d0 s1 s2 Hdest H r sched' Hr Hle).
Qed.

Theorem retry_no_temp_after_handled_failure : retry_ok x = true -> forall sched,
  let st := run2t x s1 s2 sched (startt d0) in
  finishedt (q1 st) = true -> (forall i, ~ In (false, (EUnlink i, RFault)) (trt st)) ->
  assoct (q1 st) = None /\ forall i, assoct (q2 st) <> Some i -> sdt st (Tmp i) = d0 (Tmp i).
Proof.
  intros H sched st Hf Hu. destruct (run2t_collapse x s1 s2 sched _ _ (Rc_start d0)) as (sched' & Hd & H1 & H2 & Ht).
  fold st in Hd, H1, H2, Ht. rewrite <- Hd, <- (rel_assoc _ _ H1), <- (rel_assoc _ _ H2).
  apply (proto_no_temp_after_handled_failure (collapse_proto x) d0 s1 s2 Hdest H sched').
  - now rewrite (rel_finished _ _ H1).
  - intros i Hi. apply (Hu i). now apply Ht.
Qed.

Theorem retry_two_writers_isolated : retry_safe x = true -> forall sched,
  let st := run2t x s1 s2 sched (startt d0) in
  (forall i, assoct (q1 st) = Some i -> assoct (q2 st) = Some i -> False) /\
  (forall i, assoct (q1 st) = Some i \/ assoct (q2 st) = Some i -> d0 (Tmp i) = None /\ sdt st (Tmp i) <> None) /\
  (forall i, about_to_replace (q1 st) i -> sdt st (Tmp i) = Some (new s1)) /\
  (forall i, about_to_replace (q2 st) i -> sdt st (Tmp i) = Some (new s2)) /\
  (forall n, n <> File (dest s1) -> n <> File (dest s2) -> d0 n <> None -> sdt st n = d0 n).
Proof.
  intros H sched st. destruct (run2t_collapse x s1 s2 sched _ _ (Rc_start d0)) as (sched' & Hd & H1 & H2 & _).
  fold st in Hd, H1, H2.
  destruct (proto_two_writers_isolated (collapse_proto x) d0 s1 s2 Hdest H sched') as (A & B & C & D & E).
  rewrite <- Hd, <- (rel_assoc _ _ H1), <- (rel_assoc _ _ H2). repeat split; auto.
  - apply (B i); auto.
  - apply (B i); auto.
  - intros i Hi. apply C. eapply rel_about_to_replace; eauto.
  - intros i Hi. apply D. eapply rel_about_to_replace; eauto.
Qed.

End RetryTransfer.

(** The good protocol without retries satisfies the hypotheses of the theorems about retries. *)
Lemma proto_ok_retry_hyps x : proto_ok x = true -> retry_ok x = true /\ proto_outcome_ok x = true.
Proof. intros H. rewrite (proto_ok_eq x H). split; reflexivity. Qed.

Lemma retry_ok_safe x : retry_ok x = true -> retry_safe x = true.
Proof. exact (proto_ok_safe (collapse_proto x)). Qed.

Section RetryAlone.
Variable x : xproto.
Variables (d0 : dir) (s : scen).

(** One writer alone, any faults, with retries: a finished use is a good use. *)
Theorem retry_good_use : retry_ok x = true -> proto_outcome_ok x = true -> forall faults,
  good_use d0 s (alonet x s faults d0).
Proof.
  intros H Ho faults. unfold good_use. set (st := alonet x s faults d0).
  destruct (run2t_collapse_alone x s (other s) faults _ _ (Rc_start1 d0)) as (faults' & Hd & H1 & H2 & Ht).
  fold (alonet x s faults d0) in Hd, H1, H2, Ht. fold st in Hd, H1, H2, Ht.
  fold (alonet (collapse_proto x) s faults' d0) in Hd, H1, H2, Ht.
  pose proof (retry_ok_safe x H) as Hs. unfold retry_safe in Hs.
  repeat split.
  - rewrite <- Hd, <- (rel_committed _ _ H1). exact (proto_alone_crash_atomic (collapse_proto x) d0 s Hs faults').
  - exact (outcome_inv_alone x Ho d0 s faults).
  - intros Hf Hu i. rewrite <- Hd.
    apply (proto_alone_no_temp_left (collapse_proto x) d0 s H faults').
    + now rewrite (rel_finished _ _ H1).
    + intros j Hj. apply (Hu j). now apply Ht.
Qed.
End RetryAlone.

(** ** 3. The family with a retried rename *)
Lemma collapse_leaf_unlink r : collapse (unlink_tree r) = unlink_tree r.
Proof. reflexivity. Qed.
Lemma collapse_after_fail g : collapse (after_fail g) = after_fail g.
Proof. destruct g; reflexivity. Qed.

(** a chain of attempts collapses to one attempt (when what follows the last refusal is not itself the same rename) *)
Lemma collapse_retry_tree n ok fl ne :
  collapse ok = ok -> collapse fl = fl -> collapse ne = ne -> root fl <> 3 ->
  collapse (retry_tree n ok fl ne) = XReplace ok fl ne.
Proof.
  intros Ho Hf He Hr. induction n as [|n IH]; cbn [retry_tree collapse].
  - rewrite Ho, Hf, He. destruct fl; try reflexivity. now cbn in Hr.
  - rewrite IH, Ho, He, !xtree_eqb_refl. reflexivity.
Qed.

Lemma retry_proto_collapses c n : c_replace_guard c = true -> c_on_ok c = ACommit ->
  collapse_proto (retry_proto c n (unlink_tree true)) = proto_of_cfg c.
Proof.
  destruct c as [e cg rg ok ex]. cbn [c_replace_guard c_on_ok]. intros -> ->.
  unfold collapse_proto, retry_proto, proto_of_cfg. cbn [x_excl x_ok x_exc c_excl c_replace_guard c_close_guard]. f_equal.
  - unfold close_tree. cbn [c_on_ok c_close_guard collapse act_tree]. unfold replace_tree. cbn [c_replace_guard].
    rewrite collapse_after_fail.
    rewrite collapse_retry_tree; try reflexivity. cbn. discriminate.
  - destruct ex, cg; reflexivity.
Qed.

Lemma outcome_retry_tree n ok fl ne repl :
  outcome_ok (retry_tree n ok fl ne) repl = outcome_ok ok true && outcome_ok fl repl && outcome_ok ne repl.
Proof.
  induction n as [|n IH]; cbn [retry_tree outcome_ok]; [reflexivity|]. rewrite IH.
  now destruct (outcome_ok ok true), (outcome_ok fl repl), (outcome_ok ne repl).
Qed.

(** Exhausting the attempts takes the failure path: every single use is good, whatever the number of attempts. *)
Theorem retry_family_good c n d0 s faults : cfg_ok c = true ->
  good_use d0 s (alonet (retry_proto c n (unlink_tree true)) s faults d0).
Proof.
  intros H. rewrite (cfg_ok_is_fixed c H). apply retry_good_use.
  - unfold retry_ok. now rewrite retry_proto_collapses.
  - unfold proto_outcome_ok, retry_proto. cbn [x_ok x_exc outcome_ok]. now rewrite outcome_retry_tree.
Qed.

(** one writer alone as a fold over its own program counter (the other writer of [alonet] never moves) *)
Definition astep (x : xproto) (s : scen) (st : pct * dir * list (bool * event)) (f : bool) :=
  let '(p, d, tr) := st in
  let '(p', d', e) := wstept x s p d f in
  (p', d', match e with Some e => tr ++ [(false, e)] | None => tr end).

Lemma alonet_fold x s faults d0 :
  let st := alonet x s faults d0 in
  (q1 st, sdt st, trt st) = fold_left (astep x s) faults (TMkdir, d0, []).
Proof.
  unfold alonet.
  assert (G : forall st, let st' := run2t x s (other s) (map (fun f => (false, f)) faults) st in
              (q1 st', sdt st', trt st') = fold_left (astep x s) faults (q1 st, sdt st, trt st)).
  { unfold run2t. induction faults as [|f faults IH]; intros st; cbn [map fold_left]; [reflexivity|].
    specialize (IH (step2t x s (other s) st (false, f))). cbn zeta in IH |- *. rewrite IH.
    f_equal. unfold step2t, astep. destruct (wstept x s (q1 st) (sdt st) f) as [[p' d'] e]. reflexivity. }
  exact (G (start1t d0)).
Qed.

(** All attempts refused. *)
Lemma retry_all_refused x s n ok fl ne i failed g repl d tr :
  fold_left (astep x s) (repeat true (S n)) (TExit i (retry_tree n ok fl ne) failed g repl, d, tr)
  = (settle i fl failed false repl, d, tr ++ repeat (false, (EReplace i (dest s), RFault)) (S n)).
Proof.
  revert g tr. induction n as [|m IH]; intros g tr.
  - reflexivity.
  - change (repeat true (S (S m))) with (true :: repeat true (S m)). cbn [fold_left].
    assert (E : astep x s (TExit i (retry_tree (S m) ok fl ne) failed g repl, d, tr) true
                = (TExit i (retry_tree m ok fl ne) failed false repl, d, tr ++ [(false, (EReplace i (dest s), RFault))])).
    { cbn [retry_tree astep wstept]. destruct m; reflexivity. }
    rewrite E, IH. rewrite <- app_assoc. reflexivity.
Qed.

(** The three other continuations, for EVERY number of attempts: the scenario [sc_a] (three raw writes), every
    operation accepted until the rename, which is refused at every attempt; [more] = what happens afterwards. *)
Definition refused_run (n : nat) (exh : xtree) (more : list bool) : syst :=
  alonet (retry_proto cfg_fixed n exh) sc_a (repeat false 6 ++ repeat true (S n) ++ more) d_old.

Definition d_written : dir :=
  upd (upd (upd (upd d_old (Tmp 1) (Some [])) (Tmp 1) (Some [1])) (Tmp 1) (Some [1; 2])) (Tmp 1) (Some [1; 2; 3]).

Lemma refused_run_state n exh more :
  let st := refused_run n exh more in
  (q1 st, sdt st, trt st) =
  fold_left (astep (retry_proto cfg_fixed n exh) sc_a) more
    (settle 1 exh false false false, d_written,
     [(false, (EMkdir, ROk)); (false, (EOpen 1, ROk)); (false, (EWrite 1 1, ROk)); (false, (EWrite 1 2, ROk));
      (false, (EWrite 1 3, ROk)); (false, (EClose 1, ROk))] ++ repeat (false, (EReplace 1 0, RFault)) (S n)).
Proof.
  intros st. unfold st, refused_run. rewrite alonet_fold, !fold_left_app.
  replace (fold_left _ (repeat false 6) (TMkdir, d_old, []))
    with (TExit 1 (retry_tree n (XDone false) exh (after_fail true)) false false false, d_written,
          [(false, (EMkdir, ROk)); (false, (EOpen 1, ROk)); (false, (EWrite 1 1, ROk)); (false, (EWrite 1 2, ROk));
           (false, (EWrite 1 3, ROk)); (false, (EClose 1, ROk))]).
  - now rewrite retry_all_refused.
  - cbn. destruct n; reflexivity.
Qed.

(** Falls out of the loop as if the rename had succeeded (seeded c12_6): the [with] statement returns normally, the
    destination keeps the previous contents, the complete new data sits in a stray tmp_1. *)
Theorem retry_swallowed_exhaustion_refuted n :
  let st := refused_run n (XDone false) [] in
  q1 st = TDone FNot (Some 1) false /\ sdt st (File 0) = Some [100] /\ sdt st (Tmp 1) = Some [1; 2; 3] /\
  ~ good_use d_old sc_a st.
Proof.
  intros st. pose proof (refused_run_state n (XDone false) []) as E. fold st in E. cbn [fold_left settle] in E.
  injection E as E1 E2 E3. split; [exact E1|]. split; [now rewrite E2|]. split; [now rewrite E2|].
  intros (_ & G & _). specialize (G _ _ _ E1). rewrite E1 in G. discriminate.
Qed.

(** Raises, but without the cleanup: a temp file is left behind by a handled failure. *)
Theorem retry_exhaustion_without_cleanup_refuted n :
  let st := refused_run n (XDone true) [] in
  q1 st = TDone FNot (Some 1) true /\ sdt st (File 0) = Some [100] /\ sdt st (Tmp 1) = Some [1; 2; 3] /\
  ~ good_use d_old sc_a st.
Proof.
  intros st. pose proof (refused_run_state n (XDone true) []) as E. fold st in E. cbn [fold_left settle] in E.
  injection E as E1 E2 E3. split; [exact E1|]. split; [now rewrite E2|]. split; [now rewrite E2|].
  intros (_ & _ & G).
  assert (X : sdt st (Tmp 1) = d_old (Tmp 1)).
  { apply G; [now rewrite E1|]. intros i Hi. rewrite E3 in Hi.
    repeat (destruct Hi as [Hi|Hi]; [discriminate|]). apply repeat_spec in Hi. discriminate. }
  rewrite E2 in X. discriminate.
Qed.

(** Cleans up but then returns normally: the failure is swallowed (the caller is told the save succeeded while the
    destination keeps the previous contents). *)
Theorem retry_exhaustion_swallowed_after_cleanup_refuted n :
  let st := refused_run n (unlink_tree false) [false] in
  q1 st = TDone FNot None false /\ sdt st (File 0) = Some [100] /\ sdt st (Tmp 1) = None /\
  ~ good_use d_old sc_a st.
Proof.
  intros st. pose proof (refused_run_state n (unlink_tree false) [false]) as E. fold st in E. clearbody st.
  change (fold_left _ [false] _) with
    (TDone FNot None false, upd d_written (Tmp 1) None,
     ([(false, (EMkdir, ROk)); (false, (EOpen 1, ROk)); (false, (EWrite 1 1, ROk)); (false, (EWrite 1 2, ROk));
       (false, (EWrite 1 3, ROk)); (false, (EClose 1, ROk))] ++ repeat (false, (EReplace 1 0, RFault)) (S n))
     ++ [(false, (EUnlink 1, ROk))]) in E.
  injection E as E1 E2 E3. split; [exact E1|]. split; [now rewrite E2|]. split; [now rewrite E2|].
  intros (_ & G & _). specialize (G _ _ _ E1). rewrite E1 in G. discriminate.
Qed.

(** ** Example objects: the kernel computes the trees of the retry loop from the program *)

(** A boolean about an object under every run class is a boolean about the object itself when none of its handlers
    names a class that a run class specialises, and otherwise about the few specialisations that differ. *)
Lemma all_classes_same n o P : (forall r, with_class r o = o) -> P o = true -> all_classes n o P = true.
Proof. intros Hw HP. apply forallb_forall. intros r _. now rewrite Hw. Qed.

Lemma with_class_obj_fixed r : with_class r obj_fixed = obj_fixed.
Proof. destruct r; reflexivity. Qed.
Lemma with_class_obj_retry_good r : r = RSub 0 \/ with_class r obj_retry_good = obj_retry_good.
Proof. destruct r as [|[|c]|]; auto. Qed.

Lemma obj_retry_good_ok :
  all_classes 8 obj_retry_good (fun o => retry_ok (obj_proto o) && proto_outcome_ok (obj_proto o) && reuse_indep o) = true /\
  x_ok (class_proto obj_retry_good (RSub 0)) =
    XClose (retry_tree 2 (XDone false) (unlink_tree true) (unlink_tree true)) (unlink_tree true) /\
  x_ok (class_proto obj_retry_good RGeneric) = x_ok (proto_of_cfg cfg_fixed) /\
  proto_ok (class_proto obj_retry_good (RSub 0)) = false.
Proof.
  split; [|vm_compute; auto]. apply forallb_forall. intros r _.
  destruct (with_class_obj_retry_good r) as [-> | ->]; apply andb_true_intro;
    (split; [|apply reuse_indep_entered]; vm_compute; reflexivity).
Qed.

