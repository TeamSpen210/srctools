(** C16 — proofs about SM/LazyDbMulti.v: with several engine databases, looking classes up one at a time
    (EntityDef.engine_def, first database that knows the class) gives what FGD.engine_dbase() gives when — and, for
    classes defined differently in two databases, only when — the merge keeps the first definition. *)
From Coq Require Import List Arith Bool.
From SV Require Import SM.LazyDb SM.LazyDbProofs SM.LazyDbMulti.
Import ListNotations.

Section DictProofs.
Variables (K V : Type).
Variable eqb : K -> K -> bool.
Hypothesis eqb_spec : forall a b, eqb a b = true <-> a = b.
Local Notation dget := (dget K V eqb).
Local Notation merge_step := (merge_step K V eqb).
Local Notation merge := (merge K V eqb).

Lemma first_step_get c t : forall m,
  dget c (fold_left (merge_step FirstWins) t m) = match dget c m with Some v => Some v | None => dget c t end.
Proof.
  induction t as [|[k v] t IH]; intros m; cbn [fold_left LazyDbMulti.dget]; [destruct (dget c m); reflexivity|].
  rewrite IH. unfold LazyDbMulti.merge_step. cbn [fst]. destruct (dget k m) as [w|] eqn:Ek.
  - destruct (dget c m) as [x|] eqn:Ec; [reflexivity|]. destruct (eqb k c) eqn:E; [|reflexivity].
    apply eqb_spec in E. subst. congruence.
  - cbn [LazyDbMulti.dget]. destruct (eqb k c) eqn:E; [|reflexivity]. apply eqb_spec in E. subst. rewrite Ek. reflexivity.
Qed.

Lemma first_merge_get_gen c tables : forall m,
  dget c (fold_left (fun m t => fold_left (merge_step FirstWins) t m) tables m)
  = match dget c m with Some v => Some v | None => first_some (map (dget c) tables) end.
Proof.
  induction tables as [|t ts IH]; intros m; cbn [fold_left map first_some]; [destruct (dget c m); reflexivity|].
  rewrite IH, first_step_get. destruct (dget c m); [reflexivity|]. destruct (dget c t); reflexivity.
Qed.

(** keeping the first definition: the merged dictionary answers with the first table that has the key *)
Theorem first_merge_get c tables : dget c (merge FirstWins tables) = first_some (map (dget c) tables).
Proof. unfold LazyDbMulti.merge. rewrite first_merge_get_gen. reflexivity. Qed.

Lemma last_step_fold t : forall m, fold_left (merge_step LastWins) t m = rev t ++ m.
Proof.
  induction t as [|kv t IH]; intros m; cbn [fold_left rev]; [reflexivity|]. rewrite IH. unfold LazyDbMulti.merge_step.
  rewrite <- app_assoc. reflexivity.
Qed.

Lemma dget_notin c t : ~ In c (map fst t) -> dget c t = None.
Proof.
  induction t as [|[k v] t IH]; intros H; cbn [LazyDbMulti.dget]; [reflexivity|]. cbn [map fst In] in H.
  destruct (eqb k c) eqn:E; [apply eqb_spec in E; subst; exfalso; apply H; left; reflexivity|]. apply IH. intros X. apply H. right. exact X.
Qed.

Lemma dget_rev_app c t : NoDup (map fst t) -> forall m,
  dget c (rev t ++ m) = match dget c t with Some v => Some v | None => dget c m end.
Proof.
  induction t as [|[k v] t IH]; intros Hn m; cbn [rev app LazyDbMulti.dget]; [reflexivity|].
  cbn [map fst] in Hn. inversion Hn as [|? ? Hk Hn']. subst. rewrite <- app_assoc. cbn [app]. rewrite (IH Hn').
  cbn [LazyDbMulti.dget]. destruct (eqb k c) eqn:E; [|reflexivity]. apply eqb_spec in E. subst.
  rewrite (dget_notin c t Hk). reflexivity.
Qed.

Lemma last_merge_get_gen c tables : Forall (fun t => NoDup (map fst t)) tables -> forall m,
  dget c (fold_left (fun m t => fold_left (merge_step LastWins) t m) tables m)
  = match first_some (rev (map (dget c) tables)) with Some v => Some v | None => dget c m end.
Proof.
  induction tables as [|t ts IH]; intros Hn m; cbn [fold_left map rev first_some]; [reflexivity|].
  inversion Hn as [|? ? Ht Hts]. subst. rewrite (IH Hts), last_step_fold, (dget_rev_app c t Ht).
  assert (Hf : forall (l : list (option V)) x, first_some (l ++ [x]) = match first_some l with Some v => Some v | None => x end).
  { induction l as [|[y|] l IHl]; intros x; cbn [app first_some]; [destruct x; reflexivity|reflexivity|apply IHl]. }
  rewrite Hf. destruct (first_some (rev (map (dget c) ts))); reflexivity.
Qed.

(** overwriting (dict.update): the merged dictionary answers with the LAST table that has the key *)
Theorem last_merge_get c tables : Forall (fun t => NoDup (map fst t)) tables ->
  dget c (merge LastWins tables) = first_some (rev (map (dget c) tables)).
Proof.
  intros H. unfold LazyDbMulti.merge. rewrite (last_merge_get_gen c tables H). cbn [LazyDbMulti.dget].
  destruct (first_some (rev (map (dget c) tables))); reflexivity.
Qed.

(** a table built from a key list and a partial function *)
Definition table_of (F : K -> option V) (keys : list K) : list (K * V) :=
  flat_map (fun k => match F k with Some a => [(k, a)] | None => [] end) keys.
Lemma table_of_get F c keys :
  dget c (table_of F keys) = if existsb (fun k => eqb k c) keys then F c else None.
Proof.
  induction keys as [|k ks IH]; cbn [table_of flat_map existsb]; [reflexivity|]. fold (table_of F ks).
  destruct (F k) as [a|] eqn:Ek; cbn [app LazyDbMulti.dget].
  - destruct (eqb k c) eqn:E; cbn [orb]; [apply eqb_spec in E; subst; auto|exact IH].
  - rewrite IH. destruct (eqb k c) eqn:E; cbn [orb]; [|reflexivity]. apply eqb_spec in E. subst. rewrite Ek.
    destruct (existsb _ ks); reflexivity.
Qed.
Lemma table_of_keys F keys k : In k (map fst (table_of F keys)) -> In k keys.
Proof.
  induction keys as [|k0 ks IH]; cbn [table_of flat_map]; [auto|]. fold (table_of F ks). rewrite map_app, in_app_iff.
  intros [H|H]; [|right; apply IH, H]. destruct (F k0); cbn [map fst In] in H; [destruct H as [<-|[]]; left; reflexivity|destruct H].
Qed.
Lemma table_of_nodup F keys : NoDup keys -> NoDup (map fst (table_of F keys)).
Proof.
  induction keys as [|k ks IH]; intros Hn; cbn [table_of flat_map]; [constructor|]. fold (table_of F ks).
  inversion Hn as [|? ? Hk Hn']. subst. rewrite map_app. destruct (F k); cbn [map fst app]; [|apply IH, Hn'].
  constructor; [intros X; apply Hk; eapply table_of_keys, X|apply IH, Hn'].
Qed.
End DictProofs.

Section MultiProofs.
Variables (name ent bytes : Type).
Variable name_eqb : name -> name -> bool.
Hypothesis name_eqb_spec : forall a b, name_eqb a b = true <-> a = b.
Variable decode : list name -> bytes -> list ent.
Hypothesis decode_len : forall cs data, length (decode cs data) = length cs.
Variable ent_bases : ent -> list name.
Variable is_empty : bytes -> bool.
Variable empty_bytes : bytes.
Hypothesis empty_is_empty : is_empty empty_bytes = true.
Variable via_get_ent : bool.
Hypothesis Hvia : via_get_ent = true.

Local Notation db := (db name ent bytes).
Local Notation file := (list (block name bytes)).
Local Notation answer := (answer ent).
Local Notation get_full := (get_full name ent bytes name_eqb decode ent_bases is_empty empty_bytes via_get_ent).
Local Notation full_spec := (full_spec name ent bytes name_eqb decode ent_bases).
Local Notation Top := (Top name ent bytes name_eqb decode ent_bases is_empty empty_bytes).
Local Notation engine_def := (engine_def name ent bytes name_eqb decode ent_bases is_empty empty_bytes via_get_ent).
Local Notation run_defs := (run_defs name ent bytes name_eqb decode ent_bases is_empty empty_bytes via_get_ent).
Local Notation loaded_entries := (loaded_entries name ent bytes name_eqb decode ent_bases is_empty empty_bytes via_get_ent).
Local Notation engine_dbase := (engine_dbase name ent bytes name_eqb decode ent_bases is_empty empty_bytes via_get_ent).
Local Notation engine_dbase_single := (engine_dbase_single name ent bytes name_eqb decode ent_bases is_empty empty_bytes via_get_ent).

(** a well-formed file: no class name twice, every block has data (as for one database) *)
Definition file_ok (B : file) : Prop := NoDup (flat_map fst B) /\ Forall (fun b => is_empty (snd b) = false) B.

(** what the list of files says about a class: the first file that defines it *)
Definition multi_spec (Bs : list file) (c : name) : option answer := first_some (map (fun B => full_spec B c) Bs).
(** ... and the last one *)
Definition multi_spec_last (Bs : list file) (c : name) : option answer := first_some (rev (map (fun B => full_spec B c) Bs)).

Definition Tops (f : nat) (Bs : list file) (ds : list db) : Prop := Forall2 (fun B d => file_ok B /\ Top B f d) Bs ds.

Lemma Tops_init f Bs : Forall file_ok Bs -> Forall (fun B => (length B <= f)%nat) Bs -> Tops f Bs (map (init name ent bytes) Bs).
Proof.
  induction Bs as [|B Bs IH]; intros Hk Hl; cbn [map]; [constructor|].
  pose proof (Forall_inv Hk). pose proof (Forall_inv_tail Hk). pose proof (Forall_inv Hl). pose proof (Forall_inv_tail Hl).
  constructor; [split; [assumption|apply Top_init; assumption]|apply IH; assumption].
Qed.

Theorem engine_def_correct f c : forall Bs ds, Tops f Bs ds ->
  fst (engine_def f ds c) = multi_spec Bs c /\ Tops f Bs (snd (engine_def f ds c)).
Proof.
  intros Bs ds H. induction H as [|B d Bs ds [[Hn He] Ht] Hr IH]; cbn [LazyDbMulti.engine_def]; [split; [reflexivity|constructor]|].
  destruct (get_full_correct name ent bytes name_eqb name_eqb_spec decode decode_len ent_bases is_empty empty_bytes empty_is_empty
              via_get_ent B Hn He Hvia f d c Ht) as [Ha Ht'].
  destruct (get_full f d c) as [x d'] eqn:E. cbn [fst snd] in Ha, Ht'. unfold multi_spec. cbn [map first_some]. rewrite <- Ha.
  destruct x as [a|].
  - cbn [fst snd]. split; [reflexivity|]. constructor; [split; [split|]; assumption|exact Hr].
  - destruct IH as [IH1 IH2]. destruct (engine_def f ds c) as [y r'] eqn:E2. cbn [fst snd] in *. split; [exact IH1|].
    constructor; [split; [split|]; assumption|exact IH2].
Qed.

Theorem run_defs_correct f Bs qs : forall ds, Tops f Bs ds ->
  fst (run_defs f ds qs) = map (multi_spec Bs) qs /\ Tops f Bs (snd (run_defs f ds qs)).
Proof.
  induction qs as [|c qs IH]; intros ds H; cbn [LazyDbMulti.run_defs map]; [auto|].
  destruct (engine_def_correct f c Bs ds H) as [Ha Ht]. destruct (engine_def f ds c) as [x ds'] eqn:E. cbn [fst snd] in Ha, Ht.
  destruct (IH ds' Ht) as [Hb Ht2]. destruct (run_defs f ds' qs) as [xs ds'']. cbn [fst snd] in *. rewrite Ha, Hb. auto.
Qed.

(** the `entities` dictionary of one completely loaded database is the file content *)
Lemma loaded_entries_get g B c : file_ok B -> (length B <= g)%nat ->
  dget name answer name_eqb c (loaded_entries g B) = full_spec B c.
Proof.
  intros [Hn He] Hl. unfold LazyDbMulti.loaded_entries.
  set (d := LazyDb.parse_all _ _ _ _ _ _ _ _ _ g _).
  assert (Ht : Top B g d).
  { apply (parse_all_top name ent bytes name_eqb name_eqb_spec decode decode_len ent_bases is_empty empty_bytes empty_is_empty
             via_get_ent B Hn He Hvia). apply Top_init; assumption. }
  assert (Hg : forall k, fst (get_full g d k) = full_spec B k).
  { intros k. apply (get_full_correct name ent bytes name_eqb name_eqb_spec decode decode_len ent_bases is_empty empty_bytes
                       empty_is_empty via_get_ent B Hn He Hvia g d k Ht). }
  rewrite (flat_map_ext _ (fun k => match full_spec B k with Some a => [(k, a)] | None => [] end)) by (intros k; rewrite Hg; reflexivity).
  change (flat_map _ (flat_map fst B)) with (table_of name answer (full_spec B) (flat_map fst B)).
  rewrite (table_of_get name answer name_eqb name_eqb_spec).
  destruct (existsb (fun k => name_eqb k c) (flat_map fst B)) eqn:Ex; [reflexivity|].
  unfold LazyDbProofs.full_spec, LazyDb.spec. rewrite (spec_none_gen name ent bytes name_eqb name_eqb_spec decode c B); [reflexivity|].
  intros b Hb Hin. assert (X : existsb (fun k => name_eqb k c) (flat_map fst B) = true); [|congruence].
  apply existsb_exists. exists c. split; [apply in_flat_map; exists b; auto|apply name_eqb_spec; reflexivity].
Qed.

Lemma loaded_entries_nodup g B : file_ok B -> (length B <= g)%nat -> NoDup (map fst (loaded_entries g B)).
Proof.
  intros [Hn He] Hl. unfold LazyDbMulti.loaded_entries. set (d := LazyDb.parse_all _ _ _ _ _ _ _ _ _ g _).
  apply (table_of_nodup name answer (fun k => fst (get_full g d k))). exact Hn.
Qed.

Lemma map_loaded_get g c Bs : Forall file_ok Bs -> Forall (fun B => (length B <= g)%nat) Bs ->
  map (dget name answer name_eqb c) (map (loaded_entries g) Bs) = map (fun B => full_spec B c) Bs.
Proof.
  induction Bs as [|B Bs IH]; intros Hk Hl; cbn [map]; [reflexivity|].
  pose proof (Forall_inv Hk). pose proof (Forall_inv_tail Hk). pose proof (Forall_inv Hl). pose proof (Forall_inv_tail Hl).
  rewrite loaded_entries_get by assumption. rewrite IH by assumption. reflexivity.
Qed.

(** FGD.engine_dbase() with the merge that keeps the first definition = the first file that defines the class *)
Theorem engine_dbase_first g Bs c : Forall file_ok Bs -> Forall (fun B => (length B <= g)%nat) Bs ->
  engine_dbase FirstWins g Bs c = multi_spec Bs c.
Proof.
  intros Hk Hl. unfold LazyDbMulti.engine_dbase. rewrite (first_merge_get name answer name_eqb name_eqb_spec).
  rewrite map_loaded_get by assumption. reflexivity.
Qed.

(** ... with the overwriting merge = the LAST file that defines it *)
Theorem engine_dbase_last g Bs c : Forall file_ok Bs -> Forall (fun B => (length B <= g)%nat) Bs ->
  engine_dbase LastWins g Bs c = multi_spec_last Bs c.
Proof.
  intros Hk Hl. unfold LazyDbMulti.engine_dbase. rewrite (last_merge_get name answer name_eqb name_eqb_spec).
  - rewrite map_loaded_get by assumption. reflexivity.
  - clear c. induction Bs as [|B Bs IH]; cbn [map]; constructor;
      pose proof (Forall_inv Hk); pose proof (Forall_inv_tail Hk); pose proof (Forall_inv Hl); pose proof (Forall_inv_tail Hl);
      [apply loaded_entries_nodup; assumption|apply IH; assumption].
Qed.

(** the shortcut for one database is the merge of one database (either mode) *)
Theorem engine_dbase_one mode g B c : file_ok B -> (length B <= g)%nat ->
  engine_dbase mode g [B] c = engine_dbase_single g B c.
Proof.
  intros Hk Hl. unfold LazyDbMulti.engine_dbase_single. rewrite loaded_entries_get by assumption. destruct mode.
  - rewrite engine_dbase_first by (constructor; [assumption|constructor]). unfold multi_spec. cbn [map first_some]. destruct (full_spec B c); reflexivity.
  - rewrite engine_dbase_last by (constructor; [assumption|constructor]). unfold multi_spec_last. cbn [map rev app first_some]. destruct (full_spec B c); reflexivity.
Qed.

(** One at a time, in any order, with any repetitions, on a fresh LIST of databases = the merged whole, if the merge
    keeps the first definition of a class *)
Theorem multi_lazy_equals_eager f g Bs qs :
  Forall file_ok Bs -> Forall (fun B => (length B <= f)%nat) Bs -> Forall (fun B => (length B <= g)%nat) Bs ->
  fst (run_defs f (map (init name ent bytes) Bs) qs) = map (engine_dbase FirstWins g Bs) qs.
Proof.
  intros Hk Hf Hg. destruct (run_defs_correct f Bs qs _ (Tops_init f Bs Hk Hf)) as [-> _]. apply map_ext. intros c.
  symmetry. apply engine_dbase_first; assumption.
Qed.

(** ... and if it overwrites, the two disagree on every class that two databases define differently: the look-up
    answers with the first, the merged whole with the last *)
Theorem multi_overwrite_differs f g Bs c :
  Forall file_ok Bs -> Forall (fun B => (length B <= f)%nat) Bs -> Forall (fun B => (length B <= g)%nat) Bs ->
  multi_spec Bs c <> multi_spec_last Bs c ->
  fst (run_defs f (map (init name ent bytes) Bs) [c]) <> [engine_dbase LastWins g Bs c].
Proof.
  intros Hk Hf Hg Hd. destruct (run_defs_correct f Bs [c] _ (Tops_init f Bs Hk Hf)) as [-> _]. cbn [map].
  rewrite engine_dbase_last by assumption. intros [= X]. exact (Hd X).
Qed.
End MultiProofs.
