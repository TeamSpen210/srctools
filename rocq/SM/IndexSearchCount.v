(** How often VMF.search yields an entity.  The set semantics of SM/IndexShapes.v ([sp_run]) says which
    entities a search program returns; this file counts, for the same programs, how many times an entity is yielded
    ([sp_count]: a set is iterated once per `yield from`, every member once — CopySet iteration without mutation, see
    c07_copyset_iteration_total), and shows: for every program that passes the shape obligations and the
    obligations [exact_once] / [star_once], an entity is yielded once for a matching name plus once for a matching
    class — so at most twice, and twice exactly when its name and its class both equal the query. *)
From stdpp Require Import gmap sets list.
From Coq Require Import NArith Lia.
From SV Require Import SM.IndexModel SM.IndexProofs SM.IndexShapes SM.IndexShapeProofs.

Definition b2n (b : bool) : nat := if b then 1 else 0.

Section count.
  Variable fold : str → str.

  Definition scan_test (p : str → bool) (folded : bool) (e : nat) (kv : option str * gset nat) : bool :=
    match kv.1 with Some k => p (if folded then fold k else k) && bool_decide (e ∈ kv.2) | None => false end.
  Definition scan_count (p : str → bool) (folded : bool) (e : nat) (st : mstate) : nat :=
    length (List.filter (scan_test p folded e) (map_to_list (by_target st))).

  Fixpoint sp_count (p : sprog) (nm : str) (e : nat) (st : mstate) : nat * mstate :=
    match p with
    | PSkip => (0, st)
    | PSeq a b => let '(n1, st1) := sp_count a nm e st in
                  let '(n2, st2) := sp_count b nm e st1 in (n1 + n2, st2)
    | PIf c a b => if (match c with CInTarget => has_target nm st | CInClass => has_class nm st
                                  | CNeTarget => ne_target nm st | CNeClass => ne_class nm st end)
                   then sp_count a nm e st else sp_count b nm e st
    | PYieldTarget => (b2n (bool_decide (e ∈ ix_get (by_target st) (Some nm))), upd_target (probe (Some nm)) st)
    | PYieldClass => (b2n (bool_decide (e ∈ ix_get (by_class st) nm)), upd_class (probe nm) st)
    | PScanTarget t f =>
        (scan_count (match t with TEq => λ k, bool_decide (k = nm) | TPrefix => is_prefix nm end) f e st, st)
    | PYieldGetTarget => (b2n (bool_decide (e ∈ ix_get (by_target st) (Some nm))), st)
    | PYieldGetClass => (b2n (bool_decide (e ∈ ix_get (by_class st) nm)), st)
    end.
  Definition search_count (sh : search_shape) (name : str) (e : nat) (st : mstate) : nat :=
    if sh_empty_returns sh && bool_decide (name = []) then 0 else
    let nm := if sh_folds sh then fold name else name in
    if ends_star nm then (sp_count (sh_star sh) (if sh_star_strips sh then removelast nm else nm) e st).1
    else (sp_count (sh_exact sh) nm e st).1.

  (** symbolic multiplicities: how many times each of the three parts is yielded, per presence facts *)
  Fixpoint sp_mult (net nec : bool) (p : sprog) (bt bc : bool) : nat * nat * nat * bool * bool :=
    match p with
    | PSkip => (0, 0, 0, bt, bc)
    | PSeq a b => let '(t1, c1, p1, bt1, bc1) := sp_mult net nec a bt bc in
                  let '(t2, c2, p2, bt2, bc2) := sp_mult net nec b bt1 bc1 in
                  (t1 + t2, c1 + c2, p1 + p2, bt2, bc2)
    | PIf CInTarget a b => if bt then sp_mult net nec a bt bc else sp_mult net nec b bt bc
    | PIf CInClass a b => if bc then sp_mult net nec a bt bc else sp_mult net nec b bt bc
    | PIf CNeTarget a b => if net then sp_mult net nec a bt bc else sp_mult net nec b bt bc
    | PIf CNeClass a b => if nec then sp_mult net nec a bt bc else sp_mult net nec b bt bc
    | PYieldTarget => (1, 0, 0, true, bc)
    | PYieldClass => (0, 1, 0, bt, true)
    | PScanTarget TEq _ => (1, 0, 0, bt, bc)
    | PScanTarget TPrefix _ => (0, 0, 1, bt, bc)
    | PYieldGetTarget => (1, 0, 0, bt, bc)
    | PYieldGetClass => (0, 1, 0, bt, bc)
    end.
  (** no part is yielded twice *)
  Definition exact_once (p : sprog) : bool :=
    forallb (λ f : bool * bool * bool * bool,
               let '(bt, bc, net, nec) := f in
               let '(t, c, pp, _, _) := sp_mult net nec p bt bc in
               Nat.leb t 1 && Nat.leb c 1 && Nat.eqb pp 0) flag_cases.
  Definition star_once (p : sprog) : bool :=
    forallb (λ f : bool * bool * bool * bool,
               let '(bt, bc, net, nec) := f in
               let '(t, c, pp, _, _) := sp_mult net nec p bt bc in
               Nat.eqb t 0 && Nat.eqb c 0 && Nat.leb pp 1) flag_cases.
  Definition search_once_ok (sh : search_shape) : bool := star_once (sh_star sh) && exact_once (sh_exact sh).

  Lemma ltb_add a b : Nat.ltb 0 (a + b) = Nat.ltb 0 a || Nat.ltb 0 b.
  Proof. by destruct a, b. Qed.
  Lemma sp_mult_sym net nec p : ∀ bt bc, let '(t, c, pp, bt', bc') := sp_mult net nec p bt bc in
    sp_sym net nec p bt bc = (Nat.ltb 0 t, Nat.ltb 0 c, Nat.ltb 0 pp, bt', bc').
  Proof.
    induction p as [|a IHa b IHb|cd a IHa b IHb| | |tst f| |]; intros bt bc; simpl; try done.
    - specialize (IHa bt bc). destruct (sp_mult net nec a bt bc) as [[[[t1 c1] p1] bt1] bc1]. rewrite IHa.
      specialize (IHb bt1 bc1). destruct (sp_mult net nec b bt1 bc1) as [[[[t2 c2] p2] bt2] bc2]. rewrite IHb.
      by rewrite !ltb_add.
    - destruct cd; [destruct bt|destruct bc|destruct net|destruct nec]; (apply IHa || apply IHb).
    - by destruct tst.
  Qed.

  Hypothesis fold_idem : ∀ s, fold (fold s) = fold s.

  (** at most one entry of the name index passes the scan test for a given entity: it sits under one key only *)
  Lemma filter_length_le1 {A} (Q : A → bool) (l : list A) :
    NoDup l → (∀ x y, x ∈ l → y ∈ l → Q x = true → Q y = true → x = y) → length (List.filter Q l) ≤ 1.
  Proof.
    induction 1 as [|x l Hx Hnd IH]; intros Hu; simpl; [lia|].
    destruct (Q x) eqn:Ex.
    - simpl. assert (List.filter Q l = []) as ->; [|simpl; lia].
      destruct (List.filter Q l) as [|y r] eqn:E; [done|]. exfalso.
      assert (Hy : List.In y (List.filter Q l)) by (rewrite E; by left). apply filter_In in Hy as [Hy1 Hy2].
      apply elem_of_list_In in Hy1. apply Hx. rewrite (Hu x y); [done|left|by right|done|done].
    - apply IH. intros a b Ha Hb. apply Hu; by right.
  Qed.

  Lemma scan_count_named p f e st : Inv fold st →
    scan_count p f e st = b2n (bool_decide (e ∈ named fold p f st)).
  Proof.
    intros HI. unfold scan_count.
    assert (Hle : length (List.filter (scan_test p f e) (map_to_list (by_target st))) ≤ 1).
    { apply filter_length_le1; [apply NoDup_map_to_list|].
      intros [k1 X1] [k2 X2] H1 H2 Q1 Q2. apply elem_of_map_to_list in H1, H2.
      unfold scan_test in Q1, Q2. simpl in *. destruct k1 as [k1|], k2 as [k2|]; try done.
      apply andb_true_iff in Q1 as [_ E1%bool_decide_eq_true], Q2 as [_ E2%bool_decide_eq_true].
      assert (e ∈ ix_get (by_target st) (Some k1)) as G1 by (unfold ix_get; by rewrite H1).
      assert (e ∈ ix_get (by_target st) (Some k2)) as G2 by (unfold ix_get; by rewrite H2).
      apply (inv_by_target fold) in G1 as [_ G1]; [|done]. apply (inv_by_target fold) in G2 as [_ G2]; [|done].
      assert (k1 = k2) as -> by congruence. congruence. }
    case_bool_decide as Hin.
    - unfold named in Hin. apply elem_of_union_list in Hin as (X & HX & He).
      apply elem_of_list_In, in_map_iff in HX as ([ko X'] & <- & Hin). apply filter_In in Hin as [Hin Hp].
      assert (List.In (ko, X') (List.filter (scan_test p f e) (map_to_list (by_target st)))) as Hf.
      { apply filter_In. split; [done|]. unfold scan_test. simpl in *. destruct ko; [|done]. rewrite Hp. simpl.
        by apply bool_decide_eq_true. }
      destruct (List.filter _ _) as [|? [|? ?]]; simpl in *; [done|done|lia].
    - destruct (List.filter _ _) as [|[ko X] r] eqn:E; [done|]. exfalso. apply Hin.
      assert (List.In (ko, X) (List.filter (scan_test p f e) (map_to_list (by_target st)))) as Hf by (rewrite E; by left).
      apply filter_In in Hf as [Hf1 Hf2]. unfold scan_test in Hf2. simpl in Hf2. destruct ko as [k|]; [|done].
      apply andb_true_iff in Hf2 as [Hp He%bool_decide_eq_true].
      unfold named. apply elem_of_union_list. exists X. split; [|done].
      apply elem_of_list_In, in_map_iff. exists (Some k, X). split; [done|]. apply filter_In. by split.
  Qed.

  Definition bT nm e st := bool_decide (e ∈ ix_get (by_target st) (Some nm)).
  Definition bC nm e st := bool_decide (e ∈ ix_get (by_class st) nm).
  Definition bP nm e st := bool_decide (e ∈ named fold (is_prefix nm) true st).

  Lemma bT_equiv nm e st st' : ix_equiv st st' → bT nm e st' = bT nm e st.
  Proof. intros (_&_&_&_&_&Ht). unfold bT. by rewrite Ht. Qed.
  Lemma bC_equiv nm e st st' : ix_equiv st st' → bC nm e st' = bC nm e st.
  Proof. intros (_&_&_&_&Hc&_). unfold bC. by rewrite Hc. Qed.
  Lemma bP_equiv nm e st st' : Inv fold st → ix_equiv st st' → bP nm e st' = bP nm e st.
  Proof.
    intros HI Heq. unfold bP. apply bool_decide_ext.
    rewrite !(named_spec' fold fold_idem) by (done || by eapply ix_equiv_inv).
    by rewrite (ix_equiv_present st st'), (ix_equiv_tgt fold st st').
  Qed.

  Lemma named_eq_bT nm f e st : Inv fold st →
    bool_decide (e ∈ named fold (λ k, bool_decide (k = nm)) f st) = bT nm e st.
  Proof.
    intros HI. unfold bT. apply bool_decide_ext. rewrite (named_spec' fold fold_idem) by done.
    rewrite (inv_by_target fold) by done. split.
    - intros (Hp & k & Hk & ->%bool_decide_eq_true). done.
    - intros [Hp Hk]. split; [done|]. exists nm. split; [done|]. by apply bool_decide_eq_true.
  Qed.
  Lemma named_prefix_fold nm f e st : Inv fold st →
    bool_decide (e ∈ named fold (is_prefix nm) f st) = bP nm e st.
  Proof. intros HI. unfold bP. apply bool_decide_ext. by rewrite !(named_spec' fold fold_idem). Qed.

  Lemma sp_count_sem p : ∀ nm e st t c pp bt' bc' n st', Inv fold st →
    sp_mult (ne_target nm st) (ne_class nm st) p (has_target nm st) (has_class nm st) = (t, c, pp, bt', bc') →
    sp_count p nm e st = (n, st') →
    ix_equiv st st' ∧ has_target nm st' = bt' ∧ has_class nm st' = bc' ∧
    n = t * b2n (bT nm e st) + c * b2n (bC nm e st) + pp * b2n (bP nm e st).
  Proof.
    induction p as [|a IHa b IHb|cd a IHa b IHb| | |tst f| |]; intros nm e st t c pp bt' bc' n st' HI Hsym Hrun; simpl in *.
    - simplify_eq. split; [apply ix_equiv_refl|]. done.
    - destruct (sp_mult _ _ a _ _) as [[[[t1 c1] p1] bt1] bc1] eqn:Ea.
      destruct (sp_count a nm e st) as [n1 st1] eqn:Ra.
      destruct (IHa _ _ _ _ _ _ _ _ _ _ HI Ea Ra) as (Heq1 & Hbt1 & Hbc1 & Hn1).
      rewrite <- Hbt1, <- Hbc1, <- (ne_target_equiv nm st st1 Heq1), <- (ne_class_equiv nm st st1 Heq1) in Hsym.
      destruct (sp_mult _ _ b _ _) as [[[[t2 c2] p2] bt2] bc2] eqn:Eb.
      destruct (sp_count b nm e st1) as [n2 st2] eqn:Rb.
      assert (HI1 : Inv fold st1) by (by eapply ix_equiv_inv).
      destruct (IHb _ _ _ _ _ _ _ _ _ _ HI1 Eb Rb) as (Heq2 & Hbt2 & Hbc2 & Hn2).
      simplify_eq. split; [by eapply ix_equiv_trans|]. split; [done|]. split; [done|].
      rewrite (bT_equiv nm e st st1 Heq1), (bC_equiv nm e st st1 Heq1), (bP_equiv nm e st st1 HI Heq1). lia.
    - destruct cd.
      + destruct (has_target nm st) eqn:E; [eapply IHa|eapply IHb]; eauto; by rewrite E.
      + destruct (has_class nm st) eqn:E; [eapply IHa|eapply IHb]; eauto; by rewrite E.
      + destruct (ne_target nm st) eqn:E; [eapply IHa|eapply IHb]; eauto; by rewrite E.
      + destruct (ne_class nm st) eqn:E; [eapply IHa|eapply IHb]; eauto; by rewrite E.
    - simplify_eq. split.
      { repeat split; try done. intros k. simpl. apply ix_get_probe. }
      split; [apply has_target_probe|]. split; [done|]. unfold bT. lia.
    - simplify_eq. split.
      { repeat split; try done. intros k. simpl. apply ix_get_probe. }
      split; [done|]. split; [apply has_class_probe|]. unfold bC. lia.
    - destruct tst; simplify_eq; (split; [apply ix_equiv_refl|]); (split; [done|]); (split; [done|]);
        rewrite scan_count_named by done.
      + rewrite named_eq_bT by done. lia.
      + rewrite named_prefix_fold by done. lia.
    - simplify_eq. split; [apply ix_equiv_refl|]. split; [done|]. split; [done|]. unfold bT. lia.
    - simplify_eq. split; [apply ix_equiv_refl|]. split; [done|]. split; [done|]. unfold bC. lia.
  Qed.

  (** a set without members holds nothing *)
  Lemma absent_bT nm e st : ne_target nm st = false → bT nm e st = false.
  Proof.
    unfold ne_target, bT. intros H%bool_decide_eq_false. apply bool_decide_eq_false.
    intros He. apply H. intros E. rewrite E in He. set_solver.
  Qed.
  Lemma absent_bC nm e st : ne_class nm st = false → bC nm e st = false.
  Proof.
    unfold ne_class, bC. intros H%bool_decide_eq_false. apply bool_decide_eq_false.
    intros He. apply H. intros E. rewrite E in He. set_solver.
  Qed.

  (** VMF.search as written: how often an entity is yielded *)
  Theorem search_count_spec sh name e st : search_shape_ok sh = true → search_once_ok sh = true → Inv fold st →
    search_count sh name e st =
      if bool_decide (name = []) then 0
      else if ends_star (fold name) then b2n (bP (removelast (fold name)) e st)
      else b2n (bT (fold name) e st) + b2n (bC (fold name) e st).
  Proof.
    unfold search_shape_ok, search_once_ok. rewrite !andb_true_iff.
    intros ((((He & Hf) & Hs) & Hstar) & Hex) [Hso Heo] HI. unfold search_count. rewrite He, Hf, Hs. simpl.
    case_bool_decide as Hn; [done|]. destruct (ends_star (fold name)) eqn:Hst.
    - set (nm := removelast (fold name)).
      destruct (sp_mult (ne_target nm st) (ne_class nm st) (sh_star sh) (has_target nm st) (has_class nm st)) as [[[[t c] pp] bt'] bc'] eqn:Es.
      destruct (sp_count (sh_star sh) nm e st) as [n st'] eqn:Er.
      destruct (sp_count_sem _ _ _ _ _ _ _ _ _ _ _ HI Es Er) as (_ & _ & _ & ->). simpl.
      pose proof (sp_mult_sym (ne_target nm st) (ne_class nm st) (sh_star sh) (has_target nm st) (has_class nm st)) as Hsym. rewrite Es in Hsym.
      apply (flag_cases_st _ nm st) in Hstar. simpl in Hstar. rewrite Hsym in Hstar. apply andb_true_iff in Hstar as [Hp _]. apply Nat.ltb_lt in Hp.
      apply (flag_cases_st _ nm st) in Hso. simpl in Hso. rewrite Es in Hso. apply andb_true_iff in Hso as [Hso Hp1]. apply andb_true_iff in Hso as [Ht0 Hc0].
      apply Nat.eqb_eq in Ht0, Hc0. apply Nat.leb_le in Hp1. subst. assert (pp = 1) as -> by lia. lia.
    - set (nm := fold name).
      destruct (sp_mult (ne_target nm st) (ne_class nm st) (sh_exact sh) (has_target nm st) (has_class nm st)) as [[[[t c] pp] bt'] bc'] eqn:Es.
      destruct (sp_count (sh_exact sh) nm e st) as [n st'] eqn:Er.
      destruct (sp_count_sem _ _ _ _ _ _ _ _ _ _ _ HI Es Er) as (_ & _ & _ & ->). simpl.
      pose proof (sp_mult_sym (ne_target nm st) (ne_class nm st) (sh_exact sh) (has_target nm st) (has_class nm st)) as Hsym. rewrite Es in Hsym.
      apply (flag_cases_st _ nm st) in Hex. simpl in Hex. rewrite Hsym in Hex. apply andb_true_iff in Hex as [Hex Hc]. apply andb_true_iff in Hex as [Hpp Ht].
      apply (flag_cases_st _ nm st) in Heo. simpl in Heo. rewrite Es in Heo. apply andb_true_iff in Heo as [Heo Hp0]. apply andb_true_iff in Heo as [Ht1 Hc1].
      apply Nat.eqb_eq in Hp0. apply Nat.leb_le in Ht1, Hc1. subst pp.
      assert (t * b2n (bT nm e st) = b2n (bT nm e st)) as ->.
      { destruct (ne_target nm st) eqn:E.
        - simpl in Ht. apply Nat.ltb_lt in Ht. assert (t = 1) as -> by lia. lia.
        - rewrite (absent_bT _ _ _ E). simpl. lia. }
      assert (c * b2n (bC nm e st) = b2n (bC nm e st)) as ->.
      { destruct (ne_class nm st) eqn:E.
        - simpl in Hc. apply Nat.ltb_lt in Hc. assert (c = 1) as -> by lia. lia.
        - rewrite (absent_bC _ _ _ E). simpl. lia. }
      lia.
  Qed.

  Corollary search_count_le2 sh name e st : search_shape_ok sh = true → search_once_ok sh = true → Inv fold st →
    search_count sh name e st ≤ 2.
  Proof.
    intros H1 H2 HI. rewrite (search_count_spec sh name e st H1 H2 HI).
    case_bool_decide; [lia|]. destruct (ends_star _); [destruct (bP _ _ _)|destruct (bT _ _ _), (bC _ _ _)]; simpl; lia.
  Qed.
End count.

(** a program that yields the class set twice passes the (set-level) shape obligations but not [exact_once]; an entity
    whose name and class both equal the query is yielded twice by today's program — and three times by that one *)
Definition search_shape_class_twice : search_shape :=
  SearchShape true true true (PScanTarget TPrefix true)
    (PSeq (PScanTarget TEq true) (PIf CInClass (PSeq PYieldClass PYieldClass) PSkip)).
