From Coq Require Import List Arith Lia Permutation.
From SV Require Import SM.C17Rounds SM.C17RoundsDyn.
Import ListNotations.

Section Graph.
  Variable children : file -> list file.
  Notation loop := (loop children).
  Notation round := (round children).
  Notation rounds := (rounds children).

  Lemma loop_unfold : forall k p, loop (S k) p =
    match p with [] => (Done, 0, 0) | _ :: _ => let '(o, r, w) := loop k (round p) in (o, S r, length p + w) end.
  Proof. reflexivity. Qed.

  (** The loop runs at most [limit] rounds; if it raises it ran exactly [limit] rounds; if it finishes, the map
      holds no instance after the rounds it ran, and that happened strictly before the limit. *)
  Lemma rounds_bounded : forall limit p,
    l_rounds (loop limit p) <= limit /\
    (l_outcome (loop limit p) = Raise -> l_rounds (loop limit p) = limit) /\
    (l_outcome (loop limit p) = Done -> rounds (l_rounds (loop limit p)) p = [] /\ l_rounds (loop limit p) < limit).
  Proof.
    induction limit as [|k IH]; intros p.
    - cbn. repeat split; try lia; discriminate.
    - rewrite loop_unfold. destruct p as [|f p].
      + cbn. repeat split; try lia; discriminate.
      + specialize (IH (round (f :: p))). destruct (loop k (round (f :: p))) as [[o r] w].
        unfold l_rounds, l_outcome in *. cbn [fst snd] in *. destruct IH as (A & B & C).
        repeat split; try lia.
        * intros H. rewrite (B H). reflexivity.
        * apply C, H.
        * apply C in H. lia.
  Qed.

  (** Work = number of pending instances summed over the executed rounds. *)
  Lemma work_is_sum : forall limit p, l_work (loop limit p) = work_upto children (l_rounds (loop limit p)) p.
  Proof.
    induction limit as [|k IH]; intros p; [reflexivity|].
    rewrite loop_unfold. destruct p as [|f p]; [reflexivity|].
    specialize (IH (round (f :: p))). destruct (loop k (round (f :: p))) as [[o r] w].
    unfold l_work, l_rounds in *. cbn [fst snd work_upto] in *. rewrite IH. reflexivity.
  Qed.

  (** Success exactly when the inclusion depth is below the limit. *)
  Lemma done_iff : forall limit p, l_outcome (loop limit p) = Done <-> exists k, k < limit /\ rounds k p = [].
  Proof.
    induction limit as [|k IH]; intros p.
    - cbn. split; [discriminate | intros (j & Hj & _); lia].
    - rewrite loop_unfold. destruct p as [|f p].
      + cbn. split; [intros _; exists 0; split; [lia | reflexivity] | reflexivity].
      + specialize (IH (round (f :: p))). destruct (loop k (round (f :: p))) as [[o r] w].
        unfold l_outcome in *. cbn [fst snd] in *. rewrite IH. split.
        * intros (j & Hj & E). exists (S j). split; [lia | exact E].
        * intros (j & Hj & E). destruct j as [|j]; [discriminate E|]. exists j. split; [lia | exact E].
  Qed.

  (** Instances that include each other (the pending set never empties) make the loop raise, for every limit. *)
  Lemma cycle_raises : forall limit p, (forall k, rounds k p <> []) ->
    l_outcome (loop limit p) = Raise /\ l_rounds (loop limit p) = limit.
  Proof.
    intros limit p H.
    assert (O : l_outcome (loop limit p) = Raise).
    { destruct (l_outcome (loop limit p)) eqn:E; [|reflexivity].
      apply done_iff in E as (k & _ & E). destruct (H k E). }
    split; [exact O | apply (rounds_bounded limit p), O].
  Qed.

  (** With fan-out at most [b] per file the pending set grows at most geometrically. *)
  Lemma round_length : forall b p, (forall f, length (children f) <= b) -> length (round p) <= b * length p.
  Proof.
    intros b p H. induction p as [|f p IH]; cbn [C17Rounds.round flat_map length]; [lia|].
    rewrite app_length. specialize (H f). fold (round p). lia.
  Qed.

  (** Fan-out at most one (every instance file holds at most one func_instance): the total work is linear. *)
  Lemma work_linear_fanout1 : forall limit p, (forall f, length (children f) <= 1) ->
    l_work (loop limit p) <= limit * length p.
  Proof.
    intros limit p H. revert p. induction limit as [|k IH]; intros p; [cbn; lia|].
    rewrite loop_unfold. destruct p as [|f p]; [cbn; lia|].
    specialize (IH (round (f :: p))). pose proof (round_length 1 (f :: p) H) as L.
    destruct (loop k (round (f :: p))) as [[o r] w]. unfold l_work in *. cbn [fst snd] in *.
    nia.
  Qed.

  Lemma rounds_nil : forall k, rounds k [] = [].
  Proof. induction k; cbn; auto. Qed.

  Lemma rounds_add : forall a b p, rounds (a + b) p = rounds b (rounds a p).
  Proof. induction a; intros; cbn; auto. Qed.

  Lemma round_incl : forall p q, incl p q -> incl (round p) (round q).
  Proof.
    intros p q H x Hx. unfold C17Rounds.round in *. apply in_flat_map in Hx as (y & Hy & Hx).
    apply in_flat_map. exists y. split; auto.
  Qed.

  Lemma rounds_incl : forall k p q, incl p q -> incl (rounds k p) (rounds k q).
  Proof. induction k; intros p q H; cbn; auto. apply IHk, round_incl, H. Qed.

  Lemma rounds_S_end : forall k p, rounds (S k) p = round (rounds k p).
  Proof. intros. replace (S k) with (k + 1) by lia. rewrite rounds_add. reflexivity. Qed.

  Lemma in_never_empty : forall f p, In f p -> (forall j, rounds j [f] <> []) -> forall j, rounds j p <> [].
  Proof.
    intros f p I H j E. apply (H j).
    assert (S : incl (rounds j [f]) (rounds j p)) by (apply rounds_incl; intros x [<-|[]]; exact I).
    rewrite E in S. apply incl_l_nil, S.
  Qed.

  (** The loop without the check does not depend on the order of the pending instances. *)
  Lemma round_perm : forall p q, Permutation p q -> Permutation (round p) (round q).
  Proof. intros. apply Permutation_flat_map. assumption. Qed.

  Lemma loop_perm : forall k p q, Permutation p q -> loop k p = loop k q.
  Proof.
    induction k as [|k IH]; intros p q H; [reflexivity|].
    rewrite !loop_unfold. destruct p as [|a p], q as [|b q].
    - reflexivity.
    - apply Permutation_nil in H. discriminate.
    - apply Permutation_sym, Permutation_nil in H. discriminate.
    - rewrite (IH _ _ (round_perm _ _ H)), (Permutation_length H). reflexivity.
  Qed.
End Graph.

Lemma loop_ext : forall ch ch', (forall f, ch f = ch' f) -> forall k p, loop ch k p = loop ch' k p.
Proof.
  intros ch ch' E. induction k as [|k IH]; intros p; [reflexivity|]. rewrite !loop_unfold.
  destruct p as [|f p]; [reflexivity|]. unfold round. rewrite (flat_map_ext _ _ E), IH. reflexivity.
Qed.

(** A file that includes itself once: [limit] rounds, [limit] collapses, then RecursionError. *)
Lemma self_once : forall limit, loop (fun _ => [0]) limit [0] = (Raise, limit, limit).
Proof.
  induction limit as [|k IH]; [reflexivity|]. rewrite loop_unfold. cbn [C17Rounds.round flat_map app].
  rewrite IH. reflexivity.
Qed.

(** A file that includes itself twice: the pending set doubles every round, so the loop without the ancestry check
    performs [2^limit - 1] collapses before it raises (defect #32; the ancestry check of [loop2] below ends it in the
    second round: with the default limit of 100 that was 2^100 - 1). *)
Lemma round_double : forall n, round (fun _ => [0; 0]) (repeat 0 n) = repeat 0 (2 * n).
Proof.
  induction n as [|n IH]; [reflexivity|]. cbn [repeat C17Rounds.round flat_map app].
  fold (round (fun _ => [0; 0]) (repeat 0 n)). rewrite IH.
  replace (2 * S n) with (S (S (2 * n))) by lia. reflexivity.
Qed.

Lemma self_twice_general : forall limit n, 0 < n ->
  loop (fun _ => [0; 0]) limit (repeat 0 n) = (Raise, limit, n * (2 ^ limit - 1)).
Proof.
  induction limit as [|k IH]; intros n Hn; [cbn; f_equal; lia|].
  rewrite loop_unfold. destruct n as [|n]; [lia|]. cbn [repeat].
  change (0 :: repeat 0 n) with (repeat 0 (S n)). rewrite round_double, IH by lia.
  rewrite repeat_length. f_equal. 
  assert (1 <= 2 ^ k) by (apply Nat.neq_0_lt_0, Nat.pow_nonzero; lia).
  cbn [Nat.pow]. nia.
Qed.

Lemma self_twice : forall limit, loop (fun _ => [0; 0]) limit [0] = (Raise, limit, 2 ^ limit - 1).
Proof. intros. change [0] with (repeat 0 1). rewrite self_twice_general by lia. f_equal. lia. Qed.

(** Non-vacuity: an acyclic chain 2 -> 1 -> 0 finishes when the limit exceeds its depth and raises otherwise. *)
Definition chain (f : file) : list file := match f with 0 => [] | S k => [k] end.
Example chain_done : loop chain 4 [2] = (Done, 3, 3).
Proof. reflexivity. Qed.
Example chain_limit_too_small : loop chain 3 [2] = (Raise, 3, 3).
Proof. reflexivity. Qed.

(** * The loop with the ancestry check decides exactly like the loop without it, only sooner.
    Proved once for [loop3] (SM/C17RoundsDyn.v: pending instances are states, parents are recorded along literal links
    only); [loop2] is the case in which every state is its file and every link is literal. *)
Section Graph3.
  Variable fl : nat -> file.
  Variable kids : nat -> list (nat * bool).
  Hypothesis lit : lit_by_file fl kids.
  Notation ch := (children3 kids).
  Notation loop := (loop ch).
  Notation round := (round ch).
  Notation rounds := (rounds ch).
  Notation expand3 := (expand3 fl kids).
  Notation is_loop3 := (is_loop3 fl).

  (** file [g] is a literal nested instance of file [f], from whatever state [f] is collapsed *)
  Definition flink (f g : file) : Prop := forall s, fl s = f -> exists c, In (c, true) (kids s) /\ fl c = g.

  Fixpoint lit_path (f : file) (ps : list file) : Prop :=
    match ps with [] => True | a :: t => flink a f /\ lit_path a t end.

  Lemma flink_intro : forall s c, In (c, true) (kids s) -> flink (fl s) (fl c).
  Proof. intros s c H s' E. apply (lit s s' (eq_sym E) c H). Qed.

  Lemma kid_in_round : forall p s c b, In s p -> In (c, b) (kids s) -> In c (round p).
  Proof.
    intros p s c b Hs H. apply in_flat_map. exists s. split; [exact Hs|].
    apply in_map_iff. exists (c, b). split; [reflexivity | exact H].
  Qed.

  Lemma path_reach : forall l1 f a l2, lit_path f (l1 ++ a :: l2) ->
    forall s, fl s = a -> exists s', In s' (rounds (S (length l1)) [s]) /\ fl s' = f.
  Proof.
    induction l1 as [|b l1 IH]; intros f a l2 H s E; cbn [app lit_path] in H.
    - destruct H as [H _]. destruct (H s E) as (c & Hc & Fc).
      exists c. split; [|exact Fc]. exact (kid_in_round [s] s c true (or_introl eq_refl) Hc).
    - destruct H as [H1 H2]. destruct (IH _ _ _ H2 s E) as (s1 & I1 & F1).
      destruct (H1 s1 F1) as (c & Hc & Fc). exists c. split; [|exact Fc].
      cbn [length]. rewrite (rounds_S_end ch). exact (kid_in_round _ s1 c true I1 Hc).
  Qed.

  (** a file from which a literal path of [m] links leads back to itself: every state of that file stays pending forever *)
  Lemma self_reach_forever3 : forall f m, (forall s, fl s = f -> exists s', In s' (rounds m [s]) /\ fl s' = f) ->
    forall i s, fl s = f -> exists s', In s' (rounds (i * m) [s]) /\ fl s' = f.
  Proof.
    intros f m H. induction i as [|i IH]; intros s E.
    - exists s. split; [left; reflexivity | exact E].
    - destruct (IH s E) as (s1 & I1 & F1). destruct (H s1 F1) as (s2 & I2 & F2). exists s2. split; [|exact F2].
      replace (S i * m) with (i * m + m) by lia. rewrite (rounds_add ch).
      apply (rounds_incl ch m [s1]); [|exact I2]. intros x [<-|[]]. exact I1.
  Qed.

  Lemma cycle_never_empty3 : forall f m, 0 < m -> (forall s, fl s = f -> exists s', In s' (rounds m [s]) /\ fl s' = f) ->
    forall s, fl s = f -> forall j, rounds j [s] <> [].
  Proof.
    intros f m Hm H s E j Z. destruct (self_reach_forever3 f m H j s E) as (s' & I & _).
    replace (j * m) with (j + (j * m - j)) in I by nia. rewrite (rounds_add ch), Z, (rounds_nil ch) in I. exact I.
  Qed.

  Lemma loop_item_forever3 : forall s ps, lit_path (fl s) ps -> In (fl s) ps -> forall j, rounds j [s] <> [].
  Proof.
    intros s ps C I. apply in_split in I as (l1 & l2 & ->).
    apply (cycle_never_empty3 (fl s) (S (length l1))); [lia | | reflexivity].
    intros s0 E. eapply path_reach; [exact C | exact E].
  Qed.

  Variable perm : list item3 -> list item3.
  Hypothesis perm_ok : forall l, Permutation (perm l) l.
  Notation loop3 := (loop3 fl kids perm).

  Lemma loop3_unfold : forall k p, loop3 (S k) p =
    match p with
    | [] => (Done, 0, 0)
    | _ :: _ => let q := perm p in
                if existsb is_loop3 q then (Raise, 1, before3 fl q)
                else let '(o, r, w) := loop3 k (flat_map expand3 q) in (o, S r, length q + w)
    end.
  Proof. reflexivity. Qed.

  Definition good3 (x : item3) : Prop := lit_path (fl (fst x)) (snd x).

  Lemma flat_expand_good3 : forall q, Forall good3 q -> Forall good3 (flat_map expand3 q).
  Proof.
    intros q H. rewrite Forall_forall in *. intros y Hy. apply in_flat_map in Hy as (x & Hx & Hy).
    unfold C17RoundsDyn.expand3 in Hy. apply in_map_iff in Hy as ([c b] & <- & Hc). unfold good3. cbn [fst snd].
    destruct b; [|exact I]. split; [apply flink_intro, Hc | apply (H x Hx)].
  Qed.

  Lemma map_fst_expand3 : forall q, map fst (flat_map expand3 q) = round (map fst q).
  Proof.
    induction q as [|x q IH]; [reflexivity|].
    change (flat_map expand3 (x :: q)) with (expand3 x ++ flat_map expand3 q).
    change (round (map fst (x :: q))) with (ch (fst x) ++ round (map fst q)).
    rewrite map_app. f_equal; [|exact IH]. unfold C17RoundsDyn.expand3, children3. rewrite map_map. reflexivity.
  Qed.

  Lemma before3_le : forall q, before3 fl q <= length q.
  Proof. induction q as [|x q IH]; cbn [before3 length]; [lia|]. destruct (is_loop3 x); lia. Qed.

  Lemma is_loop3_true : forall x, is_loop3 x = true <-> In (fl (fst x)) (snd x).
  Proof.
    intros x. unfold C17RoundsDyn.is_loop3. rewrite existsb_exists. split.
    - intros (y & Hy & E). apply Nat.eqb_eq in E. subst. exact Hy.
    - intros H. exists (fl (fst x)). split; [exact H | apply Nat.eqb_refl].
  Qed.

  Lemma loop3_vs_loop : forall limit p, Forall good3 p ->
    l_outcome (loop3 limit p) = l_outcome (loop limit (map fst p)) /\
    (l_outcome (loop limit (map fst p)) = Done -> loop3 limit p = loop limit (map fst p)) /\
    l_work (loop3 limit p) <= l_work (loop limit (map fst p)) /\
    l_rounds (loop3 limit p) <= l_rounds (loop limit (map fst p)).
  Proof.
    induction limit as [|k IH]; intros p G.
    - cbn. repeat split; auto.
    - destruct p as [|x p]; [cbn; repeat split; auto|].
      rewrite loop3_unfold. cbv zeta.
      pose proof (perm_ok (x :: p)) as Pq. remember (perm (x :: p)) as q eqn:Eq. clear Eq.
      assert (Gq : Forall good3 q) by (eapply Permutation_Forall; [apply Permutation_sym, Pq | exact G]).
      assert (Pm : Permutation (map fst q) (map fst (x :: p))) by (apply Permutation_map, Pq).
      assert (Lq : length q = length (map fst (x :: p))) by (rewrite map_length; apply Permutation_length, Pq).
      destruct (existsb is_loop3 q) eqn:Hit.
      + apply existsb_exists in Hit as (y & Hy & L). apply is_loop3_true in L.
        rewrite Forall_forall in Gq. pose proof (loop_item_forever3 _ _ (Gq y Hy) L) as F.
        assert (I : In (fst y) (map fst (x :: p))) by (eapply Permutation_in; [exact Pm | apply in_map, Hy]).
        pose proof (in_never_empty ch _ _ I F) as NE.
        destruct (cycle_raises ch (S k) _ NE) as [O _].
        pose proof (before3_le q) as B. rewrite Lq in B.
        revert O B. cbn [map]. rewrite (loop_unfold ch).
        destruct (C17Rounds.loop ch k _) as [[o r] w]. unfold l_outcome, l_work, l_rounds. cbn [fst snd length].
        intros -> B. repeat split; try lia. discriminate.
      + specialize (IH (flat_map expand3 q) (flat_expand_good3 q Gq)). rewrite map_fst_expand3 in IH.
        rewrite (loop_perm ch k _ _ (round_perm ch _ _ Pm)) in IH. rewrite Lq.
        cbn [map] in *. rewrite (loop_unfold ch).
        destruct (C17RoundsDyn.loop3 fl kids perm k _) as [[o2 r2] w2].
        destruct (C17Rounds.loop ch k _) as [[o r] w]. unfold l_outcome, l_work, l_rounds in *. cbn [fst snd length] in *.
        destruct IH as (A & B & C & D). repeat split; try lia; [exact A|].
        intros H. specialize (B H). injection B as -> -> ->. reflexivity.
  Qed.

  Lemma start3_good : forall roots, Forall good3 (start3 roots).
  Proof. intros. apply Forall_forall. intros x Hx. apply in_map_iff in Hx as (f & <- & _). exact I. Qed.

  Lemma map_fst_start3 : forall roots, map fst (start3 roots) = roots.
  Proof. intros. unfold start3. rewrite map_map. apply map_id. Qed.
End Graph3.

Lemma lit_by_file_id : forall kids, lit_by_file (fun s => s) kids.
Proof. intros kids s s' E c H. subst s'. exists c. split; [exact H | reflexivity]. Qed.

Definition lit_kids (children : file -> list file) (f : file) : list (nat * bool) := map (fun c => (c, true)) (children f).

Section Graph2.
  Variable children : file -> list file.
  Notation loop := (loop children).
  Notation expand := (expand children).
  Variable perm : list item -> list item.
  Hypothesis perm_ok : forall l, Permutation (perm l) l.
  Notation loop2 := (loop2 children perm).

  Lemma loop2_unfold : forall k p, loop2 (S k) p =
    match p with
    | [] => (Done, 0, 0)
    | _ :: _ => let q := perm p in
                if existsb is_loop q then (Raise, 1, before q)
                else let '(o, r, w) := loop2 k (flat_map expand q) in (o, S r, length q + w)
    end.
  Proof. reflexivity. Qed.

  Lemma is_loop_true : forall x, is_loop x = true <-> In (fst x) (snd x).
  Proof. exact (is_loop3_true (fun s => s)). Qed.

  Lemma children3_lit : forall f, children3 (lit_kids children) f = children f.
  Proof. intros. unfold children3, lit_kids. rewrite map_map. apply map_id. Qed.

  Lemma expand3_lit : forall x, expand3 (fun s => s) (lit_kids children) x = expand x.
  Proof. intros. unfold expand3, lit_kids. rewrite map_map. reflexivity. Qed.

  Lemma loop3_lit : forall k p, loop3 (fun s => s) (lit_kids children) perm k p = loop2 k p.
  Proof.
    induction k as [|k IH]; intros p; [reflexivity|]. rewrite loop3_unfold, loop2_unfold.
    destruct p; [reflexivity|]. cbv zeta. rewrite (flat_map_ext _ _ expand3_lit), IH. reflexivity.
  Qed.

  Lemma loop2_vs_loop : forall limit roots,
    l_outcome (loop2 limit (start roots)) = l_outcome (loop limit roots) /\
    (l_outcome (loop limit roots) = Done -> loop2 limit (start roots) = loop limit roots) /\
    l_work (loop2 limit (start roots)) <= l_work (loop limit roots) /\
    l_rounds (loop2 limit (start roots)) <= l_rounds (loop limit roots).
  Proof.
    intros limit roots.
    pose proof (loop3_vs_loop _ _ (lit_by_file_id (lit_kids children)) perm perm_ok limit _ (start3_good _ _ roots)) as H.
    rewrite map_fst_start3, loop3_lit, (loop_ext _ _ children3_lit) in H. exact H.
  Qed.

  (** The number of rounds no longer depends on the limit: a chain of parents never repeats a file. *)
  Section Bound.
    Variable univ : list file.
    Hypothesis closed : forall f, In f univ -> incl (children f) univ.

    Definition inv (d : nat) (x : item) : Prop := NoDup (snd x) /\ incl (fst x :: snd x) univ /\ length (snd x) = d.

    Lemma rounds_le_files_gen : forall limit d p, Forall (inv d) p -> l_rounds (loop2 limit p) <= S (length univ) - d.
    Proof.
      induction limit as [|k IH]; intros d p G; [cbn; lia|].
      destruct p as [|x p]; [cbn; lia|].
      rewrite loop2_unfold. cbv zeta.
      pose proof (perm_ok (x :: p)) as Pq. remember (perm (x :: p)) as q eqn:Eq. clear Eq.
      assert (Gq : Forall (inv d) q) by (eapply Permutation_Forall; [apply Permutation_sym, Pq | exact G]).
      rewrite Forall_forall in Gq.
      destruct q as [|y q']; [apply Permutation_nil in Pq; discriminate|]. set (q := y :: q') in *.
      assert (Hy : In y q) by (left; reflexivity).
      destruct (existsb is_loop q) eqn:Hit.
      - destruct (Gq y Hy) as (N & Inc & Len). unfold l_rounds. cbn [fst snd].
        assert (length (snd y) <= length univ) by (apply NoDup_incl_length; [exact N | intros z Hz; apply Inc; right; exact Hz]).
        lia.
      - assert (NL : forall z, In z q -> ~ In (fst z) (snd z)).
        { intros z Hz L. apply is_loop_true in L. assert (existsb is_loop q = true) by (apply existsb_exists; eauto). congruence. }
        assert (Sd : S d <= length univ).
        { destruct (Gq y Hy) as (N & Inc & Len). rewrite <- Len.
          change (S (length (snd y))) with (length (fst y :: snd y)). apply NoDup_incl_length; [|exact Inc].
          constructor; [apply NL, Hy | exact N]. }
        assert (Gn : Forall (inv (S d)) (flat_map expand q)).
        { apply Forall_forall. intros z Hz. apply in_flat_map in Hz as (u & Hu & Hz).
          unfold C17Rounds.expand in Hz. apply in_map_iff in Hz as (c & <- & Hc).
          destruct (Gq u Hu) as (N & Inc & Len). unfold inv. cbn [fst snd length]. repeat split.
          - constructor; [apply NL, Hu | exact N].
          - intros z [<-|Hz]; [|apply Inc, Hz]. apply (closed (fst u)); [apply Inc; left; reflexivity | exact Hc].
          - rewrite Len. reflexivity. }
        specialize (IH (S d) _ Gn). destruct (C17Rounds.loop2 children perm k _) as [[o r] w].
        unfold l_rounds in *. cbn [fst snd] in *. lia.
    Qed.

    Theorem cycle_check_rounds_le_files : forall limit roots, incl roots univ ->
      l_rounds (loop2 limit (start roots)) <= S (length univ).
    Proof.
      intros limit roots H. pose proof (rounds_le_files_gen limit 0 (start roots)) as R.
      rewrite Nat.sub_0_r in R. apply R. apply Forall_forall. intros x Hx. apply in_map_iff in Hx as (f & <- & Hf).
      unfold inv. cbn [fst snd length]. split; [apply NoDup_nil|]. split; [|reflexivity].
      intros z [<-|[]]. apply H, Hf.
    Qed.
  End Bound.
End Graph2.

(** A file that includes itself twice: one collapse, then the second round finds the file among its parents
    (the loop without the check needs 2^limit - 1 collapses, [self_twice]). *)
Lemma self_twice_checked : forall limit, 2 <= limit ->
  loop2 (fun _ => [0; 0]) (fun l => l) limit (start [0]) = (Raise, 2, 1).
Proof. intros [|[|k]] H; try lia. reflexivity. Qed.

(** The same in whatever order the set hands out the pending instances. *)
Lemma self_twice_checked_any_order : forall perm, (forall l, Permutation (perm l) l) ->
  forall limit, 2 <= limit -> loop2 (fun _ => [0; 0]) perm limit (start [0]) = (Raise, 2, 1).
Proof.
  unfold item. intros perm P [|[|k]] H; try lia.
  rewrite loop2_unfold. cbn [start map]. cbv zeta.
  rewrite (Permutation_length_1_inv (Permutation_sym (P [(0, [])]))).
  cbn [existsb is_loop fst snd flat_map expand map app]. rewrite loop2_unfold. cbv zeta.
  match goal with |- context [perm ?l] =>
    destruct (Permutation_length_2_inv (Permutation_sym (P l))) as [E|E]; rewrite E end; reflexivity.
Qed.

(** Non-vacuity of the bound and of exactness: a diamond finishes with the same numbers, a 3-cycle is caught in round 4. *)
Definition diamond (f : file) : list file := match f with 3 => [2; 2] | 2 => [1; 1] | 1 => [0] | _ => [] end.
Example diamond_same : loop2 diamond (fun l => l) 100 (start [3]) = loop diamond 100 [3].
Proof. reflexivity. Qed.
Definition ring3 (f : file) : list file := match f with 0 => [1] | 1 => [2] | _ => [0] end.
Example ring3_caught : forall limit, 4 <= limit -> loop2 ring3 (fun l => l) limit (start [0]) = (Raise, 4, 3).
Proof. intros [|[|[|[|k]]]] H; try lia. reflexivity. Qed.
