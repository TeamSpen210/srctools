From stdpp Require Import gmap.
From SV Require Import SM.IdMan.
Open Scope Z_scope.

Lemma scan_some f p u i : scan f p u = Some i → p ≤ i ∧ i ∉ u ∧ ∀ j, p ≤ j < i → j ∈ u.
Proof.
  revert p; induction f as [|f IH]; intros p; simpl; [discriminate|].
  destruct (decide (p ∈ u)) as [Hin|Hn].
  - intros H. destruct (IH _ H) as (Hle & Hni & Hall). repeat split; [lia|done|].
    intros j Hj. destruct (decide (j = p)) as [->|]; [done|]. apply Hall; lia.
  - intros [= <-]. repeat split; [lia|done|]. intros; lia.
Qed.

Lemma scan_terminates (f : nat) (p : Z) (u : gset Z) :
  (size (filter (λ x : Z, (p ≤ x)%Z) u) < f)%nat → is_Some (scan f p u).
Proof.
  revert p; induction f as [|f IH]; intros p Hs; [lia|]. simpl.
  destruct (decide (p ∈ u)) as [Hin|]; [|eauto].
  apply IH.
  assert (Hsub : filter (λ x, p + 1 ≤ x) u ⊂ filter (λ x, p ≤ x) u).
  { apply strict_spec_alt. split.
    - intros x. rewrite !elem_of_filter. intros [? ?]; split; [lia|done].
    - intros Heq. assert (Hp : p ∈ filter (λ x, p ≤ x) u) by (apply elem_of_filter; split; [lia|done]).
      rewrite <- Heq in Hp. apply elem_of_filter in Hp as [? _]. lia. }
  apply subset_size in Hsub. lia.
Qed.

(** The allocator invariant stated in the source comment: "IDs from 1:search_pos must have been used". *)
Definition Inv (s : idman) : Prop := 1 ≤ pos s ∧ (∀ j, 1 ≤ j < pos s → j ∈ used s).

Lemma init_inv : Inv init.
Proof. split; simpl; [lia|]. intros; lia. Qed.

(** The fuel [get_id] gives the scan: one more than there are IDs in use. *)
Lemma scan_fuel_enough (u : gset Z) p : (size (filter (λ x : Z, (p ≤ x)%Z) u) < S (size u))%nat.
Proof.
  assert (Hsub : filter (λ x, p ≤ x) u ⊆ u) by (intros x; rewrite elem_of_filter; tauto).
  apply subseteq_size in Hsub. lia.
Qed.

Lemma get_id_total d s : is_Some (get_id d s).
Proof.
  unfold get_id. destruct (decide _); [eauto|].
  destruct (scan_terminates _ (pos s) (used s) (scan_fuel_enough _ _)) as [i ->]. eauto.
Qed.

Lemma get_id_fresh d s i s' : Inv s → get_id d s = Some (i, s') →
  0 < i ∧ i ∉ used s ∧ used s' = {[i]} ∪ used s ∧ Inv s'.
Proof.
  intros [Hp Hall]. unfold get_id. destruct (decide _) as [[Hd Hn]|_].
  - intros [= <- <-]. split; [done|]. split; [done|]. split; [done|]. split; simpl; [done|].
    intros j Hj. apply elem_of_union_r. apply Hall; lia.
  - destruct (scan _ _ _) as [k|] eqn:E; [|discriminate]. intros [= <- <-].
    destruct (scan_some _ _ _ _ E) as (Hle & Hni & Hbetween).
    split; [lia|]. split; [done|]. split; [done|]. split; simpl; [lia|].
    intros j Hj. destruct (decide (j = k)) as [->|]; [set_solver|].
    apply elem_of_union_r. destruct (decide (j < pos s)); [apply Hall; lia|apply Hbetween; lia].
Qed.

(** The desired ID is honoured exactly when it is positive and free. *)
Lemma get_id_desired d s : 0 < d → d ∉ used s → ∃ s', get_id d s = Some (d, s').
Proof. intros Hd Hn. unfold get_id. destruct (decide _) as [|Hno]; [eauto|]. exfalso; apply Hno; done. Qed.

(** Releasing any value (positive or not, in use or not) keeps the invariant: only positive IDs lower the hint. *)
Lemma discard_inv e s : Inv s → Inv (discard e s).
Proof.
  intros [Hp Hall].
  (* the hint stays where it is or drops to a positive [e]: below it, [e] itself does not occur *)
  assert (Hpos : 1 ≤ pos (discard e s) ≤ pos s ∧ (pos (discard e s) ≤ e ∨ e < 1)).
  { unfold discard, discard_g; simpl. destruct (decide (e < pos s)); [|lia]. case_bool_decide; simpl; lia. }
  split; [lia|]. intros j Hj. apply elem_of_difference. split; [apply Hall; lia|]. rewrite elem_of_singleton. lia.
Qed.

(** What every step keeps, every run keeps. *)
Lemma fold_left_inv {S E} (P : S → Prop) (f : S → E → S) :
  (∀ s e, P s → P (f s e)) → ∀ es s, P s → P (fold_left f es s).
Proof. intros Hf. induction es as [|e es IH]; intros s H; simpl; [done|]. by apply IH, Hf. Qed.

(** [sublist_of] keeps [NoDup], and a filtered list is a sublist. *)
Lemma my_sublist_NoDup {A} (l k : list A) : l `sublist_of` k → NoDup k → NoDup l.
Proof.
  induction 1 as [|x l k Hs IH|x l k Hs IH]; rewrite ?NoDup_cons; [done| |tauto].
  intros [Hn Hnd]. split; [|auto]. intros Hin. apply Hn. by eapply elem_of_submseteq, sublist_submseteq.
Qed.
Lemma my_sublist_filter {A} (P : A → Prop) `{∀ x, Decision (P x)} (l : list A) : filter P l `sublist_of` l.
Proof.
  induction l as [|a l IH]; [constructor|]. rewrite filter_cons. destruct (decide (P a)); by constructor.
Qed.

Lemma my_sublist_filter_impl {A} (P Q : A → Prop) `{∀ x, Decision (P x), ∀ x, Decision (Q x)} (l : list A) :
  (∀ x, x ∈ l → P x → Q x) → filter P l `sublist_of` filter Q l.
Proof.
  induction l as [|a l IH]; intros Himp; [constructor|].
  assert (Hl : filter P l `sublist_of` filter Q l) by (apply IH; intros x ?; apply Himp; by right).
  rewrite !filter_cons. destruct (decide (P a)) as [HP|]; [|destruct (decide (Q a)); by try constructor].
  rewrite decide_True by (apply Himp; [left|done]). by constructor.
Qed.

(** The invariant every object world of this directory shares: a manager together with the list of the IDs that
    owners currently hold.  Each ID is held once, is positive, and is known to the manager. *)
Definition Held (m : idman) (ids : list Z) : Prop :=
  Inv m ∧ NoDup ids ∧ ∀ i, i ∈ ids → i ∈ used m ∧ 0 < i.

Global Instance held_perm m : Proper ((≡ₚ) ==> iff) (Held m).
Proof. intros l k E. unfold Held. by setoid_rewrite E. Qed.

Lemma held_init : Held init [].
Proof. split; [apply init_inv|]. split; [constructor|]. by intros i ?%elem_of_nil. Qed.

Lemma held_unique m ids : Held m ids → NoDup ids ∧ ∀ i, i ∈ ids → 0 < i.
Proof. intros (_ & Hnd & Hin). split; [done|]. intros i Hi. by destruct (Hin _ Hi). Qed.

(** Owners may give IDs up without telling the manager. *)
Lemma held_sublist m l ids : l `sublist_of` ids → Held m ids → Held m l.
Proof.
  intros Hs (HI & Hnd & Hin). split; [done|]. split; [by eapply my_sublist_NoDup|].
  intros i Hi. by eapply Hin, elem_of_submseteq, sublist_submseteq.
Qed.

(** The manager may learn of IDs that nobody holds (a leak). *)
Lemma held_grow m m' ids : Inv m' → used m ⊆ used m' → Held m ids → Held m' ids.
Proof.
  intros HI Hsub (_ & Hnd & Hin). split; [done|]. split; [done|]. intros i Hi. destruct (Hin _ Hi). auto.
Qed.

Lemma get_id_grows d m i m' : Inv m → get_id d m = Some (i, m') → Inv m' ∧ used m ⊆ used m'.
Proof.
  intros HI E. destruct (get_id_fresh _ _ _ _ HI E) as (_ & _ & -> & HI'). split; [done|]. apply union_subseteq_r.
Qed.

(** A new owner receives its ID from the manager. *)
Lemma held_alloc m A B d i m' : get_id d m = Some (i, m') → Held m (A ++ B) → Held m' (A ++ i :: B).
Proof.
  intros E (HI & Hnd & Hin). destruct (get_id_fresh _ _ _ _ HI E) as (Hpos & Hfresh & Hused & HI').
  rewrite <- Permutation_middle. split; [done|]. split.
  - apply NoDup_cons. split; [|done]. intros Hi. by apply Hfresh, Hin.
  - intros j Hj. rewrite Hused, elem_of_union, elem_of_singleton.
    apply elem_of_cons in Hj as [->|Hj]; [auto|]. destruct (Hin _ Hj). auto.
Qed.

(** An owner hands its ID back: nobody else holds it, so every other holder keeps a registered ID. *)
Lemma held_release m A n B : Held m (A ++ n :: B) → Held (discard n m) (A ++ B).
Proof.
  rewrite <- Permutation_middle. intros (HI & [Hn Hnd]%NoDup_cons & Hin).
  split; [by apply discard_inv|]. split; [done|]. intros i Hi.
  destruct (Hin i) as [Hu Hp]; [by right|]. split; [|done].
  apply elem_of_difference. split; [done|]. rewrite elem_of_singleton. by intros ->.
Qed.

(** The [k]-th object of a world is replaced.  [ids] lists the IDs the objects hold, object by object (a list
    homomorphism); what has to be shown is the effect on the IDs of that one object, in any surroundings. *)
Lemma held_update {O} (ids : list O → list Z) m m' (l : list O) k o o' :
  (∀ l1 l2, ids (l1 ++ l2) = ids l1 ++ ids l2) → l !! k = Some o →
  (∀ A B, Held m (A ++ ids [o] ++ B) → Held m' (A ++ ids [o'] ++ B)) →
  Held m (ids l) → Held m' (ids (<[k:=o']> l)).
Proof.
  intros Happ Hk Hstep. rewrite <- (take_drop_middle l k o Hk) at 1.
  rewrite insert_take_drop by (by eapply lookup_lt_Some).
  rewrite !(cons_middle _ (take k l)), !Happ. apply Hstep.
Qed.

