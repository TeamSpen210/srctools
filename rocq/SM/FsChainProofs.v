(** C19 — proofs about the model in FsChain.v. *)
From Coq Require Import List NArith Bool Lia Permutation.
From SV Require Import SM.FsChain.
Import ListNotations.
Open Scope N_scope.

(** * characters *)
Lemma foldc_idem c : foldc (foldc c) = foldc c.
Proof.
  unfold foldc. destruct ((65 <=? c) && (c <=? 90)) eqn:E; [|rewrite E; reflexivity].
  apply andb_true_iff in E as [H1 H2]. apply N.leb_le in H1, H2.
  assert (H : (c + 32 <=? 90) = false) by (apply N.leb_gt; lia).
  rewrite H, andb_false_r. reflexivity.
Qed.

Lemma slashc_idem c : slashc (slashc c) = slashc c.
Proof.
  unfold slashc. destruct (c =? BS) eqn:E; [reflexivity|]. rewrite E. reflexivity.
Qed.

Lemma foldc_slashc c : foldc (slashc c) = slashc (foldc c).
Proof.
  unfold slashc, BS, SL. destruct (N.eqb_spec c 92) as [->|Hc]; [reflexivity|].
  unfold foldc. destruct ((65 <=? c) && (c <=? 90)) eqn:E.
  - apply andb_true_iff in E as [H1 H2]. apply N.leb_le in H1, H2.
    destruct (N.eqb_spec (c + 32) 92); [lia|reflexivity].
  - destruct (N.eqb_spec c 92); [contradiction|reflexivity].
Qed.

Lemma fold_idem s : fold (fold s) = fold s.
Proof. unfold fold. rewrite map_map. apply map_ext. apply foldc_idem. Qed.
Lemma slash_idem s : slash (slash s) = slash s.
Proof. unfold slash. rewrite map_map. apply map_ext. apply slashc_idem. Qed.
Lemma fold_slash s : fold (slash s) = slash (fold s).
Proof. unfold fold, slash. rewrite !map_map. apply map_ext. apply foldc_slashc. Qed.

Lemma nkey_slash s : nkey (slash s) = nkey s.
Proof. unfold nkey. rewrite slash_idem. reflexivity. Qed.
Lemma nkey_fold s : nkey (fold s) = nkey s.
Proof. unfold nkey. rewrite <- fold_slash, fold_idem. reflexivity. Qed.
Lemma nkey_idem s : nkey (nkey s) = nkey s.
Proof. unfold nkey at 2. rewrite nkey_fold, nkey_slash. reflexivity. Qed.
Lemma slash_nkey s : slash (nkey s) = nkey s.
Proof. unfold nkey. rewrite <- fold_slash, slash_idem. reflexivity. Qed.
Lemma fold_nkey s : fold (nkey s) = nkey s.
Proof. unfold nkey. apply fold_idem. Qed.
Lemma nkey_app a b : nkey (a ++ b) = nkey a ++ nkey b.
Proof. unfold nkey, fold, slash. rewrite !map_app. reflexivity. Qed.
Lemma nkey_sep a b : nkey (a ++ SL :: b) = nkey a ++ SL :: nkey b.
Proof. apply nkey_app. Qed.

Lemma slash_no_bs s : forallb (fun c => negb (c =? BS)) s = true -> slash s = s.
Proof.
  induction s as [|c s IH]; [reflexivity|]. cbn [forallb]. intros H.
  apply andb_true_iff in H as [H1 H2]. cbn [slash map]. fold (slash s). rewrite (IH H2).
  unfold slashc. destruct (c =? BS); [discriminate|reflexivity].
Qed.

(** * string equality and prefix *)
Lemma eqb_str_spec a b : reflect (a = b) (eqb_str a b).
Proof.
  revert b. induction a as [|x a IH]; intros [|y b]; cbn [eqb_str]; try (constructor; congruence).
  destruct (N.eqb_spec x y) as [->|Hn]; cbn [andb].
  - destruct (IH b) as [->|Hn]; constructor; congruence.
  - constructor. congruence.
Qed.
Lemma eqb_str_eq a b : eqb_str a b = true <-> a = b.
Proof. destruct (eqb_str_spec a b); split; congruence. Qed.
Lemma eqb_str_refl a : eqb_str a a = true.
Proof. apply eqb_str_eq. reflexivity. Qed.
Lemma eqb_str_sym a b : eqb_str a b = eqb_str b a.
Proof. destruct (eqb_str_spec a b), (eqb_str_spec b a); congruence. Qed.

Lemma is_prefix_spec p s : is_prefix p s = true <-> exists r, s = p ++ r.
Proof.
  revert s. induction p as [|x p IH]; intros s; cbn [is_prefix].
  - split; [intros _; exists s; reflexivity|reflexivity].
  - destruct s as [|y s].
    + split; [discriminate|]. intros [r H]. discriminate.
    + rewrite andb_true_iff, N.eqb_eq, IH. split.
      * intros [-> [r ->]]. exists r. reflexivity.
      * intros [r H]. cbn in H. injection H as -> ->. split; [reflexivity|]. exists r. reflexivity.
Qed.

Lemma ends_slash p : is_prefix [SL] (rev p) = true -> exists p', p = p' ++ [SL].
Proof.
  intros H. apply is_prefix_spec in H as [r Hr]. exists (rev r).
  rewrite <- (rev_involutive p), Hr. cbn [app rev]. reflexivity.
Qed.

Lemma existsb_eqb_In k seen : existsb (eqb_str k) seen = true <-> In k seen.
Proof.
  rewrite existsb_exists. split.
  - intros [x [Hin H]]. apply eqb_str_eq in H. subst. exact Hin.
  - intros H. exists k. split; [exact H|apply eqb_str_refl].
Qed.

(** * split / join *)
Lemma split_on_nonempty c s : split_on c s <> [].
Proof.
  destruct s as [|x r]; cbn [split_on]; [discriminate|].
  destruct (x =? c); [discriminate|]. destruct (split_on c r); discriminate.
Qed.

Lemma join_split c s : join_with c (split_on c s) = s.
Proof.
  induction s as [|x r IH]; [reflexivity|]. cbn [split_on].
  destruct (N.eqb_spec x c) as [->|Hn].
  - cbn [join_with]. destruct (split_on c r) as [|h t] eqn:E.
    + exfalso. exact (split_on_nonempty c r E).
    + cbn [app]. rewrite IH. reflexivity.
  - destruct (split_on c r) as [|h t] eqn:E.
    + exfalso. exact (split_on_nonempty c r E).
    + cbn [join_with] in *. destruct t; cbn [app]; rewrite <- IH; reflexivity.
Qed.

Lemma split_app_sep a b : split_on SL (a ++ SL :: b) = split_on SL a ++ split_on SL b.
Proof.
  induction a as [|x a IH]; cbn [app split_on].
  - reflexivity.
  - rewrite IH. destruct (x =? SL); [reflexivity|].
    destruct (split_on SL a) as [|h t] eqn:E; [exfalso; exact (split_on_nonempty _ _ E)|]. reflexivity.
Qed.

(** * normpath is the identity on clean names *)
Lemma np_step_good a stk c : good_seg c = true -> np_step a stk c = c :: stk.
Proof.
  unfold good_seg, np_step. intros H.
  apply andb_true_iff in H as [H H3]. apply andb_true_iff in H as [H1 H2].
  apply negb_true_iff in H1, H2, H3. rewrite H1, H2, H3. reflexivity.
Qed.

Lemma np_fold_good a segs acc :
  forallb good_seg segs = true -> fold_left (np_step a) segs acc = rev segs ++ acc.
Proof.
  revert acc. induction segs as [|c segs IH]; intros acc H; [reflexivity|].
  cbn [forallb] in H. apply andb_true_iff in H as [H1 H2].
  cbn [fold_left]. rewrite np_step_good by exact H1. rewrite IH by exact H2.
  cbn [rev]. rewrite <- app_assoc. reflexivity.
Qed.

Lemma clean_normpath s : clean s = true -> normpath s = s.
Proof.
  unfold clean. intros H. destruct s as [|x r].
  - cbn in H. discriminate.
  - assert (Hx : (x =? SL) = false).
    { destruct (x =? SL) eqn:E; [|reflexivity]. cbn [split_on] in H. rewrite E in H. cbn in H. discriminate. }
    assert (Hi : initial_slashes (x :: r) = 0%nat).
    { unfold initial_slashes. cbn [is_prefix]. rewrite N.eqb_sym, Hx. reflexivity. }
    unfold normpath. rewrite Hi. cbn [Nat.eqb negb repeat app].
    rewrite np_fold_good by exact H. rewrite app_nil_r, rev_involutive, join_split. reflexivity.
Qed.

Lemma clean_name_normpath s : clean_name s = true -> normpath s = s.
Proof. unfold clean_name. intros H. apply andb_true_iff in H as [H _]. apply clean_normpath. exact H. Qed.
Lemma clean_name_slash s : clean_name s = true -> slash s = s.
Proof. unfold clean_name. intros H. apply andb_true_iff in H as [_ H]. apply slash_no_bs. exact H. Qed.

Lemma clean_fs_In fs e : clean_fs fs = true -> In e fs -> clean_name (fst e) = true.
Proof. unfold clean_fs. rewrite forallb_forall. intros H Hin. apply (H e Hin). Qed.

(** * operation lists *)
Lemma apply_ops_app a b s : apply_ops (a ++ b) s = apply_ops b (apply_ops a s).
Proof. unfold apply_ops. apply fold_left_app. Qed.

Definition sem_sf (l : list sop) (s : str) : str :=
  (if has_fold l then fold else fun x => x) ((if has_slash l then slash else fun x => x) s).

Lemma apply_sf l : forallb is_sf l = true -> forall s, apply_ops l s = sem_sf l s.
Proof.
  induction l as [|o l IH]; intros H s; [reflexivity|].
  cbn [forallb] in H. apply andb_true_iff in H as [Ho Hl].
  change (apply_ops (o :: l) s) with (apply_ops l (apply_op o s)). rewrite (IH Hl).
  unfold sem_sf. destruct o; try discriminate.
  - (* OSlash *)
    change (has_slash (OSlash :: l)) with true. change (has_fold (OSlash :: l)) with (has_fold l). cbn [apply_op].
    destruct (has_slash l); [rewrite slash_idem|]; reflexivity.
  - (* OFold *)
    change (has_fold (OFold :: l)) with true. change (has_slash (OFold :: l)) with (has_slash l). cbn [apply_op].
    destruct (has_slash l), (has_fold l); rewrite <- ?fold_slash, ?fold_idem; reflexivity.
Qed.

Lemma apply_sf_both l s : sf_both l = true -> apply_ops l s = nkey s.
Proof.
  unfold sf_both. intros H. apply andb_true_iff in H as [H Hf]. apply andb_true_iff in H as [H Hs].
  rewrite (apply_sf l H). unfold sem_sf. rewrite Hf, Hs. reflexivity.
Qed.

Lemma apply_sf_nkey l x : forallb is_sf l = true -> apply_ops l (nkey x) = nkey x.
Proof.
  intros H. rewrite (apply_sf l H). unfold sem_sf.
  destruct (has_fold l), (has_slash l); rewrite ?slash_nkey, ?fold_nkey; reflexivity.
Qed.

Lemma apply_ops_squash l s : apply_ops (squash l) s = apply_ops l s.
Proof.
  revert s. induction l as [|o r IH]; intros s; [reflexivity|]. cbn [squash].
  destruct r as [|o' r']; [reflexivity|].
  destruct (is_sf o && sop_eqb o o') eqn:E.
  - rewrite IH. apply andb_true_iff in E as [E1 E2].
    change (apply_ops (o :: o' :: r') s) with (apply_ops r' (apply_op o' (apply_op o s))).
    change (apply_ops (o' :: r') s) with (apply_ops r' (apply_op o' s)).
    destruct o, o'; try discriminate; cbn [apply_op]; rewrite ?slash_idem, ?fold_idem; reflexivity.
  - change (apply_ops (o :: squash (o' :: r')) s) with (apply_ops (squash (o' :: r')) (apply_op o s)).
    rewrite IH. reflexivity.
Qed.

Lemma apply_ops_norm l s : apply_ops l s = apply_ops (after_norm l) (prenorm (norm_kind l) s).
Proof.
  rewrite <- (apply_ops_squash l s). unfold after_norm, norm_kind.
  destruct (squash l) as [|[] [|[] r]]; reflexivity.
Qed.

Lemma key_ops_sem l s : key_ops_ok l = true -> apply_ops l s = nkey (prenorm (norm_kind l) s).
Proof. intros H. rewrite apply_ops_norm. apply apply_sf_both. exact H. Qed.

Lemma key_ops_stable l s :
  key_ops_ok l = true -> normpath s = s -> normpath (slash s) = slash s -> apply_ops l s = nkey s.
Proof.
  intros H Hn Hn'. rewrite (key_ops_sem l s H).
  destruct (norm_kind l); cbn [prenorm]; rewrite ?Hn, ?Hn', ?nkey_slash; reflexivity.
Qed.

Lemma prenorm_clean k s : clean_name s = true -> prenorm k s = s.
Proof.
  intros Hc. destruct k; cbn [prenorm]; rewrite ?(clean_name_slash s Hc), ?(clean_name_normpath s Hc); reflexivity.
Qed.

(** A clean stored name has no backslash: folding alone gives its key. *)
Lemma apply_sf_fold_clean l s :
  forallb is_sf l = true -> has_fold l = true -> clean_name s = true -> apply_ops l s = nkey s.
Proof.
  intros H Hf Hc. rewrite (apply_sf l H). unfold sem_sf, nkey. rewrite Hf.
  destruct (has_slash l); rewrite ?(clean_name_slash s Hc); reflexivity.
Qed.

Lemma store_ops_clean l s : store_ops_ok l = true -> clean_name s = true -> apply_ops l s = nkey s.
Proof.
  unfold store_ops_ok. intros H Hc. apply andb_true_iff in H as [Hr Hf].
  rewrite apply_ops_norm, (prenorm_clean _ s Hc). exact (apply_sf_fold_clean _ s Hr Hf Hc).
Qed.

Lemma key_ops_store l : key_ops_ok l = true -> store_ops_ok l = true.
Proof.
  unfold key_ops_ok, store_ops_ok, sf_both. intros H. apply andb_true_iff in H as [H Hf].
  apply andb_true_iff in H as [H _]. rewrite H, Hf. reflexivity.
Qed.

Lemma key_ops_clean l s : key_ops_ok l = true -> clean_name s = true -> apply_ops l s = nkey s.
Proof. intros H. apply store_ops_clean, key_ops_store, H. Qed.

(** * dictionaries *)
Section DictFacts.
  Context {V : Type}.
  Implicit Types (d : list (str * V)).

  Lemma dget_dset k k' (v : V) d :
    dget k (dset k' v d) = if eqb_str k k' then Some v else dget k d.
  Proof.
    induction d as [|[k1 v1] r IH]; cbn [dset dget].
    - destruct (eqb_str k k'); reflexivity.
    - destruct (eqb_str_spec k' k1) as [->|Hn]; cbn [dget].
      + destruct (eqb_str k k1); reflexivity.
      + rewrite IH. destruct (eqb_str_spec k k1) as [->|Hn1]; [|reflexivity].
        destruct (eqb_str_spec k1 k'); [congruence|reflexivity].
  Qed.

  Lemma dset_In k (v : V) d kv : In kv (dset k v d) -> kv = (k, v) \/ In kv d.
  Proof.
    induction d as [|[k1 v1] r IH]; cbn [dset].
    - intros [<-|[]]. left. reflexivity.
    - destruct (eqb_str k k1).
      + intros [<-|H]; [left; reflexivity|right; right; exact H].
      + intros [<-|H]; [right; left; reflexivity|]. destruct (IH H); [left|right; right]; assumption.
  Qed.

  Lemma dset_keys k (v : V) d x : In x (map fst (dset k v d)) -> x = k \/ In x (map fst d).
  Proof.
    rewrite !in_map_iff. intros [kv [<- H]]. destruct (dset_In _ _ _ _ H) as [->|H'].
    - left. reflexivity.
    - right. exists kv. split; [reflexivity|exact H'].
  Qed.

  Lemma dset_nodup k (v : V) d : NoDup (map fst d) -> NoDup (map fst (dset k v d)).
  Proof.
    induction d as [|[k1 v1] r IH]; cbn [dset map fst]; intros H.
    - constructor; [intros []|constructor].
    - inversion H as [|? ? Hnin Hnd]; subst.
      destruct (eqb_str_spec k k1) as [->|Hn]; cbn [map fst].
      + constructor; assumption.
      + constructor; [|apply IH; exact Hnd]. intros Hin.
        destruct (dset_keys _ _ _ _ Hin) as [->|Hin']; [congruence|contradiction].
  Qed.

  Lemma dget_In k (v : V) d : dget k d = Some v -> In (k, v) d.
  Proof.
    induction d as [|[k1 v1] r IH]; cbn [dget]; [discriminate|].
    destruct (eqb_str_spec k k1) as [->|Hn].
    - intros [= ->]. left. reflexivity.
    - intros H. right. apply IH. exact H.
  Qed.

  Lemma In_dget k (v : V) d : NoDup (map fst d) -> In (k, v) d -> dget k d = Some v.
  Proof.
    induction d as [|[k1 v1] r IH]; cbn [dget map fst]; intros Hnd Hin; [destruct Hin|].
    inversion Hnd as [|? ? Hnin Hnd']; subst. destruct Hin as [[= -> ->]|Hin].
    - rewrite eqb_str_refl. reflexivity.
    - destruct (eqb_str_spec k k1) as [->|Hn].
      + exfalso. apply Hnin. apply in_map_iff. exists (k1, v). split; [reflexivity|exact Hin].
      + apply IH; assumption.
  Qed.
End DictFacts.

Lemma mk_dict_snoc f fs e : mk_dict f (fs ++ [e]) = dset (f (fst e)) e (mk_dict f fs).
Proof. unfold mk_dict. rewrite fold_left_app. reflexivity. Qed.

Lemma mk_dict_nodup f fs : NoDup (map fst (mk_dict f fs)).
Proof.
  induction fs as [|e fs IH] using rev_ind; [constructor|].
  rewrite mk_dict_snoc. apply dset_nodup. exact IH.
Qed.

Lemma mk_dict_inv f fs k e : In (k, e) (mk_dict f fs) -> k = f (fst e) /\ In e fs.
Proof.
  induction fs as [|e' fs IH] using rev_ind; [intros []|].
  rewrite mk_dict_snoc. intros H. destruct (dset_In _ _ _ _ H) as [[= -> ->]|H'].
  - split; [reflexivity|]. apply in_or_app. right. left. reflexivity.
  - destruct (IH H') as [? ?]. split; [assumption|]. apply in_or_app. left. assumption.
Qed.

Lemma dget_mk_dict f fs k : dget k (mk_dict f fs) = find (fun e => eqb_str (f (fst e)) k) (rev fs).
Proof.
  induction fs as [|e fs IH] using rev_ind; [reflexivity|].
  rewrite mk_dict_snoc, dget_dset, rev_unit. cbn [find]. rewrite IH, (eqb_str_sym k). reflexivity.
Qed.

Lemma mk_dict_ext_in f g fs : (forall e, In e fs -> f (fst e) = g (fst e)) -> mk_dict f fs = mk_dict g fs.
Proof.
  induction fs as [|e fs IH] using rev_ind; intros H; [reflexivity|]. rewrite !mk_dict_snoc, IH, (H e).
  - reflexivity.
  - apply in_or_app. right. left. reflexivity.
  - intros x Hx. apply H, in_or_app. left. exact Hx.
Qed.

(** * lookup *)
Definition entries (b : backend) (fs : list file) : list file := map snd (the_dict b fs).

(** On clean stored names every recognised store key is the folded name: the dictionary of a backend is the
    specification's. *)
Lemma the_dict_nkey b fs : store_ops_ok (b_store b) = true -> clean_fs fs = true -> the_dict b fs = mk_dict nkey fs.
Proof.
  intros Hs Hc. apply mk_dict_ext_in. intros e He. apply store_ops_clean; [exact Hs|exact (clean_fs_In fs e Hc He)].
Qed.

Lemma dget_nkey_dict fs q : dget (nkey q) (mk_dict nkey fs) = spec_lookup fs q.
Proof. apply dget_mk_dict. Qed.

Lemma dict_lookup_spec b ops_q fs q :
  store_ops_ok (b_store b) = true -> key_ops_ok ops_q = true -> clean_fs fs = true ->
  dget (apply_ops ops_q q) (the_dict b fs) = spec_lookup fs (prenorm (norm_kind ops_q) q).
Proof. intros Hs Hq Hc. rewrite (the_dict_nkey b fs Hs Hc), (key_ops_sem _ _ Hq). apply dget_nkey_dict. Qed.

(** A query that the normalisation leaves alone (no redundant separators or dot segments, with either slash). *)
Definition stable (q : str) : Prop := normpath q = q /\ normpath (slash q) = slash q.
Lemma prenorm_stable k fs q : stable q -> spec_lookup fs (prenorm k q) = spec_lookup fs q.
Proof.
  intros [H1 H2]. destruct k; cbn [prenorm]; rewrite ?H1, ?H2; try reflexivity.
  unfold spec_lookup. rewrite nkey_slash. reflexivity.
Qed.

(** Every backend whose key functions have a recognised form implements the specification map: for *every* query,
    the file served is the specification's file for the query as the backend pre-normalises it ... *)
Theorem lookup_norm b fs q :
  store_ops_ok (b_store b) = true -> key_ops_ok (b_get b) = true -> clean_fs fs = true ->
  lookup b fs q = spec_lookup fs (prenorm (norm_kind (b_get b)) q).
Proof. intros. apply dict_lookup_spec; assumption. Qed.
Theorem exists_norm b fs q :
  store_ops_ok (b_store b) = true -> key_ops_ok (b_exists b) = true -> clean_fs fs = true ->
  exists_ b fs q = match spec_lookup fs (prenorm (norm_kind (b_exists b)) q) with Some _ => true | None => false end.
Proof. intros. unfold exists_. rewrite dict_lookup_spec by assumption. reflexivity. Qed.
Theorem open_norm b fs q :
  store_ops_ok (b_store b) = true -> key_ops_ok (b_open b) = true -> clean_fs fs = true ->
  open_ b fs q = spec_lookup fs (prenorm (norm_kind (b_open b)) q).
Proof. intros. apply dict_lookup_spec; assumption. Qed.

(** ... which is the query itself when the normalisation leaves it alone. *)
Theorem lookup_spec b fs q :
  store_ops_ok (b_store b) = true -> key_ops_ok (b_get b) = true -> clean_fs fs = true -> stable q ->
  lookup b fs q = spec_lookup fs q.
Proof. intros. rewrite lookup_norm by assumption. apply prenorm_stable. assumption. Qed.

Theorem exists_spec b fs q :
  store_ops_ok (b_store b) = true -> key_ops_ok (b_exists b) = true -> clean_fs fs = true -> stable q ->
  exists_ b fs q = match spec_lookup fs q with Some _ => true | None => false end.
Proof. intros. rewrite exists_norm, prenorm_stable by assumption. reflexivity. Qed.

Theorem open_spec b fs q :
  store_ops_ok (b_store b) = true -> key_ops_ok (b_open b) = true -> clean_fs fs = true -> stable q ->
  open_ b fs q = spec_lookup fs q.
Proof. intros. rewrite open_norm by assumption. apply prenorm_stable. assumption. Qed.

Lemma backend_keys_ok_inv b :
  backend_keys_ok b = true ->
  store_ops_ok (b_store b) = true /\ key_ops_ok (b_get b) = true /\ key_ops_ok (b_exists b) = true
  /\ key_ops_ok (b_open b) = true.
Proof.
  unfold backend_keys_ok. intros H. apply andb_true_iff in H as [H H4]. apply andb_true_iff in H as [H H3].
  apply andb_true_iff in H as [H1 H2]. repeat split; assumption.
Qed.

Theorem lookup_agree b1 b2 fs q :
  backend_keys_ok b1 = true -> backend_keys_ok b2 = true -> clean_fs fs = true -> stable q ->
  lookup b1 fs q = lookup b2 fs q
  /\ exists_ b1 fs q = exists_ b2 fs q
  /\ open_ b1 fs q = open_ b2 fs q
  /\ open_ b1 fs q = lookup b1 fs q
  /\ lookup b1 fs q = spec_lookup fs q.
Proof.
  intros H1 H2 Hc Hn.
  apply backend_keys_ok_inv in H1 as [? [? [? ?]]]. apply backend_keys_ok_inv in H2 as [? [? [? ?]]].
  rewrite !lookup_spec, !exists_spec, !open_spec by assumption. repeat split; reflexivity.
Qed.

(** When all query functions normalise the path after converting the slashes (today's source), every backend serves,
    for every query string whatsoever, the specification's file for [normpath (slash q)] ... *)
Lemma is_slashnorm_inv l : is_slashnorm l = true -> norm_kind l = NSlashNorm.
Proof. unfold is_slashnorm. destruct (norm_kind l); (discriminate || reflexivity). Qed.

Lemma backend_keys_norm_ok b : backend_keys_norm b = true -> backend_keys_ok b = true.
Proof. unfold backend_keys_norm. intros H. do 3 (apply andb_true_iff in H as [H _]). exact H. Qed.

Lemma backend_keys_norm_inv b :
  backend_keys_norm b = true ->
  store_ops_ok (b_store b) = true
  /\ (key_ops_ok (b_get b) = true /\ norm_kind (b_get b) = NSlashNorm)
  /\ (key_ops_ok (b_exists b) = true /\ norm_kind (b_exists b) = NSlashNorm)
  /\ (key_ops_ok (b_open b) = true /\ norm_kind (b_open b) = NSlashNorm).
Proof.
  intros H. destruct (backend_keys_ok_inv b (backend_keys_norm_ok b H)) as [Hs [Hg [He Ho]]].
  unfold backend_keys_norm in H. do 3 (apply andb_true_iff in H as [H ?]).
  repeat split; try assumption; apply is_slashnorm_inv; assumption.
Qed.

Theorem lookup_slashnorm b fs q :
  backend_keys_norm b = true -> clean_fs fs = true -> lookup b fs q = spec_lookup fs (normpath (slash q)).
Proof.
  intros Hb Hc. destruct (backend_keys_norm_inv b Hb) as [Hs [[Hk E] _]].
  rewrite (lookup_norm b fs q Hs Hk Hc), E. reflexivity.
Qed.
Theorem exists_slashnorm b fs q :
  backend_keys_norm b = true -> clean_fs fs = true ->
  exists_ b fs q = match spec_lookup fs (normpath (slash q)) with Some _ => true | None => false end.
Proof.
  intros Hb Hc. destruct (backend_keys_norm_inv b Hb) as [Hs [_ [[Hk E] _]]].
  rewrite (exists_norm b fs q Hs Hk Hc), E. reflexivity.
Qed.
Theorem open_slashnorm b fs q :
  backend_keys_norm b = true -> clean_fs fs = true -> open_ b fs q = spec_lookup fs (normpath (slash q)).
Proof.
  intros Hb Hc. destruct (backend_keys_norm_inv b Hb) as [Hs [_ [_ [Hk E]]]].
  rewrite (open_norm b fs q Hs Hk Hc), E. reflexivity.
Qed.

(** ... so they agree with each other. *)
Theorem lookup_agree_all b1 b2 fs q :
  backend_keys_norm b1 = true -> backend_keys_norm b2 = true -> clean_fs fs = true ->
  lookup b1 fs q = lookup b2 fs q
  /\ exists_ b1 fs q = exists_ b2 fs q
  /\ open_ b1 fs q = open_ b2 fs q
  /\ open_ b1 fs q = lookup b1 fs q
  /\ lookup b1 fs q = spec_lookup fs (normpath (slash q))
  /\ exists_ b1 fs q = match spec_lookup fs (normpath (slash q)) with Some _ => true | None => false end.
Proof.
  intros H1 H2 Hc. rewrite !lookup_slashnorm, !exists_slashnorm, !open_slashnorm by assumption. repeat split; reflexivity.
Qed.

(** The specification ignores case and slash kind of the query. *)
Theorem spec_lookup_variant fs q q' : nkey q = nkey q' -> spec_lookup fs q = spec_lookup fs q'.
Proof. unfold spec_lookup. intros ->. reflexivity. Qed.

(** What is found is a stored file whose folded name is the folded query. *)
Theorem spec_lookup_sound fs q e : spec_lookup fs q = Some e -> In e fs /\ nkey (fst e) = nkey q.
Proof.
  unfold spec_lookup. intros H. apply find_some in H as [H1 H2].
  split; [apply in_rev; exact H1|apply eqb_str_eq; exact H2].
Qed.

(** Without case-duplicates the order of the container does not matter. *)
Lemma find_perm_unique {A} (p : A -> bool) l l' :
  Permutation l l' -> (forall x y, In x l -> In y l -> p x = true -> p y = true -> x = y) ->
  find p l = find p l'.
Proof.
  intros HP Hu. destruct (find p l) as [x|] eqn:E.
  - apply find_some in E as [Hin Hp]. destruct (find p l') as [y|] eqn:E'.
    + apply find_some in E' as [Hin' Hp']. f_equal. apply Hu; try assumption.
      apply Permutation_sym in HP. apply (Permutation_in _ HP Hin').
    + pose proof (find_none _ _ E' x (Permutation_in _ HP Hin)) as Hf. congruence.
  - destruct (find p l') as [y|] eqn:E'; [|reflexivity].
    apply find_some in E' as [Hin' Hp']. apply Permutation_sym in HP.
    pose proof (find_none _ _ E y (Permutation_in _ HP Hin')) as Hf. congruence.
Qed.

Lemma NoDup_map_inj_in {A B} (f : A -> B) l x y :
  NoDup (map f l) -> In x l -> In y l -> f x = f y -> x = y.
Proof.
  induction l as [|a l IH]; cbn [map]; intros Hnd Hx Hy Hf; [destruct Hx|].
  inversion Hnd as [|? ? Hnin Hnd']; subst.
  destruct Hx as [->|Hx], Hy as [->|Hy]; try reflexivity.
  - exfalso. apply Hnin. rewrite Hf. apply in_map. exact Hy.
  - exfalso. apply Hnin. rewrite <- Hf. apply in_map. exact Hx.
  - apply IH; assumption.
Qed.

(** The directory backend (exact names) agrees with the folded backends on exact-case names when no two stored
    names differ only in case. *)
Theorem raw_lookup_agree fs e :
  clean_fs fs = true -> NoDup (map (fun e => nkey (fst e)) fs) -> In e fs ->
  raw_lookup fs (fst e) = Some e /\ spec_lookup fs (fst e) = Some e.
Proof.
  intros Hc Hnd He.
  assert (U : forall p : file -> bool, (forall x, In x fs -> p x = true -> nkey (fst x) = nkey (fst e)) -> p e = true ->
              find p (rev fs) = Some e).
  { intros p Hp Hpe. destruct (find p (rev fs)) as [y|] eqn:E.
    - apply find_some in E as [Hy Hpy]. apply in_rev in Hy. f_equal.
      apply (NoDup_map_inj_in (fun e => nkey (fst e)) fs y e Hnd Hy He). apply Hp; assumption.
    - apply in_rev in He. pose proof (find_none _ _ E e He). congruence. }
  split.
  - unfold raw_lookup. rewrite (clean_name_normpath _ (clean_fs_In _ _ Hc He)). apply U.
    + intros x _ Hx. apply eqb_str_eq in Hx. rewrite Hx. reflexivity.
    + apply eqb_str_refl.
  - unfold spec_lookup. apply U.
    + intros x _ Hx. apply eqb_str_eq in Hx. exact Hx.
    + apply eqb_str_refl.
Qed.

(** * walk_folder *)
Lemma split_sf_spec l a t : split_sf l = (a, t) -> l = a ++ t /\ forallb is_sf a = true.
Proof.
  revert a t. induction l as [|o r IH]; intros a t; cbn [split_sf].
  - intros [= <- <-]. split; reflexivity.
  - destruct (is_sf o) eqn:E.
    + destruct (split_sf r) as [a' t'] eqn:E'. intros [= <- <-].
      destruct (IH a' t' eq_refl) as [-> H]. split; [reflexivity|]. cbn [forallb]. rewrite E, H. reflexivity.
    + intros [= <- <-]. split; reflexivity.
Qed.

Definition add_slash (s : str) : str := match s with [] => [] | _ :: _ => s ++ [SL] end.

Lemma has_rstrip_squash l : has_rstrip (squash l) = has_rstrip l.
Proof.
  induction l as [|o r IH]; [reflexivity|]. cbn [squash]. destruct r as [|o' r']; [reflexivity|].
  destruct (is_sf o && sop_eqb o o') eqn:E.
  - rewrite IH. apply andb_true_iff in E as [E _]. destruct o; try discriminate; reflexivity.
  - unfold has_rstrip in *. cbn [existsb]. cbn [existsb] in IH. rewrite IH. reflexivity.
Qed.

Lemma has_rstrip_after_norm l : has_rstrip (after_norm l) = has_rstrip l.
Proof.
  rewrite <- (has_rstrip_squash l). unfold after_norm. destruct (squash l) as [|[] [|[] r]]; reflexivity.
Qed.

Lemma has_rstrip_sf a t : forallb is_sf a = true -> has_rstrip (a ++ t) = has_rstrip t.
Proof.
  unfold has_rstrip. intros H. induction a as [|o a IH]; [reflexivity|].
  cbn [forallb] in H. apply andb_true_iff in H as [Ho Ha]. cbn [app existsb]. rewrite (IH Ha).
  destruct o; try discriminate; reflexivity.
Qed.

Lemma folder_ops_sem b folder :
  folder_ops_ok (b_wfolder b) = true ->
  apply_ops (b_wfolder b) folder = add_slash (folder_key b folder).
Proof.
  unfold folder_key, folder_ops_ok. generalize (b_wfolder b). intros l H.
  rewrite (apply_ops_norm l folder), <- (has_rstrip_after_norm l).
  destruct (split_sf (after_norm l)) as [a t] eqn:E. apply split_sf_spec in E as [E Hsf]. rewrite E.
  apply andb_true_iff in H as [Ha Ht]. rewrite apply_ops_app, (apply_sf_both a _ Ha), (has_rstrip_sf a t Hsf).
  destruct (uses_norm l).
  - repeat (destruct t as [|[] t]; try discriminate); reflexivity.
  - repeat (destruct t as [|[] t]; try discriminate); reflexivity.
Qed.

Lemma add_slash_prefix G k : is_prefix (add_slash G) k = true <-> path_prefix G k.
Proof.
  unfold path_prefix. destruct G as [|x G]; cbn [add_slash].
  - split; [left; reflexivity|reflexivity].
  - rewrite is_prefix_spec. split.
    + intros [r ->]. right. exists r. rewrite <- app_assoc. reflexivity.
    + intros [H|[r ->]]; [discriminate|]. exists r. rewrite <- app_assoc. reflexivity.
Qed.

Lemma walk_ok_src b fs folder : walk_ok b = true -> walk_src b fs folder = the_dict b fs.
Proof.
  unfold walk_ok, walk_over_dict, walk_src. intros H. apply andb_true_iff in H as [_ H].
  destruct (b_wsrc b); [reflexivity|discriminate].
Qed.
Lemma walk_ok_folder b : walk_ok b = true -> folder_ops_ok (b_wfolder b) = true.
Proof. unfold walk_ok. intros H. repeat (apply andb_true_iff in H as [H ?]). assumption. Qed.
Lemma walk_ok_store b : walk_ok b = true -> store_ops_ok (b_store b) = true.
Proof. unfold walk_ok. intros H. do 3 (apply andb_true_iff in H as [H _]). exact H. Qed.

Lemma walk_subj b fs kv :
  walk_ok b = true -> clean_fs fs = true -> In kv (the_dict b fs) -> subj_of b kv = nkey (fst (snd kv)).
Proof.
  intros Hw Hc Hin. rewrite (the_dict_nkey b fs (walk_ok_store b Hw) Hc) in Hin.
  destruct kv as [k e]. apply mk_dict_inv in Hin as [-> _].
  unfold walk_ok, walk_subject_normalised in Hw. apply andb_true_iff in Hw as [Hw _]. apply andb_true_iff in Hw as [_ Hsu].
  unfold subj_of. destruct (b_wsubj b); try discriminate. apply apply_sf_nkey. exact Hsu.
Qed.

(** The surviving entries are exactly the winners of the specification map. *)
Theorem entries_spec b fs e :
  store_ops_ok (b_store b) = true -> clean_fs fs = true ->
  (In e (entries b fs) <-> spec_lookup fs (fst e) = Some e).
Proof.
  intros Hs Hc. unfold entries. rewrite (the_dict_nkey b fs Hs Hc), <- dget_nkey_dict. split.
  - intros H. apply in_map_iff in H as [[k e'] [<- Hin]]. cbn [snd].
    destruct (mk_dict_inv _ _ _ _ Hin) as [-> _]. apply In_dget; [apply mk_dict_nodup|exact Hin].
  - intros H. apply dget_In in H. apply in_map_iff. exists (nkey (fst e), e). split; [reflexivity|exact H].
Qed.

Lemma entries_nodup b fs :
  store_ops_ok (b_store b) = true -> clean_fs fs = true -> NoDup (map (fun e => nkey (fst e)) (entries b fs)).
Proof.
  intros Hs Hc. unfold entries. rewrite (the_dict_nkey b fs Hs Hc), map_map.
  rewrite (map_ext_in _ fst); [apply mk_dict_nodup|]. intros [k e] Hin. apply mk_dict_inv in Hin as [-> _]. reflexivity.
Qed.

Lemma map_filter_in {A B} (g : A -> B) (p : A -> bool) (p' : B -> bool) l :
  (forall x, In x l -> p x = p' (g x)) -> map g (filter p l) = filter p' (map g l).
Proof.
  induction l as [|x l IH]; intros H; [reflexivity|]. cbn [filter map]. rewrite <- (H x (or_introl eq_refl)), <- IH.
  - destruct (p x); reflexivity.
  - intros y Hy. apply H. right. exact Hy.
Qed.

Lemma NoDup_map_filter {A B} (g : A -> B) (p : A -> bool) l : NoDup (map g l) -> NoDup (map g (filter p l)).
Proof.
  induction l as [|x l IH]; cbn [filter map]; intros H; [constructor|]. inversion H as [|? ? Hn Hnd]; subst.
  destruct (p x); [|exact (IH Hnd)]. cbn [map]. constructor; [|exact (IH Hnd)].
  intros Hin. apply Hn. apply in_map_iff in Hin as [y [<- Hy]]. apply in_map. apply filter_In in Hy as [Hy _]. exact Hy.
Qed.

(** For the sound forms, walk_folder filters the surviving entries by "located inside the folder". *)
Lemma walk_filter b fs folder :
  walk_ok b = true -> clean_fs fs = true ->
  walk b fs folder = filter (fun e => is_prefix (add_slash (folder_key b folder)) (nkey (fst e))) (entries b fs).
Proof.
  intros Hw Hc. unfold walk, entries. rewrite (walk_ok_src b fs folder Hw), (folder_ops_sem b folder (walk_ok_folder b Hw)).
  apply map_filter_in. intros kv Hin. rewrite (walk_subj b fs kv Hw Hc Hin). reflexivity.
Qed.

(** walk_folder lists exactly the (surviving) files located inside the folder. *)
Theorem walk_exact b fs folder e :
  walk_ok b = true -> clean_fs fs = true ->
  (In e (walk b fs folder) <-> In e (entries b fs) /\ path_prefix (folder_key b folder) (nkey (fst e))).
Proof. intros Hw Hc. rewrite (walk_filter b fs folder Hw Hc), filter_In, add_slash_prefix. reflexivity. Qed.

Lemma folder_key_empty b : folder_key b [] = [].
Proof. unfold folder_key, uses_norm. destruct (norm_kind (b_wfolder b)), (has_rstrip (b_wfolder b)); reflexivity. Qed.

Lemma filter_all {A} (p : A -> bool) l : (forall x, In x l -> p x = true) -> filter p l = l.
Proof.
  induction l as [|x l IH]; intros H; [reflexivity|]. cbn [filter].
  rewrite (H x (or_introl eq_refl)). f_equal. apply IH. intros y Hy. apply H. right. exact Hy.
Qed.

(** The empty folder means all files. *)
Theorem walk_empty_all b fs : walk_ok b = true -> walk b fs [] = entries b fs.
Proof.
  intros Hw. unfold walk, entries. rewrite (walk_ok_src b fs [] Hw). f_equal. apply filter_all. intros kv _.
  rewrite (folder_ops_sem b [] (walk_ok_folder b Hw)), folder_key_empty. reflexivity.
Qed.

(** Every listed name can be looked up and yields that file. *)
Theorem walk_lookup_closed b fs folder e :
  walk_ok b = true -> key_ops_ok (b_get b) = true -> clean_fs fs = true ->
  In e (walk b fs folder) -> lookup b fs (fst e) = Some e.
Proof.
  intros Hw Hg Hc Hin. pose proof (walk_ok_store b Hw) as Hs.
  apply (walk_exact b fs folder e Hw Hc) in Hin as [Hin _]. apply (entries_spec b fs e Hs Hc) in Hin.
  rewrite (lookup_norm b fs _ Hs Hg Hc), prenorm_clean; [exact Hin|].
  apply (clean_fs_In fs e Hc), (spec_lookup_sound fs _ e Hin).
Qed.

(** No name is listed twice (even up to case). *)
Theorem walk_nodup b fs folder :
  walk_ok b = true -> clean_fs fs = true -> NoDup (map (fun e => nkey (fst e)) (walk b fs folder)).
Proof.
  intros Hw Hc. rewrite (walk_filter b fs folder Hw Hc). apply NoDup_map_filter, entries_nodup; [apply walk_ok_store|]; assumption.
Qed.

(** * the chain *)
Definition asks (q : str) (m : member) : option file := m_lookup m (full_name (m_prefix m) q).

Lemma chain_get_app ms ms' q :
  chain_get (ms ++ ms') q = match chain_get ms q with Some f => Some f | None => chain_get ms' q end.
Proof.
  induction ms as [|m ms IH]; cbn [chain_get app]; [reflexivity|].
  destruct (m_lookup m (full_name (m_prefix m) q)); [reflexivity|exact IH].
Qed.

Lemma chain_get_none ms q : chain_get ms q = None <-> Forall (fun m => asks q m = None) ms.
Proof.
  unfold asks. induction ms as [|m ms IH]; cbn [chain_get].
  - split; [constructor|reflexivity].
  - destruct (m_lookup m (full_name (m_prefix m) q)) eqn:E.
    + split; [discriminate|]. intros H. inversion H; subst. congruence.
    + rewrite IH. split; [intros H; constructor; assumption|intros H; inversion H; assumption].
Qed.

Theorem chain_first_match ms q f :
  chain_get ms q = Some f <->
  exists pre m post, ms = pre ++ m :: post /\ asks q m = Some f /\ Forall (fun m' => asks q m' = None) pre.
Proof.
  split.
  - unfold asks. induction ms as [|m ms IH]; cbn [chain_get]; [discriminate|].
    destruct (m_lookup m (full_name (m_prefix m) q)) as [g|] eqn:E.
    + intros [= ->]. exists [], m, ms. repeat split; [exact E|constructor].
    + intros H. destruct (IH H) as [pre [m' [post [-> [Hf Hpre]]]]]. exists (m :: pre), m', post.
      repeat split; [exact Hf|constructor; assumption].
  - intros [pre [m [post [-> [Hf Hpre]]]]]. rewrite chain_get_app, (proj2 (chain_get_none pre q) Hpre).
    cbn [chain_get]. unfold asks in Hf. rewrite Hf. reflexivity.
Qed.

Lemma in_chain_walk_repeat rm ms folder x :
  In x (chain_walk_repeat rm ms folder) <->
  exists m e, In m ms /\ In e (m_walk m (full_name (m_prefix m) folder)) /\ x = (rel_name rm (fst e) (m_prefix m), e).
Proof.
  unfold chain_walk_repeat. rewrite in_flat_map. split.
  - intros [m [Hm H]]. apply in_map_iff in H as [e [<- He]]. exists m, e. repeat split; assumption.
  - intros [m [e [Hm [He ->]]]]. exists m. split; [exact Hm|]. apply in_map_iff. exists e. split; [reflexivity|exact He].
Qed.

(** Subfolder-restricted members are addressed relative to their subfolder. *)
Lemma is_prefix_sl_rev_clean p : clean p = true -> is_prefix [SL] (rev p) = false.
Proof.
  (* the last segment of "a/" is empty *)
  intros H. destruct (is_prefix [SL] (rev p)) eqn:E; [|reflexivity]. apply ends_slash in E as [a ->].
  unfold clean in H. rewrite (split_app_sep a []), forallb_app in H. cbn in H. rewrite andb_false_r in H. discriminate.
Qed.

Theorem chain_prefix_relative p q :
  clean p = true -> is_prefix [SL] q = false -> full_name p q = slash p ++ SL :: slash q.
Proof.
  intros Hp Hq. unfold full_name, pjoin. rewrite Hq. destruct p as [|x p]; [discriminate|].
  rewrite (is_prefix_sl_rev_clean _ Hp). unfold slash. rewrite map_app. reflexivity.
Qed.

Lemma slash_full_name p q : slash (full_name p q) = slash (pjoin p q).
Proof. apply slash_idem. Qed.

Lemma pjoin_nil q : pjoin [] q = q.
Proof. unfold pjoin. destruct (is_prefix [SL] q); reflexivity. Qed.

Theorem chain_no_prefix q : full_name [] q = slash q.
Proof. unfold full_name. rewrite pjoin_nil. reflexivity. Qed.

(** A chain of one restricted member finds [q] exactly when the member's file set has [p/q]. *)
Theorem chain_member_lookup b fs p q :
  backend_keys_ok b = true -> clean_fs fs = true -> clean p = true -> is_prefix [SL] q = false ->
  normpath (slash p ++ SL :: slash q) = slash p ++ SL :: slash q ->
  chain_get [member_of b fs p] q = spec_lookup fs (p ++ SL :: q).
Proof.
  intros Hk Hc Hp Hq Hn. cbn [chain_get member_of m_lookup m_prefix].
  rewrite (chain_prefix_relative p q Hp Hq).
  assert (E : slash p ++ SL :: slash q = slash (p ++ SL :: q)) by (unfold slash; rewrite map_app; reflexivity).
  apply backend_keys_ok_inv in Hk as [? [? [? ?]]].
  rewrite lookup_spec, E; try assumption.
  - rewrite (spec_lookup_variant fs _ _ (nkey_slash (p ++ SL :: q))). destruct (spec_lookup fs (p ++ SL :: q)); reflexivity.
  - split; [exact Hn|]. rewrite E, slash_idem, <- E. exact Hn.
Qed.

(** * de-duplicated walk *)
Section Dedup.
  Variable keyf : str -> str.
  Notation key x := (keyf (fst x)).

  (** an entry that survives is the first of its key, and the key was not seen before *)
  Lemma dedup_inv seen l x :
    In x (dedup_by keyf seen l) ->
    exists l1 l2, l = l1 ++ x :: l2 /\ (forall y, In y l1 -> key y <> key x) /\ ~ In (key x) seen.
  Proof.
    revert seen. induction l as [|y l IH]; intros seen; cbn [dedup_by]; [intros []|].
    destruct (existsb (eqb_str (key y)) seen) eqn:E.
    - intros H. destruct (IH _ H) as [l1 [l2 [-> [H1 H2]]]]. exists (y :: l1), l2. repeat split; [|exact H2].
      intros z [<-|Hz]; [|apply H1; exact Hz]. apply existsb_eqb_In in E. intros Heq. apply H2. rewrite <- Heq. exact E.
    - intros [<-|H].
      + exists [], l. repeat split; [intros z []|]. intros Hin. apply existsb_eqb_In in Hin. congruence.
      + destruct (IH _ H) as [l1 [l2 [-> [H1 H2]]]]. exists (y :: l1), l2. repeat split.
        * intros z [<-|Hz]; [|apply H1; exact Hz]. intros Heq. apply H2. left. exact Heq.
        * intros Hin. apply H2. right. exact Hin.
  Qed.

  Lemma dedup_sub seen l x : In x (dedup_by keyf seen l) -> In x l /\ ~ In (key x) seen.
  Proof.
    intros H. destruct (dedup_inv seen l x H) as [l1 [l2 [-> [_ Hs]]]]. split; [|exact Hs].
    apply in_or_app. right. left. reflexivity.
  Qed.

  Lemma dedup_nodup seen l : NoDup (map (fun x => key x) (dedup_by keyf seen l)).
  Proof.
    revert seen. induction l as [|y l IH]; intros seen; cbn [dedup_by]; [constructor|].
    destruct (existsb (eqb_str (key y)) seen); [apply IH|]. cbn [map]. constructor; [|apply IH].
    intros Hin. apply in_map_iff in Hin as [z [Hz Hin]]. destruct (dedup_sub _ _ _ Hin) as [_ Hn].
    apply Hn. left. symmetry. exact Hz.
  Qed.

  Lemma dedup_first seen l1 x l2 :
    ~ In (key x) seen -> (forall y, In y l1 -> key y <> key x) -> In x (dedup_by keyf seen (l1 ++ x :: l2)).
  Proof.
    revert seen. induction l1 as [|y l1 IH]; intros seen Hs Hl; cbn [app dedup_by].
    - destruct (existsb (eqb_str (key x)) seen) eqn:E; [apply existsb_eqb_In in E; contradiction|left; reflexivity].
    - assert (Hy : key y <> key x) by (apply Hl; left; reflexivity).
      assert (Hl' : forall z, In z l1 -> key z <> key x) by (intros z Hz; apply Hl; right; exact Hz).
      destruct (existsb (eqb_str (key y)) seen); [apply IH; assumption|]. right. apply IH; [|assumption].
      intros [H|H]; [congruence|contradiction].
  Qed.

  Lemma dedup_covers seen l x :
    In x l -> ~ In (key x) seen -> exists y, In y (dedup_by keyf seen l) /\ key y = key x.
  Proof.
    revert seen. induction l as [|z l IH]; intros seen Hin Hs; [destruct Hin|]. cbn [dedup_by].
    destruct (existsb (eqb_str (key z)) seen) eqn:E.
    - destruct Hin as [->|Hin]; [apply existsb_eqb_In in E; contradiction|]. apply IH; assumption.
    - destruct (eqb_str_spec (key z) (key x)) as [Hk|Hk].
      + exists z. split; [left; reflexivity|exact Hk].
      + destruct Hin as [->|Hin]; [congruence|].
        destruct (IH (key z :: seen) Hin) as [y [Hy Hky]].
        * intros [H|H]; [congruence|contradiction].
        * exists y. split; [right; exact Hy|exact Hky].
  Qed.
End Dedup.

(** The de-duplicated chain walk lists each (folded) name once, lists only what the members list, lists every
    name some member lists, and keeps the entry of the first (highest-priority) member. *)
Theorem chain_walk_dedup rm dops ms folder :
  let key := fun x : str * file => apply_ops dops (fst x) in
  let rep := chain_walk_repeat rm ms folder in
  let res := chain_walk rm dops ms folder in
  NoDup (map key res)
  /\ (forall x, In x res -> In x rep)
  /\ (forall x, In x rep -> exists y, In y res /\ key y = key x)
  /\ (forall l1 x l2, rep = l1 ++ x :: l2 -> (forall y, In y l1 -> key y <> key x) -> In x res).
Proof.
  cbv zeta. unfold chain_walk. repeat split.
  - apply (dedup_nodup (apply_ops dops)).
  - intros x H. apply (dedup_sub (apply_ops dops)) in H as [H _]. exact H.
  - intros x H. apply (dedup_covers (apply_ops dops)); [exact H|intros []].
  - intros l1 x l2 -> H. apply (dedup_first (apply_ops dops)); [intros []|exact H].
Qed.

