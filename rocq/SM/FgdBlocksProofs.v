(** C16 — proofs about the block builder (SM/FgdBlocks.v): every entity is placed in exactly one block. *)
From Coq Require Import List NArith Arith Bool Lia.
From SV Require Import SM.FgdBlocks.
Import ListNotations.
Open Scope N_scope.

Notation cnt := (count_occ N.eq_dec).

Lemma memN_false_cnt e l : memN e l = false -> cnt l e = 0%nat.
Proof.
  induction l as [|y l IH]; cbn; auto. intros H. apply orb_false_iff in H as [H1 H2].
  destruct (N.eq_dec y e) as [->|]; [rewrite N.eqb_refl in H1; discriminate | auto].
Qed.
Lemma memN_true_cnt e l : memN e l = true -> (1 <= cnt l e)%nat.
Proof.
  induction l as [|y l IH]; cbn; try discriminate. intros H. destruct (N.eq_dec y e); [lia|].
  apply orb_true_iff in H as [H|H]; [apply N.eqb_eq in H; congruence | auto].
Qed.
Lemma cnt_concat_app (a b : blocks) x : cnt (concat (a ++ b)) x = (cnt (concat a) x + cnt (concat b) x)%nat.
Proof. rewrite concat_app, count_occ_app. reflexivity. Qed.
Lemma cnt_concat_cons (l : list N) (b : blocks) x : cnt (concat (l :: b)) x = (cnt l x + cnt (concat b) x)%nat.
Proof. cbn [concat]. rewrite count_occ_app. reflexivity. Qed.

Lemma split_at_some e : forall bl pre b post, split_at e bl = Some (pre, b, post) -> bl = pre ++ b :: post /\ memN e b = true.
Proof.
  induction bl as [|l r IH]; cbn; intros pre b post H; try discriminate.
  destruct (memN e l) eqn:M.
  - injection H as <- <- <-. auto.
  - destruct (split_at e r) as [[[p0 b0] q0]|]; try discriminate. injection H as <- <- <-.
    destruct (IH _ _ _ eq_refl) as [-> ?]. auto.
Qed.
Lemma split_at_none e : forall bl, split_at e bl = None -> cnt (concat bl) e = 0%nat.
Proof.
  induction bl as [|l r IH]; cbn; auto. destruct (memN e l) eqn:M; try discriminate.
  destruct (split_at e r) as [[[p0 b0] q0]|]; try discriminate. intros _.
  rewrite count_occ_app, (memN_false_cnt _ _ M), IH; auto.
Qed.

Section Build.
Variable cfg : bcfg.
Variable size : N -> N.
Variable maxsz : N.
Variable all : list N.

Definition sub (bl : blocks) : Prop := forall x, (cnt (concat bl) x <= cnt all x)%nat.

Lemma merged_cnt a b x : cnt (merged a b) x = (cnt a x + cnt b x)%nat.
Proof. unfold merged. destruct (length b <? length a)%nat; rewrite count_occ_app; lia. Qed.

Ltac norm := repeat (rewrite ?cnt_concat_app, ?cnt_concat_cons, ?merged_cnt, ?count_occ_app).

Lemma step_sub bl e1 e2 : sub bl -> e1 <> e2 -> (1 <= cnt all e1)%nat -> (1 <= cnt all e2)%nat -> sub (step cfg size maxsz bl (e1, e2)).
Proof.
  unfold sub. intros J Hne A1 A2. unfold step.
  destruct (split_at e1 bl) as [[[pre b1] post]|] eqn:S1.
  - destruct (split_at_some _ _ _ _ _ S1) as [-> M1].
    destruct (memN e2 b1) eqn:M2; auto.
    destruct (split_at e2 pre) as [[[p0 b2] p1]|] eqn:S2.
    + destruct (split_at_some _ _ _ _ _ S2) as [-> _].
      destruct (merge_fits cfg _ _); auto.
      destruct (merge_keeps_first b1 b2); intros x; specialize (J x); revert J; norm; lia.
    + destruct (split_at e2 post) as [[[p0 b2] p1]|] eqn:S3.
      * destruct (split_at_some _ _ _ _ _ S3) as [-> _].
        destruct (merge_fits cfg _ _); auto.
        destruct (merge_keeps_first b1 b2); intros x; specialize (J x); revert J; norm; lia.
      * destruct (add_fits cfg _ _); auto.
        pose proof (split_at_none _ _ S2) as Z1. pose proof (split_at_none _ _ S3) as Z3. pose proof (memN_false_cnt _ _ M2) as Z2.
        intros x. specialize (J x). revert J. norm. cbn [count_occ].
        destruct (N.eq_dec e2 x) as [<-|]; lia.
  - pose proof (split_at_none _ _ S1) as Z1.
    destruct (split_at e2 bl) as [[[pre b2] post]|] eqn:S2.
    + destruct (split_at_some _ _ _ _ _ S2) as [-> _].
      destruct (add_fits cfg _ _); auto.
      intros x. specialize (J x). revert J Z1. norm. cbn [count_occ].
      destruct (N.eq_dec e1 x) as [<-|]; lia.
    + pose proof (split_at_none _ _ S2) as Z2.
      intros x. specialize (J x). revert J. norm. cbn [concat count_occ app].
      destruct (N.eq_dec e1 x) as [E1|]; destruct (N.eq_dec e2 x) as [E2|]; try congruence; try subst x; lia.
Qed.

Lemma pairs_ok_cons p r : pairs_ok all (p :: r) = true ->
  fst p <> snd p /\ (1 <= cnt all (fst p))%nat /\ (1 <= cnt all (snd p))%nat /\ pairs_ok all r = true.
Proof.
  unfold pairs_ok. cbn [forallb]. intros H. apply andb_true_iff in H as [H Hr].
  apply andb_true_iff in H as [H H3]. apply andb_true_iff in H as [H1 H2].
  apply negb_true_iff, N.eqb_neq in H1. repeat split; auto using memN_true_cnt.
Qed.
Lemma loop_sub pairs : forall bl, sub bl -> pairs_ok all pairs = true -> sub (fold_left (step cfg size maxsz) pairs bl).
Proof.
  induction pairs as [|[e1 e2] r IH]; cbn [fold_left]; auto. intros bl J H.
  destruct (pairs_ok_cons _ _ H) as (H1 & H2 & H3 & H4). apply IH; auto. apply step_sub; auto.
Qed.

(** the leftovers all end up in overflow blocks when the first overflow block is still in the list *)
Lemma ovf_cnt left : forall others cur x,
  cnt (concat (ovf cfg size maxsz true left others cur)) x = (cnt (concat others) x + cnt cur x + cnt left x)%nat.
Proof.
  induction left as [|e r IH]; intros others cur x; cbn [ovf].
  - norm. cbn. lia.
  - destruct (ovf_full cfg _ _); rewrite IH; norm; cbn [concat count_occ app]; destruct (N.eq_dec e x); lia.
Qed.
Lemma filter_nonempty_cnt (out : blocks) x : cnt (concat (filter nonempty out)) x = cnt (concat out) x.
Proof.
  induction out as [|l r IH]; auto. cbn [filter]. destruct l; cbn [nonempty]; [exact IH|].
  rewrite !cnt_concat_cons, IH. reflexivity.
Qed.
Lemma filter_cnt (f : N -> bool) l x : cnt (filter f l) x = if f x then cnt l x else 0%nat.
Proof.
  induction l as [|y l IH]; cbn [filter count_occ]; [destruct (f x); auto|].
  destruct (f y) eqn:F; cbn [count_occ]; destruct (N.eq_dec y x) as [->|]; rewrite IH; try rewrite F; auto.
Qed.
Lemma nodupN_cnt l x : nodupN l = true -> (cnt l x <= 1)%nat.
Proof.
  induction l as [|y l IH]; cbn [nodupN count_occ]; auto. intros H. apply andb_true_iff in H as [H1 H2].
  apply negb_true_iff in H1. destruct (N.eq_dec y x) as [->|]; auto. rewrite (memN_false_cnt _ _ H1). lia.
Qed.

(** with the leftovers in ANY order (a Python set is iterated), every entity is in exactly as many blocks as it occurs in the
    list of all entities — once *)
Theorem build_with_places_every_entity pairs order :
  bcfg_ok cfg = true -> nodupN all = true -> pairs_ok all pairs = true ->
  (forall x, cnt order x = cnt (leftovers all (pair_loop cfg size maxsz pairs)) x) ->
  forall x, cnt (concat (build_with cfg size maxsz pairs order)) x = cnt all x.
Proof.
  intros C ND PO Hord x. unfold build_with, bcfg_ok in *. rewrite C.
  assert (J : sub (pair_loop cfg size maxsz pairs)) by (apply loop_sub; auto; intros y; cbn; lia).
  set (bl := pair_loop cfg size maxsz pairs) in *.
  assert (E : cnt (concat (ovf cfg size maxsz true order bl [])) x = cnt all x).
  { rewrite ovf_cnt, Hord. unfold leftovers. rewrite filter_cnt. cbn [count_occ].
    specialize (J x). pose proof (nodupN_cnt all x ND).
    destruct (memN x (concat bl)) eqn:M; cbn [negb].
    - apply memN_true_cnt in M. lia.
    - apply memN_false_cnt in M. lia. }
  destruct (drop_empty_after_leftovers cfg); [rewrite filter_nonempty_cnt|]; exact E.
Qed.
Theorem build_places_every_entity pairs :
  bcfg_ok cfg = true -> nodupN all = true -> pairs_ok all pairs = true ->
  forall x, cnt (concat (build cfg size maxsz all pairs)) x = cnt all x.
Proof. intros. apply build_with_places_every_entity; auto. Qed.

End Build.
