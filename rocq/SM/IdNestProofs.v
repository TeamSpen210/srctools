From stdpp Require Import list.
From SV Require Import SM.IdManProofs SM.IdWorld SM.IdWorldProofs SM.IdNest.
Open Scope Z_scope.

(** What one single-kind world needs for the uniqueness statement: the allocator-level invariant, and every
    object listed in the map that issued its ID. *)
Definition Good (w : wworld) : Prop := WInv w ∧ Homed w.

Lemma good0 : Good ww0.
Proof. split; [apply ww0_inv|constructor]. Qed.

Lemma good_run es w : Good w → Good (wrun_from false true w es).
Proof. intros [H1 H2]. split; [by apply wrun_from_inv|by apply wrun_from_homed]. Qed.

Lemma good_unique m w : Good w →
  NoDup (live_ids_in m w) ∧ (∀ i, i ∈ live_ids_in m w → 0 < i).
Proof. intros [H Hh]. by apply world_unique. Qed.

Definition TGood (w : tworld) : Prop := Good (tE w) ∧ Good (tS w) ∧ Good (tF w).

Notation tstep_ok := (tstep false false false true true true).
Notation trun_ok := (trun false false false true true true).
(** The steps of [VMF.parse] in the pinned tree (the generated [parse_program] is compared with this by an Example
    in Props/C08.v; the theorems hold for EVERY program without an explicit release). *)
Definition prog_std : list pstep := [PPlaceholder; PWorld; PDropPlaceholder; PEntities].

Lemma tapply_good w a b c tops order : TGood w → TGood (tapply false false false true true true w a b c tops order).
Proof. intros (H1 & H2 & H3). split; [|split]; simpl; by apply good_run. Qed.

Lemma tparts_good mk w top tops order : TGood w → TGood (tparts false false false true true true mk w top tops order).
Proof. intros H. by apply tapply_good. Qed.

Lemma tcreate_good w m ent sds listed : TGood w → TGood (tcreate false false false true true true w m ent sds listed).
Proof.
  intros H. unfold tcreate. destruct (new_solids _ _ _ _) as [[eS eF] parts].
  destruct (tnew _ _) as [tops order]. by apply tapply_good.
Qed.

Lemma tcopy_good w t m d ex kp : TGood w → TGood (tcopy false false false true true true w t m d ex kp).
Proof.
  intros H. unfold tcopy. destruct (ttops w !! t) as [top|]; [|done].
  destruct (copy_solids _ _ _ _ _ _ _) as [[eS eF] parts]. destruct (tnew _ _) as [tops order]. by apply tapply_good.
Qed.

Lemma fold_tcopy_good m kp ts : ∀ w, TGood w →
  TGood (fold_left (λ w t, tcopy false false false true true true w t m (-1) true kp) ts w).
Proof. apply fold_left_inv. intros w t. apply tcopy_good. Qed.

Lemma thide_good w t b : TGood w → TGood (thide false false false true true true w t b).
Proof. intros H. unfold thide. destruct (ttops w !! t) as [top|]; [|done]. by apply tapply_good. Qed.

Lemma tcreate_h_good w m ent sds listed hidden : TGood w →
  TGood (tcreate_h false false false true true true w m ent sds listed hidden).
Proof.
  intros H. unfold tcreate_h. destruct hidden; [apply thide_good|]; by apply tcreate_good.
Qed.

Lemma tdestroy_good w t : TGood w → TGood (tdestroy false false false true true true w t).
Proof.
  intros H. unfold tdestroy. destruct (ttops w !! t) as [top|]; [|done].
  destruct (tt_listed top); [done|by apply tparts_good].
Qed.

(** Every step of [VMF.parse] other than an explicit release keeps the invariants of the three worlds. *)
Lemma pstep_run_good m d st p : pstep_ok p = true → TGood st.1 →
  TGood (pstep_run false false false true true true m d st p).1.
Proof.
  destruct st as [w ph]. intros Hp H. destruct p; [| | | |done]; cbn [pstep_run fst snd].
  - by apply tcreate_good.
  - apply tcreate_good, fold_left_inv; [|done]. intros w1 b. apply tcreate_h_good.
  - destruct ph as [t|]; [by apply tdestroy_good|done].
  - apply fold_left_inv; [|done]. intros w1 e. apply tcreate_h_good.
Qed.

Lemma tparse_good prog w m d : prog_ok prog = true → TGood w → TGood (tparse false false false true true true prog w m d).
Proof.
  unfold tparse, prog_ok. intros Hp H.
  assert (Hst : TGood (w, @None nat).1) by done. revert Hp Hst. generalize (w, @None nat).
  induction prog as [|p prog IH]; intros st Hp Hst; simpl; [done|].
  simpl in Hp. apply andb_prop in Hp as [Hp1 Hp2]. apply IH; [done|]. by apply pstep_run_good.
Qed.

Lemma tstep_good prog w e : prog_ok prog = true → TGood w → TGood (tstep_ok prog w e).
Proof.
  intros Hp H. destruct e as [m d sds|m sd|t m d ex|t|t|t|m|t b|s m kp|m doc]; cbn [tstep].
  - by apply tcreate_good.
  - by apply tcreate_good.
  - by apply tcopy_good.
  - destruct (ttops w !! t) as [top|]; [|done]. destruct (tt_listed top); [by apply tparts_good|done].
  - destruct (ttops w !! t) as [top|]; [|done]. destruct (tt_listed top); [done|by apply tparts_good].
  - by apply tdestroy_good.
  - by apply tcreate_good.
  - by apply thide_good.
  - destruct (decide (s = m)); [done|]. by apply fold_tcopy_good.
  - by apply tparse_good.
Qed.

Lemma trun_good prog es : prog_ok prog = true → TGood (trun_ok prog es).
Proof.
  intros Hp. apply (fold_left_inv TGood); [intros w e; by apply tstep_good|]. split; [|split]; apply good0.
Qed.

(** Entities, their brushes and the faces of those, as one world: after every history of bundled events on
    top-level objects, in every map the existing entities have pairwise distinct positive IDs, and so have the
    existing brushes (world brushes and brushes of entities together), and so have the existing faces. *)
Theorem trun_unique prog es m : prog_ok prog = true → let w := trun_ok prog es in
  (NoDup (live_ids_in m (tE w)) ∧ ∀ i, i ∈ live_ids_in m (tE w) → 0 < i) ∧
  (NoDup (live_ids_in m (tS w)) ∧ ∀ i, i ∈ live_ids_in m (tS w) → 0 < i) ∧
  (NoDup (live_ids_in m (tF w)) ∧ ∀ i, i ∈ live_ids_in m (tF w) → 0 < i).
Proof. intros Hp w. destruct (trun_good prog es Hp) as (H1 & H2 & H3). split; [|split]; by apply good_unique. Qed.

(** The seeded fault "Entity.copy does not pass the map down to Solid.copy" in this model: entity copies allocate
    in the destination map, brush and face copies do not.  Two world brushes in map 1, a brush entity in map 0,
    copied into map 1: brushes 1, 2, 2 and faces 1, 2, 2 in map 1. *)
Definition nested_copy_history : list tev :=
  [TCreateBrush 1 (-1, [-1]); TCreateBrush 1 (-1, [-1]); TCreateEnt 0 (-1) [(-1, [-1])]; TCopy 2 1 (-1) true].
(** ... and the same history on the source's shape. *)
Example nested_copy_history_ok :
  let w := trun_ok prog_std nested_copy_history in
  live_ids_in 1 (tE w) = [1] ∧ live_ids_in 1 (tS w) = [1; 2; 3] ∧ live_ids_in 1 (tF w) = [1; 2; 3] ∧
  ttops w !! 3%nat = Some {| tt_ent := Some 1%nat; tt_solids := [(3%nat, [3%nat])]; tt_home := 1%nat; tt_listed := true; tt_hidden := false |}.
Proof. vm_compute. done. Qed.

(** A removed object is not collapsed, a re-added one goes to the end of its map's list: map 0 holds brush A, an
    entity, brush B; A is removed and re-added; the collapse into map 1 copies B, A, then the entity. *)
Example collapse_order :
  let w := trun_ok prog_std [TCreateSpawn 0; TCreateSpawn 1; TCreateBrush 0 (7, [-1]); TCreateEnt 0 (-1) [];
                    TCreateBrush 0 (9, [-1]); TRemove 2; TReAdd 2; TCollapse 0 1 false] in
  torder w = [3; 4; 2; 5; 6; 7]%nat ∧ live_ids_in 1 (tS w) = [1; 2] ∧ live_ids_in 1 (tE w) = [1; 2] ∧
  (tt_solids <$> ttops w !! 5%nat) = Some [(2%nat, [2%nat])] ∧ (tt_solids <$> ttops w !! 6%nat) = Some [(3%nat, [3%nat])].
Proof. vm_compute. done. Qed.

(** Hidden objects: a hidden brush is never collapsed; a hidden entity only when visgroups are kept, and its copy is
    hidden then. *)
Example collapse_hidden :
  let h := [TCreateSpawn 0; TCreateSpawn 1; TCreateBrush 0 (-1, [-1]); TCreateBrush 0 (-1, [-1]); TCreateEnt 0 (-1) [];
            THide 2 true; THide 4 true] in
  tcollapse_sources (trun_ok prog_std h) 0 false = [3]%nat ∧ tcollapse_sources (trun_ok prog_std h) 0 true = [3; 4]%nat ∧
  (tt_hidden <$> ttops (trun_ok prog_std (h ++ [TCollapse 0 1 true])) !! 6%nat) = Some true.
Proof. vm_compute. done. Qed.

(** [VMF.parse] as an event.  A Hammer-saved document (world block with id 1, one entity with id 2, one
    without an id): the placeholder takes 1, so the parsed worldspawn is renumbered to 2; the placeholder dies when
    [map.spawn] is re-bound, so entity "2" is renumbered to 1 and the entity without an id gets 3.  An entity created
    afterwards gets 4.  Top-level objects: 0 = placeholder, 1 = worldspawn, 2.. = entities. *)
Definition hammer_doc : pdoc := {| pd_world := 1; pd_brushes := [(false, (1, [1; 2]))]; pd_ents := [(false, (2, [])); (false, (-1, []))] |}.
Example parse_hammer_doc :
  let w := trun_ok prog_std [TParse 0 hammer_doc; TCreateEnt 0 (-1) []] in
  wid <$> wobjs (tE w) = [1; 2; 1; 3; 4] ∧ walive <$> wobjs (tE w) = [false; true; true; true; true] ∧
  live_ids_in 0 (tE w) = [2; 1; 3; 4] ∧ live_ids_in 0 (tS w) = [1] ∧ live_ids_in 0 (tF w) = [1; 2] ∧
  tlisted_of w 0 false = [1]%nat ∧ tlisted_of w 0 true = [3; 4; 5]%nat.
Proof. vm_compute. done. Qed.

(** The time of the destructor matters for the numbering, not for uniqueness: a placeholder that is kept until the end
    of [parse] (say through a local variable) keeps ID 1 taken while the entity blocks are parsed. *)
Example parse_late_drop :
  let w := trun_ok [PPlaceholder; PWorld; PEntities; PDropPlaceholder] [TParse 0 hammer_doc; TCreateEnt 0 (-1) []] in
  live_ids_in 0 (tE w) = [2; 3; 4; 1].
Proof. vm_compute. done. Qed.

(** The hypothesis [prog_ok] is necessary.  When [parse] hands the placeholder's ID back itself before it parses the world
    block, the worldspawn keeps the ID 1 it asks for -- and the placeholder's destructor releases 1 a second time, while
    the worldspawn holds it: the next entity that needs a fresh ID (here the one without an id in the file; equally an
    entity created, copied or collapsed later) receives 1 as well. *)
Definition prog_early_release : list pstep := [PPlaceholder; PReleasePlaceholder; PWorld; PDropPlaceholder; PEntities].

