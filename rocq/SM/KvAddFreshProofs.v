From Coq Require Import List Bool.
From SV Require Import SM.KvAdd SM.KvAddFresh.
Import ListNotations.

(** With the copy flag set in both branches, what is appended is the copies. *)
Lemma kv_added_copied {A} (cp : A -> A) cs ci single other :
  cs && ci = true -> kv_added cp cs ci single other = map cp other.
Proof. intros H. apply andb_true_iff in H. destruct H as [-> ->]. destruct single; reflexivity. Qed.

