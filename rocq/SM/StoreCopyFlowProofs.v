(** C09 — proofs about the argument-flow census (SM/StoreCopyFlow.v). *)
From Coq Require Import List ZArith Bool String.
From SV Require Import SM.StoreCopy SM.StoreCopySrc SM.StoreCopyFlow.
Import ListNotations.

(** A field computed by [f] from the original's field is complete for the original holding [z] iff [f] fixes [z]. *)
Lemma field_complete_iff : forall f z, field_complete f z <-> f z = z.
Proof.
  intros f z. unfold field_complete, obs_eq. split.
  - intros H. specialize (H 1%nat). cbn in H. injection H. auto.
  - intros E n. destruct n as [|n]; [reflexivity|]. cbn. rewrite E. destruct n; reflexivity.
Qed.

Theorem flow_ident_complete : forall m d g z,
  m = FIdent \/ m = FPresence -> field_complete (flow_fun m d g) z.
Proof. intros m d g z [E|E]; subst; apply field_complete_iff; reflexivity. Qed.

(** [p or default]: complete exactly for truthy values (or when the default is the falsy value itself). *)
Theorem flow_ordefault_complete_iff : forall d g z,
  field_complete (flow_fun FOrDefault d g) z <-> (z <> 0%Z \/ d = 0%Z).
Proof.
  intros d g z. rewrite field_complete_iff. cbn [flow_fun]. destruct (Z.eqb_spec z 0).
  - subst. split; [intros E; right; exact E | intros [E|E]; [contradiction | exact E]].
  - split; [intros _; left; assumption | reflexivity].
Qed.

Lemma harmless_for_harmless : forall k m, flow_harmless_for k m = true -> flow_harmless m = true.
Proof. intros k m; destruct m, k; cbn; intros H; try discriminate; reflexivity. Qed.

(** What the boolean means, row by row. *)
Theorem lossless_rows : forall c fl, copy_args_lossless c fl = true ->
  forall f k w, In (f, k, w) c -> needs_source w = true ->
  (forall g m, In (g, m) (flows_of fl f) -> g = f /\ flow_harmless_for k m = true) /\
  (exists g m, In (g, m) (flows_of fl f) /\ flow_carries m = true).
Proof.
  intros c fl H f k w Hin Hw. unfold copy_args_lossless in H. rewrite forallb_forall in H.
  specialize (H _ Hin). unfold field_flow_ok in H. cbn [snd cname fst] in H.
  assert (HH : forallb (own_harmless f k) (flows_of fl f) && existsb (fun x => flow_carries (snd x)) (flows_of fl f) = true).
  { destruct w; try discriminate Hw; exact H. }
  apply andb_true_iff in HH. destruct HH as [H1 H2]. split.
  - intros g m Hg. rewrite forallb_forall in H1. specialize (H1 _ Hg). unfold own_harmless in H1. cbn [fst snd] in H1.
    apply andb_true_iff in H1. destruct H1 as [Ha Hb]. apply String.eqb_eq in Ha. auto.
  - apply existsb_exists in H2. destruct H2 as [[g m] [Hg Hm]]. exists g, m. auto.
Qed.

Lemma dedup_all_same : forall f l, l <> [] -> (forall x, In x l -> x = f) -> dedup l = [f].
Proof.
  intros f l. induction l as [|x r IH]; intros Hne H; [contradiction|].
  pose proof (H x (or_introl eq_refl)) as ->. cbn [dedup]. destruct r as [|y r]; [reflexivity|].
  pose proof (H y (or_intror (or_introl eq_refl))) as ->. cbn [existsb]. rewrite String.eqb_refl. cbn [orb].
  apply IH; [discriminate|]. intros x Hx. apply H. right. exact Hx.
Qed.

Lemma src_of_flow_sources : forall fl f,
  flows_of fl f <> [] -> src_of (flow_sources fl) f = Some (dedup (map fst (flows_of fl f))).
Proof.
  induction fl as [|[g l] fl IH]; intros f H; cbn [flows_of] in *; [contradiction|].
  cbn [flow_sources map fst snd src_of]. destruct (String.eqb g f); [reflexivity|]. apply IH. exact H.
Qed.

(** The flow census refines the source census: lossless flows induce matching sources. *)
Theorem lossless_sources_match : forall c fl,
  copy_args_lossless c fl = true -> nodupb (names c) = true -> copy_sources_match c (flow_sources fl) = true.
Proof.
  intros c fl H Hn. unfold copy_sources_match. rewrite Hn. cbn [andb]. apply forallb_forall. intros [[f k] w] Hin.
  unfold field_source_ok. cbn [snd cname fst]. destruct (needs_source w) eqn:Hw; [|reflexivity].
  destruct (lossless_rows c fl H f k w Hin Hw) as [Hall [g [m [Hg _]]]].
  assert (Hne : flows_of fl f <> []) by (intro E; rewrite E in Hg; destruct Hg).
  rewrite (src_of_flow_sources fl f Hne).
  rewrite (dedup_all_same f (map fst (flows_of fl f))).
  - apply String.eqb_refl.
  - intro E. apply map_eq_nil in E. contradiction.
  - intros x Hx. apply in_map_iff in Hx. destruct Hx as [[g' m'] [<- Hx]]. exact (proj1 (Hall _ _ Hx)).
Qed.
