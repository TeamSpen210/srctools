(** C16 — proofs about SM/LazyDb.v: looking entities up one at a time, in any order, gives what decoding
    the whole database gives. *)
From Coq Require Import List Arith Bool Lia.
From SV Require Import SM.LazyDb.
Import ListNotations.

Section Proofs.
Variables (name ent bytes : Type).
Variable name_eqb : name -> name -> bool.
Hypothesis name_eqb_spec : forall a b, name_eqb a b = true <-> a = b.
Variable decode : list name -> bytes -> list ent.
(** one definition is decoded per class name of the block *)
Hypothesis decode_len : forall cs data, length (decode cs data) = length cs.
Variable ent_bases : ent -> list name.
Variable is_empty : bytes -> bool.
Variable empty_bytes : bytes.
Hypothesis empty_is_empty : is_empty empty_bytes = true.
Variable via_get_ent : bool.
(** the file: no class name occurs twice, every block has data *)
Variable B : list (block name bytes).
Hypothesis B_nodup : NoDup (flat_map fst B).
Hypothesis B_nonempty : Forall (fun b => is_empty (snd b) = false) B.

Local Notation db := (db name ent bytes).
Local Notation lookup := (lookup name ent name_eqb).
Local Notation assoc := (assoc name ent name_eqb).
Local Notation parse_block := (parse_block name ent bytes name_eqb decode ent_bases is_empty empty_bytes via_get_ent).
Local Notation get_ent_with := (get_ent_with name ent bytes name_eqb).
Local Notation get_ent := (get_ent name ent bytes name_eqb decode ent_bases is_empty empty_bytes via_get_ent).
Local Notation run_queries := (run_queries name ent bytes name_eqb decode ent_bases is_empty empty_bytes via_get_ent).
Local Notation parse_all := (parse_all name ent bytes name_eqb decode ent_bases is_empty empty_bytes via_get_ent).
Local Notation spec := (spec name ent bytes name_eqb decode B).
Local Notation is_parsed := (is_parsed name ent bytes name_eqb).
Local Notation Parsed := (Parsed ent).
Local Notation InBlock := (InBlock ent).

Lemma eqb_refl c : name_eqb c c = true.
Proof. apply name_eqb_spec. reflexivity. Qed.
Lemma eqb_false a b : a <> b -> name_eqb a b = false.
Proof. intros H. destruct (name_eqb a b) eqn:E; [apply name_eqb_spec in E; contradiction|reflexivity]. Qed.

Lemma lookup_app c a b : lookup c (a ++ b) = match lookup c a with Some s => Some s | None => lookup c b end.
Proof. induction a as [|[k v] r IH]; cbn [LazyDb.lookup app]; [reflexivity|]. destruct (name_eqb k c); auto. Qed.
Lemma assoc_app c a b : assoc c (a ++ b) = match assoc c a with Some s => Some s | None => assoc c b end.
Proof. induction a as [|[k v] r IH]; cbn [LazyDb.assoc app]; [reflexivity|]. destruct (name_eqb k c); auto. Qed.

Lemma lookup_combine_parsed c cs : forall es,
  lookup c (combine cs (map Parsed es)) = option_map Parsed (assoc c (combine cs es)).
Proof.
  induction cs as [|k cs IH]; intros [|e es]; cbn [combine map LazyDb.lookup LazyDb.assoc option_map]; try reflexivity.
  destruct (name_eqb k c); [reflexivity|apply IH].
Qed.
Lemma assoc_In c e l : assoc c l = Some e -> In (c, e) l.
Proof.
  induction l as [|[k v] l IH]; cbn [LazyDb.assoc]; [discriminate|].
  destruct (name_eqb k c) eqn:E; [apply name_eqb_spec in E; intros [= ->]; subst; left; reflexivity|right; auto].
Qed.
Lemma assoc_combine_In c cs es e : assoc c (combine cs es) = Some e -> In c cs.
Proof. intros H. exact (in_combine_l _ _ _ _ (assoc_In _ _ _ H)). Qed.
Lemma assoc_combine_some c cs : forall es, In c cs -> length es = length cs -> exists e, assoc c (combine cs es) = Some e.
Proof.
  induction cs as [|k cs IH]; intros [|x es] Hin Hlen; cbn [length] in Hlen; try discriminate; [destruct Hin|].
  cbn [combine LazyDb.assoc]. destruct (name_eqb k c) eqn:E; [eauto|].
  destruct Hin as [->|Hin]; [rewrite eqb_refl in E; discriminate|]. apply IH; [exact Hin|lia].
Qed.
Lemma assoc_combine_notin c cs : forall es, ~ In c cs -> assoc c (combine cs es) = None.
Proof.
  intros es H. destruct (assoc c (combine cs es)) eqn:E; [|reflexivity]. exfalso. eapply H, assoc_combine_In; eauto.
Qed.

Lemma NoDup_app_inv {A} (a b : list A) : NoDup (a ++ b) -> NoDup a /\ NoDup b /\ forall x, In x a -> ~ In x b.
Proof.
  induction a as [|y a IH]; cbn [app]; intros H; [repeat split; [constructor|exact H|intros x []]|].
  inversion H as [|? ? Hy Hab]; subst. destruct (IH Hab) as (Ha & Hb & Hd). repeat split; [|exact Hb|].
  - constructor; [|exact Ha]. intros Hin. apply Hy, in_or_app. left. exact Hin.
  - intros x [<-|Hx] Hxb; [apply Hy, in_or_app; right; exact Hxb|exact (Hd x Hx Hxb)].
Qed.

Lemma spec_none_gen c (bs : list (block name bytes)) :
  (forall b, In b bs -> ~ In c (fst b)) -> assoc c (all_defs name ent bytes decode bs) = None.
Proof.
  induction bs as [|b bs IH]; intros H; cbn [all_defs flat_map]; [reflexivity|].
  rewrite assoc_app, assoc_combine_notin by (apply H; left; reflexivity). apply IH. intros; apply H; right; assumption.
Qed.
Lemma spec_block_gen c e (bs : list (block name bytes)) : NoDup (flat_map fst bs) -> forall i cs data,
  nth_error bs i = Some (cs, data) -> assoc c (combine cs (decode cs data)) = Some e ->
  assoc c (all_defs name ent bytes decode bs) = Some e.
Proof.
  induction bs as [|b bs IH]; intros Hnd [|i] cs data Hi He; cbn [nth_error] in Hi; try discriminate.
  - injection Hi as ->. cbn [all_defs flat_map fst snd]. rewrite assoc_app, He. reflexivity.
  - cbn [flat_map] in Hnd. destruct (NoDup_app_inv _ _ Hnd) as (_ & Hbs & Hdis). cbn [all_defs flat_map]. rewrite assoc_app.
    assert (Hc : In c (flat_map fst bs)).
    { apply in_flat_map. exists (cs, data). split; [eapply nth_error_In; eauto|eapply assoc_combine_In; eauto]. }
    rewrite assoc_combine_notin; [eapply IH; eauto|]. intros Hin. exact (Hdis c Hin Hc).
Qed.

Record Inv (d : db) : Prop := {
  inv_len : length (unparsed _ _ _ d) = length B;
  inv_blocks : forall i, nth_error (unparsed _ _ _ d) i = nth_error B i
                         \/ nth_error (unparsed _ _ _ d) i = Some ([], empty_bytes);
  inv_map : forall c, match lookup c (emap _ _ _ d) with
                      | Some (LazyDb.Parsed _ e) => spec c = Some e
                      | Some (LazyDb.InBlock _ i) =>
                          exists cs data, nth_error B i = Some (cs, data) /\ In c cs
                                          /\ nth_error (unparsed _ _ _ d) i = Some (cs, data)
                      | None => spec c = None
                      end }.

Lemma lookup_map_inblock c i cs :
  lookup c (map (fun c => (c, InBlock i)) cs) = if existsb (fun k => name_eqb k c) cs then Some (InBlock i) else None.
Proof. induction cs as [|k cs IH]; cbn [map LazyDb.lookup existsb]; [reflexivity|]. destruct (name_eqb k c); auto. Qed.
Lemma existsb_name c cs : existsb (fun k => name_eqb k c) cs = true <-> In c cs.
Proof.
  rewrite existsb_exists. split; [intros [k [Hk E]]; apply name_eqb_spec in E; subst; exact Hk|].
  intros H. exists c. split; [exact H|apply eqb_refl].
Qed.

Lemma init_map_spec c : forall (bs : list (block name bytes)) k,
  match lookup c (init_map name ent bytes k bs) with
  | Some (LazyDb.Parsed _ _) => False
  | Some (LazyDb.InBlock _ i) => exists j cs data, i = (k + j)%nat /\ nth_error bs j = Some (cs, data) /\ In c cs
  | None => forall b, In b bs -> ~ In c (fst b)
  end.
Proof.
  induction bs as [|[cs data] bs IH]; intros k; cbn [init_map LazyDb.lookup]; [intros b []|].
  rewrite lookup_app, lookup_map_inblock. destruct (existsb (fun k0 => name_eqb k0 c) cs) eqn:E.
  - apply existsb_name in E. exists 0%nat, cs, data. repeat split; [lia|exact E].
  - specialize (IH (S k)). destruct (lookup c (init_map name ent bytes (S k) bs)) as [[e|i]|].
    + exact IH.
    + destruct IH as [j [cs' [data' [-> [Hj Hc]]]]]. exists (S j), cs', data'. repeat split; [lia|exact Hj|exact Hc].
    + intros b [<-|Hb]; [cbn [fst]; intros Hin; apply existsb_name in Hin; congruence|apply IH, Hb].
Qed.

Lemma Inv_init : Inv (init name ent bytes B).
Proof.
  constructor; cbn [init unparsed emap]; [reflexivity|auto|].
  intros c. pose proof (init_map_spec c B 0) as H.
  destruct (lookup c (init_map name ent bytes 0 B)) as [[e|i]|].
  - destruct H.
  - destruct H as [j [cs [data [-> [Hj Hc]]]]]. cbn [Nat.add]. eauto.
  - apply spec_none_gen, H.
Qed.

Lemma Inv_oof d b r : Inv d -> Inv (mkdb _ _ _ (emap _ _ _ d) (unparsed _ _ _ d) b r).
Proof. intros [H1 H2 H3]. constructor; cbn [emap unparsed]; assumption. Qed.
Lemma Inv_add_rec d x : Inv d -> Inv (add_rec _ _ _ d x).
Proof. apply Inv_oof. Qed.

Lemma set_nth_length {A} i (x : A) l : length (set_nth i x l) = length l.
Proof. revert i. induction l as [|y r IH]; intros [|i]; cbn [set_nth length]; auto. Qed.
Lemma set_nth_same {A} i (x : A) l : (i < length l)%nat -> nth_error (set_nth i x l) i = Some x.
Proof. revert i. induction l as [|y r IH]; intros [|i] H; cbn [set_nth length nth_error] in *; try lia; auto. apply IH. lia. Qed.
Lemma set_nth_other {A} i j (x : A) l : i <> j -> nth_error (set_nth i x l) j = nth_error l j.
Proof. revert i j. induction l as [|y r IH]; intros [|i] [|j] H; cbn [set_nth nth_error]; try congruence; auto. Qed.

Lemma get_ent_with_mono (P : db -> Prop) pb d c : (forall d i, P d -> P (pb d i)) -> P d -> P (snd (get_ent_with pb d c)).
Proof. intros Hpb Hd. unfold LazyDb.get_ent_with. destruct (lookup c (emap _ _ _ d)) as [[e|i]|]; cbn [snd]; auto. Qed.
Local Notation resolve_list := (resolve_list name ent bytes name_eqb via_get_ent).
Local Notation resolve_ent := (resolve_ent name ent bytes name_eqb ent_bases via_get_ent).
Lemma resolve_list_mono (P : db -> Prop) pb : (forall d i, P d -> P (pb d i)) ->
  forall bs d, P d -> P (snd (resolve_list pb d bs)).
Proof.
  intros Hpb. induction bs as [|b bs IH]; intros d Hd; cbn [LazyDb.resolve_list snd]; [exact Hd|].
  assert (H1 : P (snd (if via_get_ent then get_ent_with pb d b else (peek _ _ _ name_eqb d b, d)))).
  { destruct via_get_ent; [apply get_ent_with_mono; assumption|exact Hd]. }
  destruct (if via_get_ent then get_ent_with pb d b else (peek _ _ _ name_eqb d b, d)) as [x d1]. cbn [snd] in H1.
  specialize (IH d1 H1). destruct (resolve_list pb d1 bs) as [xs d2]. exact IH.
Qed.
(** a property kept by decoding blocks and by recording a resolution is kept by the rounds of the bases loop *)
Lemma rounds_mono (P : db -> Prop) pb : (forall d i, P d -> P (pb d i)) -> (forall d x, P d -> P (add_rec _ _ _ d x)) ->
  forall l d, P d -> P (fold_left (resolve_ent pb) l d).
Proof.
  intros Hpb Hr. induction l as [|ce l IH]; intros d Hd; cbn [fold_left]; [exact Hd|]. apply IH.
  unfold LazyDb.resolve_ent. destruct (ent_bases (snd ce)) as [|b bs]; [exact Hd|].
  pose proof (resolve_list_mono P pb Hpb (b :: bs) d Hd) as H. destruct (resolve_list pb d (b :: bs)) as [rb d'].
  apply Hr, H.
Qed.

(** the state right after the entries of block [i] have been stored and the block has been emptied *)
Definition stored (d : db) (i : nat) (cs : list name) (data : bytes) : db :=
  mkdb _ _ _ (combine cs (map Parsed (decode cs data)) ++ emap _ _ _ d)
       (set_nth i ([], empty_bytes) (unparsed _ _ _ d)) (oof _ _ _ d) (rbases _ _ _ d).
Lemma parse_block_S f d i cs data : nth_error (unparsed _ _ _ d) i = Some (cs, data) -> is_empty data = false ->
  parse_block (S f) d i = fold_left (resolve_ent (parse_block f)) (combine cs (decode cs data)) (stored d i cs data).
Proof. intros Ei Ee. cbn [LazyDb.parse_block]. rewrite Ei, Ee. reflexivity. Qed.
Lemma stored_lookup d i cs data c :
  lookup c (emap _ _ _ (stored d i cs data))
  = match assoc c (combine cs (decode cs data)) with Some e => Some (Parsed e) | None => lookup c (emap _ _ _ d) end.
Proof. unfold stored. cbn [emap]. rewrite lookup_app, lookup_combine_parsed. destruct (assoc c _); reflexivity. Qed.

(** a property kept by running out of fuel, by recording a resolution and by storing a block is kept by _parse_block *)
Lemma parse_block_mono (P : db -> Prop) :
  (forall d, P d -> P (mkdb _ _ _ (emap _ _ _ d) (unparsed _ _ _ d) true (rbases _ _ _ d))) ->
  (forall d x, P d -> P (add_rec _ _ _ d x)) ->
  (forall d i cs data, nth_error (unparsed _ _ _ d) i = Some (cs, data) -> is_empty data = false -> P d -> P (stored d i cs data)) ->
  forall f d i, P d -> P (parse_block f d i).
Proof.
  intros Hoof Hrec Hst. induction f as [|f IH]; intros d i Hd; cbn [LazyDb.parse_block];
    (destruct (nth_error (unparsed _ _ _ d) i) as [[cs data]|] eqn:Ei; [|exact Hd]);
    (destruct (is_empty data) eqn:Ee; [exact Hd|]).
  - apply Hoof, Hd.
  - apply rounds_mono; [exact IH|exact Hrec|]. exact (Hst d i cs data Ei Ee Hd).
Qed.

Lemma B_block_nonempty i cs data : nth_error B i = Some (cs, data) -> is_empty data = false.
Proof. intros H. exact (proj1 (Forall_forall _ _) B_nonempty _ (nth_error_In _ _ H)). Qed.
(** a block of the state that still has data is the block of the file *)
Lemma Inv_live d i cs data : Inv d -> nth_error (unparsed _ _ _ d) i = Some (cs, data) -> is_empty data = false ->
  nth_error B i = Some (cs, data).
Proof. intros Hd Ei Ee. destruct (inv_blocks d Hd i) as [H|H]; rewrite Ei in H; [symmetry; exact H|]. injection H as -> ->. congruence. Qed.

Lemma Inv_store d i cs data : Inv d -> nth_error (unparsed _ _ _ d) i = Some (cs, data) -> is_empty data = false ->
  Inv (stored d i cs data).
Proof.
  intros Hd Ei Ee. pose proof (Inv_live d i cs data Hd Ei Ee) as HB.
  assert (Hi : (i < length (unparsed _ _ _ d))%nat) by (apply nth_error_Some; congruence).
  constructor; [cbn [stored unparsed]..|].
  - rewrite set_nth_length. apply (inv_len d Hd).
  - intros j. destruct (Nat.eq_dec i j) as [<-|Hij]; [right; apply set_nth_same, Hi|].
    rewrite set_nth_other by exact Hij. apply (inv_blocks d Hd).
  - intros c. rewrite stored_lookup. destruct (assoc c (combine cs (decode cs data))) as [e|] eqn:Ea.
    + eapply spec_block_gen; eauto.
    + pose proof (inv_map d Hd c) as Hc. destruct (lookup c (emap _ _ _ d)) as [[e|j]|]; [exact Hc| |exact Hc].
      destruct Hc as [cs' [data' [Hj [Hin Hu]]]]. exists cs', data'. repeat split; [exact Hj|exact Hin|].
      cbn [stored unparsed]. destruct (Nat.eq_dec i j) as [<-|Hij]; [|rewrite set_nth_other by exact Hij; exact Hu].
      exfalso. rewrite HB in Hj. injection Hj as <- <-.
      destruct (assoc_combine_some c cs (decode cs data) Hin (decode_len cs data)) as [e He]. congruence.
Qed.

Lemma parse_block_inv f d i : Inv d -> Inv (parse_block f d i).
Proof.
  apply parse_block_mono; [intros ? H; apply Inv_oof, H|apply Inv_add_rec|].
  intros d' j cs data Ej Ee Hd'. exact (Inv_store d' j cs data Hd' Ej Ee).
Qed.

(** * Entries, once decoded, stay decoded; blocks, once emptied, stay empty *)
Definition marked (d : db) (i : nat) : Prop := nth_error (unparsed _ _ _ d) i = Some ([], empty_bytes).

Lemma parse_block_parsed_mono c f d i : is_parsed d c = true -> is_parsed (parse_block f d i) c = true.
Proof.
  apply (parse_block_mono (fun d => is_parsed d c = true)); [intros ? H; exact H|intros ? ? H; exact H|].
  intros d' j cs data _ _ Hd'. unfold LazyDb.is_parsed in *. rewrite stored_lookup.
  destruct (assoc c (combine cs (decode cs data))); [reflexivity|exact Hd'].
Qed.

Lemma stored_marks d i cs data : nth_error (unparsed _ _ _ d) i = Some (cs, data) -> marked (stored d i cs data) i.
Proof. intros Ei. unfold marked. cbn [stored unparsed]. apply set_nth_same, nth_error_Some. congruence. Qed.

Lemma parse_block_marked_mono j f d i : marked d j -> marked (parse_block f d i) j.
Proof.
  apply (parse_block_mono (fun d => marked d j)); [intros ? H; exact H|intros ? ? H; exact H|].
  intros d' k cs data Ek _ Hd'. destruct (Nat.eq_dec k j) as [<-|Hkj]; [exact (stored_marks d' k cs data Ek)|].
  unfold marked. cbn [stored unparsed]. rewrite set_nth_other by exact Hkj. exact Hd'.
Qed.

Lemma parse_block_marks f d i : Inv d -> (i < length B)%nat -> marked (parse_block (S f) d i) i.
Proof.
  intros Hd Hi. destruct (nth_error (unparsed _ _ _ d) i) as [[cs data]|] eqn:Ei.
  - destruct (is_empty data) eqn:Ee.
    + cbn [LazyDb.parse_block]. rewrite Ei, Ee. destruct (inv_blocks d Hd i) as [H|H]; [|exact H].
      rewrite Ei in H. symmetry in H. apply B_block_nonempty in H. congruence.
    + rewrite (parse_block_S f d i cs data Ei Ee).
      apply (rounds_mono (fun d => marked d i)); [intros ? ?; apply parse_block_marked_mono|intros ? ? H; exact H|].
      exact (stored_marks d i cs data Ei).
  - exfalso. apply nth_error_None in Ei. rewrite (inv_len d Hd) in Ei. lia.
Qed.

Theorem get_ent_correct f d c : Inv d ->
  fst (get_ent (S f) d c) = spec c /\ Inv (snd (get_ent (S f) d c)).
Proof.
  intros Hd. split; [|apply (get_ent_with_mono Inv); [intros; apply parse_block_inv; assumption|exact Hd]].
  unfold LazyDb.get_ent, LazyDb.get_ent_with. pose proof (inv_map d Hd c) as Hc.
  destruct (lookup c (emap _ _ _ d)) as [[e|i]|] eqn:El; cbn [fst]; [symmetry; exact Hc| |symmetry; exact Hc].
  destruct Hc as [cs [data [HB [Hin Hu]]]].
  set (d' := parse_block (S f) d i).
  assert (Hp : is_parsed d' c = true).
  { unfold d'. rewrite (parse_block_S f d i cs data Hu (B_block_nonempty i cs data HB)).
    apply (rounds_mono (fun d => is_parsed d c = true)); [intros ? ?; apply parse_block_parsed_mono|intros ? ? H; exact H|].
    unfold LazyDb.is_parsed. rewrite stored_lookup.
    destruct (assoc_combine_some c cs (decode cs data) Hin (decode_len cs data)) as [e ->]. reflexivity. }
  pose proof (parse_block_inv (S f) d i Hd) as Hd'. fold d' in Hd'. pose proof (inv_map d' Hd' c) as Hc'.
  unfold LazyDb.is_parsed in Hp. destruct (lookup c (emap _ _ _ d')) as [[e|j]|]; try discriminate. symmetry. exact Hc'.
Qed.

Theorem run_queries_correct f qs : forall d, Inv d ->
  fst (run_queries (S f) d qs) = map (fun c => spec c) qs /\ Inv (snd (run_queries (S f) d qs)).
Proof.
  induction qs as [|c qs IH]; intros d Hd; cbn [LazyDb.run_queries map]; [auto|].
  destruct (get_ent_correct f d c Hd) as [Hv Hi]. destruct (get_ent (S f) d c) as [x d'] eqn:E. cbn [fst snd] in *.
  destruct (IH d' Hi) as [Hv' Hi']. destruct (run_queries (S f) d' qs) as [xs d'']. cbn [fst snd] in *.
  subst. auto.
Qed.

Lemma parse_all_fold f l : forall d, Inv d -> (forall i, In i l -> (i < length B)%nat) ->
  let d' := fold_left (fun d' i => parse_block (S f) d' i) l d in
  Inv d' /\ (forall i, marked d i \/ In i l -> marked d' i).
Proof.
  induction l as [|j l IH]; intros d Hd Hl; cbn [fold_left].
  - split; [exact Hd|]. intros i [H|[]]. exact H.
  - destruct (IH (parse_block (S f) d j) (parse_block_inv _ _ _ Hd) (fun i H => Hl i (or_intror H))) as [H1 H2].
    split; [exact H1|]. intros i [H|[<-|H]]; apply H2.
    + left. apply parse_block_marked_mono, H.
    + left. apply parse_block_marks; [exact Hd|apply Hl; left; reflexivity].
    + right. exact H.
Qed.

(** what loading the whole database yields for a class *)
Definition eager (f : nat) (c : name) : option ent :=
  match lookup c (emap _ _ _ (parse_all (S f) (init name ent bytes B))) with
  | Some (LazyDb.Parsed _ e) => Some e
  | _ => None
  end.

Theorem eager_correct f c : eager f c = spec c.
Proof.
  unfold eager, LazyDb.parse_all. cbn [init unparsed].
  destruct (parse_all_fold f (seq 0 (length B)) (init name ent bytes B) Inv_init) as [Hinv Hmark].
  { intros i Hi. apply in_seq in Hi. lia. }
  cbn zeta in Hinv, Hmark. set (d' := fold_left _ _ _) in *.
  pose proof (inv_map d' Hinv c) as Hc. destruct (lookup c (emap _ _ _ d')) as [[e|i]|]; [symmetry; exact Hc| |symmetry; exact Hc].
  exfalso. destruct Hc as [cs [data [HB [Hin Hu]]]].
  assert (Hi : (i < length B)%nat) by (apply nth_error_Some; congruence).
  assert (Hm : marked d' i) by (apply Hmark; right; apply in_seq; lia).
  unfold marked in Hm. rewrite Hu in Hm. injection Hm as -> ->. apply B_block_nonempty in HB. congruence.
Qed.

(** Looking classes up one at a time, in any order and with any repetitions, on a fresh database gives
    exactly the definitions that loading the whole database gives. *)
Theorem lazy_equals_eager f g qs :
  fst (run_queries (S f) (init name ent bytes B) qs) = map (eager g) qs.
Proof.
  destruct (run_queries_correct f qs _ Inv_init) as [-> _]. apply map_ext. intros c. symmetry. apply eager_correct.
Qed.

(** * The recursion of the base lookups is bounded by the number of undecoded blocks *)
Local Notation cnt := (cnt name ent bytes is_empty).
Definition cntl (l : list (block name bytes)) : nat := length (filter (fun b => negb (is_empty (snd b))) l).

Lemma cntl_set_nth l : forall i b, nth_error l i = Some b -> is_empty (snd b) = false ->
  (cntl (set_nth i ([], empty_bytes) l) + 1 = cntl l)%nat.
Proof.
  unfold cntl. induction l as [|y r IH]; intros [|i] b Hi Hb; cbn [nth_error] in Hi; try discriminate.
  - injection Hi as ->. cbn [set_nth filter snd]. rewrite empty_is_empty, Hb. cbn [negb length]. lia.
  - cbn [set_nth filter]. destruct (negb (is_empty (snd y))); cbn [length]; rewrite <- (IH i b Hi Hb); lia.
Qed.

Lemma filter_len_le {A} (f : A -> bool) l : (length (filter f l) <= length l)%nat.
Proof. induction l as [|x l IH]; cbn [filter length]; [lia|]. destruct (f x); cbn [length]; lia. Qed.

Definition within (n : nat) (d : db) : Prop := (cnt d <= n)%nat /\ oof _ _ _ d = false.

Lemma within_init f : (length B <= f)%nat -> within f (init name ent bytes B).
Proof. intros H. split; [|reflexivity]. unfold LazyDb.cnt. cbn [init unparsed]. etransitivity; [apply filter_len_le|exact H]. Qed.

Lemma parse_block_fuel f : forall d i, within f d -> within (cnt d) (parse_block f d i).
Proof.
  induction f as [|f IH]; intros d i [Hc Ho]; cbn [LazyDb.parse_block].
  - destruct (nth_error (unparsed _ _ _ d) i) as [[cs data]|] eqn:Ei; [|split; [lia|exact Ho]].
    destruct (is_empty data) eqn:Ee; [split; [lia|exact Ho]|].
    exfalso. pose proof (cntl_set_nth _ i (cs, data) Ei Ee) as H. unfold LazyDb.cnt in Hc. unfold cntl in H. lia.
  - destruct (nth_error (unparsed _ _ _ d) i) as [[cs data]|] eqn:Ei; [|split; [lia|exact Ho]].
    destruct (is_empty data) eqn:Ee; [split; [lia|exact Ho]|].
    pose proof (cntl_set_nth _ i (cs, data) Ei Ee) as H.
    set (d1 := mkdb _ _ _ _ _ _ _).
    assert (H1 : (cnt d1 + 1 = cnt d)%nat) by exact H.
    assert (W : within (cnt d1) (fold_left (resolve_ent (parse_block f)) (combine cs (decode cs data)) d1)).
    { apply (rounds_mono (within (cnt d1))); [|intros ? ? H0; exact H0|split; [lia|exact Ho]].
      intros d0 j [Hc0 Ho0]. destruct (IH d0 j) as [Hc1 Ho1]; [split; [lia|exact Ho0]|]. split; [lia|exact Ho1]. }
    destruct W as [Wc Wo]. split; [lia|exact Wo].
Qed.

Theorem run_queries_fuel f qs : forall d, within f d -> within f (snd (run_queries f d qs)).
Proof.
  induction qs as [|c qs IH]; intros d Hd; cbn [LazyDb.run_queries]; [exact Hd|].
  destruct (get_ent f d c) as [x d'] eqn:E.
  assert (Hd' : within f d').
  { replace d' with (snd (get_ent f d c)) by (rewrite E; reflexivity). unfold LazyDb.get_ent.
    apply (get_ent_with_mono (within f)); [|exact Hd].
    intros d0 j Hd0. destruct (parse_block_fuel f d0 j Hd0) as [H1 H2]. destruct Hd0 as [H3 _]. split; [lia|exact H2]. }
  specialize (IH d' Hd'). destruct (run_queries f d' qs) as [xs d'']. exact IH.
Qed.

(** with as much fuel as there are blocks, no sequence of queries ever exhausts it: a block is marked
    as decoded before its bases are looked up, so the nesting depth is at most the number of blocks *)
Theorem base_lookups_terminate f qs : (length B <= f)%nat ->
  oof _ _ _ (snd (run_queries f (init name ent bytes B) qs)) = false.
Proof.
  intros H. apply (run_queries_fuel f qs), within_init, H.
Qed.


(** * What the stored base names are replaced by (`ent.bases = [...]` in _parse_block) *)
Local Notation rassoc := (rassoc name ent name_eqb).
Local Notation get_full := (get_full name ent bytes name_eqb decode ent_bases is_empty empty_bytes via_get_ent).
Local Notation run_full := (run_full name ent bytes name_eqb decode ent_bases is_empty empty_bytes via_get_ent).
Local Notation add_rec := (add_rec name ent bytes).

(** what the file says, including the definitions of the bases *)
Definition full_spec (c : name) : option (ent * list (option ent)) :=
  option_map (fun e => (e, map (fun b => spec b) (ent_bases e))) (spec c).

Definition oof_set (d : db) : Prop := oof _ _ _ d = true.
Lemma parse_block_oof_mono f d i : oof_set d -> oof_set (parse_block f d i).
Proof. apply parse_block_mono; [reflexivity|intros ? ? H; exact H|intros ? ? ? ? _ _ H; exact H]. Qed.
Lemma oof_back (d d' : db) : (oof_set d -> oof_set d') -> oof _ _ _ d' = false -> oof _ _ _ d = false.
Proof. unfold oof_set. intros H H'. destruct (oof _ _ _ d); [rewrite H in H' by reflexivity; discriminate|reflexivity]. Qed.

(** a look-up that did not run out of fuel returns what the file says *)
Lemma get_ent_with_answer f d b : Inv d ->
  oof _ _ _ (snd (get_ent_with (parse_block f) d b)) = false -> fst (get_ent_with (parse_block f) d b) = spec b.
Proof.
  intros Hd Ho. destruct f as [|f]; [|apply (get_ent_correct f d b Hd)].
  unfold LazyDb.get_ent_with in *. pose proof (inv_map d Hd b) as Hb.
  destruct (lookup b (emap _ _ _ d)) as [[e|i]|]; cbn [fst snd] in *; [symmetry; exact Hb| |symmetry; exact Hb].
  exfalso. destruct Hb as [cs [data [HB [Hin Hu]]]]. cbn [LazyDb.parse_block] in Ho.
  rewrite Hu, (B_block_nonempty i cs data HB) in Ho. discriminate.
Qed.

(** soundness of the records: while the fuel has not run out, every record is what the file says *)
Definition RSound (d : db) : Prop := oof _ _ _ d = false ->
  forall c rb, rassoc c (rbases _ _ _ d) = Some rb -> exists e, spec c = Some e /\ rb = map (fun b => spec b) (ent_bases e).
Definition IR (d : db) : Prop := Inv d /\ RSound d.

Lemma if_via {X} (x y : X) : via_get_ent = true -> (if via_get_ent then x else y) = x.
Proof. intros H. rewrite H. reflexivity. Qed.

Lemma resolve_list_sound f (Hf : forall d i, IR d -> IR (parse_block f d i)) (Hv : via_get_ent = true) :
  forall bs d, IR d ->
  IR (snd (resolve_list (parse_block f) d bs))
  /\ (oof _ _ _ (snd (resolve_list (parse_block f) d bs)) = false ->
      fst (resolve_list (parse_block f) d bs) = map (fun b => spec b) bs).
Proof.
  induction bs as [|b bs IH]; intros d Hd; cbn [LazyDb.resolve_list fst snd map]; [auto|].
  rewrite (if_via _ _ Hv).
  pose proof (get_ent_with_mono IR (parse_block f) d b Hf Hd) as H1.
  pose proof (get_ent_with_answer f d b (proj1 Hd)) as H2.
  destruct (get_ent_with (parse_block f) d b) as [x d1]. cbn [fst snd] in H1, H2.
  destruct (IH d1 H1) as [H3 H4].
  pose proof (resolve_list_mono oof_set (parse_block f) (parse_block_oof_mono f) bs d1) as Hm.
  destruct (resolve_list (parse_block f) d1 bs) as [xs d2]. cbn [fst snd] in *.
  split; [exact H3|]. intros Ho. rewrite H4 by exact Ho. rewrite H2; [reflexivity|]. eapply oof_back; eauto.
Qed.

Lemma assoc_combine_nodup c e cs : forall es, NoDup cs -> In (c, e) (combine cs es) -> assoc c (combine cs es) = Some e.
Proof.
  induction cs as [|k cs IH]; intros [|x es] Hnd Hin; cbn [combine] in *; try destruct Hin.
  - injection H as -> ->. cbn [LazyDb.assoc]. rewrite eqb_refl. reflexivity.
  - inversion Hnd as [|? ? Hk Hnd']; subst. cbn [LazyDb.assoc]. rewrite eqb_false; [apply IH; assumption|].
    intros ->. apply Hk. eapply in_combine_l; eauto.
Qed.
Lemma block_nodup (bs : list (block name bytes)) cs data : NoDup (flat_map fst bs) -> forall i, nth_error bs i = Some (cs, data) -> NoDup cs.
Proof.
  induction bs as [|b bs IH]; intros Hnd [|i] H; cbn [nth_error] in H; try discriminate;
    cbn [flat_map] in Hnd; destruct (NoDup_app_inv _ _ Hnd) as (Hb & Hbs & _).
  - injection H as ->. exact Hb.
  - eapply IH; eauto.
Qed.
Lemma block_entry_spec i cs data c e : nth_error B i = Some (cs, data) -> In (c, e) (combine cs (decode cs data)) -> spec c = Some e.
Proof.
  intros HB Hin. eapply spec_block_gen; [exact B_nodup|exact HB|]. apply assoc_combine_nodup; [exact (block_nodup B cs data B_nodup i HB)|exact Hin].
Qed.

Lemma rassoc_cons c k v l : rassoc c ((k, v) :: l) = if name_eqb k c then Some v else rassoc c l.
Proof. reflexivity. Qed.

Lemma resolve_ent_sound f (Hf : forall d i, IR d -> IR (parse_block f d i)) (Hv : via_get_ent = true) d c e :
  spec c = Some e -> IR d -> IR (resolve_ent (parse_block f) d (c, e)).
Proof.
  intros Hc Hd. unfold LazyDb.resolve_ent. cbn [fst snd]. destruct (ent_bases e) as [|b bs] eqn:Eb; [exact Hd|].
  destruct (resolve_list_sound f Hf Hv (b :: bs) d Hd) as [[H1 H2] H3].
  destruct (resolve_list (parse_block f) d (b :: bs)) as [rb d']. cbn [fst snd] in *.
  split; [apply Inv_add_rec, H1|]. intros Ho c' rb'. cbn [LazyDb.add_rec rbases oof] in *. rewrite rassoc_cons.
  destruct (name_eqb c c') eqn:E; [|apply H2, Ho].
  apply name_eqb_spec in E. subst c'. intros [= <-]. exists e. split; [exact Hc|]. rewrite Eb. apply H3, Ho.
Qed.

Lemma fold_resolve_sound f (Hf : forall d i, IR d -> IR (parse_block f d i)) (Hv : via_get_ent = true) l :
  (forall c e, In (c, e) l -> spec c = Some e) -> forall d, IR d -> IR (fold_left (resolve_ent (parse_block f)) l d).
Proof.
  induction l as [|[c e] l IH]; intros Hl d Hd; cbn [fold_left]; [exact Hd|].
  apply IH; [intros; apply Hl; right; assumption|]. apply resolve_ent_sound; auto. apply Hl. left. reflexivity.
Qed.

Lemma parse_block_sound (Hv : via_get_ent = true) f : forall d i, IR d -> IR (parse_block f d i).
Proof.
  induction f as [|f IH]; intros d i Hd; cbn [LazyDb.parse_block].
  - destruct (nth_error (unparsed _ _ _ d) i) as [[cs data]|]; [|exact Hd].
    destruct (is_empty data); [exact Hd|]. split; [apply Inv_oof, Hd|]. intros Ho. discriminate.
  - destruct (nth_error (unparsed _ _ _ d) i) as [[cs data]|] eqn:Ei; [|exact Hd].
    destruct (is_empty data) eqn:Ee; [exact Hd|].
    apply (fold_resolve_sound f IH Hv).
    + intros c e Hin. exact (block_entry_spec i cs data c e (Inv_live d i cs data (proj1 Hd) Ei Ee) Hin).
    + split; [exact (Inv_store d i cs data (proj1 Hd) Ei Ee)|exact (proj2 Hd)].
Qed.

(** completeness of the records: every decoded definition with stored bases that is not in a block whose
    bases loop is still running ([pend]) has a record *)
Definition has_rec (d : db) (c : name) : Prop := rassoc c (rbases _ _ _ d) <> None.
Definition Complete (pend : name -> bool) (d : db) : Prop :=
  forall c e, pend c = false -> lookup c (emap _ _ _ d) = Some (Parsed e) -> ent_bases e <> [] -> has_rec d c.

Lemma has_rec_add d x c : has_rec d c -> has_rec (add_rec d x) c.
Proof.
  unfold has_rec. destruct x as [k v]. cbn [LazyDb.add_rec rbases]. rewrite rassoc_cons. destruct (name_eqb k c); [discriminate|auto].
Qed.
Lemma parse_block_rec_mono c f d i : has_rec d c -> has_rec (parse_block f d i) c.
Proof.
  apply (parse_block_mono (fun d => has_rec d c)); [intros ? H; exact H|intros ? ? H; apply has_rec_add, H|intros ? ? ? ? _ _ H; exact H].
Qed.

Definition IC (pend : name -> bool) (d : db) : Prop := Inv d /\ Complete pend d.
Lemma Complete_add pend d x : Complete pend d -> Complete pend (add_rec d x).
Proof. intros H c e Hp Hl Hb. apply has_rec_add. exact (H c e Hp Hl Hb). Qed.

Lemma resolve_ent_records f c e d : ent_bases e <> [] -> has_rec (resolve_ent (parse_block f) d (c, e)) c.
Proof.
  intros Hb. unfold LazyDb.resolve_ent. cbn [fst snd]. destruct (ent_bases e) as [|b bs]; [congruence|].
  destruct (resolve_list (parse_block f) d (b :: bs)) as [rb d']. unfold has_rec. cbn [LazyDb.add_rec rbases].
  rewrite rassoc_cons, eqb_refl. discriminate.
Qed.
Lemma fold_resolve_records f l : forall d c e, In (c, e) l -> ent_bases e <> [] ->
  has_rec (fold_left (resolve_ent (parse_block f)) l d) c.
Proof.
  induction l as [|[k x] l IH]; intros d c e Hin Hb; cbn [fold_left]; [destruct Hin|].
  destruct Hin as [[= -> ->]|Hin]; [|eapply IH; eauto].
  apply (rounds_mono (fun d => has_rec d c)); [intros ? ?; apply parse_block_rec_mono|intros ? ? H; apply has_rec_add, H|].
  apply resolve_ent_records, Hb.
Qed.

Lemma parse_block_complete f : forall pend d i, IC pend d -> IC pend (parse_block f d i).
Proof.
  induction f as [|f IH]; intros pend d i Hd; cbn [LazyDb.parse_block].
  - destruct (nth_error (unparsed _ _ _ d) i) as [[cs data]|]; [|exact Hd].
    destruct (is_empty data); [exact Hd|]. split; [apply Inv_oof, Hd|exact (proj2 Hd)].
  - destruct (nth_error (unparsed _ _ _ d) i) as [[cs data]|] eqn:Ei; [|exact Hd].
    destruct (is_empty data) eqn:Ee; [exact Hd|].
    pose proof (Inv_live d i cs data (proj1 Hd) Ei Ee) as HB.
    change (mkdb _ _ _ _ _ _ _) with (stored d i cs data).
    set (pend' := fun c => pend c || existsb (fun k => name_eqb k c) cs).
    assert (H1 : IC pend' (stored d i cs data)).
    { split; [exact (Inv_store d i cs data (proj1 Hd) Ei Ee)|]. intros c e Hp Hl Hb.
      unfold pend' in Hp. apply orb_false_elim in Hp as [Hp Hn]. rewrite stored_lookup in Hl.
      destruct (assoc c (combine cs (decode cs data))) as [e0|] eqn:Ea.
      - exfalso. apply assoc_combine_In in Ea. apply existsb_name in Ea. congruence.
      - exact (proj2 Hd c e Hp Hl Hb). }
    assert (H2 : IC pend' (fold_left (resolve_ent (parse_block f)) (combine cs (decode cs data)) (stored d i cs data))).
    { apply (rounds_mono (IC pend')); [apply IH| |exact H1].
      intros d0 x [Ha Hb]. split; [apply Inv_add_rec, Ha|apply Complete_add, Hb]. }
    split; [exact (proj1 H2)|]. intros c e Hp Hl Hb.
    destruct (existsb (fun k => name_eqb k c) cs) eqn:Ex.
    + apply existsb_name in Ex.
      destruct (assoc_combine_some c cs (decode cs data) Ex (decode_len cs data)) as [e0 He0].
      assert (Hs : spec c = Some e0) by (eapply spec_block_gen; eauto).
      pose proof (inv_map _ (proj1 H2) c) as Hm. rewrite Hl in Hm. rewrite Hs in Hm. injection Hm as <-.
      exact (fold_resolve_records f _ _ c e0 (assoc_In _ _ _ He0) Hb).
    + apply (proj2 H2 c e); [unfold pend'; rewrite Hp, Ex; reflexivity|exact Hl|exact Hb].
Qed.

(** * Top level: the answers including the bases *)
Record Top (f : nat) (d : db) : Prop := {
  top_inv : Inv d; top_sound : RSound d; top_complete : Complete (fun _ => false) d; top_fuel : within f d }.

Lemma Top_init f : (length B <= f)%nat -> Top f (init name ent bytes B).
Proof.
  intros H. constructor; [apply Inv_init| | |].
  - intros _ c rb. cbn [init rbases LazyDb.rassoc]. discriminate.
  - intros c e _ Hl. exfalso. pose proof (init_map_spec c B 0) as Hs. cbn [init emap] in Hl. rewrite Hl in Hs. exact Hs.
  - apply within_init, H.
Qed.

Lemma parse_block_top (Hv : via_get_ent = true) f d i : Top f d -> Top f (parse_block f d i).
Proof.
  intros [H1 H2 H3 H4]. constructor.
  - apply parse_block_inv, H1.
  - apply (parse_block_sound Hv f d i (conj H1 H2)).
  - apply (parse_block_complete f _ d i (conj H1 H3)).
  - destruct (parse_block_fuel f d i H4) as [Ha Hb]. destruct H4 as [Hc _]. split; [lia|exact Hb].
Qed.

Theorem get_full_correct (Hv : via_get_ent = true) f d c : Top f d ->
  fst (get_full f d c) = full_spec c /\ Top f (snd (get_full f d c)).
Proof.
  intros Hd. unfold LazyDb.get_full.
  assert (Ht : Top f (snd (get_ent f d c))).
  { unfold LazyDb.get_ent. apply (get_ent_with_mono (Top f)); [intros; apply parse_block_top; assumption|exact Hd]. }
  pose proof (get_ent_with_answer f d c (top_inv _ _ Hd)) as Ha. fold (get_ent f d c) in Ha.
  assert (Hl : forall e, fst (get_ent f d c) = Some e -> lookup c (emap _ _ _ (snd (get_ent f d c))) = Some (Parsed e)).
  { intros e. unfold LazyDb.get_ent, LazyDb.get_ent_with. destruct (lookup c (emap _ _ _ d)) as [[e0|i]|] eqn:El; cbn [fst snd]; try discriminate.
    - intros [= ->]. exact El.
    - destruct (lookup c (emap _ _ _ (parse_block f d i))) as [[e1|j]|]; try discriminate. intros [= ->]. reflexivity. }
  destruct (get_ent f d c) as [x d'] eqn:E. cbn [fst snd] in *. split; [|exact Ht].
  destruct Ht as [T1 T2 T3 [_ T4]]. rewrite Ha by exact T4. unfold full_spec.
  destruct (spec c) as [e|] eqn:Es; cbn [option_map]; [|reflexivity].
  specialize (Hl e (eq_trans (Ha T4) eq_refl)). unfold LazyDb.rb_of.
  destruct (rassoc c (rbases _ _ _ d')) as [rb|] eqn:Er.
  - destruct (T2 T4 c rb Er) as [e' [He' ->]]. congruence.
  - destruct (ent_bases e) as [|b bs] eqn:Eb; [reflexivity|]. exfalso.
    apply (T3 c e eq_refl Hl); [rewrite Eb; discriminate|exact Er].
Qed.

Theorem run_full_correct (Hv : via_get_ent = true) f qs : forall d, Top f d ->
  fst (run_full f d qs) = map full_spec qs /\ Top f (snd (run_full f d qs)).
Proof.
  induction qs as [|c qs IH]; intros d Hd; cbn [LazyDb.run_full map]; [auto|].
  destruct (get_full_correct Hv f d c Hd) as [Hv1 Hi]. destruct (get_full f d c) as [x d'] eqn:E. cbn [fst snd] in *.
  destruct (IH d' Hi) as [Hv' Hi']. destruct (run_full f d' qs) as [xs d'']. cbn [fst snd] in *.
  subst. auto.
Qed.

Lemma parse_all_top (Hv : via_get_ent = true) f d : Top f d -> Top f (parse_all f d).
Proof.
  unfold LazyDb.parse_all. generalize (seq 0 (length (unparsed _ _ _ d))) as l. intros l. revert d.
  induction l as [|i l IH]; intros d Hd; cbn [fold_left]; [exact Hd|]. apply IH, parse_block_top; assumption.
Qed.

(** the definition of a class, with its bases, in the completely loaded database *)
Definition eager_full (f : nat) (c : name) : option (ent * list (option ent)) :=
  fst (get_full f (parse_all f (init name ent bytes B)) c).

Theorem eager_full_correct (Hv : via_get_ent = true) f c : (length B <= f)%nat -> eager_full f c = full_spec c.
Proof. intros H. unfold eager_full. apply (get_full_correct Hv). apply parse_all_top; [exact Hv|]. apply Top_init, H. Qed.

(** One at a time in any order = the whole database, including what every stored base name was replaced by:
    every base is the definition object of that class (alias chains across blocks included). *)
Theorem lazy_full_equals_eager (Hv : via_get_ent = true) f g qs : (length B <= f)%nat -> (length B <= g)%nat ->
  fst (run_full f (init name ent bytes B) qs) = map (eager_full g) qs.
Proof.
  intros Hf Hg. destruct (run_full_correct Hv f qs _ (Top_init f Hf)) as [-> _]. apply map_ext. intros c. symmetry.
  apply eager_full_correct; assumption.
Qed.

(** if every stored base name is a class of the file, no base of any answer is left as a name *)
Theorem lazy_bases_all_resolved (Hv : via_get_ent = true) f qs : (length B <= f)%nat ->
  (forall c e b, spec c = Some e -> In b (ent_bases e) -> spec b <> None) ->
  Forall (fun a => match a with Some (e, rb) => length rb = length (ent_bases e) /\ Forall (fun x => x <> None) rb | None => True end)
         (fst (run_full f (init name ent bytes B) qs)).
Proof.
  intros Hf Hk. destruct (run_full_correct Hv f qs _ (Top_init f Hf)) as [-> _]. apply Forall_forall. intros a Ha.
  apply in_map_iff in Ha as [c [<- _]]. unfold full_spec. destruct (spec c) as [e|] eqn:Es; cbn [option_map]; [|exact I].
  split; [apply map_length|]. apply Forall_forall. intros x Hx. apply in_map_iff in Hx as [b [<- Hb]]. eapply Hk; eauto.
Qed.

End Proofs.
