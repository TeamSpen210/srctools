(** Conditional stores of lump writers (fault class of seeded c10_4).

    A view's writer stores the data of the extra lumps of its view itself ([self.lumps[X].data = ...]).  If such a
    store is executed only under a data-dependent condition ("only rebuild OVERLAY_FADES when some overlay uses it"),
    the lump keeps whatever it holds when the store is skipped — and a lump that the view clears
    ([ParsedLump.to_clear]) holds b'' at that moment, because the look that cached the view emptied it.

    Model: the writer returns [list (option D)], [None] = the store of this owned lump is skipped for this value;
    [save_step_c] keeps the current content of a lump whose store is skipped ([keep]).  Results, for every
    order-consistent graph, every shape, every access sequence (looks that raise included):

    - [save_c_eq_save]: saving with conditional stores is EXACTLY saving with the unconditional writer that stores b''
      wherever the store is skipped ([wr_fill]): a skipped store of a cleared lump is a store of b'';
    - hence ([c10_conditional_store_lossless] in Props/C10.v) saving is lossless iff that filled writer inverts the reader, i.e. iff the reader
      makes of b'' exactly the value for which the store is skipped (the reader's default for an absent lump must be the
      only value that "looks unused");
    - a closed counterexample: default (9, 0), the store skipped for (0, 0).

    The invariant that carries the proof ([Emp]: every lump of a cached view is b'') needs no condition on the graph;
    the graph is needed only so that a writer's looks cannot re-cache its own view and two views share no lump. *)
From Coq Require Import List Arith Lia.
From SV Require Import SM.LazyLumps SM.LazyLumpsProofs.
Import ListNotations.

Section Cond.
  Variables D P : Type.
  Variable empty : D.
  Variable rd : nat -> list D -> option P.
  Variable wrc : nat -> P -> list (option D).     (* None: the store of this lump is skipped for this value *)
  Variable g : graph.
  Variable sh : shape.

  Notation nviews := (nviews g).
  Notation decl := (decl g).
  Notation own := (own g).
  Notation state := (state D P).
  Notation look_all := (look_all D P).
  Notation getf := (getf D P empty rd g sh).
  Notation get := (get D P empty rd g sh).
  Notation run := (run D P empty rd g sh).
  Notation clear_lumps := (clear_lumps D P empty).
  Notation set_cache := (set_cache D P).
  Notation pre_clear := (pre_clear D P empty g sh).

  (** A skipped store leaves the lump as it is. *)
  Fixpoint keep (r : nat -> D) (ls : list nat) (os : list (option D)) : list D :=
    match ls, os with
    | l :: ls', o :: os' => (match o with Some d => d | None => r l end) :: keep r ls' os'
    | _, _ => []
    end.
  (** ... a store of b'' puts b'' there. *)
  Definition fill (os : list (option D)) : list D :=
    map (fun o => match o with Some d => d | None => empty end) os.
  Definition wr_fill (v : nat) (p : P) : list D := fill (wrc v p).

  Notation save_step := (save_step D P empty rd wr_fill g sh).
  Notation save := (save D P empty rd wr_fill g sh).

  (** One iteration of the loop of BSP.save with a writer whose stores may be skipped (cf. [LazyLumps.save_step]). *)
  Definition save_step_c (acc : bool * state) (v : nat) : bool * state :=
    if fst acc then
      let s := snd acc in
      match cache s v with
      | None => acc
      | Some p =>
          let s1 := set_cache v None s in
          let r := look_all get (v_wdeps (decl v)) s1 in
          if fst r then
            let s2 := snd r in
            let p' := if mem v (v_wdeps (decl v)) then match cache s2 v with Some q => q | None => p end else p in
            (true, mkS (store_sel D (v_wstore (decl v)) (own v) (keep (raw s2) (own v) (wrc v p')) (raw s2)) (cache s2))
          else r
      end
    else acc.
  Definition save_c (s : state) : bool * state := fold_left save_step_c (save_todo D P g sh s) (true, s).

  (** Every lump of a cached view is b''. *)
  Definition Emp (s : state) : Prop := forall v l, cache s v <> None -> In l (own v) -> raw s l = empty.

  Lemma keep_fill_store : forall ws r0 ls os, (forall l, In l ls -> r0 l = empty) ->
    forall r, store_sel D ws ls (keep r0 ls os) r = store_sel D ws ls (fill os) r.
  Proof.
    intros ws r0. induction ls as [|l ls IH]; intros os H r; destruct os as [|o os]; cbn [keep fill map store_sel]; try reflexivity.
    fold (fill os). assert (E : match o with Some d => d | None => r0 l end = match o with Some d => d | None => empty end).
    { destruct o; [reflexivity | apply H; now left]. }
    rewrite E. apply IH. intros l' Hl'. apply H. now right.
  Qed.

  (** Looking only ever empties lumps: a lump that is b'' stays b''. *)
  Lemma getf_keeps_empty : forall l f v (s : state), raw s l = empty -> raw (snd (getf f v s)) l = empty.
  Proof.
    intros l f v s. apply (getf_pres D P empty rd g sh (fun s => raw s l = empty) (fun _ => True)); [auto | | | exact I].
    - intros ls s' H. cbn [raw LazyLumps.clear_lumps]. destruct (mem l ls); [reflexivity | exact H].
    - intros w p s' _ _ H. cbn [raw LazyLumps.clear_lumps LazyLumps.set_cache]. destruct (mem l (own w)); [reflexivity | exact H].
  Qed.

  Lemma getf_Emp : forall f v (s : state), Emp s -> Emp (snd (getf f v s)).
  Proof.
    intros f v s. apply (getf_pres D P empty rd g sh Emp (fun _ => True)); [auto | | | exact I].
    - intros ls s' H w l Hc Hl. cbn [raw cache LazyLumps.clear_lumps] in *. destruct (mem l ls); [reflexivity | exact (H w l Hc Hl)].
    - intros u p s' _ _ H w l Hc Hl. cbn [raw cache LazyLumps.clear_lumps LazyLumps.set_cache] in *.
      destruct (mem l (own u)) eqn:E; [reflexivity|]. apply (H w l); [|exact Hl].
      destruct (Nat.eq_dec w u) as [->|Hne]; [apply mem_In in Hl; congruence | now rewrite upd_neq in Hc].
  Qed.

  Lemma run_Emp : forall accs (s : state), Emp s -> Emp (run accs s).
  Proof.
    induction accs as [|v r IH]; intros s Hs; cbn [LazyLumps.run fold_left]; [exact Hs|].
    apply IH. unfold LazyLumps.get. now apply getf_Emp.
  Qed.

  Lemma fresh_Emp : forall s : state, fresh D P s -> Emp s.
  Proof. intros s Hf v l Hc. rewrite (Hf v) in Hc. contradiction. Qed.

  Section Consistent.
    Hypothesis OC : order_consistent g = true.

    (** Looking at a view never touches the cache entry of a view earlier in the rebuild order. *)
    Lemma getf_cache_below : forall w f v (s : state), w < v -> cache (snd (getf f v s)) w = cache s w.
    Proof.
      intros w f v s Hw.
      apply (getf_pres D P empty rd g sh (fun s' => cache s' w = cache s w) (fun v => w < v)); [| auto | | exact Hw | reflexivity].
      - intros u d Hu Hwu Hd. destruct (deps_gt g OC u d Hu (in_or_app _ _ _ (or_introl Hd))). lia.
      - intros u p s' _ Hwu H. cbn [cache LazyLumps.clear_lumps LazyLumps.set_cache]. rewrite upd_neq by lia. exact H.
    Qed.

    Lemma save_step_c_eq : forall acc k, (fst acc = true -> Emp (snd acc)) ->
      save_step_c acc k = save_step acc k /\ (fst (save_step acc k) = true -> Emp (snd (save_step acc k))).
    Proof.
      intros [b s] k HE. unfold save_step_c, LazyLumps.save_step. cbn [fst snd] in *.
      destruct b; [|split; [reflexivity | discriminate]]. specialize (HE eq_refl).
      destruct (cache s k) as [p|] eqn:Ec; [|split; [reflexivity | intros _; exact HE]].
      set (s1 := set_cache k None s).
      assert (HE1 : Emp s1).
      { intros w l Hc Hl. unfold s1 in *. cbn [raw cache LazyLumps.set_cache] in *. unfold upd in Hc.
        destruct (Nat.eqb w k); [contradiction | exact (HE w l Hc Hl)]. }
      assert (Hown1 : forall l, In l (own k) -> raw s1 l = empty).
      { intros l Hl. unfold s1. cbn [raw LazyLumps.set_cache]. apply (HE k l); [congruence | exact Hl]. }
      assert (HE2 : Emp (snd (look_all get (v_wdeps (decl k)) s1))).
      { apply (look_all_pres D P Emp get); [|exact HE1]. intros d s' _ Hs'. unfold LazyLumps.get. now apply getf_Emp. }
      assert (Hown2 : forall l, In l (own k) -> raw (snd (look_all get (v_wdeps (decl k)) s1)) l = empty).
      { intros l Hl. apply (look_all_pres D P (fun s' => raw s' l = empty) get); [|exact (Hown1 l Hl)].
        intros d s' _ Hs'. unfold LazyLumps.get. now apply getf_keeps_empty. }
      assert (Hck : k < nviews -> cache (snd (look_all get (v_wdeps (decl k)) s1)) k = None).
      { intros Hk. transitivity (cache s1 k).
        - apply (look_all_pres D P (fun s' => cache s' k = cache s1 k) get); [|reflexivity].
          intros d s' Hd Hs'. unfold LazyLumps.get. rewrite getf_cache_below; [exact Hs'|].
          destruct (deps_gt g OC k d Hk (in_or_app _ _ _ (or_intror Hd))). lia.
        - apply upd_eq. }
      destruct (look_all get (v_wdeps (decl k)) s1) as [b2 s2]. cbn [fst snd] in *.
      destruct b2; [|split; [reflexivity | discriminate]].
      split.
      - f_equal. f_equal. unfold wr_fill. apply keep_fill_store. exact Hown2.
      - intros _ w l Hc Hl. cbn [fst snd raw cache] in *.
        destruct (in_dec Nat.eq_dec l (own k)) as [Hlk|Hlk].
        + exfalso. pose proof (own_lt g k l Hlk) as Hk.
          destruct (Nat.eq_dec w k) as [->|Hne]; [exact (Hc (Hck Hk)) | exact (own_other g OC k w l Hk Hne Hl Hlk)].
        + rewrite (store_sel_other D) by exact Hlk. exact (HE2 w l Hc Hl).
    Qed.

    Lemma save_steps_c_eq : forall ks acc, (fst acc = true -> Emp (snd acc)) ->
      fold_left save_step_c ks acc = fold_left save_step ks acc.
    Proof.
      induction ks as [|k ks IH]; intros acc HE; cbn [fold_left]; [reflexivity|].
      destruct (save_step_c_eq acc k HE) as [E HE']. rewrite E. apply IH. exact HE'.
    Qed.

    (** Saving with skipped stores IS saving with the writer that stores b'' instead. *)
    Theorem save_c_eq_save : forall s0 accs, fresh D P s0 -> save_c (run accs s0) = save (run accs s0).
    Proof.
      intros s0 accs Hf. unfold save_c, LazyLumps.save. apply save_steps_c_eq. cbn [fst snd]. intros _.
      apply run_Emp. now apply fresh_Emp.
    Qed.

  End Consistent.
End Cond.

(** Closed instances (seeded c10_4).
    Data are lists of numbers ([] = b''); a view owns a main lump 2 and an auxiliary lump 3.  The reader substitutes
    the default [dflt] for an absent auxiliary lump; the writer rebuilds the auxiliary lump only when some value in it
    is non-zero ("only when an overlay uses the feature"). *)
Definition cx_rd (dflt : list nat) (v : nat) (ds : list (list nat)) : option (list (list nat)) :=
  match ds with
  | [m; a] => Some [m; match a with [] => dflt | _ => a end]
  | _ => Some ds
  end.
Definition cx_wrc (v : nat) (p : list (list nat)) : list (option (list nat)) :=
  match p with
  | [m; a] => [Some m; if forallb (Nat.eqb 0) a then None else Some a]
  | _ => map Some p
  end.
Definition g_aux : graph := [ mkV [2; 3] [] [] [2; 3] ].
Definition cx_file (aux : list nat) : state (list nat) (list (list nat)) :=
  mkS (fun l => if Nat.eqb l 2 then [7] else if Nat.eqb l 3 then aux else []) (fun _ => None).
Notation cx_save dflt s := (save_c (list nat) (list (list nat)) [] (cx_rd dflt) cx_wrc g_aux std_shape s).
Notation cx_run dflt accs s := (run (list nat) (list (list nat)) [] (cx_rd dflt) g_aux std_shape accs s).
Notation cx_fill := (wr_fill (list nat) (list (list nat)) [] cx_wrc).

(** OVERLAY_FADES: the reader's default is (9, 0) (fade_min_sq = -1.0, fade_max_sq = 0.0).  All values (0, 0): the store
    is skipped, the lump stays b'', the file reads back with the default; the graph conditions all hold, what fails is
    [codec_ok] of the filled writer.  With one non-zero value the same history is lossless. *)
Example conditional_store_refuted :
  let s0 := cx_file [0; 0] in
  let r := cx_save [9; 0] (cx_run [9; 0] [0] s0) in
  order_consistent g_aux = true /\
  denote (list nat) (list (list nat)) (cx_rd [9; 0]) g_aux s0 0 = Some [[7]; [0; 0]] /\
  fst r = true /\ raw (snd r) 2 = [7] /\ raw (snd r) 3 = [] /\
  denote (list nat) (list (list nat)) (cx_rd [9; 0]) g_aux (snd r) 0 = Some [[7]; [9; 0]] /\
  cx_rd [9; 0] 0 (cx_fill 0 [[7]; [0; 0]]) <> Some [[7]; [0; 0]] /\
  raw (snd (cx_save [9; 0] (cx_run [9; 0] [0] (cx_file [0; 4])))) 3 = [0; 4].
Proof. vm_compute. repeat split; try reflexivity. discriminate. Qed.

(** OVERLAY_SYSTEM_LEVELS: the reader's default is (0, 0), the only value for which the store is skipped.  The
    hypotheses of [c10_conditional_store_lossless] hold on a file where the store IS skipped: the lump comes back as b'' (not the
    bytes of the file) and the view parses to the same content. *)
Example cond_hyps_satisfiable :
  let s0 := cx_file [0; 0] in
  let r := cx_save [0; 0] (cx_run [0; 0] [0] s0) in
  fresh (list nat) (list (list nat)) s0 /\
  wr_len_ok (list nat) (list (list nat)) (cx_rd [0; 0]) cx_fill g_aux s0 /\
  codec_ok (list nat) (list (list nat)) (cx_rd [0; 0]) cx_fill g_aux s0 /\
  cx_wrc 0 [[7]; [0; 0]] = [Some [7]; None] /\ raw (snd r) 3 = [] /\
  denote (list nat) (list (list nat)) (cx_rd [0; 0]) g_aux (snd r) 0 = denote (list nat) (list (list nat)) (cx_rd [0; 0]) g_aux s0 0.
Proof.
  cbv zeta. split; [intros v; reflexivity|]. split; [|split; [|vm_compute; repeat split; reflexivity]].
  - intros v p Hv Hr. destruct v as [|v]; [|cbn in Hv; lia]. vm_compute in Hr. injection Hr as <-. reflexivity.
  - intros v p Hv Hr. destruct v as [|v]; [|cbn in Hv; lia]. vm_compute in Hr. injection Hr as <-. reflexivity.
Qed.
