(** Proofs about the shape of [_remove_copyset] (SM/IndexRemove.v): a shape that passes the four boolean obligations
    is the model's [ix_remove] for every mapping, key and entity and never raises; without the last obligation the
    result differs from [ix_remove] at most by an empty set left under the key.  The other shapes are refuted in
    Props/C07.v ([c07_remove_copyset_variants_refuted]). *)
From stdpp Require Import gmap.
From SV Require Import SM.IndexModel SM.IndexRemove.

Section proofs.
  Context {K : Type} `{Countable K}.
  Implicit Types (m : gmap K (gset nat)) (k : K) (e : nat).

  Lemma rc_run_ok sh k e m : rc_ok sh = true → rc_run sh k e m = (ix_remove k e m, 0).
  Proof.
    destruct sh as [lk ab rm dr]. unfold rc_ok, rc_lookup_ok, rc_discards, rc_keeps_others, rc_drops_empty, rc_run, ix_remove.
    simpl. intros Hok.
    destruct rm; [|by rewrite !andb_false_r in Hok || (destruct lk, ab; simpl in Hok; done)].
    destruct dr; try (destruct lk, ab; simpl in Hok; done).
    destruct (m !! k) as [s|] eqn:E.
    - assert (Hgo : (if decide (s ∖ {[e]} = ∅) then delete k (<[k:=s ∖ {[e]}]> m) else <[k:=s ∖ {[e]}]> m)
                    = (if decide (s ∖ {[e]} = ∅) then delete k m else <[k:=s ∖ {[e]}]> m)).
      { destruct (decide _); [by rewrite delete_insert_delete|done]. }
      destruct lk; simpl; rewrite ?E; simpl; by rewrite Hgo.
    - destruct lk; simpl; rewrite ?E; simpl.
      + destruct ab; [done|simpl in Hok; done].
      + assert (Hemp : (∅ : gset nat) ∖ {[e]} = ∅) by set_solver. rewrite Hemp.
        destruct (decide _) as [_|Hn]; [|done].
        rewrite insert_insert, delete_insert; done.
      + destruct ab; [done|simpl in Hok; done].
  Qed.

  (** without "drops the set when it became empty": the same sets everywhere for a reader, no exception *)
  Lemma rc_run_reader_ok sh k e m : rc_reader_ok sh = true →
    (rc_run sh k e m).2 = 0 ∧ ∀ k', ix_get (rc_run sh k e m).1 k' = ix_get (ix_remove k e m) k'.
  Proof.
    intros Hok. destruct (rc_drops_empty sh) eqn:Hd.
    { rewrite rc_run_ok; [done|]. unfold rc_ok. unfold rc_reader_ok in Hok. by rewrite Hok, Hd. }
    destruct sh as [lk ab rm dr]. unfold rc_reader_ok, rc_lookup_ok, rc_discards, rc_keeps_others in Hok.
    unfold rc_drops_empty in Hd. simpl in *.
    destruct rm; [|by rewrite andb_false_r in Hok].
    destruct dr; try done; try (by rewrite !andb_false_r in Hok).
    unfold rc_run, ix_remove, ix_get. simpl.
    destruct (m !! k) as [s|] eqn:E.
    - assert (Hgo : ∀ k', default ∅ (<[k:=s ∖ {[e]}]> m !! k')
                    = default ∅ ((if decide (s ∖ {[e]} = ∅) then delete k m else <[k:=s ∖ {[e]}]> m) !! k')).
      { intros k'. destruct (decide _) as [He|]; [|done].
        destruct (decide (k' = k)) as [->|Hne].
        - by rewrite lookup_insert, lookup_delete, He.
        - by rewrite lookup_insert_ne, lookup_delete_ne. }
      destruct lk; simpl; rewrite ?E; simpl; split; try done.
    - destruct lk; simpl; rewrite ?E; simpl.
      + destruct ab; [done|simpl in Hok; done].
      + split; [done|]. intros k'. assert (Hemp : (∅ : gset nat) ∖ {[e]} = ∅) by set_solver. rewrite Hemp.
        rewrite insert_insert. destruct (decide (k' = k)) as [->|Hne].
        * by rewrite lookup_insert, E.
        * by rewrite lookup_insert_ne.
      + destruct ab; [done|simpl in Hok; done].
  Qed.
End proofs.
