From stdpp Require Import gmap.
From SV Require Import SM.IdMan SM.IdManProofs SM.IdWorld.
Open Scope Z_scope.

(** Allocation keys of the existing objects: (map whose manager issued the ID, ID). *)
Definition wkeys (l : list wobj) : list (nat * Z) :=
  (λ o, (wowner o, wid o)) <$> filter (λ o, walive o = true) l.

(** The IDs that the manager of map [m] has issued to existing objects. *)
Definition wids (m : nat) (l : list wobj) : list Z := wid <$> filter (λ o, walive o = true ∧ wowner o = m) l.

Lemma wids_app m l1 l2 : wids m (l1 ++ l2) = wids m l1 ++ wids m l2.
Proof. unfold wids. by rewrite filter_app, fmap_app. Qed.
Lemma wids_one m o : wids m [o] = if decide (walive o = true ∧ wowner o = m) then [wid o] else [].
Proof. unfold wids. rewrite filter_cons. by destruct (decide _). Qed.

Lemma elem_of_wkeys l m i : (m, i) ∈ wkeys l ↔ i ∈ wids m l.
Proof.
  unfold wkeys, wids. rewrite !elem_of_list_fmap. split.
  - intros (o & [= -> ->] & [Ha Ho]%elem_of_list_filter). exists o. by rewrite elem_of_list_filter.
  - intros (o & -> & [[Ha <-] Ho]%elem_of_list_filter). exists o. by rewrite elem_of_list_filter.
Qed.

(** Distinct per issuing manager is distinct as (manager, ID) pairs. *)
Lemma wkeys_nodup l : (∀ m, NoDup (wids m l)) → NoDup (wkeys l).
Proof.
  induction l as [|o l IH]; intros H; [constructor|].
  assert (Hl : NoDup (wkeys l)).
  { apply IH. intros m. specialize (H m). unfold wids in H. rewrite filter_cons in H.
    destruct (decide _); [by apply NoDup_cons in H as [_ H]|done]. }
  unfold wkeys. rewrite filter_cons. destruct (decide (walive o = true)) as [Ha|]; [|done].
  apply NoDup_cons. split; [|done]. intros Hi%elem_of_wkeys.
  specialize (H (wowner o)). unfold wids in H. rewrite filter_cons_True in H by done. by apply NoDup_cons in H as [H _].
Qed.

Lemma man_of_insert ms l m s m' :
  man_of {| wmans := <[m := s]> ms; wobjs := l |} m' =
  if decide (m' = m) then s else default init (ms !! m').
Proof.
  unfold man_of; simpl. destruct (decide (m' = m)) as [->|Hne].
  - by rewrite lookup_insert.
  - by rewrite lookup_insert_ne.
Qed.

(** The allocator-level invariant: every manager, with the IDs it has issued to existing objects, is [Held]. *)
Definition WInv (w : wworld) : Prop := ∀ m, Held (man_of w m) (wids m (wobjs w)).

Lemma ww0_inv : WInv ww0.
Proof. intros m. unfold man_of; simpl. rewrite lookup_empty. apply held_init. Qed.

Lemma walloc_inv am hm d w : WInv w → WInv (walloc am hm d w).
Proof.
  intros H m. unfold walloc. destruct (get_id d (man_of w am)) as [[i s']|] eqn:E; [|done].
  rewrite man_of_insert. simpl. rewrite wids_app, wids_one. simpl. destruct (decide (m = am)) as [->|Hne].
  - rewrite decide_True by done. apply (held_alloc _ _ [] _ _ _ E). rewrite app_nil_r. apply H.
  - rewrite decide_False by (by intros [_ ?]). rewrite app_nil_r. apply H.
Qed.

Lemma wcopy_inv c k m d w : WInv w → WInv (wcopy c k m d w).
Proof.
  intros H. unfold wcopy. destruct (wobjs w !! k) as [o|]; [|done].
  destruct (walive o); [|done]. by apply walloc_inv.
Qed.

(** The object [k] is replaced, and the managers with it. *)
Lemma winv_update w k o o' mans' : wobjs w !! k = Some o →
  let w' := {| wmans := mans'; wobjs := <[k := o']> (wobjs w) |} in
  (∀ m A B, Held (man_of w m) (A ++ wids m [o] ++ B) → Held (man_of w' m) (A ++ wids m [o'] ++ B)) →
  WInv w → WInv w'.
Proof. intros Hk w' Hstep H m. exact (held_update (wids m) _ _ _ _ _ _ (wids_app m) Hk (Hstep m) (H m)). Qed.

Lemma wids_wset m o i : walive o = true → wids m [wset o true i] = wids m [o].
Proof. intros Ha. rewrite !wids_one. simpl. by rewrite Ha. Qed.

Lemma wstep1_inv c w e : WInv w → WInv (wstep1 false c w e).
Proof.
  intros H. destruct e as [m d|k m d|k|k|k|m ds|ks m]; simpl.
  - by apply walloc_inv.
  - by apply wcopy_inv.
  - destruct (wobjs w !! k) as [o|] eqn:Hk; [|done].
    destruct (walive o && winmap o) eqn:Hc; [|done]. apply andb_true_iff in Hc as [Ha _].
    apply (winv_update _ _ _ _ _ Hk); [|done]. intros m A B. by rewrite wids_wset.
  - destruct (wobjs w !! k) as [o|] eqn:Hk; [|done].
    destruct (walive o && negb (winmap o)) eqn:Hc; [|done]. apply andb_true_iff in Hc as [Ha _].
    apply (winv_update _ _ _ _ _ Hk); [|done]. intros m A B. by rewrite wids_wset.
  - destruct (wobjs w !! k) as [o|] eqn:Hk; [|done]. destruct (walive o) eqn:Ha; [|done].
    apply (winv_update _ _ _ _ _ Hk); [|done]. intros m A B.
    rewrite man_of_insert, !wids_one. simpl. rewrite Ha.
    destruct (decide (m = wowner o)) as [->|Hne].
    + rewrite decide_True by done. apply held_release.
    + by rewrite decide_False by (by intros [_ ?]).
  - apply fold_left_inv; [|done]. intros w1 d. apply walloc_inv.
  - apply fold_left_inv; [|done]. intros w1 k. apply wcopy_inv.
Qed.

Lemma wrun_from_inv c es : ∀ w, WInv w → WInv (wrun_from false c w es).
Proof. apply fold_left_inv, wstep1_inv. Qed.

(** When copies allocate in the destination map, every object is listed in the map that issued its ID. *)
Definition Homed (w : wworld) : Prop := Forall (λ o, wowner o = whome o) (wobjs w).

Lemma walloc_homed m d w : Homed w → Homed (walloc m m d w).
Proof.
  intros H. unfold walloc. destruct (get_id _ _) as [[i s']|]; [|done].
  unfold Homed; simpl. apply Forall_app. split; [done|]. by constructor.
Qed.
Lemma wcopy_homed k m d w : Homed w → Homed (wcopy true k m d w).
Proof.
  intros H. unfold wcopy. destruct (wobjs w !! k) as [o|]; [|done].
  destruct (walive o); [|done]. by apply walloc_homed.
Qed.
Lemma wset_homed w k o a i mans : Homed w → wobjs w !! k = Some o →
  Homed {| wmans := mans; wobjs := <[k := wset o a i]> (wobjs w) |}.
Proof.
  intros H Hk. unfold Homed; simpl. apply Forall_insert; [done|]. simpl.
  eapply (proj1 (Forall_lookup _ _) H); eauto.
Qed.

Lemma wstep1_homed r w e : Homed w → Homed (wstep1 r true w e).
Proof.
  intros H. destruct e as [m d|k m d|k|k|k|m ds|ks m]; simpl.
  - by apply walloc_homed.
  - by apply wcopy_homed.
  - destruct (wobjs w !! k) as [o|] eqn:Hk; [|done]. destruct (_ && _); [|done]. by apply wset_homed.
  - destruct (wobjs w !! k) as [o|] eqn:Hk; [|done]. destruct (_ && _); [|done]. by apply wset_homed.
  - destruct (wobjs w !! k) as [o|] eqn:Hk; [|done]. destruct (walive o); [|done]. by apply wset_homed.
  - apply fold_left_inv; [|done]. intros w1 d. apply walloc_homed.
  - apply fold_left_inv; [|done]. intros w1 k. apply wcopy_homed.
Qed.

Lemma wrun_from_homed r es : ∀ w, Homed w → Homed (wrun_from r true w es).
Proof. apply fold_left_inv, wstep1_homed. Qed.

(** Then the objects that belong to a map are those its manager issued IDs to. *)
Lemma homed_live_ids m w : Homed w → live_ids_in m w = wids m (wobjs w).
Proof.
  unfold Homed, live_ids_in, wids. induction 1 as [|o l Ho Hl IH]; [done|].
  rewrite !filter_cons, <- Ho. destruct (decide _); by rewrite ?fmap_cons, IH.
Qed.

Lemma world_unique m w : WInv w → Homed w → NoDup (live_ids_in m w) ∧ (∀ i, i ∈ live_ids_in m w → 0 < i).
Proof. intros H Hh. rewrite (homed_live_ids _ _ Hh). exact (held_unique _ _ (H m)). Qed.

(** Main theorem: with IDs released only by destructors and copies allocating in the destination map, after
    every history of construction with arbitrary desired IDs, copy within and across maps, removal, re-adding,
    destruction, parsing of documents with arbitrary (colliding, missing, non-positive) IDs and collapsing of
    instances, the existing objects that belong to one map have pairwise distinct, positive IDs. *)
Theorem world_live_ids_nodup_pos es m : let w := wrun false true es in
  NoDup (live_ids_in m w) ∧ (∀ i, i ∈ live_ids_in m w → 0 < i).
Proof. apply world_unique; [apply wrun_from_inv, ww0_inv|apply wrun_from_homed; constructor]. Qed.

(** The objects in the map's lists are among them. *)
Lemma map_ids_sublist_live m w : sublist (map_ids_in m w) (live_ids_in m w).
Proof. apply fmap_sublist, my_sublist_filter_impl. tauto. Qed.

Corollary world_map_ids_nodup_pos es m : let w := wrun false true es in
  NoDup (map_ids_in m w) ∧ (∀ i, i ∈ map_ids_in m w → 0 < i).
Proof.
  intros w. destruct (world_live_ids_nodup_pos es m) as [Hnd Hpos]. split.
  - eapply my_sublist_NoDup; [apply map_ids_sublist_live|done].
  - intros i Hi. apply Hpos. eapply elem_of_submseteq; [exact Hi|]. apply sublist_submseteq, map_ids_sublist_live.
Qed.

(** Refutations of the variants. *)
(** A copy that takes its ID from the source map's manager: the destination map gets two objects with ID 2. *)
Definition xmap_copy_history : list wev := [WCreate 0 (-1); WCreate 1 (-1); WCreate 1 (-1); WCopy 0 1 (-1)].
Example xmap_copy_history_ok : map_ids_in 1 (wrun false true xmap_copy_history) = [1; 2; 3].
Proof. vm_compute. reflexivity. Qed.
(** Parsing a document whose IDs collide, are missing (-1) or non-positive renumbers them. *)
Example parse_colliding_ids : map_ids_in 0 (wrun false true [WParse 0 [5; 5; -1; 0; 1; 5; 2]]) = [5; 1; 2; 3; 4; 6; 7].
Proof. vm_compute. reflexivity. Qed.
