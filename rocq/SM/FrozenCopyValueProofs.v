(** C05 (b) — proofs for SM/FrozenCopyValue.v: a copy-like method whose shape passes [copy_shapes_ok] returns an
    object with the same value as its source: slot for slot identical for vectors and matrices, and for angles equal
    as real numbers whenever the source satisfies the range invariant (the constructor's [% 360 % 360] is the identity
    on [0, 360): Num/Mod360Id.v). *)
From Coq Require Import List String Bool Reals.
From Flocq Require Import BinarySingleNaN.
From SV Require Import Num.Mod360 Num.Mod360Id Num.AngleSites SM.FrozenCopyValue.
Import ListNotations.
Open Scope string_scope.

Lemma list_eqb_eq a b : list_eqb a b = true -> a = b.
Proof.
  unfold list_eqb. revert b. induction a as [|x a IH]; intros [|y b]; simpl; try discriminate; auto.
  rewrite andb_true_iff, Nat.eqb_eq. intros [L H]. rewrite andb_true_iff in H. destruct H as [E H].
  apply String.eqb_eq in E. cbn [fst snd] in E. subst y. f_equal. apply IH. rewrite andb_true_iff, Nat.eqb_eq. split; [congruence|exact H].
Qed.

Section Generic.
  Variable V : Type.
  Variable norm : V -> V.
  Variable dflt : V.
  Variable same : V -> V -> Prop.            (* "has the same observable value" *)
  Variable good : V -> Prop.                 (* the invariant under which norm does not move a value *)
  Hypothesis same_refl : forall v, same v v.
  Hypothesis norm_id : forall v, good v -> same (norm v) v.

  (** a slot listed by the transfer is found by [built] (first entry for that name) *)
  Lemma built_in t src s : In s (map (fun e : string * string * xfer => fst (fst e)) t) ->
    exists e, In e t /\ fst (fst e) = s /\ built V norm dflt t src s = conv V norm (snd e) (src (snd (fst e))).
  Proof.
    unfold built. induction t as [|e t IH]; simpl; [tauto|].
    intros H. destruct (fst (fst e) =? s) eqn:E.
    - apply String.eqb_eq in E. exists e; auto.
    - destruct H as [H|H]; [apply String.eqb_neq in E; contradiction|].
      destruct (IH H) as [e' [I [F B]]]. exists e'; auto.
  Qed.

  Theorem copy_value_same : forall rc t src,
    transfer_ok rc t = true ->
    (angle_family rc = true -> forall s, In s (slots_of rc) -> good (src s)) ->
    forall s, In s (slots_of rc) -> same (built V norm dflt t src s) (src s).
  Proof.
    intros rc t src OK G s Hs. unfold transfer_ok in OK. apply andb_true_iff in OK. destruct OK as [L F].
    apply list_eqb_eq in L. rewrite <- L in Hs.
    destruct (built_in t src s Hs) as [e [I [Fe B]]]. rewrite B.
    rewrite forallb_forall in F. specialize (F e I). apply andb_true_iff in F. destruct F as [E X].
    apply String.eqb_eq in E. assert (Es : snd (fst e) = s) by congruence. rewrite Es.
    destruct (snd e); simpl; try apply same_refl.
    apply norm_id. apply G; [exact X|]. rewrite <- L. exact Hs.
  Qed.

End Generic.

(** vectors and matrices: no conversion that could move a value, whatever the slots hold — the instance in which
    no value is good and nothing is ever normalised *)
Theorem copy_value_exact (V : Type) (norm : V -> V) (dflt : V) : forall rc t src,
  transfer_ok rc t = true -> angle_family rc = false ->
  forall s, In s (slots_of rc) -> built V norm dflt t src s = src s.
Proof.
  intros rc t src OK NA. apply (copy_value_same V norm dflt eq (fun _ => False)); try tauto.
  rewrite NA. discriminate.
Qed.

(** the table level: an entry of a checked table is the receiver itself or a transfer that passes [transfer_ok] into
    the class the method has to return *)
Lemma shapes_entry l c m rc sh : copy_shapes_ok l = true -> In (c, m, rc, sh) l ->
  rc = result_class c m /\ (sh = CSelf \/ exists t, sh = CSlots t /\ transfer_ok rc t = true).
Proof.
  intros OK I. unfold copy_shapes_ok in OK. rewrite forallb_forall in OK. specialize (OK _ I). simpl in OK.
  apply andb_true_iff in OK. destruct OK as [OK S]. apply andb_true_iff in OK. destruct OK as [_ R].
  apply String.eqb_eq in R. split; [exact R|]. destruct sh; [left; reflexivity|right; eauto|discriminate].
Qed.

(** binary64 instance: [norm] is Python's double modulo, "same" is equality of the real values of finite doubles *)
Definition same64 (a b : b64) : Prop := is_finite a = true /\ is_finite b = true /\ B2R a = B2R b.

Theorem copy_value_equal_angles : forall l, copy_shapes_ok l = true ->
  forall c m rc t, In (c, m, rc, CSlots t) l -> angle_family rc = true ->
  forall src : string -> b64, (forall s, In s (slots_of rc) -> in_range (src s)) ->
  forall s, In s (slots_of rc) ->
    same64 (built b64 double360 (B754_zero false) t src s) (src s) /\ in_range (built b64 double360 (B754_zero false) t src s).
Proof.
  intros l OK c m rc t I A src G s Hs.
  destruct (shapes_entry l c m rc (CSlots t) OK I) as [_ [D|[t' [E T]]]]; [discriminate|]. injection E as <-.
  assert (S : forall s, In s (slots_of rc) ->
              (fun a b => in_range b -> same64 a b) (built b64 double360 (B754_zero false) t src s) (src s)).
  { apply (copy_value_same b64 double360 (B754_zero false) (fun a b => in_range b -> same64 a b) in_range).
    - intros v [Fv _]. repeat split; auto.
    - intros v [Fv Rv] _. destruct (double360_id v Fv Rv) as [Eq Fin]. repeat split; auto.
    - exact T.
    - intros _. exact G. }
  pose proof (S s Hs (G s Hs)) as [F1 [F2 Eq]]. split; [repeat split; auto|].
  destruct (G s Hs) as [_ R]. split; [exact F1|]. rewrite Eq. exact R.
Qed.

Theorem copy_value_equal_exact : forall l, copy_shapes_ok l = true ->
  forall c m rc t, In (c, m, rc, CSlots t) l -> angle_family rc = false ->
  forall (V : Type) (norm : V -> V) (dflt : V) (src : string -> V) s, In s (slots_of rc) -> built V norm dflt t src s = src s.
Proof.
  intros l OK c m rc t I NA V norm dflt src s Hs.
  destruct (shapes_entry l c m rc (CSlots t) OK I) as [_ [D|[t' [E T]]]]; [discriminate|]. injection E as <-.
  exact (copy_value_exact V norm dflt rc t src T NA s Hs).
Qed.

(** the result class is the one the method promises, and has the slots of the source's family *)
Theorem copy_result_class : forall l, copy_shapes_ok l = true ->
  forall c m rc sh, In (c, m, rc, sh) l -> rc = result_class c m.
Proof. intros l OK c m rc sh I. exact (proj1 (shapes_entry l c m rc sh OK I)). Qed.

(** necessary: a copy() that swaps two slots fails the check and changes the value; one that stores the roll through a
    single conversion-free path but from another slot likewise *)
Definition swapped : transfer := [("_x", "_x", TFloat); ("_y", "_z", TFloat); ("_z", "_y", TFloat)].

(** not vacuous *)
Example shapes_satisfiable :
  copy_shapes_ok [("Angle", "copy", "Angle", CSlots [("_pitch", "_pitch", TNorm360); ("_yaw", "_yaw", TNorm360); ("_roll", "_roll", TNorm360)]);
                  ("Vec", "freeze", "FrozenVec", CSlots [("_x", "_x", TFloat); ("_y", "_y", TFloat); ("_z", "_z", TFloat)]);
                  ("FrozenMatrix", "copy", "FrozenMatrix", CSelf)] = true.
Proof. reflexivity. Qed.
