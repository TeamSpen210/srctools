(** C19 — which spellings of a path normpath identifies: empty segments (doubled, trailing slashes) and "." segments
    are noise.  (".." segments are resolved by normpath too; they are covered by computation and correspondence only.) *)
From Coq Require Import List NArith Bool.
From SV Require Import SM.FsChain SM.FsChainProofs SM.FsChainCompose.
Import ListNotations.
Open Scope N_scope.

Definition nosl (s : str) : bool := forallb (fun c => negb (c =? SL)) s.
Definition is_noise (c : str) : bool := eqb_str c [] || eqb_str c S_DOT.
Definition denoise (l : list str) : list str := filter (fun c => negb (is_noise c)) l.
Definition no_dotdot (l : list str) : bool := forallb (fun c => negb (eqb_str c S_DOTDOT)) l.

Lemma split_nosl a : nosl a = true -> split_on SL a = [a].
Proof.
  induction a as [|x a IH]; [reflexivity|]. cbn [nosl forallb]. intros H. apply andb_true_iff in H as [Hx Ha].
  apply negb_true_iff in Hx. cbn [split_on]. rewrite Hx, (IH Ha). reflexivity.
Qed.

Lemma split_join l : l <> [] -> forallb nosl l = true -> split_on SL (join_with SL l) = l.
Proof.
  induction l as [|a r IH]; [congruence|]. intros _ H. cbn [forallb] in H. apply andb_true_iff in H as [Ha Hr].
  destruct r as [|b r']; [apply split_nosl; exact Ha|].
  change (join_with SL (a :: b :: r')) with (a ++ SL :: join_with SL (b :: r')).
  rewrite split_app_sep, (split_nosl a Ha), IH; [reflexivity|discriminate|exact Hr].
Qed.

Lemma np_fold_noise a segs acc :
  no_dotdot segs = true -> fold_left (np_step a) segs acc = rev (denoise segs) ++ acc.
Proof.
  revert acc. induction segs as [|c segs IH]; intros acc H; [reflexivity|].
  cbn [no_dotdot forallb] in H. apply andb_true_iff in H as [Hc Hs]. apply negb_true_iff in Hc.
  cbn [fold_left denoise filter]. fold (denoise segs). unfold is_noise. unfold np_step at 2.
  destruct (eqb_str c [] || eqb_str c S_DOT) eqn:E; cbn [negb].
  - apply IH. exact Hs.
  - rewrite Hc. cbn [negb]. rewrite (IH _ Hs). cbn [rev]. rewrite <- app_assoc. reflexivity.
Qed.

(** normpath of a relative path without "..": its segments without the empty and "." ones ("." when none is left) *)
Lemma normpath_denoise s :
  is_prefix [SL] s = false -> no_dotdot (split_on SL s) = true ->
  normpath s = match denoise (split_on SL s) with [] => S_DOT | l => join_with SL l end.
Proof.
  intros Hlead Hdd. destruct s as [|x r]; [reflexivity|].
  rewrite (normpath_cons (x :: r)) by discriminate.
  assert (Hi : initial_slashes (x :: r) = 0%nat).
  { unfold initial_slashes. cbn [is_prefix] in *. rewrite andb_true_r in Hlead. rewrite Hlead. reflexivity. }
  rewrite Hi. cbn [Nat.eqb negb repeat app]. rewrite (np_fold_noise _ _ _ Hdd), app_nil_r, rev_involutive.
  destruct (denoise (split_on SL (x :: r))) as [|a l] eqn:E; [reflexivity|].
  destruct (join_with SL (a :: l)) as [|y t] eqn:Ej; [|reflexivity].
  (* a joined list is empty only if it is [[]], and [] is noise *)
  exfalso. assert (Hin : In a (denoise (split_on SL (x :: r)))) by (rewrite E; left; reflexivity).
  unfold denoise in Hin. apply filter_In in Hin as [_ Hn].
  destruct l as [|b l'].
  - cbn in Ej. subst a. discriminate.
  - change (join_with SL (a :: b :: l')) with (a ++ SL :: join_with SL (b :: l')) in Ej.
    apply app_eq_nil in Ej as [_ Ej]. discriminate.
Qed.

(** ... in terms of the segments: normpath drops the empty and "." ones. *)
Theorem normpath_noise segs :
  segs <> [] -> forallb nosl segs = true -> no_dotdot segs = true ->
  is_prefix [SL] (join_with SL segs) = false -> denoise segs <> [] ->
  normpath (join_with SL segs) = join_with SL (denoise segs).
Proof.
  intros Hne Hsl Hdd Hlead Hden.
  rewrite (normpath_denoise _ Hlead); rewrite (split_join segs Hne Hsl); [|exact Hdd].
  destruct (denoise segs); [congruence|reflexivity].
Qed.

Example noise_example :
  let segs := [[46]; [115]; []; [120]; [46]] in            (* "./s//x/." *)
  join_with SL segs = [46; 47; 115; 47; 47; 120; 47; 46] /\ denoise segs = [[115]; [120]]
  /\ normpath (join_with SL segs) = [115; 47; 120]
  /\ normpath [115; 47; 46; 46; 47; 115; 47; 120] = [115; 47; 120].    (* "s/../s/x" *)
Proof. repeat split; reflexivity. Qed.
