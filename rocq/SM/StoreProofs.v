(** C09 — the frame theorem for the heap model of Store.v: if no mutable location is reachable both from
    [a] and from the roots a mutator holds, then no sequence of in-place mutations performed through those
    roots changes anything reachable from [a]; in particular the unfolding (export) of [a] is unchanged. *)
From Coq Require Import List ZArith Bool.
From SV Require Import SM.Store.
Import ListNotations.

Lemma upd_same h l nd : upd h l nd l = Some nd.
Proof. unfold upd. rewrite Pos.eqb_refl. reflexivity. Qed.

Lemma upd_other h l nd x : x <> l -> upd h l nd x = h x.
Proof. unfold upd. intros H. destruct (Pos.eqb_spec x l); congruence. Qed.

Lemma alloc_upd h l nd x : alloc h x -> alloc (upd h l nd) x.
Proof.
  unfold alloc. intros H. destruct (Pos.eqb_spec x l) as [->|Hne].
  - rewrite upd_same. discriminate.
  - rewrite upd_other by assumption. exact H.
Qed.

Lemma reach_trans h a b c : reach h a b -> reach h b c -> reach h a c.
Proof. intros Hab Hbc. induction Hbc; eauto using reach_step. Qed.

Lemma reach_alloc h a l : closed h -> alloc h a -> reach h a l -> alloc h l.
Proof. intros Hc Ha Hr. induction Hr; eauto. Qed.

Definition roots_alloc (h : heap) (R : list loc) : Prop := forall r, In r R -> alloc h r.

Lemma roots_alloc_one h b : alloc h b -> roots_alloc h [b].
Proof. intros H r [<-|[]]. exact H. Qed.

Lemma reachR_alloc h R l : closed h -> roots_alloc h R -> reachR h R l -> alloc h l.
Proof. intros Hc HR (r & Hin & Hr). eapply reach_alloc; eauto. Qed.

Lemma reachR_step h R l nd l' :
  reachR h R l -> h l = Some nd -> In (VRef l') (nfields nd) -> reachR h R l'.
Proof. intros (r & Hin & Hr) H1 H2. exists r. split; [assumption|]. eapply reach_step; eauto. Qed.

(** Two heaps that agree on everything reachable from [a] have the same reach set from [a]. *)
Lemma reach_agree h h' a :
  (forall l, reach h a l -> h' l = h l) -> forall l, reach h' a l <-> reach h a l.
Proof.
  intros Hag l. split; intros Hr; (induction Hr; [constructor|eapply reach_step; eauto]).
  - rewrite <- (Hag l IHHr). exact H.
  - rewrite (Hag l Hr). exact H.
Qed.

(** Overwriting [l] by a node built from values the roots [R] hold: what [l] and the roots reach afterwards is
    [l] itself or was reachable before. *)
Lemma upd_reachR h R l nd :
  (forall v, In v (nfields nd) -> val_held h R v) ->
  forall r t, (r = l \/ reachR h R r) -> reach (upd h l nd) r t -> t = l \/ reachR h R t.
Proof.
  intros Hvs r t Hr Ht. induction Ht.
  - exact Hr.
  - destruct (Pos.eqb_spec l0 l) as [->|Hne].
    + rewrite upd_same in H. inversion H; subst nd0.
      right. exact (Hvs (VRef l') H0).
    + rewrite upd_other in H by assumption.
      destruct IHHt as [->|HR]; [congruence|].
      right. eapply reachR_step; eauto.
Qed.

(** Both kinds of step are such an update at a location that [a] does not reach, after which the roots are among
    [l :: R]: the invariant is kept and nothing reachable from [a] is touched. *)
Lemma upd_frame h R R' l nd a :
  closed h -> alloc h a -> roots_alloc h R -> sep h a R -> incl R' (l :: R) ->
  (forall v, In v (nfields nd) -> val_held h R v) -> (forall t, reach h a t -> t <> l) ->
  closed (upd h l nd) /\ alloc (upd h l nd) a /\ roots_alloc (upd h l nd) R' /\ sep (upd h l nd) a R' /\
  (forall t, reach h a t -> upd h l nd t = h t).
Proof.
  intros Hc Ha HR Hsep Hi Hvs Hne.
  assert (Hag : forall t, reach h a t -> upd h l nd t = h t) by (intros t Ht; apply upd_other; auto).
  split; [|split; [|split; [|split]]].
  - intros l0 nd0 l' H0 Hin. apply alloc_upd.
    destruct (Pos.eqb_spec l0 l) as [->|Hn].
    + rewrite upd_same in H0. inversion H0; subst nd0.
      eapply reachR_alloc; eauto. exact (Hvs (VRef l') Hin).
    + rewrite upd_other in H0 by assumption. eapply Hc; eauto.
  - apply alloc_upd. exact Ha.
  - intros r Hr. destruct (Hi r Hr) as [<-|Hr'].
    + unfold alloc. rewrite upd_same. discriminate.
    + apply alloc_upd. auto.
  - intros t Hta (r & Hin & Hr) (ndt & Hndt & Hmt).
    assert (Hta' : reach h a t) by (apply (reach_agree h (upd h l nd) a Hag); exact Hta).
    destruct (upd_reachR h R l nd Hvs r t) as [->|HtR]; [|exact Hr|exact (Hne l Hta' eq_refl)|].
    { destruct (Hi r Hin) as [<-|Hin']; [left; reflexivity|]. right. exists r. split; [assumption|constructor]. }
    rewrite upd_other in Hndt by auto. eapply Hsep; eauto. exists ndt. auto.
  - exact Hag.
Qed.

(** One mutation keeps the whole invariant and does not touch anything reachable from [a]. *)
Lemma step_frame h R m h1 R1 a :
  closed h -> alloc h a -> roots_alloc h R -> sep h a R -> step (h, R) m (h1, R1) ->
  closed h1 /\ alloc h1 a /\ roots_alloc h1 R1 /\ sep h1 a R1 /\
  (forall l, reach h a l -> h1 l = h l).
Proof.
  intros Hc Ha HR Hsep Hst.
  inversion Hst as [h0 R0 l vs nd HRl Hnd Hmut Hvs | h0 R0 l nd Hfresh Hvs]; subst; clear Hst.
  - (* store: [l] is mutable and reached by the roots, so [a] does not reach it *)
    apply (upd_frame h R1 R1 l (Node true vs) a); auto using incl_tl, incl_refl.
    intros t Ht ->. eapply Hsep; eauto. exists nd. auto.
  - (* alloc: [l] is not allocated, and everything [a] reaches is *)
    apply (upd_frame h R (l :: R) l nd a); auto using incl_refl.
    intros t Ht ->. apply (reach_alloc h a l Hc Ha Ht). assumption.
Qed.

(** The frame theorem: induction over the whole mutation history. *)
Theorem frame_steps : forall ms h R h' R' a,
  closed h -> alloc h a -> roots_alloc h R -> sep h a R -> steps (h, R) ms (h', R') ->
  (forall l, reach h a l -> h' l = h l) /\ sep h' a R' /\ closed h' /\ roots_alloc h' R'.
Proof.
  induction ms as [|m ms IH]; intros h R h' R' a Hc Ha HR Hsep Hs; inversion Hs; subst.
  - auto.
  - destruct s1 as [h1 R1].
    destruct (step_frame _ _ _ _ _ _ Hc Ha HR Hsep H2) as (Hc1 & Ha1 & HR1 & Hsep1 & Hag1).
    destruct (IH _ _ _ _ _ Hc1 Ha1 HR1 Hsep1 H4) as (Hag2 & Hsep2 & Hc2 & HR2).
    split; [|auto].
    intros l Hl. rewrite Hag2 by (apply (reach_agree h h1 a Hag1); exact Hl). auto.
Qed.

(** Observations agree when the heaps agree below the observed object. *)
Lemma unfold_agree h h' a :
  (forall x, reach h a x -> h' x = h x) ->
  forall n l, reach h a l -> unfold n h' (VRef l) = unfold n h (VRef l).
Proof.
  intros Hag. induction n as [|n IH]; intros l Hl; [reflexivity|].
  cbn [unfold]. rewrite (Hag l Hl). destruct (h l) as [nd|] eqn:E; [|reflexivity].
  f_equal. apply map_ext_in. intros v Hin. destruct v as [z|l'].
  - destruct n; reflexivity.
  - apply IH. eapply reach_step; eauto.
Qed.

Theorem frame_observation : forall ms h R h' R' a,
  closed h -> alloc h a -> roots_alloc h R -> sep h a R -> steps (h, R) ms (h', R') ->
  forall n, unfold n h' (VRef a) = unfold n h (VRef a).
Proof.
  intros ms h R h' R' a Hc Ha HR Hsep Hs n.
  destruct (frame_steps _ _ _ _ _ _ Hc Ha HR Hsep Hs) as (Hag & _).
  apply (unfold_agree h h' a Hag). constructor.
Qed.

(** Separation is symmetric: "and vice versa". *)
Lemma sep_sym h a b : sep h a [b] -> sep h b [a].
Proof.
  intros H l Hb (r & [<-|[]] & Hr) Hm.
  eapply H; eauto. exists b. split; [left; reflexivity|assumption].
Qed.

(** Two separated objects: whatever is done through the one, the other is observed unchanged. *)
Lemma sep_independent h a b :
  closed h -> alloc h a -> alloc h b -> sep h a [b] ->
  (forall ms h' R', steps (h, [b]) ms (h', R') -> forall n, unfold n h' (VRef a) = unfold n h (VRef a)) /\
  (forall ms h' R', steps (h, [a]) ms (h', R') -> forall n, unfold n h' (VRef b) = unfold n h (VRef b)).
Proof.
  intros Hc Ha Hb Hsep. split; intros ms h' R' Hs.
  - exact (frame_observation ms h [b] h' R' a Hc Ha (roots_alloc_one h b Hb) Hsep Hs).
  - exact (frame_observation ms h [a] h' R' b Hc Hb (roots_alloc_one h a Ha) (sep_sym h a b Hsep) Hs).
Qed.

Lemma reach_field h a nd l : h a = Some nd -> In (VRef l) (nfields nd) -> reach h a l.
Proof. intros H Hin. eapply reach_step; [constructor|exact H|exact Hin]. Qed.

(** Two objects that hold the same mutable node in a field are not separated. *)
Lemma shared_field_not_sep h a b nda ndb l ndl :
  h a = Some nda -> In (VRef l) (nfields nda) -> h b = Some ndb -> In (VRef l) (nfields ndb) ->
  h l = Some ndl -> nmut ndl = true -> ~ sep h a [b].
Proof.
  intros Ha Hia Hb Hib Hl Hm H. apply (H l).
  - exact (reach_field h a nda l Ha Hia).
  - exists b. split; [left; reflexivity|exact (reach_field h b ndb l Hb Hib)].
  - exists ndl. auto.
Qed.

(** The history the counterexamples use: one store into a mutable node held in a field of the only root. *)
Lemma store_field_steps h b nd l ndl vs :
  h b = Some nd -> In (VRef l) (nfields nd) -> h l = Some ndl -> nmut ndl = true ->
  (forall v, In v vs -> val_held h [b] v) ->
  steps (h, [b]) [MStore l vs] (upd h l (Node true vs), [b]).
Proof.
  intros Hb Hin Hl Hm Hvs. eapply steps_cons; [|apply steps_nil].
  apply (step_store h [b] l vs ndl); auto.
  exists b. split; [left; reflexivity|]. exact (reach_field h b nd l Hb Hin).
Qed.

(** The premise is necessary: a shared mutable node lets a mutation through [b] change [a]'s observation
    ([c09_frame_needs_separation]). *)
Definition shared_heap : heap := fun l =>
  match l with
  | 1%positive => Some (Node true [VRef 3%positive])
  | 2%positive => Some (Node true [VRef 3%positive])
  | 3%positive => Some (Node true [VAtom 255%Z])
  | _ => None
  end.
