(** The machine over the generated objects answers as the hand-written machine does (SM/VpkGenMachine.v). *)
From Coq Require Import List NArith Bool.
From SV Require Import Fmt.VpkDir Fmt.VpkDirV2 SM.Vpk SM.VpkPlace SM.VpkPlaceTableProofs Fmt.VpkDirProg Fmt.VpkDirProgProofs Fmt.VpkDirRead Fmt.VpkDirReadProofs SM.VpkGenMachine.
Import ListNotations.
Open Scope N_scope.

Section gm.
  Variable pt : list prow.
  Variable wp : wprog.
  Variable rp : rprog.
  Variable crc : bytes -> N.
  Variable cf : vcfg.
  Hypothesis Hpt : place_table_ok pt = true.
  Hypothesis Hwp : wprog_ok wp = true.
  Hypothesis Hrp : rprog_ok rp = true.

  Lemma gdo_write_is st k i d ix : gdo_write pt crc cf st k i d ix = Some (do_write crc cf st k i d ix).
  Proof.
    unfold gdo_write, do_write. rewrite (write_info_t_is_write_info pt Hpt).
    destruct (write_info crc cf st i d ix) as [st' i']. reflexivity.
  Qed.

  (** One operation: an answer of the generated machine is the answer of the hand-written machine. *)
  Lemma gstep_sound st o r : gstep pt wp rp crc cf st o = Some r -> step crc cf st o = Some r.
  Proof.
    destruct o as [k|k d ix|k d ix|k| |m]; cbn [gstep step]; trivial.
    - destruct (negb (writable (md st))); trivial.
      destruct (idx_rejected cf ix); trivial. destruct (name_rejected cf k); trivial.
      destruct (alookup k (tbl st)); trivial. now rewrite gdo_write_is.
    - destruct (alookup k (tbl st)) as [i|]; trivial.
      destruct (negb (writable (md st))); trivial. destruct (idx_rejected cf ix); trivial.
      now rewrite gdo_write_is.
    - destruct (negb (writable (md st))); trivial.
      now rewrite (wprog_ok_is_enc_file wp Hwp).
    - (* a file the reader program loads as version 1 is one [dec_file] loads; version 2 gives no answer *)
      destruct m; trivial; rewrite (rprog_ok_is_dec_file_v rp Hrp), dec_file_of_v;
        (destruct (dec_file_v (v_dc cf) (disk st)) as [[[v es] f]|]; trivial; now destruct (v =? 1)).
  Qed.

  Lemma grun_sound ops : forall st r, grun pt wp rp crc cf st ops = Some r -> run crc cf st ops = Some r.
  Proof.
    induction ops as [|o ops IH]; intros st r; cbn [grun run]; trivial.
    destruct (gstep pt wp rp crc cf st o) as [[st' c]|] eqn:E; [|discriminate].
    rewrite (gstep_sound _ _ _ E).
    destruct (grun pt wp rp crc cf st' ops) as [[st'' cs]|] eqn:E2; [|discriminate].
    now rewrite (IH _ _ E2).
  Qed.
End gm.
