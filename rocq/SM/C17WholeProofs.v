(** Proofs about SM/C17Whole.v: the four hypotheses of the composition theorem (SM/C17ComposeProofs.v), derived. *)
From Coq Require Import List String Reals Permutation.
From SV Require Import SM.Store SM.StoreCopy SM.StoreCopyProofs SM.C17Frame SM.C17FrameProofs SM.C17Global
                       SM.C17GlobalProofs SM.C17Compose SM.C17Whole Rot.C17Base.
Import ListNotations.

(** *** Placement: identity laws of the arithmetic give equivariance of whole results. *)
Lemma place_item_ident : forall D ar, arith_identity ar -> forall it : item D, place_item D ar ident_placement it = it.
Proof.
  intros D ar (Hp & Hd & Ha & Ho) [v|v|u|r|d]; unfold ident_placement; cbn [place_item fst snd];
    rewrite ?Hp, ?Hd, ?Ha, ?Ho; reflexivity.
Qed.

Lemma transform_ident : forall D ar, arith_identity ar -> forall r : added D, transform D ar ident_placement r = r.
Proof.
  intros D ar H [st l]. unfold transform. cbn [fst snd]. f_equal.
  rewrite (map_ext _ _ (place_item_ident D ar H)). apply map_id.
Qed.

Section Proofs.
  Variable all : list (string * census).
  Variable copied : list string.
  Hypothesis fresh : copied_classes_fresh all copied = true.

  (** *** Template intact: a disciplined statement is a (sequence of) step(s) of [collapses]; C09's census theorem gives
      the premise of [col_copy], the frame theorem does the rest. *)
  Lemma closure_class_fresh : forall cls l n c, In cls copied -> copy_closure cls = Some l -> In n l ->
    lookup_census all n = Some c -> copy_fresh_mutables c = true.
  Proof.
    intros cls l n c Hc Hl Hn Hlook. unfold copied_classes_fresh in fresh. rewrite forallb_forall in fresh.
    specialize (fresh _ Hc). rewrite Hl in fresh. rewrite forallb_forall in fresh. specialize (fresh _ Hn).
    unfold class_fresh in fresh. rewrite Hlook in fresh. exact fresh.
  Qed.

  (** the frame theorem of SM/C17FrameProofs.v in terms of [wf_hr] *)
  Lemma collapses_frame : forall a h R h' R', collapses h R h' R' -> wf_hr a h R ->
    (forall n, unfold n h' (VRef a) = unfold n h (VRef a)) /\ wf_hr a h' R'.
  Proof.
    intros a h R h' R' C (Hc & Ha & HR & Hsep).
    destruct (template_intact_any_number_of_collapses a h R h' R' C Hc Ha HR Hsep) as (Hu & Hsep1 & Hc1 & Ha1 & HR1).
    split; [exact Hu | split; [|split; [|split]]; assumption].
  Qed.

  Lemma disciplined_frame : forall a h R h' R', disciplined all copied h R h' R' -> wf_hr a h R ->
    (forall n, unfold n h' (VRef a) = unfold n h (VRef a)) /\ wf_hr a h' R'.
  Proof.
    intros a h R h' R' H.
    induction H as [h R | h R ms h1 R1 h2 R2 Hs _ IH
                    | h R h1 cls l n c la lc nd nd' h2 R2 Hcls Hl Hn Hlook Hc1 He Hla Hlc Hlc1 Hf _ IH];
      intros W.
    - split; [reflexivity | exact W].
    - assert (C : collapses h R h1 R1) by (eapply col_work; [exact Hs | apply col_done]).
      destruct (collapses_frame a _ _ _ _ C W) as (Hu & W1). destruct (IH W1) as (Hu2 & W2).
      split; [|exact W2]. intros k. rewrite Hu2. apply Hu.
    - (* one copy is a [col_copy] step: C09's census theorem makes the new root reach only new mutable locations *)
      assert (Hnew : new_mut h h1 (VRef lc))
        by exact (census_copy_new_mut c h h1 la lc nd nd' (proj1 W) He Hla Hlc Hlc1 (closure_class_fresh cls l n c Hcls Hl Hn Hlook) Hf).
      assert (Hal : alloc h1 lc) by (unfold alloc; rewrite Hlc1; discriminate).
      assert (C : collapses h R h1 (lc :: R)) by (eapply col_copy; [exact Hc1 | exact He | exact Hal | exact Hnew | apply col_done]).
      destruct (collapses_frame a _ _ _ _ C W) as (Hu & W1). destruct (IH W1) as (Hu2 & W2).
      split; [|exact W2]. intros k. rewrite Hu2. apply Hu.
  Qed.

  Variables X G : Type.
  Variable a : loc.
  Variable m : sem (pstate X) G.
  Hypothesis resp : respects all copied X G a m.

  Notation pstate := (pstate X).
  Notation wf := (wf X a).
  Notation alike := (alike X a).
  Notation run := (run pstate G m).

  (** two program states that hold the same values, both well separated from a template of value [o] *)
  Definition sim (o : nat -> tree) (s s' : pstate) : Prop :=
    wf s /\ wf s' /\ p_x X s = p_x X s' /\ tmpl_is a o (p_heap X s) /\ tmpl_is a o (p_heap X s').

  Lemma sim_alike : forall o s s', sim o s s' -> alike s s'.
  Proof. intros o s s' (_ & _ & E & H1 & H2). split; [exact E|]. intros n. rewrite H1, H2. reflexivity. Qed.

  (** a primitive step keeps [sim] *)
  Lemma sim_step : forall o s s' s1 s1', sim o s s' -> dis all copied X s s1 -> dis all copied X s' s1' ->
    p_x X s1 = p_x X s1' -> sim o s1 s1'.
  Proof.
    intros o s s' s1 s1' (W & W' & _ & H1 & H2) Hd Hd' E.
    destruct (disciplined_frame a _ _ _ _ Hd W) as (Hu & W1).
    destruct (disciplined_frame a _ _ _ _ Hd' W') as (Hu' & W1').
    split; [exact W1|]. split; [exact W1'|]. split; [exact E|]. split.
    - intros n. rewrite Hu. apply H1.
    - intros n. rewrite Hu'. apply H2.
  Qed.

  Definition sim_out (o : nat -> tree) (r r' : outcome pstate G) : Prop :=
    sim o (fst (fst r)) (fst (fst r')) /\ snd (fst r) = snd (fst r') /\ snd r = snd r'.

  Lemma sim_out_same : forall o s s' g t, sim o s s' -> sim_out o (s, g, t) (s', g, t).
  Proof. intros. split; [assumption | split; reflexivity]. Qed.

  Lemma sim_out_inv : forall o r r', sim_out o r r' -> exists s s' g t, r = (s, g, t) /\ r' = (s', g, t) /\ sim o s s'.
  Proof.
    intros o [[s g] t] [[s' g'] t'] (E1 & E2 & E3). cbn [fst snd] in E1, E2, E3. subst g' t'.
    exists s, s', g, t. split; [reflexivity | split; [reflexivity | exact E1]].
  Qed.

  (** a primitive statement ([eff], [teff]) that respects the discipline and computes from the values alone *)
  Lemma prim_sim : forall o (f : pstate -> pstate * bool),
    (forall s, wf s -> dis all copied X s (fst (f s))) ->
    (forall s s', alike s s' -> p_x X (fst (f s)) = p_x X (fst (f s')) /\ snd (f s) = snd (f s')) ->
    forall s s' (g : G), sim o s s' ->
    sim_out o (let (s1, raised) := f s in (s1, g, if raised then Jumped JRaise else Normal))
              (let (s1, raised) := f s' in (s1, g, if raised then Jumped JRaise else Normal)).
  Proof.
    intros o f Hd Hv s s' g Hs. destruct (Hv s s' (sim_alike _ _ _ Hs)) as (Ex & Er).
    pose proof (sim_step o s s' _ _ Hs (Hd s (proj1 Hs)) (Hd s' (proj1 (proj2 Hs))) Ex) as S1.
    destruct (f s) as [s1 b1], (f s') as [s2 b2]. cbn [fst snd] in *. subst b2. apply sim_out_same, S1.
  Qed.

  Lemma iter_sim : forall o n (f : pstate -> G -> outcome pstate G),
    (forall s s' g, sim o s s' -> sim_out o (f s g) (f s' g)) ->
    forall s s' g, sim o s s' -> sim_out o (iter pstate G n f s g) (iter pstate G n f s' g).
  Proof.
    induction n; intros f Hf s s' g Hs; cbn [iter].
    - apply sim_out_same; exact Hs.
    - destruct (sim_out_inv _ _ _ (Hf s s' g Hs)) as (s1 & s2 & g1 & t1 & -> & -> & E1).
      destruct t1 as [|[]]; try (apply IHn; assumption); apply sim_out_same; exact E1.
  Qed.

  (** *** Reads the template by value: two runs from alike states stay alike, statement by statement, and both keep
      the template's value (so the second half of the statement is "template intact" for a whole run). *)
  Lemma run_sim : forall o p s s' g, sim o s s' -> sim_out o (run p s g) (run p s' g).
  Proof.
    intros o p. induction p; intros s s' g Hs; cbn [C17Global.run].
    - (* KNil *) apply sim_out_same; exact Hs.
    - (* KSeq *)
      destruct (sim_out_inv _ _ _ (IHp1 s s' g Hs)) as (s1 & s2 & g1 & t1 & -> & -> & E1).
      destruct t1; [apply IHp2; assumption | apply sim_out_same; exact E1].
    - (* KEff *) exact (prim_sim o _ (r_eff_dis _ _ _ _ _ _ resp i) (r_eff_val _ _ _ _ _ _ resp i) s s' g Hs).
    - (* KTainted *)
      exact (prim_sim o (fun s => teff pstate G m i s g) (fun s => r_teff_dis _ _ _ _ _ _ resp i s g)
               (fun s s' => r_teff_val _ _ _ _ _ _ resp i s s' g) s s' g Hs).
    - (* KLog *) apply sim_out_same; exact Hs.
    - (* KUpd *)
      rewrite (r_gupd_val _ _ _ _ _ _ resp i s s' g (sim_alike _ _ _ Hs)). apply sim_out_same; exact Hs.
    - (* KJump *) apply sim_out_same; exact Hs.
    - (* KIf *)
      pose proof (sim_alike _ _ _ Hs) as Al. destruct t.
      + rewrite <- (r_cond_val _ _ _ _ _ _ resp i s s' Al). destruct (cond pstate G m i s); [apply IHp1 | apply IHp2]; assumption.
      + rewrite <- (r_gcond_val _ _ _ _ _ _ resp i s s' g Al). destruct (gcond pstate G m i s g); [apply IHp1 | apply IHp2]; assumption.
    - (* KLoop *)
      rewrite <- (r_count_val _ _ _ _ _ _ resp i s s' (sim_alike _ _ _ Hs)).
      apply iter_sim; [|exact Hs].
      intros s0 s0' g0 H0. apply IHp.
      pose proof (sim_alike _ _ _ H0) as Al.
      apply (sim_step o s0 s0' _ _ H0).
      + exact (r_next_dis _ _ _ _ _ _ resp i s0 (proj1 H0)).
      + exact (r_next_dis _ _ _ _ _ _ resp i s0' (proj1 (proj2 H0))).
      + exact (r_next_val _ _ _ _ _ _ resp i s0 s0' Al).
    - (* KTry *)
      destruct (sim_out_inv _ _ _ (IHp1 s s' g Hs)) as (s1 & s2 & g1 & t1 & -> & -> & E1).
      destruct t1 as [|[]]; try (apply IHp3; assumption); try (apply IHp2; assumption);
        apply sim_out_same; exact E1.
    - (* KCall *)
      destruct (sim_out_inv _ _ _ (IHp s s' g Hs)) as (s1 & s2 & g1 & t1 & -> & -> & E1).
      destruct t1 as [|[]]; apply sim_out_same; exact E1.
  Qed.

  (** *** The whole property. *)
  Variables A D : Type.
  Variable ar : arith.
  Hypothesis ar_id : arith_identity ar.
  Variable body : skel.
  Hypothesis body_ok : fn_ok body = true.
  Variable enter : A -> X.
  Variable content : X -> list (item D).

  Notation collapse := (collapse X G m A D ar body enter content).
  Notation start := (start X A enter).
  Notation wf_T := (wf_T a).
  Notation T := C17Whole.T.
  Definition same_T (t t' : T) : Prop := forall n, unfold n (fst t) (VRef a) = unfold n (fst t') (VRef a).

  Lemma start_sim : forall t t' a0, wf_T t -> wf_T t' -> same_T t t' ->
    sim (fun n => unfold n (fst t') (VRef a)) (start t a0) (start t' a0).
  Proof.
    intros t t' a0 W W' S. unfold sim, C17Whole.start, C17Whole.wf. cbn [p_heap p_roots p_x].
    split; [exact W|]. split; [exact W'|]. split; [reflexivity|]. split; [exact S | intros n; reflexivity].
  Qed.

  (** (1) the result depends on the template only through its value, (3) not on the process state,
      (4) on the placement only through [transform] *)
  Lemma collapse_out : forall t t0 g g0 p a0, wf_T t -> wf_T t0 -> same_T t t0 ->
    c_out _ _ _ (collapse t g p a0) = transform D ar p (c_out _ _ _ (collapse t0 g0 ident_placement a0)).
  Proof.
    intros t t0 g g0 p a0 W W0 S. unfold C17Whole.collapse.
    destruct (result_inv _ _ _ _ (call_noninterference pstate G m body body_ok (start t a0) g g0)) as (s1 & t1 & g1 & g2 & E1 & E2).
    pose proof (run_sim _ (KCall body) _ _ g0 (start_sim t t0 a0 W W0 S)) as SI.
    rewrite E1. rewrite E2 in SI. destruct (run (KCall body) (start t0 a0) g0) as [[s3 g3] t3].
    destruct SI as (SI & _ & E). cbn [fst snd] in SI, E. subst t3.
    destruct SI as (_ & _ & Ex & _). unfold c_out. cbn [fst snd]. rewrite <- Ex.
    rewrite (transform_ident D ar ar_id). reflexivity.
  Qed.

  (** (2) the template is intact after a collapse, and the process is again in a state from which the next one starts *)
  Lemma collapse_tmpl : forall t g p a0, wf_T t ->
    wf_T (c_tmpl _ _ _ (collapse t g p a0)) /\ same_T (c_tmpl _ _ _ (collapse t g p a0)) t.
  Proof.
    intros t g p a0 W. unfold C17Whole.collapse.
    pose proof (run_sim _ (KCall body) _ _ g (start_sim t t a0 W W (fun n => eq_refl))) as SI.
    destruct (run (KCall body) (start t a0) g) as [[s1 g1] t1].
    destruct SI as ((W1 & _ & _ & H1 & _) & _). cbn [fst snd] in W1, H1.
    unfold c_tmpl. cbn [fst snd]. split; [exact W1 | exact H1].
  Qed.

  Notation c_history := (c_history T G placement A (added D) collapse).
  Notation as_if_first := (as_if_first T G placement A (added D) collapse ident_placement (transform D ar)).

  Lemma whole_history_from : forall cs t t0 g g0, wf_T t -> wf_T t0 -> same_T t t0 ->
    c_history cs t g = map (as_if_first t0 g0) cs.
  Proof.
    induction cs as [|[p a0] r IH]; intros t t0 g g0 W W0 S; cbn [C17Compose.c_history map]; [reflexivity|].
    f_equal.
    - unfold C17Compose.as_if_first. cbn [fst snd]. apply collapse_out; assumption.
    - destruct (collapse_tmpl t g p a0 W) as (W1 & S1). apply IH; [exact W1 | exact W0|].
      intros n. rewrite (S1 n). apply S.
  Qed.

  (** Every result of any history of collapses of one template in one process - how control left collapse_one and what
      was added to the map - is what that call alone gives on the untouched template in a new process (any process
      state [g0]) at the identity placement, moved to its own placement. *)
  Theorem whole_each_collapse_as_if_first : forall cs t g g0, wf_T t -> c_history cs t g = map (as_if_first t g0) cs.
  Proof. intros. apply whole_history_from; try assumption. intros n. reflexivity. Qed.

  Corollary whole_order_independent : forall cs cs' t g, wf_T t -> Permutation.Permutation cs cs' ->
    Permutation.Permutation (c_history cs t g) (c_history cs' t g).
  Proof.
    intros cs cs' t g W Hp. rewrite (whole_each_collapse_as_if_first cs t g g W), (whole_each_collapse_as_if_first cs' t g g W).
    apply Permutation.Permutation_map. exact Hp.
  Qed.

  (** the template's value after the whole history is what it was *)
  Fixpoint final_T (cs : list (placement * A)) (t : T) (g : G) : T :=
    match cs with
    | [] => t
    | (p, a0) :: r => let x := collapse t g p a0 in final_T r (c_tmpl _ _ _ x) (c_glob _ _ _ x)
    end.

  Theorem whole_template_intact : forall cs t g, wf_T t -> wf_T (final_T cs t g) /\ same_T (final_T cs t g) t.
  Proof.
    induction cs as [|[p a0] r IH]; intros t g W; cbn [final_T]; [split; [exact W | intros n; reflexivity]|].
    destruct (collapse_tmpl t g p a0 W) as (W1 & S1).
    destruct (IH _ (c_glob _ _ _ (collapse t g p a0)) W1) as (W2 & S2). split; [exact W2|].
    intros n. rewrite (S2 n). apply S1.
  Qed.
End Proofs.

(** *** The hypotheses are satisfiable together, by a machine that really copies: the template is a field-less mutable
    object at location 1; statement 0 builds a census copy of it at the next free location (when the heap allows it)
    and records a point and a datum; the skeleton is today's shape `if key not in SEEN: log; SEEN.add(key)` followed
    by the statement.  Two collapses at two placements leave two copies and the template. *)
Definition ex_all : list (string * census) :=
  [("Solid", []); ("Side", []); ("DispVertex_in_Side", []); ("UVAxis", [])]%string.
Definition ex_copied : list string := ["Solid"%string].
Definition ex_X := (positive * list (item nat))%type.        (* next free location, content so far *)
Definition ex_a : loc := 1%positive.
Definition ex_items : list (item nat) := [IPoint nat (V 1 2 3); IData nat 7%nat].

Definition ex_copy (s : pstate ex_X) : pstate ex_X :=
  let c := fst (p_x _ s) in
  let x' := (Pos.succ c, app (snd (p_x _ s)) ex_items) in
  match p_heap _ s c, p_heap _ s ex_a with
  | None, Some (Node _ []) =>
      {| p_heap := upd (p_heap _ s) c (Node true []); p_roots := c :: p_roots _ s; p_x := x' |}
  | _, _ => {| p_heap := p_heap _ s; p_roots := p_roots _ s; p_x := x' |}
  end.

Definition ex_sem : sem (pstate ex_X) bool := {|
  eff := fun _ s => (ex_copy s, false);
  teff := fun _ s _ => (s, false);
  cond := fun _ _ => true;
  gcond := fun _ _ g => g;
  gupd := fun _ _ _ => true;
  count := fun _ _ => 1%nat;
  next := fun _ s => s |}.

Definition ex_body : skel := KSeq (KIf (TGlobal 0%nat) KNil (KSeq KLog (KUpd 0%nat))) (KEff 1%nat).
Definition ex_arith : arith := {|
  ar_point := fun v o _ => vadd v o; ar_dir := fun v _ => v; ar_axis := fun u _ _ => u; ar_orient := fun r _ => r |}.
Definition ex_t0 : T := (fun l => if Pos.eqb l 1 then Some (Node true []) else None, []).
Definition ex_enter (n : positive) : ex_X := (n, []).
Definition ex_content (x : ex_X) : list (item nat) := snd x.

Lemma ex_copy_dis : forall s, wf ex_X ex_a s -> dis ex_all ex_copied ex_X s (ex_copy s).
Proof.
  intros s (Hc & _). unfold dis, ex_copy.
  destruct (p_heap _ s (fst (p_x _ s))) as [?|] eqn:Ec; cbn [p_heap p_roots]; [apply dis_done|].
  destruct (p_heap _ s ex_a) as [[mu [|? ?]]|] eqn:Ea; cbn [p_heap p_roots]; try apply dis_done.
  eapply (dis_copy ex_all ex_copied (p_heap _ s) (p_roots _ s) (upd (p_heap _ s) (fst (p_x _ s)) (Node true [])) "Solid"%string _ "Solid"%string [] ex_a (fst (p_x _ s))
            (Node mu []) (Node true [])).
  - left; reflexivity.
  - reflexivity.
  - left; reflexivity.
  - reflexivity.
  - intros l nd l' E I. unfold upd in E. destruct (Pos.eqb l (fst (p_x _ s))).
    + injection E as <-. destruct I.
    + unfold alloc, upd. destruct (Pos.eqb l' (fst (p_x _ s))); [discriminate | exact (Hc l nd l' E I)].
  - intros l nd E. unfold upd. destruct (Pos.eqb l (fst (p_x _ s))) eqn:El; [|exact E].
    apply Pos.eqb_eq in El. subst l. rewrite Ec in E. discriminate.
  - exact Ea.
  - exact Ec.
  - unfold upd. rewrite Pos.eqb_refl. reflexivity.
  - constructor.
  - apply dis_done.
Qed.

(* whichever branch [ex_copy] takes on either side, the values afterwards are computed from the values before alone *)
Lemma ex_copy_val : forall s s', alike ex_X ex_a s s' -> p_x _ (ex_copy s) = p_x _ (ex_copy s').
Proof.
  intros s s' (E & _). unfold ex_copy. rewrite E.
  destruct (p_heap _ s _) as [?|], (p_heap _ s' _) as [?|];
    repeat match goal with |- context [match ?h ex_a with _ => _ end] => destruct (h ex_a) as [[? [|? ?]]|] end;
    reflexivity.
Qed.

Lemma ex_respects : respects ex_all ex_copied ex_X bool ex_a ex_sem.
Proof.
  constructor; cbn [eff teff next cond gcond gupd count ex_sem fst snd]; intros; try reflexivity; try apply dis_done.
  - apply ex_copy_dis; assumption.
  - split; [apply ex_copy_val; assumption | reflexivity].
  - destruct H as (E & _). split; [exact E | reflexivity].
  - destruct H as (E & _). exact E.
Qed.

Lemma ex_arith_identity : arith_identity ex_arith.
Proof.
  repeat split; intros; cbn [ar_point ar_dir ar_axis ar_orient ex_arith]; try reflexivity.
  destruct v; unfold vadd, vzero; cbn; f_equal; apply Rplus_0_r.
Qed.

Lemma ex_wf : wf_T ex_a ex_t0.
Proof.
  unfold wf_T, wf_hr, ex_t0. cbn [fst snd]. split; [|split; [|split]].
  - intros l nd l' E I. destruct (Pos.eqb l 1); [|discriminate]. injection E as <-. destruct I.
  - unfold alloc, ex_a. cbn. discriminate.
  - intros r [].
  - intros l _ (r & [] & _).
Qed.

Example whole_hypotheses_satisfiable :
  respects ex_all ex_copied ex_X bool ex_a ex_sem /\ copied_classes_fresh ex_all ex_copied = true /\
  fn_ok ex_body = true /\ arith_identity ex_arith /\ wf_T ex_a ex_t0 /\
  (* two collapses in one process: two copies are held afterwards, the template is still the field-less object *)
  (let t2 := final_T ex_X bool ex_sem positive nat ex_arith ex_body ex_enter ex_content
               [((V 10 0 0, mid), 2%positive); ((V 0 20 0, mid), 3%positive)] ex_t0 false in
   snd t2 = [3%positive; 2%positive] /\ fst t2 1%positive = Some (Node true [])) /\
  (* and the first result is the recorded content moved to its placement *)
  (forall g, c_out _ _ _ (collapse ex_X bool ex_sem positive nat ex_arith ex_body ex_enter ex_content ex_t0 g (V 10 0 0, mid) 2%positive)
             = (Normal, [IPoint nat (vadd (V 1 2 3) (V 10 0 0)); IData nat 7%nat])).
Proof.
  split; [exact ex_respects|]. split; [reflexivity|]. split; [reflexivity|]. split; [exact ex_arith_identity|].
  split; [exact ex_wf|]. split; [split; reflexivity|]. intros []; reflexivity.
Qed.
