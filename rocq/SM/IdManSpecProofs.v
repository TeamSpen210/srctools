From stdpp Require Import sets.
From SV Require Import SM.IdMan SM.IdManProofs SM.IdManSpec.
Open Scope Z_scope.

(** Under the invariant the scan from the hint and the scan from 1 find the same ID: the least free positive one. *)
Lemma scan_hint_irrelevant s : Inv s →
  scan (S (size (used s))) (pos s) (used s) = least_free (used s).
Proof.
  intros [Hp Hall]. unfold least_free.
  destruct (scan_terminates _ (pos s) (used s) (scan_fuel_enough _ _)) as [i Hi].
  destruct (scan_terminates _ 1 (used s) (scan_fuel_enough _ _)) as [j Hj].
  rewrite Hi, Hj. f_equal.
  destruct (scan_some _ _ _ _ Hi) as (Hle & Hni & Hbet).
  destruct (scan_some _ _ _ _ Hj) as (Hle' & Hnj & Hbet').
  destruct (Z.lt_trichotomy i j) as [Hlt|[->|Hgt]]; [|done|].
  - exfalso. apply Hni, Hbet'. lia.
  - exfalso. apply Hnj. destruct (decide (j < pos s)); [apply Hall; lia|apply Hbet; lia].
Qed.

Lemma least_free_spec u i : least_free u = Some i → 0 < i ∧ i ∉ u ∧ ∀ j, 1 ≤ j < i → j ∈ u.
Proof. intros H. destruct (scan_some _ _ _ _ H) as (? & ? & ?). repeat split; [lia|done|done]. Qed.

Lemma least_free_total u : is_Some (least_free u).
Proof. apply scan_terminates, scan_fuel_enough. Qed.

(** One allocation of the implementation model = one allocation of the set specification. *)
Lemma get_id_refines d s : Inv s →
  (λ '(i, s'), (i, used s')) <$> get_id d s = spec_get d (used s).
Proof.
  intros HI. unfold get_id, spec_get. destruct (decide _); [done|].
  rewrite (scan_hint_irrelevant s HI). destruct (least_free (used s)); done.
Qed.

(** When the desired ID is not honoured the result is the least free positive ID. *)
Lemma get_id_least d s i s' : Inv s → get_id d s = Some (i, s') → ¬ (0 < d ∧ d ∉ used s) →
  ∀ j, 1 ≤ j < i → j ∈ used s.
Proof.
  intros HI H Hn. pose proof (get_id_refines d s HI) as R. rewrite H in R. simpl in R.
  unfold spec_get in R. destruct (decide _); [done|].
  destruct (least_free (used s)) as [k|] eqn:E; [|done]. injection R as -> _.
  by destruct (least_free_spec _ _ E) as (_ & _ & ?).
Qed.

Lemma step_inv s o : Inv s → Inv (step true s o).1.
Proof.
  intros HI. destruct o as [d|e|e| |e|]; simpl; try done.
  - destruct (get_id d s) as [[i s']|] eqn:E; [|done]. simpl.
    by destruct (get_id_fresh _ _ _ _ HI E) as (_ & _ & _ & ?).
  - by apply discard_inv.
  - unfold remove_g. destruct (decide _); simpl; [by apply discard_inv|done].
  - apply init_inv.
Qed.

Lemma step_refines s o : Inv s →
  let '(s', z) := step true s o in spec_step (used s) o = (used s', z).
Proof.
  intros HI. destruct o as [d|e|e| |e|]; simpl; try done.
  - pose proof (get_id_refines d s HI) as R.
    destruct (get_id d s) as [[i s']|]; simpl in R; rewrite <- R; done.
  - unfold remove_g. destruct (decide _); done.
Qed.

(** Refinement: started in any state satisfying the invariant, every operation sequence yields exactly the
    results of the set specification started from the set of used IDs.  The hint never shows. *)
Theorem idman_refines_set ops : ∀ s, Inv s → run_res true s ops = spec_run (used s) ops.
Proof.
  induction ops as [|o r IH]; intros s HI; simpl; [done|].
  pose proof (step_refines s o HI) as R. pose proof (step_inv s o HI) as HI'.
  destruct (step true s o) as [s' z]. rewrite R. simpl in HI'. by rewrite IH.
Qed.

(** Two allocator states with the same set of used IDs are indistinguishable, whatever their hints. *)
Corollary hint_unobservable ops s1 s2 : Inv s1 → Inv s2 → used s1 = used s2 →
  run_res true s1 ops = run_res true s2 ops.
Proof. intros H1 H2 E. rewrite !idman_refines_set by done. by rewrite E. Qed.

(** [run] is [run_res] followed by the final hint. *)
Lemma run_run_res g ops : ∀ s, ∃ p, run g s ops = run_res g s ops ++ [p].
Proof.
  induction ops as [|o r IH]; intros s; simpl; [by exists (pos s)|].
  destruct (step g s o) as [s' z]. destruct (IH s') as [p ->]. by exists p.
Qed.

(** The hint does matter without the invariant: a state whose hint overshoots a free ID hands out a larger one
    (this is why every release must lower the hint). *)
Example hint_observable_without_invariant :
  run_res true {| used := ∅; pos := 5 |} [Get (-1)] = [5] ∧ spec_run ∅ [Get (-1)] = [1].
Proof. split; vm_compute; reflexivity. Qed.
