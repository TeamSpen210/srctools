(** C19 — subfolder prefixes and folder arguments that are *not* clean: "d/", "./d", "d/.", "d//e", either slash.

    A spelling [p] *spells* the clean path [p0] when it is relative, has no ".." segment and its segments, the empty and
    "." ones dropped, are the segments of [p0] (either slash).  For backends of today's form (every query function and
    the folder argument of the walk go through normpath after the slash conversion) a member mounted under [p] and walked
    as [f] behaves exactly like the member mounted under [p0] and walked as [f0]: it is asked for names with the same
    normal form, lists the same files, and the chain drops the same number of segments from a listed path.  Hence the
    composition theorems hold for such prefixes and folders as well. *)
From Coq Require Import List NArith Bool.
From SV Require Import SM.FsChain SM.FsChainProofs SM.FsChainCompose SM.FsChainNorm SM.FsChainWalkGen.
Import ListNotations.
Open Scope N_scope.

Definition segs_of (s : str) : list str := split_on SL (slash s).
(** relative (also after the slash conversion) and without ".." *)
Definition plain (s : str) : bool := negb (is_prefix [SL] (slash s)) && no_dotdot (segs_of s).
Definition spells (p p0 : str) : Prop :=
  plain p = true /\ plain p0 = true /\ denoise (segs_of p) = denoise (segs_of p0).

Lemma nosl_split s : forallb nosl (split_on SL s) = true.
Proof.
  induction s as [|x r IH]; [reflexivity|]. cbn [split_on]. destruct (N.eqb_spec x SL) as [->|Hn].
  - cbn [forallb nosl]. exact IH.
  - apply N.eqb_neq in Hn. destruct (split_on SL r) as [|h t].
    + cbn. rewrite Hn. reflexivity.
    + change (forallb nosl ((x :: h) :: t)) with (negb (x =? SL) && nosl h && forallb nosl t).
      change (forallb nosl (h :: t)) with (nosl h && forallb nosl t) in IH. rewrite Hn. exact IH.
Qed.

Lemma split_nonnil s : split_on SL s <> [].
Proof. apply split_on_nonempty. Qed.

Lemma plain_inv s : plain s = true -> is_prefix [SL] (slash s) = false /\ no_dotdot (segs_of s) = true.
Proof. unfold plain. intros H. apply andb_true_iff in H as [H1 H2]. apply negb_true_iff in H1. split; assumption. Qed.

(** spellings of one path have one normal form *)
Lemma spells_normpath p p0 : spells p p0 -> normpath (slash p) = normpath (slash p0).
Proof.
  intros [Hp [Hp0 He]]. apply plain_inv in Hp as [H1 H2]. apply plain_inv in Hp0 as [H3 H4].
  rewrite (normpath_denoise _ H1 H2), (normpath_denoise _ H3 H4). unfold segs_of in He. rewrite He. reflexivity.
Qed.

Lemma nonempty_denoise s : nonempty_segs s = denoise (split_on SL s).
Proof.
  unfold nonempty_segs, denoise. apply filter_ext. intros c. unfold is_noise. rewrite negb_orb. reflexivity.
Qed.

(** ... and the chain drops the same number of segments for them *)
Lemma spells_drop_segs p p0 x : spells p p0 -> drop_segs x p = drop_segs x p0.
Proof.
  intros [_ [_ He]]. unfold drop_segs. rewrite !nonempty_denoise. unfold segs_of in He. rewrite He. reflexivity.
Qed.

(** * os.path.join of two plain spellings *)
Lemma denoise_app a b : denoise (a ++ b) = denoise a ++ denoise b.
Proof. unfold denoise. apply filter_app. Qed.
Lemma no_dotdot_app a b : no_dotdot (a ++ b) = no_dotdot a && no_dotdot b.
Proof. unfold no_dotdot. apply forallb_app. Qed.

Lemma slash_lead s : is_prefix [SL] (slash s) = false -> is_prefix [SL] s = false.
Proof.
  destruct s as [|x r]; [reflexivity|]. cbn [slash map is_prefix]. rewrite !andb_true_r. unfold slashc.
  destruct (N.eqb_spec x BS) as [->|Hn]; [discriminate|]. intros H. exact H.
Qed.

(** [os.path.join] of a non-empty [p] and a relative [q] is "a/q", [a] being [p] without its trailing slash if it has one *)
Lemma pjoin_sep p q :
  p <> [] -> is_prefix [SL] q = false -> exists a, pjoin p q = a ++ SL :: q /\ (p = a \/ p = a ++ [SL]).
Proof.
  intros Hp Hq. unfold pjoin. rewrite Hq. destruct (is_prefix [SL] (rev p)) eqn:E.
  - apply ends_slash in E as [a ->]. exists a. split; [|right; reflexivity].
    destruct a; [reflexivity|]. cbn [app]. rewrite <- app_assoc. reflexivity.
  - exists p. split; [|left; reflexivity]. destruct p; [congruence|reflexivity].
Qed.

Lemma segs_of_sep a b : segs_of (a ++ SL :: b) = segs_of a ++ segs_of b.
Proof. unfold segs_of. rewrite <- slash_app_sep. apply split_app_sep. Qed.

Lemma denoise_sep a b : denoise (segs_of (a ++ SL :: b)) = denoise (segs_of a) ++ denoise (segs_of b).
Proof. rewrite segs_of_sep. apply denoise_app. Qed.

Lemma plain_sep a b : a <> [] -> plain (a ++ SL :: b) = plain a && no_dotdot (segs_of b).
Proof.
  intros Ha. unfold plain. rewrite segs_of_sep, no_dotdot_app, andb_assoc. destruct a; [congruence|reflexivity].
Qed.

(** a trailing slash adds an empty segment, which is noise *)
Lemma plain_trailing a :
  plain (a ++ [SL]) = true -> a <> [] /\ plain a = true /\ denoise (segs_of (a ++ [SL])) = denoise (segs_of a).
Proof.
  intros H. assert (Ha : a <> []) by (intros ->; discriminate).
  rewrite (plain_sep a [] Ha), andb_true_r in H. rewrite denoise_sep, app_nil_r. repeat split; assumption.
Qed.

(** the segments of "p joined with q", noise dropped: those of p followed by those of q *)
Lemma pjoin_segs p q :
  plain p = true -> plain q = true ->
  plain (pjoin p q) = true /\ denoise (segs_of (pjoin p q)) = denoise (segs_of p) ++ denoise (segs_of q).
Proof.
  intros Hp Hq. destruct (plain_inv _ Hq) as [Hq1 Hq2].
  destruct (eqb_str_spec p []) as [->|Hne]; [rewrite pjoin_nil; split; [exact Hq|reflexivity]|].
  destruct (pjoin_sep p q Hne (slash_lead _ Hq1)) as [a [-> [-> | ->]]].
  - rewrite (plain_sep a q Hne), Hp, Hq2, denoise_sep. split; reflexivity.
  - destruct (plain_trailing a Hp) as [Ha [Hpa ->]]. rewrite (plain_sep a q Ha), Hpa, Hq2, denoise_sep. split; reflexivity.
Qed.

(** the name a member is asked for has the same normal form under both spellings of its prefix *)
Lemma spells_full_name p p0 q q0 :
  spells p p0 -> spells q q0 ->
  normpath (slash (full_name p q)) = normpath (slash (full_name p0 q0)).
Proof.
  intros [Hp [Hp0 Hpe]] [Hq [Hq0 Hqe]].
  destruct (pjoin_segs p q Hp Hq) as [H1 E1]. destruct (pjoin_segs p0 q0 Hp0 Hq0) as [H2 E2].
  rewrite !slash_full_name. apply spells_normpath. split; [exact H1|]. split; [exact H2|].
  rewrite E1, E2, Hpe, Hqe. reflexivity.
Qed.

(** * backends of today's form only see the normal form *)
Definition walk_norm (b : backend) : bool := is_slashnorm (b_wfolder b).

Lemma walk_normal_form b fs f f' :
  walk_ok b = true -> walk_norm b = true -> normpath (slash f) = normpath (slash f') -> walk b fs f = walk b fs f'.
Proof.
  intros Hw Hn E. unfold walk. rewrite !(walk_ok_src b fs _ Hw).
  rewrite (apply_ops_norm (b_wfolder b) f), (apply_ops_norm (b_wfolder b) f').
  unfold walk_norm, is_slashnorm in Hn. destruct (norm_kind (b_wfolder b)); try discriminate.
  cbn [prenorm]. rewrite E. reflexivity.
Qed.

Lemma lookup_normal_form b fs q q' :
  backend_keys_norm b = true -> clean_fs fs = true -> normpath (slash q) = normpath (slash q') -> lookup b fs q = lookup b fs q'.
Proof.
  intros Hb Hc E. rewrite !lookup_slashnorm, E by assumption. reflexivity.
Qed.

Lemma spells_refl s : plain s = true -> spells s s.
Proof. intros H. repeat split; assumption. Qed.

Lemma clean_plain s : clean (slash s) = true -> plain s = true.
Proof.
  intros Hc. unfold plain, segs_of. rewrite (clean_no_lead_slash _ Hc). cbn [negb andb].
  unfold clean in Hc. unfold no_dotdot. rewrite forallb_forall in *. intros c Hin. specialize (Hc c Hin).
  unfold good_seg in Hc. apply andb_true_iff in Hc as [_ Hc]. exact Hc.
Qed.
Lemma clean_name_plain r : clean_name r = true -> plain r = true.
Proof.
  intros H. apply clean_plain. rewrite (clean_name_slash r H). unfold clean_name in H. apply andb_true_iff in H as [H _]. exact H.
Qed.
Lemma okp_plain s : okp s -> plain s = true.
Proof. intros [->|[_ H]]; [reflexivity|apply clean_plain; exact H]. Qed.

(** * a member under a spelt prefix, walked with a spelt folder *)
(** [p] spells the empty or clean prefix [p0], [f] the empty or clean folder [f0] *)
Definition noisy_member (f f0 : str) (m : member) : Prop :=
  exists b fs p p0, m = member_of b fs p /\ walk_ok b = true /\ walk_norm b = true /\ backend_keys_norm b = true
                    /\ clean_fs fs = true /\ okp p0 /\ spells p p0 /\ okp f0 /\ spells f f0.

Lemma noisy_member_walk_ok m f f0 : noisy_member f f0 m -> walk_member_ok_at (nkey f0) f m.
Proof.
  intros [b [fs [p [p0 [-> [Hw [Hn [Hk [Hc [Hp0 [Hsp [Hf0 Hsf]]]]]]]]]]]].
  apply (walk_member_ok_transport _ f f0 _ (member_of b fs p0)); unfold asks; cbn [member_of m_walk m_lookup m_prefix].
  - apply walk_normal_form; [exact Hw|exact Hn|]. apply spells_full_name; assumption.
  - intros r Hr. apply lookup_normal_form; [exact Hk|exact Hc|]. apply spells_full_name; [exact Hsp|].
    apply spells_refl, clean_name_plain, Hr.
  - intros x. apply spells_drop_segs. exact Hsp.
  - apply sound_member_walk_ok; [|exact Hf0]. exists b, fs, p0. repeat split; try assumption. apply backend_keys_norm_ok. exact Hk.
Qed.

(** Examples of spellings: "./d", "d/", "d/.", "d\\.\\e//" ... *)
Example spells_examples :
  spells [46; 47; 100] [100] /\ spells [100; 47] [100] /\ spells [100; 47; 46] [100]
  /\ spells [100; 92; 46; 92; 101; 47; 47] [100; 47; 101] /\ spells [46] [] /\ spells [46; 47] [] /\ spells [] []
  /\ ~ spells [100; 47; 46; 46] [].
Proof.
  repeat split; try reflexivity. intros [H _]. discriminate.
Qed.

(** ... also with directory members in the chain (for them the folder must be spelt cleanly and be exact). *)
Definition any_member (f f0 : str) (m : member) : Prop :=
  noisy_member f f0 m \/ (f = f0 /\ okp f0 /\ raw_sound_member f0 m).

(** The premises are satisfiable: a zip mounted under "s/." in front of an unrestricted one, walked as "./" . *)
Example noisy_premises_satisfiable :
  Forall (noisy_member [46; 47] [])
         [member_of SM.FsChainWitness.fixed_zip [([115; 47; 121], [9])] [115; 47; 46]; member_of SM.FsChainWitness.fixed_zip [([120], [1])] []]
  /\ map fst (chain_walk RelDropSegs [OFold]
         [member_of SM.FsChainWitness.fixed_zip [([115; 47; 121], [9])] [115; 47; 46]; member_of SM.FsChainWitness.fixed_zip [([120], [1])] []] [46; 47])
     = [[121]; [120]].
Proof.
  split; [|vm_compute; reflexivity].
  constructor; [|constructor; [|constructor]].
  - exists SM.FsChainWitness.fixed_zip, [([115; 47; 121], [9])], [115; 47; 46], [115].
    repeat split; try reflexivity; try (left; reflexivity); right; split; reflexivity.
  - exists SM.FsChainWitness.fixed_zip, [([120], [1])], [], [].
    repeat split; try reflexivity; left; reflexivity.
Qed.
