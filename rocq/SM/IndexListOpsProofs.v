(** Proofs about SM/IndexListOps.v: a [remove_ent] program that passes its three path obligations is the hand model
    [remove_ent], an [add_ent] program that appends and indexes the item exactly once is the hand model [add_ent]
    (inside its domain), for every entity and state.  The variants with the membership test before the list removal
    and with an `and` guard are refuted in Props/C07.v ([c07_remove_ent_variants_refuted]). *)
From stdpp Require Import gmap.
From Coq Require Import NArith.
From SV Require Import SM.IndexModel SM.IndexListOps.

Section listops.
  Variable fold : str → str.

  (** the concrete state [st] is in phase [ph] relative to the state [st0] the function started in *)
  Definition phase_ok (ph : vphase) (e : nat) (st0 st : mstate) : Prop :=
    spawn st = spawn st0 ∧ objs st = objs st0 ∧
    match ph with P0 => ents st = ents st0 | P1 => ents st = remove_first e (ents st0) | PX => True end.
  Definition facts_for (e : nat) (st0 : mstate) : vfacts :=
    VF (bool_decide (e = spawn st0)) (bool_decide (e ∈ ents st0)) (bool_decide (e ∈ remove_first e (ents st0))).

  Lemma vcond_abs_sound c e st0 st ph b : phase_ok ph e st0 st →
    vcond_abs c (facts_for e st0) ph = Some b → v_cond c e st = b.
  Proof.
    intros (Hs & _ & Hph). revert b. induction c as [| |c IH|a IHa b0 IHb|a IHa b0 IHb|s]; intros b; simpl.
    - intros [= <-]. by rewrite Hs.
    - destruct ph; [| |done]; intros [= <-]; by rewrite Hph.
    - destruct (vcond_abs c _ _) as [x|]; [|done]. simpl. intros [= <-]. by rewrite (IH x).
    - destruct (vcond_abs a _ _) as [x|]; [|done]. destruct (vcond_abs b0 _ _) as [y|]; [|done].
      intros [= <-]. by rewrite (IHa x), (IHb y).
    - destruct (vcond_abs a _ _) as [x|]; [|done]. destruct (vcond_abs b0 _ _) as [y|]; [|done].
      intros [= <-]. by rewrite (IHa x), (IHb y).
    - done.
  Qed.

  Lemma v_act_phase a e st0 st ph : phase_ok ph e st0 st → phase_ok (vphase_after a ph) e st0 (v_act fold a e st).
  Proof.
    intros (Hs & Ho & Hph). destruct a; simpl; (split; [done|split; [done|]]); try done; destruct ph; simpl in *; try done.
    by rewrite Hph.
  Qed.

  Lemma vacts_run_app la lb e st : vacts_run fold (la ++ lb) e st = vacts_run fold lb e (vacts_run fold la e st).
  Proof. unfold vacts_run. by rewrite foldl_app. Qed.

  Lemma v_run_flat p e st0 : ∀ st ph l ph', phase_ok ph e st0 st →
    v_flat p (facts_for e st0) ph = Some (l, ph') →
    v_run fold p e st = vacts_run fold l e st ∧ phase_ok ph' e st0 (v_run fold p e st).
  Proof.
    induction p as [|a IHa b IHb|c a IHa b IHb|a]; intros st ph l ph' Hph Hf; simpl in *.
    - by simplify_eq.
    - destruct (v_flat a _ ph) as [[la ph1]|] eqn:Ea; [|done].
      destruct (v_flat b _ ph1) as [[lb ph2]|] eqn:Eb; [|done]. simplify_eq.
      destruct (IHa _ _ _ _ Hph Ea) as [Ra Pa]. destruct (IHb _ _ _ _ Pa Eb) as [Rb Pb].
      split; [|done]. by rewrite vacts_run_app, Rb, Ra.
    - destruct (vcond_abs c _ ph) as [[|]|] eqn:Ec; [| |done]; rewrite (vcond_abs_sound _ _ _ _ _ _ Hph Ec); eauto.
    - simplify_eq. split; [done|]. by apply v_act_phase.
  Qed.

  Lemma phase0 e st : phase_ok P0 e st st.
  Proof. done. Qed.

  Lemma remove_ok_path p f : remove_ok p = true → remove_path_ok p f = true.
  Proof.
    unfold remove_ok, remove_worldspawn_stays_indexed, remove_still_listed_stays_indexed, remove_unlists_and_unindexes.
    rewrite !andb_true_iff, !forallb_forall. intros [[H1 H2] H3].
    assert (Hin : In f all_vfacts) by (destruct f as [[|] [|] [|]]; simpl; tauto).
    specialize (H1 _ Hin). specialize (H2 _ Hin). specialize (H3 _ Hin).
    destruct f as [[|] a [|]]; simpl in *; done.
  Qed.

  Theorem remove_ent_pg_ok p e st : remove_ok p = true → v_run fold p e st = remove_ent fold e st.
  Proof.
    intros Hp. pose proof (remove_ok_path p (facts_for e st) Hp) as Hpath. unfold remove_path_ok in Hpath.
    destruct (v_flat p _ P0) as [[l ph']|] eqn:El; [|done].
    destruct (v_run_flat p e st st P0 l ph' (phase0 e st) El) as [-> _].
    apply orb_true_iff in Hpath. unfold remove_ent.
    destruct Hpath as [H|H]; apply bool_decide_eq_true in H; subst l; unfold remove_today, remove_today', facts_for; simpl;
      rewrite <- bool_decide_or; (case_bool_decide; [by rewrite decide_True|by rewrite decide_False]).
  Qed.

  (** add_ent: three actions, one of each kind, in any of the six orders *)
  Lemma add_lists l : length l = 3 → count_vact VAppend l = 1 → count_vact VAddClass l = 1 → count_vact VAddTarget l = 1 →
    ∀ e st, vacts_run fold l e st = vacts_run fold [VAppend; VAddClass; VAddTarget] e st.
  Proof.
    destruct l as [|a [|b [|c [|]]]]; try done. intros _ H1 H2 H3 e st.
    destruct a, b, c; try done; reflexivity.
  Qed.

  Theorem add_ent_pg_ok p e st : add_ok p = true → e ≠ spawn st → e < nobj st → v_run fold p e st = add_ent fold e st.
  Proof.
    intros Hp Hs Hn. unfold add_ok in Hp. rewrite forallb_forall in Hp.
    assert (Hin : In (facts_for e st) all_vfacts).
    { unfold facts_for. repeat case_bool_decide; simpl; tauto. }
    specialize (Hp _ Hin). unfold add_path_ok in Hp.
    destruct (v_flat p _ P0) as [[l ph']|] eqn:El; [|done].
    destruct (v_run_flat p e st st P0 l ph' (phase0 e st) El) as [-> _].
    rewrite !andb_true_iff in Hp. destruct Hp as [[[H0 H1] H2] H3]. apply Nat.eqb_eq in H0, H1, H2, H3.
    rewrite (add_lists l H0 H1 H2 H3). unfold add_ent. rewrite decide_False by lia. reflexivity.
  Qed.
End listops.

Lemma listops_today_ok : remove_ok remove_ent_today = true ∧ add_ok add_ent_today = true.
Proof. split; reflexivity. Qed.

