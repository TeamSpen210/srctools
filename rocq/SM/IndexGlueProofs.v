(** Proofs about SM/IndexGlue.v: glue statement lists / shapes that pass their named obligations are the operations
    of the hand model (SM/IndexModel.v) for all arguments and states. *)
From stdpp Require Import gmap.
From Coq Require Import NArith.
From SV Require Import SM.IndexModel SM.IndexProofs SM.IndexShapes SM.IndexGlue.

Lemma dset_absent k v l : dget k l = None → dset k v l = l ++ [(k, v)].
Proof.
  induction l as [|[k0 v0] r IH]; simpl; [done|]. destruct (decide (k0 = k)); [done|]. intros H. by rewrite IH.
Qed.

Section glue.
  Variable fold : str → str.
  Hypothesis fold_nil : fold [] = [].
  Hypothesis fold_cn : fold cn = cn.
  Hypothesis fold_ws : fold ws = ws.

  (** ** VMF.__init__ *)
  Lemma g_steps_prefix l env loc : g_steps fold l env loc blank = g_steps fold (g_rest l) env loc blank.
  Proof.
    induction l as [|s r IH]; [done|]. simpl g_rest. destruct (is_fresh s) eqn:E; [|done].
    destruct s; try done; simpl; apply IH.
  Qed.

  Lemma init_core r1 r2 env :
    g_steps fold [GNewEnt GKNone; GAssignSpawn; GSetItem r1 cn ws; GAddTarget GTNone r2] env 0 blank = init ∧
    g_steps fold [GNewEnt GKNone; GAssignSpawn; GAddTarget GTNone r2; GSetItem r1 cn ws] env 0 blank = init.
  Proof.
    assert (Hs : ∀ bt, (set_item fold 0 cn ws (MS (<[0 := []]> ∅) 1 [] 0 ∅ bt)).1 = MS {[0 := [(cn, ws)]]} 1 [] 0 {[ws := {[0]}]} bt).
    { intros bt. set (s0 := MS (<[0 := []]> ∅) 1 [] 0 ∅ bt).
      assert (Hk : keys_of s0 0 = []) by (unfold keys_of, s0; simpl; by rewrite lookup_insert).
      unfold set_item. rewrite Hk. cbn [default kv_find kv_set]. rewrite fold_cn, fold_nil, fold_ws.
      rewrite (decide_True (P := cn = cn)) by done.
      rewrite (decide_False (P := 0 ∈ ents s0)) by (by intros ?%elem_of_nil).
      rewrite (decide_True (P := 0 = spawn s0)) by done.
      rewrite (decide_True (P := ws = ws)) by done.
      unfold s0, with_keys, upd_class. cbn [fst objs nobj ents spawn by_class by_target].
      f_equal; [by rewrite insert_insert|].
      unfold ix_add, ix_remove, ix_get. rewrite !lookup_empty. cbn [default]. by rewrite union_empty_r_L. }
    split; destruct r1, r2; cbn [g_steps g_step g_ref g_tk g_src new_ent update new_obj blank objs nobj ents spawn by_class by_target fst];
      unfold upd_target; cbn [objs nobj ents spawn by_class by_target];
      rewrite Hs; cbn [objs nobj ents spawn by_class by_target];
      unfold init; f_equal; unfold ix_add, ix_get; rewrite lookup_empty; cbn [default]; by rewrite union_empty_r_L.
  Qed.

  Theorem vmf_init_pg_ok l env : vmf_init_ok l = true → g_run fold l env blank = init.
  Proof.
    unfold vmf_init_ok, vmf_init_spawn_ok. rewrite andb_true_iff. intros [_ H]. unfold g_run. rewrite g_steps_prefix.
    repeat case_match; try done; apply andb_true_iff in H as [->%bool_decide_eq_true ->%bool_decide_eq_true];
      apply init_core.
  Qed.

  (** a store of the classname does not read or write the name index, nor the targetname: the two last statements of
      the worldspawn replacement may stand in either order *)
  Lemma set_item_cn_upd_target f e v st :
    (set_item fold e cn v (upd_target f st)).1 = upd_target f (set_item fold e cn v st).1.
  Proof.
    unfold set_item. rewrite fold_cn. rewrite (decide_True (P := cn = cn)) by done.
    change (keys_of (upd_target f st) e) with (keys_of st e). change (ents (upd_target f st)) with (ents st).
    change (spawn (upd_target f st)) with (spawn st).
    repeat case_decide; try congruence; reflexivity.
  Qed.
  Lemma set_item_cn_tgt e v st : tgt_of fold (set_item fold e cn v st).1 e = tgt_of fold st e.
  Proof.
    assert (Hk : ∀ v l, tgt_of_keys fold (kv_set fold cn v l) = tgt_of_keys fold l) by (intros; by apply keys_set_cn).
    unfold set_item. rewrite fold_cn. rewrite (decide_True (P := cn = cn)) by done.
    unfold tgt_of. repeat case_decide; cbn [fst]; unfold keys_of, with_keys, upd_class; cbn [objs];
      rewrite ?lookup_insert; cbn [default]; unfold id; rewrite ?Hk; try done.
  Qed.

  (** ** VMF.parse: the worldspawn replacement *)
  Lemma is_rem_class_old_inv s : is_rem_class_old s = true → s = GRemClass ws GRSpawn.
  Proof. destruct s as [| | | | | |k []| | |]; try done. by intros ->%bool_decide_eq_true. Qed.
  Lemma is_rem_target_old_inv s : is_rem_target_old s = true → s = GRemTarget GTNone GRSpawn.
  Proof. by destruct s as [| | | | | | |[] []| |]. Qed.

  Lemma parse_files_the_new_spawn_inv l : parse_files_the_new_spawn l = true →
    ∃ s0 a b r1 r2 r3 t, l = s0 :: a :: b :: GAssignSpawn :: t ∧
      (t = [GSetItem r1 cn ws; GAddTarget (GTCur r2) r3] ∨ t = [GAddTarget (GTCur r2) r3; GSetItem r1 cn ws]).
  Proof.
    unfold parse_files_the_new_spawn. intros H.
    repeat case_match; try done; apply andb_true_iff in H as [->%bool_decide_eq_true ->%bool_decide_eq_true]; eauto 12.
  Qed.

  Lemma file_new_spawn r1 r2 r3 env st :
    let st4 := (set_item fold (spawn st) cn ws st).1 in
    let st5 := upd_target (ix_add (tgt_of fold st4 (spawn st)) (spawn st)) st4 in
    g_steps fold [GSetItem r1 cn ws; GAddTarget (GTCur r2) r3] env (spawn st) st = st5 ∧
    g_steps fold [GAddTarget (GTCur r2) r3; GSetItem r1 cn ws] env (spawn st) st = st5.
  Proof.
    intros st4 st5. assert (Hsp : spawn st4 = spawn st) by apply set_item_frame.
    (* the new entity is the spawn already: every reference denotes it *)
    assert (Hr : ∀ r st', spawn st' = spawn st → g_ref r (spawn st) st' = spawn st) by (by intros [] ? ?).
    cbn [g_steps g_step g_tk]. rewrite !Hr by done. split; [done|].
    unfold st5, st4. by rewrite set_item_cn_upd_target, set_item_cn_tgt.
  Qed.

  Theorem parse_spawn_pg_ok l keys c st : parse_spawn_ok l = true →
    g_run fold l (GE keys c) st = replace_spawn fold keys st.
  Proof.
    intros [H1 H2]%andb_true_iff.
    apply parse_files_the_new_spawn_inv in H2 as (s0 & a & b & r1 & r2 & r3 & t & -> & Ht).
    destruct s0 as [| | |[]| | | | | |]; try done. cbn [parse_drops_the_placeholder] in H1.
    set (st2 := new_ent fold keys st).
    set (st3 := MS (objs st2) (nobj st2) (ents st2) (nobj st)
                   (ix_remove ws (spawn st2) (by_class st2)) (ix_remove None (spawn st2) (by_target st2))).
    (* the two removals touch different indexes: either order leaves [st3] *)
    assert (H3 : g_run fold (GNewEnt GKArg :: a :: b :: GAssignSpawn :: t) (GE keys c) st
                 = g_steps fold t (GE keys c) (spawn st3) st3).
    { apply orb_true_iff in H1 as [[Ha Hb]%andb_true_iff|[Ha Hb]%andb_true_iff];
        apply is_rem_class_old_inv in Ha || apply is_rem_target_old_inv in Ha;
        apply is_rem_class_old_inv in Hb || apply is_rem_target_old_inv in Hb; by subst. }
    rewrite H3. destruct Ht as [-> | ->]; apply file_new_spawn.
  Qed.

  (** the entity loop of parse and VMF.create_ent *)
  Theorem parse_ent_pg_ok l keys c st : parse_ent_ok l = true →
    g_run fold l (GE keys c) st = add_ent fold (nobj st) (new_ent fold keys st).
  Proof. unfold parse_ent_ok. intros ->%bool_decide_eq_true. reflexivity. Qed.
  Theorem create_ent_pg_ok l keys c st : create_ent_ok l = true → dget cn keys = None →
    g_run fold l (GE keys c) st = create_ent fold c keys st.
  Proof.
    unfold create_ent_ok. intros ->%bool_decide_eq_true Hk. unfold g_run, create_ent. cbn [g_steps g_step g_src g_ref g_keys g_cls].
    by rewrite (dset_absent _ _ _ Hk).
  Qed.

  Theorem parse_pg_ok pi ps pe sk ek :
    vmf_init_ok pi = true → parse_spawn_ok ps = true → parse_ent_ok pe = true →
    parse_pg fold pi ps pe sk ek = parse_init fold sk ek.
  Proof.
    intros Hi Hs He. unfold parse_pg, parse_init. rewrite (vmf_init_pg_ok _ _ Hi), (parse_spawn_pg_ok _ _ _ _ Hs).
    generalize (replace_spawn fold sk init). induction ek as [|l r IH]; intros st; [done|]. simpl.
    rewrite (parse_ent_pg_ok _ _ _ _ He). apply IH.
  Qed.

  (** ** Entity.__init__, Entity.pop *)
  Theorem new_ent_sh_ok sh l st : einit_ok sh = true → new_ent_sh fold sh l st = new_ent fold l st.
  Proof. unfold einit_ok, new_ent_sh. destruct (ei_store sh); rewrite ?andb_false_r; done. Qed.

  Lemma first_match_find kf l :
    match first_match (λ k, bool_decide (fold k = kf)) l with
    | Some k0 => fold k0 = kf ∧ is_Some (kv_find fold kf l)
    | None => kv_find fold kf l = None
    end.
  Proof.
    induction l as [|[k v] r IH]; simpl; [done|]. case_bool_decide as E.
    - rewrite decide_True by done. eauto.
    - rewrite decide_False by done. done.
  Qed.
  Lemma del_item_fold_eq e k k' st : fold k = fold k' → del_item fold e k st = del_item fold e k' st.
  Proof. intros E. unfold del_item. by rewrite E. Qed.

  Theorem pop_item_sh_ok sh e key st : (∀ s, fold (fold s) = fold s) → pop_ok sh = true →
    pop_item_sh fold sh e key st = pop_item fold e key st.
  Proof.
    intros Hidem. unfold pop_ok, pop_lookup_is_case_insensitive, pop_deletes_through_delitem, pop_item_sh, pop_item.
    rewrite !andb_true_iff. intros [[-> ->] Hd].
    pose proof (first_match_find (fold key) (keys_of st e)) as H.
    destruct (first_match _ _) as [k0|].
    - destruct H as [E [v ->]]. destruct (ps_del sh); try done; apply del_item_fold_eq; [done|apply Hidem].
    - by rewrite H.
  Qed.

  (** ** Entity.make_unique *)
  Lemma free_name_sh_ok fuel i base bt : free_name_sh fold true 1 fuel i base bt = free_name fold fuel i base bt.
  Proof. revert i. induction fuel as [|f IH]; intros i; [done|]. cbn [free_name_sh free_name]. unfold pk. destruct (decide _); [done|]. apply IH. Qed.

  Theorem make_unique_sh_ok sh e p st : mu_ok sh = true → make_unique_sh fold sh e p st = make_unique fold e p st.
  Proof.
    unfold mu_ok, mu_unique_test_ok, mu_clears_ok, mu_base_ok, mu_loop_ok. rewrite !andb_true_iff, !bool_decide_eq_true.
    intros [[[[[Hu1 Hu2] [Hc1 Hc2]] [Hb1 Hb2]] [[[Hs1 Hs2] Hl1] _]] _].
    unfold make_unique_sh, make_unique. rewrite Hu1, Hu2, Hc1, Hc2, Hb1, Hb2, Hs1, Hs2, Hl1. unfold pk.
    set (orig := default [] (kv_find fold tn (keys_of st e))).
    destruct (decide (orig ≠ [] ∧ ix_get (by_target st) (Some (fold orig)) = {[e]})) as [[H1 H2]|Hn].
    - rewrite bool_decide_eq_true_2 by done. rewrite bool_decide_eq_true_2 by done. done.
    - assert (bool_decide (orig ≠ []) && bool_decide (ix_get (by_target st) (Some (fold orig)) = {[e]}) = false) as ->.
      { apply andb_false_iff. destruct (decide (orig ≠ [])) as [Ho|Ho].
        - right. apply bool_decide_eq_false. tauto.
        - left. by apply bool_decide_eq_false. }
      destruct (decide (orig = [])) as [Ho|Ho].
      + case_decide; [done|]. by rewrite free_name_sh_ok.
      + destruct (set_item fold e tn [] st) as [st1 er1]. case_decide; [done|]. by rewrite free_name_sh_ok.
  Qed.
End glue.

(** ** Refutations by computed witnesses (ASCII folding) *)

