(** Proofs about SM/IndexShapes.v: a generated shape that passes its boolean obligations behaves exactly like the
    hand model of SM/IndexModel.v (so every theorem about the hand model applies to the code as written); the
    shapes of the seeded faults are refuted by computed witnesses. *)
From stdpp Require Import gmap.
From Coq Require Import NArith.
From SV Require Import SM.IndexModel SM.IndexProofs SM.IndexSearchProofs SM.IndexShapes.

(** * 1. Entity.__setitem__ *)
Lemma first_match_passes test l k0 : first_match test l = Some k0 → test k0 = true.
Proof. induction l as [|[k1 v1] r IH]; simpl; [done|]. destruct (test k1) eqn:E; [by intros [= <-]|done]. Qed.

Section setitem.
  Variable fold : str → str.

  Lemma first_match_hit key l k0 v :
    first_match (λ k, bool_decide (fold k = fold key)) l = Some k0 →
    dget k0 l = kv_find fold (fold key) l ∧ dset k0 v l = kv_set fold key v l.
  Proof.
    induction l as [|[k1 v1] r IH]; simpl; [done|]. case_bool_decide as Hk.
    - intros [= ->]. by rewrite !decide_True by done.
    - intros Hm. pose proof (first_match_passes _ _ _ Hm) as Hf%bool_decide_eq_true.
      destruct (IH Hm) as [H1 H2]. rewrite !decide_False by congruence. by rewrite H1, H2.
  Qed.

  Lemma first_match_miss key l v :
    first_match (λ k, bool_decide (fold k = fold key)) l = None →
    kv_find fold (fold key) l = None ∧ dget key l = None ∧ dset key v l = kv_set fold key v l.
  Proof.
    induction l as [|[k1 v1] r IH]; simpl; [done|]. case_bool_decide as Hk; [done|].
    intros Hm. destruct (IH Hm) as (H1 & H2 & H3). rewrite !decide_False by congruence. by rewrite H1, H2, H3.
  Qed.

  (** the lookup loop of a shape that passes the obligations: the previous value and the new key list of the hand
      model *)
  Lemma setitem_prefix_ok sh key v l : setitem_shape_ok sh = true →
    default [] (setitem_prefix fold sh key v l).1 = default [] (kv_find fold (fold key) l) ∧
    (setitem_prefix fold sh key v l).2 = kv_set fold key v l.
  Proof.
    destruct sh as [lf rf hr hs mr ms].
    unfold setitem_shape_ok, ss_match_ok, ss_hit_read_ok, ss_hit_store_ok, ss_miss_read_ok, ss_miss_store_ok. simpl.
    intros Hok. unfold setitem_prefix. simpl.
    destruct lf, rf; try discriminate. destruct hr as [|[]|[]]; try discriminate. destruct hs; try discriminate.
    destruct ms; try (by rewrite ?andb_false_r in Hok). simpl.
    destruct (first_match _ l) as [k0|] eqn:Hm; simpl.
    - destruct (first_match_hit key _ k0 v Hm) as [H1 H2]. by rewrite H1, H2.
    - destruct (first_match_miss key _ v Hm) as (H1 & H2 & H3). rewrite H3, H1.
      destruct mr as [|[]|[]]; try discriminate; simpl; by rewrite ?H2.
  Qed.

  (** A source shape that passes the obligations is the hand model, for all arguments and states. *)
  Theorem set_item_sh_ok sh e key v st :
    setitem_shape_ok sh = true → set_item_sh fold sh e key v st = set_item fold e key v st.
  Proof.
    intros Hok. unfold set_item_sh. destruct (setitem_prefix_ok sh key v (keys_of st e) Hok) as [Ho Hl].
    destruct (setitem_prefix _ _ _ _ _) as [o l']. simpl in Ho, Hl. rewrite Ho, Hl.
    reflexivity. (* [set_item_with] on the hand model's previous value and key list is the text of [set_item] *)
  Qed.
End setitem.

(** the shape of seeded fault c07_1 (previous value fetched with the caller's spelling), and of a read placed
    after the store *)
Definition setitem_shape_today : setitem_shape := SetShape true true (RBefore KStored) KStored (RBefore KCaller) KCaller.
Definition setitem_shape_caller : setitem_shape := SetShape true true (RBefore KCaller) KStored (RBefore KCaller) KCaller.
Definition setitem_shape_after : setitem_shape := SetShape true true (RAfter KStored) KStored (RBefore KCaller) KCaller.

Lemma setitem_shape_today_ok : setitem_shape_ok setitem_shape_today = true.
Proof. reflexivity. Qed.

Section setitem_refuted.
  Let x : str := [120]%N.  Let y : str := [121]%N.  Let a : str := [97]%N.
  Let tn_mixed : str := [84;97;114;103;101;116;78;97;109;101]%N.    (* 'TargetName' *)
  (** create_ent('a', TargetName='x') *)
  Let st0 := run ascii_fold [CreateEnt a [(tn_mixed, x)]] init.

  (** ent['targetname'] = 'y' under the caller-spelling shape: the entity stays filed under 'x' *)
  Lemma set_item_caller_spelling_refuted :
    setitem_shape_ok setitem_shape_caller = false ∧
    Inv ascii_fold st0 ∧ ¬ Inv ascii_fold (set_item_sh ascii_fold setitem_shape_caller 1 tn y st0).1.
  Proof.
    split; [reflexivity|]. split; [by apply run_inv, init_inv|].
    apply (not_inv_target_member _ _ (Some x) 1); compute_done.
  Qed.

  (** previous value read after the store: the new name is un-filed, the old one stays *)
  Lemma set_item_read_after_store_refuted :
    setitem_shape_ok setitem_shape_after = false ∧
    ¬ Inv ascii_fold (set_item_sh ascii_fold setitem_shape_after 1 tn y st0).1.
  Proof.
    split; [reflexivity|]. apply (not_inv_target_member _ _ (Some x) 1); compute_done.
  Qed.
End setitem_refuted.

(** * 2. VMF.search *)
(** two states that no reader of the indexes can tell apart *)
Definition ix_equiv (st st' : mstate) : Prop :=
  objs st' = objs st ∧ nobj st' = nobj st ∧ ents st' = ents st ∧ spawn st' = spawn st ∧
  (∀ k, ix_get (by_class st') k = ix_get (by_class st) k) ∧
  (∀ k, ix_get (by_target st') k = ix_get (by_target st) k).

Lemma ix_equiv_refl st : ix_equiv st st.
Proof. by repeat split. Qed.
Lemma ix_equiv_trans a b c : ix_equiv a b → ix_equiv b c → ix_equiv a c.
Proof.
  intros (?&?&?&?&Ha1&Ha2) (?&?&?&?&Hb1&Hb2). repeat split; try congruence.
Qed.

Section search.
  Variable fold : str → str.
  Hypothesis fold_idem : ∀ s, fold (fold s) = fold s.

  Lemma ix_equiv_inv st st' : Inv fold st → ix_equiv st st' → Inv fold st'.
  Proof.
    destruct st as [o n en sp bc bt], st' as [o' n' en' sp' bc' bt'].
    intros [Hc Ht Hs Hse Hk Hf] (Ho & Hn & He & Hsp & Hbc & Hbt). simpl in *. subst.
    split; simpl; try done.
    - intros k e. rewrite Hbc. apply Hc.
    - intros k e. rewrite Hbt. apply Ht.
  Qed.

  Lemma ix_equiv_present st st' e : ix_equiv st st' → present st' e ↔ present st e.
  Proof. intros (_&_&He&Hs&_). unfold present. by rewrite He, Hs. Qed.
  Lemma ix_equiv_tgt st st' e : ix_equiv st st' → tgt_of fold st' e = tgt_of fold st e.
  Proof. intros (Ho&_). unfold tgt_of, keys_of. by rewrite Ho. Qed.
  Lemma ix_equiv_cls st st' e : ix_equiv st st' → cls_of fold st' e = cls_of fold st e.
  Proof. intros (Ho&_). unfold cls_of, keys_of. by rewrite Ho. Qed.

  Lemma named_spec' (p : str → bool) f st e : Inv fold st →
    e ∈ named fold p f st ↔ present st e ∧ ∃ k, tgt_of fold st e = Some k ∧ p k = true.
  Proof. destruct f; [exact (named_spec fold fold_idem p st e)|exact (scan_spec fold p st e)]. Qed.

  (** the three parts a search can yield, read off the entities themselves *)
  Definition eT (nm : str) (st : mstate) (e : nat) : Prop := present st e ∧ tgt_of fold st e = Some nm.
  Definition eC (nm : str) (st : mstate) (e : nat) : Prop := present st e ∧ cls_of fold st e = nm.
  Definition eP (nm : str) (st : mstate) (e : nat) : Prop :=
    present st e ∧ ∃ k, tgt_of fold st e = Some k ∧ is_prefix nm k = true.

  Lemma eT_equiv nm st st' e : ix_equiv st st' → eT nm st' e ↔ eT nm st e.
  Proof. intros Heq. unfold eT. by rewrite (ix_equiv_present st st'), (ix_equiv_tgt st st'). Qed.
  Lemma eC_equiv nm st st' e : ix_equiv st st' → eC nm st' e ↔ eC nm st e.
  Proof. intros Heq. unfold eC. by rewrite (ix_equiv_present st st'), (ix_equiv_cls st st'). Qed.
  Lemma eP_equiv nm st st' e : ix_equiv st st' → eP nm st' e ↔ eP nm st e.
  Proof. intros Heq. unfold eP. by rewrite (ix_equiv_present st st'), (ix_equiv_tgt st st'). Qed.

  Lemma has_target_probe nm st : has_target nm (upd_target (probe (Some nm)) st) = true.
  Proof.
    unfold has_target, probe. simpl. apply bool_decide_eq_true.
    destruct (by_target st !! Some nm) eqn:E; [by rewrite E|by rewrite lookup_insert].
  Qed.
  Lemma has_class_probe nm st : has_class nm (upd_class (probe nm) st) = true.
  Proof.
    unfold has_class, probe. simpl. apply bool_decide_eq_true.
    destruct (by_class st !! nm) eqn:E; [by rewrite E|by rewrite lookup_insert].
  Qed.

  (** The interpreter against the symbolic run: what is yielded is exactly the union of the parts the symbolic
      run says are yielded, the presence facts evolve as predicted, and no reader can tell the new state from
      the old one. *)
  Lemma ne_target_equiv nm st st' : ix_equiv st st' → ne_target nm st' = ne_target nm st.
  Proof. intros (_&_&_&_&_&Ht). unfold ne_target. by rewrite Ht. Qed.
  Lemma ne_class_equiv nm st st' : ix_equiv st st' → ne_class nm st' = ne_class nm st.
  Proof. intros (_&_&_&_&Hc&_). unfold ne_class. by rewrite Hc. Qed.

  Lemma sp_run_sem p : ∀ nm st t c pp bt' bc' r st', Inv fold st →
    sp_sym (ne_target nm st) (ne_class nm st) p (has_target nm st) (has_class nm st) = (t, c, pp, bt', bc') →
    sp_run fold p nm st = (r, st') →
    ix_equiv st st' ∧ has_target nm st' = bt' ∧ has_class nm st' = bc' ∧
    ∀ e, e ∈ r ↔ (t = true ∧ eT nm st e) ∨ (c = true ∧ eC nm st e) ∨ (pp = true ∧ eP nm st e).
  Proof.
    induction p as [|a IHa b IHb|cd a IHa b IHb| | |tst f| |]; intros nm st t c pp bt' bc' r st' HI Hsym Hrun; simpl in *.
    - simplify_eq. split; [apply ix_equiv_refl|]. split; [done|]. split; [done|].
      intros e. split; [set_solver|naive_solver].
    - destruct (sp_sym _ _ a _ _) as [[[[t1 c1] p1] bt1] bc1] eqn:Ea.
      destruct (sp_run fold a nm st) as [r1 st1] eqn:Ra.
      destruct (IHa _ _ _ _ _ _ _ _ _ HI Ea Ra) as (Heq1 & Hbt1 & Hbc1 & Hr1).
      rewrite <- Hbt1, <- Hbc1, <- (ne_target_equiv nm st st1 Heq1), <- (ne_class_equiv nm st st1 Heq1) in Hsym.
      destruct (sp_sym _ _ b _ _) as [[[[t2 c2] p2] bt2] bc2] eqn:Eb.
      destruct (sp_run fold b nm st1) as [r2 st2] eqn:Rb.
      assert (HI1 : Inv fold st1) by (by eapply ix_equiv_inv).
      destruct (IHb _ _ _ _ _ _ _ _ _ HI1 Eb Rb) as (Heq2 & Hbt2 & Hbc2 & Hr2).
      simplify_eq. split; [by eapply ix_equiv_trans|]. split; [done|]. split; [done|].
      intros e. rewrite elem_of_union, Hr1, Hr2.
      rewrite (eT_equiv nm st st1 e Heq1), (eC_equiv nm st st1 e Heq1), (eP_equiv nm st st1 e Heq1).
      rewrite !orb_true_iff. clear. (* [tauto] is slow under the hypotheses *) tauto.
    - destruct cd.
      + destruct (has_target nm st) eqn:E; [eapply IHa|eapply IHb]; eauto; by rewrite E.
      + destruct (has_class nm st) eqn:E; [eapply IHa|eapply IHb]; eauto; by rewrite E.
      + destruct (ne_target nm st) eqn:E; [eapply IHa|eapply IHb]; eauto; by rewrite E.
      + destruct (ne_class nm st) eqn:E; [eapply IHa|eapply IHb]; eauto; by rewrite E.
    - simplify_eq. split.
      { repeat split; try done. intros k. simpl. apply ix_get_probe. }
      split; [apply has_target_probe|]. split; [done|].
      intros e. rewrite (inv_by_target fold) by done. unfold eT. naive_solver.
    - simplify_eq. split.
      { repeat split; try done. intros k. simpl. apply ix_get_probe. }
      split; [done|]. split; [apply has_class_probe|].
      intros e. rewrite (inv_by_class fold) by done. unfold eC. naive_solver.
    - destruct tst; simplify_eq; (split; [apply ix_equiv_refl|]); (split; [done|]); (split; [done|]);
        intros e; rewrite named_spec' by done; unfold eT, eP.
      + split.
        * intros (Hp & k & Hk & Hb). apply bool_decide_eq_true in Hb as ->. naive_solver.
        * intros [[_ [Hp Hk]]|[[? _]|[? _]]]; try done. split; [done|]. exists nm. by rewrite bool_decide_eq_true.
      + split; [intros ?; right; right; by split|]. by intros [[? _]|[[? _]|[_ ?]]].
    - simplify_eq. split; [apply ix_equiv_refl|]. split; [done|]. split; [done|].
      intros e. rewrite (inv_by_target fold) by done. unfold eT. naive_solver.
    - simplify_eq. split; [apply ix_equiv_refl|]. split; [done|]. split; [done|].
      intros e. rewrite (inv_by_class fold) by done. unfold eC. naive_solver.
  Qed.

  Lemma is_prefix_refl s : is_prefix s s = true.
  Proof. induction s as [|x s IH]; simpl; [done|]. by rewrite bool_decide_eq_true_2. Qed.

  Lemma absent_target_empty nm st e : Inv fold st → has_target nm st = false → ¬ eT nm st e.
  Proof.
    intros HI Hh [Hp Ht]. assert (He : e ∈ ix_get (by_target st) (Some nm)) by (by apply (inv_by_target fold)).
    unfold has_target in Hh. apply bool_decide_eq_false in Hh. unfold ix_get in He.
    destruct (by_target st !! Some nm) eqn:E; [by destruct Hh|set_solver].
  Qed.
  Lemma absent_class_empty nm st e : Inv fold st → has_class nm st = false → ¬ eC nm st e.
  Proof.
    intros HI Hh [Hp Ht]. assert (He : e ∈ ix_get (by_class st) nm) by (by apply (inv_by_class fold)).
    unfold has_class in Hh. apply bool_decide_eq_false in Hh. unfold ix_get in He.
    destruct (by_class st !! nm) eqn:E; [by destruct Hh|set_solver].
  Qed.

  (** a set without members holds no match; a set with members is present *)
  Lemma empty_target_none nm st e : Inv fold st → ne_target nm st = false → ¬ eT nm st e.
  Proof.
    intros HI Hh [Hp Ht]. assert (He : e ∈ ix_get (by_target st) (Some nm)) by (by apply (inv_by_target fold)).
    unfold ne_target in Hh. apply bool_decide_eq_false in Hh. apply Hh. intros E. rewrite E in He. set_solver.
  Qed.
  Lemma empty_class_none nm st e : Inv fold st → ne_class nm st = false → ¬ eC nm st e.
  Proof.
    intros HI Hh [Hp Ht]. assert (He : e ∈ ix_get (by_class st) nm) by (by apply (inv_by_class fold)).
    unfold ne_class in Hh. apply bool_decide_eq_false in Hh. apply Hh. intros E. rewrite E in He. set_solver.
  Qed.
  Lemma ne_target_present nm st : ne_target nm st = true → has_target nm st = true.
  Proof.
    unfold ne_target, has_target, ix_get. intros H%bool_decide_eq_true. apply bool_decide_eq_true.
    destruct (by_target st !! Some nm); [done|by destruct H].
  Qed.
  Lemma ne_class_present nm st : ne_class nm st = true → has_class nm st = true.
  Proof.
    unfold ne_class, has_class, ix_get. intros H%bool_decide_eq_true. apply bool_decide_eq_true.
    destruct (by_class st !! nm); [done|by destruct H].
  Qed.

  Lemma flag_case_in (bt bc net nec : bool) : (net = true → bt = true) → (nec = true → bc = true) →
    (bt, bc, net, nec) ∈ flag_cases.
  Proof.
    clear fold_idem fold. intros H1 H2. destruct net; [rewrite H1 by done|]; (destruct nec; [rewrite H2 by done|]);
      try destruct bt; try destruct bc; compute_done.
  Qed.
  (** an obligation checked on [flag_cases] holds of the flags of every state *)
  Lemma flag_cases_st (Q : bool * bool * bool * bool → bool) nm st : forallb Q flag_cases = true →
    Q (has_target nm st, has_class nm st, ne_target nm st, ne_class nm st) = true.
  Proof.
    rewrite forallb_forall. intros HQ.
    apply HQ, elem_of_list_In, flag_case_in; [apply ne_target_present|apply ne_class_present].
  Qed.

  (** VMF.search as written (any generated shape that passes [search_shape_ok]) returns exactly the entities of
      [search_spec], and leaves a state that no reader can tell from the one before (only empty sets may have
      been added by defaultdict reads). *)
  Theorem search_sh_sound_complete sh name st : search_shape_ok sh = true → Inv fold st →
    (∀ e, e ∈ (search_sh fold sh name st).1 ↔ search_spec fold name st e) ∧
    ix_equiv st (search_sh fold sh name st).2 ∧ Inv fold (search_sh fold sh name st).2.
  Proof.
    unfold search_shape_ok. rewrite !andb_true_iff. intros ((((He & Hf) & Hs) & Hstar) & Hex) HI.
    cut ((∀ e, e ∈ (search_sh fold sh name st).1 ↔ search_spec fold name st e) ∧
         ix_equiv st (search_sh fold sh name st).2).
    { intros [? ?]. split; [done|]. split; [done|]. by eapply ix_equiv_inv. }
    unfold search_sh, search_spec. rewrite He, Hf, Hs. simpl.
    case_bool_decide as Hn; simpl.
    { split; [|apply ix_equiv_refl]. intros e. split; [set_solver|]. by intros [? _]. }
    destruct (ends_star (fold name)) eqn:Hst.
    - set (nm := removelast (fold name)).
      destruct (sp_sym (ne_target nm st) (ne_class nm st) (sh_star sh) (has_target nm st) (has_class nm st)) as [[[[t c] pp] bt'] bc'] eqn:Es.
      destruct (sp_run fold (sh_star sh) nm st) as [r st'] eqn:Er.
      destruct (sp_run_sem _ _ _ _ _ _ _ _ _ _ HI Es Er) as (Heq & _ & _ & Hr). simpl. split; [|done].
      apply (flag_cases_st _ nm st) in Hstar. simpl in Hstar. rewrite Es in Hstar. apply andb_true_iff in Hstar as [-> Hc]. apply negb_true_iff in Hc as ->.
      intros e. rewrite Hr. unfold eT, eC, eP. split.
      + intros [[_ [Hp Ht]]|[[? _]|[_ [Hp Hk]]]].
        * split; [done|]. split; [done|]. exists nm. split; [done|]. apply is_prefix_refl.
        * done.
        * by split.
      + intros (_ & Hp & Hk). right. right. by split.
    - set (nm := fold name).
      destruct (sp_sym (ne_target nm st) (ne_class nm st) (sh_exact sh) (has_target nm st) (has_class nm st)) as [[[[t c] pp] bt'] bc'] eqn:Es.
      destruct (sp_run fold (sh_exact sh) nm st) as [r st'] eqn:Er.
      destruct (sp_run_sem _ _ _ _ _ _ _ _ _ _ HI Es Er) as (Heq & _ & _ & Hr). simpl. split; [|done].
      apply (flag_cases_st _ nm st) in Hex. simpl in Hex. rewrite Es in Hex. apply andb_true_iff in Hex as [Hex Hc]. apply andb_true_iff in Hex as [Hpp Ht].
      apply negb_true_iff in Hpp as ->.
      intros e. rewrite Hr. split.
      + intros [[_ [Hp Hk]]|[[_ [Hp Hk]]|[? _]]]; try done; naive_solver.
      + intros (_ & Hp & [Hk|Hk]).
        * left. split; [|done]. destruct (ne_target nm st) eqn:E; [by destruct t|].
          by destruct (empty_target_none nm st e HI E).
        * right. left. split; [|done]. destruct (ne_class nm st) eqn:E; [by destruct c|].
          by destruct (empty_class_none nm st e HI E).
  Qed.

  (** ... hence it is the hand model [search] of SM/IndexModel.v. *)
  Corollary search_sh_is_search sh name st : search_shape_ok sh = true → Inv fold st →
    (search_sh fold sh name st).1 ≡ search fold name st.
  Proof.
    intros Hok HI e. destruct (search_sh_sound_complete sh name st Hok HI) as [H _].
    by rewrite H, (search_sound_complete fold fold_idem).
  Qed.
End search.

Lemma search_shape_today_ok : search_shape_ok search_shape_today = true.
Proof. reflexivity. Qed.

(** The [elif] shape (seeded fault c07_2) is rejected by the obligation, and wrong on reachable states: after a
    mere read of by_target['a'] the class search finds nothing; an entity named like another one's class hides
    that class. *)
Section elif_refuted.
  Let a : str := [97]%N.  Let b : str := [98]%N.  Let bigA : str := [65]%N.
  Let st_probe := run ascii_fold [CreateEnt a []; ProbeTarget (Some a)] init.
  Let st_named := run ascii_fold [CreateEnt a []; CreateEnt b [(tn, bigA)]] init.

  (** a listed entity of class 'a' is what a search for 'a' has to find *)
  Local Lemma class_a_searched st : 1 ∈ ents st → cls_of ascii_fold st 1 = a → search_spec ascii_fold a st 1.
  Proof. intros ? ?. split; [done|]. split; [by right|]. by right. Qed.

  Lemma search_elif_refuted :
    search_shape_ok search_shape_elif = false ∧
    Inv ascii_fold st_probe ∧ search_spec ascii_fold a st_probe 1 ∧ 1 ∉ (search_sh ascii_fold search_shape_elif a st_probe).1 ∧
    Inv ascii_fold st_named ∧ search_spec ascii_fold a st_named 1 ∧ 1 ∉ (search_sh ascii_fold search_shape_elif a st_named).1.
  Proof.
    split; [reflexivity|].
    split; [by apply run_inv, init_inv|]. split; [apply class_a_searched; compute_done|]. split; [compute_done|].
    split; [by apply run_inv, init_inv|]. split; [apply class_a_searched; compute_done|]. compute_done.
  Qed.

  (** Seeded fault c07_5: [ents = self.by_target.get(name) or self.by_class.get(name); if ents: yield from ents].
      The obligation about the exact branch fails; two plain lookups one after the other pass; and when an entity is
      named like another one's class, the search for that class misses the entity of that class. *)
  Lemma search_or_refuted :
    search_shape_ok search_shape_or = false ∧ search_shape_ok search_shape_two_gets = true ∧
    Inv ascii_fold st_named ∧ search_spec ascii_fold a st_named 1 ∧ 1 ∉ (search_sh ascii_fold search_shape_or a st_named).1 ∧
    1 ∈ (search_sh ascii_fold search_shape_two_gets a st_named).1.
  Proof.
    do 2 (split; [reflexivity|]).
    split; [by apply run_inv, init_inv|]. split; [apply class_a_searched; compute_done|]. split; compute_done.
  Qed.
End elif_refuted.
