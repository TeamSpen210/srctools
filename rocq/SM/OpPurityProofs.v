(** C09 — what the operator census means: a run none of whose stores is tagged with an operand origin is a
    mutation history performed with NO pre-existing roots, so by the frame theorem every object that existed before
    (in particular both operands) is observed unchanged, and everything the method holds at the end is new.  A run
    whose operand-tagged stores all go to the receiver (in-place operators) leaves everything separated from the
    receiver unchanged. *)
From Coq Require Import List ZArith Bool String.
From SV Require Import SM.Store SM.StoreProofs SM.OpPurity.
Import ListNotations.

Lemma reachR_incl h R R' l : incl R R' -> reachR h R l -> reachR h R' l.
Proof. intros Hi (r & Hr & Hl). exists r. split; [apply Hi; exact Hr|exact Hl]. Qed.

Lemma val_held_incl h R R' v : incl R R' -> val_held h R v -> val_held h R' v.
Proof. intros Hi. destruct v as [z|l]; [auto|]. cbn. apply reachR_incl. exact Hi. Qed.

Lemma roots_of_within slf ps F X o :
  tag_within slf ps X o -> incl (roots_of slf ps F o) (F ++ X).
Proof.
  unfold tag_within. intros Hi r Hr. apply in_or_app.
  destruct o; cbn in *; try (right; apply Hi; exact Hr); try (left; exact Hr).
Qed.

Lemma non_operand_within slf ps X o : is_operand o = false -> tag_within slf ps X o.
Proof. destruct o; try discriminate; intros _ x []. Qed.

(** A tagged run all of whose tags are accounted for by the extra roots [X] is a mutation history through [F ++ X]. *)
Lemma trun_steps slf ps X : forall s tr s',
  trun slf ps s tr s' ->
  (forall o, In o (map snd tr) -> tag_within slf ps X o) ->
  steps (fst s, snd s ++ X) (map fst tr) (fst s', snd s' ++ X).
Proof.
  intros s tr s' Hr. induction Hr as [s|s m s1 ms s2 Hst Hr IH]; intros Htag; [constructor|].
  cbn [map]. eapply steps_cons; [|apply IH; intros o Ho; apply Htag; right; exact Ho].
  inversion Hst as [h F l nd Hl Hv|h F l vs nd o Hre Hl Hm Hv]; subst; cbn [fst snd].
  - change ((l :: F) ++ X) with (l :: (F ++ X)). apply step_alloc; [exact Hl|].
    intros v Hin. eapply val_held_incl; [|apply Hv; exact Hin]. apply incl_appl, incl_refl.
  - eapply step_store; eauto.
    + eapply reachR_incl; [|exact Hre]. apply roots_of_within. apply Htag. left. reflexivity.
    + intros v Hin. eapply val_held_incl; [|apply Hv; exact Hin]. apply incl_appl, incl_refl.
Qed.

(** Whatever a history holds at the end was a root at the start or did not exist at the start. *)
Lemma step_roots_new s m s1 : step s m s1 ->
  (forall l, alloc (fst s) l -> alloc (fst s1) l) /\ (forall r, In r (snd s1) -> In r (snd s) \/ fst s r = None).
Proof.
  intros Hst. inversion Hst as [h R l vs nd Hre Hl Hm Hv|h R l nd Hl Hv]; subst; cbn [fst snd];
    (split; [intros x; apply alloc_upd|]).
  - intros r Hr. left. exact Hr.
  - intros r [<-|Hr]; [right; exact Hl|left; exact Hr].
Qed.

Lemma steps_roots_new : forall s ms s', steps s ms s' ->
  (forall l, alloc (fst s) l -> alloc (fst s') l) /\
  (forall r, In r (snd s') -> In r (snd s) \/ fst s r = None).
Proof.
  intros s ms s' Hs. induction Hs as [s|s m s1 ms s2 Hst Hs [IH1 IH2]]; [split; auto|].
  destruct (step_roots_new _ _ _ Hst) as [H1a H1b]. split.
  - intros l Hl. apply IH1, H1a, Hl.
  - intros r Hr. destruct (IH2 r Hr) as [Hin|Hnone]; [apply H1b; exact Hin|].
    right. destruct (fst s r) as [nd|] eqn:E; [|reflexivity].
    exfalso. apply (H1a r); [unfold alloc; congruence|exact Hnone].
Qed.

(** A run of a method started with nothing built, all of whose tags the operands [X] account for, leaves every object
    separated from [X] observed unchanged: the frame theorem for the history [trun_steps] gives. *)
Theorem tagged_run_frame slf ps X h tr h' F' :
  closed h -> roots_alloc h X -> trun slf ps (h, []) tr (h', F') ->
  (forall o, In o (map snd tr) -> tag_within slf ps X o) ->
  forall b, alloc h b -> sep h b X -> forall n, unfold n h' (VRef b) = unfold n h (VRef b).
Proof.
  intros Hc HX Hr Htag b Hb Hsep.
  exact (frame_observation _ h X h' (F' ++ X) b Hc Hb HX Hsep (trun_steps slf ps X _ _ _ Hr Htag)).
Qed.

(** PURE OPERATORS.  No store tagged with an operand origin ([X] empty, from which everything is separated): every
    object that existed before the call — the receiver, the other operands, anything else — is observed unchanged at
    every depth, and every object the method holds at the end (its result) did not exist before. *)
Theorem pure_op_frame slf ps h tr h' F' :
  closed h ->
  trun slf ps (h, []) tr (h', F') ->
  (forall o, In o (map snd tr) -> is_operand o = false) ->
  (forall a, alloc h a -> forall n, unfold n h' (VRef a) = unfold n h (VRef a)) /\
  (forall r, In r F' -> h r = None).
Proof.
  intros Hc Hr Htag.
  assert (Hin : forall o, In o (map snd tr) -> tag_within slf ps [] o)
    by (intros o Ho; exact (non_operand_within slf ps [] o (Htag o Ho))).
  split.
  - intros a Ha. apply (tagged_run_frame slf ps [] h tr h' F' Hc); [intros r []|exact Hr|exact Hin|exact Ha|].
    intros l _ (r & [] & _).
  - intros r Hr'. destruct (steps_roots_new _ _ _ (trun_steps slf ps [] _ _ _ Hr Hin)) as [_ H2].
    destruct (H2 r (in_or_app F' [] r (or_introl Hr'))) as [[]|H]. exact H.
Qed.

(** IN-PLACE OPERATORS.  Operand-tagged stores go to the receiver only ([X] = the receiver): every object separated
    from the receiver (e.g. the right operand, or the receiver's original before a copy) is observed unchanged. *)
Theorem inplace_op_frame slf ps h tr h' F' :
  closed h -> alloc h slf ->
  trun slf ps (h, []) tr (h', F') ->
  (forall o, In o (map snd tr) -> o = OSelf \/ is_operand o = false) ->
  forall b, alloc h b -> sep h b [slf] -> forall n, unfold n h' (VRef b) = unfold n h (VRef b).
Proof.
  intros Hc Hs0 Hr Htag. apply (tagged_run_frame slf ps [slf] h tr h' F' Hc (roots_alloc_one h slf Hs0) Hr).
  intros o Ho. destruct (Htag o Ho) as [->|Hn]; [apply incl_refl|]. exact (non_operand_within slf ps [slf] o Hn).
Qed.

(** The census booleans, unfolded. *)
Lemma writes_ok_pure r :
  op_kind r = OpPure -> row_writes_ok r = true -> forall o, In o (op_writes r) -> is_operand o = false.
Proof.
  unfold row_writes_ok. intros -> H o Ho. rewrite forallb_forall in H. specialize (H o Ho).
  apply negb_true_iff in H. exact H.
Qed.

Lemma writes_ok_inplace r :
  op_kind r = OpInplace -> row_writes_ok r = true -> forall o, In o (op_writes r) -> o = OSelf \/ is_operand o = false.
Proof.
  unfold row_writes_ok. intros -> H o Ho. rewrite forallb_forall in H. specialize (H o Ho).
  destruct o; auto; discriminate.
Qed.

(** Two one-field vectors [a] = 1 and [b] = 2, for the examples. *)
Definition op_h : heap := fun l => match l with
  | 1%positive => Some (Node true [VAtom 1%Z]) | 2%positive => Some (Node true [VAtom 2%Z]) | _ => None end.

(** A pure run exists (the hypotheses of [pure_op_frame] are satisfiable): [a + b] building a new node 3 from atoms. *)
Example pure_run_example :
  trun 1%positive [2%positive] (op_h, [])
       [(MAlloc 3%positive (Node true [VAtom 0%Z]), OFresh); (MStore 3%positive [VAtom 3%Z], OFresh)]
       (upd (upd op_h 3%positive (Node true [VAtom 0%Z])) 3%positive (Node true [VAtom 3%Z]), [3%positive]).
Proof.
  eapply tr_cons; [apply ts_alloc; [reflexivity|intros v [<-|[]]; exact I]|].
  eapply tr_cons; [|apply tr_nil].
  eapply ts_store with (nd := Node true [VAtom 0%Z]); try reflexivity.
  - exists 3%positive. split; [left; reflexivity|constructor].
  - intros v [<-|[]]. exact I.
Qed.
