(** Proofs about SM/IndexClear.v: a step list that passes the two obligations is the hand model [clear]. *)
From stdpp Require Import gmap.
From Coq Require Import NArith.
From SV Require Import SM.IndexModel SM.IndexProofs SM.IndexMaint SM.IndexClear.

Section clear.
  Variable fold : str → str.
  (** 'nodeid'.casefold() is neither 'classname' nor 'targetname' *)
  Hypothesis fold_nodeid : fold nodeid ≠ cn ∧ fold nodeid ≠ tn.

  Lemma split_clear l : l = before_clear l ++ from_clear l.
  Proof. induction l as [|s r IH]; [done|]. destruct s; simpl; by rewrite <- ?IH. Qed.

  Lemma with_keys_twice e l1 l2 st : with_keys e l2 (with_keys e l1 st) = with_keys e l2 st.
  Proof. unfold with_keys. simpl. by rewrite insert_insert. Qed.
  Lemma keys_of_with_keys e l st : keys_of (with_keys e l st) e = l.
  Proof. unfold keys_of, with_keys. simpl. by rewrite lookup_insert. Qed.

  Theorem clear_pg_ok l e st : clear_ok l = true → clear_pg fold l e st = clear fold e st.
  Proof.
    unfold clear_ok, clear_reindexes_before_emptying, clear_keeps_the_classname. rewrite andb_true_iff, orb_true_iff.
    rewrite !bool_decide_eq_true. intros [Hb Ha]. rewrite (split_clear l), Ha. unfold clear_pg, clear.
    set (c := if decide (e = spawn st) then ws else inull).
    assert (Htail : ∀ st2, csteps_run fold [CKeysClear; CStoreClass] c e st2 = (with_keys e [(cn, c)] st2, 0)).
    { intros st2. simpl. rewrite keys_of_with_keys. simpl. by rewrite with_keys_twice. }
    destruct Hb as [-> | ->]; simpl csteps_run at 1; cbn [app csteps_run cstep_run];
      destruct (set_item fold e cn c st) as [st1 er1]; destruct er1; try done;
      destruct (del_item fold e tn st1) as [st2 er2]; destruct er2; try done.
    - rewrite <- (Htail st2). reflexivity.
    - unfold del_item at 1. destruct fold_nodeid as [H1 H2].
      rewrite !decide_False by done.
      change (csteps_run fold [CKeysClear; CStoreClass] c e (with_keys e (kv_del fold (fold nodeid) (keys_of st2 e)) st2)
              = (with_keys e [(cn, c)] st2, 0)).
      rewrite Htail. by rewrite with_keys_twice.
  Qed.
End clear.

Lemma clear_today_ok : clear_ok clear_today = true ∧ clear_reindexes_before_emptying clear_forgets_targetname = false.
Proof. split; reflexivity. Qed.

