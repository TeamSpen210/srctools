From stdpp Require Import list.
From SV Require Import SM.IdMan SM.IdManProofs SM.IdCtor.
Open Scope Z_scope.

Definition pend (h : half) : bool := match hid h with Some _ => negb (hreg h) | None => false end.

(** The ID a (possibly half-built) object has registered with the manager. *)
Definition hrid (h : half) : option Z := if hreg h then hid h else None.

Section proofs.
  Variables (dr dg : bool).

  (** The destructor of [h] does not release an ID that [h] holds unregistered; a registered object has its slot set. *)
  Definition hsafe (h : half) : Prop :=
    (hreg h = false → releasable dr dg h = true → hid h = None) ∧ (hreg h = true → is_Some (hid h)).

  (** A constructor call, in a world whose other objects hold [ids]: whether it completes or raises, the manager and the
      ID registered so far stay in step; an ID that a later step overwrites is leaked, not handed back. *)
  Lemma crun_spec l : ∀ f d h m h' m' ok ids,
    cscan dr dg l (pend h) (hreg h) (hown h) = true → (hreg h = true → is_Some (hid h)) →
    crun l f d h m = (h', m', ok) → Held m (ids ++ option_list (hrid h)) →
    Held m' (ids ++ option_list (hrid h')) ∧ hsafe h' ∧ (ok = true → hreg h' = true).
  Proof.
    induction l as [|s r IH]; intros f d h m h' m' ok ids Hs Hh Hr HG; simpl in *.
    - injection Hr as <- <- <-. split; [done|]. split; [|done]. split; [|done]. intros Hf. by rewrite Hs in Hf.
    - assert (Hforget : Held m (ids ++ [])) by (eapply held_sublist, HG; apply sublist_app; [done|apply sublist_nil_l]).
      destruct s.
      + (* CStoreRaw *) by apply (IH f d {| hid := Some d; hreg := false; hown := hown h |} m).
      + (* CMayRaise *)
        apply andb_true_iff in Hs as [Hg Hs].
        destruct f as [[|n]|]; [|by eapply IH..]. injection Hr as <- <- <-.
        split; [done|]. split; [|done]. split; [|done]. intros Hf Hrel. unfold releasable in Hrel. unfold pend in Hg.
        destruct (hid h); [|done]. rewrite Hf in Hg. simpl in Hg. by rewrite Hrel in Hg.
      + (* CRegister *)
        destruct (get_id (default d (hid h)) m) as [[i m1]|] eqn:E.
        2: { destruct (get_id_total (default d (hid h)) m) as [x Hx]. by rewrite Hx in E. }
        apply (IH f d {| hid := Some i; hreg := true; hown := hown h |} m1); [done|by eexists|done|].
        by apply (held_alloc _ _ [] _ _ _ E).
      + (* CSetOwned *) by apply (IH f d {| hid := hid h; hreg := hreg h; hown := true |} m).
  Qed.

  (** IDs registered to objects that still exist (complete or half-built). *)
  Definition rid (o : cobj) : option Z := if calive o then hrid (ch o) else None.
  Definition regs (l : list cobj) : list Z := omap rid l.
  Definition oinv (o : cobj) : Prop := hsafe (ch o) ∧ (cdone o = true → hreg (ch o) = true).
  Definition KInv (w : cworld) : Prop := Held (cman w) (regs (cobjs w)) ∧ Forall oinv (cobjs w).

  Lemma regs_app l1 l2 : regs (l1 ++ l2) = regs l1 ++ regs l2.
  Proof. apply omap_app. Qed.

  Lemma kstep_kinv steps w e : ctor_ok steps dr dg = true → KInv w → KInv (kstep steps dr dg false w e).
  Proof.
    intros Hok [HG Hall]. destruct e as [d f|k|k]; simpl.
    3: { by destruct (cobjs w !! k). }
    - destruct (crun steps f d h0 (cman w)) as [[h' m'] ok] eqn:E.
      destruct (crun_spec steps f d h0 (cman w) h' m' ok (regs (cobjs w)) Hok) as (I1 & I2 & I3); [done|done|by rewrite app_nil_r|].
      split; simpl; [by rewrite regs_app|]. apply Forall_app. split; [done|]. apply Forall_singleton. by split.
    - destruct (cobjs w !! k) as [o|] eqn:Hk; [|done]. destruct (calive o) eqn:Ha; [|done].
      destruct (Forall_lookup_1 _ _ _ _ Hall Hk) as [[Hsafe Hset] Hdone].
      split; simpl; [|by apply Forall_insert]. revert HG. apply (held_update regs _ _ _ _ _ _ regs_app Hk).
      intros A B. unfold regs, rid. simpl. rewrite Ha. unfold cdel. intros HG.
      assert (Hforget : Held (cman w) (A ++ B)).
      { eapply held_sublist, HG. apply sublist_app; [done|]. by apply sublist_inserts_l. }
      destruct (releasable dr dg (ch o)) eqn:Hrel; [|done]. destruct (hid (ch o)) as [i|] eqn:Hid; [|done].
      (* the destructor hands [i] back: it is registered, because the object is [hsafe] *)
      destruct (hreg (ch o)) eqn:Hreg; [|by specialize (Hsafe eq_refl eq_refl)].
      unfold hrid in HG. rewrite Hreg, Hid in HG. by apply held_release.
  Qed.

  Lemma krun_kinv steps es : ctor_ok steps dr dg = true → KInv (krun steps dr dg false es).
  Proof.
    intros Hok. apply (fold_left_inv KInv); [intros w e; by apply kstep_kinv|]. split; [apply held_init|constructor].
  Qed.

  Lemma klive_sublist l : Forall oinv l → omap kid l `sublist_of` regs l.
  Proof.
    induction 1 as [|o l [_ Hd] Hl IH]; [constructor|]. unfold regs. simpl.
    (* a complete object is registered: [kid o] is [rid o], or nothing *)
    assert (Hk : kid o = None ∨ kid o = rid o).
    { unfold kid, rid, hrid. destruct (cdone o); [rewrite Hd by done|]; destruct (calive o); auto. }
    destruct Hk as [-> | ->]; destruct (rid o); by try constructor.
  Qed.

  (** Main statement: when the step list passes [ctor_ok], after EVERY history of constructor calls (any desired ID, raising at
      any of the points where they can raise, or completing) and destructor calls (of complete and of half-built objects, at any
      later time), the complete objects that still exist have pairwise distinct, positive IDs -- and every complete object has
      an ID that the manager handed out to it. *)
  Theorem failed_ctor_unique steps es : ctor_ok steps dr dg = true →
    let w := krun steps dr dg false es in
    NoDup (klive w) ∧ (∀ i, i ∈ klive w → 0 < i) ∧ ∀ o, o ∈ cobjs w → cdone o = true → hreg (ch o) = true ∧ is_Some (hid (ch o)).
  Proof.
    intros Hok w. destruct (krun_kinv steps es Hok) as [HG Hall]. fold w in HG, Hall.
    destruct (held_unique _ _ (held_sublist _ _ _ (klive_sublist _ Hall) HG)) as [Hnd Hpos].
    split; [done|]. split; [done|]. intros o Ho Hd. rewrite Forall_forall in Hall.
    destruct (Hall _ Ho) as [[_ Hset] Hdone]. auto.
  Qed.
End proofs.

(** The shapes.  [attrs_raw_then_convert]: an attrs class whose [id] field is followed by a field with a converter (the seeded
    fault c08_8, and the pinned tree's Solid with its [visgroup_ids] converter). *)
Definition attrs_raw_then_convert : list cstep := [CStoreRaw; CMayRaise; CRegister].
Definition attrs_guarded : list cstep := [CStoreRaw; CMayRaise; CRegister; CSetOwned].
Definition direct_register : list cstep := [CMayRaise; CRegister; CMayRaise].

Lemma shapes_ok :
  ctor_ok attrs_raw_then_convert true false = false ∧ ctor_ok attrs_raw_then_convert false false = true ∧
  ctor_ok attrs_guarded true true = true ∧ ctor_ok direct_register true false = true ∧
  ctor_ok [CSetOwned; CStoreRaw; CMayRaise; CRegister] true true = false ∧ ctor_ok [CStoreRaw; CMayRaise] false false = false.
Proof. vm_compute. done. Qed.

(** Refutation: brushes 1 and 2 exist; a third constructor call asks for ID 2 and raises in the converter; the half-built
    object is destroyed and its destructor releases 2; the next brush is handed 2: IDs 1, 2, 2. *)
Definition failed_ctor_history : list cev := [KNew (-1) None; KNew (-1) None; KNew 2 (Some O); KDel 2; KNew (-1) None].

(** copy.copy() left to the default protocol: the copy of brush 1 shares its ID at once; when the copy dies its destructor releases
    the ID (the flag was copied with the other fields, so the guard does not help), and the next brush is handed 1 while the original
    still holds it. *)
Lemma shallow_alias_refuted :
  klive (krun attrs_guarded true true true [KNew (-1) None; KAlias 0]) = [1; 1] ∧
  klive (krun attrs_guarded true true true [KNew (-1) None; KAlias 0; KDel 1; KNew (-1) None]) = [1; 1] ∧
  klive (krun attrs_guarded true true false [KNew (-1) None; KAlias 0; KDel 1; KNew (-1) None]) = [1; 2].
Proof. vm_compute. done. Qed.

(** [fail_states] is what [crun] leaves behind when it raises. *)
Lemma crun_fail_state l : ∀ f d h m h' m',
  crun l f d h m = (h', m', false) → half_abs h' ∈ fail_states l (bool_decide (is_Some (hid h))) (hreg h) (hown h).
Proof.
  induction l as [|s r IH]; intros f d h m h' m' Hr; simpl in *; [done|]. destruct s.
  - specialize (IH _ _ _ _ _ _ Hr). simpl in IH. exact IH.
  - destruct f as [[|n]|].
    + inversion Hr; subst. left.
    + right. exact (IH _ _ _ _ _ _ Hr).
    + right. exact (IH _ _ _ _ _ _ Hr).
  - destruct (get_id (default d (hid h)) m) as [[i m1]|] eqn:E.
    + specialize (IH _ _ _ _ _ _ Hr). simpl in IH. exact IH.
    + destruct (get_id_total (default d (hid h)) m) as [x Hx]. rewrite Hx in E. done.
  - specialize (IH _ _ _ _ _ _ Hr). simpl in IH. exact IH.
Qed.
