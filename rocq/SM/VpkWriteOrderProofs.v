(** Accepted rejection tables: FileInfo.write with its validations is the OWrite case of [step] (a rejected write stores nothing).
    The table of seeded c13_7: the rejected write leaves the new checksum on the old data. *)
From Coq Require Import List NArith Bool.
From SV Require Import Fmt.VpkDir SM.Vpk SM.VpkProofs SM.VpkPlace SM.VpkPlaceProofs SM.VpkPlaceTable SM.VpkPlaceTableProofs SM.VpkWriteOrder.
Import ListNotations.
Open Scope N_scope.

Lemma kind_eqb_true a b : kind_eqb a b = true -> a = b.
Proof. destruct a, b; cbn; congruence. Qed.
Lemma lnil_true {A} (l : list A) : lnil l = true -> l = [].
Proof. destruct l; cbn; congruence. Qed.

Lemma rej_keys_complete d s k : In (d, s, k) rej_keys.
Proof.
  unfold rej_keys. apply in_flat_map. exists d. split; [destruct d; cbn; auto|].
  apply in_flat_map. exists s. split; [destruct s; cbn; auto|]. apply in_map. destruct k; cbn; auto.
Qed.

Lemma rej_find jt : rej_table_ok jt = true -> forall d s k,
  exists r, find (rej_key d s k) jt = Some r /\ rej_row_ok r = true /\ j_dir r = d /\ j_same r = s /\ j_kind r = k.
Proof.
  intros Hok d s k. apply andb_prop in Hok as [Hrows Hcov]. rewrite forallb_forall in Hrows.
  unfold rej_covers in Hcov. rewrite forallb_forall in Hcov.
  destruct (find_covered _ jt (Hcov _ (rej_keys_complete d s k))) as (r & Hf & Hin & Hk). exists r.
  apply andb_prop in Hk as [Hk Hk3]. apply andb_prop in Hk as [Hk1 Hk2].
  apply eqb_prop in Hk1, Hk2. apply kind_eqb_true in Hk3. auto.
Qed.

(** what [rej_row_ok] asks of a row that must reject: it raised, by the validation [k], before any store *)
Lemma raised_clean r k : j_raised r && kind_eqb (j_by r) k && lnil (j_dirty r) = true ->
  j_raised r = true /\ j_by r = k /\ j_dirty r = [].
Proof.
  intros H. apply andb_prop in H as [H Hn]. apply andb_prop in H as [Hr Hb].
  apply kind_eqb_true in Hb. apply lnil_true in Hn. auto.
Qed.

Theorem write_guarded_is_model jt pt : rej_table_ok jt = true -> place_table_ok pt = true -> forall crc cf st i d ix,
  v_chk_idx cf = true ->
  write_guarded_t jt pt crc cf st i d ix = Some (write_guarded_model crc cf st i d ix).
Proof.
  intros Hj Hp crc cf st i d ix Hchk. unfold write_guarded_t, write_guarded_model, idx_rejected.
  rewrite (write_info_t_is_write_info pt Hp). rewrite Hchk. cbn [andb].
  destruct (writable (md st)) eqn:Hw; cbn [negb].
  - destruct (idx_ok cf ix) eqn:Hi; cbn [negb].
    + rewrite andb_false_r. reflexivity.
    + rewrite andb_true_r.
      destruct (rej_find jt Hj (v_is_dir cf) (crc d =? icrc i) KIndex) as (r & Hf & Hok & Hd & Hs & Hk).
      rewrite Hf. unfold rej_row_ok in Hok. rewrite Hk, Hd in Hok.
      destruct (v_is_dir cf).
      * destruct (raised_clean r _ Hok) as (-> & -> & ->). reflexivity.
      * apply negb_true_iff in Hok. rewrite Hok. reflexivity.
  - set (k := if negb (idx_ok cf ix) then KBoth else KMode).
    destruct (rej_find jt Hj (v_is_dir cf) (crc d =? icrc i) k) as (r & Hf & Hok & Hd & Hs & Hk).
    rewrite Hf. unfold rej_row_ok in Hok. rewrite Hk in Hok.
    destruct (raised_clean r KMode) as (-> & -> & ->); [|reflexivity].
    subst k. destruct (negb (idx_ok cf ix)); exact Hok.
Qed.

(** a rejected write changes nothing (what the refinement proof of SM/VpkRefine.v uses through [step]) *)
Corollary rejected_write_stores_nothing jt pt : rej_table_ok jt = true -> place_table_ok pt = true -> forall crc cf st i d ix st' i' c,
  v_chk_idx cf = true -> write_guarded_t jt pt crc cf st i d ix = Some (st', i', c) -> c <> rOk -> st' = st /\ i' = i.
Proof.
  intros Hj Hp crc cf st i d ix st' i' c Hchk H Hc. rewrite (write_guarded_is_model jt pt Hj Hp) in H by exact Hchk.
  unfold write_guarded_model in H. destruct (negb (writable (md st))); [inversion H; auto|].
  destruct (idx_rejected cf ix); [inversion H; auto|].
  destruct (write_info crc cf st i d ix). inversion H. subst c. contradiction.
Qed.

Lemma table_pinned_ok : place_table_ok table_pinned = true.
Proof. vm_compute. reflexivity. Qed.

(** seeded c13_7 as a table: in a directory VPK a write of different data with an index out of range is rejected, but the entry keeps the
    NEW checksum on the OLD data: it reads back as before and no longer verifies; writing the same data again with a valid index is
    then taken for "same data, nothing to do" and stores nothing. *)
Theorem late_check_rejected_write_breaks_verify crc cf st i d ix ix2 :
  v_is_dir cf = true -> writable (md st) = true -> idx_ok cf ix = false -> idx_ok cf ix2 = true -> (crc d =? icrc i) = false ->
  verify_info crc st i = true ->
  let i' := mkInfo (crc d) (ipre i) (iidx i) (ioff i) (ilen i) in
  write_guarded_t rej_table_late_check table_pinned crc cf st i d ix = Some (st, i', rBadIndex)
  /\ read_info st i' = read_info st i /\ verify_info crc st i' = false
  /\ write_guarded_t rej_table_late_check table_pinned crc cf st i' d ix2 = Some (st, i', rOk).
Proof.
  intros Hd Hw Hi Hi2 Hc Hv i'. split; [|split; [|split]].
  - unfold write_guarded_t. rewrite (write_info_t_is_write_info _ table_pinned_ok). rewrite Hw, Hi, Hd, Hc. cbn [negb].
    destruct (write_info crc cf st i d ix) as [sn inew] eqn:E.
    destruct (write_info_stores crc cf _ _ _ _ _ _ Hc E) as (_ & _ & _ & _ & _ & Hcrc & _).
    cbn. rewrite Hcrc. reflexivity.
  - reflexivity.
  - unfold verify_info in *. change (read_info st i') with (read_info st i). cbn [icrc i'].
    apply N.eqb_eq in Hv. rewrite Hv. apply N.eqb_neq. apply N.eqb_neq in Hc. congruence.
  - unfold write_guarded_t, write_info_t. cbn [icrc i']. rewrite N.eqb_refl, Hw, Hi2. reflexivity.
Qed.

(** The OWrite case of the state machine is FileInfo.write run from the two generated tables: look the entry up, run the guarded write,
    store the new entry when the call was accepted; a rejected call leaves the state as it was. *)
Theorem step_write_is_guarded_tables jt pt : rej_table_ok jt = true -> place_table_ok pt = true -> forall crc cf st k d ix,
  v_chk_idx cf = true ->
  step crc cf st (OWrite k d ix) =
    match alookup k (tbl st) with
    | None => Some (st, rMissing)
    | Some i => match write_guarded_t jt pt crc cf st i d ix with
                | Some (st', i', c) => Some (if c =? rOk then with_tbl st' (aset k i' (tbl st')) else st', c)
                | None => None
                end
    end.
Proof.
  intros Hj Hp crc cf st k d ix Hchk. cbn [step]. destruct (alookup k (tbl st)) as [i|]; [|reflexivity].
  rewrite (write_guarded_is_model jt pt Hj Hp) by exact Hchk. unfold write_guarded_model.
  destruct (negb (writable (md st))); [reflexivity|].
  destruct (idx_rejected cf ix); [reflexivity|].
  unfold do_write. destruct (write_info crc cf st i d ix) as [st' i']. reflexivity.
Qed.
