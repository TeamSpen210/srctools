From stdpp Require Import list.
From SV Require Import SM.IdMan SM.IdManProofs SM.IdLife.
Open Scope Z_scope.

(** The IDs of the existing objects are held, in the sense of [Held]. *)
Definition LInv (w : world) : Prop := Held (man w) (live_ids w).

Lemma live_ids_app l1 l2 :
  live_ids {| man := init; objs := l1 ++ l2 |} =
  live_ids {| man := init; objs := l1 |} ++ live_ids {| man := init; objs := l2 |}.
Proof. unfold live_ids; simpl. rewrite filter_app, fmap_app. done. Qed.

Lemma live_ids_objs m m' l : live_ids {| man := m; objs := l |} = live_ids {| man := m'; objs := l |}.
Proof. done. Qed.

Definition lids (l : list obj) : list Z := oid <$> filter (λ o, alive o = true) l.
Lemma lids_app l1 l2 : lids (l1 ++ l2) = lids l1 ++ lids l2.
Proof. unfold lids. rewrite filter_app, fmap_app. done. Qed.
Lemma lids_one o : lids [o] = if alive o then [oid o] else [].
Proof. unfold lids. rewrite filter_cons. by destruct (alive o). Qed.

(** The object [k] is replaced; the manager hears of it or not. *)
Lemma linv_update w k o o' m' : objs w !! k = Some o →
  (∀ A B, Held (man w) (A ++ lids [o] ++ B) → Held m' (A ++ lids [o'] ++ B)) →
  LInv w → LInv {| man := m'; objs := <[k := o']> (objs w) |}.
Proof. intros Hk. exact (held_update lids _ _ _ _ _ _ lids_app Hk). Qed.

Lemma lstep_linv w e : LInv w → LInv (lstep false w e).
Proof.
  intros H. destruct e as [d|k|k|k]; simpl.
  - (* Create *)
    destruct (get_id d (man w)) as [[i m']|] eqn:E; [|done].
    unfold LInv, live_ids; simpl. rewrite filter_app, fmap_app.
    apply (held_alloc _ _ [] _ _ _ E). by rewrite app_nil_r.
  - (* RemoveFromMap, no release *)
    destruct (objs w !! k) as [o|] eqn:Hk; [|done].
    destruct (alive o && inmap o) eqn:Hc; [|done]. apply andb_true_iff in Hc as [Ha _].
    apply (linv_update _ _ _ _ _ Hk); [|done]. intros A B. by rewrite !lids_one, Ha.
  - (* ReAdd *)
    destruct (objs w !! k) as [o|] eqn:Hk; [|done].
    destruct (alive o && negb (inmap o)) eqn:Hc; [|done]. apply andb_true_iff in Hc as [Ha _].
    apply (linv_update _ _ _ _ _ Hk); [|done]. intros A B. by rewrite !lids_one, Ha.
  - (* Gc *)
    destruct (objs w !! k) as [o|] eqn:Hk; [|done].
    destruct (alive o && negb (inmap o)) eqn:Hc; [|done]. apply andb_true_iff in Hc as [Ha _].
    apply (linv_update _ _ _ _ _ Hk); [|done]. intros A B. rewrite !lids_one, Ha. apply held_release.
Qed.

(** Main lifecycle theorem: when removal from the map does not release the ID (the destructor does, once),
    the objects that still exist never share an ID and all IDs are positive, after every history. *)
Theorem live_ids_nodup_pos es :
  let w := lrun false es in NoDup (live_ids w) ∧ (∀ i, i ∈ live_ids w → 0 < i).
Proof. exact (held_unique _ _ (fold_left_inv LInv _ lstep_linv es w0 held_init)). Qed.

(** Objects in the map are a sub-population of the existing objects. *)
Lemma map_ids_sublist es : let w := lrun false es in
  (∀ o, o ∈ objs w → inmap o = true → alive o = true) → sublist (map_ids w) (live_ids w).
Proof. intros w H. by apply fmap_sublist, my_sublist_filter_impl. Qed.

(** With release on removal (the pinned tree's [VMF.remove_ent]) the statement is false:
    create; remove; create; gc(first); create  -> two existing objects in the map share ID 1. *)
Definition double_release_history : list ev := [Create (-1); RemoveFromMap 0; Create (-1); Gc 0; Create (-1)].

(** Non-vacuity: the same history is harmless without the release on removal. *)
Example double_release_history_ok :
  map_ids (lrun false double_release_history) = [2; 1].
Proof. vm_compute. reflexivity. Qed.

(* ------------------------------------------------------------------ fixup indexes *)

Lemma lowest_unused_spec fuel (i : Z) (ids : list Z) :
  (length (filter (λ x : Z, (i ≤ x)%Z) ids) < fuel)%nat → lowest_unused fuel i ids ∉ ids ∧ i ≤ lowest_unused fuel i ids.
Proof.
  revert i; induction fuel as [|f IH]; intros i Hlen; [lia|]. simpl.
  destruct (decide (i ∈ ids)) as [Hin|Hn]; [|split; [done|lia]].
  destruct (IH (i + 1)) as [H1 H2]; [|split; [done|lia]].
  (* the candidates from [i + 1] on are those from [i] on without [i], which is one of them *)
  rewrite (list_filter_iff _ (λ x, i + 1 ≤ x ∧ i ≤ x)), <- list_filter_filter; [|intros; lia].
  assert (Hi : i ∈ filter (λ x, i ≤ x) ids) by (apply elem_of_list_filter; split; [lia|done]).
  pose proof (filter_length_lt (λ x, i + 1 ≤ x) _ i Hi) as Hlt.
  eapply Nat.lt_le_trans; [apply Hlt|]; lia.
Qed.

Definition FxInv (f : fixups) : Prop := NoDup (f.*2) ∧ ∀ i, i ∈ f.*2 → 0 < i.

(** A new variable with a positive index that the table does not use. *)
Lemma fx_snoc_inv f v i : FxInv f → i ∉ f.*2 → 0 < i → FxInv (f ++ [(v, i)]).
Proof.
  intros [Hnd Hpos] Hni Hi. unfold FxInv. rewrite fmap_app. simpl. split.
  - apply NoDup_app. split; [done|]. split; [|apply NoDup_singleton]. by intros x Hx ->%elem_of_list_singleton.
  - intros x [Hx| ->%elem_of_list_singleton]%elem_of_app; [by apply Hpos|done].
Qed.

Lemma fx_set_inv v f : FxInv f → FxInv (fx_set v f).
Proof.
  intros HI. unfold fx_set. destruct (decide _); [done|].
  destruct (lowest_unused_spec (S (length f)) 1 (f.*2)) as [Hni Hle].
  { pose proof (filter_length (λ x, 1 ≤ x) (f.*2)). rewrite fmap_length in *. lia. }
  apply fx_snoc_inv; [done|done|lia].
Qed.

Lemma fx_filter_elem (P : Z * Z → Prop) `{∀ p, Decision (P p)} (f : fixups) i : i ∈ (filter P f).*2 → i ∈ f.*2.
Proof. intros Hi. eapply elem_of_submseteq; [exact Hi|]. apply sublist_submseteq, fmap_sublist, my_sublist_filter. Qed.

Lemma fx_filter_inv (P : Z * Z → Prop) `{∀ p, Decision (P p)} f : FxInv f → FxInv (filter P f).
Proof.
  intros [Hnd Hpos]. split.
  - eapply my_sublist_NoDup; [|exact Hnd]. apply fmap_sublist, my_sublist_filter.
  - intros i Hi%fx_filter_elem. by apply Hpos.
Qed.

Lemma fx_del_inv v f : FxInv f → FxInv (fx_del v f).
Proof. apply fx_filter_inv. Qed.

(** [seen] holds at least the indexes of the table, so an accepted index is new to it. *)
Lemma fx_init_pass_inv l : ∀ seen f extra,
  FxInv f → (∀ i, i ∈ f.*2 → i ∈ seen) →
  FxInv (fx_init_pass true true l seen f extra).1.
Proof.
  induction l as [|[v i] r IH]; intros seen f extra HI Hseen; simpl; [done|].
  destruct (accept true i seen) eqn:Hacc; [|by apply IH].
  apply andb_true_iff in Hacc as [Hp%bool_decide_eq_true Hn%bool_decide_eq_true]. apply IH.
  - apply fx_snoc_inv; [by apply fx_filter_inv| |done]. intros Hx%fx_filter_elem. by apply Hn, Hseen.
  - intros x. rewrite fmap_app. intros [Hx%fx_filter_elem| ->%elem_of_list_singleton]%elem_of_app; [right; by apply Hseen|left].
Qed.

(** With the positivity test in the constructor, every fixup table has distinct positive indexes. *)
Theorem fx_init_inv l : FxInv (fx_init true true l).
Proof.
  unfold fx_init. pose proof (fx_init_pass_inv l [] [] []) as H.
  destruct (fx_init_pass true true l [] [] []) as [f extra].
  apply fold_left_inv; [intros; by apply fx_set_inv|]. apply H.
  - split; [constructor|]. intros i Hi. inversion Hi.
  - intros i Hi. inversion Hi.
Qed.

