(** C19 — the directory backend (RawFileSystem): exact names, either slash, any spelling of the path. *)
From Coq Require Import List NArith Bool.
From SV Require Import SM.FsChain SM.FsChainProofs SM.FsChainAdd.
Import ListNotations.
Open Scope N_scope.

Lemma raw_ops_sem ops s : raw_ops_ok ops = true -> apply_ops ops s = slash s.
Proof.
  unfold raw_ops_ok. intros H. apply andb_true_iff in H as [H Hf]. apply andb_true_iff in H as [H Hs].
  rewrite (apply_sf ops H). unfold sem_sf. rewrite Hs. apply negb_true_iff in Hf. rewrite Hf. reflexivity.
Qed.

Lemma raw_lookup_ops_nil fs q : raw_lookup_ops [] fs q = raw_lookup fs q.
Proof. reflexivity. Qed.

(** A query that, with its slashes converted and redundant parts removed, is the exact stored name finds that file -
    and so do the folding backends (no two stored names differ only in case). *)
Theorem raw_lookup_slash_agree ops fs e q :
  raw_ops_ok ops = true -> clean_fs fs = true -> NoDup (map (fun e => nkey (fst e)) fs) -> In e fs ->
  normpath (slash q) = fst e ->
  raw_lookup_ops ops fs q = Some e /\ spec_lookup fs (normpath (slash q)) = Some e.
Proof.
  intros Ho Hc Hnd He Hq. destruct (raw_lookup_agree fs e Hc Hnd He) as [Hr Hs].
  split; [|rewrite Hq; exact Hs].
  unfold raw_lookup_ops. rewrite (raw_ops_sem ops q Ho), Hq.
  unfold raw_lookup in Hr. rewrite (clean_name_normpath _ (clean_fs_In _ _ Hc He)) in Hr. exact Hr.
Qed.

(** The directory backend agrees with every folding backend of today's form on such queries. *)
Theorem raw_agrees_with_folded b ops fs e q :
  backend_keys_norm b = true -> raw_ops_ok ops = true -> clean_fs fs = true ->
  NoDup (map (fun e => nkey (fst e)) fs) -> In e fs -> normpath (slash q) = fst e ->
  raw_lookup_ops ops fs q = Some e /\ lookup b fs q = Some e /\ exists_ b fs q = true /\ open_ b fs q = Some e.
Proof.
  intros Hb Ho Hc Hnd He Hq. destruct (raw_lookup_slash_agree ops fs e q Ho Hc Hnd He Hq) as [Hr Hs].
  rewrite (lookup_slashnorm b fs q Hb Hc), (exists_slashnorm b fs q Hb Hc), (open_slashnorm b fs q Hb Hc), Hs.
  repeat split; assumption.
Qed.

Theorem raw_walk_exact ops fs folder e :
  In e (raw_walk ops fs folder) <-> In e fs /\ path_prefix (raw_folder ops folder) (fst e).
Proof.
  unfold raw_walk. rewrite filter_In. change (apply_op OAddSlash (raw_folder ops folder)) with (add_slash (raw_folder ops folder)).
  rewrite add_slash_prefix. reflexivity.
Qed.

(** Every listed name looks up to that file. *)
Theorem raw_walk_lookup_closed ops ops' fs folder e :
  raw_ops_ok ops = true -> clean_fs fs = true -> NoDup (map (fun e => nkey (fst e)) fs) ->
  In e (raw_walk ops' fs folder) -> raw_lookup_ops ops fs (fst e) = Some e.
Proof.
  intros Ho Hc Hnd Hin. apply raw_walk_exact in Hin as [He _].
  pose proof (clean_fs_In _ _ Hc He) as Hcl.
  apply (raw_lookup_slash_agree ops fs e (fst e) Ho Hc Hnd He).
  rewrite (clean_name_slash _ Hcl). apply clean_name_normpath. exact Hcl.
Qed.

(** The names [RawFileSystem.walk_folder] lists: with the relative path of the joined file name the listing is
    [raw_walk] - every listed name is a stored name. *)
Theorem raw_walk_rel_file ops fs folder : raw_walk_rel RawRelFile ops fs folder = raw_walk ops fs folder.
Proof.
  unfold raw_walk_rel. rewrite <- (map_id (raw_walk ops fs folder)) at 2. apply map_ext. intros [n b]. reflexivity.
Qed.

Corollary raw_walk_rel_lists_stored r ops fs folder e :
  raw_rel_ok r = true -> In e (raw_walk_rel r ops fs folder) -> In e fs.
Proof.
  intros Hr. destruct r; [|discriminate]. rewrite raw_walk_rel_file. intros H. apply raw_walk_exact in H as [H _]. exact H.
Qed.

Example raw_examples :
  let fs := [([115; 47; 120], [1]); ([116], [2])] in      (* "s/x", "t" *)
  raw_ops_ok [OSlash] = true
  /\ raw_lookup_ops [OSlash] fs [115; 92; 120] = Some ([115; 47; 120], [1])                       (* "s\\x" *)
  /\ raw_lookup_ops [] fs [115; 92; 120] = None
  /\ raw_lookup_ops [OSlash] fs [46; 92; 115; 47; 47; 120] = Some ([115; 47; 120], [1])           (* ".\\s//x" *)
  /\ raw_walk [OSlash] fs [46; 47; 115; 92] = [([115; 47; 120], [1])]                             (* "./s\\" *)
  /\ raw_walk [OSlash] fs [46] = fs.
Proof. repeat split; reflexivity. Qed.
