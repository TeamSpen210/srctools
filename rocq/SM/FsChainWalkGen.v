(** C19 — the composition of walk and lookup over a chain: every (path, File) the de-duplicated chain walk lists is
    what the chain's lookup returns for that path, i.e. the File of the first member that has the name.

    It is proved from an *interface*: what the chain needs from a member, for one folder, is
    - [lists_sound]: every file it lists below "prefix joined with folder" has a clean listed name (prefix dropped)
      inside the folder, and asking the member for that listed name yields that very file;
    - [lists_complete]: every clean name inside the folder that the member serves is listed, under a name with the same
      folded key.
    Folding backends with a sound walk form satisfy it (for empty or clean prefixes and folders); so does the directory
    backend as translated (listed names = stored names, slashes converted) when the folder is *exact* for it - every
    stored file that lies below prefix/folder up to letter case lies below it exactly ("for exact-case names" in the
    property text; the premise is shown necessary by a kernel-computed witness). *)
From Coq Require Import List NArith Bool.
From SV Require Import SM.FsChain SM.FsChainProofs SM.FsChainCompose SM.FsChainRaw SM.FsChainWitness SM.FsChainAdd.
Import ListNotations.
Open Scope N_scope.

(** [fk] is the folded key of the folder that is meant (for a folder argument spelt with redundant separators or "."
    segments: the key of its clean spelling) *)
Definition lists_sound_at (fk : str) (folder : str) (m : member) : Prop :=
  forall e, In e (m_walk m (full_name (m_prefix m) folder)) ->
    clean_name (drop_segs (fst e) (m_prefix m)) = true
    /\ path_prefix fk (nkey (drop_segs (fst e) (m_prefix m)))
    /\ asks (drop_segs (fst e) (m_prefix m)) m = Some e.
Definition lists_complete_at (fk : str) (folder : str) (m : member) : Prop :=
  forall r g, clean_name r = true -> path_prefix fk (nkey r) -> asks r m = Some g ->
    In g (m_walk m (full_name (m_prefix m) folder))
    /\ clean_name (drop_segs (fst g) (m_prefix m)) = true
    /\ nkey (drop_segs (fst g) (m_prefix m)) = nkey r.
Definition walk_member_ok_at (fk folder : str) (m : member) : Prop := lists_sound_at fk folder m /\ lists_complete_at fk folder m.
Definition lists_sound (folder : str) (m : member) : Prop := lists_sound_at (nkey folder) folder m.
Definition lists_complete (folder : str) (m : member) : Prop := lists_complete_at (nkey folder) folder m.
Definition walk_member_ok (folder : str) (m : member) : Prop := walk_member_ok_at (nkey folder) folder m.

(** * the composition, from the interface alone *)
Theorem chain_walk_lookup_closed_at fk dops ms folder x :
  dedup_ops_ok dops = true -> Forall (walk_member_ok_at fk folder) ms ->
  In x (chain_walk RelDropSegs dops ms folder) ->
  chain_get ms (fst x) = Some (snd x).
Proof.
  intros Hd Hms Hin. unfold chain_walk in Hin.
  apply dedup_inv in Hin as [l1 [l2 [Hrep [Hfirst _]]]].
  unfold chain_walk_repeat in Hrep. apply flat_map_split in Hrep as [pre [m [post [a [b0 [-> [Hm Hl1]]]]]]].
  apply Forall_app in Hms as [Hpre Hmpost]. inversion Hmpost as [|? ? [HA HB] _]; subst.
  assert (Hx : In x (map (fun f => (rel_name RelDropSegs (fst f) (m_prefix m), f)) (m_walk m (full_name (m_prefix m) folder)))).
  { rewrite Hm. apply in_or_app. right. left. reflexivity. }
  apply in_map_iff in Hx as [e [<- He]]. cbn [fst snd rel_name].
  destruct (HA e He) as [Hclr [HR Hask]].
  set (r := drop_segs (fst e) (m_prefix m)) in *.
  apply chain_first_match. exists pre, m, post. split; [reflexivity|]. split; [exact Hask|].
  apply Forall_forall. intros m' Hm'. rewrite Forall_forall in Hpre. destruct (Hpre m' Hm') as [_ HB'].
  destruct (asks r m') as [g|] eqn:Eg; [exfalso|reflexivity].
  destruct (HB' r g Hclr HR Eg) as [Hgw [Hclr' Hkr']].
  apply (Hfirst (drop_segs (fst g) (m_prefix m'), g)).
  - apply in_or_app. left. apply (in_chain_walk_repeat RelDropSegs pre folder). exists m', g.
    split; [exact Hm'|]. split; [exact Hgw|reflexivity].
  - change (apply_ops dops (drop_segs (fst g) (m_prefix m')) = apply_ops dops r).
    rewrite (dedup_key dops _ Hd Hclr'), (dedup_key dops r Hd Hclr). exact Hkr'.
Qed.

(** The interface looks only at what the member lists for the folder, what it answers for clean names and how many
    segments the chain drops from a listed path: a member that agrees with [m0] on these inherits it from [m0]. *)
Lemma walk_member_ok_transport fk f f0 m m0 :
  m_walk m (full_name (m_prefix m) f) = m_walk m0 (full_name (m_prefix m0) f0) ->
  (forall r, clean_name r = true -> asks r m = asks r m0) ->
  (forall x, drop_segs x (m_prefix m) = drop_segs x (m_prefix m0)) ->
  walk_member_ok_at fk f0 m0 -> walk_member_ok_at fk f m.
Proof.
  intros Ew El Ed [HA HB]. split.
  - intros e He. rewrite Ew in He. rewrite Ed. destruct (HA e He) as [H1 [H2 H3]]. rewrite (El _ H1). repeat split; assumption.
  - intros r g Hr Hin Hg. rewrite (El r Hr) in Hg. rewrite Ew, Ed. exact (HB r g Hr Hin Hg).
Qed.

(** * folding backends satisfy the interface *)
Lemma sound_member_walk_ok m folder : sound_member m -> okp folder -> walk_member_ok folder m.
Proof.
  intros [b [fs [p [-> [Hw [Hk [Hc Hp]]]]]]] Hfo. pose proof (backend_keys_ok_inv b Hk) as [Hs _].
  assert (Hcl : forall e, spec_lookup fs (fst e) = Some e -> clean_name (fst e) = true).
  { intros e He. apply (clean_fs_In fs e Hc), (spec_lookup_sound fs _ e He). }
  split.
  - intros e He. cbn [member_of m_walk m_prefix] in *.
    apply (walk_member b fs p folder e Hw Hc Hp Hfo) in He as [Hent [R [Hun HR]]].
    apply (entries_spec b fs e Hs Hc) in Hent.
    destruct (listed_name (fst e) p R (Hcl e Hent) Hp Hun) as [Hclr HkR].
    split; [exact Hclr|]. split; [rewrite HkR; exact HR|].
    apply (asks_member_iff b fs p _ e Hk Hc Hp Hclr). rewrite HkR. split; assumption.
  - intros r g Hclr HR Eg. cbn [member_of m_walk m_prefix] in *.
    apply (asks_member_iff b fs p r g Hk Hc Hp Hclr) in Eg as [Hg Hun].
    split; [|exact (listed_name (fst g) p (nkey r) (Hcl g Hg) Hp Hun)].
    apply (walk_member b fs p folder g Hw Hc Hp Hfo). split; [apply (entries_spec b fs g Hs Hc); exact Hg|].
    exists (nkey r). split; assumption.
Qed.

(** Chains of folding members (any ordering, i.e. any priority history), empty or clean prefixes and folder. *)
Theorem chain_walk_lookup_closed dops ms folder x :
  dedup_ops_ok dops = true -> Forall sound_member ms -> okp folder ->
  In x (chain_walk RelDropSegs dops ms folder) ->
  chain_get ms (fst x) = Some (snd x).
Proof.
  intros Hd Hms Hfo. apply (chain_walk_lookup_closed_at (nkey folder)); [exact Hd|].
  eapply Forall_impl; [|exact Hms]. intros m Hm. apply sound_member_walk_ok; assumption.
Qed.

(** * the directory backend satisfies the interface on folders that are exact for it *)
(** "prefix joined with folder" as the directory backend resolves it (exact letters, slashes converted) *)
Definition xkey (p folder : str) : str :=
  match p, folder with
  | [], _ => slash folder
  | _ :: _, [] => slash p
  | _ :: _, _ :: _ => slash p ++ SL :: slash folder
  end.
(** every stored file that lies below prefix/folder up to letter case lies below it exactly *)
Definition folder_exact (fs : list file) (p folder : str) : Prop :=
  forall e, In e fs -> path_prefix (gkey p folder) (nkey (fst e)) -> path_prefix (xkey p folder) (fst e).
Definition raw_sound_member (folder : str) (m : member) : Prop :=
  exists r ops fs p, m = raw_member_of r ops fs p /\ raw_rel_ok r = true /\ raw_ops_ok ops = true /\ clean_fs fs = true
    /\ NoDup (map (fun e => nkey (fst e)) fs) /\ okp p /\ folder_exact fs p folder.

Lemma xkey_pj p folder : xkey p folder = pj (slash p) (slash folder).
Proof. destruct p, folder; reflexivity. Qed.

Lemma clean_not_dot s : clean s = true -> eqb_str s S_DOT = false.
Proof.
  intros H. destruct (eqb_str s S_DOT) eqn:E; [|reflexivity]. apply eqb_str_eq in E. subst s. discriminate.
Qed.

(** the folder the directory backend resolves: like the folding backends' folder key, but with the letters as given *)
Lemma raw_folder_clean ops C :
  raw_ops_ok ops = true -> clean C = true -> slash C = C -> raw_folder ops C = C /\ raw_folder ops (C ++ [SL]) = C.
Proof.
  intros Ho Hc Hs. unfold raw_folder. rewrite !(raw_ops_sem ops _ Ho).
  assert (E : slash (C ++ [SL]) = C ++ [SL]) by (unfold slash in *; rewrite map_app, Hs; reflexivity).
  rewrite E, Hs, (clean_normpath C Hc), (normpath_trailing C Hc), (clean_not_dot C Hc). split; reflexivity.
Qed.

Lemma raw_folder_full ops p folder :
  raw_ops_ok ops = true -> okp p -> okp folder -> raw_folder ops (full_name p folder) = xkey p folder.
Proof.
  intros Ho Hp Hf. rewrite xkey_pj. apply (full_name_folder (raw_folder ops) (fun s => s)); try assumption.
  - unfold raw_folder. rewrite (raw_ops_sem ops [] Ho). reflexivity.
  - intros C. apply raw_folder_clean. exact Ho.
Qed.

Lemma clean_name_sep a b : clean_name (a ++ SL :: b) = true -> clean_name a = true /\ clean_name b = true.
Proof.
  unfold clean_name. rewrite clean_app, forallb_app. cbn [forallb]. intros H.
  apply andb_true_iff in H as [H1 H2]. apply andb_true_iff in H1 as [Ha Hb]. apply andb_true_iff in H2 as [Hna H2].
  apply andb_true_iff in H2 as [_ Hnb]. rewrite Ha, Hb, Hna, Hnb. split; reflexivity.
Qed.

(** the stored name [n] lies exactly below prefix/folder: it is "prefix/r" for a clean [r] inside the folder *)
Lemma exact_rest p folder n :
  okp p -> clean_name n = true -> path_prefix (xkey p folder) n ->
  exists r, n = pj (slash p) r /\ clean_name r = true /\ path_prefix (nkey folder) (nkey r).
Proof.
  intros Hp Hn HX. rewrite xkey_pj in HX.
  assert (HR : forall r, path_prefix (slash folder) r -> path_prefix (nkey folder) (nkey r)).
  { intros r H. rewrite <- (nkey_slash folder). apply path_prefix_nkey. exact H. }
  destruct Hp as [->|[Hp Hsp]]; [exists n; split; [reflexivity|split; [exact Hn|exact (HR n HX)]]|].
  destruct p as [|x p]; [discriminate|]. apply path_prefix_pj in HX as [r [-> H]]; [|discriminate].
  destruct (clean_name_sep _ _ Hn) as [_ Hr]. exists r.
  split; [destruct r; [discriminate|reflexivity]|]. split; [exact Hr|exact (HR r H)].
Qed.

Lemma raw_member_walk_ok m folder : raw_sound_member folder m -> okp folder -> walk_member_ok folder m.
Proof.
  intros [rr [ops [fs [p [-> [Hrr [Ho [Hc [Hnd [Hp Hex]]]]]]]]]] Hfo.
  destruct rr; [|discriminate]. split.
  - intros e He. cbn [raw_member_of m_walk m_prefix] in *.
    rewrite raw_walk_rel_file in He. apply raw_walk_exact in He as [Hefs HX].
    rewrite (raw_folder_full ops p folder Ho Hp Hfo) in HX.
    destruct (exact_rest p folder (fst e) Hp (clean_fs_In _ _ Hc Hefs) HX) as [r [En [Hclr HR]]].
    rewrite En, (drop_segs_pj p r Hp Hclr). split; [exact Hclr|]. split; [exact HR|].
    unfold asks. cbn [raw_member_of m_lookup m_prefix].
    apply (raw_lookup_slash_agree ops fs e (full_name p r) Ho Hc Hnd Hefs).
    rewrite (full_name_name p r Hp Hclr), En. apply name_pj_norm; assumption.
  - intros r g Hclr HR Eg. unfold asks in Eg. cbn [raw_member_of m_walk m_lookup m_prefix] in *.
    unfold raw_lookup_ops in Eg. apply find_some in Eg as [Hg Heq]. apply in_rev in Hg. apply eqb_str_eq in Heq.
    rewrite (raw_ops_sem ops _ Ho), (full_name_name p r Hp Hclr), (name_pj_norm p r Hp Hclr) in Heq.
    split; [|rewrite Heq, (drop_segs_pj p r Hp Hclr); split; [exact Hclr|reflexivity]].
    rewrite raw_walk_rel_file. apply raw_walk_exact. split; [exact Hg|].
    rewrite (raw_folder_full ops p folder Ho Hp Hfo). apply (Hex g Hg), gkey_iff.
    exists (nkey r). split; [rewrite Heq; apply under_pj; exact Hclr|exact HR].
Qed.

(** * chains of folding and directory members *)
Definition gmember_ok (folder : str) (m : member) : Prop := sound_member m \/ raw_sound_member folder m.

(** The exactness premise is needed: a directory holding "sub/x" walked as folder "Sub" lists nothing, the zip behind it
    lists its "sub/x" - but the lookup of that listed name is answered by the directory, with another file.  With the
    folder spelt "sub" the directory's file is listed and is what the lookup returns. *)
Definition subx : str := [115; 117; 98; 47; 120].
Definition dir_then_zip : list member :=
  [raw_member_of RawRelFile [OSlash] [(subx, [1])] []; member_of fixed_zip [(subx, [2])] []].
(** ... and the hypotheses are satisfiable: the same chain with the folder "sub". *)
Example walk_mixed_premises_satisfiable : Forall (gmember_ok [115; 117; 98]) dir_then_zip /\ okp [115; 117; 98].
Proof.
  split; [|right; split; reflexivity].
  constructor; [|constructor; [|constructor]].
  - right. exists RawRelFile, [OSlash], [(subx, [1])], []. repeat split; try reflexivity.
    + constructor; [intros []|constructor].
    + left. reflexivity.
    + intros e [<-|[]] _. right. exists [120]. reflexivity.
  - left. exists fixed_zip, [(subx, [2])], []. repeat split; try reflexivity. left. reflexivity.
Qed.
