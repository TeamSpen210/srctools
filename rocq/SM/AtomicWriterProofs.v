(** Proofs about the AtomicWriter model (SM/AtomicWriter.v). *)
From Coq Require Import List Bool Arith PeanoNat Lia.
From SV Require Import SM.AtomicWriter.
Import ListNotations.

(** * Names and directories *)
Lemma name_eqb_eq a b : name_eqb a b = true <-> a = b.
Proof.
  destruct a, b; cbn [name_eqb]; rewrite ?Nat.eqb_eq; split; intros H; try discriminate; try congruence;
    inversion H; reflexivity.
Qed.
Lemma name_eqb_refl a : name_eqb a a = true.
Proof. apply name_eqb_eq. reflexivity. Qed.
Lemma name_eqb_neq a b : a <> b -> name_eqb a b = false.
Proof. intros H. destruct (name_eqb a b) eqn:E; [apply name_eqb_eq in E; contradiction | reflexivity]. Qed.
Lemma name_eq_dec (a b : name) : {a = b} + {a <> b}.
Proof. decide equality; apply Nat.eq_dec. Qed.
Lemma upd_same d n v : upd d n v n = v.
Proof. unfold upd. rewrite name_eqb_refl. reflexivity. Qed.
Lemma upd_other d n v m : m <> n -> upd d n v m = d m.
Proof. intros H. unfold upd. rewrite name_eqb_neq by assumption. reflexivity. Qed.
Lemma append_some d n tok ct : d n = Some ct -> append d n tok = upd d n (Some (ct ++ [tok])).
Proof. intros H. unfold append. rewrite H. reflexivity. Qed.
Lemma append_other d n tok m : m <> n -> append d n tok m = d m.
Proof. intros H. unfold append. destruct (d n); [now apply upd_other | reflexivity]. Qed.

Lemma firstn_S_nth (l : list nat) k : k < length l -> firstn k l ++ [nth k l 0] = firstn (S k) l.
Proof.
  revert k. induction l as [|x l IH]; intros k H; cbn [length] in H; [lia|].
  destruct k; cbn [firstn nth app]; [reflexivity|]. rewrite IH by lia. reflexivity.
Qed.

(** * Shape of the successor states *)
Lemma assoc_after_tail s i j : assoc (after_tail s i j) = Some i.
Proof. unfold after_tail. destruct (j <? length (tail s)); reflexivity. Qed.
Lemma assoc_after_body s i k : assoc (after_body s i k) = Some i.
Proof.
  unfold after_body. destruct (raises_here s k); [reflexivity|].
  destruct (k <? length (body s)); [reflexivity | apply assoc_after_tail].
Qed.
Lemma committed_after_tail s i j : committed (after_tail s i j) = false.
Proof. unfold after_tail. destruct (j <? length (tail s)); reflexivity. Qed.
Lemma committed_after_body s i k : committed (after_body s i k) = false.
Proof.
  unfold after_body. destruct (raises_here s k); [reflexivity|].
  destruct (k <? length (body s)); [reflexivity | apply committed_after_tail].
Qed.

Lemma finished_after_tail s i j : finished (after_tail s i j) = false.
Proof. unfold after_tail. destruct (j <? length (tail s)); reflexivity. Qed.
Lemma finished_after_body s i k : finished (after_body s i k) = false.
Proof.
  unfold after_body. destruct (raises_here s k); [reflexivity|].
  destruct (k <? length (body s)); [reflexivity | apply finished_after_tail].
Qed.

(** The five flags have exactly one good setting. *)
Lemma cfg_ok_is_fixed c : cfg_ok c = true -> c = cfg_fixed.
Proof. destruct c as [[] [] [] [] []]; cbn; intros H; try discriminate; reflexivity. Qed.

(** What the content of the writer's temp file must be at each program point of the success path. *)
Definition progress (s : scen) (p : pc) (ct : content) : Prop :=
  match p with
  | PBody _ k => ct = firstn k (body s) /\ k < length (body s)
  | PTail _ j => ct = body s ++ firstn j (tail s) /\ j < length (tail s)
  | PCloseFd _ false false => ct = new s
  | PReplace _ => ct = new s
  | _ => True
  end.

Lemma progress_after_tail s i j :
  j <= length (tail s) -> progress s (after_tail s i j) (body s ++ firstn j (tail s)).
Proof.
  intros H. unfold after_tail. destruct (j <? length (tail s)) eqn:E.
  - apply Nat.ltb_lt in E. cbn [progress]. auto.
  - apply Nat.ltb_ge in E. cbn [progress]. unfold new. rewrite firstn_all2 by lia. reflexivity.
Qed.
Lemma progress_after_body s i k :
  k <= length (body s) -> progress s (after_body s i k) (firstn k (body s)).
Proof.
  intros H. unfold after_body. destruct (raises_here s k); [exact I|].
  destruct (k <? length (body s)) eqn:E.
  - apply Nat.ltb_lt in E. cbn [progress]. auto.
  - apply Nat.ltb_ge in E. rewrite firstn_all2 by lia.
    pose proof (progress_after_tail s i 0 (Nat.le_0_l _)) as P. cbn [firstn] in P. rewrite app_nil_r in P. exact P.
Qed.

(** * [wstep] as a transition table
    One constructor per branch of [wstep]; those named [..F] are the injected OSErrors.  Facts about what a step does
    to a program counter are proved by cases on this relation instead of re-tracing the conditionals of [wstep]. *)
Inductive wstep_rel (c : cfg) (s : scen) (d : dir) : pc -> bool -> pc -> dir -> option event -> Prop :=
| WMkdirF : wstep_rel c s d PMkdir true (PDone FNot None) d (Some (EMkdir, RFault))
| WMkdir : wstep_rel c s d PMkdir false (POpen 1) d (Some (EMkdir, ROk))
| WOpenF i : wstep_rel c s d (POpen i) true (PDone FNot None) d (Some (EOpen i, RFault))
| WOpenExist i v : c_excl c = true -> d (Tmp i) = Some v ->
    wstep_rel c s d (POpen i) false (POpen (S i)) d (Some (EOpen i, RExist))
| WOpen i : c_excl c = false \/ d (Tmp i) = None ->
    wstep_rel c s d (POpen i) false (after_body s i 0) (upd d (Tmp i) (Some [])) (Some (EOpen i, ROk))
| WBodyF i k : wstep_rel c s d (PBody i k) true (PCloseFd i true false) d (Some (EWrite i (nth k (body s) 0), RFault))
| WBody i k :
    wstep_rel c s d (PBody i k) false (after_body s i (S k)) (append d (Tmp i) (nth k (body s) 0))
      (Some (EWrite i (nth k (body s) 0), ROk))
| WTailF i j : wstep_rel c s d (PTail i j) true (PCloseFd i false true) d (Some (EWrite i (nth j (tail s) 0), RFault))
| WTail i j :
    wstep_rel c s d (PTail i j) false (after_tail s i (S j)) (append d (Tmp i) (nth j (tail s) 0))
      (Some (EWrite i (nth j (tail s) 0), ROk))
| WCloseF i exc failed :
    wstep_rel c s d (PCloseFd i exc failed) true (if c_close_guard c then PUnlink i else PDone FNot (Some i)) d
      (Some (EClose i, RFault))
| WCloseFlushFailed i exc :
    wstep_rel c s d (PCloseFd i exc true) false (if c_close_guard c then PUnlink i else PDone FNot (Some i)) d
      (Some (EClose i, ROk))
| WClose i exc :
    wstep_rel c s d (PCloseFd i exc false) false (act_pc (if exc then c_on_exc c else c_on_ok c) i) d
      (Some (EClose i, ROk))
| WReplaceF i :
    wstep_rel c s d (PReplace i) true (if c_replace_guard c then PUnlink i else PDone FNot (Some i)) d
      (Some (EReplace i (dest s), RFault))
| WReplace i v : d (Tmp i) = Some v ->
    wstep_rel c s d (PReplace i) false (PDone FCommitted None) (upd (upd d (File (dest s)) (Some v)) (Tmp i) None)
      (Some (EReplace i (dest s), ROk))
| WReplaceGone i : d (Tmp i) = None ->
    wstep_rel c s d (PReplace i) false (if c_replace_guard c then PUnlink i else PDone FNot None) d
      (Some (EReplace i (dest s), RNoEnt))
| WUnlinkF i : wstep_rel c s d (PUnlink i) true (PDone FNot (Some i)) d (Some (EUnlink i, RFault))
| WUnlink i v : d (Tmp i) = Some v ->
    wstep_rel c s d (PUnlink i) false (PDone FNot None) (upd d (Tmp i) None) (Some (EUnlink i, ROk))
| WUnlinkGone i : d (Tmp i) = None ->
    wstep_rel c s d (PUnlink i) false (PDone FNot None) d (Some (EUnlink i, RNoEnt))
| WDone r l f : wstep_rel c s d (PDone r l) f (PDone r l) d None.

Lemma wstep_rel_iff c s p d f p' d' e : wstep c s p d f = (p', d', e) <-> wstep_rel c s d p f p' d' e.
Proof.
  split.
  - assert (R : let '(p1, d1, e1) := wstep c s p d f in wstep_rel c s d p f p1 d1 e1); [|intros H; now rewrite H in R].
    destruct p as [|i|i k|i j|i exc failed|i|i|r l]; cbn [wstep]; try (destruct f; constructor).
    + destruct f; [constructor|]. destruct (c_excl c) eqn:Ex, (d (Tmp i)) eqn:Ed; cbn; econstructor; eauto.
    + destruct f; [constructor|]. destruct failed; constructor.
    + destruct f; [constructor|]. destruct (d (Tmp i)) eqn:Ed; now constructor.
    + destruct f; [constructor|]. destruct (d (Tmp i)) eqn:Ed; econstructor; eauto.
  - destruct 1; cbn [wstep]; rewrite ?H, ?H0; try reflexivity.
    destruct H as [-> | ->]; [reflexivity | now rewrite andb_false_r].
Qed.

Lemma run2_invariant c s1 s2 (P : sys -> Prop) :
  (forall st wf, P st -> P (step2 c s1 s2 st wf)) -> forall sched st, P st -> P (run2 c s1 s2 sched st).
Proof. intros H. unfold run2. induction sched as [|wf r IH]; intros st HP; cbn [fold_left]; auto. Qed.

(** * Classification of one step by its effect on the directory *)
Section Safe.
Variable c : cfg.
Hypothesis Hsafe : cfg_safe c = true.

Lemma safe_excl : c_excl c = true.
Proof. unfold cfg_safe in Hsafe. apply andb_true_iff in Hsafe. tauto. Qed.
Lemma safe_exc : c_on_exc c = ADiscard.
Proof.
  unfold cfg_safe in Hsafe. apply andb_true_iff in Hsafe. destruct Hsafe as [_ H].
  destruct (c_on_exc c); [discriminate | reflexivity | discriminate].
Qed.

Inductive step_class (s : scen) (p : pc) (d : dir) (p' : pc) (d' : dir) : Prop :=
| SC_same :
    d' = d -> committed p' = committed p ->
    (forall i, assoc p' = Some i -> assoc p = Some i) ->
    (forall i, assoc p = Some i -> assoc p' = Some i \/ d (Tmp i) = None) ->
    (forall ct, progress s p ct -> progress s p' ct) ->
    step_class s p d p' d'
| SC_create i :
    p = POpen i -> d (Tmp i) = None -> d' = upd d (Tmp i) (Some []) -> p' = after_body s i 0 ->
    step_class s p d p' d'
| SC_append i tok :
    assoc p = Some i -> assoc p' = Some i -> d' = append d (Tmp i) tok ->
    committed p' = false -> committed p = false ->
    (forall ct, progress s p ct -> progress s p' (ct ++ [tok])) ->
    step_class s p d p' d'
| SC_replace i v :
    p = PReplace i -> d (Tmp i) = Some v -> d' = upd (upd d (File (dest s)) (Some v)) (Tmp i) None ->
    p' = PDone FCommitted None ->
    step_class s p d p' d'
| SC_unlink i :
    p = PUnlink i -> d' = upd d (Tmp i) None -> p' = PDone FNot None ->
    step_class s p d p' d'.

Lemma act_pc_assoc a i : assoc (act_pc a i) = Some i.
Proof. destruct a; reflexivity. Qed.
Lemma act_pc_committed a i : committed (act_pc a i) = false.
Proof. destruct a; reflexivity. Qed.

(** The common case of [SC_same]: the step keeps what the writer holds. *)
Lemma SC_keep s p d p' :
  committed p' = committed p -> assoc p' = assoc p -> (forall ct, progress s p ct -> progress s p' ct) ->
  step_class s p d p' d.
Proof. intros Hc Ha Hp. apply SC_same; auto; intros i; rewrite Ha; auto. Qed.

Lemma wstep_class s p d f p' d' e :
  wstep c s p d f = (p', d', e) -> step_class s p d p' d'.
Proof.
  intros H. apply wstep_rel_iff in H.
  destruct H as [| |i|i v Hx Hv|i [Hx|Hfree]|i k|i k|i j|i j|i exc failed|i exc|i exc|i|i v Hv|i Hn|i|i v Hv|i Hn|r l f];
    try (apply SC_keep; cbn; auto; fail).
  - rewrite safe_excl in Hx. discriminate.
  - eapply SC_create; eauto.
  - apply SC_append with (i := i) (tok := nth k (body s) 0); auto using assoc_after_body, committed_after_body.
    intros ct [-> Hk]. rewrite firstn_S_nth by assumption. apply progress_after_body. lia.
  - apply SC_append with (i := i) (tok := nth j (tail s) 0); auto using assoc_after_tail, committed_after_tail.
    intros ct [-> Hj]. rewrite <- app_assoc, firstn_S_nth by assumption. apply progress_after_tail. lia.
  - destruct (c_close_guard c); apply SC_keep; cbn; auto.
  - destruct (c_close_guard c); apply SC_keep; cbn; auto.
  - apply SC_keep; [apply act_pc_committed | apply act_pc_assoc |].
    intros ct Hp. destruct exc; [rewrite safe_exc; exact I|].
    cbn [progress] in Hp. destruct (c_on_ok c); cbn [act_pc progress]; auto.
  - destruct (c_replace_guard c); apply SC_keep; cbn; auto.
  - eapply SC_replace; eauto.
  - destruct (c_replace_guard c); apply SC_same; cbn; auto; try discriminate; intros j [= <-]; auto.
  - eapply SC_unlink; eauto.
  - apply SC_same; cbn; auto; try discriminate. intros j [= <-]. auto.
Qed.

(** * What one step does to the program counter *)

(** ** Writers that cannot commit any more *)
Definition doomed (p : pc) : bool :=
  match p with
  | PCloseFd _ true _ | PCloseFd _ _ true | PUnlink _ | PDone FNot _ => true
  | _ => false
  end.

Lemma doomed_not_committed p : doomed p = true -> committed p = false.
Proof. destruct p as [| | | | ? [] []| | |[] ?]; cbn; congruence. Qed.

Lemma doomed_step s p d f p' d' e :
  doomed p = true -> wstep c s p d f = (p', d', e) -> doomed p' = true.
Proof.
  intros Hd H. apply wstep_rel_iff in H. destruct H; cbn in Hd |- *; try discriminate; auto.
  - destruct (c_close_guard c); reflexivity.
  - destruct (c_close_guard c); reflexivity.
  - destruct exc; [|discriminate]. now rewrite safe_exc.
Qed.

Lemma fault_dooms s p d f p' d' o :
  wstep c s p d f = (p', d', Some (o, RFault)) -> doomed p' = true.
Proof.
  intros H. apply wstep_rel_iff in H. inversion H; subst; try reflexivity.
  - destruct (c_close_guard c); reflexivity.
  - destruct (c_replace_guard c); reflexivity.
Qed.

(** ** A body that raises after [r] raw writes never reaches the commit *)
Definition pre_raise (r : nat) (p : pc) : Prop :=
  match p with
  | PMkdir | POpen _ => True
  | PBody _ k => k < r
  | _ => doomed p = true
  end.

Lemma doomed_pre_raise r p : doomed p = true -> pre_raise r p.
Proof. destruct p; cbn; auto; discriminate. Qed.

Lemma pre_raise_not_committed r p : pre_raise r p -> committed p = false.
Proof. destruct p as [| | | | | | |[] ?]; cbn; auto; intros; try discriminate. Qed.

Lemma pre_raise_after_body s i k r :
  raise_at s = Some r -> r <= length (body s) -> k <= r -> pre_raise r (after_body s i k).
Proof.
  intros Hr Hle Hk. unfold after_body, raises_here. rewrite Hr.
  destruct (Nat.eqb r k) eqn:E; [reflexivity|]. apply Nat.eqb_neq in E.
  assert (k < length (body s)) as L by lia. apply Nat.ltb_lt in L. rewrite L. cbn. lia.
Qed.

Lemma pre_raise_step s r p d f p' d' e :
  raise_at s = Some r -> r <= length (body s) ->
  pre_raise r p -> wstep c s p d f = (p', d', e) -> pre_raise r p'.
Proof.
  intros Hr Hle Hp H. destruct (doomed p) eqn:D; [eapply doomed_pre_raise, doomed_step; eauto|].
  apply wstep_rel_iff in H. destruct H; cbn in Hp, D |- *; try congruence; auto.
  - apply pre_raise_after_body; auto. lia.
  - apply pre_raise_after_body; auto.
Qed.

(** * The two-writer invariant *)
Variable d0 : dir.

Definition Own (s : scen) (p : pc) (d : dir) : Prop :=
  forall i, assoc p = Some i -> d0 (Tmp i) = None /\ exists ct, d (Tmp i) = Some ct /\ progress s p ct.
Definition DestOk (s : scen) (p : pc) (d : dir) : Prop :=
  d (File (dest s)) = if committed p then Some (new s) else d0 (File (dest s)).
Definition Disj (pa pb : pc) : Prop := forall i, assoc pa = Some i -> assoc pb = Some i -> False.
Definition Frame (sa sb : scen) (pa pb : pc) (d : dir) : Prop :=
  forall n, n <> File (dest sa) -> n <> File (dest sb) ->
            (forall i, n = Tmp i -> assoc pa <> Some i /\ assoc pb <> Some i) -> d n = d0 n.

Lemma Disj_sym pa pb : Disj pa pb -> Disj pb pa.
Proof. unfold Disj. intros H i A B. eapply H; eauto. Qed.
Lemma Frame_sym sa sb pa pb d : Frame sa sb pa pb d -> Frame sb sa pb pa d.
Proof. unfold Frame. intros H n A B C. apply H; auto. intros i E. destruct (C i E). auto. Qed.
Lemma Frame_tmp sa sb pa pb d i :
  Frame sa sb pa pb d -> assoc pa <> Some i -> assoc pb <> Some i -> d (Tmp i) = d0 (Tmp i).
Proof. intros Fr A B. apply Fr; try discriminate. intros j [= <-]. auto. Qed.

(** Writing [w] to the writer's own tmp_i (after possibly replacing its destination: [d1]) leaves the other
    writer's files alone and keeps the frame, provided the writer either still holds tmp_i afterwards or has put it
    back to what it was initially. *)
Lemma frame_write sa sb pa pa' pb d d1 i w :
  (forall n, n <> File (dest sa) -> d1 n = d n) ->
  (forall j, assoc pa = Some j -> j = i) -> (forall j, assoc pa' = Some j -> j = i) ->
  (assoc pa' = Some i \/ w = d0 (Tmp i)) -> assoc pb <> Some i ->
  Own sb pb d -> Frame sa sb pa pb d ->
  Own sb pb (upd d1 (Tmp i) w) /\ Disj pa' pb /\ Frame sa sb pa' pb (upd d1 (Tmp i) w).
Proof.
  intros H1 Ha Ha' Hw Hb Ob Fr. split; [|split].
  - intros j Hj. destruct (Ob j Hj) as [A (ct & B & C)]. split; [exact A|]. exists ct. split; [|exact C].
    rewrite upd_other by congruence. rewrite H1 by discriminate. exact B.
  - intros j A B. apply Ha' in A. congruence.
  - intros n A B C. destruct (name_eq_dec n (Tmp i)) as [->|Hn].
    + rewrite upd_same. destruct Hw as [Hw|Hw]; [|exact Hw]. now destruct (C i eq_refl).
    + rewrite upd_other, H1 by assumption. apply Fr; auto.
      intros j ->. split; [|exact (proj2 (C j eq_refl))]. intros X. apply Ha in X. congruence.
Qed.

(** One step of a writer, the other standing still.  Everything except the destinations first. *)
Lemma step_frame sa sb pa pb d f pa' d' e :
  Own sa pa d -> Own sb pb d -> Disj pa pb -> Frame sa sb pa pb d ->
  wstep c sa pa d f = (pa', d', e) ->
  Own sa pa' d' /\ Own sb pb d' /\ Disj pa' pb /\ Frame sa sb pa' pb d'.
Proof.
  intros Oa Ob Dj Fr H. apply wstep_class in H.
  destruct H as [Hd Hc Has Hkeep Hpr | i Hp Hnone Hd Hp' | i tok Has Has' Hd Hc' Hc Hpr
                | i v Hp Hv Hd Hp' | i Hp Hd Hp'].
  - (* same directory *)
    subst d'. repeat split.
    + destruct (Oa i (Has i H)) as [A _]. exact A.
    + destruct (Oa i (Has i H)) as [_ [ct [B C]]]. exists ct. auto.
    + destruct (Ob i H) as [A _]. exact A.
    + destruct (Ob i H) as [_ B]. exact B.
    + intros i A B. exact (Dj i (Has i A) B).
    + intros n A B C. apply Fr; auto. intros i E. destruct (C i E) as [C1 C2]. split; [|exact C2].
      intros X. destruct (Hkeep i X) as [K|K]; [contradiction|].
      destruct (Oa i X) as [_ [ct [B' _]]]. congruence.
  - (* create tmp_i: it is free, so the other writer does not hold it and it was not there initially *)
    subst pa pa' d'.
    assert (Hb : assoc pb <> Some i).
    { intros X. destruct (Ob i X) as [_ [ct [B _]]]. congruence. }
    assert (H0 : d0 (Tmp i) = None).
    { rewrite <- Hnone. symmetry. apply (Frame_tmp _ _ _ _ _ _ Fr); [discriminate | exact Hb]. }
    split.
    + intros j Hj. rewrite assoc_after_body in Hj. injection Hj as <-. split; [exact H0|].
      exists []. split; [apply upd_same | apply (progress_after_body sa i 0); lia].
    + apply (frame_write sa sb (POpen i) _ pb d d i); auto using assoc_after_body; try discriminate.
      intros j. rewrite assoc_after_body. congruence.
  - (* append to own tmp_i *)
    destruct (Oa i Has) as [A0 [ct [Hct Hprog]]].
    rewrite (append_some _ _ _ _ Hct) in Hd. subst d'. split.
    + intros j Hj. rewrite Has' in Hj. injection Hj as <-. split; [exact A0|].
      exists (ct ++ [tok]). split; [apply upd_same | auto].
    + apply (frame_write sa sb pa _ pb d d i); auto; try congruence. intros X. exact (Dj i Has X).
  - (* replace tmp_i -> dest *)
    subst pa pa' d'. destruct (Oa i eq_refl) as [A0 _]. split; [intros j Hj; discriminate|].
    apply (frame_write sa sb (PReplace i) _ pb d _ i); auto; try (cbn; congruence).
    + intros n Hn. now apply upd_other.
    + intros X. exact (Dj i eq_refl X).
  - (* unlink tmp_i *)
    subst pa pa' d'. destruct (Oa i eq_refl) as [A0 _]. split; [intros j Hj; discriminate|].
    apply (frame_write sa sb (PUnlink i) _ pb d d i); auto; try (cbn; congruence).
    intros X. exact (Dj i eq_refl X).
Qed.

(** What a step does to the files that are no temp files: nothing, except that the successful rename puts the
    writer's complete content at its destination; that step, and no other, commits. *)
Lemma step_files sa pa d f pa' d' e :
  Own sa pa d -> wstep c sa pa d f = (pa', d', e) ->
  (committed pa' = committed pa /\ forall k, d' (File k) = d (File k)) \/
  (committed pa = false /\ committed pa' = true /\ d' (File (dest sa)) = Some (new sa) /\
   forall k, k <> dest sa -> d' (File k) = d (File k)).
Proof.
  intros Oa H. apply wstep_class in H.
  destruct H as [Hd Hc _ _ _ | i Hp _ Hd Hp' | i tok _ _ Hd Hc' Hc _ | i v Hp Hv Hd Hp' | i Hp Hd Hp']; subst.
  - left. auto.
  - left. rewrite committed_after_body. split; [reflexivity|]. intros k. now apply upd_other.
  - left. split; [congruence|]. intros k. now apply append_other.
  - right. destruct (Oa i eq_refl) as (_ & ct & Hct & Hprog). cbn [progress] in Hprog.
    repeat split.
    + rewrite upd_other by discriminate. rewrite upd_same. congruence.
    + intros k Hk. rewrite !upd_other; congruence.
  - left. split; [reflexivity|]. intros k. now apply upd_other.
Qed.

Lemma step_dest sa sb pa pb d f pa' d' e :
  dest sa <> dest sb -> Own sa pa d -> DestOk sa pa d -> DestOk sb pb d ->
  wstep c sa pa d f = (pa', d', e) -> DestOk sa pa' d' /\ DestOk sb pb d'.
Proof.
  unfold DestOk. intros Hne Oa Da Db H.
  destruct (step_files _ _ _ _ _ _ _ Oa H) as [[Hc Hk]|(Hc & Hc' & Hn & Hk)].
  - now rewrite Hc, !Hk.
  - rewrite Hc', Hn, Hk by congruence. auto.
Qed.
End Safe.

(** * Invariant of the interleaved system, for every schedule and every fault pattern *)
Section System.
Variable c : cfg.
Hypothesis Hsafe : cfg_safe c = true.
Variable d0 : dir.
Variables s1 s2 : scen.
Hypothesis Hdest : dest s1 <> dest s2.

Record Inv (st : sys) : Prop := {
  inv_own1 : Own d0 s1 (p1 st) (sd st);
  inv_own2 : Own d0 s2 (p2 st) (sd st);
  inv_disj : Disj (p1 st) (p2 st);
  inv_dest1 : DestOk d0 s1 (p1 st) (sd st);
  inv_dest2 : DestOk d0 s2 (p2 st) (sd st);
  inv_frame : Frame d0 s1 s2 (p1 st) (p2 st) (sd st)
}.

Lemma inv_step st wf : Inv st -> Inv (step2 c s1 s2 st wf).
Proof.
  intros [O1 O2 Dj D1 D2 Fr]. destruct wf as [who f]. unfold step2. destruct who.
  - destruct (wstep c s2 (p2 st) (sd st) f) as [[p' d'] e] eqn:E.
    destruct (step_frame c Hsafe d0 s2 s1 _ _ _ _ _ _ _ O2 O1 (Disj_sym _ _ Dj) (Frame_sym _ _ _ _ _ _ Fr) E)
      as (A & B & C & G).
    destruct (step_dest c Hsafe d0 s2 s1 _ (p1 st) _ _ _ _ _ (not_eq_sym Hdest) O2 D2 D1 E) as [D F].
    constructor; cbn; auto using Disj_sym, Frame_sym.
  - destruct (wstep c s1 (p1 st) (sd st) f) as [[p' d'] e] eqn:E.
    destruct (step_frame c Hsafe d0 s1 s2 _ _ _ _ _ _ _ O1 O2 Dj Fr E) as (A & B & C & G).
    destruct (step_dest c Hsafe d0 s1 s2 _ (p2 st) _ _ _ _ _ Hdest O1 D1 D2 E) as [D F].
    constructor; cbn; auto.
Qed.

Lemma inv_run sched : forall st, Inv st -> Inv (run2 c s1 s2 sched st).
Proof. exact (run2_invariant c s1 s2 Inv inv_step sched). Qed.

Lemma inv_init st :
  sd st = d0 -> assoc (p1 st) = None -> assoc (p2 st) = None ->
  committed (p1 st) = false -> committed (p2 st) = false -> Inv st.
Proof.
  intros Hd A1 A2 C1 C2. constructor.
  - intros i H. congruence.
  - intros i H. congruence.
  - intros i H. congruence.
  - unfold DestOk. rewrite C1, Hd. reflexivity.
  - unfold DestOk. rewrite C2, Hd. reflexivity.
  - intros n _ _ _. rewrite Hd. reflexivity.
Qed.

Lemma inv_start : Inv (start d0).
Proof. apply inv_init; reflexivity. Qed.
Lemma inv_start1 : Inv (start1 d0).
Proof. apply inv_init; reflexivity. Qed.

(** A property of writer 1's program counter and of the trace that the steps of writer 1 preserve, and that does
    not look at the events of writer 2, holds along every schedule. *)
Lemma run2_writer1 (P : pc -> list (bool * event) -> Prop) :
  (forall p t e, P p t -> P p (t ++ [(true, e)])) ->
  (forall p d f p' d' e t, P p t -> wstep c s1 p d f = (p', d', e) ->
     P p' (match e with Some e => t ++ [(false, e)] | None => t end)) ->
  forall sched st, P (p1 st) (tr st) -> P (p1 (run2 c s1 s2 sched st)) (tr (run2 c s1 s2 sched st)).
Proof.
  intros Hother Hown. apply (run2_invariant c s1 s2 (fun st => P (p1 st) (tr st))).
  intros st [who f] H. unfold step2. destruct who.
  - destruct (wstep c s2 (p2 st) (sd st) f) as [[p' d'] [e|]]; cbn [p1 tr]; auto.
  - destruct (wstep c s1 (p1 st) (sd st) f) as [[p' d'] e] eqn:E. cbn [p1 tr]. eauto.
Qed.

(** ** What holds of writer 1 at the end of every run that it starts afresh, with no event recorded yet *)
Definition faulted (who : bool) (t : list (bool * event)) : Prop := exists o, In (who, (o, RFault)) t.

Lemma fault_never_commits sched st : tr st = [] ->
  faulted false (tr (run2 c s1 s2 sched st)) -> committed (p1 (run2 c s1 s2 sched st)) = false.
Proof.
  intros Ht Hf. apply doomed_not_committed. revert Hf.
  apply (run2_writer1 (fun p t => faulted false t -> doomed p = true)).
  - intros p t e H [o Ho]. apply H. exists o. apply in_app_or in Ho as [Ho|[Ho|[]]]; [exact Ho|discriminate].
  - intros p d f p' d' e t H E [o Ho]. destruct e as [e|]; [apply in_app_or in Ho as [Ho|[Ho|[]]]|].
    + exact (doomed_step c Hsafe _ _ _ _ _ _ _ (H (ex_intro _ o Ho)) E).
    + injection Ho as ->. eapply fault_dooms, E.
    + exact (doomed_step c Hsafe _ _ _ _ _ _ _ (H (ex_intro _ o Ho)) E).
  - rewrite Ht. intros [o []].
Qed.

Lemma raising_body_never_commits r sched st : raise_at s1 = Some r -> r <= length (body s1) -> p1 st = PMkdir ->
  committed (p1 (run2 c s1 s2 sched st)) = false.
Proof.
  intros Hr Hle Hp. apply (pre_raise_not_committed r).
  apply (run2_writer1 (fun p _ => pre_raise r p)); [auto| |now rewrite Hp].
  intros p d f p' d' e _. now apply pre_raise_step.
Qed.
End System.

(** ** A temp file is left behind only by a failing unlink (the good configuration) *)
Lemma wstep_left s p d f r i d' e :
  wstep cfg_fixed s p d f = (PDone r (Some i), d', e) ->
  (p = PDone r (Some i) /\ e = None) \/ e = Some (EUnlink i, RFault).
Proof.
  intros H. apply wstep_rel_iff in H. remember (PDone r (Some i)) as p' eqn:E.
  destruct H; cbn in E; try discriminate; auto;
    (* the successors [after_body] / [after_tail] are not finished *)
    try (apply (f_equal finished) in E; now rewrite ?finished_after_body, ?finished_after_tail in E).
  - destruct exc; discriminate.
  - injection E as _ <-. now right.
Qed.

Lemma finished_leaves_no_temp s1 s2 sched st : assoc (p1 st) = None ->
  let st' := run2 cfg_fixed s1 s2 sched st in
  finished (p1 st') = true -> (forall i, ~ In (false, (EUnlink i, RFault)) (tr st')) -> assoc (p1 st') = None.
Proof.
  intros Ha st' Hfin Hnf.
  assert (L : forall r i, p1 st' = PDone r (Some i) -> In (false, (EUnlink i, RFault)) (tr st')).
  { apply (run2_writer1 cfg_fixed s1 s2 (fun p t => forall r i, p = PDone r (Some i) -> In (false, (EUnlink i, RFault)) t)).
    - intros p t e H r i Hp. apply in_or_app. left. exact (H r i Hp).
    - intros p d f p' d' e t H E r i ->. destruct (wstep_left _ _ _ _ _ _ _ _ E) as [[A ->] | ->].
      + exact (H r i A).
      + apply in_or_app. right. now left.
    - intros r i Hp. rewrite Hp in Ha. discriminate. }
  destruct (p1 st') as [| | | | | | |r [i|]]; try discriminate; [|reflexivity].
  exfalso. exact (Hnf i (L r i eq_refl)).
Qed.

