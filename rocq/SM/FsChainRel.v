(** C19 — the names listed by a chain walk are relative to the member's prefix (the RelDropSegs form). *)
From Coq Require Import List NArith Bool Lia.
From SV Require Import SM.FsChain SM.FsChainProofs.
Import ListNotations.
Open Scope N_scope.

Definition gch (c : N) : N := foldc (slashc c).
Lemma nkey_map s : nkey s = map gch s.
Proof. unfold nkey, fold, slash. rewrite map_map. reflexivity. Qed.

Definition cnt (s : str) : nat := length (filter (fun c => c =? SL) s).

Lemma len_split s : length (split_on SL s) = S (cnt s).
Proof.
  induction s as [|x r IH]; [reflexivity|]. unfold cnt in *. cbn [split_on filter].
  destruct (x =? SL); cbn [length]; [rewrite IH; reflexivity|].
  destruct (split_on SL r) as [|h t] eqn:E; [exfalso; exact (split_on_nonempty _ _ E)|].
  cbn [length] in *. exact IH.
Qed.

Lemma cnt_map f s : (forall c, In c s -> (f c =? SL) = (c =? SL)) -> cnt (map f s) = cnt s.
Proof.
  unfold cnt. induction s as [|x r IH]; intros H; [reflexivity|]. cbn [map filter].
  rewrite (H x (or_introl eq_refl)). destruct (x =? SL); cbn [length]; rewrite IH; try reflexivity;
    intros c Hc; apply H; right; exact Hc.
Qed.

Lemma foldc_sl c : (foldc c =? SL) = (c =? SL).
Proof.
  unfold foldc, SL. destruct ((65 <=? c) && (c <=? 90)) eqn:E; [|reflexivity].
  apply andb_true_iff in E as [H1 H2]. apply N.leb_le in H1, H2.
  destruct (N.eqb_spec (c + 32) 47), (N.eqb_spec c 47); try lia; reflexivity.
Qed.

Lemma gch_sl c : (c =? BS) = false -> (gch c =? SL) = (c =? SL).
Proof. intros H. unfold gch, slashc. rewrite H. apply foldc_sl. Qed.

Lemma cnt_fold s : cnt (fold s) = cnt s.
Proof. apply cnt_map. intros c _. apply foldc_sl. Qed.

Lemma skipn_length_app {A} (l1 l2 : list A) : skipn (length l1) (l1 ++ l2) = l2.
Proof. induction l1 as [|x l1 IH]; [reflexivity|exact IH]. Qed.

Lemma clean_nonempty_segs s : clean s = true -> nonempty_segs s = split_on SL s.
Proof.
  unfold clean, nonempty_segs. generalize (split_on SL s). intros l H.
  induction l as [|c l IH]; [reflexivity|]. cbn [forallb filter] in *.
  apply andb_true_iff in H as [Hc Hl]. unfold good_seg in Hc.
  apply andb_true_iff in Hc as [Hc _]. rewrite Hc, (IH Hl). reflexivity.
Qed.

(** The listed (prefix-relative) name of a stored file under the prefix is a literal suffix of the stored name: a
    clean stored name has no backslash, so the '/' of the key after the prefix is a '/' of the name and the two parts
    before it have the same number of segments. *)
Lemma drop_segs_suffix orig p :
  clean_name orig = true -> clean (slash p) = true ->
  is_prefix (nkey p ++ [SL]) (nkey orig) = true ->
  exists A, orig = A ++ SL :: drop_segs orig p /\ nkey A = nkey p.
Proof.
  intros Ho Hp Hpre. apply is_prefix_spec in Hpre as [r Hr]. rewrite <- app_assoc in Hr. cbn [app] in Hr.
  pose proof (clean_name_slash _ Ho) as Hso.
  unfold clean_name in Ho. apply andb_true_iff in Ho as [_ Hnb].
  rewrite (nkey_map orig), (nkey_map p) in Hr.
  apply map_eq_app in Hr as [A [B [-> [HA HB]]]].
  apply map_eq_cons in HB as [c [rest [-> [Hc Hrest]]]].
  rewrite forallb_app in Hnb. apply andb_true_iff in Hnb as [HnA HnB]. cbn [forallb] in HnB.
  apply andb_true_iff in HnB as [Hcb _]. apply negb_true_iff in Hcb.
  assert (c = SL) as ->.
  { pose proof (gch_sl c Hcb) as H. rewrite Hc in H. cbn in H. symmetry in H. apply N.eqb_eq in H. exact H. }
  exists A. split; [|rewrite !nkey_map; exact HA]. f_equal. f_equal.
  unfold drop_segs. rewrite Hso, (clean_nonempty_segs _ Hp), split_app_sep.
  assert (Hlen : length (split_on SL (slash p)) = length (split_on SL A)).
  { rewrite !len_split. f_equal.
    rewrite <- (cnt_fold (slash p)). change (fold (slash p)) with (nkey p). rewrite nkey_map, <- HA.
    apply cnt_map. intros x Hx. apply gch_sl. rewrite forallb_forall in HnA. apply negb_true_iff. apply HnA. exact Hx. }
  rewrite Hlen, skipn_length_app, join_split. reflexivity.
Qed.

(** Hence fold(prefix) / fold(rest) = fold(name): the listed name is relative to the prefix and, joined with the prefix
    again, denotes the same file. *)
Theorem drop_segs_relative orig p :
  clean_name orig = true -> clean (slash p) = true ->
  is_prefix (nkey p ++ [SL]) (nkey orig) = true ->
  nkey orig = nkey p ++ SL :: nkey (drop_segs orig p).
Proof.
  intros Ho Hp Hpre. destruct (drop_segs_suffix orig p Ho Hp Hpre) as [A [E HA]].
  rewrite E at 1. rewrite nkey_sep, HA. reflexivity.
Qed.

