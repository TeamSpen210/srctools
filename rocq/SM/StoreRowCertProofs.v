(** C09 — soundness of the census-row certificate of StoreRowCert.v: an accepted exported heap satisfies every
    premise of [census_src_copy_independent] (closed heaps, extension, kinds of the original's fields, and the relation
    of every field of the copy to its source field as the census row says), hence the conclusion of the census theorem
    holds for that real object graph. *)
From Coq Require Import List ZArith Bool String FMapPositive.
From SV Require Import SM.Store SM.StoreCert SM.StoreCertProofs SM.StoreCopy
  SM.StoreCopySrc SM.StoreRowCert.
Import ListNotations.

Lemma val_eqb_eq a b : val_eqb a b = true -> a = b.
Proof.
  destruct a, b; cbn; intros H; try discriminate.
  - apply Z.eqb_eq in H. congruence.
  - apply Pos.eqb_eq in H. congruence.
Qed.

Lemma vals_eqb_eq a : forall b, vals_eqb a b = true -> a = b.
Proof.
  induction a as [|x a IH]; intros [|y b]; cbn; intros H; try discriminate; [reflexivity|].
  apply andb_true_iff in H. destruct H as [H1 H2]. f_equal; [apply val_eqb_eq; assumption | apply IH; assumption].
Qed.

Lemma hold_old m' so x : smem x so = true -> hold m' so x = PositiveMap.find x m'.
Proof. unfold hold, hfind. intros ->. reflexivity. Qed.

Lemma hold_new m' so x : smem x so = false -> hold m' so x = None.
Proof. unfold hold, hfind. intros ->. reflexivity. Qed.

(** A node with the fields of another is, in the heap, a node with those very fields. *)
Lemma find_same_fields m' c nd fs :
  PositiveMap.find c m' = Some nd -> vals_eqb (nfields nd) fs = true -> hof m' c = Some (Node (nmut nd) fs).
Proof. intros E H. apply vals_eqb_eq in H. subst fs. unfold hof. rewrite E. destruct nd; reflexivity. Qed.

Section Cert.
  Variables (m' : fheap) (so : pset).
  Let h := hold m' so.
  Let h' := hof m'.

  Lemma hold_extends : extends h h'.
  Proof. intros l nd H. unfold h, hold, hfind in H. destruct (smem l so); [exact H|discriminate]. Qed.

  Lemma flat_reach r nd l : h r = Some nd -> forallb is_atom (nfields nd) = true -> reach h r l -> l = r.
  Proof.
    intros Hr Hat Hl. induction Hl as [|l0 nd0 l1 Hl0 IH Hn Hin]; [reflexivity|].
    subst l0. rewrite Hr in Hn. inversion Hn; subst nd0.
    rewrite forallb_forall in Hat. specialize (Hat _ Hin). discriminate.
  Qed.

  Lemma flat_imm_no_mut v : flat_imm m' so v = true -> no_mut h v.
  Proof.
    destruct v as [z|r]; cbn [flat_imm]; intros H l Hl; [destruct Hl|]. cbn in Hl.
    destruct (hfind m' so r) as [nd|] eqn:E; [|discriminate].
    apply andb_true_iff in H. destruct H as [Hm Hat].
    assert (l = r) by (eapply flat_reach; eauto). subst l.
    intros (nd1 & E1 & Hm1). unfold h, hold in E1. rewrite E in E1. inversion E1; subst nd1.
    rewrite Hm1 in Hm. discriminate.
  Qed.

  Lemma kind_ok_sound k v : kind_ok_b m' so k v = true -> kind_sem k h v.
  Proof.
    destruct k as [| | | |[|]]; cbn [kind_ok_b kind_sem]; intros H; try exact I; try (apply flat_imm_no_mut; exact H).
    destruct v as [z|c]; [exact I|]. intros nd el Hc Hin. unfold h, hold in Hc. rewrite Hc in H.
    rewrite forallb_forall in H. apply flat_imm_no_mut. exact (H _ Hin).
  Qed.

  Lemma kinds_ok_sound c : forall vs, kinds_ok_b m' so c vs = true -> kinds_rel h c vs.
  Proof.
    induction c as [|[[f k] w] c IH]; intros [|v vs]; cbn [kinds_ok_b]; intros H; try discriminate; [constructor|].
    apply andb_true_iff in H. destruct H as [H1 H2].
    constructor; [apply kind_ok_sound; exact H1 | apply IH; exact H2].
  Qed.

  Variable SB : list loc.
  Hypothesis Hnew : new_set_ok m' so SB (mk_set SB) = true.

  Lemma in_sb_new_mut v' : val_in (mk_set SB) v' = true -> new_mut h h' v'.
  Proof.
    pose proof Hnew as Hn. unfold new_set_ok in Hn. apply andb_true_iff in Hn. destruct Hn as [Hcl Hall].
    destruct v' as [z|r]; intros Hin l Hl Hm; [destruct Hl|]. cbn in Hin, Hl.
    pose proof (closed_set_reach m' SB r Hcl Hin l Hl) as HlS.
    rewrite forallb_forall in Hall. specialize (Hall l (smem_mk_set _ _ HlS)).
    destruct Hm as (nd & Hnd & Hmut). unfold mutb in Hall. unfold h', hof in Hnd. rewrite Hnd, Hmut in Hall. cbn in Hall.
    apply hold_new, negb_true_iff, Hall.
  Qed.

  Lemma how_ok_sound w v v' : how_ok_b m' so (mk_set SB) w v v' = true -> how_sem w h h' v v'.
  Proof.
    destruct w; cbn [how_ok_b how_sem]; intros H.
    - apply val_eqb_eq; exact H.
    - apply in_sb_new_mut; exact H.
    - destruct v as [z|c]; [apply val_eqb_eq; exact H|].
      destruct v' as [z'|c']; [discriminate|].
      destruct (hfind m' so c) as [nd|] eqn:Ec; [|discriminate].
      destruct (PositiveMap.find c' m') as [nd'|] eqn:Ec'; [|discriminate].
      apply andb_true_iff in H. destruct H as [Hn Heq].
      exists c', nd, (nmut nd'). repeat split.
      + apply hold_new, negb_true_iff, Hn.
      + exact Ec.
      + exact (find_same_fields m' c' nd' _ Ec' Heq).
    - apply in_sb_new_mut; exact H.
    - apply val_eqb_eq; exact H.
    - destruct v' as [z|r]; [exists z; reflexivity|discriminate].
  Qed.

  Lemma how_src_ok_sound orig w j v' :
    how_src_ok_b m' so (mk_set SB) orig w j v' = true -> how_src_sem h h' orig w j v'.
  Proof.
    unfold how_src_ok_b, how_src_sem. destruct (needs_source w).
    - destruct j as [i|]; [|discriminate]. destruct (nth_error orig i) as [v|] eqn:E; [|discriminate].
      intros H. exists i, v. repeat split; auto. apply how_ok_sound; exact H.
    - apply how_ok_sound.
  Qed.

  Lemma rows_ok_sound orig rows :
    forall vs', rows_ok_b m' so (mk_set SB) orig rows vs' = true -> fields_rel_src h h' orig rows vs'.
  Proof.
    induction rows as [|[[k w] j] rows IH]; intros [|v' vs']; cbn [rows_ok_b]; intros H; try discriminate; [constructor|].
    apply andb_true_iff in H. destruct H as [H1 H2].
    constructor; [apply how_src_ok_sound; exact H1 | apply IH; exact H2].
  Qed.
End Cert.

Lemma old_closed_sound l' so : old_closed_b (mk_heap l') so l' = true -> closed (hold (mk_heap l') so).
Proof.
  intros H x nd x' Hx Hin. unfold hold, hfind in Hx. destruct (smem x so) eqn:Ex; [|discriminate].
  unfold old_closed_b in H. rewrite forallb_forall in H. specialize (H (x, nd) (find_mk_heap _ _ _ Hx)).
  cbn [fst snd] in H. rewrite Ex in H. cbn [negb orb] in H. rewrite forallb_forall in H. specialize (H _ Hin).
  cbn in H. apply andb_true_iff in H. destruct H as [H1 H2].
  unfold alloc, hold, hfind. rewrite H1. rewrite PositiveMap.mem_find in H2.
  destruct (PositiveMap.find x' (mk_heap l')); discriminate.
Qed.

(** What the certificate certifies: the premises of the census theorem for the exported heap. *)
Theorem row_cert_premises : forall l' old la lc SB c s,
  row_cert_ok l' old la lc SB c s = true ->
  let h' := hof (mk_heap l') in let h := hold (mk_heap l') (mk_set old) in
  closed h /\ closed h' /\ extends h h' /\
  exists nd nd', h la = Some nd /\ h lc = None /\ h' lc = Some nd' /\
                 kinds_rel h c (nfields nd) /\ fields_rel_src h h' (nfields nd) (resolve c s) (nfields nd').
Proof.
  intros l' old la lc SB c s H h' h. unfold row_cert_ok in H. cbv zeta in H.
  destruct (PositiveMap.find la (mk_heap l')) as [nd|] eqn:Ela; [|rewrite andb_false_r in H; discriminate].
  destruct (PositiveMap.find lc (mk_heap l')) as [nd'|] eqn:Elc; [|rewrite andb_false_r in H; discriminate].
  repeat rewrite andb_true_iff in H. destruct H as [[[[[Hcl Hocl] Hla] Hlc] Hnew] [Hk Hr]].
  split; [apply old_closed_sound; exact Hocl|]. split; [apply heap_closed_sound; exact Hcl|].
  split; [apply hold_extends|]. exists nd, nd'. repeat split.
  - rewrite <- Ela. apply hold_old, Hla.
  - apply hold_new, negb_true_iff, Hlc.
  - exact Elc.
  - apply kinds_ok_sound; exact Hk.
  - apply (rows_ok_sound (mk_heap l') (mk_set old) SB Hnew); exact Hr.
Qed.

(** Not vacuous, and sensitive: a two-field object (a number shared, a vector copied) is accepted; the same copy
    sharing the vector is rejected; so is a copy whose number differs. *)
Definition rc_census : census := [("a"%string, KImm, HShare); ("v"%string, KMut, HDeep)].
Definition rc_sources : srcmap := [("a"%string, ["a"%string]); ("v"%string, ["v"%string])].

Example row_cert_accepts :
  row_cert_ok [(1, Node true [VAtom 5; VRef 3]); (3, Node true [VAtom 255]);
               (2, Node true [VAtom 5; VRef 4]); (4, Node true [VAtom 255])]%positive
              [1; 3]%positive 1%positive 2%positive [2; 4]%positive rc_census rc_sources = true.
Proof. vm_compute. reflexivity. Qed.

Example row_cert_rejects_shared :
  row_cert_ok [(1, Node true [VAtom 5; VRef 3]); (3, Node true [VAtom 255]); (2, Node true [VAtom 5; VRef 3])]%positive
              [1; 3]%positive 1%positive 2%positive [2; 3]%positive rc_census rc_sources = false.
Proof. vm_compute. reflexivity. Qed.

Example row_cert_rejects_changed_value :
  row_cert_ok [(1, Node true [VAtom 5; VRef 3]); (3, Node true [VAtom 255]);
               (2, Node true [VAtom 6; VRef 4]); (4, Node true [VAtom 255])]%positive
              [1; 3]%positive 1%positive 2%positive [2; 4]%positive rc_census rc_sources = false.
Proof. vm_compute. reflexivity. Qed.
