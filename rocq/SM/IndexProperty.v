(** Property C07 as one statement over the code as written.

    [programs] collects every object the translators read off vmf.py; [programs_ok] is the conjunction of all named
    obligations.  [fn_w P f] is the function [f] of the source as written (calls to other index-maintaining
    functions resolved to the model operation, which the callee's own theorem shows it to be), [fn_model f] the
    operation of the hand model SM/IndexModel.v.  [step_w] interprets the operations of a history with the programs.

    The census of translate/c07_index_sites.py — every function of the package that writes an index, an entity list,
    a VMF.spawn or an Entity._keys dict — enters as a list of names with the hypothesis [census_covered]: every name
    is one of the functions below.  Proofs at the end of this file. *)
From stdpp Require Import gmap sets list.
From Coq Require Import NArith String.
From SV Require Import SM.IndexModel SM.IndexProofs SM.IndexSearchProofs SM.IndexShapes SM.IndexShapeProofs
  SM.IndexMaint SM.IndexMaintProofs SM.IndexRemove SM.IndexDel SM.IndexDelProofs SM.IndexListOps SM.IndexListOpsProofs
  SM.IndexClear SM.IndexClearProofs SM.IndexGlue SM.IndexGlueProofs.

Record programs := PG {
  pg_setitem : setitem_shape; pg_setitem_maint : mprog;
  pg_del_maint : mprog; pg_del_loop : del_loop;
  pg_clear : list cstep;
  pg_add_ent : vprog; pg_remove_ent : vprog; pg_add_ents : aeprog;
  pg_remove_copyset : rc_shape;
  pg_search : search_shape;
  pg_vmf_init : list gstmt; pg_parse_spawn : list gstmt; pg_parse_entity : list gstmt; pg_create_ent : list gstmt;
  pg_einit : einit_shape; pg_entity_parse_through_init : bool; pg_copy : copy_shape;
  pg_pop : pop_shape; pg_make_unique : mu_shape;
  pg_mixins_inherited : bool; pg_getitem_never_raises : bool;
}.

Definition programs_ok (P : programs) : bool :=
  setitem_shape_ok (pg_setitem P) && maint_ok (pg_setitem_maint P)
  && del_maint_ok (pg_del_maint P) && del_loop_ok (pg_del_loop P)
  && clear_ok (pg_clear P)
  && add_ok (pg_add_ent P) && remove_ok (pg_remove_ent P) && ae_ok (pg_add_ents P)
  && rc_ok (pg_remove_copyset P)
  && search_shape_ok (pg_search P)
  && vmf_init_ok (pg_vmf_init P) && parse_spawn_ok (pg_parse_spawn P) && parse_ent_ok (pg_parse_entity P)
  && create_ent_ok (pg_create_ent P)
  && einit_ok (pg_einit P) && pg_entity_parse_through_init P && copy_ok (pg_copy P)
  && pop_ok (pg_pop P) && mu_ok (pg_make_unique P)
  && pg_mixins_inherited P && pg_getitem_never_raises P.

Definition programs_today : programs :=
  PG setitem_shape_today maint_today del_maint_today del_loop_today clear_today add_ent_today remove_ent_today
     add_ents_today rc_today search_shape_today vmf_init_today parse_spawn_today glue_ent_today create_ent_today
     einit_today true copy_today pop_today mu_today true true.

(** the functions of vmf.py that write an index, an entity list, VMF.spawn or a key dict (and pop / make_unique,
    which only call such functions) *)
Inductive fname := FSetItem | FDelItem | FClear | FEInit | FAddEnt | FRemoveEnt | FAddEnts | FCreateEnt | FVInit | FParse
                 | FPop | FMakeUnique.
Open Scope string_scope.
Definition fname_of (s : string) : option fname :=
  if String.eqb s "Entity.__setitem__" then Some FSetItem else
  if String.eqb s "Entity.__delitem__" then Some FDelItem else
  if String.eqb s "Entity.clear" then Some FClear else
  if String.eqb s "Entity.__init__" then Some FEInit else
  if String.eqb s "VMF.add_ent" then Some FAddEnt else
  if String.eqb s "VMF.remove_ent" then Some FRemoveEnt else
  if String.eqb s "VMF.add_ents" then Some FAddEnts else
  if String.eqb s "VMF.create_ent" then Some FCreateEnt else
  if String.eqb s "VMF.__init__" then Some FVInit else
  if String.eqb s "VMF.parse" then Some FParse else
  if String.eqb s "Entity.pop" then Some FPop else
  if String.eqb s "Entity.make_unique" then Some FMakeUnique else None.
Close Scope string_scope.
Definition census_today : list string :=
  ["Entity.__delitem__"; "Entity.__init__"; "Entity.__setitem__"; "Entity.clear"; "VMF.__init__"; "VMF.add_ent";
   "VMF.add_ents"; "VMF.remove_ent"; "VMF.parse"; "VMF.create_ent"]%string.
Definition census_with_an_unmodelled_writer : list string := ("VMF.rename_all"%string) :: census_today.
Definition census_covered (names : list string) : bool := forallb (λ s, bool_decide (is_Some (fname_of s))) names.

(** arguments of a call (every function uses the fields it needs) *)
Record fargs := FA {
  fa_e : nat; fa_k : str; fa_v : str; fa_es : list nat; fa_oneshot : bool; fa_kvs : kvs; fa_ents : list kvs; fa_depth : nat;
}.

Section property.
  Variable fold : str → str.

  Definition set_item_w (P : programs) (d : nat) : nat → str → str → mstate → mstate * nat :=
    set_item_pg fold (pg_setitem P) (pg_setitem_maint P) (S (S d)).
  Definition del_item_w (P : programs) : nat → str → mstate → mstate * nat :=
    del_item_pg fold (pg_del_maint P) (pg_del_loop P).
  Definition init_w (P : programs) : mstate := g_run fold (pg_vmf_init P) env0 blank.

  Definition fn_w (P : programs) (f : fname) (a : fargs) (st : mstate) : mstate * nat :=
    match f with
    | FSetItem => set_item_w P (fa_depth a) (fa_e a) (fa_k a) (fa_v a) st
    | FDelItem => del_item_w P (fa_e a) (fa_k a) st
    | FClear => clear_pg fold (pg_clear P) (fa_e a) st
    | FEInit => (new_ent_sh fold (pg_einit P) (fa_kvs a) st, 0)
    | FAddEnt => (v_run fold (pg_add_ent P) (fa_e a) st, 0)
    | FRemoveEnt => (v_run fold (pg_remove_ent P) (fa_e a) st, 0)
    | FAddEnts => (ae_run fold (pg_add_ents P) (fa_es a) (fa_oneshot a) st, 0)
    | FCreateEnt => (g_run fold (pg_create_ent P) (GE (fa_kvs a) (fa_v a)) st, 0)
    | FVInit => (init_w P, 0)
    | FParse => (parse_pg fold (pg_vmf_init P) (pg_parse_spawn P) (pg_parse_entity P) (fa_kvs a) (fa_ents a), 0)
    | FPop => pop_item_sh fold (pg_pop P) (fa_e a) (fa_k a) st
    | FMakeUnique => make_unique_sh fold (pg_make_unique P) (fa_e a) (fa_v a) st
    end.
  Definition fn_model (f : fname) (a : fargs) (st : mstate) : mstate * nat :=
    match f with
    | FSetItem => set_item fold (fa_e a) (fa_k a) (fa_v a) st
    | FDelItem => del_item fold (fa_e a) (fa_k a) st
    | FClear => clear fold (fa_e a) st
    | FEInit => (new_ent fold (fa_kvs a) st, 0)
    | FAddEnt => (add_ent fold (fa_e a) st, 0)
    | FRemoveEnt => (remove_ent fold (fa_e a) st, 0)
    | FAddEnts => (add_ents fold (fa_es a) st, 0)
    | FCreateEnt => (create_ent fold (fa_v a) (fa_kvs a) st, 0)
    | FVInit => (init, 0)
    | FParse => (parse_init fold (fa_kvs a) (fa_ents a), 0)
    | FPop => pop_item fold (fa_e a) (fa_k a) st
    | FMakeUnique => make_unique fold (fa_e a) (fa_v a) st
    end.
  (** the modelled domain: add_ent of an entity object of this map that is not the worldspawn; create_ent's keyword
      arguments cannot contain 'classname' itself (Python rejects the call) *)
  Definition fn_dom (f : fname) (a : fargs) (st : mstate) : Prop :=
    match f with
    | FAddEnt => fa_e a ≠ spawn st ∧ fa_e a < nobj st
    | FCreateEnt => dget cn (fa_kvs a) = None
    | _ => True
    end.

  (** the operations of a history, as written *)
  Fixpoint del_items_w (P : programs) (e : nat) (ks : list str) (st : mstate) : mstate * nat :=
    match ks with
    | [] => (st, 0)
    | k :: r => let '(st', er) := del_item_w P e k st in match er with 0 => del_items_w P e r st' | _ => (st', er) end
    end.
  Fixpoint update_w (P : programs) (e : nat) (l : kvs) (st : mstate) : mstate * nat :=
    match l with
    | [] => (st, 0)
    | (k, v) :: r => let '(st', er) := set_item_w P 0 e k v st in match er with 0 => update_w P e r st' | _ => (st', er) end
    end.
  Definition step_w (P : programs) (o : op) (st : mstate) : mstate * nat :=
    match o with
    | NewEnt l => (new_ent_sh fold (pg_einit P) l st, 0)
    | CreateEnt c l => (g_run fold (pg_create_ent P) (GE l c) st, 0)
    | AddEnt e => (v_run fold (pg_add_ent P) e st, 0)
    | AddEnts es => (ae_run fold (pg_add_ents P) es true st, 0)
    | RemoveEnt e => (v_run fold (pg_remove_ent P) e st, 0)
    | SetItem e k v => set_item_w P 0 e k v st
    | DelItem e k => del_item_w P e k st
    | DelItems e ks => del_items_w P e ks st
    | Pop e k => pop_item_sh fold (pg_pop P) e k st
    | PopItem e => match keys_of st e with [] => (st, 1) | (k, _) :: _ => del_item_w P e k st end   (* MutableMapping.popitem *)
    | SetDefault e k v => (st, 0)                                                                   (* MutableMapping.setdefault *)
    | Update e l => update_w P e l st                                                               (* MutableMapping.update *)
    | Clear e => clear_pg fold (pg_clear P) e st
    | MakeUnique e p => make_unique_sh fold (pg_make_unique P) e p st
    | Export ver =>                                        (* VMF.export: two stores and one delete on the worldspawn *)
        let '(st1, _) := set_item_w P 0 (spawn st) mapver ver st in
        let '(st2, _) := set_item_w P 0 (spawn st) cn ws st1 in
        del_item_w P (spawn st) mapver st2
    | ProbeClass k => (upd_class (probe k) st, 0)
    | ProbeTarget k => (upd_target (probe k) st, 0)
    end.
  Definition op_dom (o : op) (st : mstate) : Prop :=
    match o with
    | AddEnt e => e ≠ spawn st ∧ e < nobj st
    | CreateEnt c l => dget cn l = None
    | _ => True
    end.
  Fixpoint run_w (P : programs) (ops : list op) (st : mstate) : mstate :=
    match ops with [] => st | o :: r => run_w P r (step_w P o st).1 end.
  Fixpoint ops_dom (ops : list op) (st : mstate) : Prop :=
    match ops with [] => True | o :: r => op_dom o st ∧ ops_dom r (step fold o st).1 end.

  (** ** Proofs *)
  Hypothesis fold_nil : fold [] = [].
  Hypothesis fold_cn : fold cn = cn.
  Hypothesis fold_tn : fold tn = tn.
  Hypothesis fold_ws : fold ws = ws.
  Hypothesis fold_idem : ∀ s, fold (fold s) = fold s.
  Hypothesis fold_nodeid : fold nodeid ≠ cn ∧ fold nodeid ≠ tn.

  Section with_programs.
    Variable P : programs.
    Hypothesis HP : programs_ok P = true.

    (* the conjuncts of [programs_ok] as separate hypotheses *)
    Local Ltac ok_of H :=
      unfold programs_ok in H; repeat match type of H with _ && _ = true => apply andb_prop in H as [H ?] end.

    Lemma set_item_w_ok d e k v st : set_item_w P d e k v st = set_item fold e k v st.
    Proof. pose proof HP as H. ok_of H. unfold set_item_w. by apply set_item_pg_ok. Qed.
    Lemma del_item_w_ok e k st : del_item_w P e k st = del_item fold e k st.
    Proof. pose proof HP as H. ok_of H. unfold del_item_w. by apply del_item_pg_ok. Qed.
    Lemma del_items_w_ok e ks st : del_items_w P e ks st = del_items fold e ks st.
    Proof.
      revert st. induction ks as [|k r IH]; intros st; [done|]. simpl. rewrite del_item_w_ok.
      destruct (del_item fold e k st) as [st' er]. destruct er; [apply IH|done].
    Qed.
    Lemma update_w_ok e l st : update_w P e l st = update fold e l st.
    Proof.
      revert st. induction l as [|[k v] r IH]; intros st; [done|]. simpl. rewrite set_item_w_ok.
      destruct (set_item fold e k v st) as [st' er]. destruct er; [apply IH|done].
    Qed.
    Lemma init_w_ok : init_w P = init.
    Proof. pose proof HP as H. ok_of H. unfold init_w. by apply vmf_init_pg_ok. Qed.

    Theorem fn_w_ok f a st : fn_dom f a st → fn_w P f a st = fn_model f a st.
    Proof.
      intros Hd. pose proof HP as H. ok_of H. destruct f; cbn [fn_w fn_model].
      - apply set_item_w_ok.
      - apply del_item_w_ok.
      - by apply clear_pg_ok.
      - by rewrite new_ent_sh_ok.
      - destruct Hd. by rewrite add_ent_pg_ok.
      - by rewrite remove_ent_pg_ok.
      - by rewrite ae_run_ok.
      - by rewrite create_ent_pg_ok.
      - by rewrite init_w_ok.
      - by rewrite parse_pg_ok.
      - by apply pop_item_sh_ok.
      - by apply make_unique_sh_ok.
    Qed.

    Theorem fn_model_inv f a st : Inv fold st → Inv fold (fn_model f a st).1.
    Proof.
      intros HI. destruct f; cbn [fn_model fst].
      - by apply set_item_inv.
      - by apply del_item_inv.
      - by apply clear_inv.
      - by apply new_ent_inv.
      - by apply add_ent_inv.
      - by apply remove_ent_inv.
      - by apply add_ents_inv.
      - by apply create_ent_inv.
      - by apply init_inv.
      - by apply parse_init_inv.
      - by apply pop_item_inv.
      - by apply make_unique_inv.
    Qed.

    Theorem step_w_ok o st : op_dom o st → step_w P o st = step fold o st.
    Proof.
      intros Hd. pose proof HP as H. ok_of H. destruct o; cbn [step_w step].
      - by rewrite new_ent_sh_ok.
      - by rewrite create_ent_pg_ok.
      - destruct Hd. by rewrite add_ent_pg_ok.
      - by rewrite ae_run_ok.
      - by rewrite remove_ent_pg_ok.
      - apply set_item_w_ok.
      - apply del_item_w_ok.
      - apply del_items_w_ok.
      - by apply pop_item_sh_ok.
      - unfold pop_first. destruct (keys_of st e) as [|[k v] r]; [done|]. apply del_item_w_ok.
      - done.
      - apply update_w_ok.
      - by apply clear_pg_ok.
      - by apply make_unique_sh_ok.
      - unfold export. rewrite set_item_w_ok. destruct (set_item fold (spawn st) mapver ver st) as [st1 e1].
        rewrite set_item_w_ok. destruct (set_item fold (spawn st) cn ws st1) as [st2 e2]. apply del_item_w_ok.
      - done.
      - done.
    Qed.

    Theorem run_w_ok ops st : ops_dom ops st → run_w P ops st = run fold ops st.
    Proof.
      revert st. induction ops as [|o r IH]; intros st; [done|]. intros [Hd Hr]. cbn [run_w].
      rewrite (step_w_ok _ _ Hd). unfold run. simpl. apply IH. exact Hr.
    Qed.

    Theorem property_functions (census : list string) : census_covered census = true →
      ∀ s, s ∈ census → ∃ f, fname_of s = Some f ∧
        ∀ a st, fn_dom f a st → fn_w P f a st = fn_model f a st ∧ (Inv fold st → Inv fold (fn_w P f a st).1).
    Proof.
      unfold census_covered. rewrite forallb_forall. intros Hc s Hs.
      apply elem_of_list_In in Hs. apply Hc in Hs. apply bool_decide_eq_true in Hs as [f Hf].
      exists f. split; [done|]. intros a st Hd. rewrite (fn_w_ok _ _ _ Hd). split; [done|]. apply fn_model_inv.
    Qed.

    Theorem property_histories ops : ops_dom ops (init_w P) →
      let st := run_w P ops (init_w P) in
      Inv fold st ∧
      (∀ k e, e ∈ ix_get (by_class st) k ↔ present st e ∧ cls_of fold st e = k) ∧
      (∀ k e, e ∈ ix_get (by_target st) k ↔ present st e ∧ tgt_of fold st e = k) ∧
      (∀ name e, e ∈ (search_sh fold (pg_search P) name st).1 ↔ search_spec fold name st e) ∧
      cls_of fold st (spawn st) = ws ∧ spawn st ∈ ix_get (by_class st) ws.
    Proof.
      intros Hd st. pose proof HP as H. ok_of H.
      assert (HI : Inv fold st).
      { unfold st. rewrite (run_w_ok _ _ Hd), init_w_ok. apply run_inv; try done. by apply init_inv. }
      split; [done|]. split; [intros; by apply inv_by_class|]. split; [intros; by apply inv_by_target|].
      split; [|by apply inv_worldspawn].
      intros name e. by apply search_sh_sound_complete.
    Qed.
  End with_programs.
End property.

Lemma programs_today_ok : programs_ok programs_today = true.
Proof. reflexivity. Qed.
