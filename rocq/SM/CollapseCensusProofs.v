(** C09 — collapse_one as an in-place operator on the target with the template as a read-only operand: a run
    in which no store is tagged [CTemplate] and no stored value is tagged [CTemplate] is a mutation history through
    the target root and the objects built during the call, so by the frame theorem a template that shares no mutable
    object with the target beforehand is observed unchanged afterwards — at every depth, for every such run. *)
From Coq Require Import List ZArith Bool String.
From SV Require Import SM.Store SM.StoreProofs SM.OpPurityProofs SM.CollapseCensus.
Import ListNotations.

Lemma croots_clean tgt tmpl F o : is_template o = false -> incl (croots tgt tmpl F o) (F ++ [tgt]).
Proof.
  intros H r Hr. apply in_or_app. destruct o; try discriminate; cbn in Hr; auto; destruct Hr.
Qed.

Lemma held_clean tgt tmpl h F vs vos :
  Forall2 (fun v vo => val_held h (croots tgt tmpl F vo) v) vs vos ->
  forallb (fun o => negb (is_template o)) vos = true ->
  forall v, In v vs -> val_held h (F ++ [tgt]) v.
Proof.
  induction 1 as [|v vo vs vos Hv Hr IH]; intros Hc x Hx; [destruct Hx|].
  cbn in Hc. apply andb_true_iff in Hc. destruct Hc as [Hc1 Hc2]. destruct Hx as [<-|Hx].
  - eapply val_held_incl; [|exact Hv]. apply croots_clean. apply negb_true_iff. exact Hc1.
  - apply IH; assumption.
Qed.

Lemma crun_steps tgt tmpl : forall s tr s',
  crun tgt tmpl s tr s' -> forallb event_clean tr = true ->
  steps (fst s, snd s ++ [tgt]) (map (fun e : cevent => fst (fst e)) tr) (fst s', snd s' ++ [tgt]).
Proof.
  intros s tr s' Hr. induction Hr as [s|s m s1 ms s2 Hst Hr IH]; intros Hc; [constructor|].
  cbn in Hc. apply andb_true_iff in Hc. destruct Hc as [Hm Hc]. unfold event_clean in Hm.
  apply andb_true_iff in Hm. destruct Hm as [Hm1 Hm2].
  cbn [map]. eapply steps_cons; [|apply IH; exact Hc].
  inversion Hst as [h F l nd vos Hl Hv|h F l vs nd o vos Hre Hl Hmut Hv]; subst; cbn [fst snd] in *.
  - change ((l :: F) ++ [tgt]) with (l :: (F ++ [tgt])). apply step_alloc; [exact Hl|].
    eapply held_clean; eauto.
  - eapply step_store; eauto.
    + eapply reachR_incl; [|exact Hre]. apply croots_clean. apply negb_true_iff. exact Hm1.
    + eapply held_clean; eauto.
Qed.

Theorem collapse_template_frame tgt tmpl h tr h' F' :
  closed h -> alloc h tgt -> alloc h tmpl -> sep h tmpl [tgt] ->
  crun tgt tmpl (h, []) tr (h', F') -> forallb event_clean tr = true ->
  forall n, unfold n h' (VRef tmpl) = unfold n h (VRef tmpl).
Proof.
  intros Hc Ht Hm Hsep Hr Hcl n.
  pose proof (crun_steps tgt tmpl _ _ _ Hr Hcl) as Hs. cbn [fst snd app] in Hs.
  eapply frame_observation; eauto. intros r [<-|[]]. exact Ht.
Qed.

(** From the census: every event's tags occur at a census site, and the census has no template site. *)
Theorem census_collapse_template_frame (W E : list (string * corigin)) tgt tmpl h tr h' F' :
  collapse_never_writes_template W = true -> collapse_only_copies_enter E = true ->
  (forall e, In e tr -> (exists s, In (s, snd (fst e)) W) /\ forall vo, In vo (snd e) -> exists s, In (s, vo) E) ->
  closed h -> alloc h tgt -> alloc h tmpl -> sep h tmpl [tgt] ->
  crun tgt tmpl (h, []) tr (h', F') ->
  forall n, unfold n h' (VRef tmpl) = unfold n h (VRef tmpl).
Proof.
  intros HW HE Hsites Hc Ht Hm Hsep Hr. apply (collapse_template_frame tgt tmpl h tr h' F' Hc Ht Hm Hsep Hr).
  apply forallb_forall. intros e He. destruct (Hsites e He) as [(s & Hs) Hv].
  unfold event_clean. apply andb_true_iff. split.
  - unfold collapse_never_writes_template in HW. rewrite forallb_forall in HW. exact (HW _ Hs).
  - apply forallb_forall. intros vo Hvo. destruct (Hv vo Hvo) as (s' & Hs').
    unfold collapse_only_copies_enter in HE. rewrite forallb_forall in HE. exact (HE _ Hs').
Qed.

(** What the census rejects really changes the template: localise() applied to the template brush itself. *)
Definition cl_h : heap := fun l => match l with
  | 1%positive => Some (Node true [VAtom 0%Z]) | 2%positive => Some (Node true [VAtom 64%Z]) | _ => None end.

(** ... and so does a template object that ENTERS the target (shared afterwards, then edited through the target). *)
Theorem collapse_template_enter_observable :
  collapse_only_copies_enter [("old_brush -> vmf.add_brush"%string, CTemplate)] = false /\
  exists h1 h2,
    crun 1%positive 2%positive (cl_h, []) [(MStore 1%positive [VRef 2%positive], CTarget, [CTemplate])] (h1, []) /\
    steps (h1, [1%positive]) [MStore 2%positive [VAtom 128%Z]] (h2, [1%positive]) /\
    unfold 1 h2 (VRef 2%positive) <> unfold 1 cl_h (VRef 2%positive).
Proof.
  split; [reflexivity|]. eexists. eexists. split; [|split].
  - eapply cr_cons; [|apply cr_nil]. eapply cs_store with (nd := Node true [VAtom 0%Z]); try reflexivity.
    + exists 1%positive. split; [left; reflexivity|constructor].
    + constructor; [|constructor]. exists 2%positive. split; [left; reflexivity|constructor].
  - eapply steps_cons; [|apply steps_nil].
    eapply step_store with (nd := Node true [VAtom 64%Z]); try reflexivity.
    + exists 1%positive. split; [left; reflexivity|].
      eapply reach_step; [constructor|reflexivity|left; reflexivity].
    + intros v [<-|[]]. exact I.
  - cbv. discriminate.
Qed.
