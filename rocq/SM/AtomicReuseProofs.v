(** Proofs about SM/AtomicReuse.v: reuse of one AtomicWriter object for several [with] blocks. *)
From Coq Require Import List Bool Arith PeanoNat.
From SV Require Import SM.AtomicWriter SM.AtomicWriterProofs SM.AtomicWriterThms SM.AtomicExit SM.AtomicExitProofs
  SM.AtomicReuse.
Import ListNotations.

(** ** The enumeration of attribute states is complete *)
Lemma opt_vals_complete (w : option xval) : In w opt_vals.
Proof. destruct w as [[]|]; cbn; tauto. Qed.

Lemma states_complete const : forall attrs init a, consistent attrs init const a -> In a (states attrs init const).
Proof.
  induction attrs as [|x xs IH]; intros init a H.
  - destruct init, a; cbn in H; try contradiction. cbn. auto.
  - destruct init as [|v vs]; [destruct a; cbn in H; contradiction|].
    destruct a as [|w ws]; [cbn in H; contradiction|]. cbn in H. destruct H as [Hc Hr].
    cbn [states]. specialize (IH vs ws Hr). destruct (existsb (Nat.eqb x) const).
    + rewrite (Hc eq_refl). now apply in_map.
    + apply in_flat_map. exists w. split; [apply opt_vals_complete|now apply in_map].
Qed.

Lemma proto_eqb_eq x y : proto_eqb x y = true -> x = y.
Proof.
  unfold proto_eqb. intros H. apply andb_prop in H as [H12 H3]. apply andb_prop in H12 as [H1 H2].
  apply eqb_prop in H1. apply xtree_eqb_eq in H2. apply xtree_eqb_eq in H3.
  destruct x, y. cbn in *. now subst.
Qed.

(** [reuse_indep]: in whatever state the previous uses left the attributes, the next use runs the first-use protocol. *)
Theorem reuse_indep_sound o : reuse_indep o = true -> forall a, ostate o a -> proto_at o a = obj_proto o.
Proof.
  unfold reuse_indep, ostate. intros H a Ha. apply andb_prop in H as [_ H].
  rewrite forallb_forall in H. apply proto_eqb_eq, H, states_complete, Ha.
Qed.

(** The state [__init__] leaves is one of the states (the statement above is not vacuous). *)
Lemma consistent_init const : forall attrs init, length init = length attrs -> consistent attrs init const init.
Proof.
  induction attrs as [|x xs IH]; intros [|v vs] H; cbn in *; try discriminate; auto.
Qed.

(** ** Only the attributes that entry does not assign need enumerating
    [__exit__] starts from [entered o a], and the entered states are again an enumeration [states], with the
    attributes assigned on entry held at their entry values.  A sweep over all states of something that reads the
    state through [entered] (the exit protocol, the leaves of [__exit__]) is therefore a sweep over that smaller list;
    this is what keeps [reuse_indep] cheap to evaluate (1 state instead of 64 for today's class). *)
Definition enter_attr (enter : list (nat * xval)) (xv : nat * option xval) : option xval :=
  match alookup (fst xv) enter with Some w => Some w | None => snd xv end.

Lemma existsb_fst_alookup {A} x (l : list (nat * A)) : existsb (Nat.eqb x) (map fst l) = is_some (alookup x l).
Proof. induction l as [|[y v] l IH]; cbn; [reflexivity|]. destruct (Nat.eqb x y); auto. Qed.

Lemma states_entered enter const : forall attrs init a, In a (states attrs init const) ->
  In (map (enter_attr enter) (combine attrs a))
     (states attrs (map (enter_attr enter) (combine attrs init)) (map fst enter ++ const)).
Proof.
  induction attrs as [|x xs IH]; intros [|v vs] a H; try (destruct H as [<-|[]]; now left).
  cbn [states] in H. cbn [combine map states]. rewrite existsb_app, existsb_fst_alookup.
  destruct (existsb (Nat.eqb x) const).
  - apply in_map_iff in H as (a' & <- & H). rewrite orb_true_r. cbn [combine map]. apply in_map, IH, H.
  - apply in_flat_map in H as (w & Hw & H). apply in_map_iff in H as (a' & <- & H). rewrite orb_false_r.
    cbn [combine map]. unfold enter_attr at 1 3 4. cbn [fst snd]. destruct (alookup x enter); cbn [is_some].
    + apply in_map, IH, H.
    + apply in_flat_map. exists w. split; [exact Hw|]. apply in_map, IH, H.
Qed.

Lemma entered_idem o a : entered o (entered o a) = entered o a.
Proof.
  unfold entered. fold (enter_attr (o_enter o)). generalize (o_attrs o). intros attrs. revert a.
  induction attrs as [|x xs IH]; intros [|v vs]; cbn [combine map]; try reflexivity.
  rewrite IH. f_equal. unfold enter_attr. cbn [fst snd]. now destruct (alookup x (o_enter o)).
Qed.

Lemma forallb_states_entered o (F : astate -> bool) : (forall a, F (entered o a) = F a) ->
  forallb F (states (o_attrs o) (entered o (o_init o)) (map fst (o_enter o) ++ o_const o)) = true ->
  forallb F (states (o_attrs o) (o_init o) (o_const o)) = true.
Proof.
  intros HF H. rewrite forallb_forall in *. intros a Ha. rewrite <- HF.
  apply H, (states_entered (o_enter o)), Ha.
Qed.

Lemma reuse_indep_entered o :
  Nat.eqb (length (o_init o)) (length (o_attrs o)) &&
  forallb (fun a => proto_eqb (proto_at o a) (obj_proto o))
          (states (o_attrs o) (entered o (o_init o)) (map fst (o_enter o) ++ o_const o)) = true ->
  reuse_indep o = true.
Proof.
  intros H. apply andb_prop in H as [Hl H]. unfold reuse_indep. rewrite Hl. apply forallb_states_entered; [|exact H].
  intros a. unfold proto_at, tree_at. now rewrite entered_idem.
Qed.

(** ** One use *)
Lemma proto_alone_file_untouched x d0 s : proto_safe x = true -> forall faults k, k <> dest s ->
  sdt (alonet x s faults d0) (File k) = d0 (File k).
Proof.
  intros H faults k Hk. destruct (psafe_family x H) as [Hf Hs].
  destruct (alonet_refines x Hf d0 s faults) as (Hd & _). rewrite Hd.
  apply (alone_untouched (derive_cfg x) d0 s Hs faults (File k)).
  - intros E. injection E as E. contradiction.
  - intros i E. discriminate.
Qed.

(** What the property demands of one use that starts in directory [d] and has reached [st]. *)
Definition use_good (s : scen) (d : dir) (st : syst) : Prop :=
  sdt st (File (dest s)) = (if committedt (q1 st) then Some (new s) else d (File (dest s))) /\
  (faulted false (trt st) -> committedt (q1 st) = false /\ sdt st (File (dest s)) = d (File (dest s))) /\
  (forall r, raise_at s = Some r -> r <= length (body s) -> sdt st (File (dest s)) = d (File (dest s))) /\
  (finishedt (q1 st) = true -> (forall i, ~ In (false, (EUnlink i, RFault)) (trt st)) ->
   forall i, sdt st (Tmp i) = d (Tmp i)) /\
  (forall k, k <> dest s -> sdt st (File k) = d (File k)).

Lemma one_use_good x s d faults : proto_ok x = true -> use_good s d (alonet x s faults d).
Proof.
  intros H. pose proof (proto_ok_safe x H) as Hs. unfold use_good. repeat split.
  - exact (proto_alone_crash_atomic x d s Hs faults).
  - apply (proto_alone_fault_keeps_old x d s Hs faults). assumption.
  - apply (proto_alone_fault_keeps_old x d s Hs faults). assumption.
  - intros r Hr Hle. exact (proj1 (proto_alone_body_exception_cleans x d s H r faults Hr Hle)).
  - exact (proto_alone_no_temp_left x d s H faults).
  - intros k Hk. exact (proto_alone_file_untouched x d s Hs faults k Hk).
Qed.

(** ** Histories *)
Fixpoint hist_good (o : wobj) (h : list huse) (d : dir) : Prop :=
  match h with
  | [] => True
  | (s, fl, a) :: r =>
      let st := alonet (proto_at o a) s fl d in
      use_good s d st /\ (finishedt (q1 st) = true -> hist_good o r (sdt st))
  end.
Definition hstates_ok (o : wobj) (h : list huse) : Prop := Forall (fun u : huse => ostate o (snd u)) h.

Theorem reuse_history_good o : reuse_indep o = true -> proto_ok (obj_proto o) = true ->
  forall h, hstates_ok o h -> forall d, hist_good o h d.
Proof.
  intros Hi Hok h Hh. induction Hh as [|[[s fl] a] r Ha _ IH]; intros d; cbn [hist_good]; [exact I|].
  cbn [snd] in Ha. rewrite (reuse_indep_sound o Hi a Ha). split.
  - now apply one_use_good.
  - intros _. apply IH.
Qed.

(** Every use ran to its end and no cleanup unlink was itself refused. *)
Fixpoint hclean (o : wobj) (h : list huse) (d : dir) : Prop :=
  match h with
  | [] => True
  | (s, fl, a) :: r =>
      let st := alonet (proto_at o a) s fl d in
      finishedt (q1 st) = true /\ (forall i, ~ In (false, (EUnlink i, RFault)) (trt st)) /\ hclean o r (sdt st)
  end.

(** Temp files do not accumulate: after any history of successful, abandoned and failing uses the temp names are
    exactly as before the first use, and files that are no destination of the history are untouched. *)
Theorem reuse_no_temp_accumulates o : reuse_indep o = true -> proto_ok (obj_proto o) = true ->
  forall h, hstates_ok o h -> forall d, hclean o h d ->
  (forall i, hfinal o h d (Tmp i) = d (Tmp i)) /\
  (forall k, (forall u, In u h -> dest (fst (fst u)) <> k) -> hfinal o h d (File k) = d (File k)).
Proof.
  intros Hi Hok h Hh. induction Hh as [|[[s fl] a] r Ha _ IH]; intros d Hc; cbn [hfinal]; [split; reflexivity|].
  cbn [hclean] in Hc. destruct Hc as (Hf & Hu & Hc). rewrite Hf. cbn [snd] in Ha.
  destruct (IH _ Hc) as [IHt IHf].
  pose proof (one_use_good (proto_at o a) s d fl) as G. rewrite (reuse_indep_sound o Hi a Ha) in *.
  destruct (G Hok) as (_ & _ & _ & Gt & Gf). split.
  - intros i. rewrite IHt. now apply Gt.
  - intros k Hk. rewrite IHf.
    + apply Gf. intros E. apply (Hk (s, fl, a)); [now left|]. now rewrite E.
    + intros u Hu'. apply Hk. now right.
Qed.

(** ** A history of [BSP.save] calls
    Every call builds a fresh writer object; its rebuild phase may raise before the writer is entered (then nothing at
    all happens and the next call finds the directory as it was).  [pre] = the rebuild phase succeeded. *)
Definition suse := (bool * scen * list bool)%type.
Fixpoint shist_good (x : xproto) (h : list suse) (d : dir) : Prop :=
  match h with
  | [] => True
  | (pre, s, fl) :: r =>
      let st := save_alone x pre s fl d in
      if pre then use_good s d st /\ (finishedt (q1 st) = true -> shist_good x r (sdt st))
      else (forall n, sdt st n = d n) /\ trt st = [] /\ shist_good x r d
  end.
Fixpoint shfinal (x : xproto) (h : list suse) (d : dir) : dir :=
  match h with
  | [] => d
  | (pre, s, fl) :: r =>
      let st := save_alone x pre s fl d in
      if pre then (if finishedt (q1 st) then shfinal x r (sdt st) else sdt st) else shfinal x r d
  end.

(** After any history of saves in which every started writer ran to its end and no cleanup unlink was refused: no
    temp file more than before, and every file that is no destination of the history is untouched. *)
Fixpoint shclean (x : xproto) (h : list suse) (d : dir) : Prop :=
  match h with
  | [] => True
  | (pre, s, fl) :: r =>
      let st := save_alone x pre s fl d in
      if pre then finishedt (q1 st) = true /\ (forall i, ~ In (false, (EUnlink i, RFault)) (trt st)) /\ shclean x r (sdt st)
      else shclean x r d
  end.
Theorem save_history_no_temp_accumulates x : proto_ok x = true -> forall h d, shclean x h d ->
  (forall i, shfinal x h d (Tmp i) = d (Tmp i)) /\
  (forall k, (forall u, In u h -> dest (snd (fst u)) <> k) -> shfinal x h d (File k) = d (File k)).
Proof.
  intros H. induction h as [|[[pre s] fl] r IH]; intros d Hc; cbn [shfinal]; [split; reflexivity|].
  cbn [shclean] in Hc. destruct pre.
  - cbn [save_alone] in *. destruct Hc as (Hf & Hu & Hc). rewrite Hf. destruct (IH _ Hc) as [IHt IHf].
    destruct (one_use_good x s d fl H) as (_ & _ & _ & Gt & Gf). split.
    + intros i. rewrite IHt. now apply Gt.
    + intros k Hk. rewrite IHf.
      * apply Gf. intros E. apply (Hk (true, s, fl)); [now left|]. now rewrite E.
      * intros u Hu'. apply Hk. now right.
  - destruct (IH _ Hc) as [IHt IHf]. split; [exact IHt|].
    intros k Hk. apply IHf. intros u Hu'. apply Hk. now right.
Qed.

(** ** Examples and refutations *)
Lemma obj_fixed_reusable :
  reuse_indep obj_fixed = true /\ proto_ok (obj_proto obj_fixed) = true /\
  exit_always_leaves obj_fixed 0 VNone = true /\ init_unentered obj_fixed = true /\ enter_binds obj_fixed = true.
Proof.
  split; [apply reuse_indep_entered; vm_compute; reflexivity|].
  split; [vm_compute; reflexivity|].
  split; [|vm_compute; auto].
  apply forallb_states_entered; [|vm_compute; reflexivity].
  intros a. unfold leaf_tree. now rewrite entered_idem.
Qed.

(** The "committed" flag in an attribute that only [__init__] initialises: the first use is good, but after one
    successful use the flag is True (the leaf of the all-ok path), and the next use, abandoned by an exception of the
    body after one write, leaves tmp_1 with the partial data behind although nothing failed in the cleanup. *)
Definition st_after_success : astate := [Some VNone; Some VTName; Some VDest; Some VTrue].

