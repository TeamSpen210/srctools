(** Two writers to the SAME destination (outside the wording of the property, which speaks of different files; proved
    because BSP tools may be started twice on one map): at every point of every schedule and fault pattern the
    destination holds the previous contents (while nobody has committed) or the COMPLETE contents of a writer that has
    committed — never chunks of both; temp names are never shared; everything else in the directory is untouched.
    The invariant is that of AtomicWriterProofs.v with the per-writer destination part replaced by a joint one. *)
From Coq Require Import List Bool.
From SV Require Import SM.AtomicWriter SM.AtomicWriterProofs SM.AtomicWriterThms.
Import ListNotations.

Section Same.
Variable c : cfg.
Hypothesis Hsafe : cfg_safe c = true.
Variable d0 : dir.

Definition DestSame (sa sb : scen) (pa pb : pc) (d : dir) : Prop :=
  (committed pa = false /\ committed pb = false /\ d (File (dest sa)) = d0 (File (dest sa))) \/
  (committed pa = true /\ d (File (dest sa)) = Some (new sa)) \/
  (committed pb = true /\ d (File (dest sa)) = Some (new sb)).

Lemma DestSame_sym sa sb pa pb d : dest sa = dest sb -> DestSame sa sb pa pb d -> DestSame sb sa pb pa d.
Proof.
  unfold DestSame. intros E. rewrite <- E. intros [(A & B & C)|[(A & B)|(A & B)]]; auto.
Qed.

Lemma step_dest_same sa sb pa pb d f pa' d' e :
  Own d0 sa pa d -> DestSame sa sb pa pb d -> wstep c sa pa d f = (pa', d', e) -> DestSame sa sb pa' pb d'.
Proof.
  unfold DestSame. intros Oa Ds H.
  destruct (step_files c Hsafe d0 _ _ _ _ _ _ _ Oa H) as [[Hc Hk]|(_ & Hc' & Hn & _)].
  - now rewrite Hc, Hk.
  - auto.
Qed.

Variables s1 s2 : scen.
Hypothesis Hdest : dest s1 = dest s2.

Record InvS (st : sys) : Prop := {
  is_own1 : Own d0 s1 (p1 st) (sd st);
  is_own2 : Own d0 s2 (p2 st) (sd st);
  is_disj : Disj (p1 st) (p2 st);
  is_dest : DestSame s1 s2 (p1 st) (p2 st) (sd st);
  is_frame : Frame d0 s1 s2 (p1 st) (p2 st) (sd st)
}.

Lemma invS_step st wf : InvS st -> InvS (step2 c s1 s2 st wf).
Proof.
  intros [O1 O2 Dj Ds Fr]. destruct wf as [who f]. unfold step2. destruct who.
  - destruct (wstep c s2 (p2 st) (sd st) f) as [[p' d'] e] eqn:E.
    destruct (step_frame c Hsafe d0 s2 s1 _ _ _ _ _ _ _ O2 O1 (Disj_sym _ _ Dj) (Frame_sym _ _ _ _ _ _ Fr) E)
      as (A & B & C & G).
    pose proof (step_dest_same s2 s1 _ (p1 st) _ _ _ _ _ O2 (DestSame_sym _ _ _ _ _ Hdest Ds) E) as D.
    constructor; cbn; auto using Disj_sym, Frame_sym, DestSame_sym.
  - destruct (wstep c s1 (p1 st) (sd st) f) as [[p' d'] e] eqn:E.
    destruct (step_frame c Hsafe d0 s1 s2 _ _ _ _ _ _ _ O1 O2 Dj Fr E) as (A & B & C & G).
    pose proof (step_dest_same s1 s2 _ (p2 st) _ _ _ _ _ O1 Ds E) as D.
    constructor; cbn; auto.
Qed.

Lemma invS_start : InvS (start d0).
Proof.
  constructor; cbn; try (intros i H; discriminate).
  - left. auto.
  - intros n _ _ _. reflexivity.
Qed.

Theorem same_dest_no_mixture : forall sched,
  let st := run2 c s1 s2 sched (start d0) in
  ((committed (p1 st) = false /\ committed (p2 st) = false /\ sd st (File (dest s1)) = d0 (File (dest s1))) \/
   (committed (p1 st) = true /\ sd st (File (dest s1)) = Some (new s1)) \/
   (committed (p2 st) = true /\ sd st (File (dest s1)) = Some (new s2))) /\
  (forall i, assoc (p1 st) = Some i -> assoc (p2 st) = Some i -> False) /\
  (forall n, n <> File (dest s1) -> d0 n <> None -> sd st n = d0 n).
Proof.
  intros sched st. destruct (run2_invariant c s1 s2 InvS invS_step sched _ invS_start) as [O1 O2 Dj Ds Fr]. fold st in O1, O2, Dj, Ds, Fr.
  split; [exact Ds|]. split; [exact Dj|].
  intros n Hn Hex. apply Fr; auto; [congruence|].
  intros i ->. split; intros X.
  - destruct (O1 i X) as [A _]. congruence.
  - destruct (O2 i X) as [A _]. congruence.
Qed.

(** A writer that got an OSError anywhere never commits: the shared destination then holds the previous contents
    or the complete contents of the other writer. *)
Theorem same_dest_fault_never_commits : forall sched,
  let st := run2 c s1 s2 sched (start d0) in
  faulted false (tr st) ->
  committed (p1 st) = false /\
  (sd st (File (dest s1)) = d0 (File (dest s1)) \/
   (committed (p2 st) = true /\ sd st (File (dest s1)) = Some (new s2))).
Proof.
  intros sched st Hf. pose proof (fault_never_commits c Hsafe s1 s2 sched (start d0) eq_refl Hf) as Hc. fold st in Hc.
  split; [exact Hc|].
  destruct (same_dest_no_mixture sched) as (Ds & _). fold st in Ds.
  destruct Ds as [(A & B & C)|[(A & B)|(A & B)]]; auto. congruence.
Qed.
End Same.

(** Both orders of the two renames occur: the last rename wins, each time with a complete content. *)
Example same_dest_last_rename_wins :
  let sb := {| dest := 0; body := [7]; tail := []; raise_at := None |} in
  let seq w := repeat (w, false) 6 in
  sd (run2 cfg_fixed sc_a1 sb (seq false ++ seq true) (start d_old)) (File 0) = Some [7] /\
  sd (run2 cfg_fixed sc_a1 sb (seq true ++ seq false) (start d_old)) (File 0) = Some [1].
Proof. vm_compute. auto. Qed.
