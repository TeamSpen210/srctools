(** Source-shaped model for property C07: [VMF.add_ent] and [VMF.remove_ent] as written — little programs
    over the entity list and the two indexes, read off vmf.py by translate/c07_index_listops.py on every run
    ([gen_add_ent], [gen_remove_ent] in Gen/IndexListOps_gen.v).  Conditions are evaluated on the state at the point
    where they stand (the membership test of remove_ent comes after the list removal).

    Executable definitions only; proofs are in IndexListOpsProofs.v. *)
From stdpp Require Import gmap sets list.
From Coq Require Import NArith.
From SV Require Import SM.IndexModel.

Inductive vact :=
| VAppend            (* self.entities.append(item) *)
| VRemoveFirst       (* try: self.entities.remove(item) except ValueError: pass *)
| VRemClass          (* _remove_copyset(self.by_class, item['classname'].casefold(), item) *)
| VRemTarget         (* _remove_copyset(self.by_target, item['targetname'].casefold() or None, item) *)
| VAddClass          (* self.by_class[item['classname'].casefold()].add(item) *)
| VAddTarget.        (* self.by_target[item['targetname'].casefold() or None].add(item) *)
Inductive vcond :=
| VCIsSpawn          (* item is self.spawn *)
| VCInEnts           (* item in self.entities *)
| VCNot (c : vcond) | VCOr (a b : vcond) | VCAnd (a b : vcond)
| VCCached (attr : str).   (* item.<attr>: a flag kept on the entity object (round 5); the model has no such state, the
                              facts never decide it, so no program in which it matters passes a path obligation *)
Inductive vprog := VSkip | VSeq (a b : vprog) | VIf (c : vcond) (a b : vprog) | VAct (a : vact).

Global Instance vact_eq_dec : EqDecision vact.
Proof. solve_decision. Defined.

Section listops.
  Variable fold : str → str.

  Definition v_act (a : vact) (e : nat) (st : mstate) : mstate :=
    match a with
    | VAppend => with_ents (ents st ++ [e]) st
    | VRemoveFirst => with_ents (remove_first e (ents st)) st
    | VRemClass => upd_class (ix_remove (cls_of fold st e) e) st
    | VRemTarget => upd_target (ix_remove (tgt_of fold st e) e) st
    | VAddClass => upd_class (ix_add (cls_of fold st e) e) st
    | VAddTarget => upd_target (ix_add (tgt_of fold st e) e) st
    end.
  Fixpoint v_cond (c : vcond) (e : nat) (st : mstate) : bool :=
    match c with
    | VCIsSpawn => bool_decide (e = spawn st)
    | VCInEnts => bool_decide (e ∈ ents st)
    | VCNot c => negb (v_cond c e st)
    | VCOr a b => v_cond a e st || v_cond b e st
    | VCAnd a b => v_cond a e st && v_cond b e st
    | VCCached _ => false
    end.
  Fixpoint v_run (p : vprog) (e : nat) (st : mstate) : mstate :=
    match p with
    | VSkip => st
    | VSeq a b => v_run b e (v_run a e st)
    | VIf c a b => if v_cond c e st then v_run a e st else v_run b e st
    | VAct a => v_act a e st
    end.
  Definition vacts_run (l : list vact) (e : nat) (st : mstate) : mstate := foldl (λ s a, v_act a e s) st l.

  (** ** The obligation: which actions each path executes.
      Facts: is the item the worldspawn; is it in the entity list at the start ([f_l0]); is it still in the list
      after one [list.remove] ([f_l1]: it was added more than once).  [vphase]: what has been done to the list so
      far — nothing, exactly one removal, anything else (then a membership test is not decided by the facts). *)
  Inductive vphase := P0 | P1 | PX.
  Record vfacts := VF { f_sp : bool; f_l0 : bool; f_l1 : bool }.

  Fixpoint vcond_abs (c : vcond) (f : vfacts) (ph : vphase) : option bool :=
    match c with
    | VCIsSpawn => Some (f_sp f)
    | VCInEnts => match ph with P0 => Some (f_l0 f) | P1 => Some (f_l1 f) | PX => None end
    | VCNot c => negb <$> vcond_abs c f ph
    | VCOr a b => match vcond_abs a f ph, vcond_abs b f ph with Some x, Some y => Some (x || y) | _, _ => None end
    | VCAnd a b => match vcond_abs a f ph, vcond_abs b f ph with Some x, Some y => Some (x && y) | _, _ => None end
    | VCCached _ => None
    end.
  Definition vphase_after (a : vact) (ph : vphase) : vphase :=
    match a with
    | VAppend => PX
    | VRemoveFirst => match ph with P0 => P1 | _ => PX end
    | _ => ph
    end.
  Fixpoint v_flat (p : vprog) (f : vfacts) (ph : vphase) : option (list vact * vphase) :=
    match p with
    | VSkip => Some ([], ph)
    | VAct a => Some ([a], vphase_after a ph)
    | VSeq a b => match v_flat a f ph with
                  | Some (la, ph1) => match v_flat b f ph1 with Some (lb, ph2) => Some (la ++ lb, ph2) | None => None end
                  | None => None
                  end
    | VIf c a b => match vcond_abs c f ph with
                   | Some true => v_flat a f ph
                   | Some false => v_flat b f ph
                   | None => None
                   end
    end.

  (** what today's code executes *)
  Definition remove_today (f : vfacts) : list vact :=
    VRemoveFirst :: (if f_sp f || f_l1 f then [] else [VRemClass; VRemTarget]).
  Definition remove_today' (f : vfacts) : list vact :=
    VRemoveFirst :: (if f_sp f || f_l1 f then [] else [VRemTarget; VRemClass]).
  Definition all_vfacts : list vfacts := s ← [false; true]; a ← [false; true]; b ← [false; true]; [VF s a b].
  Definition remove_path_ok (p : vprog) (f : vfacts) : bool :=
    match v_flat p f P0 with
    | Some (l, _) => bool_decide (l = remove_today f) || bool_decide (l = remove_today' f)
    | None => false
    end.
  (** the named obligations of remove_ent *)
  Definition remove_worldspawn_stays_indexed (p : vprog) : bool :=
    forallb (λ f, negb (f_sp f) || remove_path_ok p f) all_vfacts.
  Definition remove_still_listed_stays_indexed (p : vprog) : bool :=
    forallb (λ f, f_sp f || negb (f_l1 f) || remove_path_ok p f) all_vfacts.
  Definition remove_unlists_and_unindexes (p : vprog) : bool :=
    forallb (λ f, f_sp f || f_l1 f || remove_path_ok p f) all_vfacts.
  Definition remove_ok (p : vprog) : bool :=
    remove_worldspawn_stays_indexed p && remove_still_listed_stays_indexed p && remove_unlists_and_unindexes p.

  (** add_ent: the item is appended once and added once to each index, unconditionally, in any order *)
  Definition count_vact (a : vact) (l : list vact) : nat := length (List.filter (λ b, bool_decide (a = b)) l).
  Definition add_path_ok (p : vprog) (f : vfacts) : bool :=
    match v_flat p f P0 with
    | Some (l, _) => Nat.eqb (length l) 3 && Nat.eqb (count_vact VAppend l) 1 && Nat.eqb (count_vact VAddClass l) 1
                     && Nat.eqb (count_vact VAddTarget l) 1
    | None => false
    end.
  Definition add_ok (p : vprog) : bool := forallb (add_path_ok p) all_vfacts.

  Definition remove_ent_today : vprog :=
    VSeq (VAct VRemoveFirst) (VIf (VCOr VCIsSpawn VCInEnts) VSkip (VSeq (VAct VRemClass) (VAct VRemTarget))).
  Definition add_ent_today : vprog := VSeq (VAct VAppend) (VSeq (VAct VAddClass) (VAct VAddTarget)).
  (** the membership test placed before the list removal; the guard with `and` instead of `or` *)
  Definition remove_ent_test_first : vprog :=
    VIf (VCOr VCIsSpawn VCInEnts) (VAct VRemoveFirst) (VSeq (VAct VRemoveFirst) (VSeq (VAct VRemClass) (VAct VRemTarget))).
  Definition remove_ent_and_guard : vprog :=
    VSeq (VAct VRemoveFirst) (VIf (VCAnd VCIsSpawn VCInEnts) VSkip (VSeq (VAct VRemClass) (VAct VRemTarget))).
  (** "still listed" read from a flag on the entity instead of the scan of the list (round 5) *)
  Definition remove_ent_cached_flag : vprog :=
    VSeq (VAct VRemoveFirst) (VIf (VCOr VCIsSpawn (VCCached [95;105;110;95;109;97;112]%N)) VSkip (VSeq (VAct VRemClass) (VAct VRemTarget))).
End listops.
