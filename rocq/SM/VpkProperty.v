(** C13 as one statement: the parts proved separately (API refinement with with-blocks, placement tables, nested dicts, string codec,
    directory codec as the programs of write_dirfile / load_dirfile, name helpers, archive file names, read-only rejection) composed, with
    every hypothesis about the objects read from the source visible as one boolean [c13_hyps].  The check discharges
    [c13_hyps <today's generated objects> = true] as an instance obligation on every run. *)
From Coq Require Import List NArith Bool Permutation.
From SV Require Import Fmt.VpkDir Fmt.VpkDirProofs Fmt.VpkDirV2 Fmt.VpkName Fmt.VpkNameSplit Fmt.VpkNameProofs SM.Vpk SM.VpkProofs.
From SV Require Import Fmt.VpkArchName Fmt.VpkArchNameProofs SM.VpkRefine.
From SV Require Import Fmt.VpkNullStr Fmt.VpkNullStrProofs SM.VpkNested SM.VpkApi SM.VpkApiProofs SM.VpkNestedMap SM.VpkNestedWf SM.VpkPlace SM.VpkPlaceProofs SM.VpkPlaceTable SM.VpkPlaceTableProofs.
From SV Require Import SM.VpkWriteOrder SM.VpkWriteOrderProofs SM.VpkListing SM.VpkListingProofs.
From SV Require Import Fmt.VpkNameJoin Fmt.VpkNameJoinProofs Fmt.VpkDirProg Fmt.VpkDirProgProofs Fmt.VpkDirRead Fmt.VpkDirReadProofs.
Import ListNotations.
Open Scope N_scope.

(** Everything the theorem assumes about today's source, as booleans on the objects the translators produce:
    [et] the truth table of VPK.__exit__; [cf] format constants + validations; [pt] / [rt] the tables of FileInfo.write / read+verify;
    [g1] [g2] the get-or-create steps of new_file; [prog] the clean-up of __delitem__; [nk] _write_nullstring / iter_nullstr;
    [wp] / [rp] the programs of write_dirfile / load_dirfile; [sk] the split statement, [gp] the description of _get_file_parts,
    [jt] the table of _join_file_parts; [nc] the archive naming sites. *)
Definition c13_hyps (et : list exit_row) (cf : vcfg) (pt : list prow) (rt : list rrow) (g1 g2 : goc) (prog : dprog) (nk : ncodec)
  (wp : wprog) (rp : rprog) (sk : split_kind) (gp : gparts) (jt : list jrow) (nc : ncfg) : bool :=
  exit_table_ok et && vcfg_okb cf && place_table_ok pt && read_table_ok rt && goc_ok g1 && goc_ok g2 && prog_safe prog && ncodec_ok nk
  && wprog_ok wp && rprog_ok rp && split_kind_ok sk && gparts_ok gp && join_table_ok jt && ncfg_ok nc.

Theorem c13_property_composed et cf pt rt g1 g2 prog nk wp rp sk gp jt nc :
  c13_hyps et cf pt rt g1 g2 prog nk wp rp sk gp jt nc = true -> forall (crc : bytes -> N) (normpath : bytes -> bytes),
  (* 1. any history of new_file / add_file / write / del / write_dirfile / reopen / with-blocks / load_dirfile(), whose data values do not
        collide under the checksum and whose fields fit, then leaving a with-block normally (or write_dirfile) and reopening in 'r' or 'a':
        every call returned what the specification map says, the reopened archive lists exactly the files that should exist, and each
        file — read as the read table says — gives the bytes last written and passes verify() *)
  (forall xs m st codes, m <> MW -> collision_free crc (xplain xs) ->
     xrun et crc cf init (xs ++ [XExit true; XOp (OReopen m)]) = Some (st, codes) ->
     let '(s0, c0) := sxrun cf sinit xs in
     writable (smd s0) = true ->
     codes = c0 ++ [rOk; rOk] /\ md st = m /\ Permutation (map fst (tbl st)) (map fst (cur s0)) /\
     forall k, match alookup k (tbl st), alookup k (cur s0) with
               | Some i, Some d => read_info_t rt st i = Some d /\ verify_info_t rt crc st i = Some true
               | None, None => True
               | _, _ => False
               end)
  /\ (forall ops m st codes, m <> MW -> collision_free crc ops ->
     run crc cf init (ops ++ [OSave; OReopen m]) = Some (st, codes) ->
     let '(s0, c0) := srun cf sinit ops in
     writable (smd s0) = true ->
     codes = c0 ++ [rOk; rOk] /\ md st = m /\ Permutation (map fst (tbl st)) (map fst (cur s0)) /\
     forall k, match alookup k (tbl st), alookup k (cur s0) with
               | Some i, Some d => read_info_t rt st i = Some d /\ verify_info_t rt crc st i = Some true
               | None, None => True
               | _, _ => False
               end)
  (* 2. wherever the data is placed: the write of the state machine is the write the placement table describes *)
  /\ (forall st i d ix, write_info_t pt crc cf st i d ix = Some (write_info crc cf st i d ix))
  (* 3. the directory file: write_dirfile of the state machine is the translated writer program, reopen is the translated reader program,
        and the reader reads back what the writer wrote *)
  /\ (forall t footer, wexec (v_dc cf) footer wp t = enc_file (v_dc cf) t footer)
  /\ (forall bs, rexec (v_dc cf) rp bs = dec_file_v (v_dc cf) bs)
  /\ (forall t footer b, wf_tree (v_dc cf) t -> wexec (v_dc cf) footer wp t = Some b -> rexec (v_dc cf) rp b = Some (1, nmap (flat_tree t), footer))
  (* 4. the strings of the tree go through the translated codec, of any length *)
  /\ (forall s, write_cstr_k nk s = write_cstr s) /\ (forall bs, next_str_k nk bs = next_str bs)
  /\ (forall s rest, str_ok s = true -> next_str_k nk (write_cstr_k nk s ++ rest) = Some (Some s, rest))
  (* 5. the nested dicts hold exactly the table of the state machine, after any sequence of new_file / updates / deletes *)
  /\ (forall ops, exists t, nt_run g1 g2 prog [] ops = Some t
        /\ Permutation (map fst (flat_tree t)) (map fst (tb_run [] ops)) /\ forall k, alookup k (flat_tree t) = alookup k (tb_run [] ops))
  (* 6. names: string, 2-tuple and 3-tuple forms resolve alike, and the listed name of an entry resolves back to it
        (carve-outs: names whose last component ends in '.', known finding name-trailing-dot) *)
  /\ (forall s, let '(h, t) := split_path s in let '(n, e) := split_ext t [] in
        file_parts_g normpath sk gp (NPair h t) = file_parts_g normpath sk gp (NStr s)
        /\ ((e = [] -> rsplit1 46 n = None) -> file_parts_g normpath sk gp (NTriple h n e) = file_parts_g normpath sk gp (NStr s)))
  /\ (forall k, key_listable normpath k -> exists s, join_k jt k = Some s /\ file_parts_g normpath sk gp (NStr s) = k)
  (* 7. numbered archives: the file FileInfo.write appends to is the file read() and verify() open *)
  /\ (forall f p i, dir_prefix_of nc f = Some p ->
        site_name nc f (n_writer nc) i = Some (arch_filename nc p (Some i))
        /\ Forall (fun r => site_name nc f r i = Some (arch_filename nc p (Some i))) (n_readers nc)
        /\ arch_filename nc p None = f)
  (* 8. read-only archives reject every mutation *)
  /\ (forall st o, md st = MR -> mutating o = true -> exists c, step crc cf st o = Some (st, c) /\ (c = rReadOnly \/ c = rMissing)).
Proof.
  unfold c13_hyps. intros H crc normpath.
  do 13 (apply andb_prop in H; destruct H as [H ?]).
  rename H into Het, H0 into Hnc, H1 into Hjt, H2 into Hgp, H3 into Hsk, H4 into Hrp, H5 into Hwp, H6 into Hnk, H7 into Hprog, H8 into Hg2,
         H9 into Hg1, H10 into Hrt, H11 into Hpt, H12 into Hcf.
  assert (Hdc : dcfg_ok (v_dc cf) = true) by apply (vcfg_okb_inv cf Hcf).
  split.
  { intros xs m st codes Hm Hfree Hrun.
    pose proof (vpk_with_block_saves et crc cf Het Hcf xs m st codes Hm Hfree Hrun) as P.
    destruct (sxrun cf sinit xs) as [s0 c0]. intros Hw. destruct (P Hw) as (P1 & P2 & P3 & P4). repeat split; try assumption.
    now apply (read_table_reads rt Hrt). }
  split.
  { intros ops m st codes Hm Hfree Hrun.
    pose proof (vpk_history_save_reopen crc cf Hcf ops m st codes Hm Hfree Hrun) as P.
    destruct (srun cf sinit ops) as [s0 c0]. intros Hw. destruct (P Hw) as (P1 & P2 & P3 & P4). repeat split; try assumption.
    now apply (read_table_reads rt Hrt). }
  split; [exact (write_info_t_is_write_info pt Hpt crc cf)|].
  split; [intros t footer; apply (wprog_ok_is_enc_file wp Hwp)|].
  split; [intros bs; apply (rprog_ok_is_dec_file_v rp Hrp)|].
  split; [intros t footer b; apply (programs_roundtrip wp rp Hwp Hrp (v_dc cf) Hdc)|].
  split; [exact (proj1 (ncodec_ok_is_model nk Hnk))|].
  split; [exact (proj2 (ncodec_ok_is_model nk Hnk))|].
  split; [exact (nullstr_roundtrip nk Hnk)|].
  split; [exact (nested_history_lists_table g1 g2 prog Hg1 Hg2 Hprog)|].
  split.
  { intros s. pose proof (name_forms_agree_k normpath sk Hsk s) as P.
    destruct (split_path s) as [h t]. destruct (split_ext t []) as [n e].
    rewrite !(gparts_ok_is_file_parts gp Hgp). exact P. }
  split; [exact (generated_parts_of_join normpath sk gp jt Hsk Hgp Hjt)|].
  split; [exact (arch_names_coincide nc Hnc)|].
  exact (readonly_rejects crc cf).
Qed.

(** The hypotheses are satisfiable: the objects of vpk.py as pinned. *)
Example c13_hyps_pinned :
  c13_hyps exit_table_pinned ex_cfg table_pinned rtable_pinned goc_pinned goc_pinned del_prog_pinned ncodec_pinned wprog_pinned rprog_pinned
           (SplitLast 46) gparts_pinned join_table_pinned (ex_ncfg (n_writer (ex_ncfg reader_rstrip))) = true.
Proof. vm_compute. reflexivity. Qed.

(** [rj] is the rejection table of FileInfo.write (the method executed with a read-only archive / an index out of range /
    both: what raised, and what had been stored by then); [wn] / [wi] are the walks `filenames` / `fileinfos` perform for every combination
    of (extension argument given?, folder argument given?).  Under the hypotheses of [c13_property_composed] and these: the OWrite step of
    the state machine — the only place where the refinement proof uses "a rejected write changes nothing" — is the method run from the two
    generated tables, a rejected write stores nothing, and the listing methods called with arguments list, in the order of the default
    walk, exactly its entries with the extension whose folder name starts with the folder argument. *)
Definition c13_hyps_r5 (et : list exit_row) (cf : vcfg) (pt : list prow) (rt : list rrow) (g1 g2 : goc) (prog : dprog) (nk : ncodec)
  (wp : wprog) (rp : rprog) (sk : split_kind) (gp : gparts) (jt : list jrow) (nc : ncfg) (rj : list rejrow)
  (wn wi : list (bool * bool * lwalk)) : bool :=
  c13_hyps et cf pt rt g1 g2 prog nk wp rp sk gp jt nc && rej_table_ok rj && walks_ok wn && walks_ok wi.

Theorem c13_property_r5_composed et cf pt rt g1 g2 prog nk wp rp sk gp jt nc rj wn wi :
  c13_hyps_r5 et cf pt rt g1 g2 prog nk wp rp sk gp jt nc rj wn wi = true -> forall (crc : bytes -> N),
  c13_hyps et cf pt rt g1 g2 prog nk wp rp sk gp jt nc = true
  /\ (forall st k d ix,
        step crc cf st (OWrite k d ix) =
          match alookup k (tbl st) with
          | None => Some (st, rMissing)
          | Some i => match write_guarded_t rj pt crc cf st i d ix with
                      | Some (st', i', c) => Some (if c =? rOk then with_tbl st' (aset k i' (tbl st')) else st', c)
                      | None => None
                      end
          end)
  /\ (forall st i d ix st' i' c, write_guarded_t rj pt crc cf st i d ix = Some (st', i', c) -> c <> rOk -> st' = st /\ i' = i)
  /\ (forall eg fg w, In (eg, fg, w) (wn ++ wi) -> forall ext folder t, NoDup (map fst t) ->
        list_walk w ext folder t = filter (listed eg fg ext folder) (flat_tree t)).
Proof.
  unfold c13_hyps_r5. intros H crc. apply andb_prop in H. destruct H as [H Hwi]. apply andb_prop in H. destruct H as [H Hwn].
  apply andb_prop in H. destruct H as [H Hrj]. split; [exact H|].
  unfold c13_hyps in H. do 13 (apply andb_prop in H; destruct H as [H ?]).
  assert (Hchk : v_chk_idx cf = true) by (apply (vcfg_okb_inv cf); assumption).
  split; [|split].
  - intros st k d ix. apply step_write_is_guarded_tables; assumption.
  - intros st i d ix st' i' c. apply (rejected_write_stores_nothing rj pt); assumption.
  - intros eg fg w Hin. apply in_app_or in Hin. destruct Hin as [Hin|Hin].
    + exact (walks_ok_lists_matching wn Hwn eg fg w Hin).
    + exact (walks_ok_lists_matching wi Hwi eg fg w Hin).
Qed.

Example c13_hyps_r5_pinned :
  c13_hyps_r5 exit_table_pinned ex_cfg table_pinned rtable_pinned goc_pinned goc_pinned del_prog_pinned ncodec_pinned wprog_pinned rprog_pinned
           (SplitLast 46) gparts_pinned join_table_pinned (ex_ncfg (n_writer (ex_ncfg reader_rstrip))) rej_table_pinned walks_pinned walks_pinned = true.
Proof. vm_compute. reflexivity. Qed.
