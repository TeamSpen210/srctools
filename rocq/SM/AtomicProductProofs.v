(** Proofs about SM/AtomicProduct.v: the two-writer invariant [Inv d0 s1 s2] of AtomicWriterProofs.v, re-based at A's
    destination, survives the restart of A; hence, for every history of uses of A and every interleaving with B's single use:
    B's destination is old or B's complete new content, A and B never hold the same temp name, the temp file B holds
    exists with exactly the content B has written so far (no re-entry of A removes or rewrites it), and nothing else
    in the directory changes.  Flag machine first, then every protocol in the good part of the family. *)
From Coq Require Import List Bool Arith PeanoNat.
From SV Require Import SM.AtomicWriter SM.AtomicWriterProofs SM.AtomicExit SM.AtomicExitProofs
  SM.AtomicProduct.
Import ListNotations.

Definition rebase (d0 : dir) (k : nat) (d : dir) : dir := upd d0 (File k) (d (File k)).

Lemma rebase_other d0 k d n : n <> File k -> rebase d0 k d n = d0 n.
Proof. intros H. unfold rebase. now apply upd_other. Qed.
Lemma rebase_same d0 k d : rebase d0 k d (File k) = d (File k).
Proof. unfold rebase. apply upd_same. Qed.

Lemma inv_restart d0 s1 s1' s2 st r :
  dest s1' = dest s1 -> dest s1 <> dest s2 ->
  Inv d0 s1 s2 st -> p1 st = PDone r None ->
  Inv (rebase d0 (dest s1) (sd st)) s1' s2 (restart st).
Proof.
  intros Hd Hne [O1 O2 Dj D1 D2 Fr] Hp. constructor; cbn [restart sd p1 p2].
  - intros i H. discriminate.
  - intros i H. destruct (O2 i H) as (A & ct & B & C). split; [|eauto].
    rewrite rebase_other; [exact A|discriminate].
  - intros i H. discriminate.
  - unfold DestOk. cbn. rewrite Hd. symmetry. apply rebase_same.
  - unfold DestOk in *. rewrite D2. rewrite rebase_other; [reflexivity|].
    intros E. injection E as E. now apply Hne.
  - intros n N1 N2 N3. rewrite Hd in N1. rewrite rebase_other by exact N1.
    apply Fr; auto. intros i Hi. rewrite Hp. cbn. split; [discriminate|]. exact (proj2 (N3 i Hi)).
Qed.

Section Product.
Variable c : cfg.
Hypothesis Hsafe : cfg_safe c = true.
Variable d0 : dir.
Variable k1 : nat.            (* the destination of the reused writer *)
Variable s2 : scen.
Hypothesis Hne : k1 <> dest s2.

(** What holds at every point: the two-writer invariant relative to a base that differs from [d0] at A's destination
    only. *)
Definition PInv (st : sys) : Prop :=
  exists base s1, dest s1 = k1 /\ Inv base s1 s2 st /\ forall n, n <> File k1 -> base n = d0 n.

(** A stands at [mkdir]; its scenario then occurs in the invariant only through its destination. *)
Definition PStart (st : sys) : Prop :=
  exists base s, dest s = k1 /\ Inv base s s2 st /\ p1 st = PMkdir /\ forall n, n <> File k1 -> base n = d0 n.

Lemma pinv_run s1 sched st : dest s1 = k1 -> PStart st ->
  exists base, Inv base s1 s2 (run2 c s1 s2 sched st) /\ forall n, n <> File k1 -> base n = d0 n.
Proof.
  intros Hd (base & s & Hs & [O1 O2 Dj D1 D2 Fr] & Hp & Hb). exists base. split; [|exact Hb].
  apply inv_run; [exact Hsafe|congruence|].
  constructor; rewrite ?Hp in *.
  - intros i H. discriminate.
  - exact O2.
  - intros i H. discriminate.
  - unfold DestOk in *. cbn in *. now rewrite Hd, <- Hs.
  - exact D2.
  - intros n N1 N2 N3. apply Fr; auto; congruence.
Qed.

Lemma pinv_history h : (forall u, In u h -> dest (fst u) = k1) -> forall st,
  PStart st -> h <> [] -> PInv (prun c s2 h st).
Proof.
  induction h as [|[s1 sched] r IH]; intros Hh st Hst Hn; [congruence|].
  assert (Hd : dest s1 = k1) by (apply (Hh (s1, sched)); now left).
  destruct (pinv_run s1 sched st Hd Hst) as (base & HI & Hb).
  cbn [prun]. destruct r as [|u r'].
  - exists base, s1. auto.
  - destruct (clean_done (p1 (run2 c s1 s2 sched st))) eqn:Ec; [|exists base, s1; auto].
    apply IH; [intros v Hv; apply Hh; now right| |discriminate].
    destruct (p1 (run2 c s1 s2 sched st)) eqn:Ep; try discriminate. destruct left; try discriminate.
    exists (rebase base (dest s1) (sd (run2 c s1 s2 sched st))), s1. split; [exact Hd|]. split.
    + eapply inv_restart; eauto. congruence.
    + split; [reflexivity|]. intros n Hn'. rewrite rebase_other by congruence. now apply Hb.
Qed.

(** Every history of A (all uses to [k1]), B in flight, every schedule of every segment. *)
Theorem product_isolated h : h <> [] -> (forall u, In u h -> dest (fst u) = k1) ->
  let st := prun c s2 h (start d0) in
  (* B's destination: previous contents, or B's complete new contents once B's rename succeeded *)
  sd st (File (dest s2)) = (if committed (p2 st) then Some (new s2) else d0 (File (dest s2))) /\
  (* A and B never hold the same temp name *)
  (forall i, assoc (p1 st) = Some i -> assoc (p2 st) = Some i -> False) /\
  (* the temp file B holds did not exist before, exists, and holds what B has written so far *)
  (forall i, assoc (p2 st) = Some i -> d0 (Tmp i) = None /\ exists ct, sd st (Tmp i) = Some ct /\ progress s2 (p2 st) ct) /\
  (* nothing else changes *)
  (forall n, n <> File k1 -> n <> File (dest s2) ->
     (forall i, n = Tmp i -> assoc (p1 st) <> Some i /\ assoc (p2 st) <> Some i) -> sd st n = d0 n).
Proof.
  intros Hn Hh st.
  assert (Hst : PStart (start d0)).
  { exists d0, {| dest := k1; body := []; tail := []; raise_at := None |}.
    split; [reflexivity|]. split; [apply inv_start|]. split; [reflexivity|]. intros; reflexivity. }
  destruct (pinv_history h Hh (start d0) Hst Hn) as (base & s1 & Hd & [O1 O2 Dj D1 D2 Fr] & Hb).
  fold st in O1, O2, Dj, D1, D2, Fr. repeat split.
  - unfold DestOk in D2. rewrite D2. rewrite Hb; [reflexivity|]. intros E. injection E as E. now apply Hne.
  - exact Dj.
  - destruct (O2 i H) as (A & _). rewrite <- Hb; [exact A|discriminate].
  - destruct (O2 i H) as (_ & B). exact B.
  - intros n N1 N2 N3. rewrite <- Hb by exact N1. apply Fr; auto. congruence.
Qed.
End Product.

(** ** The same for every protocol in the good part of the family (tree machine) *)
Lemma Rsys_restart c a b : Rsys c a b -> Rsys c (restartt a) (restart b).
Proof. intros (Hd & Ht & H1 & H2). unfold Rsys; cbn. repeat split; auto. constructor. Qed.

Lemma R_clean_done c pt p : R c pt p -> clean_donet pt = clean_done p.
Proof. destruct 1; reflexivity. Qed.

Lemma prunt_sim c s2 h : forall a b, Rsys c a b -> Rsys c (prunt (proto_of_cfg c) s2 h a) (prun c s2 h b).
Proof.
  induction h as [|[s1 sched] r IH]; intros a b H; cbn [prunt prun]; [exact H|].
  pose proof (run2t_sim c s1 s2 sched a b H) as H'. destruct r as [|u r']; [exact H'|].
  destruct H' as (Hd & Ht & H1 & H2). rewrite (R_clean_done _ _ _ H1).
  destruct (clean_done (p1 (run2 c s1 s2 sched b))).
  - apply IH. apply Rsys_restart. unfold Rsys; auto.
  - unfold Rsys; auto.
Qed.

Lemma R_progress c s pt p ct : R c pt p -> progress s p ct -> progresst s pt ct.
Proof. destruct 1; cbn; auto. Qed.

