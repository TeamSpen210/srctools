(** C10: the premise "the writer of every view inverts its reader on the values the file holds"
    ([codec_ok] of SM/LazyLumpsProofs.v), made visible PER VIEW, and discharged for the texture-name view from the
    object C11 generates from [_lmp_write_textures] / [_lmp_read_textures] (Gen/BspGlue_gen.v: [tex_cfg]) through
    C11's model Fmt/BspTexStrings.v and theorem [texdata_strings_roundtrip].

    What C10 needs from a view codec is slightly different from what C11 states: C11 quantifies over the values a
    user may assign (and has the writer's guard as a hypothesis), C10 over the values the READER returns for the
    lumps of the file.  So the extra obligation here is that every value the reader can return passes the writer's
    guard ([texcfg_window_is_guard]: a name the reader accepts has fewer characters than the search window, the
    writer refuses names of [maxlen + 1] characters and more). *)
From Coq Require Import List Arith NArith Lia.
From SV Require Import SM.LazyLumps SM.LazyLumpsProofs Fmt.BspTexStrings Fmt.BspTexStringsProofs.
Import ListNotations.
Close Scope N_scope.

(** * Per-view form of the codec premise ([c10_property] in Props/C10.v states the whole property with it) *)
Section PerView.
  Variables D P : Type.
  Variable rd : nat -> list D -> option P.
  Variable wr : nat -> P -> list D.
  Variable g : graph.

  (** On the value [p] that the reader of view [v] makes of the lumps of THIS file, reading what the writer wrote
      gives [p] again, and the writer returns one datum per lump the view owns. *)
  Definition codec_ok_at (s0 : state D P) (v : nat) : Prop :=
    forall p, rd v (own_data D P g s0 v) = Some p ->
      rd v (wr v p) = Some p /\ length (wr v p) = length (own g v).

  Lemma codec_ok_per_view : forall s0,
    (forall v, v < nviews g -> codec_ok_at s0 v) <-> (codec_ok D P rd wr g s0 /\ wr_len_ok D P rd wr g s0).
  Proof.
    intros s0. split.
    - intros H. split; intros v p Hv Hr; destruct (H v Hv p Hr) as [A B]; assumption.
    - intros [Hc Hl] v Hv p Hr. split; [apply Hc | apply Hl]; assumption.
  Qed.

  (** The list form (one premise per position of the rebuild order), convenient for instances. *)
  Lemma codec_ok_from_list : forall s0,
    Forall (codec_ok_at s0) (seq 0 (nviews g)) -> forall v, v < nviews g -> codec_ok_at s0 v.
  Proof.
    intros s0 H v Hv. rewrite Forall_forall in H. apply H. apply in_seq. lia.
  Qed.

  (** One view whose codec fails on the file's own value is enough to lose content: the premise cannot be dropped
      for any single view (the per-view premises are independent). *)
  Lemma codec_ok_needs_every_view : forall s0 v, v < nviews g ->
    codec_ok D P rd wr g s0 -> forall p, rd v (own_data D P g s0 v) = Some p -> rd v (wr v p) = Some p.
  Proof. intros s0 v Hv Hc p Hr. exact (Hc v p Hv Hr). Qed.
End PerView.

(** * The texture-name view: lumps TEXDATA_STRING_DATA (the block) and TEXDATA_STRING_TABLE (one offset per name) *)
Open Scope N_scope.

(** The two lumps of the view as the model sees them; the [<i] packing of the offsets is C11's struct layer
    ([c11_unpack_pack]) and is not repeated here. *)
Inductive tdatum := TBytes (b : list N) | TOffs (o : list nat).

Fixpoint sequence {A : Type} (l : list (option A)) : option (list A) :=
  match l with
  | [] => Some []
  | Some x :: r => option_map (cons x) (sequence r)
  | None :: _ => None
  end.

Definition texcfg_window_is_guard (c : texcfg) : bool := let '(_, _, maxlen, win) := c in Nat.eqb win (S maxlen).

(** [_lmp_read_textures]: every table entry is read up to the next NUL inside the window; one bad entry = ValueError. *)
Definition tex_view_rd (c : texcfg) (ds : list tdatum) : option (list (list N)) :=
  let '(_, _, _, win) := c in
  match ds with
  | [TBytes data; TOffs offs] => sequence (map (tex_read win data) offs)
  | _ => None
  end.
(** [_lmp_write_textures]: returns the block, stores the table. *)
Definition tex_view_wr (c : texcfg) (names : list (list N)) : list tdatum :=
  let '(ss, sa, _, _) := c in let '(data, offs) := tex_write ss sa names in [TBytes data; TOffs offs].

Lemma sequence_map_Some : forall (A : Type) (l : list A), sequence (map Some l) = Some l.
Proof. induction l as [|x l IH]; [reflexivity|]. cbn [map sequence]. rewrite IH. reflexivity. Qed.

Lemma sequence_Some_Forall : forall (A B : Type) (f : A -> option B) (Q : B -> Prop),
  (forall a b, f a = Some b -> Q b) -> forall l r, sequence (map f l) = Some r -> Forall Q r.
Proof.
  intros A B f Q Hf. induction l as [|a l IH]; intros r E; cbn [map sequence] in E.
  - injection E as <-. constructor.
  - destruct (f a) as [b|] eqn:Fa; [|discriminate].
    destruct (sequence (map f l)) as [r'|] eqn:S; [|discriminate]. cbn [option_map] in E. injection E as <-.
    constructor; [exact (Hf a b Fa) | apply IH; reflexivity].
Qed.

(** What the reader returns is NUL-free and shorter than the window. *)
Lemma take_until0_spec : forall fuel l s, take_until0 fuel l = Some s -> nul_free s = true /\ (length s < fuel)%nat.
Proof.
  induction fuel as [|f IH]; intros l s E; cbn [take_until0] in E; [discriminate|].
  destruct l as [|x r]; [discriminate|]. destruct (x =? 0) eqn:X.
  - injection E as <-. split; [reflexivity | cbn [length]; lia].
  - destruct (take_until0 f r) as [s'|] eqn:T; [|discriminate]. cbn [option_map] in E. injection E as <-.
    destruct (IH r s' T) as [A B]. split.
    + unfold nul_free. cbn [forallb]. rewrite X. cbn [negb andb]. exact A.
    + cbn [length]. lia.
Qed.

(** The codec premise of the texture-name view, for EVERY content of its two lumps, from the generated
    configuration alone: if the reader accepts the lumps and returns [names], the writer's output is accepted and
    read back as [names] (whatever storage the search shared), and the writer returns its two lumps. *)
Theorem tex_view_codec : forall c, texcfg_ok c = true -> texcfg_window_is_guard c = true ->
  forall ds names, tex_view_rd c ds = Some names ->
  tex_view_rd c (tex_view_wr c names) = Some names /\ length (tex_view_wr c names) = 2%nat.
Proof.
  intros [[[ss sa] maxlen] win] Hc Hw ds names Hr. cbn [texcfg_window_is_guard] in Hw. apply Nat.eqb_eq in Hw.
  cbn [tex_view_rd] in Hr.
  destruct ds as [|[data|?] [|[?|offs] [|? ?]]]; try discriminate.
  assert (Hn : Forall (fun s => nul_free s = true /\ (length s <= maxlen)%nat) names).
  { eapply sequence_Some_Forall; [|exact Hr]. intros off s E. unfold tex_read in E.
    destruct (take_until0_spec _ _ _ E) as [A B]. split; [exact A | lia]. }
  cbn [tex_view_wr]. destruct (tex_write ss sa names) as [data' offs'] eqn:W.
  split; [|reflexivity]. cbn [tex_view_rd].
  rewrite (texdata_strings_roundtrip ss sa maxlen win names data' offs' Hc Hn W). apply sequence_map_Some.
Qed.

(** With the terminator in the search a file holding "AB" and "A" is lossless, and so is one where the shorter name is a TAIL
    of the longer (storage shared legitimately): non-vacuity of [tex_view_codec]. *)
Example tex_view_codec_example :
  let c := ([0], [0], 127%nat, 128%nat) in
  texcfg_ok c = true /\ texcfg_window_is_guard c = true /\
  tex_view_rd c (tex_view_wr c [[65; 66]; [65]]) = Some [[65; 66]; [65]] /\
  tex_view_wr c [[65; 66]; [66]] = [TBytes [65; 66; 0]; TOffs [0; 1]%nat] /\
  tex_view_rd c (tex_view_wr c [[65; 66]; [66]]) = Some [[65; 66]; [66]].
Proof. vm_compute. repeat split; reflexivity. Qed.

(** The second obligation is necessary too: a writer that refuses names of 100 characters and more cannot write back
    a 100-character name the reader accepted (look + save raises OverflowError): outside [tex_view_codec]. *)
Example texcfg_window_wider_than_guard : texcfg_ok ([0], [0], 99%nat, 128%nat) = true /\
  texcfg_window_is_guard ([0], [0], 99%nat, 128%nat) = false.
Proof. vm_compute. split; reflexivity. Qed.
