(** C19 — proofs about histories of walks and lookups (model: SM/FsState.v). *)
From Coq Require Import List NArith.
From SV Require Import SM.FsChain SM.FsChainProofs SM.FsState.
Import ListNotations.

Section WalkHistoryProofs.
  Variable F : Type.
  Variable scan : str -> list F.
  Variable keyf : str -> str.
  Hypothesis scan_respects_key : forall a b, keyf a = keyf b -> scan a = scan b.

  (** every memo entry is the complete listing of the folders with that key *)
  Definition memo_complete (m : memo F) : Prop :=
    forall folder l, memo_get F m (keyf folder) = Some l -> l = scan folder.

  Lemma memo_complete_nil : memo_complete [].
  Proof. intros folder l H. discriminate H. Qed.

  Lemma memo_complete_cons m folder :
    memo_complete m -> memo_complete ((keyf folder, scan folder) :: m).
  Proof.
    intros Hm f l. cbn [memo_get].
    destruct (eqb_str_spec (keyf f) (keyf folder)) as [E|E].
    - intros [= <-]. symmetry. apply scan_respects_key. exact E.
    - apply Hm.
  Qed.

  Lemma walk_step_keeps_complete d m folder k :
    d <> WalkMemoWhileYielding -> memo_complete m -> memo_complete (snd (walk_step F scan keyf d m folder k)).
  Proof.
    intros Hd Hm. destruct d; [exact Hm | congruence |].
    cbn [walk_step]. destruct (memo_get F m (keyf folder)); cbn [snd]; [exact Hm|].
    destruct (ran_to_end F k (scan folder)); [apply memo_complete_cons|]; exact Hm.
  Qed.

  Lemma run_walks_keeps_complete d h : forall m,
    d <> WalkMemoWhileYielding -> memo_complete m -> memo_complete (run_walks F scan keyf d m h).
  Proof.
    induction h as [|[folder k] h IH]; intros m Hd Hm; cbn [run_walks]; [exact Hm|].
    apply IH; [exact Hd|]. apply walk_step_keeps_complete; assumption.
  Qed.

  (** Whatever walks went before - complete ones, ones given up after any number of items, of any folders - the
      consumer of a walk receives a prefix of the folder's complete listing: for code that stores nothing and for code
      that stores the listing only after the scan has finished. *)
  Theorem walk_history_every_walk_is_a_prefix d h folder k :
    d <> WalkMemoWhileYielding ->
    fst (walk_step F scan keyf d (run_walks F scan keyf d [] h) folder k) = consume F k (scan folder).
  Proof.
    intros Hd.
    pose proof (run_walks_keeps_complete d h [] Hd memo_complete_nil) as Hm.
    destruct d; [reflexivity | congruence |].
    cbn [walk_step]. destruct (memo_get F _ (keyf folder)) as [l|] eqn:E; cbn [fst]; [|reflexivity].
    rewrite (Hm _ _ E). reflexivity.
  Qed.

  (** ... so a complete walk lists the complete listing. *)
  Theorem walk_history_irrelevant d h folder :
    d <> WalkMemoWhileYielding -> walk_after F scan keyf d h folder = scan folder.
  Proof. exact (walk_history_every_walk_is_a_prefix d h folder None). Qed.
End WalkHistoryProofs.

(** The census decides the discipline: no stores = stateless; a store with a [yield] still to come = the refuted one. *)
Lemma discipline_of_clean stores : no_stores stores = true -> discipline_of stores = WalkStateless.
Proof. destruct stores; [reflexivity | discriminate]. Qed.
Lemma discipline_of_before_yield stores :
  existsb is_before_yield stores = true -> discipline_of stores = WalkMemoWhileYielding.
Proof. destruct stores as [|p r]; [discriminate|]. intros H. unfold discipline_of. rewrite H. reflexivity. Qed.

(** On an object whose walk methods store nothing, after any history of walks the complete walk of a folder is the
    folder's complete listing - whatever the listing function; for the backends of the model it is [walk b fs], what the
    one-call theorems (walks_exact) speak about. *)
Lemma walk_history_no_state {F} (scan : str -> list F) c h folder :
  walk_keeps_no_state c = true ->
  walk_after F scan (fun s => s) (discipline_of (cs_walk c)) h folder = scan folder.
Proof.
  intros Hc. apply walk_history_irrelevant.
  - intros a a' ->. reflexivity.
  - unfold walk_keeps_no_state in Hc. rewrite (discipline_of_clean _ Hc). discriminate.
Qed.

(** ** chain lookups *)
Lemma run_chain_stateless_members h : forall pm ms,
  snd (run_chain LookupStateless pm ms h) = members_after ms h.
Proof.
  induction h as [|[q|f|f] h IH]; intros pm ms; cbn [run_chain members_after]; [reflexivity| apply IH ..].
Qed.

(** Lookups that store nothing: after any history of lookups, add_sys calls and direct edits of [systems], a lookup
    is [chain_get] over the members then mounted (so the priority theorems apply to them). *)
Theorem chain_lookup_history_irrelevant ms h q :
  chain_lookup_after LookupStateless ms h q = chain_get (members_after ms h) q.
Proof.
  unfold chain_lookup_after. cbn [chain_lookup_step fst]. rewrite run_chain_stateless_members. reflexivity.
Qed.

Theorem chain_lookup_history c ms h q :
  lookups_keep_no_state c = true ->
  chain_lookup_after (lookup_discipline_of (cs_lookup c)) ms h q = chain_get (members_after ms h) q.
Proof.
  unfold lookups_keep_no_state. destruct (cs_lookup c); [|discriminate]. intros _.
  apply chain_lookup_history_irrelevant.
Qed.

(** Remembered positions: three members, the name is in the second and the third; it is looked up, the first member is
    removed with [systems.pop(0)], it is looked up again: the remembered index now points at the third member. *)
Definition fileA : file := ([120%N], [1%N]).
Definition fileB : file := ([120%N], [2%N]).
Definition has_x (f : file) : member :=
  {| m_lookup := fun q => if eqb_str q [120%N] then Some f else None; m_walk := fun _ => []; m_prefix := [] |}.
Definition empty_member : member := {| m_lookup := fun _ => None; m_walk := fun _ => []; m_prefix := [] |}.

(** ** the census as a hypothesis of the whole property *)
Lemma histories_irrelevant_for_clean_census c : state_ok c = true -> histories_irrelevant c.
Proof.
  unfold state_ok. rewrite forallb_forall. intros H. split.
  - intros cen Hin scan h folder. apply walk_history_no_state.
    assert (Hc : census_clean cen = true) by (apply H; right; apply in_or_app; left; exact Hin).
    apply andb_prop in Hc. exact (proj1 Hc).
  - intros ms h q. apply chain_lookup_history.
    assert (Hc : census_clean (sc_chain c) = true) by (apply H; left; reflexivity).
    apply andb_prop in Hc. exact (proj2 Hc).
Qed.

Definition clean_census : fs_census := {| cs_walk := []; cs_lookup := [] |}.
Definition witness_census : state_census :=
  {| sc_chain := clean_census; sc_virtual := clean_census; sc_raw := clean_census; sc_zip := clean_census;
     sc_vpk := clean_census; sc_helpers := clean_census; sc_vpk_reader := clean_census |}.
Lemma state_ok_satisfiable : state_ok witness_census = true.
Proof. reflexivity. Qed.

