(** C17 — [kinds_ok] (generated, evaluated per run) + [follows] (the residual contract, per statement kind) give
    [respects] of SM/C17Whole.v; a machine that follows its table exists (the example of SM/C17WholeProofs.v). *)
From Coq Require Import List String Reals.
From SV Require Import SM.Store SM.StoreCopy SM.C17Frame SM.C17Global SM.C17Whole SM.C17WholeProofs SM.C17Kinds
                       Rot.C17Base.
Import ListNotations.
Local Open Scope nat_scope.

Lemma disciplined_mono : forall all c1 c2, (forall x, In x c1 -> In x c2) ->
  forall h R h' R', disciplined all c1 h R h' R' -> disciplined all c2 h R h' R'.
Proof.
  intros all c1 c2 I h R h' R' D. induction D.
  - apply dis_done.
  - eapply dis_work; eassumption.
  - eapply dis_copy; try eassumption. apply I. assumption.
Qed.

Lemma kind_of_in : forall tbl i k, kind_of tbl i = Some k -> In (i, k) tbl.
Proof.
  induction tbl as [|[j k'] r IH]; intros i k E; [discriminate|]. cbn [kind_of] in E.
  destruct (Nat.eqb j i) eqn:J.
  - apply Nat.eqb_eq in J. injection E as <-. subst j. left; reflexivity.
  - right. apply IH. exact E.
Qed.

Section Proofs.
  Variable all : list (string * census).
  Variable copied : list string.
  Variables X G : Type.
  Variable a : loc.
  Variable tbl : kind_table.
  Variable body : skel.
  Hypothesis ok : kinds_ok tbl copied body = true.
  Variable m : sem (pstate X) G.
  Hypothesis fo : follows all X G a tbl m.

  Lemma entry_ok : forall i k, kind_of tbl i = Some k -> kind_ok copied k = true.
  Proof.
    intros i k E. apply kind_of_in in E. unfold kinds_ok in ok. apply andb_prop in ok. destruct ok as (A & _).
    rewrite forallb_forall in A. exact (A (i, k) E).
  Qed.

  Lemma heap_dis : forall i s s1, heap_by_kind all X (kind_of tbl i) s s1 -> dis all copied X s s1.
  Proof.
    intros i s s1 H. unfold dis. destruct (kind_of tbl i) as [k|] eqn:E.
    - pose proof (entry_ok i k E) as K. destruct k; cbn [heap_by_kind] in H; cbn [kind_ok] in K; try discriminate.
      + destruct H as (ms & St). eapply dis_work; [exact St | apply dis_done].
      + destruct H as (ms & St). eapply dis_work; [exact St | apply dis_done].
      + eapply disciplined_mono; [|exact H]. intros x [<-|[]].
        apply existsb_exists in K. destruct K as (y & Iy & Ey). apply String.eqb_eq in Ey. subst y. exact Iy.
    - cbn [heap_by_kind] in H. destruct H as (ms & St). eapply dis_work; [exact St | apply dis_done].
  Qed.

  Lemma val_alike : forall i (B : Type) (f : pstate X -> B), val_by_kind X a (kind_of tbl i) f ->
    forall s s', alike X a s s' -> f s = f s'.
  Proof.
    intros i B f H s s' A. destruct (kind_of tbl i) as [k|] eqn:E.
    - pose proof (entry_ok i k E) as K. destruct k; cbn [val_by_kind] in H; cbn [kind_ok] in K; try discriminate.
      + apply H. exact (proj1 A).
      + apply H. exact A.
      + apply H. exact A.
    - apply H. exact (proj1 A).
  Qed.

  Theorem kinds_respects : respects all copied X G a m.
  Proof.
    constructor.
    - intros i s W. exact (heap_dis i _ _ (f_eff_heap _ _ _ _ _ _ fo i s W)).
    - intros i s g W. exact (heap_dis i _ _ (f_teff_heap _ _ _ _ _ _ fo i s g W)).
    - intros i s W. exact (heap_dis i _ _ (f_next_heap _ _ _ _ _ _ fo i s W)).
    - intros i s s' A. pose proof (val_alike i _ _ (f_eff_val _ _ _ _ _ _ fo i) s s' A) as E. injection E as E1 E2. split; assumption.
    - intros i s s' g A. pose proof (val_alike i _ _ (f_teff_val _ _ _ _ _ _ fo i g) s s' A) as E. injection E as E1 E2. split; assumption.
    - intros i s s' A. exact (val_alike i _ _ (f_next_val _ _ _ _ _ _ fo i) s s' A).
    - intros i s s' A. exact (val_alike i _ _ (f_cond_val _ _ _ _ _ _ fo i) s s' A).
    - intros i s s' g A. exact (val_alike i _ _ (f_gcond_val _ _ _ _ _ _ fo i g) s s' A).
    - intros i s s' g A. exact (val_alike i _ _ (f_gupd_val _ _ _ _ _ _ fo i g) s s' A).
    - intros i s s' A. exact (val_alike i _ _ (f_count_val _ _ _ _ _ _ fo i) s s' A).
  Qed.
End Proofs.

(** An [KdOther] entry, a copy of a class that is not in the list, or a site without an entry make [kinds_ok] false. *)
Example kinds_ok_refuted_other : kinds_ok [(1, KdLocal); (2, KdOther)] ["Solid"%string] (KSeq (KEff 1) (KEff 2)) = false.
Proof. reflexivity. Qed.
Example kinds_ok_refuted_class : kinds_ok [(1, KdCopy "Output")] ["Solid"%string] (KEff 1) = false.
Proof. reflexivity. Qed.
Example kinds_ok_refuted_missing : kinds_ok [(1, KdLocal)] ["Solid"%string] (KSeq (KEff 1) (KIf (TOther 2) KNil KNil)) = false.
Proof. reflexivity. Qed.

(** Non-vacuity: the copying machine of SM/C17WholeProofs.v follows the table "site 0 is local, site 1 copies a Solid". *)
Definition ex_tbl : kind_table := [(0, KdLocal); (1, KdCopy "Solid")].

(* the example semantics gives every index the copying statement; a table-following variant: only site 1 copies *)
Definition ex_sem2 : sem (pstate ex_X) bool := {|
  eff := fun i s => if Nat.eqb i 1 then (ex_copy s, false) else (s, false);
  teff := fun _ s _ => (s, false);
  cond := fun _ _ => true;
  gcond := fun _ _ g => g;
  gupd := fun _ _ _ => true;
  count := fun _ _ => 1%nat;
  next := fun _ s => s |}.

Lemma ex_follows : follows ex_all ex_X bool ex_a ex_tbl ex_sem2.
Proof.
  assert (N : forall s : pstate ex_X, exists ms, steps (p_heap _ s, p_roots _ s) ms (p_heap _ s, p_roots _ s))
    by (intros; exists []; constructor).
  constructor; cbn [eff teff next cond gcond gupd count ex_sem2 fst snd].
  - intros i s W. destruct i as [|[|i]]; cbn [ex_tbl kind_of Nat.eqb heap_by_kind fst snd]; try apply N.
    pose proof (ex_copy_dis s W) as D. exact D.
  - intros i s g W. destruct i as [|[|i]]; cbn [ex_tbl kind_of Nat.eqb heap_by_kind fst snd]; try apply N. apply dis_done.
  - intros i s W. destruct i as [|[|i]]; cbn [ex_tbl kind_of Nat.eqb heap_by_kind fst snd]; try apply N. apply dis_done.
  - intros i. destruct i as [|[|i]]; cbn [ex_tbl kind_of Nat.eqb val_by_kind fst snd]; intros s s' E; try (rewrite E; reflexivity).
    rewrite (ex_copy_val s s' E). reflexivity.
  - intros i g. destruct i as [|[|i]]; cbn [ex_tbl kind_of Nat.eqb val_by_kind fst snd]; intros s s' E; try (rewrite E; reflexivity).
    destruct E as (E & _). rewrite E. reflexivity.
  - intros i. destruct i as [|[|i]]; cbn [ex_tbl kind_of Nat.eqb val_by_kind]; intros s s' E; try exact E. exact (proj1 E).
  - intros i. destruct i as [|[|i]]; cbn [ex_tbl kind_of Nat.eqb val_by_kind]; intros; reflexivity.
  - intros i g. destruct i as [|[|i]]; cbn [ex_tbl kind_of Nat.eqb val_by_kind]; intros; reflexivity.
  - intros i g. destruct i as [|[|i]]; cbn [ex_tbl kind_of Nat.eqb val_by_kind]; intros; reflexivity.
  - intros i. destruct i as [|[|i]]; cbn [ex_tbl kind_of Nat.eqb val_by_kind]; intros; reflexivity.
Qed.

Example kinds_hypotheses_satisfiable :
  kinds_ok ex_tbl ex_copied ex_body = true /\ follows ex_all ex_X bool ex_a ex_tbl ex_sem2 /\
  copied_classes_fresh ex_all ex_copied = true /\ fn_ok ex_body = true /\
  (let t2 := final_T ex_X bool ex_sem2 positive nat ex_arith ex_body ex_enter ex_content
               [((V 10 0 0, mid), 2%positive); ((V 0 20 0, mid), 3%positive)] ex_t0 false in
   snd t2 = [3%positive; 2%positive] /\ fst t2 1%positive = Some (Node true [])).
Proof.
  split; [reflexivity|]. split; [exact ex_follows|]. split; [reflexivity|]. split; [reflexivity|]. split; reflexivity.
Qed.
