(** Proofs about SM/C17Cache.v: the cached pattern of an EntityFixup is always the pattern of its present key set. *)
From Coq Require Import List Bool.
From SV Require Import SM.C17Cache.
Import ListNotations.

Section Proofs.
  Variables Keys Pat : Type.
  Variable compile : Keys -> Pat.
  Notation pc_tbl := (pc_tbl Keys Pat).
  Notation pc_coherent := (pc_coherent Keys Pat compile).
  Notation pc_step := (pc_step Keys Pat).
  Notation pc_lookup := (pc_lookup Keys Pat compile).
  Notation pc_run := (pc_run Keys Pat compile).

  Lemma fresh_coherent : forall k, pc_coherent (pc_fresh Keys Pat k).
  Proof. intro k. exact I. Qed.

  Lemma step_coherent : forall sh f t, shape_ok sh = true -> pc_coherent t -> pc_coherent (pc_step sh f t).
  Proof.
    intros [|r|same cp] f t Hok Hc; cbn [pc_step shape_ok] in *.
    - exact Hc.
    - subst r. exact I.
    - destruct cp; [|exact I]. cbn in Hok. subst same. exact Hc.
  Qed.

  Lemma lookup_coherent : forall t, pc_coherent t -> pc_coherent (snd (pc_lookup t)) /\ pc_keys _ _ (snd (pc_lookup t)) = pc_keys _ _ t.
  Proof.
    intros t Hc. unfold C17Cache.pc_lookup. destruct (pc_cache Keys Pat t) eqn:E; cbn; [split; [exact Hc | reflexivity]|].
    split; reflexivity.
  Qed.

  (** What `substitute` scans with is the pattern of the keys defined now. *)
  Lemma lookup_current : forall t, pc_coherent t -> fst (pc_lookup t) = compile (pc_keys _ _ t).
  Proof.
    intros t Hc. unfold C17Cache.pc_lookup, C17Cache.pc_coherent in *. destruct (pc_cache Keys Pat t); [exact Hc | reflexivity].
  Qed.

  Theorem history_coherent : forall h t, forallb (pc_action_ok Keys) h = true -> pc_coherent t -> pc_coherent (pc_run h t).
  Proof.
    induction h as [|[sh f|] r IH]; cbn [forallb C17Cache.pc_run pc_action_ok]; intros t Hok Hc; [exact Hc| |].
    - apply andb_true_iff in Hok as [Hs Hr]. apply IH; [exact Hr|]. apply step_coherent; assumption.
    - apply IH; [exact Hok|]. apply lookup_coherent. exact Hc.
  Qed.

  End Proofs.

(** *** The hypothesis is needed: a method that adds a key without resetting the cache leaves a stale pattern. *)
Definition demo_history (resets : bool) : list (pc_action (list nat)) :=
  [ALookup _; AStep _ (SChange resets) (cons 1); ALookup _].

(** a copy that takes the cache along but builds a different key set *)
Lemma copy_with_foreign_cache_refuted :
  shape_ok (SCopy false true) = false /\ shape_ok (SCopy true true) = true /\ shape_ok (SCopy false false) = true /\
  fst (pc_lookup _ _ (fun k : list nat => k)
        (pc_run _ _ (fun k => k) [ALookup _; AStep _ (SCopy false true) (cons 2)] (pc_fresh _ _ []))) = [].
Proof. repeat split; reflexivity. Qed.
