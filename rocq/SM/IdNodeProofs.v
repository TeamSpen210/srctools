From stdpp Require Import list.
From SV Require Import SM.IdMan SM.IdManProofs SM.IdLife SM.IdNode.
Open Scope Z_scope.

Definition NInv (w : nworld) : Prop := Held (nman w) (nids (nents w)).

Lemma nids_app l1 l2 : nids (l1 ++ l2) = nids l1 ++ nids l2.
Proof. apply flat_map_app. Qed.

(** A slot that holds [old] is emptied, with or without telling the manager. *)
Lemma nrelease_held old m A B : Held m (A ++ olist old ++ B) → Held (nrelease old m) (A ++ B).
Proof. destruct old as [n|]; [apply held_release|done]. Qed.
Lemma nforget_held old m A B : Held m (A ++ olist old ++ B) → Held m (A ++ B).
Proof. apply held_sublist, sublist_app; [done|apply sublist_inserts_l; done]. Qed.

(** Effect of __setitem__ on a slot that currently holds [old]. *)
Lemma nset_key_held d old m A B key m' :
  nset_key d old m = (key, m') → Held m (A ++ olist old ++ B) → Held m' (A ++ olist key ++ B).
Proof.
  intros E HG%nrelease_held. revert E. unfold nset_key. destruct d as [n'|]; [|by intros [= <- <-]].
  destruct (get_id n' (nrelease old m)) as [[i m2]|] eqn:E; intros [= <- <-]; [by eapply held_alloc|done].
Qed.

(** Effect of add_ent's node block, in either shape: the re-allocation leaks the ID it is handed. *)
Lemma nadd_held ra key m A B key' m' :
  nadd ra key m = (key', m') → Held m (A ++ olist key ++ B) → Held m' (A ++ olist key' ++ B).
Proof.
  unfold nadd. destruct ra; [|by intros [= <- <-]]. destruct key as [n|]; [|by intros [= <- <-]].
  destruct (get_id n m) as [[j m1]|] eqn:E; [|by intros [= <- <-]].
  intros H HG. eapply nset_key_held; [exact H|]. destruct HG as [HI ?].
  destruct (get_id_grows _ _ _ _ HI E). by eapply held_grow.
Qed.

Lemma ncreate_inv ra d w : NInv w → NInv (ncreate ra d w).
Proof.
  unfold NInv, ncreate. intros HG.
  destruct (nset_key d None (nman w)) as [key m1] eqn:E. destruct (nadd ra key m1) as [key' m2] eqn:E'. simpl.
  rewrite nids_app. apply (nadd_held _ _ _ _ [] _ _ E'), (nset_key_held _ _ _ _ [] _ _ E). simpl. by rewrite app_nil_r.
Qed.

(** The entity [k], which exists, is replaced by one that exists or not. *)
Lemma ninv_update w k o o' m' : nents w !! k = Some o → nalive o = true →
  (∀ A B, Held (nman w) (A ++ olist (nid o) ++ B) → Held m' (A ++ nown o' ++ B)) →
  NInv w → NInv {| nman := m'; nents := <[k := o']> (nents w) |}.
Proof.
  intros Hk Ha Hstep. apply (held_update nids _ _ _ _ _ _ nids_app Hk). intros A B.
  unfold nids, flat_map, nown at 1. rewrite Ha, !app_nil_r. apply Hstep.
Qed.

Lemma nstep_inv ra rd w e : NInv w → NInv (nstep ra false rd true w e).
Proof.
  intros HG. destruct e as [d|k d|k|k|k|k|k|d]; simpl.
  - by apply ncreate_inv.
  - (* NSet *)
    destruct (nents w !! k) as [o|] eqn:Hk; [|done]. destruct (nalive o) eqn:Ha; [|done].
    destruct (nset_key d (nid o) (nman w)) as [key m] eqn:E.
    apply (ninv_update _ _ _ _ _ Hk Ha); [|done]. intros A B. exact (nset_key_held _ _ _ A B _ _ E).
  - (* NDel *)
    destruct (nents w !! k) as [o|] eqn:Hk; [|done]. destruct (nalive o) eqn:Ha; [|done].
    apply (ninv_update _ _ _ _ _ Hk Ha); [|done]. intros A B. apply nrelease_held.
  - (* NRemove: no release *)
    destruct (nents w !! k) as [o|] eqn:Hk; [|done].
    destruct (nalive o && ninmap o) eqn:Hc; [|done]. apply andb_true_iff in Hc as [Ha _].
    by apply (ninv_update _ _ _ _ _ Hk Ha).
  - (* NReAdd *)
    destruct (nents w !! k) as [o|] eqn:Hk; [|done].
    destruct (nalive o && negb (ninmap o)) eqn:Hc; [|done]. apply andb_true_iff in Hc as [Ha _].
    destruct (nadd ra (nid o) (nman w)) as [key m] eqn:E.
    apply (ninv_update _ _ _ _ _ Hk Ha); [|done]. intros A B. exact (nadd_held _ _ _ A B _ _ E).
  - (* NGc *)
    destruct (nents w !! k) as [o|] eqn:Hk; [|done].
    destruct (nalive o && negb (ninmap o)) eqn:Hc; [|done]. apply andb_true_iff in Hc as [Ha _].
    apply (ninv_update _ _ _ _ _ Hk Ha); [|done]. intros A B. destruct rd; [apply nrelease_held|apply nforget_held].
  - (* NCopy *)
    destruct (nents w !! k) as [o|] eqn:Hk; [|done]. destruct (nalive o); [|done].
    by apply ncreate_inv.
  - (* NReserve: an allocation nobody keeps *)
    destruct (get_id d (nman w)) as [[i m]|] eqn:E; [|done].
    destruct HG as [HI ?]. destruct (get_id_grows _ _ _ _ HI E). by eapply held_grow.
Qed.

(** Node IDs: when remove_ent does not release the ID of an entity that keeps its key, the node IDs held by the
    existing entities are pairwise distinct and positive after every history — whether or not add_ent allocates
    a second time and whether or not the destructor releases (those two shapes only leak IDs). *)
Theorem node_ids_nodup_pos ra rd es : let w := nrun ra false rd true es in
  NoDup (nids (nents w)) ∧ (∀ i, i ∈ nids (nents w) → 0 < i).
Proof. exact (held_unique _ _ (fold_left_inv NInv _ (nstep_inv ra rd) es nw0 held_init)). Qed.

Lemma nmap_ids_sublist l : sublist (nmap_ids l) (nids l).
Proof.
  induction l as [|o l IH]; [constructor|]. unfold nmap_ids, nids in *. simpl.
  destruct (ninmap o); [by apply sublist_app|]. simpl. by apply sublist_inserts_l.
Qed.

(** The code shapes of the pinned tree are refuted by computed histories. *)
(** remove_ent releases, the entity keeps the key and is re-added (found by the search on the pinned tree). *)
Definition node_release_on_remove_history : list nev :=
  [NCreate (Some 0); NRemove 0; NCreate (Some (-1)); NReAdd 0].
Example node_release_on_remove_history_ok :
  nmap_ids (nents (nrun false false true true node_release_on_remove_history)) = [1; 2].
Proof. vm_compute. reflexivity. Qed.

Example node_copy_registered_ok :
  nids (nents (nrun false false true true [NCreate (Some 1); NCopy 0])) = [1; 2].
Proof. vm_compute. reflexivity. Qed.
