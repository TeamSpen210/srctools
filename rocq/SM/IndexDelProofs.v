(** Proofs about SM/IndexDel.v: [Entity.__delitem__] as written — a pre-loop program that passes its path
    obligations and a loop that passes the shape obligations — is the hand model [del_item] for all arguments and
    states (hence keeps the invariant).  The unguarded by_target[None] addition and the pop by the caller's spelling
    are refuted in Props/C07.v ([c07_delitem_variants_refuted]). *)
From stdpp Require Import gmap.
From Coq Require Import NArith.
From SV Require Import SM.IndexModel SM.IndexShapes SM.IndexMaint SM.IndexMaintProofs SM.IndexDel.

Section del.
  Variable fold : str → str.

  Lemma ddel_first_match key l k0 :
    first_match (λ k, bool_decide (fold k = fold key)) l = Some k0 → ddel k0 l = Some (kv_del fold (fold key) l).
  Proof.
    induction l as [|[k1 v1] r IH]; simpl; [done|]. case_bool_decide as Hk.
    - intros [= ->]. by rewrite !decide_True by done.
    - intros Hm. pose proof (IndexShapeProofs.first_match_passes _ _ _ Hm) as Hf%bool_decide_eq_true.
      rewrite !decide_False by congruence. by rewrite (IH Hm).
  Qed.
  Lemma kv_del_no_match key l :
    first_match (λ k, bool_decide (fold k = fold key)) l = None → kv_del fold (fold key) l = l.
  Proof.
    induction l as [|[k1 v1] r IH]; simpl; [done|]. case_bool_decide as Hk; [done|].
    intros Hm. rewrite decide_False by done. by rewrite (IH Hm).
  Qed.

  Lemma delitem_loop_ok dl key l : del_loop_ok dl = true → delitem_loop fold dl key l = (kv_del fold (fold key) l, 0).
  Proof.
    destruct dl as [a b s]. unfold del_loop_ok, del_loop_case_insensitive, del_loop_pops_stored, delitem_loop. simpl.
    destruct a, b, s; try done. intros _.
    destruct (first_match _ l) as [k0|] eqn:Hm.
    - by rewrite (ddel_first_match key l k0 Hm).
    - by rewrite (kv_del_no_match key l Hm).
  Qed.

  Lemma no_rec_frame : rec_frame no_rec.
  Proof. done. Qed.

  Lemma del_maint_ok_path p f : del_maint_ok p = true → del_path_ok p f = true.
  Proof.
    unfold del_maint_ok, del_targetname_ok, del_classname_refused, del_other_ok.
    rewrite !andb_true_iff, !forallb_forall. intros [[H1 H2] H3].
    pose proof (facts_with_complete f) as Hin. destruct f as [k i s w]. destruct k; simpl in Hin; auto.
  Qed.

  Theorem del_item_pg_ok p dl e key st : del_maint_ok p = true → del_loop_ok dl = true →
    del_item_pg fold p dl e key st = del_item fold e key st.
  Proof.
    intros Hp Hdl. unfold del_item_pg. rewrite (delitem_loop_ok dl key _ Hdl).
    rewrite (m_run_path fold _ p (acts_del_today (facts_of fold e key [] st)) _ _ _ _ _ no_rec_frame
               (del_maint_ok_path p _ Hp)).
    unfold del_item, facts_of, acts_del_today, in_map, tgt_of_keys. simpl.
    destruct (decide (fold key = cn)) as [Hcn|Hcn]; simpl.
    - rewrite decide_False; [done|]. rewrite Hcn. done.
    - destruct (decide (fold key = tn)) as [Htn|Htn]; simpl; [|done].
      repeat case_bool_decide; simpl; done.
  Qed.
End del.

Lemma del_today_ok : del_maint_ok del_maint_today = true ∧ del_loop_ok del_loop_today = true.
Proof. split; reflexivity. Qed.
