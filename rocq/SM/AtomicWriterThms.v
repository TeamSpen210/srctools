(** Final statements about the AtomicWriter model, derived from the invariants of AtomicWriterProofs.v. *)
From Coq Require Import List Bool Arith PeanoNat Lia.
From SV Require Import SM.AtomicWriter SM.AtomicWriterProofs.
Import ListNotations.

Lemma cfg_ok_safe c : cfg_ok c = true -> cfg_safe c = true.
Proof. unfold cfg_ok. intros H. apply andb_true_iff in H. tauto. Qed.

(** * Runs from any state in which writer 1 starts afresh
    [start d0] for two writers, [start1 d0] for a writer alone. *)
Section Run.
Variable c : cfg.
Variable d0 : dir.
Variables s1 s2 : scen.
Hypothesis Hdest : dest s1 <> dest s2.
Variable st0 : sys.
Hypothesis Hinv : Inv d0 s1 s2 st0.
Hypothesis Hp1 : p1 st0 = PMkdir.
Hypothesis Htr : tr st0 = [].

Lemma run_uncommitted_keeps_old : cfg_safe c = true -> forall sched,
  let st := run2 c s1 s2 sched st0 in
  committed (p1 st) = false -> committed (p1 st) = false /\ sd st (File (dest s1)) = d0 (File (dest s1)).
Proof.
  intros Hs sched st NC. split; [exact NC|].
  pose proof (inv_dest1 _ _ _ _ (inv_run c Hs d0 s1 s2 Hdest sched _ Hinv)) as D. unfold DestOk in D.
  fold st in D. now rewrite NC in D.
Qed.

Lemma run_fault_keeps_old : cfg_safe c = true -> forall sched,
  let st := run2 c s1 s2 sched st0 in
  faulted false (tr st) -> committed (p1 st) = false /\ sd st (File (dest s1)) = d0 (File (dest s1)).
Proof.
  intros Hs sched st Hf. apply (run_uncommitted_keeps_old Hs). exact (fault_never_commits c Hs s1 s2 sched st0 Htr Hf).
Qed.

Lemma run_body_exception_keeps_old : cfg_safe c = true -> forall r sched,
  raise_at s1 = Some r -> r <= length (body s1) ->
  let st := run2 c s1 s2 sched st0 in
  committed (p1 st) = false /\ sd st (File (dest s1)) = d0 (File (dest s1)).
Proof.
  intros Hs r sched Hr Hle. apply (run_uncommitted_keeps_old Hs).
  exact (raising_body_never_commits c Hs s1 s2 r sched st0 Hr Hle Hp1).
Qed.

(** A finished writer has left no temp file behind unless its own unlink raised; all temp names that are not held by
    the other writer are then exactly as they were before. *)
Lemma run_no_temp_after_handled_failure : cfg_ok c = true -> forall sched,
  let st := run2 c s1 s2 sched st0 in
  finished (p1 st) = true ->
  (forall i, ~ In (false, (EUnlink i, RFault)) (tr st)) ->
  assoc (p1 st) = None /\ forall i, assoc (p2 st) <> Some i -> sd st (Tmp i) = d0 (Tmp i).
Proof.
  intros Hok sched st Hfin Hnf.
  pose proof (inv_run c (cfg_ok_safe _ Hok) d0 s1 s2 Hdest sched _ Hinv) as I. fold st in I.
  assert (A : assoc (p1 st) = None).
  { unfold st in *. rewrite (cfg_ok_is_fixed c Hok) in *.
    apply finished_leaves_no_temp; [now rewrite Hp1 | exact Hfin | exact Hnf]. }
  split; [exact A|]. intros i Hi. apply (Frame_tmp _ _ _ _ _ _ _ (inv_frame _ _ _ _ I)); [congruence | exact Hi].
Qed.
End Run.

Section Thms.
Variable c : cfg.
Variable d0 : dir.
Variables s1 s2 : scen.
Hypothesis Hdest : dest s1 <> dest s2.

(** At every point of every schedule (a crash is "the rest of the schedule never runs"), whatever faults were
    injected, each destination holds its old content until its writer's replace has succeeded and the complete
    new content afterwards. *)
Lemma crash_atomic : cfg_safe c = true -> forall sched,
  let st := run2 c s1 s2 sched (start d0) in
  sd st (File (dest s1)) = (if committed (p1 st) then Some (new s1) else d0 (File (dest s1))) /\
  sd st (File (dest s2)) = (if committed (p2 st) then Some (new s2) else d0 (File (dest s2))).
Proof.
  intros Hs sched st. pose proof (inv_run c Hs d0 s1 s2 Hdest sched _ (inv_start d0 s1 s2)) as I.
  split; [exact (inv_dest1 _ _ _ _ I) | exact (inv_dest2 _ _ _ _ I)].
Qed.

Lemma fault_keeps_old : cfg_safe c = true -> forall sched,
  let st := run2 c s1 s2 sched (start d0) in
  faulted false (tr st) -> committed (p1 st) = false /\ sd st (File (dest s1)) = d0 (File (dest s1)).
Proof. exact (run_fault_keeps_old c d0 s1 s2 Hdest _ (inv_start d0 s1 s2) eq_refl). Qed.

Lemma body_exception_keeps_old : cfg_safe c = true -> forall r sched,
  raise_at s1 = Some r -> r <= length (body s1) ->
  let st := run2 c s1 s2 sched (start d0) in
  committed (p1 st) = false /\ sd st (File (dest s1)) = d0 (File (dest s1)).
Proof. exact (run_body_exception_keeps_old c d0 s1 s2 Hdest _ (inv_start d0 s1 s2) eq_refl). Qed.

Lemma no_temp_after_handled_failure : cfg_ok c = true -> forall sched,
  let st := run2 c s1 s2 sched (start d0) in
  finished (p1 st) = true ->
  (forall i, ~ In (false, (EUnlink i, RFault)) (tr st)) ->
  assoc (p1 st) = None /\ forall i, assoc (p2 st) <> Some i -> sd st (Tmp i) = d0 (Tmp i).
Proof. exact (run_no_temp_after_handled_failure c d0 s1 s2 Hdest _ (inv_start d0 s1 s2) eq_refl). Qed.

(** Isolation of two concurrent writers. *)
Lemma two_writers_isolated : cfg_safe c = true -> forall sched,
  let st := run2 c s1 s2 sched (start d0) in
  (forall i, assoc (p1 st) = Some i -> assoc (p2 st) = Some i -> False) /\
  (forall i, assoc (p1 st) = Some i \/ assoc (p2 st) = Some i -> d0 (Tmp i) = None /\ sd st (Tmp i) <> None) /\
  (forall i, p1 st = PReplace i -> sd st (Tmp i) = Some (new s1)) /\
  (forall i, p2 st = PReplace i -> sd st (Tmp i) = Some (new s2)) /\
  (forall n, n <> File (dest s1) -> n <> File (dest s2) -> d0 n <> None -> sd st n = d0 n).
Proof.
  intros Hs sched st.
  pose proof (inv_run c Hs d0 s1 s2 Hdest sched _ (inv_start d0 s1 s2)) as I. fold st in I.
  destruct I as [O1 O2 Dj D1 D2 Fr]. repeat split.
  - exact Dj.
  - destruct H as [H|H]; [destruct (O1 i H) | destruct (O2 i H)]; assumption.
  - destruct H as [H|H]; [destruct (O1 i H) as [_ [ct [A _]]] | destruct (O2 i H) as [_ [ct [A _]]]]; congruence.
  - intros i H. destruct (O1 i) as [_ [ct [A B]]]; [rewrite H; reflexivity|]. rewrite H in B. cbn in B. congruence.
  - intros i H. destruct (O2 i) as [_ [ct [A B]]]; [rewrite H; reflexivity|]. rewrite H in B. cbn in B. congruence.
  - intros n A B Hn. apply Fr; auto. intros i E. subst n. split; intros X.
    + destruct (O1 i X). contradiction.
    + destruct (O2 i X). contradiction.
Qed.
End Thms.

(** * One writer alone *)
Section Alone.
Variable c : cfg.
Variable d0 : dir.
Variable s : scen.

Lemma other_dest : dest s <> dest (other s).
Proof. cbn. lia. Qed.

Lemma alone_p2 faults : p2 (alone c s faults d0) = PDone FNot None.
Proof.
  unfold alone, run2.
  assert (G : forall l st, p2 st = PDone FNot None ->
              p2 (fold_left (step2 c s (other s)) (map (fun f => (false, f)) l) st) = PDone FNot None).
  { induction l as [|f l IH]; intros st H; cbn [map fold_left]; [exact H|]. apply IH.
    unfold step2. destruct (wstep c s (p1 st) (sd st) f) as [[p' d'] e]. exact H. }
  apply G. reflexivity.
Qed.

Lemma alone_inv : cfg_safe c = true -> forall faults, Inv d0 s (other s) (alone c s faults d0).
Proof. intros Hs faults. apply inv_run; auto using other_dest. apply inv_start1. Qed.

Lemma alone_crash_atomic : cfg_safe c = true -> forall faults,
  let st := alone c s faults d0 in
  sd st (File (dest s)) = (if committed (p1 st) then Some (new s) else d0 (File (dest s))).
Proof. intros Hs faults st. exact (inv_dest1 _ _ _ _ (alone_inv Hs faults)). Qed.

Lemma alone_untouched : cfg_safe c = true -> forall faults n,
  let st := alone c s faults d0 in
  n <> File (dest s) -> (forall i, n = Tmp i -> assoc (p1 st) <> Some i) -> sd st n = d0 n.
Proof.
  intros Hs faults n st Hn Ht. pose proof (alone_inv Hs faults) as I. fold st in I.
  destruct (name_eqb n (File (dest (other s)))) eqn:E.
  - apply name_eqb_eq in E. subst n. pose proof (inv_dest2 _ _ _ _ I) as D. unfold DestOk in D.
    fold st in D. unfold st in D. rewrite alone_p2 in D. exact D.
  - apply (inv_frame _ _ _ _ I); auto.
    + intros X. subst n. rewrite name_eqb_refl in E. discriminate.
    + intros i Ei. split; [auto|]. unfold st. rewrite alone_p2. discriminate.
Qed.

Lemma alone_fault_keeps_old : cfg_safe c = true -> forall faults,
  let st := alone c s faults d0 in
  faulted false (tr st) -> committed (p1 st) = false /\ sd st (File (dest s)) = d0 (File (dest s)).
Proof.
  intros Hs faults. exact (run_fault_keeps_old c d0 s (other s) other_dest _ (inv_start1 d0 s (other s)) eq_refl Hs _).
Qed.

(** Any handled failure (or success): no temp name differs from before. *)
Lemma alone_no_temp_left : cfg_ok c = true -> forall faults,
  let st := alone c s faults d0 in
  finished (p1 st) = true -> (forall i, ~ In (false, (EUnlink i, RFault)) (tr st)) ->
  forall i, sd st (Tmp i) = d0 (Tmp i).
Proof.
  intros Hok faults st Hfin Hnf i.
  apply (run_no_temp_after_handled_failure c d0 s (other s) other_dest _ (inv_start1 d0 s (other s)) eq_refl Hok _ Hfin Hnf).
  fold (alone c s faults d0). rewrite alone_p2. discriminate.
Qed.

(** The caller's body raises after [r] raw writes, no OSError anywhere (or any, except in the final unlink):
    destination unchanged, every temp name as before, everything else as before. *)
Lemma alone_body_exception_cleans : cfg_ok c = true -> forall r faults,
  raise_at s = Some r -> r <= length (body s) ->
  let st := alone c s faults d0 in
  sd st (File (dest s)) = d0 (File (dest s)) /\
  (finished (p1 st) = true -> (forall i, ~ In (false, (EUnlink i, RFault)) (tr st)) -> forall n, sd st n = d0 n).
Proof.
  intros Hok r faults Hr Hle st. pose proof (cfg_ok_safe _ Hok) as Hs.
  destruct (run_body_exception_keeps_old c d0 s (other s) other_dest _ (inv_start1 d0 s (other s)) eq_refl Hs r (map (fun f => (false, f)) faults) Hr Hle)
    as [_ A]. fold (alone c s faults d0) in A. fold st in A.
  split; [exact A|]. intros Hfin Hnf n.
  destruct (run_no_temp_after_handled_failure c d0 s (other s) other_dest _ (inv_start1 d0 s (other s)) eq_refl Hok (map (fun f => (false, f)) faults) Hfin Hnf)
    as [L _]. fold (alone c s faults d0) in L. fold st in L.
  destruct (name_eq_dec n (File (dest s))) as [->|Hn]; [exact A|].
  apply (alone_untouched Hs faults); [exact Hn|]. intros i _. fold st. rewrite L. discriminate.
Qed.
End Alone.

(** * Witnesses: the hypotheses are needed, and the statements are not vacuous *)
Definition d_old : dir := dir_of [(File 0, [100]); (File 1, [101]); (Tmp 2, [777])].
Definition sc_a : scen := {| dest := 0; body := [1; 2]; tail := [3]; raise_at := None |}.
Definition sc_b : scen := {| dest := 1; body := [7]; tail := []; raise_at := None |}.
Definition sc_raise : scen := {| dest := 0; body := [1; 2]; tail := [3]; raise_at := Some 1 |}.

(** An OSError from close on the repaired configuration is cleaned up. *)
Lemma fixed_close_fault_cleans :
  let st := alone cfg_fixed sc_a [false; false; false; false; false; true; false] d_old in
  p1 st = PDone FNot None /\ sd st (Tmp 1) = None /\ sd st (File 0) = Some [100].
Proof. vm_compute. auto. Qed.
Lemma body_exception_example :
  let st := alone cfg_fixed sc_raise (repeat false 6) d_old in
  p1 st = PDone FNot None /\ sd st (Tmp 1) = None /\ sd st (File 0) = Some [100].
Proof. vm_compute. auto. Qed.

(** Without the exclusive open a second writer truncates the first one's temp file and the first destination
    receives foreign data. *)
Definition cfg_nonexcl : cfg :=
  {| c_excl := false; c_close_guard := true; c_replace_guard := true; c_on_ok := ACommit; c_on_exc := ADiscard |}.
Definition sc_a1 : scen := {| dest := 0; body := [1]; tail := []; raise_at := None |}.

(** Committing when the body raised publishes a partial file. *)
Definition cfg_commit_on_exc : cfg :=
  {| c_excl := true; c_close_guard := true; c_replace_guard := true; c_on_ok := ACommit; c_on_exc := ACommit |}.

Lemma cfg_pinned_not_clean : cfg_clean cfg_pinned = false /\ cfg_safe cfg_pinned = true.
Proof. split; reflexivity. Qed.
