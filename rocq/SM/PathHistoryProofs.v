(** C18 — proofs about SM/PathHistory.v. *)
From Coq Require Import List NArith Bool String.
From SV Require Import SM.PathNorm SM.PathNormProofs SM.PathOps SM.PathOpsProofs SM.PathMemo SM.PathMemoProofs SM.PathHistory.
Import ListNotations.

(** With a covering key the threaded evaluation is [peval], and the table stays valid. *)
Lemma peval_m_transparent wf g cwd evict root_arg con i :
  only_drops evict -> (wf || con = true) ->
  forall e c, cache_valid g cwd c ->
    exists c', peval_m wf g cwd evict c root_arg con i e = (c', peval g con cwd root_arg i e) /\ cache_valid g cwd c'.
Proof.
  intros He Hcov. induction e; intros c Hv; cbn [peval_m peval]; try (exists c; split; [reflexivity|exact Hv]).
  - destruct (IHe c Hv) as (c1 & -> & H1). now exists c1.
  - destruct (IHe1 c Hv) as (c1 & -> & H1). destruct (peval g con cwd root_arg i e1) as [x|]; [|now exists c1].
    destruct (IHe2 c1 H1) as (c2 & -> & H2). now exists c2.
  - destruct (IHe c Hv) as (c1 & -> & H1). destruct (peval g con cwd root_arg i e) as [s|]; [|now exists c1].
    destruct (memo_step_transparent wf g cwd evict c1 {| rc_root := root_arg; rc_con := con; rc_path := s |} He H1 Hcov)
      as (c2 & -> & H2).
    now exists c2.
Qed.

(** Whole histories: any number of objects, any interleaving, any table policy. *)
Theorem hist_run_transparent wf g cwd evict :
  only_drops evict ->
  forall ops c, cache_valid g cwd c -> forallb (op_covered wf) ops = true ->
    hist_run wf g cwd evict c ops = map (op_plain g cwd) ops.
Proof.
  intros He. induction ops as [|op rest IH]; intros c Hv Hall; [reflexivity|].
  cbn in Hall. apply andb_prop in Hall as [Hc Hr]. cbn [hist_run map].
  destruct (peval_m_transparent wf g cwd evict (oc_root op) (oc_con op) (oc_in op) He Hc (st_arg (oc_site op)) c Hv)
    as (c' & -> & Hv').
  unfold op_plain at 1. f_equal. now apply IH.
Qed.

(** Every path a constrained object hands to the OS at any point of any history is inside its root. *)
Theorem hist_accesses_inside wf g cwd evict :
  raise_sound g = true -> is_abs cwd = true -> only_drops evict ->
  forall ops n op a,
    forallb (op_covered wf) ops = true ->
    nth_error ops n = Some op -> oc_con op = true -> site_ok (oc_site op) = true ->
    nth_error (hist_run wf g cwd evict [] ops) n = Some (Some a) ->
    inside (abspath cwd (oc_root op)) a.
Proof.
  intros Hg Hc He ops n op a Hall Hn Hcon Hok Hr.
  rewrite (hist_run_transparent wf g cwd evict He ops [] (cache_valid_nil g cwd) Hall) in Hr.
  pose proof (nth_error_map_eq _ _ _ _ _ Hn Hr) as Hp. unfold op_plain in Hp. rewrite Hcon in Hp.
  destruct (peval_resolved g true cwd (oc_root op) (oc_in op) _ a Hok Hp) as [p Hres].
  exact (segprefix_guard_sound g cwd (oc_root op) p a Hg Hc Hres).
Qed.

Open Scope string_scope.
(** The fault history on the level of operations: an unconstrained RawFileSystem('/t/root') opens '../secret.txt'
    (allowed: it is exempt), then a constrained one on the same folder is asked to open the same name. *)
Definition open_site : site :=
  {| st_method := "open_bin"; st_callee := "open"; st_branch := "str"; st_arg := PResolve (PUnbs PArg) |}.
Definition ask (s : string) : inp := {| i_arg := s2l s; i_data := []; i_hpath := []; i_prefix := []; i_walked := [] |}.
Definition fault_ops : list opcall :=
  [ {| oc_root := s2l "/t/root"; oc_con := false; oc_site := open_site; oc_in := ask "..\secret.txt" |};
    {| oc_root := s2l "/t/root"; oc_con := true;  oc_site := open_site; oc_in := ask "../secret.txt" |} ].

