From Coq Require Import List ZArith String FMapPositive.
From SV Require Import SM.Store SM.StoreCopy SM.StoreCopyProofs SM.StoreCert SM.StoreCertProofs.
Import ListNotations.
Open Scope positive_scope.

(** Non-vacuity of [census_copy_independent]: an object with an immutable field and a mutable vector,
    copied with (share, deep). *)
Definition ex_l  : list (loc * node) := [(1, Node true [VAtom 5; VRef 2]); (2, Node true [VAtom 1])].
Definition ex_l' : list (loc * node) := ex_l ++ [(3, Node true [VAtom 5; VRef 4]); (4, Node true [VAtom 1])].
Definition ex_census : census := [("name"%string, KImm, HShare); ("pos"%string, KMut, HDeep)].

Lemma ex_extends : extends (hof (mk_heap ex_l)) (hof (mk_heap ex_l')).
Proof.
  intros l nd H. apply find_mk_heap in H. cbn in H.
  destruct H as [H|[H|[]]]; inversion H; subst; reflexivity.
Qed.

Example census_copy_independent_applies :
  let h := hof (mk_heap ex_l) in let h' := hof (mk_heap ex_l') in
  (forall ms h'' R, steps (h', [3]) ms (h'', R) -> forall n, unfold n h'' (VRef 1) = unfold n h' (VRef 1)) /\
  (forall ms h'' R, steps (h', [1]) ms (h'', R) -> forall n, unfold n h'' (VRef 3) = unfold n h' (VRef 3)).
Proof.
  intros h h'.
  apply (census_copy_independent ex_census h h' 1 3 (Node true [VAtom 5; VRef 2]) (Node true [VAtom 5; VRef 4])).
  - apply heap_closed_sound. vm_compute. reflexivity.
  - apply heap_closed_sound. vm_compute. reflexivity.
  - exact ex_extends.
  - reflexivity.
  - reflexivity.
  - reflexivity.
  - reflexivity.
  - cbn. constructor; [intros l []| reflexivity |].
    constructor; [exact I | | constructor].
    cbn. intros l Hl _. cbn in Hl.
    destruct (reach_head _ _ _ Hl) as [->|(nd & r' & H1 & H2 & _)]; [reflexivity|].
    vm_compute in H1. inversion H1; subst nd. destruct H2 as [H2|[]]. discriminate.
Qed.
