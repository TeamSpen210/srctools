(** C17 — proofs about [fixup_name] for every decision table that passes the named boolean checks of SM/C17Name.v. *)
From Coq Require Import NArith List Bool.
From SV Require Import SM.C17Name.
Import ListNotations.
Open Scope N_scope.

Lemma str_eqb_eq : forall a b, str_eqb a b = true -> a = b.
Proof.
  induction a as [|x a IH]; destruct b as [|y b]; cbn [str_eqb]; intros H; try discriminate; [reflexivity|].
  apply andb_true_iff in H as [H1 H2]. apply N.eqb_eq in H1. subst. f_equal. apply IH, H2.
Qed.

Lemma strs_eqb_eq : forall a b, strs_eqb a b = true -> a = b.
Proof.
  induction a as [|x a IH]; destruct b as [|y b]; cbn [strs_eqb]; intros H; try discriminate; [reflexivity|].
  apply andb_true_iff in H as [H1 H2]. apply str_eqb_eq in H1. subst. f_equal. apply IH, H2.
Qed.

Lemma piece_eqb_eq : forall a b, piece_eqb a b = true -> a = b.
Proof. destruct a, b; cbn; intros H; try discriminate; try reflexivity. f_equal. apply str_eqb_eq, H. Qed.

Lemma pieces_eqb_eq : forall a b, pieces_eqb a b = true -> a = b.
Proof.
  induction a as [|x a IH]; destruct b as [|y b]; cbn [pieces_eqb]; intros H; try discriminate; [reflexivity|].
  apply andb_true_iff in H as [H1 H2]. apply piece_eqb_eq in H1. subst. f_equal. apply IH, H2.
Qed.

Lemma rule_is_find : forall c st ps, rule_is c st ps = true -> find_rule st (rules c) = Some ps.
Proof.
  unfold rule_is. intros c st ps. destruct (find_rule st (rules c)); [|discriminate].
  intros H. f_equal. apply pieces_eqb_eq, H.
Qed.

Definition expected (st : style) (inst name : str) : str :=
  match st with
  | SNone => name
  | SPrefix => inst ++ [DASH] ++ name
  | SSuffix => name ++ [DASH] ++ inst
  end.

Lemma cfg_ok_parts : forall c, cfg_ok c = true ->
  guard_prefixes c = [[AT]; [BANG]] /\ find_rule SNone (rules c) = Some [PName] /\
  find_rule SPrefix (rules c) = Some [PInst; PLit [DASH]; PName] /\
  find_rule SSuffix (rules c) = Some [PName; PLit [DASH]; PInst].
Proof.
  unfold cfg_ok. intros c H.
  apply andb_true_iff in H as [H H4]. apply andb_true_iff in H as [H H3]. apply andb_true_iff in H as [H1 H2].
  repeat split; [apply strs_eqb_eq, H1 | apply rule_is_find, H2 | apply rule_is_find, H3 | apply rule_is_find, H4].
Qed.

(** The three FixupStyle values; empty names and names starting with '@' or '!' are untouched. *)
Theorem fixup_name_cases : forall c, cfg_ok c = true -> forall st inst name,
  (name = [] -> fixup_name c st inst name = Some []) /\
  (forall ch rest, name = ch :: rest -> ch = AT \/ ch = BANG -> fixup_name c st inst name = Some name) /\
  (forall ch rest, name = ch :: rest -> ch <> AT -> ch <> BANG -> fixup_name c st inst name = Some (expected st inst name)).
Proof.
  intros c H st inst name. destruct (cfg_ok_parts c H) as (G & RN & RP & RS).
  split; [intros ->; reflexivity|]. split.
  - intros ch rest -> [-> | ->]; unfold fixup_name; rewrite G; reflexivity.
  - intros ch rest -> H1 H2. unfold fixup_name. rewrite G.
    cbn [existsb starts_with]. apply N.eqb_neq in H1, H2.
    rewrite (N.eqb_sym AT ch), (N.eqb_sym BANG ch), H1, H2. cbn [andb orb].
    destruct st; [rewrite RP | rewrite RS | rewrite RN]; cbn [option_map render flat_map expected app];
      rewrite ?app_nil_r; reflexivity.
Qed.

(** In every case the result is the name itself or the styled name. *)
Lemma fixup_name_value : forall c, cfg_ok c = true -> forall st inst name,
  fixup_name c st inst name = Some name \/ fixup_name c st inst name = Some (expected st inst name).
Proof.
  intros c H st inst name. destruct (fixup_name_cases c H st inst name) as (A & B & C).
  destruct name as [|ch rest]; [left; apply A; reflexivity|].
  destruct (N.eq_dec ch AT) as [E|E]; [left; exact (B ch rest eq_refl (or_introl E))|].
  destruct (N.eq_dec ch BANG) as [E'|E']; [left; exact (B ch rest eq_refl (or_intror E'))|].
  right. exact (C ch rest eq_refl E E').
Qed.

Theorem fixup_name_total : forall c, cfg_ok c = true -> forall st inst name, fixup_name c st inst name <> None.
Proof. intros c H st inst name. destruct (fixup_name_value c H st inst name) as [-> | ->]; discriminate. Qed.

(** With a non-trivial style, distinct instance names give distinct entity names (no accidental merging of two
    copies of the same template): the renaming is injective in the instance name for a fixed entity name. *)
Theorem fixup_name_separates_instances : forall c, cfg_ok c = true -> forall st i1 i2 ch rest,
  st <> SNone -> ch <> AT -> ch <> BANG ->
  fixup_name c st i1 (ch :: rest) = fixup_name c st i2 (ch :: rest) -> i1 = i2.
Proof.
  intros c H st i1 i2 ch rest Hs H1 H2.
  destruct (fixup_name_cases c H st i1 (ch :: rest)) as (_ & _ & C1).
  destruct (fixup_name_cases c H st i2 (ch :: rest)) as (_ & _ & C2).
  rewrite (C1 ch rest eq_refl H1 H2), (C2 ch rest eq_refl H1 H2). intros E. injection E as E.
  destruct st; [| |contradiction]; unfold expected in E.
  - (* prefix: i1 ++ "-" ++ name = i2 ++ "-" ++ name *) exact (app_inv_tail _ _ _ E).
  - (* suffix: name ++ "-" ++ i1 = name ++ "-" ++ i2 *) exact (app_inv_head _ _ _ (app_inv_head _ _ _ E)).
Qed.

(** The reference table passes the checks (the hypothesis of the theorems is satisfiable). *)
Example ref_cfg_ok : cfg_ok ref_cfg = true.
Proof. reflexivity. Qed.

(** A table without the '-' separator, or with prefix and suffix exchanged, is rejected by a named check. *)
Example swapped_rejected :
  rule_prefix_ok {| guard_prefixes := [[AT]; [BANG]];
                    rules := [(SNone, [PName]); (SPrefix, [PName; PLit [DASH]; PInst]); (SSuffix, [PInst; PLit [DASH]; PName])] |} = false.
Proof. reflexivity. Qed.
