(** C18 — proofs about SM/PathOps.v: every access site that hands the OS a _resolve_path result stays inside the
    root for every input (strings, File handles, chain prefixes); os.walk results stay inside; refutations of the
    two tempting shortcuts (trusting a handle because its name was validated; a chain prefix as a jail). *)
From Coq Require Import List NArith Bool String.
From SV Require Import SM.PathNorm SM.PathNormProofs SM.PathOps.
Import ListNotations.
Open Scope N_scope.

Lemma is_resolved_inv e : is_resolved e = true -> exists e', e = PResolve e'.
Proof. destruct e; try discriminate. intros _. now eexists. Qed.

(** A resolved expression evaluates to something only through [resolve ... = Ok]. *)
Lemma peval_resolved g con cwd root_arg i e a :
  is_resolved e = true -> peval g con cwd root_arg i e = Some a ->
  exists s, resolve g con cwd root_arg s = Ok a.
Proof.
  intros H Hev. destruct (is_resolved_inv e H) as [e' ->]. cbn [peval] in Hev.
  destruct (peval g con cwd root_arg i e') as [s|]; [|discriminate].
  exists s. destruct (resolve g con cwd root_arg s); [|discriminate]. now inversion Hev.
Qed.

(** Every access of every operation, for every input whatsoever. *)
Theorem ops_accesses_inside g cwd root_arg (sites : list site) :
  raise_sound g = true -> is_abs cwd = true -> sites_ok sites = true ->
  forall s i a, In s sites -> peval g true cwd root_arg i (st_arg s) = Some a ->
    inside (abspath cwd root_arg) a.
Proof.
  intros Hg Hc Hok s i a Hin Hev. unfold sites_ok in Hok. rewrite forallb_forall in Hok.
  specialize (Hok s Hin). destruct (peval_resolved g true cwd root_arg i _ a Hok Hev) as [p Hp].
  exact (segprefix_guard_sound g cwd root_arg p a Hg Hc Hp).
Qed.

(** The executable access list used by the correspondence is covered by the theorem. *)
Corollary site_accesses_inside g cwd root_arg (sites : list site) :
  raise_sound g = true -> is_abs cwd = true -> sites_ok sites = true ->
  forall i m b c a, In (c, a) (site_accesses g cwd root_arg i m b sites) -> inside (abspath cwd root_arg) a.
Proof.
  intros Hg Hc Hok i m b c a Hin. unfold site_accesses in Hin. apply in_flat_map in Hin as (s & Hs & Hin).
  destruct (String.eqb (st_method s) m && String.eqb (st_branch s) b)%bool; [|contradiction].
  destruct (peval g true cwd root_arg i (st_arg s)) as [x|] eqn:E; [|contradiction].
  destruct Hin as [Hin|[]]. inversion Hin; subst. eapply ops_accesses_inside; eauto.
Qed.

(** File handles: whatever string a handle carries (built by this system from a name with the slashes changed,
    produced by an unconstrained system, or written by hand), the sites that consume it stay inside. *)
Corollary handle_consumers_inside g cwd root_arg (sites : list site) :
  raise_sound g = true -> is_abs cwd = true -> sites_ok (handle_sites sites) = true ->
  forall s data hpath i a, In s (handle_sites sites) ->
    peval g true cwd root_arg
      {| i_arg := i_arg i; i_data := data; i_hpath := hpath; i_prefix := i_prefix i; i_walked := i_walked i |}
      (st_arg s) = Some a ->
    inside (abspath cwd root_arg) a.
Proof. intros Hg Hc Hok s data hpath i a. apply ops_accesses_inside; assumption. Qed.

(** FileSystemChain: it only calls member methods with strings computed from the prefix and the argument. *)
Theorem chain_accesses_inside g cwd root_arg (sites : list site) :
  raise_sound g = true -> is_abs cwd = true -> sites_ok sites = true ->
  forall c s i a, In s sites -> chain_access g cwd root_arg i c s = Some a ->
    inside (abspath cwd root_arg) a.
Proof.
  intros Hg Hc Hok c s i a Hin Hev. unfold chain_access in Hev.
  destruct (peval g true cwd root_arg i (cc_arg c)) as [x|]; [|discriminate].
  eapply ops_accesses_inside; eauto.
Qed.

Open Scope string_scope.
(** The shortcut of seeded fault c18_2: open(os.path.join(self.path, self._get_data(file))) "because the handle
    was validated when it was produced".  _get_file validates [name] and stores [name.replace('\\','/')]. *)
Definition unsafe_open_site : site :=
  {| st_method := "open_bin"; st_callee := "open"; st_branch := "File"; st_arg := PJoin PSelfRoot PHandleData |}.

Theorem trusting_validated_name_refuted :
  exists cwd root_arg name validated data opened,
    is_abs cwd = true /\
    (* the lookup validates the name as given: it is a (literal) file name inside the root *)
    resolve guard_rstrip_sep true cwd root_arg name = Ok validated /\
    seg_prefixb (segs (abspath cwd root_arg)) (segs validated) = true /\
    (* the handle stores the name with the backslashes replaced *)
    peval guard_rstrip_sep true cwd root_arg
      {| i_arg := name; i_data := []; i_hpath := []; i_prefix := []; i_walked := [] |} (PUnbs PArg) = Some data /\
    (* the unvalidated open reaches a file that is not under the root *)
    peval guard_rstrip_sep true cwd root_arg
      {| i_arg := name; i_data := data; i_hpath := data; i_prefix := []; i_walked := [] |}
      (st_arg unsafe_open_site) = Some opened /\
    seg_prefixb (segs (abspath cwd root_arg)) (segs (abspath cwd opened)) = false /\
    (* while the re-validating open raises RootEscapeError *)
    peval guard_rstrip_sep true cwd root_arg
      {| i_arg := name; i_data := data; i_hpath := data; i_prefix := []; i_walked := [] |}
      (PResolve PHandleData) = None.
Proof.
  exists (s2l "/w"), (s2l "/t/root"), (s2l "..\secret.txt"), (s2l "/t/root/..\secret.txt"),
         (s2l "../secret.txt"), (s2l "/t/root/../secret.txt").
  vm_compute. repeat split.
Qed.

(** A chain prefix is not a jail: member 'sub' of a chain can be left with '..' (staying inside the member's root).
    C18 speaks about the root directory only; this is recorded as an observation. *)
Definition chain_getfile_call : ccall :=
  {| cc_method := "_get_file"; cc_member := "_get_file"; cc_arg := PUnbs (PJoin PPrefix PArg) |}.
Definition resolved_arg_site : site :=
  {| st_method := "_get_file"; st_callee := "os.path.isfile"; st_branch := "str"; st_arg := PResolve PArg |}.

Theorem chain_prefix_not_confined_refuted :
  exists cwd root_arg prefix name a,
    chain_access guard_rstrip_sep cwd root_arg
      {| i_arg := name; i_data := []; i_hpath := []; i_prefix := prefix; i_walked := [] |}
      chain_getfile_call resolved_arg_site = Some a /\
    seg_prefixb (segs (abspath cwd root_arg)) (segs a) = true /\
    seg_prefixb (segs (pjoin (abspath cwd root_arg) prefix)) (segs a) = false.
Proof.
  exists (s2l "/w"), (s2l "/t/root"), (s2l "sub"), (s2l "../in.txt"), (s2l "/t/root/in.txt").
  vm_compute. repeat split.
Qed.
Close Scope string_scope.

Lemma entry_nameb_spec c : entry_nameb c = true -> valid c /\ is_dotdot c = false.
Proof.
  unfold entry_nameb. intros H. apply andb_true_iff in H as [H H3]. apply andb_true_iff in H as [H1 H2].
  apply negb_true_iff in H2, H3. repeat split; try assumption.
  unfold sep_free. apply Forall_forall. intros x Hx. rewrite forallb_forall in H1.
  specialize (H1 x Hx). now apply negb_true_iff in H1.
Qed.

Lemma valid_not_starts_sep c : valid c -> starts_sep c = false.
Proof.
  intros [Hf Hs]. destruct c as [|x c]; [reflexivity|]. cbn [starts_sep]. now inversion Hf.
Qed.

(** Joining a relative piece appends its segments ... *)
Lemma segs_pjoin_rel a b : starts_sep b = false -> segs (pjoin a b) = segs a ++ segs b.
Proof.
  intros Hb. unfold pjoin. rewrite Hb. destruct a as [|c a']; [reflexivity|].
  destruct (ends_sep (c :: a')) eqn:E.
  - destruct (ends_sep_inv _ E) as [u Hu]. rewrite Hu, <- app_assoc. cbn [app].
    now rewrite segs_app_sep, segs_snoc_sep.
  - now rewrite segs_app_sep.
Qed.

(** ... so a directory-entry name appends exactly one. *)
Lemma segs_pjoin_entry a n : valid n -> segs (pjoin a n) = segs a ++ [n].
Proof. intros Hv. now rewrite (segs_pjoin_rel a n (valid_not_starts_sep n Hv)), (segs_single n Hv). Qed.

Lemma pjoin_entry_abs a n : valid n -> is_abs a = true -> is_abs (pjoin a n) = true.
Proof. intros _ Ha. now apply pjoin_abs. Qed.

Lemma inside_pjoin_entry root a n : entry_nameb n = true -> inside root a -> inside root (pjoin a n).
Proof.
  intros Hn (Ha & [rest Hp] & Hd). destruct (entry_nameb_spec n Hn) as [Hv Hdd].
  repeat split.
  - now apply pjoin_abs.
  - exists (rest ++ [n]). now rewrite (segs_pjoin_entry a n Hv), Hp, app_assoc.
  - unfold no_dotdot in *. rewrite (segs_pjoin_entry a n Hv). apply Forall_app. split; [exact Hd|].
    now repeat constructor.
Qed.

Lemma inside_descend root names : forall a, forallb entry_nameb names = true -> inside root a ->
  inside root (descend a names).
Proof.
  induction names as [|n r IH]; intros a Hn Hi; [exact Hi|]. cbn [forallb] in Hn.
  apply andb_true_iff in Hn as [H1 H2]. cbn [descend]. apply IH; [exact H2|]. now apply inside_pjoin_entry.
Qed.

Section Walk.
  (** What os.walk(top) yields: (dirpath, file names).  The OS is outside the model; its behaviour enters as the
      hypothesis that every dirpath is [top] joined with directory-entry names and the file names are entry names. *)
  Variable os_walk : str -> list (str * list str).
  Hypothesis walk_shape : forall top d fs, In (d, fs) (os_walk top) ->
    (exists names, forallb entry_nameb names = true /\ d = descend top names) /\ forallb entry_nameb fs = true.

  (** RawFileSystem.walk_folder(folder): path = _resolve_path(folder); for dirpath, _, filenames in os.walk(path):
      every directory os.walk lists on the way (the scandir calls it makes) is inside the root ... *)
  Theorem walk_dirs_inside g cwd root_arg folder top d fs :
    raise_sound g = true -> is_abs cwd = true ->
    resolve g true cwd root_arg folder = Ok top ->
    In (d, fs) (os_walk top) -> inside (abspath cwd root_arg) d.
  Proof.
    intros Hg Hc Hres Hin.
    pose proof (segprefix_guard_sound g cwd root_arg folder top Hg Hc Hres) as Htop.
    destruct (walk_shape top d fs Hin) as [(names & Hn & ->) _]. now apply inside_descend.
  Qed.

  (** ... and so is every file found (os.path.join(dirpath, file)). *)
  Theorem walk_found_inside g cwd root_arg folder top d fs f :
    raise_sound g = true -> is_abs cwd = true ->
    resolve g true cwd root_arg folder = Ok top ->
    In (d, fs) (os_walk top) -> In f fs ->
    inside (abspath cwd root_arg) (pjoin d f).
  Proof.
    intros Hg Hc Hres Hin Hf. destruct (walk_shape top d fs Hin) as [_ Hfs]. rewrite forallb_forall in Hfs.
    apply inside_pjoin_entry; [now apply Hfs|]. exact (walk_dirs_inside g cwd root_arg folder top d fs Hg Hc Hres Hin).
  Qed.

  (** Whatever string walk_folder stores in the handle it yields (relpath of the found file, slashes changed),
      consuming the handle through a table of sound sites stays inside. *)
  Theorem walk_yield_consumed_inside g cwd root_arg (sites : list site) :
    raise_sound g = true -> is_abs cwd = true -> sites_ok sites = true ->
    forall yielded s i a, In s sites ->
      peval g true cwd root_arg
        {| i_arg := i_arg i; i_data := yielded; i_hpath := yielded; i_prefix := i_prefix i; i_walked := i_walked i |}
        (st_arg s) = Some a ->
      inside (abspath cwd root_arg) a.
  Proof. intros Hg Hc Hok yielded s i a. now apply ops_accesses_inside. Qed.
End Walk.

(** Non-vacuity of the walk hypothesis: a walk of /t/root that finds sub/deep.txt. *)
Example walk_shape_satisfiable :
  let top := s2l "/t/root" in
  let w := fun t : str => if str_eqb t top then [(top, [s2l "in.txt"]); (s2l "/t/root/sub", [s2l "deep.txt"])] else [] in
  forall t d fs, In (d, fs) (w t) ->
    (exists names, forallb entry_nameb names = true /\ d = descend t names) /\ forallb entry_nameb fs = true.
Proof.
  intros top w t d fs H. unfold w in H. destruct (str_eqb t top) eqn:E; [|contradiction].
  apply str_eqb_eq in E. subst t. destruct H as [H|[H|[]]]; inversion H; subst.
  - split; [exists []; now split | reflexivity].
  - split; [exists [s2l "sub"]; now split | reflexivity].
Qed.

Theorem resolve_cwd_at_call_irrelevant g con cwd0 cwd1 root_arg path :
  is_abs cwd0 = true -> resolve2 g con cwd0 cwd1 root_arg path = resolve g con cwd0 root_arg path.
Proof.
  intros Hc. unfold resolve2, resolve.
  now rewrite !(abspath_abs _ (pjoin (abspath cwd0 root_arg) path)) by now apply pjoin_abs, abspath_is_abs.
Qed.

Corollary resolve2_inside g cwd0 cwd1 root_arg path a :
  raise_sound g = true -> is_abs cwd0 = true ->
  resolve2 g true cwd0 cwd1 root_arg path = Ok a -> inside (abspath cwd0 root_arg) a.
Proof.
  intros Hg Hc H. rewrite (resolve_cwd_at_call_irrelevant g true cwd0 cwd1 root_arg path Hc) in H.
  exact (segprefix_guard_sound g cwd0 root_arg path a Hg Hc H).
Qed.

(** Following '..'-free segments only ever pushes directories. *)
Lemma follow_no_dotdot l : forall st, no_dotdot l -> follow st l = Some (rev l ++ st).
Proof.
  induction l as [|c r IH]; intros st H; [reflexivity|]. inversion H as [|? ? Hc Hr]; subst.
  cbn [follow]. rewrite Hc, (IH (c :: st) Hr). cbn [rev]. now rewrite <- app_assoc.
Qed.

