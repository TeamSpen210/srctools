(** C19 — concrete configurations (the forms translated from the pinned tree, the repaired forms) and the
    kernel-computed witnesses that refute the unsound forms. *)
From Coq Require Import List NArith.
From SV Require Import SM.FsChain.
Import ListNotations.
Open Scope N_scope.

Definition pinned_virtual : backend := {|
  b_store := [ONorm; OSlash; OFold]; b_get := [ONorm; OSlash; OFold]; b_exists := [ONorm; OSlash; OFold];
  b_open := [ONorm; OSlash; OFold]; b_wsrc := WDict; b_wfolder := [ONorm; OSlash; OFold]; b_wsubj := SOrig; b_wsubj_ops := [] |}.
Definition pinned_zip : backend := {|
  b_store := [OFold]; b_get := [OSlash; OFold]; b_exists := [OSlash; OFold]; b_open := [OSlash; OFold];
  b_wsrc := WDict; b_wfolder := [OSlash; OFold]; b_wsubj := SKey; b_wsubj_ops := [] |}.
Definition pinned_vpk : backend := {|
  b_store := [OSlash; OFold]; b_get := [OFold; OSlash]; b_exists := [OFold; OSlash]; b_open := [OFold; OSlash];
  b_wsrc := WDict; b_wfolder := [OSlash]; b_wsubj := SDir; b_wsubj_ops := [] |}.

Definition s_mat : str := [109; 97; 116].                                (* "mat" *)
Definition s_materials_x : str := [109; 97; 116; 101; 114; 105; 97; 108; 115; 47; 120].   (* "materials/x" *)
Definition s_Mat_x : str := [77; 97; 116; 47; 120].                       (* "Mat/x" *)

Definition fixed_virtual : backend := {|
  b_store := [OSlash; ONorm; OSlash; OFold]; b_get := [OSlash; ONorm; OSlash; OFold];
  b_exists := [OSlash; ONorm; OSlash; OFold]; b_open := [OSlash; ONorm; OSlash; OFold];
  b_wsrc := WDict; b_wfolder := [OSlash; ONorm; OSlash; OFold; ODotEmpty; ORStrip; OAddSlash]; b_wsubj := SKey; b_wsubj_ops := [] |}.
Definition fixed_zip : backend := {|
  b_store := [OFold]; b_get := [OSlash; OSlash; ONorm; OSlash; OFold]; b_exists := [OSlash; ONorm; OSlash; OFold];
  b_open := [OSlash; OSlash; ONorm; OSlash; OFold];
  b_wsrc := WDict; b_wfolder := [OSlash; ONorm; OSlash; OFold; ODotEmpty; ORStrip; OAddSlash]; b_wsubj := SKey; b_wsubj_ops := [] |}.
(** repaired forms that do not normalise after the slash conversion (Virtual normalising on '/' only, Zip without
    normpath): sound for walks, but not [backend_keys_norm] *)
Definition round1_virtual : backend := {|
  b_store := [ONorm; OSlash; OFold]; b_get := [ONorm; OSlash; OFold]; b_exists := [ONorm; OSlash; OFold];
  b_open := [ONorm; OSlash; OFold];
  b_wsrc := WDict; b_wfolder := [ONorm; OSlash; OFold; ODotEmpty; ORStrip; OAddSlash]; b_wsubj := SKey; b_wsubj_ops := [] |}.
Definition round1_zip : backend := {|
  b_store := [OFold]; b_get := [OSlash; OFold]; b_exists := [OSlash; OFold]; b_open := [OSlash; OFold];
  b_wsrc := WDict; b_wfolder := [OSlash; OFold; ORStrip; OAddSlash]; b_wsubj := SKey; b_wsubj_ops := [] |}.

Lemma round1_forms_ok :
  walk_ok round1_virtual = true /\ backend_keys_ok round1_virtual = true
  /\ walk_ok round1_zip = true /\ backend_keys_ok round1_zip = true
  /\ backend_keys_norm round1_virtual = false /\ backend_keys_norm round1_zip = false
  /\ backend_keys_norm fixed_virtual = true /\ backend_keys_norm fixed_zip = true.
Proof. repeat split; reflexivity. Qed.

(** ** shapes of [walk_folder] that the translator recognises but that are unsound *)

(** VPKFileSystem.walk_folder looping over [self.vpk.fileinfos(folder=folder.rstrip('/'))] and then testing the
    case-folded file name: the container compares its directory names as stored. *)
Definition prefilter_vpk : backend := {|
  b_store := [OSlash; OFold]; b_get := [OFold; OSlash]; b_exists := [OFold; OSlash]; b_open := [OFold; OSlash];
  b_wsrc := WCont (Some [OSlash; OFold; ORStrip; OAddSlash; ORStrip]);
  b_wfolder := [OSlash; OFold; ORStrip; OAddSlash]; b_wsubj := SOrig; b_wsubj_ops := [OFold] |}.
(** ... and looping over the container itself (no pre-filter): every stored file is visited, also those the folded
    dictionary dropped. *)
Definition container_vpk : backend := {|
  b_store := [OSlash; OFold]; b_get := [OFold; OSlash]; b_exists := [OFold; OSlash]; b_open := [OFold; OSlash];
  b_wsrc := WCont None;
  b_wfolder := [OSlash; OFold; ORStrip; OAddSlash]; b_wsubj := SOrig; b_wsubj_ops := [OFold] |}.

