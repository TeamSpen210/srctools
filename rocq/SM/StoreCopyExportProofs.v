(** C09 — [copy_export_equal]: a copy built as the census-with-sources says, whose observed fields all
    pass [copy_export_ok], exports exactly like its original (masked unfolding equal at every depth). *)
From Coq Require Import List ZArith Bool String.
From SV Require Import SM.Store SM.StoreCopy SM.StoreCopyProofs SM.StoreCopySrc SM.StoreCopySrcProofs
  SM.StoreCopyExport.
Import ListNotations.

Section Masked.
  Variable mk : loc -> list bool.

  Lemma munfold_agree h h' a :
    (forall x, reach h a x -> h' x = h x) ->
    forall n l, reach h a l -> munfold mk n h' (VRef l) = munfold mk n h (VRef l).
  Proof.
    intros Hag. induction n as [|n IH]; intros l Hl; [reflexivity|].
    cbn [munfold]. rewrite (Hag l Hl). destruct (h l) as [nd|] eqn:E; [|reflexivity].
    f_equal. f_equal. apply map_ext_in. intros v Hin. destruct v as [z|l'].
    - destruct n; reflexivity.
    - apply IH. eapply reach_step; eauto.
  Qed.

  Lemma share_mobs_eq h h' v : closed h -> extends h h' -> val_alloc h v -> mobs_eq mk h h' v v.
  Proof.
    intros Hc He Hv n. destruct v as [z|r]; [destruct n; reflexivity|].
    apply (munfold_agree h h' r); [|constructor]. intros x Hx. eapply extends_agree; eauto.
  Qed.

  Lemma how_complete_mobs w h h' v v' :
    closed h -> extends h h' -> val_alloc h v -> how_transfers w = true ->
    how_complete mk w h h' v v' -> mobs_eq mk h h' v v'.
  Proof.
    intros Hc He Hv Ht Hw. destruct w; try discriminate; cbn in Hw.
    - subst v'. apply share_mobs_eq; auto.
    - exact Hw.
    - destruct v as [z|c]; [subst v'; intros n; destruct n; reflexivity|].
      destruct Hw as (c' & nd & -> & Hnd & Hnd' & Hmk). intros n. destruct n as [|n]; [reflexivity|].
      cbn [munfold]. rewrite Hnd, Hnd', Hmk. cbn [nmut nfields]. f_equal. f_equal.
      apply map_ext_in. intros el Hin.
      exact (share_mobs_eq h h' el Hc He (closed_fields_alloc h c nd el Hc Hnd Hin) n).
  Qed.

  (** Position by position: masked, or carried over from the field in the same position.  Generalised over the fields
      [rest] still to be compared: a source index only has to point, in [orig], at the field in the row's position. *)
  Lemma frc_mask_eq h h' orig n :
    closed h -> extends h h' ->
    forall rows vs', fields_rel_c mk h h' orig rows vs' ->
    forall rest, List.length rest = List.length rows ->
    (forall v, In v rest -> val_alloc h v) ->
    (forall p w j, nth_error rows p = Some (false, w, j) ->
                   how_transfers w = true /\ forall i, j = Some i -> nth_error orig i = nth_error rest p) ->
    mask_apply (map (fun r : erow => fst (fst r)) rows) (map (munfold mk n h') vs') =
    mask_apply (map (fun r : erow => fst (fst r)) rows) (map (munfold mk n h) rest).
  Proof.
    intros Hc He rows vs' Hr. induction Hr as [|m w j rows v' vs' Hsem Hr IH]; intros rest Hl Hal Hid.
    - destruct rest; [reflexivity|discriminate].
    - destruct rest as [|v rest]; [discriminate|].
      specialize (IH rest (eq_add_S _ _ Hl) (fun x Hx => Hal x (or_intror Hx)) (fun p w1 j1 Hp => Hid (S p) w1 j1 Hp)).
      cbn [map fst mask_apply]. destruct m; rewrite IH; [reflexivity|].
      destruct (Hid 0 w j eq_refl) as [Ht Hj].
      destruct (Hsem eq_refl) as (i & v0 & -> & Hn & Hw). rewrite (Hj i eq_refl) in Hn. inversion Hn; subst v0.
      rewrite (how_complete_mobs w h h' v v' Hc He (Hal v (or_introl eq_refl)) Ht Hw n). reflexivity.
  Qed.
End Masked.

Lemma eresolve_mask c s reads : map (fun r : erow => fst (fst r)) (eresolve c s reads) = obs_mask c reads.
Proof. unfold eresolve, obs_mask. rewrite map_map. reflexivity. Qed.

Lemma eresolve_identity c s reads :
  copy_export_ok c s reads = true ->
  forall p m w j, nth_error (eresolve c s reads) p = Some (m, w, j) -> m = false ->
                  how_transfers w = true /\ j = Some p.
Proof.
  unfold copy_export_ok. rewrite andb_true_iff. intros [Hnd Hall] p m w j Hp Hm.
  unfold eresolve in Hp. rewrite nth_error_map in Hp.
  destruct (nth_error c p) as [row|] eqn:Er; [|discriminate]. cbn in Hp. inversion Hp; subst; clear Hp.
  rewrite forallb_forall in Hall. specialize (Hall row (nth_error_In _ _ Er)).
  unfold field_export_ok in Hall. apply negb_false_iff in H0. rewrite H0 in Hall.
  apply andb_true_iff in Hall. destruct Hall as [Ht Hs]. split; [exact Ht|].
  apply (own_source_index c s p row (nodupb_NoDup _ Hnd) Er); [|exact Hs].
  destruct (snd row); try discriminate; reflexivity.
Qed.

(** THE COMPLETENESS THEOREM.  Original [la] and copy [lc] carry the class's observation mask; the copy's
    fields are related to the original's by the census with sources ([fields_rel_c]: share / fresh container of
    the same elements / nested copy that itself exports equally); every observed field passes
    [copy_export_ok].  Then the copy exports like the original, at every depth. *)
Theorem copy_export_equal (mk : loc -> list bool) (c : census) (s : srcmap) (reads : list string) h h' la lc nd nd' :
  closed h -> extends h h' -> h la = Some nd -> h' lc = Some nd' -> nmut nd' = nmut nd ->
  mk la = obs_mask c reads -> mk lc = obs_mask c reads ->
  List.length (nfields nd) = List.length c ->
  copy_export_ok c s reads = true ->
  fields_rel_c mk h h' (nfields nd) (eresolve c s reads) (nfields nd') ->
  mobs_eq mk h h' (VRef la) (VRef lc).
Proof.
  intros Hc He Hla Hlc Hm Hma Hmc Hlen Hok Hr n. destruct n as [|n]; [reflexivity|].
  cbn [munfold]. rewrite Hla, Hlc, Hm, Hma, Hmc. f_equal. rewrite <- (eresolve_mask c s reads).
  apply (frc_mask_eq mk h h' (nfields nd) n Hc He _ _ Hr (nfields nd)).
  - unfold eresolve. rewrite map_length. exact Hlen.
  - intros v Hin. exact (closed_fields_alloc h la nd v Hc Hla Hin).
  - intros p w j Hp. destruct (eresolve_identity c s reads Hok p false w j Hp eq_refl) as [Ht ->].
    split; [exact Ht|]. intros i [= ->]. reflexivity.
Qed.

(** Not vacuous, and sensitive: a 3-field object (id, blend, alpha), export reads blend and alpha. *)
Definition ex_census : census :=
  [("id"%string, KId, HNewId); ("blend"%string, KImm, HShare); ("alpha"%string, KImm, HShare)].
Definition ex_reads : list string := ["id"%string; "blend"%string; "alpha"%string].
Definition ex_src_good : srcmap :=
  [("id"%string, []); ("blend"%string, ["blend"%string]); ("alpha"%string, ["alpha"%string])].
Definition ex_src_bad : srcmap :=
  [("id"%string, []); ("blend"%string, ["blend"%string]); ("alpha"%string, ["blend"%string])].
Definition ex_mk : loc -> list bool := fun _ => obs_mask ex_census ex_reads.
Definition ex_h : heap := fun l => match l with 1%positive => Some (Node true [VAtom 10%Z; VAtom 5%Z; VAtom 7%Z]) | _ => None end.
Definition ex_h' (alpha : Z) : heap := fun l => match l with
  | 1%positive => Some (Node true [VAtom 10%Z; VAtom 5%Z; VAtom 7%Z])
  | 2%positive => Some (Node true [VAtom 11%Z; VAtom 5%Z; VAtom alpha]) | _ => None end.

Lemma ex_closed : closed ex_h.
Proof.
  intros l nd0 l' Hl. destruct l as [l|l|]; try discriminate. cbn in Hl. inversion Hl; subst. cbn.
  intros [H|[H|[H|[]]]]; discriminate.
Qed.

Lemma ex_extends alpha : extends ex_h (ex_h' alpha).
Proof. intros l nd0. destruct l as [l|l|]; try discriminate. auto. Qed.

Lemma ex_fields_rel_c :
  fields_rel_c ex_mk ex_h (ex_h' 7%Z) [VAtom 10%Z; VAtom 5%Z; VAtom 7%Z] (eresolve ex_census ex_src_good ex_reads)
    [VAtom 11%Z; VAtom 5%Z; VAtom 7%Z].
Proof.
  cbn. constructor; [intros; discriminate|]. constructor; [intros _; exists 1%nat, (VAtom 5%Z); cbn; auto|].
  constructor; [intros _; exists 2%nat, (VAtom 7%Z); cbn; auto|]. constructor.
Qed.

Example copy_export_equal_applies :
  copy_export_ok ex_census ex_src_good ex_reads = true /\
  mobs_eq ex_mk ex_h (ex_h' 7%Z) (VRef 1%positive) (VRef 2%positive).
Proof.
  split; [reflexivity|].
  eapply (copy_export_equal ex_mk ex_census ex_src_good ex_reads ex_h (ex_h' 7%Z) 1%positive 2%positive);
    try reflexivity; [exact ex_closed | apply ex_extends | exact ex_fields_rel_c].
Qed.

(** A field export reads that copy() never sets is rejected as well. *)
Example copy_export_missing_rejected :
  copy_export_ok [("blend"%string, KImm, HMissing)] [("blend"%string, [])] ["blend"%string] = false.
Proof. reflexivity. Qed.
