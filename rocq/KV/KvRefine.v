(** C01 — the KV lexer model ([KV/KvLex.v], a character-driven transducer) computes the same tokens and the same
    error as the reader-program model of [Tokenizer] built for C03 ([Text/Tokenizer.v]: [_get_token],
    [_handle_string], [_handle_comment] and the bracket / parenthesis / directive / bare-string loops written over
    [_next_char] and the push-back [_char_index -= 1]) under the options that [Keyvalues.parse] passes:
    string_bracket=True, string_parens=True, allow_escapes=True, everything else off.

    Consequences: (1) the hand-written lexer of C01 is not an independent trusted model: it is proved equal
    to the model that C03 ties to the source by an exhaustive small-scope correspondence; (2) C03's generic
    theorem "no reader program can tell a chunked source from the flat string" transfers to [parse_kv]:
    [parse_any_delivery_chunks]. *)
From Coq Require Import List NArith ZArith Bool Lia.
From SV Require Import Text.Str Text.Prog Text.ProgProofs Text.Tokenizer Text.TokenizerProofs.
From SV Require Import KV.KvBase KV.KvLex KV.KvParse.
Import ListNotations.
Open Scope N_scope.

(** The tokenizer options of [Keyvalues.parse] (allow_escapes=True). *)
Definition kv_topts : opts := {|
  string_bracket := true; string_parens := true; allow_escapes := true; allow_star_comments := false;
  preserve_comments := false; colon_operator := false; plus_operator := false |}.

(** * The constant tables of the two models agree (decidable; an instance obligation for the generated tables) *)
Definition bare_list : list N := [34; 39; 123; 125; 59; 44; 61; 91; 93; 40; 41; 13; 10; 9; 32].

Fixpoint nlist_eqb (a b : list N) : bool :=
  match a, b with
  | [], [] => true
  | x :: a', y :: b' => (x =? y) && nlist_eqb a' b'
  | _, _ => false
  end.
Fixpoint pairs_eqb (a b : list (N * N)) : bool :=
  match a, b with
  | [], [] => true
  | (x1, x2) :: a', (y1, y2) :: b' => (x1 =? y1) && (x2 =? y2) && pairs_eqb a' b'
  | _, _ => false
  end.

Definition op_is (ops : list (N * Str.tok)) (c : N) (t : Str.tok) : bool :=
  match Str.lookup c ops, t with
  | Some BRACE_OPEN, BRACE_OPEN | Some BRACE_CLOSE, BRACE_CLOSE | Some EQUALS, EQUALS | Some COMMA, COMMA => true
  | _, _ => false
  end.
Definition ops_match (ops : list (N * Str.tok)) : bool :=
  forallb (fun p : N * Str.tok => KvLex.mem (fst p) [123; 125; 61; 44]) ops
  && op_is ops 123 BRACE_OPEN && op_is ops 125 BRACE_CLOSE && op_is ops 61 EQUALS && op_is ops 44 COMMA.

Definition esc_tables_match (T : tables) (E : escfg) : bool := pairs_eqb (esc_table T) (e_table E).
(** BARE_DISALLOWED is a frozenset: equality as sets. *)
Definition bare_tables_match (T : tables) : bool :=
  forallb (fun x => Str.mem x bare_list) (Str.bare_disallowed T)
  && forallb (fun x => Str.mem x (Str.bare_disallowed T)) bare_list.
Definition tables_match (T : tables) (E : escfg) : bool :=
  esc_tables_match T E && bare_tables_match T && ops_match (operators T).

Lemma nlist_eqb_eq a : forall b, nlist_eqb a b = true -> a = b.
Proof.
  induction a as [|x a IH]; destruct b as [|y b]; cbn [nlist_eqb]; try discriminate; [reflexivity|].
  intros H. apply andb_true_iff in H as [H1 H2]. apply N.eqb_eq in H1. now rewrite H1, (IH b H2).
Qed.
Lemma pairs_eqb_eq a : forall b, pairs_eqb a b = true -> a = b.
Proof.
  induction a as [|[x1 x2] a IH]; destruct b as [|[y1 y2] b]; cbn [pairs_eqb]; try discriminate; [reflexivity|].
  intros H. apply andb_true_iff in H as [H H3]. apply andb_true_iff in H as [H1 H2].
  apply N.eqb_eq in H1, H2. now rewrite H1, H2, (IH b H3).
Qed.

Lemma lookup_same k (t : list (N * N)) : Str.lookup k t = KvLex.lookup k t.
Proof. induction t as [|[a b] t IH]; cbn [Str.lookup KvLex.lookup]; [reflexivity|]. now rewrite IH. Qed.

Definition op_of (c : N) : option Str.tok :=
  if c =? 123 then Some BRACE_OPEN else if c =? 125 then Some BRACE_CLOSE
  else if c =? 61 then Some EQUALS else if c =? 44 then Some COMMA else None.

Lemma op_is_lookup ops c t : op_is ops c t = true -> Str.lookup c ops = Some t.
Proof. unfold op_is. destruct (Str.lookup c ops) as [[]|]; try discriminate; destruct t; (discriminate || reflexivity). Qed.

Lemma ops_lookup ops : ops_match ops = true -> forall c, Str.lookup c ops = op_of c.
Proof.
  unfold ops_match. intros H c.
  repeat (apply andb_true_iff in H as [H ?]).
  unfold op_of.
  destruct (c =? 123) eqn:E1; [apply N.eqb_eq in E1; subst; now apply op_is_lookup|].
  destruct (c =? 125) eqn:E2; [apply N.eqb_eq in E2; subst; now apply op_is_lookup|].
  destruct (c =? 61) eqn:E3; [apply N.eqb_eq in E3; subst; now apply op_is_lookup|].
  destruct (c =? 44) eqn:E4; [apply N.eqb_eq in E4; subst; now apply op_is_lookup|].
  clear - H E1 E2 E3 E4. induction ops as [|[k t] ops IH]; [reflexivity|].
  cbn [forallb fst] in H. apply andb_true_iff in H as [Hk H].
  cbn [Str.lookup]. destruct (k =? c) eqn:Ek; [|now apply IH].
  apply N.eqb_eq in Ek. subst k. unfold KvLex.mem in Hk. cbn [existsb] in Hk.
  rewrite E1, E2, E3, E4 in Hk. discriminate.
Qed.

(** * Conversions between the vocabularies of the two models *)
Definition conv_tok (k : Str.tok) (v : str) : tok :=
  match k with
  | STRING => TStr v | NEWLINE => TNL | BRACE_OPEN => TBO | BRACE_CLOSE => TBC | PROP_FLAG => TFlag v
  | _ => TOther
  end.
Definition conv_err (e : err) : lexerr :=
  match e with
  | E_UNTERM_STRING => LUnterminated | E_NO_ESCAPE => LNoEscape | E_EOL_BRACK => LFlagNewline
  | E_NEST_BRACK => LFlagNest | E_UNTERM_FLAG => LFlagEof | E_NEST_PAREN => LParenNest
  | E_UNTERM_PAREN => LParenEof | E_CLOSE_BRACK => LCloseBracket | E_CLOSE_PAREN => LCloseParen
  | E_UNEXPECTED_CHAR => LUnexpectedChar | E_UNCLOSED_STAR => LStarComment | E_STAR_NOT_ALLOWED => LStarComment
  | E_SINGLE_SLASH_STAR => LSingleSlash | E_SINGLE_SLASH => LSingleSlash
  end.

(** The tokens of a trace up to the first EOF, and the error that ends it (if any). *)
Fixpoint conv_trace (rs : list result) : list tok * option lexerr :=
  match rs with
  | [] => ([], None)
  | RTok EOF _ _ _ :: _ => ([], None)
  | RTok k v _ _ :: r => let '(ts, e) := conv_trace r in (conv_tok k v :: ts, e)
  | RErr e _ _ :: _ => ([], Some (conv_err e))
  | RFuel :: _ => ([], None)
  end.

(** * The transducer from an arbitrary state *)
Definition fin_of (r : list tok * (lexerr + lst)) : list tok * option lexerr :=
  match r with
  | (ts, inl e) => (ts, Some e)
  | (ts, inr st) => let '(ts', e) := lex_end st in (ts ++ ts', e)
  end.
Definition lex_from (E : escfg) (st : lst) (l : str) : list tok * option lexerr := fin_of (lex_run E st l).
Definition cons_toks (out : list tok) (r : list tok * option lexerr) : list tok * option lexerr :=
  (out ++ fst r, snd r).

Lemma lex_all_from E l : lex_all E l = lex_from E lex_init l.
Proof. unfold lex_all, lex_from, fin_of. destruct (lex_run E lex_init l) as [ts [e|st]]; reflexivity. Qed.

Lemma cons_toks_nil r : cons_toks [] r = r.
Proof. destruct r; reflexivity. Qed.

Lemma lex_from_cons E st c l :
  lex_from E st (c :: l) =
  match lstep E st c with
  | SErr out e => (out, Some e)
  | SOk st' out => cons_toks out (lex_from E st' l)
  end.
Proof.
  unfold lex_from. cbn [lex_run]. destruct (lstep E st c) as [st' out|out e]; [|reflexivity].
  destruct (lex_run E st' l) as [ts [e|st2]]; cbn [fin_of cons_toks fst snd]; [reflexivity|].
  destruct (lex_end st2) as [ts' e]. unfold cons_toks. cbn [fst snd]. now rewrite app_assoc.
Qed.

Lemma lex_from_nil E st : lex_from E st [] = (fst (lex_end st), snd (lex_end st)).
Proof. unfold lex_from. cbn [lex_run fin_of]. destruct (lex_end st); reflexivity. Qed.

(** What one call of the reader-program tokenizer must satisfy with respect to the transducer: [whole] is the
    complete output of the transducer from the corresponding state on the same input; [bound] limits the length
    of the input that is left. *)
Definition spec (E : escfg) (whole : list tok * option lexerr) (r : result) (l' : str) (bound : nat) : Prop :=
  match r with
  | RTok EOF _ _ _ => whole = ([], None)
  | RTok k v line' lcr' =>
      (length l' <= bound)%nat /\ whole = cons_toks [conv_tok k v] (lex_from E (mkL MNorm line' lcr') l')
  | RErr e _ _ => whole = ([], Some (conv_err e))
  | RFuel => False
  end.

Lemma spec_weaken E w r l' b b' : (b <= b')%nat -> spec E w r l' b -> spec E w r l' b'.
Proof. intros Hb. destruct r as [[] v ln lc|e a ln|]; cbn [spec]; intuition lia. Qed.

(** A character that produces no token: the rest of the run is the run on the rest. *)
Lemma spec_skip E w r l' b : spec E w r l' b -> spec E (cons_toks [] w) r l' (S b).
Proof. rewrite cons_toks_nil. apply spec_weaken. lia. Qed.

Ltac consts := cbv [Str.DQ Str.BS Str.LF Str.CR Str.TAB Str.SP Str.SLASH Str.STAR Str.LBRACK Str.RBRACK Str.LPAREN
                    Str.RPAREN Str.HASH Str.COLONC Str.PLUSC Str.BOM KvBase.DQ KvBase.BS KvBase.LF KvBase.CR
                    KvBase.SP KvBase.TAB] in *.

Section Refine.
  Variable T : tables.
  Variable E : escfg.
  Hypothesis HT : tables_match T E = true.

  Lemma esc_eq : esc_table T = e_table E.
  Proof. unfold tables_match in HT. repeat (apply andb_true_iff in HT as [HT ?]). now apply pairs_eqb_eq. Qed.
  Lemma bare_eq c : Str.mem c (Str.bare_disallowed T) = KvLex.bare_disallowed c.
  Proof.
    unfold tables_match in HT. repeat (apply andb_true_iff in HT as [HT ?]).
    unfold bare_tables_match in *. apply andb_true_iff in H0 as [H1 H2].
    rewrite forallb_forall in H1, H2. change (KvLex.bare_disallowed c) with (Str.mem c bare_list).
    destruct (Str.mem c (Str.bare_disallowed T)) eqn:E1, (Str.mem c bare_list) eqn:E2; try reflexivity.
    - apply Str.mem_In in E1. rewrite (H1 c E1) in E2. discriminate.
    - apply Str.mem_In in E2. rewrite (H2 c E2) in E1. discriminate.
  Qed.
  Lemma ops_eq c : Str.lookup c (operators T) = op_of c.
  Proof. unfold tables_match in HT. repeat (apply andb_true_iff in HT as [HT ?]). now apply ops_lookup. Qed.

  Lemma delim_eq c : is_delim T kv_topts c = KvLex.bare_disallowed c.
  Proof.
    unfold is_delim. cbn [colon_operator plus_operator kv_topts]. rewrite !andb_false_r, !orb_false_r.
    apply bare_eq.
  Qed.

  (** [_handle_string] against the modes [MStr] / [MEsc]. *)
  Lemma string_spec : forall f l acc scr line, (length l < f)%nat ->
    spec E (lex_from E (mkL (MStr acc scr) line false) l)
      (fst (run_flat (handle_string T kv_topts f acc scr line) l))
      (snd (run_flat (handle_string T kv_topts f acc scr line) l)) (length l).
  Proof.
    induction f as [|f IH]; intros l acc scr line Hf; [lia|].
    destruct l as [|c l].
    - cbn. reflexivity.
    - cbn [length] in Hf. rewrite lex_from_cons.
      cbn [handle_string run_flat fnext keep lstep l_mode l_line l_cr allow_escapes kv_topts]. consts.
      destruct (c =? 34) eqn:E1.
      { cbn [run_flat fst snd spec conv_tok]. split; [cbn [length]; lia|reflexivity]. }
      destruct (c =? 13) eqn:E2.
      { apply spec_skip, IH; lia. }
      destruct (c =? 10) eqn:E3.
      { destruct scr; apply spec_skip, IH; lia. }
      destruct (c =? 92) eqn:E4; cbn [andb].
      2:{ apply spec_skip, IH; lia. }
      rewrite cons_toks_nil.
      destruct l as [|e l].
      { cbn. reflexivity. }
      cbn [run_flat fnext keep]. rewrite lex_from_cons. cbn [lstep l_mode l_line l_cr]. consts.
      cbn [length] in *.
      destruct (e =? 10) eqn:E5.
      { apply spec_skip, spec_weaken with (length l), IH; lia. }
      rewrite esc_eq, lookup_same.
      destruct (KvLex.lookup e (e_table E)) as [x|]; apply spec_skip, spec_weaken with (length l), IH; lia.
  Qed.

  (** The [[flag]] loop against the mode [MFlag]. *)
  Lemma brack_spec : forall f l acc line, (length l < f)%nat ->
    spec E (lex_from E (mkL (MFlag acc) line false) l)
      (fst (run_flat (brack_loop f acc line) l)) (snd (run_flat (brack_loop f acc line) l)) (length l).
  Proof.
    induction f as [|f IH]; intros l acc line Hf; [lia|].
    destruct l as [|c l].
    - cbn. reflexivity.
    - cbn [length] in Hf. rewrite lex_from_cons.
      cbn [brack_loop run_flat fnext keep lstep l_mode l_line l_cr]. consts.
      destruct (c =? 93) eqn:E1.
      { cbn [run_flat fst snd spec conv_tok]. split; [cbn [length]; lia|reflexivity]. }
      destruct (c =? 10) eqn:E2; [cbn; reflexivity|].
      destruct (c =? 91) eqn:E3; [cbn; reflexivity|].
      apply spec_skip, IH; lia.
  Qed.

  (** The [(args)] loop against the mode [MParen]. *)
  Lemma paren_spec : forall f l acc line, (length l < f)%nat ->
    spec E (lex_from E (mkL (MParen acc) line false) l)
      (fst (run_flat (paren_loop f acc line) l)) (snd (run_flat (paren_loop f acc line) l)) (length l).
  Proof.
    induction f as [|f IH]; intros l acc line Hf; [lia|].
    destruct l as [|c l].
    - cbn. reflexivity.
    - cbn [length] in Hf. rewrite lex_from_cons.
      cbn [paren_loop run_flat fnext keep lstep l_mode l_line l_cr]. consts.
      destruct (c =? 41) eqn:E1.
      { cbn [run_flat fst snd spec conv_tok]. split; [cbn [length]; lia|reflexivity]. }
      destruct (c =? 10) eqn:E2.
      { apply spec_skip, IH; lia. }
      destruct (c =? 40) eqn:E3; [cbn; reflexivity|].
      apply spec_skip, IH; lia.
  Qed.

  (** A loop that ends on a delimiter pushes it back; the transducer re-dispatches it in the normal mode. *)
  Lemma prepend_from t r l :
    match prepend t r with
    | SErr out e => (out, Some e)
    | SOk st' out => cons_toks out (lex_from E st' l)
    end
    = cons_toks [t] match r with
                    | SErr out e => (out, Some e)
                    | SOk st' out => cons_toks out (lex_from E st' l)
                    end.
  Proof. destruct r as [st' out|out e]; reflexivity. Qed.

  Lemma norm_from line cr c l :
    lex_from E (mkL MNorm line cr) (c :: l) =
    match norm_step line cr c with
    | SErr out e => (out, Some e)
    | SOk st' out => cons_toks out (lex_from E st' l)
    end.
  Proof. now rewrite lex_from_cons. Qed.

  (** The [#directive] loop against [MDirective]. *)
  Lemma directive_spec : forall f l acc line, (length l < f)%nat ->
    spec E (lex_from E (mkL MDirective line false) l)
      (fst (run_flat (directive_loop T kv_topts f acc line) l))
      (snd (run_flat (directive_loop T kv_topts f acc line) l)) (length l).
  Proof.
    induction f as [|f IH]; intros l acc line Hf; [lia|].
    destruct l as [|c l].
    - cbn. split; [lia|reflexivity].
    - cbn [length] in Hf. rewrite lex_from_cons.
      cbn [directive_loop run_flat fnext unread_delim lstep l_mode l_line l_cr]. rewrite delim_eq.
      destruct (KvLex.bare_disallowed c) eqn:E1.
      + cbn [fback run_flat fst snd spec conv_tok]. split; [apply le_n|].
        rewrite prepend_from, <- norm_from. reflexivity.
      + apply spec_skip, IH; lia.
  Qed.

  (** The bare-string loop against [MBare]. *)
  Lemma bare_spec : forall f l acc line, (length l < f)%nat ->
    spec E (lex_from E (mkL (MBare acc) line false) l)
      (fst (run_flat (bare_loop T kv_topts f acc line) l))
      (snd (run_flat (bare_loop T kv_topts f acc line) l)) (length l).
  Proof.
    induction f as [|f IH]; intros l acc line Hf; [lia|].
    destruct l as [|c l].
    - cbn. split; [lia|reflexivity].
    - cbn [length] in Hf. rewrite lex_from_cons.
      cbn [bare_loop run_flat fnext unread_delim lstep l_mode l_line l_cr]. rewrite delim_eq.
      destruct (KvLex.bare_disallowed c) eqn:E1.
      + cbn [fback run_flat fst snd spec conv_tok]. split; [apply le_n|].
        rewrite prepend_from, <- norm_from. reflexivity.
      + apply spec_skip, IH; lia.
  Qed.

  (** Comments: swallowed (the options of Keyvalues.parse never preserve them). *)
  Definition cspec (whole : list tok * option lexerr) (r : cres) (l' : str) (bound : nat) : Prop :=
    match r with
    | CSwallow line' => (length l' <= bound)%nat /\ whole = lex_from E (mkL MNorm line' false) l'
    | CDone r' => spec E whole r' l' bound
    end.

  Lemma cspec_weaken w r l' b b' : (b <= b')%nat -> cspec w r l' b -> cspec w r l' b'.
  Proof.
    intros Hb. destruct r as [ln|r]; cbn [cspec]; [intros [H1 H2]; split; [lia|exact H2]|].
    now apply spec_weaken.
  Qed.

  Lemma line_comment_spec : forall f l acc line, (length l < f)%nat ->
    cspec (lex_from E (mkL MComment line false) l)
      (fst (run_flat (line_comment kv_topts f acc line) l))
      (snd (run_flat (line_comment kv_topts f acc line) l)) (length l).
  Proof.
    induction f as [|f IH]; intros l acc line Hf; [lia|].
    destruct l as [|c l].
    - cbn. split; [lia|reflexivity].
    - cbn [length] in Hf. rewrite lex_from_cons.
      cbn [line_comment run_flat fnext lstep l_mode l_line l_cr]. consts.
      destruct (c =? 10) eqn:E1.
      + cbn [fback run_flat fst snd comment_end preserve_comments kv_topts cspec]. split; [apply le_n|].
        apply N.eqb_eq in E1. subst c. rewrite norm_from. reflexivity.
      + rewrite cons_toks_nil.
        eapply cspec_weaken; [|apply IH; lia]. cbn [length]; lia.
  Qed.

  Lemma comment_spec : forall f l line, (length l < f)%nat ->
    cspec (lex_from E (mkL MSlash line false) l)
      (fst (run_flat (handle_comment kv_topts f line) l))
      (snd (run_flat (handle_comment kv_topts f line) l)) (length l).
  Proof.
    intros f l line Hf. destruct l as [|c l].
    - cbn. reflexivity.
    - cbn [length] in Hf. rewrite lex_from_cons.
      cbn [handle_comment run_flat fnext keep lstep l_mode l_line l_cr allow_star_comments kv_topts]. consts.
      destruct (c =? 42) eqn:E1; [cbn; reflexivity|].
      destruct (c =? 47) eqn:E2; [|cbn; reflexivity].
      rewrite cons_toks_nil.
      eapply cspec_weaken; [|apply line_comment_spec; lia]. cbn [length]; lia.
  Qed.

  (** After a swallowed comment [_get_token] loops. *)
  Lemma after_comment f whole cr l1 b :
    cspec whole cr l1 b ->
    ((length l1 <= b)%nat -> forall line', spec E (lex_from E (mkL MNorm line' false) l1)
                     (fst (run_flat (get_token T kv_topts f line' false) l1))
                     (snd (run_flat (get_token T kv_topts f line' false) l1)) (length l1)) ->
    spec E whole
      (fst (run_flat (match cr with CSwallow line' => get_token T kv_topts f line' false | CDone r' => Ret r' end) l1))
      (snd (run_flat (match cr with CSwallow line' => get_token T kv_topts f line' false | CDone r' => Ret r' end) l1))
      b.
  Proof.
    destruct cr as [ln|r']; cbn [cspec run_flat fst snd]; [|auto].
    intros [Hb ->] H. eapply spec_weaken; [exact Hb|apply H; exact Hb].
  Qed.

  (** [_get_token] against the normal mode. *)
  Lemma get_token_spec : forall f l line lcr, (length l < f)%nat ->
    spec E (lex_from E (mkL MNorm line lcr) l)
      (fst (run_flat (get_token T kv_topts f line lcr) l))
      (snd (run_flat (get_token T kv_topts f line lcr) l)) (pred (length l)).
  Proof.
    induction f as [|f IH]; intros l line lcr Hf; [lia|].
    destruct l as [|c l].
    - cbn. reflexivity.
    - cbn [length pred] in *. rewrite norm_from.
      assert (IH' : forall line' lcr', spec E (lex_from E (mkL MNorm line' lcr') l)
                (fst (run_flat (get_token T kv_topts f line' lcr') l))
                (snd (run_flat (get_token T kv_topts f line' lcr') l)) (length l)).
      { intros line' lcr'. eapply spec_weaken; [|apply IH; lia]. lia. }
      cbn [get_token run_flat fnext keep]. rewrite ops_eq. unfold op_of, norm_step. consts.
      destruct (c =? 123) eqn:E1.
      { cbn [run_flat fst snd spec conv_tok]. split; [apply le_n|reflexivity]. }
      destruct (c =? 125) eqn:E2.
      { cbn [run_flat fst snd spec conv_tok]. split; [apply le_n|reflexivity]. }
      destruct (c =? 61) eqn:E3.
      { cbn [orb run_flat fst snd spec conv_tok]. split; [apply le_n|reflexivity]. }
      destruct (c =? 44) eqn:E4.
      { cbn [orb run_flat fst snd spec conv_tok]. split; [apply le_n|reflexivity]. }
      cbn [orb].
      destruct (c =? 13) eqn:E5.
      { cbn [run_flat fst snd spec conv_tok]. split; [apply le_n|reflexivity]. }
      destruct (c =? 10) eqn:E6.
      { destruct lcr.
        - rewrite cons_toks_nil. apply IH'.
        - cbn [run_flat fst snd spec conv_tok]. split; [apply le_n|reflexivity]. }
      destruct ((c =? 32) || (c =? 9)) eqn:E7.
      { rewrite cons_toks_nil. apply IH'. }
      destruct (c =? 47) eqn:E8.
      { rewrite cons_toks_nil, run_flat_bind'.
        apply after_comment; [apply comment_spec; lia |].
        intros Hb line'. eapply spec_weaken; [|apply IH; lia]. lia. }
      destruct (c =? 34) eqn:E9.
      { rewrite cons_toks_nil. apply string_spec. lia. }
      destruct (c =? 91) eqn:E10.
      { cbn [string_bracket kv_topts]. rewrite cons_toks_nil. apply brack_spec. lia. }
      destruct (c =? 40) eqn:E11.
      { cbn [string_parens kv_topts]. rewrite cons_toks_nil. apply paren_spec. lia. }
      destruct ((c =? 65279) && (line =? 1)) eqn:E12.
      { rewrite cons_toks_nil. apply IH'. }
      cbn [colon_operator plus_operator string_bracket string_parens kv_topts]. rewrite !andb_false_r.
      destruct (c =? 93) eqn:E13; [cbn; reflexivity|].
      destruct (c =? 41) eqn:E14; [cbn; reflexivity|].
      destruct (c =? 35) eqn:E15.
      { rewrite cons_toks_nil. apply directive_spec. lia. }
      rewrite bare_eq.
      destruct (KvLex.bare_disallowed c) eqn:E16; cbn [negb]; [cbn; reflexivity|].
      rewrite cons_toks_nil. apply bare_spec. lia.
  Qed.

  (** The whole trace: tokens up to the first EOF and the error that ends it are those of the transducer. *)
  Lemma trace_refines : forall m l, (length l <= m)%nat -> forall n f line lcr,
    (length l < n)%nat -> (length l < f)%nat ->
    conv_trace (tokens_flat T kv_topts n f line lcr l) = lex_from E (mkL MNorm line lcr) l.
  Proof.
    induction m as [|m IH]; intros l Hm n f line lcr Hn Hf.
    - destruct l; [|cbn in Hm; lia]. destruct n as [|n]; [lia|]. destruct f as [|f]; [lia|]. reflexivity.
    - destruct n as [|n]; [lia|].
      destruct l as [|c l0]; [destruct f as [|f]; [lia|]; reflexivity|].
      cbn [tokens_flat].
      pose proof (get_token_spec f (c :: l0) line lcr Hf) as H.
      destruct (run_flat (get_token T kv_topts f line lcr) (c :: l0)) as [r l'] eqn:Hr. cbn [fst snd] in H.
      cbn [length pred] in *.
      destruct r as [k v ln lc|e a ln|]; cbn [spec] in H.
      + assert (IHl : (length l' <= length l0)%nat ->
          conv_trace (tokens_flat T kv_topts n f ln lc l') = lex_from E (mkL MNorm ln lc) l') by (intro; apply IH; lia).
        destruct k; cbn [conv_trace]; try (rewrite H; reflexivity);
          destruct H as [Hb ->]; rewrite (IHl Hb); destruct (lex_from E (mkL MNorm ln lc) l'); reflexivity.
      + cbn [conv_trace]. now rewrite H.
      + destruct H.
  Qed.

  Theorem lexer_refines l :
    conv_trace (tokens_flat T kv_topts (length l + 2) (length l + 2) 1 false l) = lex_all E l.
  Proof. rewrite lex_all_from. apply (trace_refines (length l)); lia. Qed.
End Refine.

(** * Delivery: the text may reach the tokenizer in any chunking *)
(** [Keyvalues.parse] over the reader state of the real class: [s] is [(_cur_chunk, _char_index, chunk iterator)],
    [n] bounds the number of [tokenizer()] calls, [f] is the fuel of each call. *)
Definition parse_kv_reader (P : parsecfg) (O : popts) (T : tables) (flag_on : str -> bool) (n f : nat) (s : chk) : pres :=
  parse_toks_opts P O flag_on (conv_trace (tokens_chk T kv_topts n f 1 false s)).

(** Whatever reader state denotes the text [l] (relation [R] of Text/Prog.v: the characters still to be read from
    the current chunk followed by the chunks to come), parsing from it gives what [parse_kv_opts] gives on [l]. *)
Theorem parse_any_reader_state T E : tables_match T E = true ->
  forall P O flag_on l s n f, R l s -> (length l < n)%nat -> (length l < f)%nat ->
  parse_kv_reader P O T flag_on n f s = parse_kv_opts P O E flag_on l.
Proof.
  intros HT P O flag_on l s n f HR Hn Hf. unfold parse_kv_reader, parse_kv_opts.
  rewrite (tokens_chunk_independent T kv_topts n f 1 false l s HR).
  rewrite (trace_refines T E HT (length l) l (le_n _) n f 1 false Hn Hf), <- lex_all_from. reflexivity.
Qed.

(** [Keyvalues.parse(iterable of chunks)] = [Keyvalues.parse(''.join(chunks))]: any cut positions, empty chunks
    included (cuts inside CR LF, inside an escape pair, before a pushed-back delimiter, inside a comment). *)
Theorem parse_any_delivery_chunks T E : tables_match T E = true ->
  forall P O flag_on cs n f, (length (concat cs) < n)%nat -> (length (concat cs) < f)%nat ->
  parse_kv_reader P O T flag_on n f (chk_of_chunks cs) = parse_kv_opts P O E flag_on (concat cs).
Proof. intros HT P O flag_on cs n f Hn Hf. apply parse_any_reader_state; auto using R_of_chunks. Qed.

(** [Keyvalues.parse(str)]: the reader state of [Tokenizer(str)] (the whole text is the current chunk). *)
Theorem parse_any_delivery_str T E : tables_match T E = true ->
  forall P O flag_on l n f, (length l < n)%nat -> (length l < f)%nat ->
  parse_kv_reader P O T flag_on n f (chk_of_str l) = parse_kv_opts P O E flag_on l.
Proof. intros HT P O flag_on l n f Hn Hf. apply parse_any_reader_state; auto using R_of_str. Qed.

(** Non-vacuity: the reference tables satisfy [tables_match], and a concrete chunked run (cuts inside CR LF, inside
    the escape pair, before the delimiter that ends a bare string; an empty chunk). *)
Definition ref_tables : tables := {|
  esc_table := [(110, 10); (116, 9); (118, 11); (98, 8); (114, 13); (102, 12); (97, 7); (34, 34); (39, 39);
                (47, 47); (92, 92); (63, 63)];
  excl_single := [63; 47]; excl_multi := [63; 47; 10];
  Str.bare_disallowed := bare_list;
  operators := [(123, BRACE_OPEN); (125, BRACE_CLOSE); (61, EQUALS); (44, COMMA)];
  casefold := fun c => [c] |}.
Definition ref_escfg' : escfg := {| e_table := esc_table ref_tables; e_excl := [63; 47] |}.

Example chunked_example :
  parse_kv_reader {| p_key_break := BTChars [10; 13]; p_value_break := BTChars [10; 13]; p_replace_guard := true;
                     p_single_block_guard := true |} default_popts ref_tables (fun _ => false) 40 40
    (chk_of_chunks [[107; 32; 34; 97; 92]; []; [110; 34; 13]; [10; 98]; [123; 125; 10]])
  = POk [Leaf [107] [97; 10]; Block [98] []].
Proof. vm_compute. reflexivity. Qed.
