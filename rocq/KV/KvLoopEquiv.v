(** C01 — semantic equivalence of two decision trees of the token loop, decided symbolically and proved sound.

    [tree_equiv] walks both trees together under an environment of atom values assumed so far: a test whose
    outcome follows from the environment (directly, or because another kind of the same token / another value of
    block_line is already known) is resolved, any other test splits the environment; reads must line up, leaves must
    be equal.  So the ORDER in which a source tests independent things does not matter, nor does a repeated or a
    redundant test.  [tree_equiv_sound]: equivalent trees make the same pass from every state on every token list. *)
From Coq Require Import List NArith Bool PeanoNat.
From SV Require Import KV.KvBase KV.KvLoop KV.KvLoopProofs.
Import ListNotations.

Definition env := list (atom * bool).

(** What a known fact [(b, v)] says about the atom [a]. *)
Definition implied (a b : atom) (v : bool) : option bool :=
  if atom_eqb a b then Some v else
  match a, b, v with
  | ATok i k, ATok j l, true => if Nat.eqb i j then Some false else None      (* k <> l here *)
  | ABl x, ABl y, true => Some false                                          (* x <> y here *)
  | _, _, _ => None
  end.
Fixpoint lookup (e : env) (a : atom) : option bool :=
  match e with
  | [] => None
  | (b, v) :: r => match implied a b v with Some x => Some x | None => lookup r a end
  end.

Definition leaf_eqb (t1 t2 : ptree) : bool :=
  match t1, t2 with PLeaf _ _ _ _ _, PLeaf _ _ _ _ _ => ptree_eqb t1 t2 | _, _ => false end.

Fixpoint equiv (fuel : nat) (e : env) (t1 t2 : ptree) : bool :=
  match fuel with
  | O => false
  | S f =>
    match t1 with
    | PIf a x y =>
        match lookup e a with
        | Some true => equiv f e x t2
        | Some false => equiv f e y t2
        | None => equiv f ((a, true) :: e) x t2 && equiv f ((a, false) :: e) y t2
        end
    | _ =>
      match t2 with
      | PIf a x y =>
          match lookup e a with
          | Some true => equiv f e t1 x
          | Some false => equiv f e t1 y
          | None => equiv f ((a, true) :: e) t1 x && equiv f ((a, false) :: e) t1 y
          end
      | _ =>
        match t1, t2 with
        | PRead k1, PRead k2 => equiv f e k1 k2
        | PExpectNL k1, PExpectNL k2 => equiv f e k1 k2
        | _, _ => leaf_eqb t1 t2
        end
      end
    end
  end.

Definition equiv_fuel : nat := 400.
Definition tree_equiv (t1 t2 : ptree) : bool := equiv equiv_fuel [] t1 t2.

Section Sound.
  Variable P : parsecfg.
  Variable O : popts.
  Variable flag_on : str -> bool.
  Variable fin : option lexerr.

  Definition consistent (e : env) (s : mstate) (ts : list tok) : Prop :=
    forall a v, In (a, v) e -> eval_atom P O flag_on a s ts = v.

  Lemma tkind_eqb_refl k : tkind_eqb k k = true. Proof. destruct k; reflexivity. Qed.
  Lemma tkind_excl x k l : tkind_eqb x l = true -> tkind_eqb k l = false -> tkind_eqb x k = false.
  Proof. destruct x, k, l; cbn; congruence. Qed.
  Lemma bl_excl x k l : bl_eqb x l = true -> bl_eqb k l = false -> bl_eqb x k = false.
  Proof. destruct x, k, l; cbn; congruence. Qed.

  Lemma implied_sound a b v x s ts : eval_atom P O flag_on b s ts = v -> implied a b v = Some x ->
    eval_atom P O flag_on a s ts = x.
  Proof.
    unfold implied. destruct (atom_eqb a b) eqn:Eab.
    - apply atom_eqb_eq in Eab. subst. congruence.
    - intros Hb Hx.
      destruct a as [i k| | | | | | | | | | |]; try discriminate Hx.
      + destruct b as [j l| | | | | | | | | | |]; try discriminate Hx.
        destruct v; [|discriminate Hx].
        destruct (Nat.eqb i j) eqn:Ei; [|discriminate Hx]. apply Nat.eqb_eq in Ei. subst j.
        injection Hx as <-. cbn [eval_atom] in *.
        cbn [atom_eqb] in Eab. rewrite Nat.eqb_refl in Eab. cbn [andb] in Eab.
        eapply tkind_excl; eassumption.
      + destruct b as [j l|b'| | | | | | | | | |]; try discriminate Hx.
        destruct v; [|discriminate Hx].
        injection Hx as <-. cbn [eval_atom atom_eqb] in *. eapply bl_excl; eassumption.
  Qed.

  Lemma lookup_sound e s ts : consistent e s ts -> forall a x, lookup e a = Some x -> eval_atom P O flag_on a s ts = x.
  Proof.
    induction e as [|[b v] r IH]; intros Hc a x; cbn [lookup]; [discriminate|].
    destruct (implied a b v) eqn:Ei.
    - intro Hx. injection Hx as <-. eapply implied_sound; [|exact Ei]. apply Hc. left; reflexivity.
    - apply IH. intros a' v' Hin. apply Hc. right; exact Hin.
  Qed.

  Lemma consistent_cons e s ts a : consistent e s ts ->
    consistent ((a, eval_atom P O flag_on a s ts) :: e) s ts.
  Proof. intros Hc a' v' [H|H]; [injection H as <- <-; reflexivity | apply Hc; exact H]. Qed.

  Lemma leaf_eqb_eq t1 t2 : leaf_eqb t1 t2 = true -> t1 = t2.
  Proof. destruct t1, t2; cbn [leaf_eqb]; try discriminate. apply ptree_eqb_eq. Qed.

  Theorem equiv_sound : forall f e t1 t2, equiv f e t1 t2 = true ->
    forall s ts, consistent e s ts -> forall n, pstep P O flag_on fin t1 n s ts = pstep P O flag_on fin t2 n s ts.
  Proof.
    induction f as [|f IH]; intros e t1 t2 H s ts Hc n; [discriminate|].
    cbn [equiv] in H.
    (* [equiv] with the tree that is split standing on the left or on the right *)
    pose (eqv := fun (left : bool) e' u t => if left then equiv f e' u t else equiv f e' t u).
    assert (Heqv : forall left e' u t, eqv left e' u t = true -> consistent e' s ts ->
              pstep P O flag_on fin u n s ts = pstep P O flag_on fin t n s ts).
    { intros [|] e' u t Hq Hc'; [|symmetry]; exact (IH _ _ _ Hq s ts Hc' n). }
    assert (Hsplit : forall a x y t left,
      match lookup e a with
      | Some true => eqv left e x t
      | Some false => eqv left e y t
      | None => eqv left ((a, true) :: e) x t && eqv left ((a, false) :: e) y t
      end = true ->
      pstep P O flag_on fin (PIf a x y) n s ts = pstep P O flag_on fin t n s ts).
    { intros a x y t left Hq. cbn [pstep]. destruct (lookup e a) as [[|]|] eqn:El.
      - rewrite (lookup_sound e s ts Hc a true El). exact (Heqv left e x t Hq Hc).
      - rewrite (lookup_sound e s ts Hc a false El). exact (Heqv left e y t Hq Hc).
      - apply andb_true_iff in Hq as [Ht Hf]. pose proof (consistent_cons e s ts a Hc) as Hc'.
        destruct (eval_atom P O flag_on a s ts); [exact (Heqv left _ x t Ht Hc') | exact (Heqv left _ y t Hf Hc')]. }
    (* in the order of the tests of [equiv]: a test in [t1], else a test in [t2], else the same node on both sides *)
    destruct t1 as [a x y|k1|k1|o1 b1 c1 u1 x1]; [exact (Hsplit a x y t2 true H)|..];
      (destruct t2 as [a x y|k2|k2|o2 b2 c2 u2 x2]; [symmetry; exact (Hsplit a x y _ false H)|..]); try discriminate.
    - cbn [pstep]. now rewrite (IH _ _ _ H s ts Hc (S n)).
    - cbn [pstep]. now rewrite (IH _ _ _ H s ts Hc (S n)).
    - apply leaf_eqb_eq in H. now rewrite H.
  Qed.

  Theorem tree_equiv_sound t1 t2 : tree_equiv t1 t2 = true ->
    forall n s ts, pstep P O flag_on fin t1 n s ts = pstep P O flag_on fin t2 n s ts.
  Proof.
    unfold tree_equiv. generalize equiv_fuel. intros f H n s ts.
    refine (equiv_sound f [] t1 t2 H s ts _ n). intros a v [].
  Qed.

  (** Equivalent bodies and equivalent final checks give the same loop. *)
  Theorem ploop_equiv T1 F1 T2 F2 : tree_equiv T1 T2 = true -> tree_equiv F1 F2 = true ->
    forall fuel s ts, ploop P O flag_on fin fuel T1 F1 s ts = ploop P O flag_on fin fuel T2 F2 s ts.
  Proof.
    intros HT HF. induction fuel as [|fuel IH]; intros s ts; [reflexivity|].
    cbn [ploop]. destruct ts as [|t r].
    - rewrite (tree_equiv_sound _ _ HF). reflexivity.
    - rewrite (tree_equiv_sound _ _ HT). destruct (pstep P O flag_on fin T2 1 s (t :: r)); [apply IH | reflexivity].
  Qed.
End Sound.

(** The part of two trees that concerns one kind of loop token (diagnostic obligations of the check). *)
Definition equiv_on (k : tkind) (a b : ptree) : bool := tree_equiv (restrict0 k a) (restrict0 k b).
