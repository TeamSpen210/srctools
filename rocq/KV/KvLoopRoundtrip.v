(** C01 — the round trip stated for the parser whose token loop is the regenerated decision tree. *)
From Coq Require Import List NArith Bool.
From SV Require Import KV.KvBase KV.KvParse KV.KvRoundtrip KV.KvLoop KV.KvLoopRef KV.KvLoopProofs KV.KvLoopEquiv.
Import ListNotations.

(** The regenerated trees are semantically equivalent to the reference trees ([tree_equiv]: the order of
    independent tests, repeated and redundant tests do not matter) and both emptiness guards are in the source. *)
Definition loop_ok (T F : ptree) (P : parsecfg) : bool :=
  tree_equiv T ref_ptree && tree_equiv F ref_pfinal && p_replace_guard P && p_single_block_guard P.

Lemma loop_ok_toks T F P : loop_ok T F P = true ->
  forall O flag_on tf, parse_toks_tree T F P O flag_on tf = parse_toks_opts P O flag_on tf.
Proof.
  unfold loop_ok. intro H. apply andb_true_iff in H as [H H4]. apply andb_true_iff in H as [H H3].
  apply andb_true_iff in H as [H1 H2]. intros O flag_on tf.
  unfold parse_toks_tree. rewrite (ploop_equiv _ _ _ _ _ _ _ _ H1 H2).
  apply (parse_tree_is_prun ref_ptree ref_pfinal P); try assumption; apply ref_tree_eqb_refl.
Qed.

Lemma loop_ok_parse T F P : loop_ok T F P = true ->
  forall O E flag_on text, parse_kv_tree T F P O E flag_on text = parse_kv_opts P O E flag_on text.
Proof. intros H O E flag_on text. unfold parse_kv_tree, parse_kv_opts. apply loop_ok_toks; exact H. Qed.

Lemma ref_loop_ok : loop_ok ref_ptree ref_pfinal ref_pcfg = true.
Proof. vm_compute; reflexivity. Qed.

(** A loop that forgets to push the opened block on the stack (the leaf [SOpenLast] replaced by [SNone]: the
    translator would in fact emit [SUnknown]) is not the reference tree, and loses the nesting:
    ["a" { "b" "c" }] comes back as an error. *)
Fixpoint forget_push (t : ptree) : ptree :=
  match t with
  | PIf a x y => PIf a (forget_push x) (forget_push y)
  | PRead x => PRead (forget_push x)
  | PExpectNL x => PExpectNL (forget_push x)
  | PLeaf SOpenLast b c u x => PLeaf SNone b c u x
  | PLeaf _ _ _ _ _ => t
  end.
Lemma forget_push_rejected : tree_equiv (forget_push ref_ptree) ref_ptree = false.
Proof. vm_compute; reflexivity. Qed.

(** [tree_equiv] is not syntactic equality: testing the token kind before block_line instead of after it (the two
    operands of the source's `and` swapped) gives a different tree that is accepted. *)
Definition swap_demo_a : ptree :=
  PIf (ABl BNone) (PLeaf SNone None None false XContinue)
      (PIf (ATok 0 KNL) (PLeaf SNone None None false XContinue) (PLeaf SNone None None false (XRaise EBlockRequired))).
Definition swap_demo_b : ptree :=
  PIf (ATok 0 KNL) (PLeaf SNone None None false XContinue)
      (PIf (ABl BNone) (PLeaf SNone None None false XContinue) (PLeaf SNone None None false (XRaise EBlockRequired))).
Lemma forget_push_refuted :
  parse_toks_tree (forget_push ref_ptree) ref_pfinal ref_pcfg default_popts (fun _ => false)
    ([TStr [97]; TNL; TBO; TNL; TStr [98]; TStr [99]; TNL; TBC; TNL], None) = PErr ETooManyClose.
Proof. vm_compute; reflexivity. Qed.
