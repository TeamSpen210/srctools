(** C01 — the round trip, assembled; necessity of the side conditions (witnesses by computation). *)
From Coq Require Import List NArith Bool.
From SV Require Import KV.KvBase KV.KvLex KV.KvParse KV.KvSer KV.KvSym KV.KvSymProofs KV.KvParseProofs.
Import ListNotations.
Open Scope N_scope.

Definition doc_values_ok (d : list kv) : bool := forallb values_ok d.

Lemma doc_ok_of P O : pcfg_ok P = true -> forall d,
  po_newline_keys O || doc_names_ok d = true -> po_newline_values O || doc_values_ok d = true ->
  forallb (kv_ok P O) d = true.
Proof.
  intros HP d Hn Hv. apply forallb_forall. intros k Hin.
  apply kv_ok_of; [exact HP | exact (orb_forallb _ _ _ Hn k Hin) | exact (orb_forallb _ _ _ Hv k Hin)].
Qed.

(** The round trip for any writer: a text whose token stream is that of a tree parses back to the tree.  The writers
    ([serialise], [export]) enter only through the token stream of their text. *)
Section Lexed.
  Variables (P : parsecfg) (E : escfg) (O : popts) (flag_on : str -> bool) (text : str).
  Hypothesis HP : pcfg_ok P = true.

  Lemma parse_lexed_doc d : lex_all E text = (toks_doc d, None) -> po_single_block O = false ->
    po_newline_keys O || doc_names_ok d = true -> po_newline_values O || doc_values_ok d = true ->
    parse_kv_opts P O E flag_on text = POk d.
  Proof.
    intros Hl Hsb Hn Hv. unfold parse_kv_opts. rewrite Hl. apply parse_toks_doc_opts; [exact Hsb | now apply doc_ok_of].
  Qed.

  Lemma parse_lexed_node k : lex_all E text = (toks k, None) -> po_single_block O = false ->
    po_newline_keys O || names_ok k = true -> po_newline_values O || values_ok k = true ->
    parse_kv_opts P O E flag_on text = POk [k].
  Proof.
    intros Hl Hsb Hn Hv. unfold parse_kv_opts. rewrite Hl. apply parse_toks_node_opts; [exact Hsb | now apply kv_ok_of].
  Qed.

  (** single_block=True: the first node comes back on its own (not wrapped in a root), whatever follows it. *)
  Lemma parse_lexed_first k ks fin : lex_all E text = (toks_doc (k :: ks), fin) -> po_single_block O = true ->
    po_newline_keys O || names_ok k = true -> po_newline_values O || values_ok k = true ->
    parse_kv_opts P O E flag_on text = PNode k.
  Proof.
    intros Hl Hsb Hn Hv. unfold parse_kv_opts. rewrite Hl.
    exact (parse_toks_single_block P O flag_on k ks fin Hsb (kv_ok_of P O HP k Hn Hv)).
  Qed.
End Lexed.

Section RT.
  Variable C : sercfg.
  Variable E : escfg.
  Variable P : parsecfg.
  Hypothesis HC : cfg_ok C = true.
  Hypothesis HE : esc_ok E = true.
  Hypothesis HP : pcfg_ok P = true.

  (** Any setting of newline_keys / newline_values / single_line, single_block off. *)
  Lemma roundtrip_doc_opts flag_on O o d : po_single_block O = false -> ws_opts o = true ->
    po_newline_keys O || doc_names_ok d = true -> po_newline_values O || doc_values_ok d = true ->
    parse_kv_opts P O E flag_on (serialise_doc C E o d) = POk d.
  Proof. intros Hsb HO. exact (parse_lexed_doc P E O flag_on _ HP d (lex_serialise_doc C E o HC HE HO d) Hsb). Qed.

  Lemma roundtrip_node_opts flag_on O o k : po_single_block O = false -> ws_opts o = true ->
    po_newline_keys O || names_ok k = true -> po_newline_values O || values_ok k = true ->
    parse_kv_opts P O E flag_on (serialise_node C E o k) = POk [k].
  Proof. intros Hsb HO. exact (parse_lexed_node P E O flag_on _ HP k (lex_serialise_node C E o HC HE HO k) Hsb). Qed.

  (** single_block=True: the node itself comes back (not wrapped in a root), also when more text follows. *)
  Lemma roundtrip_single_block_node flag_on O o k : po_single_block O = true -> ws_opts o = true ->
    po_newline_keys O || names_ok k = true -> po_newline_values O || values_ok k = true ->
    parse_kv_opts P O E flag_on (serialise_node C E o k) = PNode k.
  Proof.
    intros Hsb HO. apply (parse_lexed_first P E O flag_on _ HP k [] None); [|exact Hsb].
    unfold toks_doc. cbn [flat_map]. rewrite app_nil_r. exact (lex_serialise_node C E o HC HE HO k).
  Qed.

  Lemma roundtrip_single_block_doc flag_on O o k ks : po_single_block O = true -> ws_opts o = true ->
    po_newline_keys O || names_ok k = true -> po_newline_values O || values_ok k = true ->
    parse_kv_opts P O E flag_on (serialise_doc C E o (k :: ks)) = PNode k.
  Proof.
    intros Hsb HO. exact (parse_lexed_first P E O flag_on _ HP k ks None (lex_serialise_doc C E o HC HE HO (k :: ks)) Hsb).
  Qed.

  (** Default options. *)
  Lemma roundtrip_doc flag_on o d : ws_opts o = true -> doc_names_ok d = true ->
    parse_kv P E flag_on (serialise_doc C E o d) = POk d.
  Proof.
    intros HO Hd. apply roundtrip_doc_opts; [reflexivity | exact HO | exact Hd | reflexivity].
  Qed.

  Lemma indent_independent_tokens o1 o2 d : ws_opts o1 = true -> ws_opts o2 = true ->
    lex_all E (serialise_doc C E o1 d) = lex_all E (serialise_doc C E o2 d).
  Proof.
    intros H1 H2. now rewrite (lex_serialise_doc C E o1 HC HE H1 d), (lex_serialise_doc C E o2 HC HE H2 d).
  Qed.

  Lemma indent_independent_tokens_node o1 o2 k : ws_opts o1 = true -> ws_opts o2 = true ->
    lex_all E (serialise_node C E o1 k) = lex_all E (serialise_node C E o2 k).
  Proof.
    intros H1 H2. now rewrite (lex_serialise_node C E o1 HC HE H1 k), (lex_serialise_node C E o2 HC HE H2 k).
  Qed.
End RT.

(** * Reference instances: the hypotheses are satisfiable, and each is needed. *)

(** tokenizer.ESCAPES / ESCAPE_RE of the pinned tree. *)
Definition ref_escfg : escfg := {|
  e_table := [(110, 10); (116, 9); (118, 11); (98, 8); (114, 13); (102, 12); (97, 7); (34, 34); (39, 39);
              (47, 47); (92, 92); (63, 63)];
  e_excl := [63; 47] |}.

(** The templates of _serialise with the block name passed through escape_text. *)
Definition ref_sercfg_rt (rt : roottest) (head_name : piece) : sercfg := {|
  t_root_test := rt;
  t_open_ind := [PVar VIndent; PLit [123; 10]];
  t_close_ind := [PVar VIndent; PLit [125; 10]];
  t_open_plain := [PLit [123; 10]];
  t_close_plain := [PLit [125; 10]];
  t_head := [PVar VCurIndent; PLit [34]; head_name; PLit [34; 10]; PVar VCurIndent; PVar VOpenBrace];
  t_child_indent := [PVar VCurIndent; PVar VIndent];
  t_tail := [PVar VCurIndent; PVar VCloseBrace];
  t_leaf := [PVar VCurIndent; PLit [34]; PEsc FName; PLit [34; 32; 34]; PEsc FValue; PLit [34; 10]];
  t_root_indent := [] |}.
Definition ref_sercfg := ref_sercfg_rt RTIsNone.

(** The two 'Illegal newline' tests of Keyvalues.parse ('\n' in s or '\r' in s), replacement tests guarded. *)
Definition ref_pcfg : parsecfg :=
  {| p_key_break := BTChars [10; 13]; p_value_break := BTChars [10; 13]; p_replace_guard := true; p_single_block_guard := true |}.
Lemma ref_pcfg_ok : pcfg_ok ref_pcfg = true.
Proof. vm_compute. reflexivity. Qed.

Lemma ref_cfg_ok : cfg_ok (ref_sercfg (PEsc FName)) = true.
Proof. vm_compute. reflexivity. Qed.
Lemma ref_esc_ok : esc_ok ref_escfg = true.
Proof. vm_compute. reflexivity. Qed.

Definition default_opts : seropts := {| o_indent := [TAB]; o_indent_braces := true; o_start := [] |}.

(** DESIGN section 7 #1: with the block name written raw (the pinned _serialise), a block named  a, double quote, b  does
    not survive; [cfg_ok] rejects exactly that template. *)
Definition raw_block_witness : list kv := [Block [97; 34; 98] []].

Lemma raw_block_name_rejected : cfg_ok (ref_sercfg (PRaw FName)) = false.
Proof. vm_compute. reflexivity. Qed.

Lemma raw_block_name_refuted :
  doc_names_ok raw_block_witness = true /\
  parse_kv ref_pcfg ref_escfg (fun _ => false)
    (serialise_doc (ref_sercfg (PRaw FName)) ref_escfg default_opts raw_block_witness)
  = PErr (ELex LUnterminated).
Proof. split; vm_compute; reflexivity. Qed.

(** An escape table that leaves the quote unescaped is rejected by [esc_ok]. *)
Lemma esc_without_quote_rejected :
  esc_ok {| e_table := [(110, 10); (116, 9); (114, 13); (92, 92)]; e_excl := [] |} = false.
Proof. vm_compute. reflexivity. Qed.

(** Seeded fault class "root test by truth value": with [not self._real_name] in place of [is None] a block
    named by the empty string loses its header and braces; [cfg_ok] rejects that test. *)
Definition falsy_root_witness : list kv := [Block [] [Leaf [97] [98]]].
Lemma falsy_root_test_rejected : cfg_ok (ref_sercfg_rt RTFalsy (PEsc FName)) = false.
Proof. vm_compute. reflexivity. Qed.
Lemma falsy_root_test_refuted :
  doc_names_ok falsy_root_witness = true /\
  parse_kv ref_pcfg ref_escfg (fun _ => false)
    (serialise_doc (ref_sercfg_rt RTFalsy (PEsc FName)) ref_escfg default_opts falsy_root_witness)
  = POk [Leaf [97] [98]].
Proof. split; vm_compute; reflexivity. Qed.

(** Seeded fault class "more characters count as a line break in a key": a parser that also rejects a
    vertical tab refuses text the writer produced for a legal name; [pcfg_ok] rejects that test. *)
Definition wide_break_pcfg : parsecfg :=
  {| p_key_break := BTChars [10; 13; 11]; p_value_break := BTChars [10; 13]; p_replace_guard := true; p_single_block_guard := true |}.
Lemma wide_key_break_rejected : pcfg_ok wide_break_pcfg = false.
Proof. vm_compute. reflexivity. Qed.
Lemma wide_key_break_refuted :
  doc_names_ok [Leaf [97; 11; 98] [99]] = true /\
  parse_kv wide_break_pcfg ref_escfg (fun _ => false)
    (serialise_doc (ref_sercfg (PEsc FName)) ref_escfg default_opts [Leaf [97; 11; 98] [99]])
  = PErr ENewlineKey.
Proof. split; vm_compute; reflexivity. Qed.

(** newline_keys=True lifts the restriction on names (theorem [roundtrip_doc_opts]); the witness of
    [kv_roundtrip_linebreak_name_refuted] (Props/C01.v) then comes back. *)
Lemma linebreak_name_newline_keys :
  parse_kv_opts ref_pcfg {| po_newline_keys := true; po_newline_values := true; po_single_line := false;
                            po_single_block := false |} ref_escfg (fun _ => false)
    (serialise_doc (ref_sercfg (PEsc FName)) ref_escfg default_opts [Leaf [97; 10] [98]])
  = POk [Leaf [97; 10] [98]].
Proof. vm_compute. reflexivity. Qed.

