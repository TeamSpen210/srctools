(** C01 — [Keyvalues.parse(..., allow_escapes=False)]: the C03 reader-program tokenizer model with the option switched
    off, composed with the token loop.  No general theorem is proved for this option (the writer has no counterpart:
    [serialise] always escapes); the model is compared with the implementation on every run
    ([correspondence:parse-chunked], a quarter of the cases), and the statements below are computed witnesses:
    the round trip does NOT hold under it as soon as a string contains a character that [escape_text] escapes. *)
From Coq Require Import List NArith Bool.
From SV Require Import Text.Str Text.Prog Text.Tokenizer.
From SV Require Import KV.KvBase KV.KvParse KV.KvSer KV.KvRoundtrip KV.KvRefine.
Import ListNotations.
Open Scope N_scope.

Definition kv_topts_noesc : opts := {|
  string_bracket := true; string_parens := true; allow_escapes := false; allow_star_comments := false;
  preserve_comments := false; colon_operator := false; plus_operator := false |}.

Definition parse_kv_reader_noesc (P : parsecfg) (O : popts) (T : tables) (flag_on : KvBase.str -> bool) (n f : nat)
    (s : chk) : pres :=
  parse_toks_opts P O flag_on (conv_trace (tokens_chk T kv_topts_noesc n f 1 false s)).

Definition ref_text (k : kv) : KvBase.str := serialise_node (ref_sercfg (PEsc FName)) ref_escfg default_opts k.

(** A tab in a value is written as backslash + t and read back as those two characters. *)
Lemma noesc_tab_refuted :
  parse_kv_reader_noesc ref_pcfg default_popts ref_tables (fun _ => false) 60 60 (chk_of_str (ref_text (Leaf [97] [120; 9; 121])))
  = POk [Leaf [97] [120; 92; 116; 121]].
Proof. vm_compute. reflexivity. Qed.

(** A quote in a value is written as backslash + quote; the quote then ends the string: a parse error. *)
Lemma noesc_quote_refuted :
  parse_kv_reader_noesc ref_pcfg default_popts ref_tables (fun _ => false) 60 60 (chk_of_str (ref_text (Leaf [97] [120; 34; 121])))
  = PErr EMultipleNames.
Proof. vm_compute. reflexivity. Qed.

(** Strings without such characters do come back (one computed instance, not a theorem). *)
Example noesc_plain_example :
  parse_kv_reader_noesc ref_pcfg default_popts ref_tables (fun _ => false) 60 60
    (chk_of_str (ref_text (Block [97] [Leaf [98] [99; 32; 100]])))
  = POk [Block [97] [Leaf [98] [99; 32; 100]]].
Proof. vm_compute. reflexivity. Qed.
