(** C01 — histories of writer calls: [Keyvalues._serialise] as a program over the *state that outlives a call*.

    The property is about every call of [serialise()], not about the first call in a fresh process.  A writer that reads
    or writes anything that outlives the call (a module-level or class-level object) can answer differently after an
    earlier call was aborted half-way (the file's [write] raises, [escape_text] raises on a value that is not a string)
    and the caller carried on.  translate/c01_kvaux.py reads [_serialise] a second time, now keeping only what matters
    here (Gen/KVAux_gen.v [gen_hprog]): per branch (root / named block / leaf) the statements in order, each one

      - [HWrite]    a write to the file (it can raise: the file is the caller's, the text may not be computable),
      - [HChildren] the loop over the children,
      - [HGuard]    `if <own identity> in <module-level collection>: raise`,
      - [HMark] / [HUnmark]  the own identity is added to / taken out of that collection,
      - [HState]    any other statement that touches module-level or class-level state.

    [hexec] runs such a program with a set of marks (what earlier calls left in the collection) and a budget of writes
    (the write after the last one allowed raises); an exception ends the run at once: nothing after the raising
    statement is executed (the source has no try/finally: the translator fails closed on one).

    [hexec_stateless]: a program without state instructions returns the marks it was given and its outcome does not
    depend on them; hence [writer_history_independent]: after ANY history of earlier calls, completed or aborted at any
    write, on any trees, a call behaves exactly as in a fresh process.  [marking_writer_refuted]: the nearby wrong shape
    (reprlib-style cycle detection whose un-marking is not in a finally clause) -- one call aborted at its second write,
    and the same, valid tree can never be written again. *)
From Coq Require Import List NArith Bool Arith.
From SV Require Import KV.KvBase KV.KvWProg.
Import ListNotations.
Open Scope N_scope.

Inductive hinstr := HWrite | HChildren | HGuard | HMark | HUnmark | HState.
Record hprog := { hp_root : list hinstr; hp_block : list hinstr; hp_leaf : list hinstr }.

Definition hinstr_stateless (i : hinstr) : bool := match i with HWrite | HChildren => true | _ => false end.
Definition hprog_stateless (H : hprog) : bool :=
  forallb hinstr_stateless (hp_root H) && forallb hinstr_stateless (hp_block H) && forallb hinstr_stateless (hp_leaf H).

(** Outcome of a (partial) run: the marks afterwards, the writes still allowed, completed or raised. *)
Record hres := { h_marks : list N; h_left : nat; h_ok : bool }.
Definition with_marks (M : list N) (r : hres) : hres := {| h_marks := M; h_left := h_left r; h_ok := h_ok r |}.

Section Hist.
  Variable H : hprog.
  Variable idf : kv -> N.                       (* the identity of a node *)
  Variable is_root : kv -> bool.                (* which blocks take the root branch *)
  Variable other : N -> list N -> list N.       (* what an unclassified state statement does to the marks *)

  Fixpoint run_children (ex : list N -> nat -> kv -> hres) (M : list N) (b : nat) (cs : list kv) : hres :=
    match cs with
    | [] => {| h_marks := M; h_left := b; h_ok := true |}
    | c :: r => let r1 := ex M b c in if h_ok r1 then run_children ex (h_marks r1) (h_left r1) r else r1
    end.

  Definition hstep (ex : list N -> nat -> kv -> hres) (M : list N) (b : nat) (k : kv) (i : hinstr) : hres :=
    match i with
    | HWrite => match b with O => {| h_marks := M; h_left := O; h_ok := false |}
                           | S b' => {| h_marks := M; h_left := b'; h_ok := true |} end
    | HChildren => run_children ex M b (node_children k)
    | HGuard => {| h_marks := M; h_left := b; h_ok := negb (existsb (N.eqb (idf k)) M) |}
    | HMark => {| h_marks := idf k :: M; h_left := b; h_ok := true |}
    | HUnmark => {| h_marks := filter (fun x => negb (N.eqb x (idf k))) M; h_left := b; h_ok := true |}
    | HState => {| h_marks := other (idf k) M; h_left := b; h_ok := true |}
    end.

  Fixpoint run_h (ex : list N -> nat -> kv -> hres) (M : list N) (b : nat) (k : kv) (l : list hinstr) : hres :=
    match l with
    | [] => {| h_marks := M; h_left := b; h_ok := true |}
    | i :: r => let r1 := hstep ex M b k i in if h_ok r1 then run_h ex (h_marks r1) (h_left r1) k r else r1
    end.

  Definition hbranch (k : kv) : list hinstr :=
    match k with Leaf _ _ => hp_leaf H | Block _ _ => if is_root k then hp_root H else hp_block H end.

  Fixpoint hexec (fuel : nat) (M : list N) (b : nat) (k : kv) : hres :=
    match fuel with
    | O => {| h_marks := M; h_left := b; h_ok := true |}
    | S m => run_h (hexec m) M b k (hbranch k)
    end.

  (** A history: earlier calls (fuel, writes allowed before the file raises, tree), each starting with the marks the
      one before left behind -- whether it completed or not. *)
  Fixpoint marks_after (calls : list (nat * nat * kv)) (M : list N) : list N :=
    match calls with
    | [] => M
    | (fuel, b, k) :: r => marks_after r (h_marks (hexec fuel M b k))
    end.

  Definition indep (ex : list N -> nat -> kv -> hres) : Prop := forall M b c, ex M b c = with_marks M (ex [] b c).

  Lemma run_children_indep ex : indep ex -> forall cs M b,
    run_children ex M b cs = with_marks M (run_children ex [] b cs).
  Proof.
    intros Hex. induction cs as [|c r IH]; intros M b; [reflexivity|]. cbn [run_children].
    rewrite (Hex M b c). pose proof (Hex [] b c) as H0.
    destruct (ex [] b c) as [m0 l0 ok0] eqn:E0. unfold with_marks in *. cbn [h_ok h_left h_marks] in *.
    inversion H0; subst m0. destruct ok0; [|reflexivity]. apply IH.
  Qed.

  Lemma run_h_indep ex : indep ex -> forall l, forallb hinstr_stateless l = true -> forall M b k,
    run_h ex M b k l = with_marks M (run_h ex [] b k l).
  Proof.
    intros Hex. induction l as [|i r IH]; intros Hl M b k; [reflexivity|]. cbn [forallb] in Hl.
    apply andb_true_iff in Hl as [Hi Hr]. cbn [run_h].
    destruct i; try discriminate; cbn [hstep].
    - destruct b as [|b']; cbn [h_ok h_marks h_left]; [reflexivity|]. apply (IH Hr).
    - rewrite (run_children_indep ex Hex (node_children k) M b).
      pose proof (run_children_indep ex Hex (node_children k) [] b) as H0.
      destruct (run_children ex [] b (node_children k)) as [m0 l0 ok0]. unfold with_marks in *.
      cbn [h_ok h_left h_marks] in *. inversion H0; subst m0. destruct ok0; [|reflexivity]. apply (IH Hr).
  Qed.

  Theorem hexec_stateless : hprog_stateless H = true -> forall fuel M b k,
    hexec fuel M b k = with_marks M (hexec fuel [] b k).
  Proof.
    unfold hprog_stateless. intros Hs. apply andb_true_iff in Hs as [Hs H3]. apply andb_true_iff in Hs as [H1 H2].
    induction fuel as [|m IH]; intros M b k; [reflexivity|]. cbn [hexec].
    apply run_h_indep; [exact IH|]. unfold hbranch. destruct k as [n v|n cs]; [exact H3|].
    now destruct (is_root (Block n cs)).
  Qed.

  Corollary hexec_stateless_marks : hprog_stateless H = true -> forall fuel M b k, h_marks (hexec fuel M b k) = M.
  Proof. intros Hs fuel M b k. now rewrite (hexec_stateless Hs). Qed.

  Lemma marks_after_stateless : hprog_stateless H = true -> forall calls M, marks_after calls M = M.
  Proof.
    intros Hs. induction calls as [|[[f b] k] r IH]; intros M; [reflexivity|]. cbn [marks_after].
    now rewrite (hexec_stateless_marks Hs), IH.
  Qed.

  (** After any history of earlier calls -- completed, or aborted at any write -- a call is the call of a fresh process:
      same outcome (completed / raised, at the same write), and it leaves behind what it found. *)
  Theorem history_independent : hprog_stateless H = true -> forall calls fuel b k,
    hexec fuel (marks_after calls []) b k = hexec fuel [] b k.
  Proof. intros Hs calls fuel b k. now rewrite (marks_after_stateless Hs). Qed.
End Hist.

(** The reference program: what the translator reads off today's [_serialise]. *)
Definition ref_hprog : hprog := {|
  hp_root := [HChildren];
  hp_block := [HWrite; HWrite; HChildren; HWrite];
  hp_leaf := [HWrite] |}.
Lemma ref_hprog_stateless : hprog_stateless ref_hprog = true.
Proof. reflexivity. Qed.

(** The nearby wrong shape (seeded fault c01_7): cycle detection with a module-level set of the blocks being written;
    the identity is taken out again after the children -- but not in a finally clause. *)
Definition marking_hprog : hprog := {|
  hp_root := [HGuard; HMark; HChildren; HUnmark];
  hp_block := [HGuard; HMark; HWrite; HWrite; HChildren; HWrite; HUnmark];
  hp_leaf := [HWrite] |}.
Definition hist_witness : kv := Block [97] [Leaf [98] [99]].
Definition name_id (k : kv) : N := match node_name k with c :: _ => c | [] => 0 end.

Lemma marking_writer_rejected : hprog_stateless marking_hprog = false.
Proof. reflexivity. Qed.

(** One call whose file raises at the second write; then the same (valid, acyclic) tree with a healthy file: in a fresh
    process the call completes, after the aborted call it raises -- and the mark is still there afterwards. *)
Lemma marking_writer_refuted :
  let run := hexec marking_hprog name_id (fun _ => false) (fun _ M => M) in
  let M1 := marks_after marking_hprog name_id (fun _ => false) (fun _ M => M) [(3%nat, 1%nat, hist_witness)] [] in
  h_ok (run 3%nat [] 10%nat hist_witness) = true
  /\ M1 = [97]
  /\ h_ok (run 3%nat M1 10%nat hist_witness) = false
  /\ h_marks (run 3%nat M1 10%nat hist_witness) = [97].
Proof. vm_compute. repeat split. Qed.

(** On the path without exceptions the marking writer is well behaved: the marks are given back (which is why a single
    serialise/parse round trip never shows the fault). *)
Lemma marking_writer_quiet_when_nothing_raises :
  h_marks (hexec marking_hprog name_id (fun _ => false) (fun _ M => M) 3%nat [] 10%nat hist_witness) = [].
Proof. reflexivity. Qed.

(** * The two readings of [_serialise] are readings of the same statement list
    [gen_wprog] (KV/KvWProg.v: writes with their templates, child loop, stores to the tree) and [gen_hprog] (here) are
    produced from one pass over the statements; that they agree on the order of writes and child loops is checked in the
    kernel on every run ([same_skeleton gen_hprog gen_wprog]). *)
Definition hskel (l : list hinstr) : list bool :=
  flat_map (fun i => match i with HWrite => [true] | HChildren => [false] | _ => [] end) l.
Definition wskel (l : list winstr) : list bool :=
  flat_map (fun i => match i with WWrite _ => [true] | WChildren _ => [false] | _ => [] end) l.
Fixpoint bools_eqb (a b : list bool) : bool :=
  match a, b with [], [] => true | x :: a', y :: b' => Bool.eqb x y && bools_eqb a' b' | _, _ => false end.
Definition same_skeleton (H : hprog) (W : wprog) : bool :=
  bools_eqb (hskel (hp_root H)) (wskel (wp_root W)) && bools_eqb (hskel (hp_block H)) (wskel (wp_block W))
  && bools_eqb (hskel (hp_leaf H)) (wskel (wp_leaf W)).
Lemma ref_same_skeleton : forall nm, same_skeleton ref_hprog (ref_wprog nm) = true.
Proof. reflexivity. Qed.

(** Every write of a program whose budget is never exhausted succeeds: a stateless program given enough writes
    completes (so the theorem above is not about runs that all fail). *)
Lemma ref_hprog_completes :
  h_ok (hexec ref_hprog name_id (fun _ => false) (fun _ M => M) 3%nat [] 10%nat hist_witness) = true.
Proof. reflexivity. Qed.
