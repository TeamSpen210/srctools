(** C01 — how start_indent / cur_indent enters the text: only at the start of a line the writer itself started.

    The positive counterpart of [post_indent_refuted] (KV/KvWriter.v).  [shift pre text] puts
    [pre] in front of every line of [text], a line being what ends at a LINE FEED (and nothing else: not at the other
    characters at which [str.splitlines] breaks).  For write templates accepted by [lines_ok] -- every template is a
    sequence of lines, each of which starts with exactly one [cur_indent], continues with literal characters other than
    LF, [indent], escaped fields, and ends with a literal LF; the indent handed to the children is [cur_indent] followed
    by pieces that do not depend on it -- the text written with cur_indent [cur] is the text written with the empty
    cur_indent, shifted by [cur]: [ser_node_shift].  So the indent is a property of the templates: it is never inside a
    quoted string, because raw line feeds never are ([escape] writes LF as backslash + n). *)
From Coq Require Import List NArith Bool.
From SV Require Import KV.KvBase KV.KvLex KV.KvSer KV.KvSym KV.KvLexProofs.
Import ListNotations.
Open Scope N_scope.

Fixpoint shift_after (pre : str) (l : str) : str :=
  match l with
  | [] => []
  | c :: r => c :: (if c =? LF then match r with [] => [] | _ => pre ++ shift_after pre r end else shift_after pre r)
  end.
Definition shift (pre text : str) : str := match text with [] => [] | _ => pre ++ shift_after pre text end.

Definition no_lf (s : str) : bool := forallb (fun c => negb (c =? LF)) s.
(** Empty, or ending in a line feed. *)
Fixpoint closed (s : str) : bool :=
  match s with [] => true | [c] => c =? LF | _ :: r => closed r end.

Lemma shift_after_nolf pre a r : no_lf a = true -> shift_after pre (a ++ r) = a ++ shift_after pre r.
Proof.
  induction a as [|c a IH]; intros H; [reflexivity|]. cbn [no_lf forallb] in H. apply andb_true_iff in H as [Hc Ha].
  apply negb_true_iff in Hc. cbn [app shift_after]. rewrite Hc. now rewrite IH.
Qed.

Lemma shift_after_lf pre r : shift_after pre (LF :: r) = LF :: shift pre r.
Proof. cbn [shift_after]. rewrite N.eqb_refl. now destruct r. Qed.

Lemma closed_app a b : closed a = true -> closed b = true -> closed (a ++ b) = true.
Proof.
  induction a as [|c a IH]; intros Ha Hb; [exact Hb|]. destruct a as [|d a].
  - cbn [app]. destruct b; [exact Ha|exact Hb].
  - cbn [app closed] in *. now apply IH.
Qed.

(** [shift] distributes over the concatenation of closed texts. *)
Lemma shift_after_closed_app pre a b : closed a = true -> a <> [] ->
  shift_after pre (a ++ b) = shift_after pre a ++ shift pre b.
Proof.
  induction a as [|c a IH]; intros Hc Hne; [congruence|]. destruct a as [|d a].
  - cbn [closed] in Hc. apply N.eqb_eq in Hc. subst c. cbn [app]. rewrite shift_after_lf.
    cbn [shift_after]. now rewrite N.eqb_refl.
  - change ((c :: d :: a) ++ b) with (c :: (d :: a) ++ b). cbn [shift_after].
    assert (IH' : shift_after pre ((d :: a) ++ b) = shift_after pre (d :: a) ++ shift pre b) by (apply IH; [exact Hc|discriminate]).
    destruct (c =? LF).
    + change ((d :: a) ++ b) with (d :: a ++ b) in *. rewrite IH'. cbn [app]. now rewrite app_assoc.
    + now rewrite IH'.
Qed.
Lemma shift_closed_app pre a b : closed a = true -> shift pre (a ++ b) = shift pre a ++ shift pre b.
Proof.
  intros Hc. destruct a as [|c a]; [reflexivity|]. unfold shift at 1 2. cbn [app].
  change (c :: a ++ b) with ((c :: a) ++ b). rewrite shift_after_closed_app; [|exact Hc|discriminate].
  now rewrite app_assoc.
Qed.
Lemma shift_after_cons pre c r :
  shift_after pre (c :: r) = c :: (if c =? LF then shift pre r else shift_after pre r).
Proof. cbn [shift_after]. destruct (c =? LF); [now destruct r|reflexivity]. Qed.

Lemma shift_after_nonempty pre c r : shift_after pre (c :: r) <> [].
Proof. rewrite shift_after_cons. discriminate. Qed.

Lemma shift_nonempty pre t : t <> [] -> shift pre t = pre ++ shift_after pre t.
Proof. destruct t; [congruence|reflexivity]. Qed.

(** Shifting twice is shifting by the concatenation (the inner prefix has no line feed). *)
Lemma shift_shift_from p w t : no_lf w = true ->
  shift_after p (shift_after w t) = shift_after (p ++ w) t -> shift p (shift w t) = shift (p ++ w) t.
Proof.
  intros Hw H. destruct t as [|c r]; [reflexivity|]. unfold shift.
  destruct (w ++ shift_after w (c :: r)) eqn:Hwr.
  - apply app_eq_nil in Hwr as [_ Hwr]. now apply shift_after_nonempty in Hwr.
  - rewrite <- Hwr, shift_after_nolf, H by exact Hw. now rewrite app_assoc.
Qed.
Lemma shift_after_shift_after p w : no_lf w = true -> forall t,
  shift_after p (shift_after w t) = shift_after (p ++ w) t.
Proof.
  intros Hw. induction t as [|c r IH]; [reflexivity|]. rewrite !shift_after_cons.
  destruct (c =? LF); f_equal; [now apply shift_shift_from | exact IH].
Qed.
Lemma shift_shift p w t : no_lf w = true -> shift p (shift w t) = shift (p ++ w) t.
Proof. intros Hw. now apply shift_shift_from, shift_after_shift_after. Qed.

(** * Templates as lines *)
Inductive lsym := LC (c : char) | LCur | LInd | LEsc (f : field) | LBad.

Definition bflat (t : list piece) : list lsym :=
  flat_map (fun p => match p with
                     | PLit s => map LC s
                     | PVar VIndent => [LInd]
                     | PVar VCurIndent => []          (* empty while the braces are computed *)
                     | _ => [LBad]
                     end) t.
Definition lflat_piece (ob cb : list lsym) (p : piece) : list lsym :=
  match p with
  | PLit s => map LC s
  | PVar VCurIndent => [LCur]
  | PVar VIndent => [LInd]
  | PVar VOpenBrace => ob
  | PVar VCloseBrace => cb
  | PEsc f => [LEsc f]
  | PRaw _ | POther => [LBad]
  end.
Definition lflat (ob cb : list lsym) (t : list piece) : list lsym := flat_map (lflat_piece ob cb) t.

(** [lines_from start l]: [l] is a sequence of lines; [start] = a new line begins here. *)
Fixpoint lines_from (start : bool) (l : list lsym) : bool :=
  match l with
  | [] => start
  | LCur :: r => start && lines_from false r
  | LC c :: r => negb start && (if c =? LF then lines_from true r else lines_from false r)
  | LInd :: r | LEsc _ :: r => negb start && lines_from false r
  | LBad :: _ => false
  end.

Section Shift.
  Variables (C : sercfg) (E : escfg) (o : seropts).
  Hypothesis HE : esc_ok E = true.
  Hypothesis HI : no_lf (o_indent o) = true.

  Definition l_open := bflat (if o_indent_braces o then t_open_ind C else t_open_plain C).
  Definition l_close := bflat (if o_indent_braces o then t_close_ind C else t_close_plain C).
  Definition l_tpl (t : list piece) := lflat l_open l_close t.

  (** Every template is a sequence of lines; the braces, used in the middle of a line, end it; the indent of the children
      is cur_indent followed by indents; the root is never a named node. *)
  Definition child_tpl_ok (t : list piece) : bool :=
    match t with
    | PVar VCurIndent :: r => forallb (fun p => match p with PVar VIndent => true | _ => false end) r
    | _ => false
    end.
  Definition lines_ok : bool :=
    lines_from true (l_tpl (t_head C)) && lines_from true (l_tpl (t_tail C)) && lines_from true (l_tpl (t_leaf C))
    && child_tpl_ok (t_child_indent C) && match t_root_test C with RTIsNone => true | _ => false end.

  Lemma escape_no_lf s : no_lf (escape E s) = true.
  Proof.
    unfold escape, no_lf. induction s as [|c s IH]; [reflexivity|]. cbn [flat_map]. rewrite forallb_app. apply andb_true_iff. split; [|exact IH].
    destruct (esc_char_cases E HE c) as [[-> (_ & _ & _ & Hx)] | (x & -> & Hx & _)]; apply N.eqb_neq in Hx; cbn; now rewrite Hx.
  Qed.

  Lemma closed_app_r a x : x <> [] -> closed (a ++ x) = closed x.
  Proof.
    intros Hx. induction a as [|c a IH]; [reflexivity|]. cbn [app]. destruct (a ++ x) eqn:Hax.
    - apply app_eq_nil in Hax as [_ ->]. congruence.
    - exact IH.
  Qed.

  Lemma closed_cons_lf x : closed x = true -> closed (LF :: x) = true.
  Proof. destruct x; [reflexivity|]. intros H. exact H. Qed.

  Section Node.
  Variables n v : str.
  Definition lsym_text (cur : str) (s : lsym) : str :=
    match s with
    | LC c => [c] | LCur => cur | LInd => o_indent o
    | LEsc FName => escape E n | LEsc FValue => escape E v | LBad => []
    end.
  Definition lrender (cur : str) (l : list lsym) : str := flat_map (lsym_text cur) l.

  (** The text of a sequence of lines ends in a line feed, and from inside a line it is not empty. *)
  Lemma lines_closed cur : forall l st, lines_from st l = true ->
    closed (lrender cur l) = true /\ (st = false -> lrender cur l <> []).
  Proof.
    induction l as [|s r IH]; intros st H; cbn [lines_from] in H; [now subst st|].
    cbn [lrender flat_map]. fold (lrender cur r).
    assert (Hmid : forall x, lines_from false r = true ->
              closed (x ++ lrender cur r) = true /\ (st = false -> x ++ lrender cur r <> [])).
    { intros x Hr. destruct (IH false Hr) as [Hcl Hne]. specialize (Hne eq_refl). rewrite closed_app_r by exact Hne.
      split; [exact Hcl|]. intros _ Hx. now apply app_eq_nil in Hx as [_ Hx]. }
    destruct s; try discriminate; apply andb_true_iff in H as [_ H]; try exact (Hmid _ H).
    destruct (c =? LF) eqn:Hc; [|exact (Hmid [c] H)]. apply N.eqb_eq in Hc. subst c.
    split; [|discriminate]. apply closed_cons_lf, (IH true H).
  Qed.

  (** cur_indent stands at the start of each line and nowhere else. *)
  Lemma lrender_lines cur : forall l st, lines_from st l = true ->
    lrender cur l = (if st then shift cur else shift_after cur) (lrender [] l).
  Proof.
    induction l as [|s r IH]; intros st H; cbn [lines_from] in H; [now subst st|].
    cbn [lrender flat_map]. fold (lrender cur r) (lrender [] r).
    (* inside a line, a symbol whose text has no line feed and does not depend on cur_indent *)
    assert (Hsame : forall x, no_lf x = true -> negb st && lines_from false r = true ->
              x ++ lrender cur r = (if st then shift cur else shift_after cur) (x ++ lrender [] r)).
    { intros x Hx Hr. apply andb_true_iff in Hr as [Hst Hr]. apply negb_true_iff in Hst. subst st.
      now rewrite shift_after_nolf, (IH false Hr). }
    destruct s; try discriminate.
    - destruct (c =? LF) eqn:Hc; [|apply (Hsame [c]); [cbn; now rewrite Hc | exact H]].
      apply andb_true_iff in H as [Hst H]. apply negb_true_iff in Hst. subst st. apply N.eqb_eq in Hc. subst c.
      cbn [lsym_text app]. now rewrite shift_after_lf, (IH true H).
    - apply andb_true_iff in H as [-> H]. cbn [lsym_text app].
      rewrite shift_nonempty by exact (proj2 (lines_closed [] r false H) eq_refl). now rewrite (IH false H).
    - exact (Hsame _ HI H).
    - apply Hsame; [destruct f; apply escape_no_lf | exact H].
  Qed.

  Definition nobad (l : list lsym) : bool := forallb (fun s => match s with LBad => false | _ => true end) l.
  Lemma lines_nobad : forall l st, lines_from st l = true -> nobad l = true.
  Proof.
    induction l as [|s r IH]; intros st H; [reflexivity|]. cbn [nobad forallb lines_from] in *.
    destruct s; try discriminate; apply andb_true_iff in H as [_ H]; [destruct (c =? LF)|..]; exact (IH _ H).
  Qed.

  Lemma lrender_LC cur (s : str) : lrender cur (map LC s) = s.
  Proof. unfold lrender. induction s as [|c s IH]; [reflexivity|]. cbn [map flat_map lsym_text app]. now rewrite IH. Qed.
  Lemma lrender_app cur a b : lrender cur (a ++ b) = lrender cur a ++ lrender cur b.
  Proof. unfold lrender. apply flat_map_app. Qed.

  Lemma lrender_one cur s : lrender cur [s] = lsym_text cur s.
  Proof. apply app_nil_r. Qed.

  Lemma brace_render cur t : render E (brace_env o) [] [] t = lrender cur (bflat t).
  Proof.
    unfold render, bflat. induction t as [|p t IH]; [reflexivity|]. cbn [flat_map]. rewrite lrender_app, <- IH. f_equal.
    destruct p as [s|[]|[]|[]|]; cbn [render_piece var_val brace_env v_cur v_indent v_open v_close];
      try reflexivity; symmetry; [apply lrender_LC | apply lrender_one].
  Qed.

  Lemma render_lrender cur t : nobad (l_tpl t) = true ->
    render E (mkenv C E o cur) n v t = lrender cur (l_tpl t).
  Proof.
    unfold render, l_tpl, lflat. induction t as [|p t IH]; intros H; [reflexivity|]. cbn [flat_map] in *.
    unfold nobad in H. rewrite forallb_app in H. apply andb_true_iff in H as [Hp Ht].
    rewrite lrender_app, <- (IH Ht). f_equal.
    destruct p as [s|[]|[]|[]|]; cbn [lflat_piece render_piece var_val mkenv v_cur v_indent v_open v_close] in *;
      try discriminate; try (symmetry; apply lrender_one).
    - symmetry. apply lrender_LC.
    - unfold open_brace, l_open. apply brace_render.
    - unfold close_brace, l_close. apply brace_render.
  Qed.
  End Node.

  (** The indent handed to the children: cur_indent followed by something that does not depend on it. *)
  Lemma child_render t : child_tpl_ok t = true -> exists w, no_lf w = true /\
    forall n cur, render E (mkenv C E o cur) n [] t = cur ++ w.
  Proof.
    destruct t as [|[s|[]|f|f|] r]; try discriminate. cbn [child_tpl_ok]. intros H.
    assert (G : exists w, no_lf w = true /\ forall n cur, render E (mkenv C E o cur) n [] r = w).
    { induction r as [|p r IH]; [exists []; now split|]. cbn [forallb] in H. apply andb_true_iff in H as [Hp Hr].
      destruct (IH Hr) as [w [Hw Hall]]. destruct p as [s|[]|f|f|]; try discriminate.
      exists (o_indent o ++ w). split.
      - unfold no_lf in *. rewrite forallb_app. apply andb_true_iff. split; [exact HI|exact Hw].
      - intros n cur. unfold render in *. cbn [flat_map render_piece var_val mkenv v_indent]. now rewrite Hall. }
    destruct G as [w [Hw Hall]]. exists w. split; [exact Hw|]. intros n cur. unfold render in *. cbn [flat_map render_piece var_val mkenv v_cur].
    now rewrite Hall.
  Qed.

  Lemma shift_flat_map pre (f : kv -> str) cs : (forall c, In c cs -> closed (f c) = true) ->
    shift pre (flat_map f cs) = flat_map (fun c => shift pre (f c)) cs /\ closed (flat_map f cs) = true.
  Proof.
    induction cs as [|c r IH]; intros H; [now split|]. cbn [flat_map].
    destruct IH as [IH1 IH2]; [intros c' Hc'; apply H; now right|].
    rewrite shift_closed_app by (apply H; now left). rewrite IH1. split; [reflexivity|].
    apply closed_app; [apply H; now left|exact IH2].
  Qed.

  Theorem ser_node_shift : lines_ok = true -> forall k cur,
    ser_node C E o cur k = shift cur (ser_node C E o [] k) /\ closed (ser_node C E o cur k) = true.
  Proof.
    unfold lines_ok. intros H. apply andb_true_iff in H as [H Hrt]. apply andb_true_iff in H as [H Hch].
    apply andb_true_iff in H as [H Hlf]. apply andb_true_iff in H as [Hhd Htl].
    assert (Hcl : forall n v x t, lines_from true (l_tpl t) = true -> closed (lrender n v x (l_tpl t)) = true)
      by (intros n v x t Ht; exact (proj1 (lines_closed n v x _ true Ht))).
    induction k as [n v|n cs IH] using kv_ind'; intros cur.
    - cbn [ser_node]. rewrite !(render_lrender n v _ _ (lines_nobad _ _ Hlf)).
      exact (conj (lrender_lines n v cur _ true Hlf) (Hcl n v cur _ Hlf)).
    - cbn [ser_node]. assert (Hroot : root_like (t_root_test C) n = false) by (destruct (t_root_test C); try discriminate; reflexivity).
      rewrite Hroot. destruct (child_render _ Hch) as [w [Hw Hci]]. rewrite !Hci. cbn [app].
      rewrite !(render_lrender n [] _ _ (lines_nobad _ _ Hhd)), !(render_lrender n [] _ _ (lines_nobad _ _ Htl)).
      rewrite Forall_forall in IH.
      assert (Hk : forall x c, In c cs -> closed (ser_node C E o x c) = true) by (intros x c Hc; apply (IH c Hc x)).
      destruct (shift_flat_map cur (ser_node C E o w) cs (Hk w)) as [Hf1 Hf0].
      destruct (shift_flat_map cur (ser_node C E o (cur ++ w)) cs (Hk (cur ++ w))) as [_ Hfc].
      split.
      + rewrite shift_closed_app by now apply Hcl. rewrite shift_closed_app by exact Hf0.
        rewrite <- (lrender_lines n [] cur _ true Hhd), <- (lrender_lines n [] cur _ true Htl), Hf1.
        f_equal. f_equal. rewrite !flat_map_concat_map. f_equal. apply map_ext_in. intros c Hc.
        rewrite (proj1 (IH c Hc (cur ++ w))), (proj1 (IH c Hc w)). now rewrite shift_shift.
      + apply closed_app; [now apply Hcl|]. apply closed_app; [exact Hfc|now apply Hcl].
  Qed.
End Shift.

(** [serialise()] on a named node with start_indent [s] is the text written with the empty start_indent, every writer
    line shifted by [s]. *)
Definition with_start0 (o : seropts) : seropts :=
  {| o_indent := o_indent o; o_indent_braces := o_indent_braces o; o_start := [] |}.

Lemma ser_node_start_irrelevant C E o cur k : ser_node C E (with_start0 o) cur k = ser_node C E o cur k.
Proof. destruct o as [i b s]. reflexivity. Qed.

(** The reference templates are lines, for both brace styles ... *)
Definition ref_sercfg' (leaf : list piece) : sercfg := {|
  t_root_test := RTIsNone;
  t_open_ind := [PVar VIndent; PLit [123; 10]]; t_close_ind := [PVar VIndent; PLit [125; 10]];
  t_open_plain := [PLit [123; 10]]; t_close_plain := [PLit [125; 10]];
  t_head := [PVar VCurIndent; PLit [34]; PEsc FName; PLit [34; 10]; PVar VCurIndent; PVar VOpenBrace];
  t_child_indent := [PVar VCurIndent; PVar VIndent];
  t_tail := [PVar VCurIndent; PVar VCloseBrace];
  t_leaf := leaf;
  t_root_indent := [] |}.
Definition ref_leaf : list piece := [PVar VCurIndent; PLit [34]; PEsc FName; PLit [34; 32; 34]; PEsc FValue; PLit [34; 10]].
Lemma ref_lines_ok o : lines_ok (ref_sercfg' ref_leaf) o = true.
Proof. destruct o as [i [|] s]; reflexivity. Qed.

