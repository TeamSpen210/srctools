(** C01 — model of the deprecated writer [Keyvalues.export()] (interpreter of its regenerated templates), the
    decidable side condition [xcfg_ok], and its round trip: ''.join(tree.export()) parses back to the tree. *)
From Coq Require Import List NArith Bool.
From SV Require Import KV.KvBase KV.KvLex KV.KvParse KV.KvSer KV.KvSym KV.KvLexProofs KV.KvSymProofs
  KV.KvRoundtrip.
Import ListNotations.
Open Scope N_scope.

(** export() has no indentation parameters: every variable is empty. *)
Definition xenv : env := {| v_cur := []; v_indent := []; v_open := []; v_close := [] |}.

Section Exp.
  Variable X : expcfg.
  Variable E : escfg.

  (** The yields [ys] of one node, each with the prefixes [w] that the enclosing generators put in front. *)
  Definition xlines (w n v : str) (ys : list (list piece)) : str :=
    flat_map (fun y => w ++ render E xenv n v y) ys.

  Fixpoint exp_node (w : str) (k : kv) : str :=
    match k with
    | Leaf n v => xlines w n v (x_leaf X)
    | Block n cs =>
        if root_like (x_root_test X) n then flat_map (exp_node w) cs
        else xlines w n [] (x_head X)
             ++ flat_map (exp_node (w ++ render E xenv [] [] (x_prefix X))) cs
             ++ xlines w n [] (x_tail X)
    end.

  (** [''.join(Keyvalues.root(children).export())] and [''.join(node.export())] *)
  Definition export_doc (d : list kv) : str := flat_map (exp_node []) d.
  Definition export_node (k : kv) : str := exp_node [] k.

  (** Symbolic form of a group of yields: each starts with whitespace (the accumulated prefixes). *)
  Definition sx (ys : list (list piece)) : list schar := flat_map (fun y => SW :: sflat [] [] y) ys.

  Definition xhead_ok : bool := lexes_to (sx (x_head X)) [STStr FName; SNL; SBO; SNL].
  Definition xtail_ok : bool := lexes_to (sx (x_tail X)) [SBC; SNL].
  Definition xleaf_ok : bool := lexes_to (sx (x_leaf X)) [STStr FName; STStr FValue; SNL].
  Definition xprefix_ok : bool := ws_tpl (x_prefix X).
  Definition xroot_test_ok : bool := match x_root_test X with RTIsNone => true | _ => false end.
  Definition xcfg_ok : bool := xhead_ok && xtail_ok && xleaf_ok && xprefix_ok && xroot_test_ok.
End Exp.

Section ExpProofs.
  Variable X : expcfg.
  Variable E : escfg.
  Hypothesis HX : xcfg_ok X = true.
  Hypothesis HE : esc_ok E = true.

  Lemma xcfg_parts : xhead_ok X = true /\ xtail_ok X = true /\ xleaf_ok X = true /\ xprefix_ok X = true
                     /\ xroot_test_ok X = true.
  Proof. unfold xcfg_ok in HX. repeat (apply andb_true_iff in HX as [HX ?]). repeat split; assumption. Qed.

  Lemma xlines_conc w n v ys : ws_only w = true -> conc E n v (sx ys) (xlines E w n v ys).
  Proof.
    intros Hw. induction ys as [|y ys IH]; [constructor|].
    unfold sx, xlines in *. cbn [flat_map].
    change ((SW :: sflat [] [] y) ++ ?r) with (SW :: (sflat [] [] y ++ r)).
    rewrite <- app_assoc. apply conc_w; [exact Hw|]. apply conc_app; [|exact IH].
    apply render_conc; cbn [xenv v_cur v_indent v_open v_close]; try reflexivity; constructor.
  Qed.

  Lemma xprefix_ws w : ws_only w = true -> ws_only (w ++ render E xenv [] [] (x_prefix X)) = true.
  Proof.
    intros Hw. destruct xcfg_parts as (_ & _ & _ & Hp & _). rewrite ws_only_app, Hw. cbn [andb].
    unfold xprefix_ok in Hp. induction (x_prefix X) as [|p t IH]; [reflexivity|].
    cbn [ws_tpl forallb] in Hp. apply andb_true_iff in Hp as [Hp Ht].
    unfold render in *. cbn [flat_map]. rewrite ws_only_app, (IH Ht), andb_true_r.
    destruct p as [s|[]|f|f|]; try discriminate; cbn [render_piece var_val xenv v_cur v_indent]; auto.
  Qed.

  Lemma exp_node_lexes : forall k w, ws_only w = true -> lexes_any E (exp_node X E w k) (toks k).
  Proof.
    destruct xcfg_parts as (Hh & Ht & Hl & _ & Hrt).
    assert (Hroot : forall n, root_like (x_root_test X) n = false).
    { intros n. unfold xroot_test_ok in Hrt. destruct (x_root_test X); try discriminate. reflexivity. }
    induction k as [n v | n cs IH] using kv_ind'; intros w Hw; cbn [exp_node toks].
    - exact (lexes_to_sound E n v _ _ _ HE Hl (xlines_conc w n v (x_leaf X) Hw)).
    - rewrite Hroot. rewrite Forall_forall in IH.
      apply lexes_any_app; [exact (lexes_to_sound E n [] _ _ _ HE Hh (xlines_conc w n [] (x_head X) Hw))|].
      apply lexes_any_app; [|exact (lexes_to_sound E n [] _ _ _ HE Ht (xlines_conc w n [] (x_tail X) Hw))].
      apply lexes_any_flat_map. intros k Hk. apply (IH k Hk), xprefix_ws, Hw.
  Qed.

  Theorem lex_export_doc d : lex_all E (export_doc X E d) = (toks_doc d, None).
  Proof. apply lexes_any_all, lexes_any_flat_map. intros k _. now apply exp_node_lexes. Qed.

  Theorem lex_export_node k : lex_all E (export_node X E k) = (toks k, None).
  Proof. apply lexes_any_all. now apply exp_node_lexes. Qed.
End ExpProofs.

(** Reference instance (the repaired export()) and the pinned shape with the raw block name. *)
Definition ref_expcfg (head_name : piece) : expcfg := {|
  x_root_test := RTIsNone;
  x_head := [[PLit [34]; head_name; PLit [34; 10]]; [PLit [9; 123; 10]]];
  x_prefix := [PLit [9]];
  x_tail := [[PLit [9; 125; 10]]];
  x_leaf := [[PLit [34]; PEsc FName; PLit [34; 32; 34]; PEsc FValue; PLit [34; 10]]] |}.
Lemma raw_export_rejected : xcfg_ok (ref_expcfg (PRaw FName)) = false.
Proof. vm_compute. reflexivity. Qed.
Lemma raw_export_refuted :
  parse_kv ref_pcfg ref_escfg (fun _ => false) (export_doc (ref_expcfg (PRaw FName)) ref_escfg raw_block_witness)
  = PErr (ELex LUnterminated).
Proof. vm_compute. reflexivity. Qed.
