(** C01 — lemmas about the tokenizer model: compositionality over concatenation, and what it does on the
    pieces a serialiser writes (whitespace, braces, newline, a quoted escaped field). *)
From Coq Require Import List NArith Bool.
From SV Require Import KV.KvBase KV.KvLex KV.KvSym.
Import ListNotations.
Open Scope N_scope.

Definition norm (l : N) : lst := mkL MNorm l false.

Definition tcons (ts : list tok) (r : list tok * (lexerr + lst)) : list tok * (lexerr + lst) :=
  (ts ++ fst r, snd r).

Lemma tcons_nil r : tcons [] r = r.
Proof. destruct r; reflexivity. Qed.

Lemma tcons_tcons a b r : tcons a (tcons b r) = tcons (a ++ b) r.
Proof. unfold tcons; cbn [fst snd]. now rewrite app_assoc. Qed.

Lemma lex_run_cons E st c r st' out :
  lstep E st c = SOk st' out -> lex_run E st (c :: r) = tcons out (lex_run E st' r).
Proof. intros H. cbn [lex_run]. rewrite H. destruct (lex_run E st' r); reflexivity. Qed.

(** [lexes E l text ts l']: from the normal mode at line [l] (no pending CR) the text produces exactly the
    tokens [ts] and leaves the tokenizer in the normal mode at line [l'], whatever follows. *)
Definition lexes (E : escfg) (l : N) (text : str) (ts : list tok) (l' : N) : Prop :=
  forall rest, lex_run E (norm l) (text ++ rest) = tcons ts (lex_run E (norm l') rest).

Lemma lexes_nil E l : lexes E l [] [] l.
Proof. intros rest. now rewrite tcons_nil. Qed.

Lemma lexes_app E l a ta l1 b tb l2 :
  lexes E l a ta l1 -> lexes E l1 b tb l2 -> lexes E l (a ++ b) (ta ++ tb) l2.
Proof. intros Ha Hb rest. rewrite <- app_assoc, Ha, Hb. apply tcons_tcons. Qed.

(** [lexes_any E text ts]: the same from every line, the line reached being of no interest. *)
Definition lexes_any (E : escfg) (text : str) (ts : list tok) : Prop := forall l, exists l', lexes E l text ts l'.

Lemma lexes_any_app E a ta b tb : lexes_any E a ta -> lexes_any E b tb -> lexes_any E (a ++ b) (ta ++ tb).
Proof. intros Ha Hb l. destruct (Ha l) as [l1 H1]. destruct (Hb l1) as [l2 H2]. exists l2. eapply lexes_app; eassumption. Qed.

(** Texts produced item by item. *)
Lemma lexes_any_flat_map {A} E (f : A -> str) (g : A -> list tok) xs :
  (forall x, In x xs -> lexes_any E (f x) (g x)) -> lexes_any E (flat_map f xs) (flat_map g xs).
Proof.
  induction xs as [|x r IH]; intros H; [intros l; exists l; apply lexes_nil|]. cbn [flat_map].
  apply lexes_any_app; [apply H; now left | apply IH; intros y Hy; apply H; now right].
Qed.

Lemma lexes_all E text ts l' : lexes E 1 text ts l' -> lex_all E text = (ts, None).
Proof.
  intros H. unfold lex_all. specialize (H []). rewrite app_nil_r in H.
  change lex_init with (norm 1). rewrite H. cbn. now rewrite !app_nil_r.
Qed.

Lemma lexes_any_all E text ts : lexes_any E text ts -> lex_all E text = (ts, None).
Proof. intros H. destruct (H 1) as [l' H1]. exact (lexes_all E text ts l' H1). Qed.

Lemma lexes_char E l c t l' :
  norm_step l false c = SOk (norm l') t -> lexes E l [c] t l'.
Proof. intros H rest. cbn [app]. now apply lex_run_cons. Qed.

Lemma lexes_lf E l : lexes E l [LF] [TNL] (l + 1).
Proof. apply lexes_char. reflexivity. Qed.
Lemma lexes_bo E l : lexes E l [123] [TBO] l.
Proof. apply lexes_char. reflexivity. Qed.
Lemma lexes_bc E l : lexes E l [125] [TBC] l.
Proof. apply lexes_char. reflexivity. Qed.

Lemma is_ws_cases c : is_ws c = true -> c = SP \/ c = TAB.
Proof. unfold is_ws. rewrite orb_true_iff, !N.eqb_eq. tauto. Qed.

Lemma lexes_ws1 E l c : is_ws c = true -> lexes E l [c] [] l.
Proof. intros H. apply lexes_char. destruct (is_ws_cases c H) as [-> | ->]; reflexivity. Qed.

Lemma lexes_ws E l w : ws_only w = true -> lexes E l w [] l.
Proof.
  induction w as [|c w IH]; intros H.
  - apply lexes_nil.
  - cbn [ws_only forallb] in H. apply andb_true_iff in H as [Hc Hw].
    change (c :: w) with ([c] ++ w). change (@nil tok) with (@nil tok ++ []).
    eapply lexes_app; [apply lexes_ws1; exact Hc | apply IH; exact Hw].
Qed.

(** * Quoted, escaped fields *)
Lemma rlookup_in c t s : rlookup c t = Some s -> In (s, c) t.
Proof.
  induction t as [|[s0 c0] t IH]; cbn [rlookup]; [discriminate|].
  destruct (rlookup c t) as [s'|] eqn:R.
  - intros [= <-]. right. now apply IH.
  - destruct (c0 =? c) eqn:Ec; [|discriminate]. intros [= <-]. apply N.eqb_eq in Ec. subst. now left.
Qed.

Lemma mem_false_neq c d l : mem d l = false -> mem c l = true -> c <> d.
Proof. intros Hd Hc ->. congruence. Qed.

Section Esc.
  Variable E : escfg.
  Hypothesis HE : esc_ok E = true.

  Lemma esc_specials d : In d [DQ; BS; CR; LF] ->
    mem d (e_excl E) = false /\ exists s, rlookup d (e_table E) = Some s.
  Proof.
    unfold esc_ok, esc_quote_ok, esc_backslash_ok, esc_cr_ok, esc_lf_ok in HE.
    apply andb_true_iff in HE as [HE Hi]. apply andb_true_iff in HE as [HE Hlf].
    apply andb_true_iff in HE as [HE Hcr]. apply andb_true_iff in HE as [Hdq Hbs].
    assert (G : forall d, esc_special_ok E d = true ->
                mem d (e_excl E) = false /\ exists s, rlookup d (e_table E) = Some s).
    { intros d0 Hd0. unfold esc_special_ok in Hd0. apply andb_true_iff in Hd0 as [A B].
      apply negb_true_iff in A. split; [exact A|]. destruct (rlookup d0 (e_table E)); [eauto|discriminate]. }
    cbn [In]. intros [<-|[<-|[<-|[<-|[]]]]]; apply G; assumption.
  Qed.

  (** A character written raw by [esc_char] is an ordinary character for [_handle_string]. *)
  Lemma raw_ordinary c :
    (mem c (e_excl E) = true \/ rlookup c (e_table E) = None) ->
    c <> DQ /\ c <> BS /\ c <> CR /\ c <> LF.
  Proof.
    intros H.
    assert (G : forall d, In d [DQ; BS; CR; LF] -> c <> d).
    { intros d Hd ->. destruct (esc_specials d Hd) as [A [s B]]. destruct H; congruence. }
    repeat split; apply G; cbn; tauto.
  Qed.

  Lemma escaped_restored c s :
    mem c (e_excl E) = false -> rlookup c (e_table E) = Some s ->
    s <> LF /\ lookup s (e_table E) = Some c.
  Proof.
    intros Hm Hr. pose proof (rlookup_in _ _ _ Hr) as Hin.
    unfold esc_ok in HE. apply andb_true_iff in HE as [_ Hinv]. unfold esc_inverse_ok in Hinv.
    rewrite forallb_forall in Hinv. specialize (Hinv _ Hin). unfold esc_entry_ok in Hinv. cbn [snd] in Hinv.
    rewrite Hm, Hr in Hinv. cbn [orb] in Hinv. apply andb_true_iff in Hinv as [A B].
    apply negb_true_iff, N.eqb_neq in A. split; [exact A|].
    destruct (lookup s (e_table E)) as [x|]; cbn [opt_char_eqb] in B; [|discriminate].
    apply N.eqb_eq in B. now subst.
  Qed.

  Lemma str_step_ordinary acc l cr c :
    c <> DQ -> c <> BS -> c <> CR -> c <> LF ->
    lstep E (mkL (MStr acc false) l cr) c = SOk (mkL (MStr (c :: acc) false) l cr) [].
  Proof.
    intros H1 H2 H3 H4. unfold lstep; cbn [l_mode l_line l_cr].
    apply N.eqb_neq in H1, H2, H3, H4. now rewrite H1, H2, H3, H4.
  Qed.

  (** [esc_char] writes a character as it is, and then it is an ordinary one for [_handle_string]; or as a backslash and a
      symbol other than a line feed that the tokenizer's table takes back to the character. *)
  Lemma esc_char_cases c :
    esc_char E c = [c] /\ c <> DQ /\ c <> BS /\ c <> CR /\ c <> LF
    \/ exists s, esc_char E c = [BS; s] /\ s <> LF /\ lookup s (e_table E) = Some c.
  Proof.
    unfold esc_char. destruct (mem c (e_excl E)) eqn:Hm.
    - left. split; [reflexivity|]. apply raw_ordinary. now left.
    - destruct (rlookup c (e_table E)) as [s|] eqn:Hr.
      + right. exists s. split; [reflexivity|]. now apply escaped_restored.
      + left. split; [reflexivity|]. apply raw_ordinary. now right.
  Qed.

  Lemma esc_char_step c acc l cr rest :
    lex_run E (mkL (MStr acc false) l cr) (esc_char E c ++ rest)
    = lex_run E (mkL (MStr (c :: acc) false) l cr) rest.
  Proof.
    destruct (esc_char_cases c) as [[-> (H1 & H2 & H3 & H4)] | (s & -> & Hs & Hl)]; cbn [app].
    - erewrite lex_run_cons by (apply str_step_ordinary; assumption). apply tcons_nil.
    - erewrite lex_run_cons by (unfold lstep; cbn [l_mode l_line l_cr]; reflexivity).
      erewrite lex_run_cons.
      2:{ unfold lstep; cbn [l_mode l_line l_cr]. apply N.eqb_neq in Hs. rewrite Hs, Hl. reflexivity. }
      now rewrite !tcons_nil.
  Qed.

  Lemma escape_run s : forall acc l cr rest,
    lex_run E (mkL (MStr acc false) l cr) (escape E s ++ rest)
    = lex_run E (mkL (MStr (rev s ++ acc) false) l cr) rest.
  Proof.
    induction s as [|c s IH]; intros acc l cr rest; [reflexivity|].
    unfold escape in *. cbn [flat_map]. rewrite <- app_assoc, esc_char_step, IH.
    cbn [rev]. now rewrite <- app_assoc.
  Qed.

  (** The embedding lemma: a quoted escaped field is consumed exactly and yields the field. *)
  Lemma lexes_quoted l s : lexes E l (DQ :: escape E s ++ [DQ]) [TStr s] l.
  Proof.
    intros rest. cbn [app]. erewrite lex_run_cons by reflexivity. rewrite tcons_nil.
    rewrite <- app_assoc, escape_run. cbn [app].
    erewrite lex_run_cons by reflexivity. now rewrite app_nil_r, rev_involutive.
  Qed.
End Esc.
