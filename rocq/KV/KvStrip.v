(** C01 — "the text is independent of the indentation options apart from whitespace", at the level of the
    text: deleting the blanks (space, tab) that stand outside quoted strings from the serialised text gives a
    canonical text that is a function of the tree alone. *)
From Coq Require Import List NArith Bool.
From SV Require Import KV.KvBase KV.KvLex KV.KvSer KV.KvSym KV.KvLexProofs KV.KvSymProofs.
Import ListNotations.
Open Scope N_scope.

(** Where a left-to-right reader is: outside a quoted string, inside, or inside just after a backslash. *)
Inductive smode := SOut | SIn | SInEsc.

Fixpoint strip (m : smode) (s : str) : str :=
  match s with
  | [] => []
  | c :: r =>
      match m with
      | SOut => if is_ws c then strip SOut r else c :: strip (if c =? DQ then SIn else SOut) r
      | SIn => c :: strip (if c =? BS then SInEsc else if c =? DQ then SOut else SIn) r
      | SInEsc => c :: strip SIn r
      end
  end.

(** Delete blanks outside quotes. *)
Definition strip_blanks (s : str) : str := strip SOut s.

Definition quoted (E : escfg) (s : str) : str := DQ :: escape E s ++ [DQ].

(** The canonical text of a tree: no indentation at all. *)
Fixpoint canon (E : escfg) (k : kv) : str :=
  match k with
  | Leaf n v => quoted E n ++ quoted E v ++ [LF]
  | Block n cs => quoted E n ++ [LF; 123; LF] ++ flat_map (canon E) cs ++ [125; LF]
  end.
Definition canon_doc (E : escfg) (d : list kv) : str := flat_map (canon E) d.

(** [strips s t]: read from outside a string, [s] is stripped to [t] and ends outside a string. *)
Definition strips (s t : str) : Prop := forall rest, strip SOut (s ++ rest) = t ++ strip SOut rest.

Lemma strips_nil : strips [] [].
Proof. intros rest. reflexivity. Qed.

Lemma strips_app a ta b tb : strips a ta -> strips b tb -> strips (a ++ b) (ta ++ tb).
Proof. intros Ha Hb rest. now rewrite <- !app_assoc, Ha, Hb. Qed.

Lemma strips_flat_map {A} (f g : A -> str) xs :
  (forall x, In x xs -> strips (f x) (g x)) -> strips (flat_map f xs) (flat_map g xs).
Proof.
  induction xs as [|x r IH]; intros H; [apply strips_nil|]. cbn [flat_map].
  apply strips_app; [apply H; now left | apply IH; intros y Hy; apply H; now right].
Qed.

Lemma strips_all s t : strips s t -> strip_blanks s = t.
Proof. intros H. specialize (H []). now rewrite !app_nil_r in H. Qed.

Lemma strips_ws w : ws_only w = true -> strips w [].
Proof.
  induction w as [|c w IH]; intros H rest; [reflexivity|].
  cbn [ws_only forallb] in H. apply andb_true_iff in H as [Hc Hw].
  cbn [app strip]. rewrite Hc. now apply IH.
Qed.

Lemma strips_plain c : is_ws c = false -> c <> DQ -> strips [c] [c].
Proof. intros Hw Hq rest. cbn [app strip]. rewrite Hw. apply N.eqb_neq in Hq. now rewrite Hq. Qed.

Section StripEsc.
  Variable E : escfg.
  Hypothesis HE : esc_ok E = true.

  Lemma strip_esc_char c rest : strip SIn (esc_char E c ++ rest) = esc_char E c ++ strip SIn rest.
  Proof.
    destruct (esc_char_cases E HE c) as [[-> (H1 & H2 & _)] | (s & -> & _)]; cbn [app strip]; [|reflexivity].
    apply N.eqb_neq in H1, H2. now rewrite H1, H2.
  Qed.

  Lemma strip_escape s rest : strip SIn (escape E s ++ rest) = escape E s ++ strip SIn rest.
  Proof.
    induction s as [|c s IH]; [reflexivity|]. unfold escape in *. cbn [flat_map].
    now rewrite <- !app_assoc, strip_esc_char, IH.
  Qed.

  Lemma strips_quoted s : strips (quoted E s) (quoted E s).
  Proof.
    intros rest. unfold quoted. cbn [app strip]. rewrite <- !app_assoc, strip_escape. cbn [app strip].
    reflexivity.
  Qed.

  Lemma lexes_to_strips n v sl want s :
    lexes_to sl want = true -> conc E n v sl s -> strips s (flat_map (stok_text E n v) want).
  Proof.
    apply (lexes_to_reading E n v char strips (stok_text E n v) strips_nil strips_app strips_ws).
    intros [f| | |]; [apply strips_quoted | now apply strips_plain..].
  Qed.
End StripEsc.

Section SerStrip.
  Variable C : sercfg.
  Variable E : escfg.
  Variable o : seropts.
  Hypothesis HC : cfg_ok C = true.
  Hypothesis HE : esc_ok E = true.
  Hypothesis HO : ws_opts o = true.

  Lemma ser_node_strips : forall k cur, ws_only cur = true -> strips (ser_node C E o cur k) (canon E k).
  Proof.
    destruct (cfg_parts C o HC) as (Hh & Ht & Hl & Hci & _ & _).
    induction k as [n v | n cs IH] using kv_ind'; intros cur Hc; cbn [ser_node canon].
    - exact (lexes_to_strips E HE n v _ _ _ Hl (tpl_conc C E o HO n v cur (t_leaf C) Hc)).
    - rewrite (root_like_never C o HC), (app_assoc (quoted E n)). rewrite Forall_forall in IH.
      apply strips_app; [exact (lexes_to_strips E HE n [] _ _ _ Hh (tpl_conc C E o HO n [] cur (t_head C) Hc))|].
      apply strips_app; [|exact (lexes_to_strips E HE n [] _ _ _ Ht (tpl_conc C E o HO n [] cur (t_tail C) Hc))].
      apply strips_flat_map. intros k Hk. apply (IH k Hk), ws_tpl_render; assumption.
  Qed.

  Theorem strip_serialise_doc d : strip_blanks (serialise_doc C E o d) = canon_doc E d.
  Proof.
    destruct (cfg_parts C o HC) as (_ & _ & _ & _ & Hri & _). apply strips_all, strips_flat_map. intros k _.
    apply ser_node_strips, ws_tpl_render; [assumption.. | now apply ws_start].
  Qed.

  Theorem strip_serialise_node k : strip_blanks (serialise_node C E o k) = canon E k.
  Proof. apply strips_all, ser_node_strips. now apply ws_start. Qed.
End SerStrip.
