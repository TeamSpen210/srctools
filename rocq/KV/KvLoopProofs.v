(** C01 — the reference decision tree of the token loop (KV/KvLoopRef.v, = what the translator reads off
    [Keyvalues.parse] today) runs exactly like the hand-written token loop [prun] of KV/KvParse.v, on every token
    list, from every state, under every option vector, flag predicate and tokenizer ending.  Hence every theorem
    about [parse_kv_opts] holds of the parser given by any regenerated tree that equals the reference tree. *)
From Coq Require Import List NArith Bool Lia PeanoNat.
From SV Require Import KV.KvBase KV.KvParse KV.KvLoop KV.KvLoopRef.
Import ListNotations.

(** * Soundness of the decidable equality *)
Lemma tkind_eqb_eq a b : tkind_eqb a b = true -> a = b. Proof. destruct a, b; cbn; congruence. Qed.
Lemma bl_eqb_eq a b : bl_eqb a b = true -> a = b. Proof. destruct a, b; cbn; congruence. Qed.
Lemma optname_eqb_eq a b : optname_eqb a b = true -> a = b. Proof. destruct a, b; cbn; congruence. Qed.
Lemma atom_eqb_eq a b : atom_eqb a b = true -> a = b.
Proof.
  destruct a, b; cbn; try congruence; intro H.
  - apply andb_true_iff in H as [H1 H2]. apply Nat.eqb_eq in H1. apply tkind_eqb_eq in H2. congruence.
  - apply bl_eqb_eq in H; congruence.
  - apply optname_eqb_eq in H; congruence.
  - apply Nat.eqb_eq in H; congruence.
  - apply Nat.eqb_eq in H; congruence.
Qed.
Lemma sop_eqb_eq a b : sop_eqb a b = true -> a = b. Proof. destruct a, b; cbn; congruence. Qed.
Lemma perr_eqb_eq a b : perr_eqb a b = true -> a = b. Proof. destruct a, b; cbn; congruence. Qed.
Lemma pexit_eqb_eq a b : pexit_eqb a b = true -> a = b.
Proof. destruct a, b; cbn; try congruence. intro H; apply perr_eqb_eq in H; congruence. Qed.
Lemma opt_eqb_eq {A} (f : A -> A -> bool) (Hf : forall x y, f x y = true -> x = y) a b : opt_eqb f a b = true -> a = b.
Proof. destruct a, b; cbn; try congruence. intro H; apply Hf in H; congruence. Qed.
Lemma ptree_eqb_eq : forall t1 t2, ptree_eqb t1 t2 = true -> t1 = t2.
Proof.
  induction t1 as [a ta IHa1 tb IHa2|k IHa|k IHa|s ob oc u x]; intros t2; destruct t2; cbn; try congruence; intro H.
  - apply andb_true_iff in H as [H H3]. apply andb_true_iff in H as [H1 H2].
    apply atom_eqb_eq in H1. apply IHa1 in H2. apply IHa2 in H3. congruence.
  - apply IHa in H; congruence.
  - apply IHa in H; congruence.
  - apply andb_true_iff in H as [H Hx]. apply andb_true_iff in H as [H Hu]. apply andb_true_iff in H as [H Hc].
    apply andb_true_iff in H as [Hs Hb].
    apply sop_eqb_eq in Hs. apply (opt_eqb_eq _ bl_eqb_eq) in Hb. apply (opt_eqb_eq _ eqb_prop) in Hc.
    apply eqb_prop in Hu. apply pexit_eqb_eq in Hx. congruence.
Qed.

(** What one pass must achieve: it ends with the result [v] of the hand-written loop, or goes on from a state and a
    shorter token list on which the hand-written loop gives [v]. *)
Definition agrees P O flag_on fin (r : sres) (ts : list tok) (v : pres) : Prop :=
  match r with
  | SDone res => v = res
  | SCont s' rest => (length rest < length ts)%nat /\
      v = prun P O flag_on fin (m_stk s') (m_cur s') (m_b s') (m_cfr s') rest
  end.

(** * The reference tree, folded
    The translator inlines the rest of the loop body into every branch, so each compound test of [prun]
    ([key_bad], [value_bad], [sb_root]) shows as two tests and two copies of what follows. *)
Definition t_sb (op : sop) (c : option bool) (u : bool) : ptree :=
  PIf (AOpt OSingleBlock)
    (PIf ACurIsRoot (PLeaf op None None false XReturnKv) (PLeaf op None c u XContinue))
    (PLeaf op None c u XContinue).
(** [add_flagged]: [app] appends, [rep] replaces the last child when it has the same name and kind ([blk]: a block). *)
Definition t_add (blk : bool) (app rep : option bool -> ptree) : ptree :=
  PIf ACfr
    (PIf AHasChild
       (PIf ALastNameEq
          (PIf ALastIsBlock ((if blk then rep else app) (Some false)) ((if blk then app else rep) (Some false)))
          (app (Some false)))
       (app (Some false)))
    (app None).
Definition t_after_value : ptree :=
  PRead
    (PIf (ATok 2 KFlag)
       (PExpectNL
          (PIf (AFlagOn 2)
             (t_add false (fun c => t_sb SAppendLeaf c false) (fun c => t_sb SReplaceLeaf c false))
             (PLeaf SNone None None false XContinue)))
       (PIf (ATok 2 KStr)
          (PIf (AOpt OSingleLine) (PLeaf SAppendLeaf None None true XContinue)
             (PLeaf SNone None None false (XRaise EMultipleNames)))
          (t_sb SAppendLeaf (Some true) true))).
Definition t_value : ptree :=
  PIf (AOpt ONewlineValues) t_after_value
    (PIf (ABrk 1) (PLeaf SNone None None false (XRaise ENewlineValue)) t_after_value).
Definition t_after_key : ptree :=
  PRead
    (PIf (ATok 1 KFlag)
       (PExpectNL
          (PIf (AFlagOn 1)
             (t_add true (fun c => PLeaf SAppendBlock (Some BExpect) c false XContinue)
                (fun c => PLeaf SReplaceBlock (Some BExpect) c false XContinue))
             (PLeaf SNone (Some BSkip) None false XContinue)))
       (PIf (ATok 1 KStr) t_value (PLeaf SAppendBlock (Some BExpect) (Some false) true XContinue))).
Definition t_key : ptree :=
  PIf (AOpt ONewlineKeys) t_after_key (PIf (ABrk 0) (PLeaf SNone None None false (XRaise ENewlineKey)) t_after_key).

Section Ref.
  Variable P : parsecfg.
  Variable O : popts.
  Variable flag_on : str -> bool.
  Variable fin : option lexerr.
  (** Both emptiness guards are in the source (the reference tree has their branches). *)
  Hypothesis HG1 : p_replace_guard P = true.
  Hypothesis HG2 : p_single_block_guard P = true.

  (** One pass of the tree [T] after [n] tokens have been fetched = one unfolding of [prun]. *)
  Definition step_spec (T : ptree) (n : nat) (s : mstate) (ts : list tok) : Prop :=
    agrees P O flag_on fin (pstep P O flag_on fin T n s ts) ts
      (prun P O flag_on fin (m_stk s) (m_cur s) (m_b s) (m_cfr s) ts).

  Lemma rev_cons_nil {A} (x : A) l : rev (x :: l) = [] -> False.
  Proof. intro H; apply (f_equal (@length _)) in H; rewrite rev_length in H; discriminate. Qed.

  Lemma pstep_sb op c u n s ts : pstep P O flag_on fin (t_sb op c u) n s ts =
    if sb_root O (m_stk s) then apply_leaf op None None false XReturnKv n s ts else apply_leaf op None c u XContinue n s ts.
  Proof. cbn [pstep t_sb eval_atom opt_val]. unfold sb_root. destruct (po_single_block O), (m_stk s); reflexivity. Qed.

  (** [a or not b] is written with a second copy of what follows: so are [key_bad] and [value_bad]. *)
  Lemma pstep_unless a b t f n s ts : pstep P O flag_on fin (PIf a t (PIf b f t)) n s ts =
    if negb (eval_atom P O flag_on a s ts) && eval_atom P O flag_on b s ts
    then pstep P O flag_on fin f n s ts else pstep P O flag_on fin t n s ts.
  Proof. cbn [pstep]. destruct (eval_atom P O flag_on a s ts), (eval_atom P O flag_on b s ts); reflexivity. Qed.

  (* [prun] is unfolded exactly once (its body is one nested match whose recursive calls are on sub-lists);
     afterwards only the matches are reduced while their scrutinees are destructed one by one *)
  Ltac start := unfold step_spec; cbn [prun m_stk m_cur m_b m_cfr];
                unfold add_flagged, root_first, at_end, pfinal; rewrite ?HG1, ?HG2.
  Ltac crunch := cbn -[prun rev sb_root t_sb t_key]; rewrite ?pstep_sb.
  Ltac fin_ := solve [ reflexivity | split; [cbn; lia | reflexivity] | discriminate
                     | exfalso; match goal with H : rev (_ :: _) = [] |- _ => exact (rev_cons_nil _ _ H) end ].
  Ltac one :=
    match goal with
    | |- context [match ?x with _ => _ end] =>
        first [ is_var x; destruct x
              | lazymatch x with
                | context [match _ with _ => _ end] => fail
                | _ => destruct x eqn:?
                end ]
    end.
  Ltac go := crunch; try fin_; repeat (first [fin_ | one; crunch]).

  Lemma after_value_ok stk cur cfr n v r : key_bad P O n = false -> value_bad P O v = false ->
    step_spec t_after_value 2 {| m_stk := stk; m_cur := cur; m_b := BNone; m_cfr := cfr |} (TStr n :: TStr v :: r).
  Proof. intros Hn Hv. destruct cur as [cn cs]. start. rewrite Hn, Hv. unfold t_after_value, t_add. go. Qed.

  Lemma after_key_ok stk cur cfr n r : key_bad P O n = false ->
    step_spec t_after_key 1 {| m_stk := stk; m_cur := cur; m_b := BNone; m_cfr := cfr |} (TStr n :: r).
  Proof.
    intros Hn. destruct r as [|[v| | | |f|] r].
    2: { (* a value: [t_value] *)
      unfold step_spec, t_after_key. cbn [pstep nth_error eval_atom kind_of tkind_eqb]. unfold t_value.
      rewrite pstep_unless. change (negb _ && _) with (value_bad P O v). destruct (value_bad P O v) eqn:Hv.
      - cbn [pstep apply_leaf agrees prun m_stk m_cur m_b m_cfr]. now rewrite Hn, Hv.
      - exact (after_value_ok _ _ _ _ _ _ Hn Hv). }
    all: destruct cur as [cn cs]; start; rewrite Hn; unfold t_after_key, t_add; go.
  Qed.

  Lemma key_ok stk cur cfr n r :
    step_spec t_key 1 {| m_stk := stk; m_cur := cur; m_b := BNone; m_cfr := cfr |} (TStr n :: r).
  Proof.
    unfold step_spec, t_key. rewrite pstep_unless. change (negb _ && _) with (key_bad P O n). destruct (key_bad P O n) eqn:Hn.
    - cbn [pstep apply_leaf agrees prun m_stk m_cur m_b m_cfr]. now rewrite Hn.
    - exact (after_key_ok _ _ _ _ _ Hn).
  Qed.

  Lemma step_ok s t r : step_spec ref_ptree 1 s (t :: r).
  Proof.
    destruct s as [stk [cn cs] b cfr]; destruct t as [n| | | |f|]; destruct b.
    (* a key: the first tests of [ref_ptree] compute, and what they lead to is [t_key] written out *)
    1: exact (key_ok stk (cn, cs) cfr n r).
    all: start; unfold ref_ptree, sb_root; go.
  Qed.

  Lemma final_ok s : pstep P O flag_on fin ref_pfinal 0 s [] = SDone (pfinal (m_stk s) (m_cur s) (m_b s)).
  Proof. destruct s as [stk [cn cs] b cfr]; destruct b, stk; reflexivity. Qed.

  Theorem ploop_ref_is_prun : forall n s ts, (length ts < n)%nat ->
    ploop P O flag_on fin n ref_ptree ref_pfinal s ts
    = prun P O flag_on fin (m_stk s) (m_cur s) (m_b s) (m_cfr s) ts.
  Proof.
    induction n; intros s ts Hn; [lia|].
    destruct ts as [|t r].
    - cbn [ploop prun]. rewrite final_ok. unfold at_end. destruct fin; reflexivity.
    - cbn [ploop]. pose proof (step_ok s t r) as H. unfold step_spec in H.
      destruct (pstep P O flag_on fin ref_ptree 1 s (t :: r)) as [s' rest|res].
      + destruct H as [Hl ->]. apply IHn. cbn [length] in *. lia.
      + symmetry; exact H.
  Qed.
End Ref.

(** [Keyvalues.parse] as given by a tree equal to the reference tree = the hand-written token loop, on all inputs. *)
Theorem parse_tree_is_prun T F P : ptree_eqb T ref_ptree = true -> ptree_eqb F ref_pfinal = true ->
  p_replace_guard P = true -> p_single_block_guard P = true ->
  forall O flag_on tf, parse_toks_tree T F P O flag_on tf = parse_toks_opts P O flag_on tf.
Proof.
  intros HT HF H1 H2 O flag_on [ts fin]. apply ptree_eqb_eq in HT, HF. subst.
  unfold parse_toks_tree, parse_toks_opts. cbn [fst snd]. rewrite ploop_ref_is_prun by (assumption || (cbn; lia)). reflexivity.
Qed.

Corollary parse_kv_tree_is_parse_kv T F P : ptree_eqb T ref_ptree = true -> ptree_eqb F ref_pfinal = true ->
  p_replace_guard P = true -> p_single_block_guard P = true ->
  forall O E flag_on text, parse_kv_tree T F P O E flag_on text = parse_kv_opts P O E flag_on text.
Proof. intros; unfold parse_kv_tree, parse_kv_opts; apply parse_tree_is_prun; assumption. Qed.

(** The hypotheses are satisfiable. *)
Lemma ref_tree_eqb_refl : ptree_eqb ref_ptree ref_ptree = true /\ ptree_eqb ref_pfinal ref_pfinal = true.
Proof. split; vm_compute; reflexivity. Qed.
