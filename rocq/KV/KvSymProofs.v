(** C01 — soundness of the symbolic template lexer, and the token stream of a serialised tree:
    for every template configuration accepted by [cfg_ok], every escape table accepted by [esc_ok], all
    whitespace-only indent options and all trees, the tokenizer model turns the serialised text into
    [toks_doc d] and stops without an error. *)
From Coq Require Import List NArith Bool Lia.
From SV Require Import KV.KvBase KV.KvLex KV.KvSer KV.KvSym KV.KvLexProofs.
Import ListNotations.
Open Scope N_scope.

Definition fld (f : field) (n v : str) : str := match f with FName => n | FValue => v end.

(** What a symbolic token stands for in a node with name [n] and value [v]: as text, and as tokens. *)
Definition stok_text (E : escfg) (n v : str) (t : stok) : str :=
  match t with STStr f => DQ :: escape E (fld f n v) ++ [DQ] | SNL => [LF] | SBO => [123] | SBC => [125] end.
Definition inst (n v : str) (t : stok) : list tok :=
  [match t with STStr f => TStr (fld f n v) | SNL => TNL | SBO => TBO | SBC => TBC end].

(** [conc E n v sl s]: the concrete text [s] is an instance of the symbolic text [sl] for a node with name
    [n] and value [v]. *)
Inductive conc (E : escfg) (n v : str) : list schar -> str -> Prop :=
| conc_nil : conc E n v [] []
| conc_c c sl s : conc E n v sl s -> conc E n v (SC c :: sl) (c :: s)
| conc_w w sl s : ws_only w = true -> conc E n v sl s -> conc E n v (SW :: sl) (w ++ s)
| conc_e f sl s : conc E n v sl s -> conc E n v (SE f :: sl) (escape E (fld f n v) ++ s)
| conc_bad x sl s : conc E n v sl s -> conc E n v (SBad :: sl) (x ++ s).

Lemma conc_app E n v a x b y : conc E n v a x -> conc E n v b y -> conc E n v (a ++ b) (x ++ y).
Proof.
  induction 1; intros Hb; cbn [app]; rewrite <- ?app_assoc; try constructor; auto.
Qed.

Lemma conc_lit E n v s : conc E n v (map SC s) s.
Proof. induction s; cbn [map]; constructor; auto. Qed.
Lemma conc_w1 E n v w : ws_only w = true -> conc E n v [SW] w.
Proof. intros H. rewrite <- (app_nil_r w). constructor; [exact H | constructor]. Qed.
Lemma conc_e1 E n v f : conc E n v [SE f] (escape E (fld f n v)).
Proof. rewrite <- (app_nil_r (escape _ _)). constructor. constructor. Qed.
Lemma conc_bad1 E n v x : conc E n v [SBad] x.
Proof. rewrite <- (app_nil_r x). constructor. constructor. Qed.

Lemma render_brace_conc E n v ind t : ws_only ind = true ->
  conc E n v (sflat_brace t) (render E {| v_cur := []; v_indent := ind; v_open := []; v_close := [] |} [] [] t).
Proof.
  intros Hi. induction t as [|p t IH]; [constructor|].
  unfold sflat_brace, render in *. cbn [flat_map]. apply conc_app; [|exact IH].
  destruct p as [s|[]|f|f|]; cbn [render_piece var_val v_cur v_indent v_open v_close];
    try apply conc_lit; try apply conc_bad1; apply conc_w1; auto.
Qed.

Lemma render_conc E n v e ob cb t :
  ws_only (v_cur e) = true -> ws_only (v_indent e) = true ->
  conc E n v ob (v_open e) -> conc E n v cb (v_close e) ->
  conc E n v (sflat ob cb t) (render E e n v t).
Proof.
  intros Hc Hi Ho Hcl. induction t as [|p t IH]; [constructor|].
  unfold sflat, render in *. cbn [flat_map]. apply conc_app; [|exact IH].
  destruct p as [s|[]|[]|[]|]; cbn [render_piece sflat_piece var_val];
    try apply conc_lit; try apply conc_bad1; try (apply conc_w1; assumption); try assumption.
  - apply (conc_e1 E n v FName).
  - apply (conc_e1 E n v FValue).
Qed.

Lemma stoks_eqb_eq a : forall b, stoks_eqb a b = true -> a = b.
Proof.
  induction a as [|x a IH]; destruct b as [|y b]; cbn [stoks_eqb]; try discriminate; [reflexivity|].
  intros H. apply andb_true_iff in H as [H1 H2]. apply IH in H2. subst.
  destruct x as [[]| | |], y as [[]| | |]; try discriminate; reflexivity.
Qed.

(** * The symbolic lexer is sound for every reading of texts
    [R text x]: a way of reading texts that is closed under concatenation, does not see blanks, and takes the text of
    each symbolic token to [out] of it -- the tokenizer (below: the token), the blank stripper of KV/KvStrip.v (the
    text itself).  Such a reading takes an instance of a symbolic text to [out] of what [slex] makes of it. *)
Section Reading.
  Variables (E : escfg) (n v : str) (B : Type) (R : str -> list B -> Prop) (out : stok -> list B).
  Hypothesis R_nil : R [] [].
  Hypothesis R_app : forall a x b y, R a x -> R b y -> R (a ++ b) (x ++ y).
  Hypothesis R_ws : forall w, ws_only w = true -> R w [].
  Hypothesis R_tok : forall t, R (stok_text E n v t) (out t).

  (* by the length of [sl]: after a quote [slex] goes on three symbols further *)
  Lemma slex_reading : forall k sl, (length sl < k)%nat -> forall ts s,
    slex sl = Some ts -> conc E n v sl s -> R s (flat_map out ts).
  Proof.
    induction k as [|k IH]; intros sl Hk ts s Hs Hc; [lia|].
    destruct Hc as [|c r s' Hc'|w r s' Hw Hc'|f r s' Hc'|x r s' Hc']; cbn [slex length] in *; try discriminate.
    - injection Hs as <-. exact R_nil.
    - destruct (is_ws c) eqn:Hw.
      { apply (R_app [c] [] s'); [apply R_ws; cbn; now rewrite Hw | apply (IH r); [lia | exact Hs | exact Hc']]. }
      (* a character that is a token by itself *)
      assert (Htok : forall t, stok_text E n v t = [c] -> option_map (cons t) (slex r) = Some ts ->
                R (c :: s') (flat_map out ts)).
      { intros t Ht Hr. destruct (slex r) as [ts'|] eqn:Hr'; [|discriminate]. injection Hr as <-.
        change (R ([c] ++ s') (out t ++ flat_map out ts')). rewrite <- Ht.
        apply R_app; [apply R_tok | apply (IH r); [lia | exact Hr' | exact Hc']]. }
      destruct (c =? LF) eqn:E1; [apply N.eqb_eq in E1; subst; exact (Htok SNL eq_refl Hs)|].
      destruct (c =? 123) eqn:E2; [apply N.eqb_eq in E2; subst; exact (Htok SBO eq_refl Hs)|].
      destruct (c =? 125) eqn:E3; [apply N.eqb_eq in E3; subst; exact (Htok SBC eq_refl Hs)|].
      clear Htok.
      (* a quoted field *)
      destruct (c =? DQ) eqn:E4; [|discriminate]. apply N.eqb_eq in E4; subst c.
      destruct Hc' as [| | |f r2 s2 Hc2|]; try discriminate.
      destruct Hc2 as [|c2 r3 s3 Hc3| | |]; try discriminate.
      destruct (c2 =? DQ) eqn:E5; [|discriminate]. apply N.eqb_eq in E5; subst c2.
      destruct (slex r3) as [ts'|] eqn:Hr; [|discriminate]. injection Hs as <-.
      replace (DQ :: escape E (fld f n v) ++ DQ :: s3) with (stok_text E n v (STStr f) ++ s3)
        by (cbn [stok_text app]; now rewrite <- app_assoc).
      cbn [length] in Hk.
      apply (R_app _ (out (STStr f))); [apply R_tok | apply (IH r3); [lia | exact Hr | exact Hc3]].
    - apply (R_app w [] s'); [apply R_ws, Hw | apply (IH r); [lia | exact Hs | exact Hc']].
  Qed.

  Lemma lexes_to_reading sl want s : lexes_to sl want = true -> conc E n v sl s -> R s (flat_map out want).
  Proof.
    unfold lexes_to. destruct (slex sl) as [ts|] eqn:Hs; [|discriminate]. intros Heq Hc.
    apply stoks_eqb_eq in Heq. subst ts. exact (slex_reading _ sl (le_n _) want s Hs Hc).
  Qed.
End Reading.

Lemma lexes_to_sound E n v sl want s : esc_ok E = true ->
  lexes_to sl want = true -> conc E n v sl s -> lexes_any E s (flat_map (inst n v) want).
Proof.
  intros HE. apply (lexes_to_reading E n v tok (lexes_any E) (inst n v)).
  - intros l. exists l. apply lexes_nil.
  - apply lexes_any_app.
  - intros w Hw l. exists l. now apply lexes_ws.
  - intros [f| | |] l; eexists; [now apply lexes_quoted | apply lexes_lf | apply lexes_bo | apply lexes_bc].
Qed.

Lemma ws_only_app a b : ws_only (a ++ b) = ws_only a && ws_only b.
Proof. apply forallb_app. Qed.

Section SerLex.
  Variable C : sercfg.
  Variable E : escfg.
  Variable o : seropts.
  Hypothesis HC : cfg_ok C = true.
  Hypothesis HE : esc_ok E = true.
  Hypothesis HO : ws_opts o = true.

  Let ib := o_indent_braces o.

  Lemma ws_indent : ws_only (o_indent o) = true.
  Proof. unfold ws_opts in HO. now apply andb_true_iff in HO as [? _]. Qed.
  Lemma ws_start : ws_only (o_start o) = true.
  Proof. unfold ws_opts in HO. now apply andb_true_iff in HO as [_ ?]. Qed.

  Lemma cfg_parts :
    head_ok C ib = true /\ tail_ok C ib = true /\ leaf_ok C ib = true
    /\ child_indent_ok C = true /\ root_indent_ok C = true /\ root_test_ok C = true.
  Proof.
    unfold cfg_ok in HC. repeat (apply andb_true_iff in HC as [HC ?]).
    destruct ib; repeat split; assumption.
  Qed.

  Lemma tpl_conc n v cur t : ws_only cur = true ->
    conc E n v (s_tpl C ib t) (render E (mkenv C E o cur) n v t).
  Proof.
    intros Hc. apply render_conc; cbn [mkenv v_cur v_indent v_open v_close]; auto using ws_indent.
    - unfold open_brace, s_open, brace_env. fold ib. apply render_brace_conc, ws_indent.
    - unfold close_brace, s_close, brace_env. fold ib. apply render_brace_conc, ws_indent.
  Qed.

  Lemma ws_tpl_render n v cur t : ws_tpl t = true -> ws_only cur = true ->
    ws_only (render E (mkenv C E o cur) n v t) = true.
  Proof.
    intros Ht Hc. induction t as [|p t IH]; [reflexivity|].
    cbn [ws_tpl forallb] in Ht. apply andb_true_iff in Ht as [Hp Ht].
    unfold render in *. cbn [flat_map]. rewrite ws_only_app, (IH Ht), andb_true_r.
    destruct p as [s|[]|f|f|]; try discriminate; cbn [render_piece var_val mkenv v_cur v_indent]; auto using ws_indent.
  Qed.

  (** With the root test [is None] no named block is written as if it were the root. *)
  Lemma root_like_never n : root_like (t_root_test C) n = false.
  Proof.
    destruct cfg_parts as (_ & _ & _ & _ & _ & Hrt). unfold root_test_ok in Hrt.
    destruct (t_root_test C); try discriminate. reflexivity.
  Qed.

  Lemma ser_node_lexes : forall k cur, ws_only cur = true -> lexes_any E (ser_node C E o cur k) (toks k).
  Proof.
    destruct cfg_parts as (Hh & Ht & Hl & Hci & _ & _).
    induction k as [n v | n cs IH] using kv_ind'; intros cur Hc; cbn [ser_node toks].
    - exact (lexes_to_sound E n v _ _ _ HE Hl (tpl_conc n v cur (t_leaf C) Hc)).
    - rewrite root_like_never. rewrite Forall_forall in IH.
      apply lexes_any_app; [exact (lexes_to_sound E n [] _ _ _ HE Hh (tpl_conc n [] cur (t_head C) Hc))|].
      apply lexes_any_app; [|exact (lexes_to_sound E n [] _ _ _ HE Ht (tpl_conc n [] cur (t_tail C) Hc))].
      apply lexes_any_flat_map. intros k Hk. apply (IH k Hk), ws_tpl_render; assumption.
  Qed.

  Theorem lex_serialise_doc d : lex_all E (serialise_doc C E o d) = (toks_doc d, None).
  Proof.
    destruct cfg_parts as (_ & _ & _ & _ & Hri & _). apply lexes_any_all, lexes_any_flat_map. intros k _.
    apply ser_node_lexes, ws_tpl_render; [exact Hri | exact ws_start].
  Qed.

  Theorem lex_serialise_node k : lex_all E (serialise_node C E o k) = (toks k, None).
  Proof. apply lexes_any_all, ser_node_lexes, ws_start. Qed.
End SerLex.
