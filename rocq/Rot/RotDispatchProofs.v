(** C04 — soundness of the dispatch acceptance test: an accepted table row denotes, in the real-number model built
    from the generated formulas, exactly the specification product, and leaves the operands alone. *)
From Coq Require Import Reals List Bool.
From SV Require Import Rot.RotBase Gen.RotFormulas_gen Rot.RotEuler Rot.RotDispatch.
Import ListNotations.

Inductive value := VVec (v : vec) | VMat (m : mat) | VAng (a : ang).

Lemma term_eqb_eq : forall a b, term_eqb a b = true -> a = b.
Proof.
  induction a; destruct b; cbn; intro H; try discriminate; try reflexivity;
    repeat match goal with H : _ && _ = true |- _ => apply andb_prop in H; destruct H end;
    f_equal; auto.
Qed.

Lemma table_ok_parts : forall tbl, table_ok tbl = true ->
  (forall t, In t tbl -> triple_ok t = true /\ handled t = true /\ inplace_ok t = true) /\ covered tbl = true.
Proof.
  intros tbl H. unfold table_ok in H. rewrite !andb_true_iff, !forallb_forall in H.
  destruct H as [[[H1 H2] H3] H4]. split; [intros t Ht; auto | exact H3].
Qed.

Section Denote.
  Variable atan2 : R -> R -> R.

  Fixpoint denote (L R : value) (t : term) : option value :=
    match t with
    | TL => Some L
    | TR => Some R
    | TUninit => None
    | TFromAngle t => match denote L R t with Some (VAng a) => Some (VMat (from_angle_obj a)) | _ => None end
    | TToAngle t => match denote L R t with Some (VMat m) => Some (VAng (to_angle atan2 m)) | _ => None end
    | TMatMul a b =>
        match denote L R a, denote L R b with Some (VMat x), Some (VMat y) => Some (VMat (mat_mul x y)) | _, _ => None end
    | TMatMulSelf a => match denote L R a with Some (VMat x) => Some (VMat (mat_mul_self x)) | _ => None end
    | TVecRot v m =>
        match denote L R v, denote L R m with Some (VVec x), Some (VMat y) => Some (VVec (vec_rot y x)) | _, _ => None end
    end.

  Definition well_kinded (k : kind) (x : value) : Prop :=
    match k, x with KV, VVec _ | KA, VAng _ | KM, VMat _ => True | _, _ => False end.

  (** The specification, written directly with the model functions: the right operand acts as a matrix (an Angle
      through from_angle); a vector is rotated by it, a matrix is multiplied by it, an angle is converted to a
      matrix, multiplied and converted back. *)
  Definition rhs_mat (x : value) : option mat :=
    match x with VMat m => Some m | VAng a => Some (from_angle_obj a) | VVec _ => None end.
  Definition spec (L R : value) : option value :=
    match rhs_mat R with
    | None => None
    | Some m =>
      Some match L with
           | VVec v => VVec (vec_rot m v)
           | VMat x => VMat (mat_mul x m)
           | VAng a => VAng (to_angle atan2 (mat_mul (from_angle_obj a) m))
           end
    end.

  Lemma denote_expected : forall l r alias e L R,
    expected l r alias = Some e -> well_kinded (kind_of l) L -> well_kinded (kind_of r) R ->
    (alias = true -> R = L) ->
    denote L R e = spec L R /\ spec L R <> None.
  Proof.
    intros l r alias e L R He HL HR Hal. unfold expected in He.
    destruct alias.
    - rewrite (Hal eq_refl) in *. clear Hal.
      destruct (kind_of l), (kind_of r); try discriminate; destruct L; cbn in HL, HR; try contradiction;
        injection He as <-; cbn; split; (reflexivity || discriminate).
    - destruct (kind_of l), (kind_of r); try discriminate; destruct L, R; cbn in HL, HR; try contradiction;
        injection He as <-; cbn; split; (reflexivity || discriminate).
  Qed.

  (** What an accepted row means. *)
  Definition row_meaning (t : triple) : Prop :=
    forall e, expected (t_l t) (t_r t) (t_alias t) = Some e ->
    match t_out t with
    | ONone => t_form t = FRmatmul
    | OValue c i v fl fr =>
        kind_of c = kind_of (t_l t) /\
        forall L R, well_kinded (kind_of (t_l t)) L -> well_kinded (kind_of (t_r t)) R -> (t_alias t = true -> R = L) ->
          spec L R <> None /\
          denote L R v = spec L R /\
          match i with
          | IdFresh => denote L R fl = Some L /\ denote L R fr = Some R      (* neither operand was changed *)
          | IdL => t_form t = FImatmul /\ mutable (t_l t) = true /\ denote L R fl = spec L R /\
                   (t_alias t = false -> denote L R fr = Some R)             (* in place, right operand unchanged *)
          | IdR => False
          end
    end.

  Lemma kind_eqb_eq : forall a b, kind_eqb a b = true -> a = b.
  Proof. destruct a, b; cbn; congruence. Qed.
  Lemma form_eqb_eq : forall a b, form_eqb a b = true -> a = b.
  Proof. destruct a, b; cbn; congruence. Qed.

  Lemma triple_ok_sound : forall t, triple_ok t = true -> row_meaning t.
  Proof.
    intros t H e He. unfold triple_ok in H. rewrite He in H.
    destruct (t_out t) as [c i v fl fr|]; [|now apply form_eqb_eq].
    apply andb_prop in H as [H Hi]. apply andb_prop in H as [Hk Hv]. apply kind_eqb_eq in Hk. apply term_eqb_eq in Hv. subst v.
    split; [exact Hk|]. intros L R HL HR Hal.
    destruct (denote_expected _ _ _ _ L R He HL HR Hal) as [D N].
    split; [exact N|]. split; [exact D|].
    destruct i; [|discriminate|].
    - apply andb_prop in Hi as [Hi Hfr]. apply andb_prop in Hi as [Hi Hfl]. apply andb_prop in Hi as [Hf Hm].
      apply term_eqb_eq in Hfl, Hfr. subst fl.
      split; [now apply form_eqb_eq|]. split; [exact Hm|]. split; [exact D|].
      intro Ha. rewrite Ha in Hfr. rewrite Hfr. reflexivity.
    - apply andb_prop in Hi as [Hfl Hfr]. apply term_eqb_eq in Hfl, Hfr. subst fl fr.
      split; [reflexivity|]. destruct (t_alias t); cbn; [now rewrite Hal|reflexivity].
  Qed.

  Theorem dispatch_sound : forall tbl, table_ok tbl = true -> forall t, In t tbl -> row_meaning t.
  Proof.
    intros tbl H t Ht. apply triple_ok_sound, (table_ok_parts tbl H), Ht.
  Qed.

  (** The plain operators handle every supported pair, and the table is complete. *)
  Theorem dispatch_handled : forall tbl, table_ok tbl = true -> forall t, In t tbl ->
    expected (t_l t) (t_r t) (t_alias t) <> None -> t_form t <> FRmatmul -> t_out t <> ONone.
  Proof.
    intros tbl H0 t Ht He Hf. destruct (proj1 (table_ok_parts tbl H0) t Ht) as (_ & H & _). unfold handled in H.
    destruct (expected (t_l t) (t_r t) (t_alias t)); [|congruence].
    destruct (t_form t), (t_out t); congruence.
  Qed.

  Theorem dispatch_complete : forall tbl, table_ok tbl = true -> forall f l r,
    exists t, In t tbl /\ t_form t = f /\ t_l t = l /\ t_r t = r /\ t_alias t = false.
  Proof.
    intros tbl H0 f l r. pose proof (proj2 (table_ok_parts tbl H0)) as H. unfold covered in H.
    rewrite forallb_forall in H. assert (Hf : In f all_forms) by (destruct f; cbn; tauto).
    specialize (H f Hf). rewrite forallb_forall in H. assert (Hl : In l all_cls) by (destruct l; cbn; tauto).
    specialize (H l Hl). rewrite forallb_forall in H. assert (Hr : In r all_cls) by (destruct r; cbn; tauto).
    specialize (H r Hr). apply andb_prop in H as [H _]. apply existsb_exists in H as (t & Ht & K).
    exists t. split; [exact Ht|]. unfold key_match in K.
    apply andb_prop in K as [K Ka]. apply andb_prop in K as [K Kr]. apply andb_prop in K as [Kf Kl].
    repeat split.
    - symmetry. now apply form_eqb_eq.
    - destruct l, (t_l t); cbn in Kl; congruence.
    - destruct r, (t_r t); cbn in Kr; congruence.
    - destruct (t_alias t); cbn in Ka; congruence.
  Qed.

  (** Only the in-place form may return the left operand object. *)
  Lemma triple_ok_pure_fresh : forall t e c i v fl fr, triple_ok t = true ->
    expected (t_l t) (t_r t) (t_alias t) = Some e -> t_out t = OValue c i v fl fr -> t_form t <> FImatmul -> i = IdFresh.
  Proof.
    intros t e c i v fl fr H He Ho Hf. unfold triple_ok in H. rewrite He, Ho in H.
    apply andb_prop in H as [_ Hi]. destruct i; [|discriminate|reflexivity].
    exfalso. apply Hf, form_eqb_eq. repeat (apply andb_prop in Hi as [Hi _]). exact Hi.
  Qed.

  (** The in-place protocol.  For an accepted table, `l @= r` on a supported pair returns a value; when the class
      of [l] is mutable the object returned IS the left operand and its final value is the specification product (every
      alias of the receiver sees the product); when it is frozen or a tuple the result is a new object and the receiver
      keeps its value (no store). *)
  Definition inplace_meaning (t : triple) : Prop :=
    t_form t = FImatmul -> expected (t_l t) (t_r t) (t_alias t) <> None ->
    exists c i v fl fr, t_out t = OValue c i v fl fr /\
      i = (if mutable (t_l t) then IdL else IdFresh) /\
      forall L R, well_kinded (kind_of (t_l t)) L -> well_kinded (kind_of (t_r t)) R -> (t_alias t = true -> R = L) ->
        denote L R v = spec L R /\ spec L R <> None /\
        denote L R fl = (if mutable (t_l t) then spec L R else Some L).

  Theorem dispatch_inplace : forall tbl, table_ok tbl = true -> forall t, In t tbl -> inplace_meaning t.
  Proof.
    intros tbl H t Ht Hf He.
    pose proof (dispatch_sound tbl H t Ht) as S.
    pose proof (dispatch_handled tbl H t Ht He) as Hd.
    destruct (proj1 (table_ok_parts tbl H) t Ht) as (_ & _ & I). unfold inplace_ok in I. rewrite Hf in I.
    destruct (expected (t_l t) (t_r t) (t_alias t)) as [e|] eqn:Ee; [|congruence].
    specialize (S e Ee).
    destruct (t_out t) as [c i v fl fr|]; [|exfalso; apply Hd; [rewrite Hf; discriminate|reflexivity]].
    exists c, i, v, fl, fr. split; [reflexivity|].
    destruct S as [_ S].
    destruct i.
    - rewrite I. split; [reflexivity|]. intros L R HL HR Hal.
      destruct (S L R HL HR Hal) as (N & D & _ & _ & F & _). auto.
    - discriminate.
    - destruct (mutable (t_l t)); [discriminate|]. split; [reflexivity|]. intros L R HL HR Hal.
      destruct (S L R HL HR Hal) as (N & D & F & _). auto.
  Qed.

  (** The in-place variant denotes the same value as the pure one: for two rows of an accepted table that differ only in
      the form (`@` / `@=`), both return a value, the two values are equal in the model, and with a mutable receiver the
      receiver of `@=` ends up holding exactly the value `@` returns (while `@` leaves its receiver alone). *)
  Theorem inplace_agrees_with_pure : forall tbl, table_ok tbl = true -> forall t1 t2, In t1 tbl -> In t2 tbl ->
    t_form t1 = FMatmul -> t_form t2 = FImatmul -> t_l t1 = t_l t2 -> t_r t1 = t_r t2 -> t_alias t1 = t_alias t2 ->
    expected (t_l t2) (t_r t2) (t_alias t2) <> None ->
    exists c1 v1 fl1 fr1 c2 i2 v2 fl2 fr2,
      t_out t1 = OValue c1 IdFresh v1 fl1 fr1 /\ t_out t2 = OValue c2 i2 v2 fl2 fr2 /\
      i2 = (if mutable (t_l t2) then IdL else IdFresh) /\
      forall L R, well_kinded (kind_of (t_l t2)) L -> well_kinded (kind_of (t_r t2)) R -> (t_alias t2 = true -> R = L) ->
        denote L R v1 = denote L R v2 /\ denote L R fl1 = Some L /\
        denote L R fl2 = (if mutable (t_l t2) then denote L R v1 else Some L).
  Proof.
    intros tbl H t1 t2 H1 H2 F1 F2 El Er Ea He.
    destruct (dispatch_inplace tbl H t2 H2 F2 He) as (c2 & i2 & v2 & fl2 & fr2 & O2 & I2 & M2).
    pose proof (dispatch_sound tbl H t1 H1) as S1.
    assert (He1 : expected (t_l t1) (t_r t1) (t_alias t1) <> None) by (rewrite El, Er, Ea; exact He).
    pose proof (dispatch_handled tbl H t1 H1 He1) as Hd1.
    destruct (expected (t_l t1) (t_r t1) (t_alias t1)) as [e|] eqn:Ee; [|congruence].
    specialize (S1 e Ee).
    destruct (t_out t1) as [c1 i1 v1 fl1 fr1|] eqn:Eo; [|exfalso; apply Hd1; [rewrite F1; discriminate|reflexivity]].
    destruct S1 as [_ S1].
    assert (Hi : i1 = IdFresh).
    { eapply triple_ok_pure_fresh; [exact (proj1 (proj1 (table_ok_parts tbl H) t1 H1))|exact Ee|exact Eo|rewrite F1; discriminate]. }
    subst i1.
    exists c1, v1, fl1, fr1, c2, i2, v2, fl2, fr2. split; [reflexivity|]. split; [exact O2|]. split; [exact I2|].
    intros L R HL HR Hal.
    destruct (M2 L R HL HR Hal) as (D2 & N2 & Fl2).
    assert (HL1 : well_kinded (kind_of (t_l t1)) L) by (rewrite El; exact HL).
    assert (HR1 : well_kinded (kind_of (t_r t1)) R) by (rewrite Er; exact HR).
    assert (Hal1 : t_alias t1 = true -> R = L) by (rewrite Ea; exact Hal).
    destruct (S1 L R HL1 HR1 Hal1) as (_ & D1 & F1' & _).
    split; [congruence|]. split; [exact F1'|].
    rewrite Fl2. destruct (mutable (t_l t2)); congruence.
  Qed.
End Denote.

(** `x @ Angle` and `x @ Matrix.from_angle(Angle)` are the SAME computation, not merely equal over the reals.
    The terms of the table are interpreted over arbitrary carriers and arbitrary operations (in particular: triples / nonuples
    of IEEE binary64 numbers with the float versions of from_angle, _to_angle, _mat_mul, _vec_rot, whatever they round to).
    For an accepted table the value of the row with an Angle on the right is the value of the row with a Matrix on the right
    evaluated at [from_angle] of the angle - for every such interpretation, hence bit for bit. *)
Fixpoint subst_r (s t : term) : term :=
  match t with
  | TR => s
  | TL => TL
  | TUninit => TUninit
  | TFromAngle a => TFromAngle (subst_r s a)
  | TToAngle a => TToAngle (subst_r s a)
  | TMatMul a b => TMatMul (subst_r s a) (subst_r s b)
  | TMatMulSelf a => TMatMulSelf (subst_r s a)
  | TVecRot a b => TVecRot (subst_r s a) (subst_r s b)
  end.

Lemma expected_angle_operand : forall l ra rm, kind_of ra = KA -> kind_of rm = KM ->
  expected l ra false = option_map (subst_r (TFromAngle TR)) (expected l rm false).
Proof. intros l ra rm Ha Hm. unfold expected. rewrite Ha, Hm. destruct (kind_of l); reflexivity. Qed.

Section Generic.
  Variables (GV GM GA : Type).
  Variables (g_from_angle : GA -> GM) (g_to_angle : GM -> GA) (g_mat_mul : GM -> GM -> GM) (g_mat_mul_self : GM -> GM)
            (g_vec_rot : GM -> GV -> GV).
  Inductive gvalue := GVec (v : GV) | GMat (m : GM) | GAng (a : GA).

  Fixpoint gdenote (L R : gvalue) (t : term) : option gvalue :=
    match t with
    | TL => Some L
    | TR => Some R
    | TUninit => None
    | TFromAngle t => match gdenote L R t with Some (GAng a) => Some (GMat (g_from_angle a)) | _ => None end
    | TToAngle t => match gdenote L R t with Some (GMat m) => Some (GAng (g_to_angle m)) | _ => None end
    | TMatMul a b =>
        match gdenote L R a, gdenote L R b with Some (GMat x), Some (GMat y) => Some (GMat (g_mat_mul x y)) | _, _ => None end
    | TMatMulSelf a => match gdenote L R a with Some (GMat x) => Some (GMat (g_mat_mul_self x)) | _ => None end
    | TVecRot v m =>
        match gdenote L R v, gdenote L R m with Some (GVec x), Some (GMat y) => Some (GVec (g_vec_rot y x)) | _, _ => None end
    end.

  Lemma gdenote_subst_r : forall L R s x t, gdenote L R s = Some x -> gdenote L R (subst_r s t) = gdenote L x t.
  Proof. intros L R s x t Hs. induction t; cbn; try rewrite IHt; try rewrite IHt1, IHt2; auto. Qed.

  Theorem angle_operand_same_computation : forall tbl, table_ok tbl = true -> forall t1 t2, In t1 tbl -> In t2 tbl ->
    t_form t1 = t_form t2 -> t_l t1 = t_l t2 -> kind_of (t_r t1) = KA -> kind_of (t_r t2) = KM ->
    t_alias t1 = false -> t_alias t2 = false ->
    forall c1 i1 v1 fl1 fr1 c2 i2 v2 fl2 fr2,
      t_out t1 = OValue c1 i1 v1 fl1 fr1 -> t_out t2 = OValue c2 i2 v2 fl2 fr2 ->
      forall L a, gdenote L (GAng a) v1 = gdenote L (GMat (g_from_angle a)) v2.
  Proof.
    intros tbl H t1 t2 H1 H2 Ef El Ka Km A1 A2 c1 i1 v1 fl1 fr1 c2 i2 v2 fl2 fr2 O1 O2 L a.
    destruct (proj1 (table_ok_parts tbl H) t1 H1) as [T1 _]. destruct (proj1 (table_ok_parts tbl H) t2 H2) as [T2 _].
    unfold triple_ok in T1, T2. rewrite O1, A1 in T1. rewrite O2, A2 in T2.
    rewrite (expected_angle_operand (t_l t1) (t_r t1) (t_r t2) Ka Km), El in T1.
    destruct (expected (t_l t2) (t_r t2) false) as [e|] eqn:Ee; cbn [option_map] in T1.
    - apply andb_prop in T1 as [T1 _]. apply andb_prop in T1 as [_ V1]. apply term_eqb_eq in V1.
      apply andb_prop in T2 as [T2 _]. apply andb_prop in T2 as [_ V2]. apply term_eqb_eq in V2.
      subst v1 v2. apply gdenote_subst_r. reflexivity.
    - (* a Matrix on the right is always a supported pair *)
      unfold expected in Ee. rewrite Km in Ee. destruct (kind_of (t_l t2)); discriminate.
  Qed.
End Generic.
