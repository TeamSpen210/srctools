(** C04 — the SHAPE of the pivot searches of MatrixBase.inverse, read from the source by a tolerant reader
    (translate/c04_inverse.py: pivot_shapes -> Gen/RotPivot_gen.v), and what the accepted shapes guarantee.

    The Gauss-Jordan program language of Rot/RotGJ.v knows one pivot idiom: the largest value so far starts from a constant, the
    pivot row from a sentinel, and "no pivot" is the sentinel surviving the search.  A search written differently (seeded fault
    c04_6: the pivot row starts as the diagonal row, the largest value so far as the SIGNED diagonal entry, "no pivot" is
    `la == 0.0`) makes the program translator fail closed.  This file gives such shapes a meaning of their own - a search over the
    list of candidate entries of the column, diagonal row first - so that the decisive property of a pivot search is a named,
    decidable obligation: IF SOME CANDIDATE ENTRY IS NOT ZERO, THE SEARCH SELECTS A ROW WHOSE ENTRY IS NOT ZERO (it does not report
    "no inverse", and the division by the pivot is defined).  The signed-seed shape is refuted by the column (-1, 0, 0). *)
From Coq Require Import Reals List Lra Lia.
Import ListNotations.
Open Scope R_scope.

Inductive pv_cmp := PGt | PGe | PLt | PLe.
Inductive pv_seed :=
  | SeedSentinel (init_is_zero : bool)   (* la = <constant>; pivrow = <not a row>;   the search scans every candidate *)
  | SeedRow (signed : bool)              (* pivrow = n; la = L[n][col] (signed) or abs(L[n][col]); the search scans the others *)
  | SeedOther.
Inductive pv_miss :=
  | MissSentinel        (* raise when the pivot row still is the sentinel *)
  | MissValueZero       (* raise when the largest value so far is (equal to) zero *)
  | MissOther.
Record pivot_shape := PivotShape { ps_cmp : pv_cmp; ps_seed : pv_seed; ps_miss : pv_miss }.

Definition pv_cmpb (c : pv_cmp) (a b : R) : bool :=
  match c with
  | PGt => if Rlt_dec b a then true else false
  | PGe => if Rle_dec b a then true else false
  | PLt => if Rlt_dec a b then true else false
  | PLe => if Rle_dec a b then true else false
  end.

(** for m in rows: va = abs(L[m][col]); if va `cmp` la: pivrow = m; la = va      ([k] = index of the first entry of [es]) *)
Fixpoint pv_scan (c : pv_cmp) (es : list R) (k : nat) (la : R) (piv : option nat) : R * option nat :=
  match es with
  | [] => (la, piv)
  | e :: rest => if pv_cmpb c (Rabs e) la then pv_scan c rest (S k) (Rabs e) (Some k) else pv_scan c rest (S k) la piv
  end.

(** The whole search on the candidate entries [es] (diagonal row first): the selected index, or None = "no inverse". *)
Definition pv_search (s : pivot_shape) (es : list R) : option nat :=
  let start :=
    match ps_seed s, es with
    | SeedSentinel _, _ => Some (pv_scan (ps_cmp s) es 0 0 None)
    | SeedRow signed, e :: rest => Some (pv_scan (ps_cmp s) rest 1 (if signed then e else Rabs e) (Some 0%nat))
    | _, _ => None
    end in
  match start with
  | None => None
  | Some (la, piv) =>
      match ps_miss s with
      | MissSentinel => piv
      | MissValueZero => if Req_EM_T la 0 then None else piv
      | MissOther => None
      end
  end.

(** The acceptance test: largest-absolute-value search from (0, sentinel) with the sentinel test, or from the ABSOLUTE value of the
    diagonal entry with either test. *)
Definition pv_shape_ok (s : pivot_shape) : bool :=
  match ps_cmp s, ps_seed s, ps_miss s with
  | PGt, SeedSentinel true, MissSentinel => true
  | PGt, SeedRow false, MissValueZero => true
  | PGt, SeedRow false, MissSentinel => true
  | _, _, _ => false
  end.
(** Named parts (each necessary for [pv_shape_ok]). *)
Definition pv_cmp_ok (s : pivot_shape) : bool := match ps_cmp s with PGt => true | _ => false end.
Definition pv_seed_ok (s : pivot_shape) : bool :=
  match ps_seed s with SeedSentinel true => true | SeedRow false => true | _ => false end.
Definition pv_miss_ok (s : pivot_shape) : bool :=
  match ps_seed s, ps_miss s with
  | SeedSentinel _, MissSentinel => true
  | SeedRow _, MissSentinel => true
  | SeedRow _, MissValueZero => true
  | _, _ => false
  end.
Definition pv_shapes_ok (l : list pivot_shape) : bool := forallb pv_shape_ok l && negb (match l with [] => true | _ => false end).

(** Invariant of the scan with `>` over the candidates [pre ++ es], [pre] already scanned: the largest value so far bounds
    the scanned entries and, once positive, is |entry| of the selected row. *)
Lemma pv_scan_gt_spec : forall es pre la piv la' piv',
  pv_scan PGt es (length pre) la piv = (la', piv') -> 0 <= la ->
  (forall e, In e pre -> Rabs e <= la) ->
  (0 < la -> exists i, piv = Some i /\ (i < length (pre ++ es))%nat /\ Rabs (nth i (pre ++ es) 0) = la) ->
  (forall e, In e (pre ++ es) -> Rabs e <= la') /\
  (0 < la' -> exists i, piv' = Some i /\ (i < length (pre ++ es))%nat /\ Rabs (nth i (pre ++ es) 0) = la').
Proof.
  induction es as [|e rest IH]; intros pre la piv la' piv' H Hla Hpre Hpiv; cbn [pv_scan] in H.
  - injection H as <- <-. rewrite app_nil_r in *. split; assumption.
  - replace (S (length pre)) with (length (pre ++ [e])) in H by (rewrite app_length; cbn; lia).
    replace (pre ++ e :: rest) with ((pre ++ [e]) ++ rest) in * by (rewrite <- app_assoc; reflexivity).
    unfold pv_cmpb in H. destruct (Rlt_dec la (Rabs e)) as [Hlt|Hge].
    + apply (IH _ _ _ _ _ H (Rabs_pos e)).
      * intros x Hx. apply in_app_or in Hx as [Hx|[<-|[]]]; [specialize (Hpre x Hx)|]; lra.
      * intros _. exists (length pre). split; [reflexivity|]. rewrite !app_length. cbn [length]. split; [lia|].
        rewrite <- app_assoc, app_nth2, Nat.sub_diag by lia. reflexivity.
    + apply (IH _ _ _ _ _ H Hla); [|exact Hpiv].
      intros x Hx. apply in_app_or in Hx as [Hx|[<-|[]]]; [apply Hpre, Hx | lra].
Qed.

(** After a scan of all candidates, one of which is not zero: the selected row is a largest entry, and not zero. *)
Lemma pv_scan_found : forall es la' (piv' : option nat),
  (forall e, In e es -> Rabs e <= la') ->
  (0 < la' -> exists i, piv' = Some i /\ (i < length es)%nat /\ Rabs (nth i es 0) = la') ->
  (exists e, In e es /\ e <> 0) ->
  la' <> 0 /\ exists i, piv' = Some i /\ (i < length es)%nat /\ nth i es 0 <> 0 /\ forall e, In e es -> Rabs e <= Rabs (nth i es 0).
Proof.
  intros es la' piv' Hmax Hpiv (e1 & He1 & Hne).
  assert (P : 0 < la') by (pose proof (Rabs_pos_lt e1 Hne); pose proof (Hmax e1 He1); lra).
  destruct (Hpiv P) as (i & -> & Hi & Hn). split; [lra|]. exists i. rewrite Hn. repeat split; try assumption.
  intro Z. rewrite Z, Rabs_R0 in Hn. lra.
Qed.

(** An accepted shape: if some candidate entry is not zero, the search selects a row (it does not report "no inverse"), the
    selected entry is not zero and is largest in absolute value. *)
Theorem pv_shape_ok_finds_nonzero_pivot : forall s es, pv_shape_ok s = true -> (exists e, In e es /\ e <> 0) ->
  exists i, pv_search s es = Some i /\ (i < length es)%nat /\ nth i es 0 <> 0 /\ forall e, In e es -> Rabs e <= Rabs (nth i es 0).
Proof.
  intros [c sd ms] es OK NZ. unfold pv_shape_ok in OK. cbn [ps_cmp ps_seed ps_miss] in OK.
  destruct c; try discriminate. unfold pv_search; cbn [ps_cmp ps_seed ps_miss].
  destruct sd as [[|]|[|]|]; try discriminate.
  - (* from zero and a sentinel *)
    destruct ms; try discriminate. destruct (pv_scan PGt es 0 0 None) as [la' piv'] eqn:E.
    apply (pv_scan_gt_spec es []) in E as [Hmax Hpiv]; [|lra | intros e [] | lra].
    apply (pv_scan_found es la' piv' Hmax Hpiv NZ).
  - (* from the absolute value of the diagonal entry *)
    destruct es as [|e0 rest]; [destruct NZ as (e & [] & _)|].
    destruct (pv_scan PGt rest 1 (Rabs e0) (Some 0%nat)) as [la' piv'] eqn:E.
    apply (pv_scan_gt_spec rest [e0]) in E as [Hmax Hpiv]; [|apply Rabs_pos | intros e [<-|[]]; lra|].
    2:{ intros _. exists 0%nat. cbn. split; [reflexivity|]. split; [lia | reflexivity]. }
    destruct (pv_scan_found (e0 :: rest) la' piv' Hmax Hpiv NZ) as [Hla R].
    destruct ms; try discriminate; [exact R|]. destruct (Req_EM_T la' 0); [contradiction | exact R].
Qed.

(** The rejected shape (seeded fault c04_6): the largest value so far starts as the SIGNED diagonal entry.  For the column
    (-1, 0, 0) - a right-angle rotation - the zero entries below "beat" -1, the search ends with la = 0 and reports "no inverse",
    although the diagonal entry is a perfectly good pivot. *)
Definition signed_seed_shape : pivot_shape := PivotShape PGt (SeedRow true) MissValueZero.
Theorem signed_seed_refuted :
  pv_shape_ok signed_seed_shape = false /\ pv_search signed_seed_shape [-1; 0; 0] = None /\ In (-1) [-1; 0; 0] /\ -1 <> 0.
Proof.
  split; [reflexivity|]. split; [|split; [left; reflexivity | lra]].
  unfold pv_search, signed_seed_shape. cbn [ps_cmp ps_seed ps_miss pv_scan pv_cmpb]. rewrite Rabs_R0.
  destruct (Rlt_dec (-1) 0); [|lra]. destruct (Rlt_dec 0 0); [lra|]. destruct (Req_EM_T 0 0); [reflexivity | lra].
Qed.

(** Non-vacuity: today's shape (from zero and a sentinel) is accepted and selects the diagonal row of the identity column. *)
Example sentinel_shape_accepted :
  pv_shape_ok (PivotShape PGt (SeedSentinel true) MissSentinel) = true /\
  pv_search (PivotShape PGt (SeedSentinel true) MissSentinel) [1; 0; 0] = Some 0%nat.
Proof.
  split; [reflexivity|]. unfold pv_search. cbn [ps_cmp ps_seed ps_miss pv_scan pv_cmpb]. rewrite Rabs_R1, Rabs_R0.
  destruct (Rlt_dec 0 1); [|lra]. destruct (Rlt_dec 1 0); [lra|]. reflexivity.
Qed.
