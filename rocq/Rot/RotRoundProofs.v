(** C04 — soundness of the running error analysis of Rot/RotRound.v, for every expression tree and every rounding
    with |rnd t - t| <= u |t| + eta (by induction over the tree). *)
From Coq Require Import List Reals Qreals Psatz.
From SV Require Import Rot.RotRound.
Import ListNotations.
Local Open Scope R_scope.

Lemma Q2R_0' : Q2R 0 = 0.
Proof. unfold Q2R; cbn. lra. Qed.
Lemma Q2R_1' : Q2R 1 = 1.
Proof. unfold Q2R; cbn. lra. Qed.
Lemma Qle_bool_R : forall x y, Qle_bool x y = true -> Q2R x <= Q2R y.
Proof. intros x y H. apply Qle_Rle, Qle_bool_iff, H. Qed.

Section Round.
  Variable rnd : R -> R.
  Variables u eta : Q.
  Hypothesis Hrnd : forall t, Rabs (rnd t - t) <= Q2R u * Rabs t + Q2R eta.
  Hypothesis Hu : 0 <= Q2R u.

  Lemma rnd_step : forall x t M E, Rabs t <= M -> Rabs (x - t) <= E ->
    Rabs (rnd x - t) <= E + Q2R u * (M + E) + Q2R eta.
  Proof.
    intros x t M E Ht Hx.
    assert (Hx2 : Rabs x <= M + E).
    { replace x with (t + (x - t)) by ring. eapply Rle_trans; [apply Rabs_triang|lra]. }
    replace (rnd x - t) with ((rnd x - x) + (x - t)) by ring.
    eapply Rle_trans; [apply Rabs_triang|].
    pose proof (Hrnd x) as H.
    assert (Q2R u * Rabs x <= Q2R u * (M + E)) by (apply Rmult_le_compat_l; assumption).
    lra.
  Qed.

  Lemma add_step : forall fa fb a b Ma Mb Ea Eb,
    Rabs a <= Ma -> Rabs b <= Mb -> Rabs (fa - a) <= Ea -> Rabs (fb - b) <= Eb ->
    Rabs (a + b) <= Ma + Mb /\ Rabs (fa + fb - (a + b)) <= Ea + Eb.
  Proof.
    intros fa fb a b Ma Mb Ea Eb Ha Hb Hfa Hfb. split; [eapply Rle_trans; [apply Rabs_triang|lra]|].
    replace (fa + fb - (a + b)) with ((fa - a) + (fb - b)) by ring. eapply Rle_trans; [apply Rabs_triang|lra].
  Qed.

  Lemma mul_step : forall fa fb a b Ma Mb Ea Eb,
    Rabs a <= Ma -> Rabs b <= Mb -> Rabs (fa - a) <= Ea -> Rabs (fb - b) <= Eb ->
    Rabs (a * b) <= Ma * Mb /\ Rabs (fa * fb - a * b) <= Ma * Eb + Mb * Ea + Ea * Eb.
  Proof.
    intros fa fb a b Ma Mb Ea Eb Ha Hb Hfa Hfb.
    pose proof (Rabs_pos a). pose proof (Rabs_pos b). pose proof (Rabs_pos (fa - a)). pose proof (Rabs_pos (fb - b)).
    split.
    - rewrite Rabs_mult. apply Rmult_le_compat; assumption.
    - replace (fa * fb - a * b) with (a * (fb - b) + b * (fa - a) + (fa - a) * (fb - b)) by ring.
      eapply Rle_trans; [apply Rabs_triang|]. eapply Rle_trans; [apply Rplus_le_compat_r, Rabs_triang|].
      rewrite !Rabs_mult.
      assert (Rabs a * Rabs (fb - b) <= Ma * Eb) by (apply Rmult_le_compat; assumption).
      assert (Rabs b * Rabs (fa - a) <= Mb * Ea) by (apply Rmult_le_compat; assumption).
      assert (Rabs (fa - a) * Rabs (fb - b) <= Ea * Eb) by (apply Rmult_le_compat; assumption).
      lra.
  Qed.

  (** The analysis with inexact inputs: the rounded evaluation runs on [env'], within [E] of [env]. *)
  Theorem fe_error_bound_in : forall (B E : nat -> Q) (env env' : nat -> R),
    (forall n, Rabs (env n) <= Q2R (B n)) -> (forall n, Rabs (env' n - env n) <= Q2R (E n)) ->
    forall e, Rabs (fe_exact env e) <= Q2R (fe_mag B e) /\
              Rabs (fe_fl rnd env' e - fe_exact env e) <= Q2R (fe_err_in u eta B E e).
  Proof.
    intros B E env env' HB HE. induction e as [n|a IHa|a IHa b IHb|a IHa b IHb|a IHa b IHb]; cbn [fe_exact fe_fl fe_mag fe_err_in].
    - split; [apply HB | apply HE].
    - destruct IHa as [Ha1 Ha2]. split.
      + rewrite Rabs_Ropp; assumption.
      + replace (- fe_fl rnd env' a - - fe_exact env a) with (- (fe_fl rnd env' a - fe_exact env a)) by ring.
        rewrite Rabs_Ropp; assumption.
    - destruct IHa as [Ha1 Ha2], IHb as [Hb1 Hb2].
      destruct (add_step _ _ _ _ _ _ _ _ Ha1 Hb1 Ha2 Hb2) as [Hm He].
      split; [rewrite Q2R_plus; exact Hm|].
      repeat (rewrite Q2R_plus || rewrite Q2R_mult). apply rnd_step; assumption.
    - (* a - b is a + - b, and negation is exact *)
      destruct IHa as [Ha1 Ha2], IHb as [Hb1 Hb2]. rewrite <- Rabs_Ropp in Hb1, Hb2.
      replace (- (fe_fl rnd env' b - fe_exact env b)) with (- fe_fl rnd env' b - - fe_exact env b) in Hb2 by ring.
      destruct (add_step _ _ _ _ _ _ _ _ Ha1 Hb1 Ha2 Hb2) as [Hm He].
      split; [rewrite Q2R_plus; exact Hm|].
      repeat (rewrite Q2R_plus || rewrite Q2R_mult). apply rnd_step; assumption.
    - destruct IHa as [Ha1 Ha2], IHb as [Hb1 Hb2].
      destruct (mul_step _ _ _ _ _ _ _ _ Ha1 Hb1 Ha2 Hb2) as [Hm He].
      split; [rewrite Q2R_mult; exact Hm|].
      repeat (rewrite Q2R_plus || rewrite Q2R_mult).
      pose proof (rnd_step _ _ _ _ Hm He) as H.
      replace ((Q2R (fe_mag B a) + Q2R (fe_err_in u eta B E a)) * (Q2R (fe_mag B b) + Q2R (fe_err_in u eta B E b)))
        with (Q2R (fe_mag B a) * Q2R (fe_mag B b) +
              (Q2R (fe_mag B a) * Q2R (fe_err_in u eta B E b) + Q2R (fe_mag B b) * Q2R (fe_err_in u eta B E a) +
               Q2R (fe_err_in u eta B E a) * Q2R (fe_err_in u eta B E b))) by ring.
      exact H.
  Qed.

  (** The analysis is sound: for all inputs within the bounds, the exact value is within [fe_mag] and the rounded
      evaluation is within [fe_err] of it.  Exact inputs are inputs known within 0. *)
  Lemma fe_err_as_in : forall B e, fe_err u eta B e = fe_err_in u eta B (fun _ => 0%Q) e.
  Proof. intros B e. induction e; cbn [fe_err fe_err_in]; congruence. Qed.

  Theorem fe_error_bound : forall (B : nat -> Q) (env : nat -> R),
    (forall n, Rabs (env n) <= Q2R (B n)) ->
    forall e, Rabs (fe_exact env e) <= Q2R (fe_mag B e) /\
              Rabs (fe_fl rnd env e - fe_exact env e) <= Q2R (fe_err u eta B e).
  Proof.
    intros B env HB e. rewrite fe_err_as_in. apply fe_error_bound_in; [exact HB|].
    intro n. replace (env n - env n) with 0 by ring. rewrite Rabs_R0, Q2R_0'. apply Rle_refl.
  Qed.
End Round.
