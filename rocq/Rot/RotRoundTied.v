(** C04 — the reified expression trees of Gen/RotRounded_gen.v ARE the generated real formulas; the binary64 error bound
    of from_angle. *)
From Coq Require Import List Reals Qreals Lra.
From SV Require Import Rot.RotBase Rot.RotRound Rot.RotRoundProofs Rot.RotRoundFlocq Rot.RotAlgebra
  Gen.RotFormulas_gen Gen.RotRounded_gen.
Import ListNotations.
Local Open Scope R_scope.

(** The inputs of the trees: slots of self (0..8), slots of other (9..17), vector components (18..20). *)
Definition env_sov (s o : mat) (v : vec) (n : nat) : R :=
  match n with
  | 0 => aa s | 1 => ab s | 2 => ac s | 3 => ba s | 4 => bb s | 5 => bc s | 6 => ca s | 7 => cb s | 8 => cc s
  | 9 => aa o | 10 => ab o | 11 => ac o | 12 => ba o | 13 => bb o | 14 => bc o | 15 => ca o | 16 => cb o | 17 => cc o
  | 18 => vx v | 19 => vy v | _ => vz v
  end%nat.

Ltac tie := intros; cbn; repeat (apply f_equal2; [ring|]); reflexivity.

(** Exact evaluation of the trees gives the components of [vec_rot] / the entries of [mat_mul] (the objects of every
    algebraic theorem of Props/C04.v). *)
Lemma vec_rot_fe_tied : forall s o v,
  map (fe_exact (env_sov s o v)) vec_rot_fe = [vx (vec_rot s v); vy (vec_rot s v); vz (vec_rot s v)].
Proof. tie. Qed.
Lemma mat_mul_fe_tied : forall s o v,
  map (fe_exact (env_sov s o v)) mat_mul_fe =
  let m := mat_mul s o in [aa m; ab m; ac m; ba m; bb m; bc m; ca m; cb m; cc m].
Proof. tie. Qed.

Definition vec_within (bv : Q) (v : vec) : Prop := Rabs (vx v) <= Q2R bv /\ Rabs (vy v) <= Q2R bv /\ Rabs (vz v) <= Q2R bv.
Definition mat_within (bm : Q) (m : mat) : Prop :=
  Rabs (aa m) <= Q2R bm /\ Rabs (ab m) <= Q2R bm /\ Rabs (ac m) <= Q2R bm /\ Rabs (ba m) <= Q2R bm /\ Rabs (bb m) <= Q2R bm /\
  Rabs (bc m) <= Q2R bm /\ Rabs (ca m) <= Q2R bm /\ Rabs (cb m) <= Q2R bm /\ Rabs (cc m) <= Q2R bm.
Lemma env_bounded : forall s o v bm bv, mat_within bm s -> mat_within bm o -> vec_within bv v ->
  forall n, Rabs (env_sov s o v n) <= Q2R (bounds bm bv n).
Proof.
  intros s o v bm bv (S1 & S2 & S3 & S4 & S5 & S6 & S7 & S8 & S9) (O1 & O2 & O3 & O4 & O5 & O6 & O7 & O8 & O9) (V1 & V2 & V3) n.
  unfold bounds.
  do 18 (destruct n as [|n]; [cbn [env_sov Nat.ltb Nat.leb]; assumption|]).
  destruct n as [|[|n]]; cbn [env_sov Nat.ltb Nat.leb]; assumption.
Qed.

(** A bound for every tree of a list is a bound for every position of the two lists of values. *)
Lemma nth_map_within : forall (f g : fexpr -> R) es tol, (forall e, In e es -> Rabs (f e - g e) <= tol) ->
  forall i, (i < length es)%nat -> Rabs (nth i (map f es) 0 - nth i (map g es) 0) <= tol.
Proof.
  intros f g es tol H i Hi.
  rewrite (nth_indep _ 0 (f (FVar 0))), (nth_indep (map g es) 0 (g (FVar 0))) by (rewrite map_length; exact Hi).
  rewrite !map_nth. apply H, nth_In, Hi.
Qed.

Lemma vec_within_0 : vec_within 0 (Vec3 0 0 0).
Proof. unfold vec_within; cbn [vx vy vz]. rewrite Rabs_R0, Q2R_0'. lra. Qed.

(** Non-vacuity: trees of the shape of today's are accepted with room to spare: 1e-15 for unit inputs. *)
Example errs_within_example :
  errs_within 1 1 (1 # 1000000000000000)
    [FAdd (FAdd (FMul (FVar 18) (FVar 0)) (FMul (FVar 19) (FVar 3))) (FMul (FVar 20) (FVar 6))] = true.
Proof. vm_compute. reflexivity. Qed.

(** ** from_angle: the arithmetic over libm's sin / cos values *)
Lemma from_angle_fe_tied : forall p y r,
  map (fe_exact (from_angle_inputs p y r)) from_angle_fe =
  let m := from_angle p y r in [aa m; ab m; ac m; ba m; bb m; bc m; ca m; cb m; cc m].
Proof. tie. Qed.

Lemma sin_cos_le1 : forall t, Rabs (sin t) <= 1 /\ Rabs (cos t) <= 1.
Proof. intro t. pose proof (SIN_bound t). pose proof (COS_bound t). split; apply Rabs_le; lra. Qed.

(** Every input is a sine or a cosine (the translator admits nothing else as an input), hence bounded by 1. *)
Lemma from_angle_inputs_le1 : forall p y r n, Rabs (from_angle_inputs p y r n) <= Q2R 1.
Proof.
  intros p y r n. rewrite Q2R_1'. unfold from_angle_inputs.
  repeat (destruct n as [|n]; [first [apply (proj1 (sin_cos_le1 _)) | apply (proj2 (sin_cos_le1 _))]|]).
  first [apply (proj1 (sin_cos_le1 _)) | apply (proj2 (sin_cos_le1 _))].
Qed.

(** Matrix.from_angle in binary64 against the exact rotation [from_angle p y r]: if the sin / cos values the arithmetic
    runs on ([inp]: what libm returned for the float radians) are within [d] of the real sin / cos of the real angles,
    every entry of the float matrix is within [tol] of the entry of the exact rotation - and therefore at most 1 + tol in
    absolute value (the [mat_within] hypothesis of the error bounds of v @ M and A @ B in Props/C04.v is met by matrices built this way). *)
Theorem from_angle_binary64_error : forall d tol, errs_within_in 1 d tol from_angle_fe = true ->
  forall p y r inp, (forall n, Rabs (inp n - from_angle_inputs p y r n) <= Q2R d) ->
  forall i, (i < 9)%nat ->
  let fl := nth i (map (fe_fl rnd64 inp) from_angle_fe) 0 in
  let ex := nth i (let m := from_angle p y r in [aa m; ab m; ac m; ba m; bb m; bc m; ca m; cb m; cc m]) 0 in
  Rabs (fl - ex) <= Q2R tol /\ Rabs fl <= 1 + Q2R tol.
Proof.
  intros d tol Hok p y r inp Hinp i Hi fl ex.
  assert (E : Rabs (fl - ex) <= Q2R tol).
  { subst fl ex. rewrite <- (from_angle_fe_tied p y r).
    apply nth_map_within; [|exact Hi].
    exact (binary64_error_within_in 1 d tol from_angle_fe Hok (from_angle_inputs p y r) inp
             (from_angle_inputs_le1 p y r) Hinp). }
  split; [exact E|].
  assert (X : Rabs ex <= 1).
  { subst ex. destruct (rotation_entries_le1 _ (from_angle_rotation p y r)) as (S1 & S2 & S3 & S4 & S5 & S6 & S7 & S8 & S9).
    cbv zeta. do 9 (destruct i as [|i]; [cbn [nth]; assumption|]). exfalso. do 9 apply Nat.succ_lt_mono in Hi. inversion Hi. }
  replace fl with (ex + (fl - ex)) by ring. eapply Rle_trans; [apply Rabs_triang|]. lra.
Qed.
