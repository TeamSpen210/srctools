(** C04 — MatrixBase.inverse (Gauss-Jordan): proofs over the classical reals, GENERIC in the generated program.

    For every program [p] accepted by [gj_prog_ok] (Rot/RotGJ.v) and every real matrix [m]:
      [gj_inverse p m = GOk n  ->  n * m = I]     (gauss_jordan_inverse)
    and hence, for a rotation [m], [n = transpose m] (gauss_jordan_inverse_rotation).
    Two invariants of the interpreter are shown for ALL programs by induction over the operation list:
      (1) every row of the right block, multiplied by the input matrix, is the same row of the left block
          (each operation applies one elementary row operation to both blocks);
      (2) the abstract interpretation [abs_op] over {0, 1, unknown} is sound for the left block
          (a division that did not raise had a non-zero divisor).
    The product with the input matrix is the GENERATED [vec_rot] / [mat_mul] (= _vec_rot / _mat_mul of math.py). *)
From Coq Require Import Reals Lra List Qreals.
From SV Require Import Rot.RotBase Gen.RotFormulas_gen Rot.RotAlgebra Rot.RotRoundProofs Rot.RotGJ.
Import ListNotations.
Local Open Scope R_scope.

(** ** The real instance of the number type *)
Definition Rcmp (c : gj_cmp) (a b : R) : bool :=
  match c with
  | CGt => if Rgt_dec a b then true else false
  | CGe => if Rge_dec a b then true else false
  | CLt => if Rlt_dec a b then true else false
  | CLe => if Rle_dec a b then true else false
  end.
Definition Rnum : gj_num R :=
  GjNum R Q2R Rminus Rmult Rdiv Rabs Rcmp (fun b => if Req_EM_T b 0 then true else false).

Definition vec_of (v : v3 R) : vec := Vec3 (vget v 0) (vget v 1) (vget v 2).
Definition mat_of (m : r3 R) : mat :=
  Mat (vget (rget m 0) 0) (vget (rget m 0) 1) (vget (rget m 0) 2)
      (vget (rget m 1) 0) (vget (rget m 1) 1) (vget (rget m 1) 2)
      (vget (rget m 2) 0) (vget (rget m 2) 1) (vget (rget m 2) 2).
Definition rows_of (m : mat) : r3 R := ((aa m, ab m, ac m), (ba m, bb m, bc m), (ca m, cb m, cc m)).

(** ** Containers *)
Section Containers.
  Context {A : Type}.
  Lemma idx_idem : forall i, idx (idx i) = idx i.
  Proof. intros [|[|i]]; reflexivity. Qed.
  Lemma vget_idx : forall (v : v3 A) j, vget v (idx j) = vget v j.
  Proof. intros [[x y] z] [|[|j]]; reflexivity. Qed.
  Lemma rget_idx : forall (m : r3 A) i, rget m (idx i) = rget m i.
  Proof. intros [[x y] z] [|[|i]]; reflexivity. Qed.
  Lemma vget_vbuild : forall (f : nat -> A) j, vget (vbuild f) j = f (idx j).
  Proof. intros f [|[|j]]; reflexivity. Qed.
  Lemma rget_rset : forall (m : r3 A) i v k, rget (rset m i v) k = if Nat.eqb (idx i) (idx k) then v else rget m k.
  Proof. intros [[x y] z] [|[|i]] v [|[|k]]; reflexivity. Qed.
  Lemma rget_rswap : forall (m : r3 A) i j k,
    rget (rswap m i j) k = if Nat.eqb (idx j) (idx k) then rget m i else if Nat.eqb (idx i) (idx k) then rget m j else rget m k.
  Proof. intros m i j k. unfold rswap. rewrite !rget_rset. reflexivity. Qed.
  Lemma rset_rget_same : forall (m : r3 A) i, rset m i (rget m i) = m.
  Proof. intros [[x y] z] [|[|i]]; reflexivity. Qed.
  Lemma rget_same_idx : forall (m : r3 A) i k, idx i = idx k -> rget m i = rget m k.
  Proof. intros m i k H. rewrite <- (rget_idx m i), <- (rget_idx m k), H. reflexivity. Qed.
  Lemma rget_rswap_l : forall (m : r3 A) i j, rget (rswap m i j) i = rget m j.
  Proof.
    intros m i j. rewrite rget_rswap. destruct (Nat.eqb (idx j) (idx i)) eqn:E; [|rewrite Nat.eqb_refl; reflexivity].
    apply Nat.eqb_eq in E. apply rget_same_idx. symmetry. exact E.
  Qed.
End Containers.

Lemma list_eqb_eq : forall {A} (e : A -> A -> bool), (forall x y, e x y = true -> x = y) ->
  forall a b, list_eqb e a b = true -> a = b.
Proof.
  intros A e He. induction a as [|x a IH]; intros [|y b] H; try discriminate; [reflexivity|].
  cbn in H. apply andb_prop in H as [H1 H2]. f_equal; [apply He, H1 | apply IH, H2].
Qed.
Lemma q_lit_eqb_eq : forall a b, q_lit_eqb a b = true -> a = b.
Proof.
  intros [a1 a2] [b1 b2] H. unfold q_lit_eqb in H; cbn in H. apply andb_prop in H as [H1 H2].
  apply Z.eqb_eq in H1. apply Pos.eqb_eq in H2. subst. reflexivity.
Qed.
Lemma pair_eqb_eq : forall a b, pair_eqb a b = true -> a = b.
Proof.
  intros [a1 a2] [b1 b2] H. unfold pair_eqb in H; cbn in H. apply andb_prop in H as [H1 H2].
  apply Nat.eqb_eq in H1. apply Nat.eqb_eq in H2. subst. reflexivity.
Qed.

(** ** A skip guard that fires only for a zero multiplier does not change what the program computes *)
Lemma vsub_mul0 : forall a b : v3 R, vsub Rnum a (vmuls Rnum b 0) = a.
Proof.
  intros [[x y] z] [[bx by_] bz]. unfold vsub, vmuls, vbuild; cbn [vget n_sub n_mul Rnum].
  f_equal; [f_equal|]; ring.
Qed.
Lemma skip_exact_zero : forall cmp thr, skip_exact cmp thr = true -> cmp = CLe /\ Q2R thr = 0.
Proof.
  intros cmp [n d] H. destruct cmp; try discriminate. split; [reflexivity|].
  unfold skip_exact, q_is_zero in H; cbn [Qnum] in H. apply Z.eqb_eq in H. subst. unfold Q2R; cbn [Qnum Qden]. lra.
Qed.
Lemma Rabs_le0 : forall x, Rabs x <= 0 -> x = 0.
Proof. intros x H. destruct (Req_dec x 0) as [Z|Z]; [exact Z|]. apply Rabs_pos_lt in Z. lra. Qed.
Lemma elimskip_equiv : forall m p c cmp thr s, skip_exact cmp thr = true ->
  do_op Rnum (OElimSkip m p c cmp thr) s = do_op Rnum (OElim m p c) s.
Proof.
  intros m p c cmp thr [L Rr] H. destruct (skip_exact_zero cmp thr H) as [-> Hz].
  cbn [do_op fst snd]. destruct (n_is_zero Rnum (vget (rget L p) c)); [reflexivity|].
  cbn [n_cmp n_abs n_ofQ n_div Rnum Rcmp]. rewrite Hz.
  destruct (Rle_dec (Rabs (vget (rget L m) c / vget (rget L p) c)) 0) as [Hle|]; [|reflexivity].
  rewrite (Rabs_le0 _ Hle), !vsub_mul0, !rset_rget_same. reflexivity.
Qed.

(** ** Invariant 1: right block times the input matrix = left block, row by row *)
Section Inv.
  Variable M0 : mat.
  Definition rowrel (l r : v3 R) : Prop := vec_rot M0 (vec_of r) = vec_of l.
  Definition Inv (s : state (F := R)) : Prop := forall i, rowrel (rget (fst s) i) (rget (snd s) i).

  Lemma inv_set : forall L Rr i l r, Inv (L, Rr) -> rowrel l r -> Inv (rset L i l, rset Rr i r).
  Proof.
    intros L Rr i l r H Hr k. cbn [fst snd]. rewrite !rget_rset. destruct (Nat.eqb (idx i) (idx k)); [exact Hr | apply (H k)].
  Qed.
  Lemma inv_swap : forall L Rr i j, Inv (L, Rr) -> Inv (rswap L i j, rswap Rr i j).
  Proof.
    intros L Rr i j H k. cbn [fst snd]. rewrite !rget_rswap.
    destruct (Nat.eqb (idx j) (idx k)); [apply (H i)|]. destruct (Nat.eqb (idx i) (idx k)); [apply (H j) | apply (H k)].
  Qed.
  Lemma rowrel_elim : forall l1 r1 l2 r2 v, rowrel l1 r1 -> rowrel l2 r2 ->
    rowrel (vsub Rnum l1 (vmuls Rnum l2 v)) (vsub Rnum r1 (vmuls Rnum r2 v)).
  Proof.
    intros [[l1x l1y] l1z] [[r1x r1y] r1z] [[l2x l2y] l2z] [[r2x r2y] r2z] v H1 H2.
    unfold rowrel, vec_rot, vec_of in *. cbn in *. injection H1 as A1 A2 A3. injection H2 as B1 B2 B3.
    apply vec_ext; subst; ring.
  Qed.
  Lemma rowrel_scale : forall l r v, rowrel l r -> rowrel (vdivs Rnum l v) (vdivs Rnum r v).
  Proof.
    intros [[lx ly] lz] [[rx ry] rz] v H. unfold rowrel, vec_rot, vec_of in *. cbn in *. injection H as A1 A2 A3.
    apply vec_ext; subst; unfold Rdiv; ring.
  Qed.

  Lemma do_op_inv : forall o s s', Inv s -> do_op Rnum o s = GOk s' -> Inv s'.
  Proof.
    intros o [L Rr] s' H E. destruct o as [col n rows cmp init | m p c | m p c cmp thr | r c cmp thr]; cbn [do_op fst snd] in E.
    - destruct (find_pivot Rnum rows col cmp L (n_ofQ Rnum init) None) as [p0|]; [|discriminate].
      injection E as <-. destruct (Nat.eqb p0 n); [exact H | apply inv_swap, H].
    - destruct (n_is_zero Rnum (vget (rget L p) c)); [discriminate|]. injection E as <-.
      apply inv_set; [exact H|]. apply rowrel_elim; [apply (H m) | apply (H p)].
    - destruct (n_is_zero Rnum (vget (rget L p) c)); [discriminate|].
      destruct (n_cmp Rnum cmp _ _); injection E as <-; [exact H|].
      apply inv_set; [exact H|]. apply rowrel_elim; [apply (H m) | apply (H p)].
    - destruct (n_cmp Rnum cmp _ _); [discriminate|]. destruct (n_is_zero Rnum _); [discriminate|]. injection E as <-.
      apply inv_set; [exact H|]. apply rowrel_scale, (H r).
  Qed.
  Lemma gj_run_inv : forall ops s s', Inv s -> gj_run Rnum ops s = GOk s' -> Inv s'.
  Proof.
    induction ops as [|o ops IH]; intros s s' H E; cbn [gj_run] in E.
    - injection E as <-. exact H.
    - destruct (do_op Rnum o s) as [s1| |] eqn:E1; try discriminate. apply (IH s1 s'); [apply (do_op_inv o s s1 H E1) | exact E].
  Qed.
End Inv.

(** ** Abstract interpretations of the left block: what a pivot search with row swap does to a join.
    Generic in the domain (the three-point domain below, the intervals of Rot/RotGJTotalProofs.v): [g] is the
    concretisation of one entry, [join] an upper bound.  The abstract operation joins the rows that take part in the
    search and stores the join in each of them; that describes the block whether or not the rows were exchanged. *)
Section Join.
  Context {T : Type} (g : T -> R -> Prop) (join : T -> T -> T).
  Hypothesis join_l : forall a b x, g a x -> g (join a b) x.
  Hypothesis join_r : forall a b x, g b x -> g (join a b) x.

  Definition GamG (A : r3 T) (L : r3 R) : Prop := forall i j, g (vget (rget A i) j) (vget (rget L i) j).
  Definition vle (a b : v3 T) : Prop := forall j x, g (vget a j) x -> g (vget b j) x.
  Definition vjoinT (a b : v3 T) : v3 T := vbuild (fun j => join (vget a j) (vget b j)).

  Lemma GamG_rset : forall A L i a l, GamG A L -> (forall j, g (vget a j) (vget l j)) -> GamG (rset A i a) (rset L i l).
  Proof. intros A L i a l H Hr k j. rewrite !rget_rset. destruct (Nat.eqb (idx i) (idx k)); [apply Hr | apply H]. Qed.
  Lemma GamG_rset_vbuild : forall A L i f h, GamG A L -> (forall j, g (f j) (h j)) ->
    GamG (rset A i (vbuild f)) (rset L i (vbuild h)).
  Proof. intros A L i f h H Hr. apply GamG_rset; [exact H|]. intro j. rewrite !vget_vbuild. apply Hr. Qed.

  Lemma vle_join_l : forall a b, vle a (vjoinT a b).
  Proof. intros a b j x H. unfold vjoinT. rewrite vget_vbuild. apply join_l. rewrite vget_idx. exact H. Qed.
  Lemma vle_join_r : forall a b, vle b (vjoinT a b).
  Proof. intros a b j x H. unfold vjoinT. rewrite vget_vbuild. apply join_r. rewrite vget_idx. exact H. Qed.

  Lemma fold_join_acc : forall (A : r3 T) rows acc, vle acc (fold_left (fun a i => vjoinT a (rget A i)) rows acc).
  Proof.
    intros A. induction rows as [|i rows IH]; intros acc j x H; cbn [fold_left]; [exact H|].
    apply IH, vle_join_l, H.
  Qed.
  Lemma fold_join_in : forall (A : r3 T) rows acc i, In i rows ->
    vle (rget A i) (fold_left (fun a i => vjoinT a (rget A i)) rows acc).
  Proof.
    intros A. induction rows as [|k rows IH]; intros acc i H; [destruct H|]. cbn [fold_left]. destruct H as [->|H].
    - intros j x Hx. apply fold_join_acc, vle_join_r, Hx.
    - apply IH, H.
  Qed.
  Lemma fold_rset_get : forall (J : v3 T) S (A : r3 T) k,
    rget (fold_left (fun L' i => rset L' i J) S A) k = if existsb (fun i => Nat.eqb (idx i) (idx k)) S then J else rget A k.
  Proof.
    intros J. induction S as [|i S IH]; intros A k; cbn [fold_left existsb]; [reflexivity|].
    rewrite IH, rget_rset. destruct (Nat.eqb (idx i) (idx k)); cbn [orb]; [|reflexivity].
    destruct (existsb _ S); reflexivity.
  Qed.

  Lemma swap_join_sound : forall A L n rows p, GamG A L -> In p rows -> forall b : bool,
    GamG (fold_left (fun A' i => rset A' i (fold_left (fun a i => vjoinT a (rget A i)) rows (rget A n))) (n :: rows) A)
         (if b then L else rswap L n p).
  Proof.
    intros A L n rows p H Hp b. set (J := fold_left _ rows (rget A n)).
    assert (Jn : vle (rget A n) J) by apply fold_join_acc.
    assert (Jr : forall i, In i rows -> vle (rget A i) J) by (intros i Hi; apply fold_join_in, Hi).
    assert (JS : forall i k, In i (n :: rows) -> idx i = idx k -> vle (rget A k) J).
    { intros i k [<-|Hi] Hk; rewrite <- (rget_same_idx A _ _ Hk); [exact Jn | apply Jr, Hi]. }
    intros k j. rewrite fold_rset_get.
    destruct (existsb (fun i => Nat.eqb (idx i) (idx k)) (n :: rows)) eqn:EX.
    - apply existsb_exists in EX as (i & Hi & Hk). apply Nat.eqb_eq in Hk.
      destruct b; [apply (JS i k Hi Hk), H|]. rewrite rget_rswap.
      destruct (Nat.eqb (idx p) (idx k)); [apply Jn, H|].
      destruct (Nat.eqb (idx n) (idx k)); [apply (Jr p Hp), H | apply (JS i k Hi Hk), H].
    - assert (NE : forall i, In i (n :: rows) -> Nat.eqb (idx i) (idx k) = false).
      { intros i Hi. destruct (Nat.eqb (idx i) (idx k)) eqn:Ek; [|reflexivity].
        rewrite <- EX. symmetry. apply existsb_exists. exists i. split; assumption. }
      destruct b; [apply H|].
      rewrite rget_rswap, (NE p (or_intror Hp)), (NE n (or_introl eq_refl)). apply H.
  Qed.
End Join.

(** ** Invariant 2: soundness of the abstract interpretation of the left block *)
Definition gam (a : av) (x : R) : Prop := match a with AZ => x = 0 | AO => x = 1 | AT => True end.
Definition Gam : r3 av -> r3 R -> Prop := GamG gam.

Lemma gam_join_l : forall a b x, gam a x -> gam (av_join a b) x.
Proof. intros [] [] x H; cbn in *; auto. Qed.
Lemma gam_join_r : forall a b x, gam b x -> gam (av_join a b) x.
Proof. intros [] [] x H; cbn in *; auto. Qed.

Lemma find_pivot_in : forall rows col cmp (L : r3 R) la piv p,
  find_pivot Rnum rows col cmp L la piv = Some p -> In p rows \/ piv = Some p.
Proof.
  induction rows as [|m rows IH]; intros col cmp L la piv p H; cbn [find_pivot] in H; [right; exact H|].
  destruct (n_cmp Rnum cmp _ la).
  - apply IH in H as [H|H]; [left; right; exact H | left; left; injection H as ->; reflexivity].
  - apply IH in H as [H|H]; [left; right; exact H | right; exact H].
Qed.

Lemma gam_set_top : forall A L m x, Gam A L -> Gam (rset A m (AT, AT, AT)) (rset L m x).
Proof.
  intros A L m x H. apply GamG_rset; [exact H|]. intros [|[|j]]; exact I.
Qed.

Lemma do_op_gam_elim : forall m p c A L Rr L' R', Gam A L ->
  do_op Rnum (OElim m p c) (L, Rr) = GOk (L', R') -> Gam (abs_op (OElim m p c) A) L'.
Proof.
  intros m p c A L Rr L' R' H E. cbn [do_op fst snd] in E.
  cbn [n_is_zero Rnum] in E. destruct (Req_EM_T (vget (rget L p) c) 0) as [|Hd]; [discriminate|]. injection E as <- <-.
  cbn [abs_op]. destruct (Nat.eqb (idx m) (idx p)); [apply gam_set_top, H|].
  unfold vsub. apply GamG_rset_vbuild; [exact H|]. intro j.
  unfold vmuls. rewrite vget_vbuild, vget_idx. cbn [n_sub n_mul n_div Rnum].
  destruct (Nat.eqb j (idx c)) eqn:Ej.
  - apply Nat.eqb_eq in Ej. subst j. rewrite !vget_idx. cbn [gam]. field. exact Hd.
  - generalize (H p j). destruct (vget (rget A p) j); try (intros; exact I).
    cbn [gam]. intros ->. rewrite Rmult_0_l, Rminus_0_r. apply H.
Qed.

Lemma do_op_gam : forall o A L Rr L' R', Gam A L -> do_op Rnum o (L, Rr) = GOk (L', R') -> Gam (abs_op o A) L'.
Proof.
  intros o A L Rr L' R' H E. destruct o as [col n rows cmp init | m p c | m p c cmp thr | r c cmp thr].
  - (* pivot search and swap *)
    cbn [do_op fst snd] in E. destruct (find_pivot Rnum rows col cmp L (n_ofQ Rnum init) None) as [p0|] eqn:EP; [|discriminate].
    apply find_pivot_in in EP as [EP|EP]; [|discriminate].
    pose proof (swap_join_sound gam av_join gam_join_l gam_join_r A L n rows p0 H EP) as S.
    destruct (Nat.eqb p0 n); injection E as <- <-; [exact (S true) | exact (S false)].
  - (* elimination *)
    exact (do_op_gam_elim m p c A L Rr L' R' H E).
  - (* elimination with a skip guard *)
    cbn [abs_op]. destruct (skip_exact cmp thr) eqn:SE; cbn [andb].
    + rewrite (elimskip_equiv m p c cmp thr (L, Rr) SE) in E.
      pose proof (do_op_gam_elim m p c A L Rr L' R' H E) as G. cbn [abs_op] in G.
      destruct (Nat.eqb (idx m) (idx p)); cbn [negb]; exact G.
    + (* any other guard: the row may or may not have been updated; the other rows are unchanged *)
      cbn [do_op fst snd] in E. destruct (n_is_zero Rnum (vget (rget L p) c)); [discriminate|].
      destruct (n_cmp Rnum cmp _ _); injection E as <- <-; [rewrite <- (rset_rget_same L m)|]; apply gam_set_top, H.
  - (* scaling *)
    cbn [do_op fst snd] in E. destruct (n_cmp Rnum cmp _ _); [discriminate|]. cbn [n_is_zero Rnum] in E.
    destruct (Req_EM_T (vget (rget L r) c) 0) as [|Hd]; [discriminate|]. injection E as <- <-.
    cbn [abs_op]. unfold vdivs. apply GamG_rset_vbuild; [exact H|]. intro j. cbn [n_div Rnum].
    destruct (Nat.eqb j (idx c)) eqn:Ej.
    + apply Nat.eqb_eq in Ej. subst j. rewrite vget_idx. cbn [gam]. field. exact Hd.
    + generalize (H r j). destruct (vget (rget A r) j); try (intros; exact I).
      cbn [gam]. intros ->. unfold Rdiv. ring.
Qed.

Lemma gj_run_gam : forall ops A L Rr L' R', Gam A L -> gj_run Rnum ops (L, Rr) = GOk (L', R') -> Gam (abs_run ops A) L'.
Proof.
  induction ops as [|o ops IH]; intros A L Rr L' R' H E; cbn [gj_run] in E; unfold abs_run; cbn [fold_left].
  - injection E as <- <-. exact H.
  - destruct (do_op Rnum o (L, Rr)) as [[L1 R1]| |] eqn:E1; try discriminate.
    apply (IH (abs_op o A) L1 R1 L' R'); [apply (do_op_gam o A L Rr L1 R1 H E1) | exact E].
Qed.

Lemma all_ij_in : forall i j, In (idx i, idx j) all_ij.
Proof. intros [|[|i]] [|[|j]]; cbn; tauto. Qed.
Lemma av_eqb_eq : forall a b, av_eqb a b = true -> a = b.
Proof. intros [] [] H; try discriminate; reflexivity. Qed.
Lemma r3_eqb_gam : forall A B L, r3_eqb A B = true -> Gam A L -> Gam B L.
Proof.
  intros A B L E H i j. unfold r3_eqb in E. rewrite forallb_forall in E.
  pose proof (E _ (all_ij_in i j)) as Eij. cbn [fst snd] in Eij. apply av_eqb_eq in Eij.
  rewrite !rget_idx, !vget_idx in Eij. rewrite <- Eij. apply H.
Qed.

(** ** The theorems *)

Lemma init_l_ok_id : forall {F} p, init_l_ok p = true -> forall x : r3 F, init_l p x = x.
Proof.
  intros F p H [[[[a b] c] [[d e] f]] [[g h] k]]. apply (list_eqb_eq _ (fun x y => proj1 (Nat.eqb_eq x y))) in H.
  unfold init_l. rewrite H. reflexivity.
Qed.

(** Invariant 1 for the whole blocks, and what the identity pattern says of the left block. *)
Lemma inv_mat_mul : forall m L Rr, Inv m (L, Rr) -> mat_mul (mat_of Rr) m = mat_of L.
Proof.
  intros m L Rr H. pose proof (H 0%nat) as A0. pose proof (H 1%nat) as A1. pose proof (H 2%nat) as A2.
  destruct L as [[[[l00 l01] l02] [[l10 l11] l12]] [[l20 l21] l22]], Rr as [[[[r00 r01] r02] [[r10 r11] r12]] [[r20 r21] r22]].
  unfold rowrel, vec_rot, vec_of in A0, A1, A2. cbn in A0, A1, A2.
  injection A0 as a00 a01 a02. injection A1 as a10 a11 a12. injection A2 as a20 a21 a22.
  unfold mat_mul, mat_of; cbn. apply mat_ext; assumption.
Qed.
Lemma gam_id3_I3 : forall L, Gam id3 L -> mat_of L = I3.
Proof.
  intros L G. apply mat_ext.
  - exact (G 0 0)%nat.
  - exact (G 0 1)%nat.
  - exact (G 0 2)%nat.
  - exact (G 1 0)%nat.
  - exact (G 1 1)%nat.
  - exact (G 1 2)%nat.
  - exact (G 2 0)%nat.
  - exact (G 2 1)%nat.
  - exact (G 2 2)%nat.
Qed.

Theorem gauss_jordan_inverse : forall p, gj_prog_ok p = true ->
  forall m n, gj_inverse Rnum p (rows_of m) = GOk n -> mat_mul (mat_of n) m = I3.
Proof.
  intros p OK m n E. unfold gj_prog_ok in OK. rewrite !andb_true_iff in OK. destruct OK as [[[[Hl Hr] Hout] _] Hid].
  apply (list_eqb_eq _ q_lit_eqb_eq) in Hr. apply (list_eqb_eq _ pair_eqb_eq) in Hout.
  unfold gj_inverse in E. rewrite (init_l_ok_id p Hl) in E.
  destruct (gj_run Rnum (gp_ops p) (rows_of m, init_r Rnum p)) as [[L' R']| |] eqn:ER; try discriminate.
  injection E as <-.
  assert (IR : init_r Rnum p = ((1, 0, 0), (0, 1, 0), (0, 0, 1))).
  { unfold init_r; rewrite Hr. unfold rbuild, vbuild; cbn [nth Nat.mul Nat.add n_ofQ Rnum]. rewrite Q2R_0', Q2R_1'. reflexivity. }
  rewrite IR in ER.
  assert (I0 : Inv m (rows_of m, ((1, 0, 0), (0, 1, 0), (0, 0, 1)))).
  { intros [|[|i]]; unfold rowrel, rows_of, vec_rot, vec_of; cbn; apply vec_ext; ring. }
  assert (G0 : Gam top3 (rows_of m)) by (intros [|[|i]] [|[|j]]; exact I).
  assert (OUT : out_of p R' = R').
  { unfold out_of; rewrite Hout. destruct R' as [[[[a b] c] [[d e] f]] [[g h] k]]. reflexivity. }
  cbn [snd]. rewrite OUT, (inv_mat_mul m L' R' (gj_run_inv m _ _ _ I0 ER)).
  apply gam_id3_I3, (r3_eqb_gam _ _ _ Hid), (gj_run_gam _ _ _ _ _ _ G0 ER).
Qed.

(** inverse() = transpose() on rotations, whenever inverse() returns. *)
Theorem gauss_jordan_inverse_rotation : forall p, gj_prog_ok p = true ->
  forall m n, rotation m -> gj_inverse Rnum p (rows_of m) = GOk n -> mat_of n = transpose m.
Proof.
  intros p OK m n Hm E. destruct (rotation_inverse_is_transpose m Hm) as (_ & _ & U & _).
  apply U. exact (gauss_jordan_inverse p OK m n E).
Qed.

(** A left inverse of a square real matrix is also a right inverse; stated for the result of inverse(). *)
Theorem gauss_jordan_inverse_det : forall p, gj_prog_ok p = true ->
  forall m n, gj_inverse Rnum p (rows_of m) = GOk n -> det (mat_of n) * det m = 1.
Proof.
  intros p OK m n E. rewrite <- det_mul, (gauss_jordan_inverse p OK m n E). apply rotation_I3.
Qed.
