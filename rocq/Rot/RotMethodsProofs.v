(** C04 — an accepted row of the in-place rotation methods denotes, in the real-number model built from the generated formulas,
    the pure operator form: localise = v @ angles + origin, transform = x @ rot, rotate = v @ Angle(p, y, r); the rotation
    argument is left unchanged. *)
From Coq Require Import Reals List Bool.
From SV Require Import Rot.RotBase Gen.RotFormulas_gen Rot.RotAlgebra Rot.RotEuler Rot.RotDispatchProofs Rot.RotMethods.
Import ListNotations.
Open Scope R_scope.

Definition vec_add (a b : vec) : vec := Vec3 (vx a + vx b) (vy a + vy b) (vz a + vz b).

Lemma mterm_eqb_eq : forall a b, mterm_eqb a b = true -> a = b.
Proof.
  induction a; destruct b; cbn; intro H; try discriminate; try reflexivity;
    repeat match goal with H : _ && _ = true |- _ => apply andb_prop in H; destruct H end;
    f_equal; auto.
Qed.

Section MDenote.
  Variable atan2 : R -> R -> R.

  Fixpoint mdenote (S Rt O : value) (t : mterm) : option value :=
    match t with
    | MSelf => Some S | MRot => Some Rt | MOrigin => Some O | MIdent => Some (VMat I3)
    | MFromAngle t => match mdenote S Rt O t with Some (VAng a) => Some (VMat (from_angle_obj a)) | _ => None end
    | MToAngle t => match mdenote S Rt O t with Some (VMat m) => Some (VAng (to_angle atan2 m)) | _ => None end
    | MMatMul a b =>
        match mdenote S Rt O a, mdenote S Rt O b with Some (VMat x), Some (VMat y) => Some (VMat (mat_mul x y)) | _, _ => None end
    | MVecRot v m =>
        match mdenote S Rt O v, mdenote S Rt O m with Some (VVec x), Some (VMat y) => Some (VVec (vec_rot y x)) | _, _ => None end
    | MVecAdd a b =>
        match mdenote S Rt O a, mdenote S Rt O b with Some (VVec x), Some (VVec y) => Some (VVec (vec_add x y)) | _, _ => None end
    end.

  (** The rotation argument as a matrix. *)
  Definition rot_mat (k : rotkind) (Rt : value) : option mat :=
    match k, Rt with
    | RMatrix, VMat m => Some m
    | RAngle, VAng a => Some (from_angle_obj a)
    | RNone, _ => Some I3
    | _, _ => None
    end.

  (** What each method must leave in the receiver, written with the model functions. *)
  Definition method_spec (m : meth) (S O : value) (rm : mat) : option value :=
    match m, S, O with
    | MLocalise, VVec v, VVec o => Some (VVec (vec_add (vec_rot rm v) o))
    | (MVecTransform | MRotate), VVec v, _ => Some (VVec (vec_rot rm v))
    | MAngTransform, VAng a, _ => Some (VAng (to_angle atan2 (mat_mul (from_angle_obj a) rm)))
    | _, _, _ => None
    end.

  Lemma mdenote_rot : forall k S Rt O rm, rot_mat k Rt = Some rm -> mdenote S Rt O (rot_as_mat k) = Some (VMat rm).
  Proof. intros [] S [] O rm H; cbn in H |- *; try discriminate; injection H as <-; reflexivity. Qed.

  Theorem mrow_ok_sound : forall r, mrow_ok r = true ->
    forall S Rt O rm, rot_mat (mr_rot r) Rt = Some rm -> method_spec (mr_meth r) S O rm <> None ->
      mdenote S Rt O (mr_self r) = method_spec (mr_meth r) S O rm /\ mdenote S Rt O (mr_rot_final r) = Some Rt.
  Proof.
    intros r H S Rt O rm Hr Hs. unfold mrow_ok in H.
    apply andb_prop in H as [H Hrot]. apply andb_prop in H as [_ Hself]. apply mterm_eqb_eq in Hself, Hrot.
    rewrite Hself, Hrot. split; [|reflexivity]. pose proof (mdenote_rot (mr_rot r) S Rt O rm Hr) as Hm.
    destruct (mr_meth r), S, O; cbn [m_expected mdenote method_spec] in Hs |- *; rewrite ?Hm;
      try (exfalso; apply Hs; reflexivity); rewrite ?mat_mul_I_l; reflexivity.
  Qed.

  Theorem methods_ok_sound : forall t, methods_ok t = true -> forall r, In r t ->
    forall S Rt O rm, rot_mat (mr_rot r) Rt = Some rm -> method_spec (mr_meth r) S O rm <> None ->
      mdenote S Rt O (mr_self r) = method_spec (mr_meth r) S O rm /\ mdenote S Rt O (mr_rot_final r) = Some Rt.
  Proof.
    intros t H r Hr. unfold methods_ok in H. apply andb_prop in H as [H _]. rewrite forallb_forall in H.
    apply mrow_ok_sound, H, Hr.
  Qed.

  (** The in-place methods ARE the operator specification: transform / rotate leave `x @ rot` in the receiver. *)
  Lemma method_spec_is_operator_spec : forall S Rt rm O, rhs_mat Rt = Some rm ->
    (forall v, S = VVec v -> method_spec MVecTransform S O rm = spec atan2 S Rt) /\
    (forall a, S = VAng a -> method_spec MAngTransform S O rm = spec atan2 S Rt).
  Proof. intros S Rt rm O H. split; intros x ->; unfold spec; rewrite H; reflexivity. Qed.
End MDenote.

Example methods_reject :
  (* rotation applied after the translation (ordering), and a transform that multiplies on the wrong side *)
  mrow_ok (MRow MLocalise RMatrix true (MVecRot (MVecAdd MSelf MOrigin) MRot) MRot) = false /\
  mrow_ok (MRow MAngTransform RMatrix true (MToAngle (MMatMul MRot (MFromAngle MSelf))) MRot) = false /\
  mrow_ok (MRow MLocalise RMatrix true (MVecAdd (MVecRot MSelf MRot) MOrigin) MRot) = true.
Proof. repeat split. Qed.
