(** C04 — IEEE binary64 round-to-nearest-even satisfies the hypothesis of the running error analysis (Flocq). *)
From Coq Require Import Reals Qreals Lra.
From Flocq Require Import Core Relative.
From SV Require Import Rot.RotRound Rot.RotRoundProofs.
Local Open Scope R_scope.

(** The rounding of binary64 (precision 53, smallest exponent -1074), ties to even, as a function on the reals: what an
    IEEE addition / subtraction / multiplication returns for the exact result [t] when it does not overflow. *)
Definition rnd64 (t : R) : R := round radix2 (FLT_exp (-1074) 53) ZnearestE t.

Lemma Q2R_half_bpow : forall k : positive, Q2R (1 # (2 * 2 ^ k)) = / 2 * bpow radix2 (Z.neg k).
Proof.
  intro k. unfold Q2R. cbn [Qnum Qden bpow]. rewrite Pos2Z.inj_mul, mult_IZR, Pos2Z.inj_pow_pos.
  assert (0 < IZR (Z.pow_pos radix2 k)) by (apply IZR_lt, Zpower_pos_gt_0; reflexivity).
  change (Z.pow_pos 2 k) with (Z.pow_pos radix2 k). field. lra.
Qed.
Lemma u64_bpow : Q2R u64 = / 2 * bpow radix2 (-53 + 1).
Proof. exact (Q2R_half_bpow 52). Qed.
Lemma eta64_bpow : Q2R eta64 = / 2 * bpow radix2 (-1074).
Proof. exact (Q2R_half_bpow 1074). Qed.

Theorem rnd64_error : forall t, Rabs (rnd64 t - t) <= Q2R u64 * Rabs t + Q2R eta64.
Proof.
  intro t. unfold rnd64.
  destruct (error_N_FLT radix2 (-1074) 53 ltac:(reflexivity) (fun x => negb (Z.even x)) t) as (eps & eta & He & Ht & _ & Heq).
  rewrite Heq, u64_bpow, eta64_bpow.
  replace (t * (1 + eps) + eta - t) with (t * eps + eta) by ring.
  eapply Rle_trans; [apply Rabs_triang|]. rewrite Rabs_mult.
  pose proof (Rabs_pos t).
  assert (Rabs t * Rabs eps <= Rabs t * (/ 2 * bpow radix2 (-53 + 1))) by (apply Rmult_le_compat_l; assumption).
  lra.
Qed.
Lemma rnd64_error_w : forall t, Rabs (rnd64 t - t) <= Q2R u64 * Rabs t + Q2R eta64w.
Proof.
  intro t. pose proof (rnd64_error t) as H.
  assert (Q2R eta64 <= Q2R eta64w) by (apply Qle_Rle, Qle_bool_iff; vm_compute; reflexivity).
  lra.
Qed.
Lemma u64_nonneg : 0 <= Q2R u64.
Proof. rewrite u64_bpow. pose proof (bpow_ge_0 radix2 (-53 + 1)). lra. Qed.

(** The composed statement: for every list of expression trees accepted by the decidable test [errs_within bm bv tol],
    every tree, evaluated with binary64 rounding after each operation on inputs bounded by [bm] (matrix slots) and [bv]
    (vector components), is within [tol] of its exact value. *)
Theorem binary64_error_within : forall bm bv tol es, errs_within bm bv tol es = true ->
  forall env, (forall n, Rabs (env n) <= Q2R (bounds bm bv n)) ->
  forall e, List.In e es -> Rabs (fe_fl rnd64 env e - fe_exact env e) <= Q2R tol.
Proof.
  intros bm bv tol es Hok env Henv e Hin.
  unfold errs_within in Hok. rewrite List.forallb_forall in Hok. specialize (Hok e Hin).
  eapply Rle_trans; [apply (fe_error_bound rnd64 u64 eta64w rnd64_error_w u64_nonneg _ env Henv e)|].
  apply Qle_bool_R, Hok.
Qed.

(** The same with inexact inputs: every input bounded by [b] and known within [d]. *)
Theorem binary64_error_within_in : forall b d tol es, errs_within_in b d tol es = true ->
  forall env env', (forall n, Rabs (env n) <= Q2R b) -> (forall n, Rabs (env' n - env n) <= Q2R d) ->
  forall e, List.In e es -> Rabs (fe_fl rnd64 env' e - fe_exact env e) <= Q2R tol.
Proof.
  intros b d tol es Hok env env' Henv Henv' e Hin.
  unfold errs_within_in in Hok. rewrite List.forallb_forall in Hok. specialize (Hok e Hin).
  eapply Rle_trans;
    [apply (fe_error_bound_in rnd64 u64 eta64w rnd64_error_w u64_nonneg (fun _ => b) (fun _ => d) env env' Henv Henv' e)|].
  apply Qle_bool_R, Hok.
Qed.
