(** C04 — MatrixBase.inverse RETURNS on every rotation: soundness of the interval / determinant abstract interpretation
    of Rot/RotGJTotal.v over the classical reals, for ALL programs (induction over the operation list).

      gj_total_ok p = true  ->  rotation m  ->  exists n, gj_inverse Rnum p (rows_of m) = GOk n          (gj_inverse_total)

    and, with the partial-correctness theorem of Rot/RotGJProofs.v,
      gj_prog_ok p = true -> gj_total_ok p = true -> rotation m -> gj_inverse Rnum p (rows_of m) = GOk n /\ mat_of n = transpose m. *)
From Coq Require Import Reals List Qreals Psatz.
From SV Require Import Rot.RotBase Gen.RotFormulas_gen Rot.RotAlgebra Rot.RotRoundProofs Rot.RotGJ Rot.RotGJProofs
  Rot.RotGJTotal.
Import ListNotations.
Local Open Scope R_scope.

(** ** rationals *)
Lemma qle_false_R : forall x y, Qle_bool x y = false -> Q2R y < Q2R x.
Proof.
  intros x y H. apply Qlt_Rlt, Qnot_le_lt. intro C. apply Qle_bool_iff in C. rewrite C in H. discriminate.
Qed.
Lemma qlt_R : forall x y, qlt x y = true -> Q2R x < Q2R y.
Proof. intros x y H. unfold qlt in H. apply negb_true_iff in H. apply qle_false_R, H. Qed.
Lemma qmax_l : forall x y, Q2R x <= Q2R (qmax x y).
Proof. intros x y. unfold qmax. destruct (Qle_bool x y) eqn:E; [apply Qle_bool_R, E | lra]. Qed.
Lemma qmax_r : forall x y, Q2R y <= Q2R (qmax x y).
Proof. intros x y. unfold qmax. destruct (Qle_bool x y) eqn:E; [lra | apply qle_false_R in E; lra]. Qed.
Lemma qmax_le : forall x y z, Q2R x <= z -> Q2R y <= z -> Q2R (qmax x y) <= z.
Proof. intros x y z Hx Hy. unfold qmax. destruct (Qle_bool x y); assumption. Qed.
Lemma qmin_l : forall x y, Q2R (qmin x y) <= Q2R x.
Proof. intros x y. unfold qmin. destruct (Qle_bool x y) eqn:E; [lra | apply qle_false_R in E; lra]. Qed.
Lemma qmin_r : forall x y, Q2R (qmin x y) <= Q2R y.
Proof. intros x y. unfold qmin. destruct (Qle_bool x y) eqn:E; [apply Qle_bool_R, E | lra]. Qed.
Lemma Q2R_pos_neq : forall q, 0 < Q2R q -> ~ (q == 0)%Q.
Proof. intros q H C. apply Qeq_eqR in C. rewrite Q2R_0' in C. lra. Qed.

(** ** determinant of a block, expansions, triangle inequality *)
Definition eg (L : r3 R) (i j : nat) : R := vget (rget L i) j.
Definition det3 (L : r3 R) : R := det (mat_of L).
Definition sg (i j : nat) : R := if Nat.even (idx i + idx j) then 1 else -1.
Definition cofR (L : r3 R) (i j : nat) : R :=
  eg L (oth1 i) (oth1 j) * eg L (oth2 i) (oth2 j) - eg L (oth1 i) (oth2 j) * eg L (oth2 i) (oth1 j).

Lemma eg_idx : forall L i j, eg L (idx i) (idx j) = eg L i j.
Proof. intros L i j. unfold eg. rewrite rget_idx, vget_idx. reflexivity. Qed.
Lemma eg_idx_r : forall L i j, eg L i (idx j) = eg L i j.
Proof. intros L i j. apply vget_idx. Qed.
Lemma oth1_idx : forall k, oth1 (idx k) = oth1 k.
Proof. intros [|[|k]]; reflexivity. Qed.
Lemma oth2_idx : forall k, oth2 (idx k) = oth2 k.
Proof. intros [|[|k]]; reflexivity. Qed.
Lemma cofR_idx : forall L i j, cofR L (idx i) (idx j) = cofR L i j.
Proof. intros L i j. unfold cofR. rewrite !oth1_idx, !oth2_idx. reflexivity. Qed.
Lemma sg_idx : forall i j, sg (idx i) (idx j) = sg i j.
Proof. intros i j. unfold sg. rewrite !idx_idem. reflexivity. Qed.
Lemma sg_abs : forall i j, Rabs (sg i j) = 1.
Proof. intros i j. unfold sg. destruct (Nat.even _); [apply Rabs_R1 | rewrite Rabs_left; lra]. Qed.

Definition term (L : r3 R) (i j : nat) : R := sg i j * eg L i j * cofR L i j.
Lemma term_idx : forall L i j, term L (idx i) (idx j) = term L i j.
Proof. intros. unfold term. rewrite sg_idx, eg_idx, cofR_idx. reflexivity. Qed.

Lemma term_idx_r : forall L i j, term L i (idx j) = term L i j.
Proof. intros. rewrite <- (term_idx L i (idx j)), idx_idem. apply term_idx. Qed.
Lemma term_idx_l : forall L i j, term L (idx i) j = term L i j.
Proof. intros. rewrite <- (term_idx L (idx i) j), idx_idem. apply term_idx. Qed.

Lemma det_row : forall L i, det3 L = term L i 0 + term L i 1 + term L i 2.
Proof.
  intros [[[[a b] c] [[d e] f]] [[g h] k]] [|[|i]];
    cbv [det3 det mat_of term sg cofR eg idx oth1 oth2 Nat.even Nat.add rget vget aa ab ac ba bb bc ca cb cc]; ring.
Qed.
Lemma det_col : forall L j, det3 L = term L 0 j + term L 1 j + term L 2 j.
Proof.
  intros [[[[a b] c] [[d e] f]] [[g h] k]] [|[|j]];
    cbv [det3 det mat_of term sg cofR eg idx oth1 oth2 Nat.even Nat.add rget vget aa ab ac ba bb bc ca cb cc]; ring.
Qed.
Lemma perm3 : forall (f : nat -> R) c, f 0%nat + f 1%nat + f 2%nat = f (idx c) + f (oth1 c) + f (oth2 c).
Proof. intros f [|[|c]]; cbn; ring. Qed.

Lemma term_abs : forall L i j, Rabs (term L i j) = Rabs (eg L i j) * Rabs (cofR L i j).
Proof. intros. unfold term. rewrite !Rabs_mult, sg_abs. ring. Qed.
Lemma abs3 : forall a b c, Rabs (a + b + c) <= Rabs a + Rabs b + Rabs c.
Proof. intros. eapply Rle_trans; [apply Rabs_triang|]. pose proof (Rabs_triang a b). lra. Qed.

Lemma mul_le : forall x c X C, 0 <= x <= X -> 0 <= c <= C -> x * c <= X * C.
Proof. intros. apply Rmult_le_compat; lra. Qed.

Lemma div_le : forall a b c, 0 < c -> a <= b * c -> a / c <= b.
Proof. intros a b c Hc H. apply Rmult_le_reg_r with c; [lra|]. unfold Rdiv. rewrite Rmult_assoc, Rinv_l by lra. lra. Qed.
Lemma le_div : forall a b c, 0 < c -> a * c <= b -> a <= b / c.
Proof. intros a b c Hc H. apply Rmult_le_reg_r with c; [lra|]. unfold Rdiv. rewrite Rmult_assoc, Rinv_l by lra. lra. Qed.

(** ** concretisation *)
Definition gq (a : aq) (x : R) : Prop := Q2R (a_lo a) <= Rabs x <= Q2R (a_hi a).
Definition GamE (A : r3 aq) (L : r3 R) : Prop := forall i j, gq (aget A i j) (eg L i j).
Definition Gam2 (st : bstate) (L : r3 R) : Prop := GamE (fst st) L /\ Q2R (snd st) <= Rabs (det3 L).

Lemma hi_ge : forall A L i j, GamE A L -> Rabs (eg L i j) <= Q2R (hi A i j).
Proof. intros A L i j H. apply (H i j). Qed.
Lemma lo_le : forall A L i j, GamE A L -> Q2R (lo A i j) <= Rabs (eg L i j).
Proof. intros A L i j H. apply (H i j). Qed.
Lemma hi_nonneg : forall A L i j, GamE A L -> 0 <= Q2R (hi A i j).
Proof. intros A L i j H. pose proof (hi_ge A L i j H). pose proof (Rabs_pos (eg L i j)). lra. Qed.

Lemma cof_bound : forall A L i j, GamE A L -> Rabs (cofR L i j) <= Q2R (cofhi A i j).
Proof.
  intros A L i j H. unfold cofR, cofhi. rewrite Q2R_plus, !Q2R_mult.
  unfold Rminus. eapply Rle_trans; [apply Rabs_triang|]. rewrite Rabs_Ropp, !Rabs_mult.
  apply Rplus_le_compat; apply mul_le; split; try apply Rabs_pos; apply hi_ge, H.
Qed.
Lemma cofhi_nonneg : forall A L i j, GamE A L -> 0 <= Q2R (cofhi A i j).
Proof. intros A L i j H. pose proof (cof_bound A L i j H). pose proof (Rabs_pos (cofR L i j)). lra. Qed.

Lemma term_bound : forall A L i j X, GamE A L -> Rabs (eg L i j) <= X -> Rabs (term L i j) <= X * Q2R (cofhi A i j).
Proof.
  intros A L i j X H HX. rewrite term_abs. apply mul_le; split; try apply Rabs_pos; [exact HX | apply cof_bound, H].
Qed.

(** *** lower bound of an entry from the determinant (row expansion) *)
Lemma row_lo_sound : forall A d L r c, Gam2 (A, d) L -> Q2R (row_lo A d r c) <= Rabs (eg L r c).
Proof.
  intros A d L r c [H Hd]. cbn [fst snd] in *. unfold row_lo.
  destruct (qlt 0 (cofhi A r c)) eqn:E; [|apply lo_le, H].
  apply qlt_R in E. rewrite Q2R_0' in E.
  apply qmax_le; [apply lo_le, H|].
  rewrite Q2R_div by (apply Q2R_pos_neq, E). rewrite Q2R_minus, Q2R_plus, !Q2R_mult.
  apply div_le; [exact E|].
  rewrite (det_row L r), (perm3 (term L r) c), term_idx_r in Hd.
  assert (T0 : Rabs (term L r c) <= Rabs (eg L r c) * Q2R (cofhi A r c)) by (apply term_bound; [exact H | lra]).
  assert (T1 := term_bound A L r (oth1 c) _ H (hi_ge A L r (oth1 c) H)).
  assert (T2 := term_bound A L r (oth2 c) _ H (hi_ge A L r (oth2 c) H)).
  pose proof (abs3 (term L r c) (term L r (oth1 c)) (term L r (oth2 c))). lra.
Qed.

Lemma row_lo_pos : forall A d L r c, Gam2 (A, d) L -> qlt 0 (row_lo A d r c) = true ->
  0 < Q2R (row_lo A d r c) <= Rabs (eg L r c) /\ eg L r c <> 0.
Proof.
  intros A d L r c G E. apply qlt_R in E. rewrite Q2R_0' in E. pose proof (row_lo_sound A d L r c G) as PL.
  split; [lra|]. intro C. rewrite C, Rabs_R0 in PL. lra.
Qed.

(** ** the pivot search returns a row with the largest absolute value *)
Lemma Rcmp_ge_taken : forall cmp a b, cmp = CGt \/ cmp = CGe -> Rcmp cmp a b = true -> b <= a.
Proof.
  intros cmp a b [->| ->] H; unfold Rcmp in H.
  - destruct (Rgt_dec a b); [lra | discriminate].
  - destruct (Rge_dec a b); [lra | discriminate].
Qed.
Lemma Rcmp_ge_skipped : forall cmp a b, cmp = CGt \/ cmp = CGe -> Rcmp cmp a b = false -> a <= b.
Proof.
  intros cmp a b [->| ->] H; unfold Rcmp in H.
  - destruct (Rgt_dec a b); [discriminate | lra].
  - destruct (Rge_dec a b); [discriminate | lra].
Qed.

Lemma fp_spec : forall cmp, cmp = CGt \/ cmp = CGe -> forall col (L : r3 R) rows la piv,
  exists la', la <= la' /\ (forall m, In m rows -> Rabs (eg L m col) <= la') /\
    ((find_pivot Rnum rows col cmp L la piv = piv /\ la' = la) \/
     (exists p, In p rows /\ find_pivot Rnum rows col cmp L la piv = Some p /\ la' = Rabs (eg L p col))).
Proof.
  intros cmp Hc col L. induction rows as [|m rows IH]; intros la piv.
  - exists la. split; [lra|]. split; [intros m []|]. left. split; reflexivity.
  - cbn [find_pivot]. change (n_abs Rnum (vget (rget L m) col)) with (Rabs (eg L m col)).
    change (n_cmp Rnum cmp) with (Rcmp cmp).
    destruct (Rcmp cmp (Rabs (eg L m col)) la) eqn:E.
    + apply (Rcmp_ge_taken _ _ _ Hc) in E.
      destruct (IH (Rabs (eg L m col)) (Some m)) as (la' & H1 & H2 & H3). exists la'.
      split; [lra|]. split.
      * intros k [<-|Hk]; [lra | apply H2, Hk].
      * right. destruct H3 as [[H3 H4] | (p & Hp & H3 & H4)].
        -- exists m. split; [left; reflexivity|]. split; assumption.
        -- exists p. split; [right; exact Hp|]. split; assumption.
    + apply (Rcmp_ge_skipped _ _ _ Hc) in E.
      destruct (IH la piv) as (la' & H1 & H2 & H3). exists la'.
      split; [lra|]. split.
      * intros k [<-|Hk]; [lra | apply H2, Hk].
      * destruct H3 as [[H3 H4] | (p & Hp & H3 & H4)]; [left; split; assumption|].
        right. exists p. split; [right; exact Hp|]. split; assumption.
Qed.

(** ** what the three row operations do to the determinant.
    [cbv] with an explicit list: unfolding everything ([cbn]) makes [Qed] compare large terms again. *)
Lemma det_rswap_abs : forall L i j, Rabs (det3 (rswap L i j)) = Rabs (det3 L).
Proof.
  intros [[[[a b] c] [[d e] f]] [[g h] k]] [|[|i]] [|[|j]];
    cbv [det3 det mat_of rswap rset rget vget aa ab ac ba bb bc ca cb cc];
    try reflexivity; rewrite <- Rabs_Ropp; f_equal; ring.
Qed.
Lemma det_elim : forall L m p v, idx m <> idx p ->
  det3 (rset L m (vsub Rnum (rget L m) (vmuls Rnum (rget L p) v))) = det3 L.
Proof.
  intros [[[[a b] c] [[d e] f]] [[g h] k]] [|[|m]] [|[|p]] v H; try (exfalso; apply H; reflexivity);
    cbv [det3 det mat_of rset rget vget aa ab ac ba bb bc ca cb cc vsub vmuls vbuild n_sub n_mul Rnum]; ring.
Qed.
Lemma det_scale : forall L r v, v <> 0 -> det3 (rset L r (vdivs Rnum (rget L r) v)) = det3 L / v.
Proof.
  intros [[[[a b] c] [[d e] f]] [[g h] k]] [|[|r]] v H;
    cbv [det3 det mat_of rset rget vget aa ab ac ba bb bc ca cb cc vdivs vbuild n_div Rnum]; field; exact H.
Qed.

(** ** joins of intervals *)
Lemma gq_join_l : forall a b x, gq a x -> gq (ajoin a b) x.
Proof.
  intros a b x [H1 H2]. unfold gq, ajoin; cbn [a_lo a_hi]. split.
  - eapply Rle_trans; [apply qmin_l | exact H1].
  - eapply Rle_trans; [exact H2 | apply qmax_l].
Qed.
Lemma gq_join_r : forall a b x, gq b x -> gq (ajoin a b) x.
Proof.
  intros a b x [H1 H2]. unfold gq, ajoin; cbn [a_lo a_hi]. split.
  - eapply Rle_trans; [apply qmin_r | exact H1].
  - eapply Rle_trans; [exact H2 | apply qmax_r].
Qed.

Lemma vget_vset : forall {T} (v : v3 T) j a l, vget (vset v j a) l = if Nat.eqb (idx j) (idx l) then a else vget v l.
Proof. intros T [[x y] z] [|[|j]] a [|[|l]]; reflexivity. Qed.

(** ** sums over the rows that take part in a pivot search *)
Lemma inrows_in : forall rows m, inrows rows m = true -> exists i, In i rows /\ idx i = m.
Proof.
  intros rows m H. unfold inrows in H. apply existsb_exists in H as (i & Hi & E). apply Nat.eqb_eq in E. exists i. split; assumption.
Qed.

Lemma piv_term : forall A L col rows la' m, GamE A L ->
  (forall i, In i rows -> Rabs (eg L i col) <= la') ->
  Rabs (term L m col) <= la' * Q2R (piv_in A col rows m) + Q2R (piv_out A col rows m).
Proof.
  intros A L col rows la' m H Hr. unfold piv_in, piv_out. destruct (inrows rows m) eqn:E.
  - rewrite Q2R_0'. apply inrows_in in E as (i & Hi & <-).
    rewrite term_idx_l. pose proof (term_bound A L i col la' H (Hr i Hi)) as T.
    assert (C : cofhi A (idx i) col = cofhi A i col) by (unfold cofhi; rewrite !oth1_idx, !oth2_idx; reflexivity).
    rewrite C. lra.
  - rewrite Q2R_0', Q2R_mult. pose proof (term_bound A L m col _ H (hi_ge A L m col H)). lra.
Qed.

Lemma piv_lo_sound : forall A d L col rows la' pl, Gam2 (A, d) L -> piv_lo A d col rows = Some pl ->
  (forall i, In i rows -> Rabs (eg L i col) <= la') -> Q2R pl <= la'.
Proof.
  intros A d L col rows la' pl [H Hd] E Hr. cbn [fst snd] in *. unfold piv_lo in E.
  destruct (qlt 0 _) eqn:E0; [|discriminate]. injection E as <-.
  apply qlt_R in E0. rewrite Q2R_0' in E0.
  rewrite Q2R_div by (apply Q2R_pos_neq, E0). apply div_le; [exact E0|].
  rewrite Q2R_minus. rewrite !Q2R_plus in *.
  rewrite (det_col L col) in Hd.
  pose proof (piv_term A L col rows la' 0%nat H Hr).
  pose proof (piv_term A L col rows la' 1%nat H Hr).
  pose proof (piv_term A L col rows la' 2%nat H Hr).
  pose proof (abs3 (term L 0 col) (term L 1 col) (term L 2 col)). lra.
Qed.

(** ** soundness of the transfer functions: the operation succeeds and the new state is described *)
Lemma gamE_refine : forall A L i j a, GamE A L -> gq a (eg L i j) -> GamE (rset A i (vset (rget A i) j a)) L.
Proof.
  intros A L i j a H Ha. rewrite <- (rset_rget_same L i). apply (GamG_rset gq); [exact H|]. intro l.
  rewrite vget_vset. destruct (Nat.eqb (idx j) (idx l)) eqn:E; [|apply H].
  apply Nat.eqb_eq in E. rewrite <- (vget_idx _ l), <- E, vget_idx. exact Ha.
Qed.

(** The transfer functions accept one pair of comparison operators each. *)
Lemma cmp_ge_inv : forall {T} cmp (x : option T) y,
  match cmp with CGt | CGe => x | _ => None end = Some y -> (cmp = CGt \/ cmp = CGe) /\ x = Some y.
Proof. intros T [] x y H; try discriminate; auto. Qed.
Lemma cmp_le_inv : forall {T} cmp (x : option T) y,
  match cmp with CLe | CLt => x | _ => None end = Some y -> (cmp = CLe \/ cmp = CLt) /\ x = Some y.
Proof. intros T [] x y H; try discriminate; auto. Qed.

Lemma pivot_sound : forall col n rows cmp init st st' L Rr,
  abs2_op (OPivotSwap col n rows cmp init) st = Some st' -> Gam2 st L ->
  exists s', do_op Rnum (OPivotSwap col n rows cmp init) (L, Rr) = GOk s' /\ Gam2 st' (fst s').
Proof.
  intros col n rows cmp init [A d] st' L Rr E G. cbn [abs2_op fst snd] in E.
  apply cmp_ge_inv in E as [Hc E].
  destruct (piv_lo A d col rows) as [pl|] eqn:EP; [|discriminate].
  destruct (qlt init pl) eqn:EI; [|discriminate]. injection E as <-. apply qlt_R in EI.
  destruct (fp_spec cmp Hc col L rows (Q2R init) None) as (la' & H1 & H2 & H3).
  pose proof (piv_lo_sound A d L col rows la' pl G EP H2) as PL.
  destruct H3 as [[H3 H4] | (p & Hp & H3 & H4)]; [lra|].
  cbn [do_op fst snd]. change (n_ofQ Rnum init) with (Q2R init). rewrite H3.
  eexists. split; [reflexivity|].
  destruct G as [GA Gd]. cbn [fst snd] in GA, Gd.
  set (A1 := fold_left _ rows (rset A n _)).
  assert (G1 : forall b : bool, GamE A1 (if b then L else rswap L n p))
    by exact (swap_join_sound gq ajoin gq_join_l gq_join_r A L n rows p GA Hp).
  (* the pivot row now stands in row n, and its entry in the column is at least [pl] *)
  assert (B : forall L', GamE A1 L' -> eg L' n col = eg L p col ->
    GamE (rset A1 n (vset (rget A1 n) col (Aq (qmax (a_lo (aget A1 n col)) pl) (a_hi (aget A1 n col))))) L').
  { intros L' G PV. apply gamE_refine; [exact G|]. destruct (G n col) as [g1 g2]. split; cbn [a_lo a_hi]; [|exact g2].
    apply qmax_le; [exact g1|]. rewrite PV, <- H4. exact PL. }
  destruct (Nat.eqb p n) eqn:Epn; split; cbn [fst snd].
  - apply B; [exact (G1 true)|]. apply Nat.eqb_eq in Epn. rewrite Epn. reflexivity.
  - exact Gd.
  - apply B; [exact (G1 false)|]. unfold eg. rewrite rget_rswap_l. reflexivity.
  - rewrite det_rswap_abs. exact Gd.
Qed.

Lemma gq_zero : gq (Aq 0 0) 0.
Proof. unfold gq; cbn [a_lo a_hi]. rewrite Q2R_0', Rabs_R0. lra. Qed.
Lemma gq_one : gq (Aq 1 1) 1.
Proof. unfold gq; cbn [a_lo a_hi]. rewrite Q2R_1', Rabs_R1. lra. Qed.
Lemma abs_div_le : forall x v X P, Rabs x <= X -> 0 < P <= Rabs v -> Rabs (x / v) <= X / P.
Proof.
  intros x v X P Hx [HP Hv]. assert (v <> 0) by (intro C; subst; rewrite Rabs_R0 in Hv; lra).
  unfold Rdiv. rewrite Rabs_mult, Rabs_inv.
  apply Rmult_le_compat; [apply Rabs_pos | left; apply Rinv_0_lt_compat; lra | exact Hx | apply Rinv_le_contravar; lra].
Qed.

Lemma elim_sound : forall m p c st st' L Rr,
  abs2_op (OElim m p c) st = Some st' -> Gam2 st L ->
  exists s', do_op Rnum (OElim m p c) (L, Rr) = GOk s' /\ Gam2 st' (fst s').
Proof.
  intros m p c [A d] st' L Rr E G. cbn [abs2_op fst snd] in E.
  destruct (Nat.eqb (idx m) (idx p)) eqn:Emp; [discriminate|]. apply Nat.eqb_neq in Emp.
  destruct (qlt 0 (row_lo A d p c)) eqn:E0; [|discriminate]. injection E as <-.
  destruct (row_lo_pos A d L p c G E0) as [PL Hd]. destruct G as [GA Gd]. cbn [fst snd] in GA, Gd.
  assert (HV : Rabs (eg L m c / eg L p c) <= Q2R (hi A m c / row_lo A d p c)).
  { rewrite Q2R_div by (apply Q2R_pos_neq, PL). apply abs_div_le; [apply hi_ge, GA | exact PL]. }
  cbn [do_op fst snd n_is_zero n_div Rnum]. change (vget (rget L p) c) with (eg L p c). change (vget (rget L m) c) with (eg L m c).
  destruct (Req_EM_T (eg L p c) 0) as [C|_]; [contradiction|].
  eexists. split; [reflexivity|].
  split; cbn [fst snd].
  - unfold vsub. apply (GamG_rset_vbuild gq); [exact GA|]. intro j.
    unfold vmuls. rewrite vget_vbuild, vget_idx. cbn [n_sub n_mul Rnum]. fold (eg L m j) (eg L p j).
    destruct (Nat.eqb j (idx c)) eqn:Ej.
    + apply Nat.eqb_eq in Ej. subst j. rewrite !eg_idx_r.
      replace (eg L m c - eg L p c * (eg L m c / eg L p c)) with 0 by (field; exact Hd). apply gq_zero.
    + destruct (Qle_bool (hi A p j) 0) eqn:Ez.
      * apply Qle_bool_R in Ez. rewrite Q2R_0' in Ez. pose proof (hi_ge A L p j GA) as Hp.
        rewrite (Rabs_le0 (eg L p j)) by lra. rewrite Rmult_0_l, Rminus_0_r. apply GA.
      * unfold gq; cbn [a_lo a_hi]. rewrite Q2R_0'. split; [apply Rabs_pos|].
        rewrite Q2R_plus, Q2R_mult. unfold Rminus. eapply Rle_trans; [apply Rabs_triang|]. rewrite Rabs_Ropp, Rabs_mult.
        apply Rplus_le_compat; [apply hi_ge, GA|]. apply mul_le; split; try apply Rabs_pos; [apply hi_ge, GA | exact HV].
  - rewrite (det_elim L m p _ Emp). exact Gd.
Qed.

Lemma Rcmp_le_lt_false : forall cmp a b, cmp = CLe \/ cmp = CLt -> b < a -> Rcmp cmp a b = false.
Proof.
  intros cmp a b [->| ->] H; unfold Rcmp.
  - destruct (Rle_dec a b); [lra | reflexivity].
  - destruct (Rlt_dec a b); [lra | reflexivity].
Qed.

Lemma scale_sound : forall r c cmp thr st st' L Rr,
  abs2_op (OScale r c cmp thr) st = Some st' -> Gam2 st L ->
  exists s', do_op Rnum (OScale r c cmp thr) (L, Rr) = GOk s' /\ Gam2 st' (fst s').
Proof.
  intros r c cmp thr [A d] st' L Rr E G. cbn [abs2_op fst snd] in E.
  apply cmp_le_inv in E as [Hc E]. destruct (qlt thr (row_lo A d r c)) eqn:Et; [|discriminate].
  destruct (qlt 0 (row_lo A d r c)) eqn:E0; [|discriminate]. cbn [andb] in E. injection E as <-.
  apply qlt_R in Et. destruct (row_lo_pos A d L r c G E0) as [PL Hd]. destruct G as [GA Gd]. cbn [fst snd] in GA, Gd.
  cbn [do_op fst snd n_is_zero n_cmp n_abs n_ofQ Rnum]. change (vget (rget L r) c) with (eg L r c).
  rewrite (Rcmp_le_lt_false cmp _ _ Hc) by lra.
  destruct (Req_EM_T (eg L r c) 0) as [C|_]; [contradiction|].
  eexists. split; [reflexivity|].
  pose proof (hi_ge A L r c GA) as HH.
  split; cbn [fst snd].
  - unfold vdivs. apply (GamG_rset_vbuild gq); [exact GA|]. intro j. cbn [n_div Rnum]. fold (eg L r j).
    destruct (Nat.eqb j (idx c)) eqn:Ej.
    + apply Nat.eqb_eq in Ej. subst j. rewrite eg_idx_r.
      replace (eg L r c / eg L r c) with 1 by (field; exact Hd). apply gq_one.
    + unfold gq; cbn [a_lo a_hi]. rewrite Q2R_0'. split; [apply Rabs_pos|].
      rewrite Q2R_div by (apply Q2R_pos_neq, PL). apply abs_div_le; [apply hi_ge, GA | exact PL].
  - rewrite (det_scale L r _ Hd). assert (HP : 0 < Q2R (hi A r c)) by lra.
    rewrite Q2R_div by (apply Q2R_pos_neq, HP).
    unfold Rdiv at 2. rewrite Rabs_mult, Rabs_inv.
    destruct (Rle_or_lt 0 (Q2R d)) as [D|D].
    + apply Rmult_le_compat; [exact D | left; apply Rinv_0_lt_compat; exact HP | exact Gd | apply Rinv_le_contravar; lra].
    + assert (0 <= Rabs (det3 L) * / Rabs (eg L r c)).
      { apply Rmult_le_pos; [apply Rabs_pos | left; apply Rinv_0_lt_compat; lra]. }
      assert (Q2R d / Q2R (hi A r c) < 0); [|lra].
      unfold Rdiv. assert (0 < / Q2R (hi A r c)) by (apply Rinv_0_lt_compat; exact HP). nra.
Qed.

Lemma abs2_op_sound : forall o st st' L Rr, abs2_op o st = Some st' -> Gam2 st L ->
  exists s', do_op Rnum o (L, Rr) = GOk s' /\ Gam2 st' (fst s').
Proof.
  intros [col n rows cmp init | m p c | m p c cmp thr | r c cmp thr] st st' L Rr E G.
  - exact (pivot_sound col n rows cmp init st st' L Rr E G).
  - exact (elim_sound m p c st st' L Rr E G).
  - (* a skip guard that fires only for a zero multiplier: the same operation *)
    cbn [abs2_op] in E. destruct (skip_exact cmp thr) eqn:SE; [|discriminate].
    rewrite (elimskip_equiv m p c cmp thr (L, Rr) SE). exact (elim_sound m p c st st' L Rr E G).
  - exact (scale_sound r c cmp thr st st' L Rr E G).
Qed.

Lemma abs2_run_sound : forall ops st st' s, abs2_run ops st = Some st' -> Gam2 st (fst s) ->
  exists s', gj_run Rnum ops s = GOk s' /\ Gam2 st' (fst s').
Proof.
  induction ops as [|o ops IH]; intros st st' [L Rr] E G; cbn [abs2_run gj_run] in *.
  - injection E as <-. exists (L, Rr). split; [reflexivity | exact G].
  - destruct (abs2_op o st) as [st1|] eqn:E1; [|discriminate].
    destruct (abs2_op_sound o st st1 L Rr E1 G) as (s1 & R1 & G1). rewrite R1. apply (IH st1 st' s1 E G1).
Qed.

(** ** rotations *)
Lemma rot_init_gam : forall m, rotation m -> Gam2 rot_init (rows_of m).
Proof.
  intros m Hm. destruct (rotation_entries_le1 m Hm) as (E1 & E2 & E3 & E4 & E5 & E6 & E7 & E8 & E9). split.
  - intros [|[|i]] [|[|j]]; cbv [gq aget eg rot_init unit_iv rows_of fst rget vget a_lo a_hi];
      rewrite Q2R_0', Q2R_1'; (split; [apply Rabs_pos | assumption]).
  - cbn [snd rot_init]. rewrite Q2R_1'. unfold det3, mat_of, rows_of; cbn [rget vget]. rewrite <- mat_eta.
    destruct Hm as [_ ->]. rewrite Rabs_R1. lra.
Qed.

(** ** the theorems *)
(** Every program accepted by the test returns on every matrix described by the initial abstract state. *)
Theorem gj_inverse_total_from : forall st p, init_l_ok p = true -> total_from st p = true ->
  forall m, Gam2 st (rows_of m) -> exists n, gj_inverse Rnum p (rows_of m) = GOk n.
Proof.
  intros st p Hl HT m G. unfold total_from in HT.
  destruct (abs2_run (gp_ops p) st) as [st'|] eqn:E; [|discriminate].
  unfold gj_inverse. rewrite (init_l_ok_id p Hl).
  destruct (abs2_run_sound (gp_ops p) st st' (rows_of m, init_r Rnum p) E G) as (s' & R1 & _).
  rewrite R1. eexists. reflexivity.
Qed.

(** inverse() returns (raises neither ArithmeticError nor ZeroDivisionError) on every rotation, in exact arithmetic. *)
Theorem gj_inverse_total : forall p, gj_total_ok p = true ->
  forall m, rotation m -> exists n, gj_inverse Rnum p (rows_of m) = GOk n.
Proof.
  intros p OK m Hm. unfold gj_total_ok in OK. apply andb_prop in OK as [Hl HT].
  exact (gj_inverse_total_from rot_init p Hl HT m (rot_init_gam m Hm)).
Qed.

(** inverse() = transpose() on rotations: it returns, and what it returns is the transpose. *)
Theorem gj_inverse_rotation_is_transpose : forall p, gj_prog_ok p = true -> gj_total_ok p = true ->
  forall m, rotation m -> exists n, gj_inverse Rnum p (rows_of m) = GOk n /\ mat_of n = transpose m.
Proof.
  intros p OK OT m Hm. destruct (gj_inverse_total p OT m Hm) as (n & E). exists n. split; [exact E|].
  exact (gauss_jordan_inverse_rotation p OK m n Hm E).
Qed.
