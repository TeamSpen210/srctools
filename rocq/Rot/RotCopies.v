(** C04 — the zero-argument matrix conversions (copy, freeze, thaw, _new_copy, __deepcopy__): format of the generated table
    (Gen/RotCopies_gen.v) and its acceptance test.  The translator classifies each method by symbolic execution of its body:
    either `return self` (alias) or a NEW matrix whose nine slots are, field for field, the nine slots of the receiver (anything
    else - a transposed, permuted or partial copy - fails closed); the table records which, and the class of the new object. *)
From Coq Require Import List Bool.
Import ListNotations.

Inductive cmeth := CCopy | CDeepcopy | CFreeze | CThaw | CNewCopy.
Record crow := CRow {
  cr_frozen : bool;          (* the receiver's class is FrozenMatrix *)
  cr_meth : cmeth;
  cr_alias : bool;           (* returns the receiver itself *)
  cr_result_frozen : bool }. (* class of the new object (when not an alias) *)

(** copy / deepcopy of a frozen matrix may be the matrix itself (it is immutable); of a mutable one it is a new mutable matrix;
    freeze gives a new frozen one, thaw a new mutable one, _new_copy a new object of the receiver's class even when frozen
    (it is what `@` multiplies in place - with a `return self` there `@` would overwrite its frozen operand). *)
Definition crow_ok (r : crow) : bool :=
  match cr_meth r with
  | CCopy | CDeepcopy => if cr_frozen r then cr_alias r || cr_result_frozen r
                         else negb (cr_alias r) && negb (cr_result_frozen r)
  | CFreeze => negb (cr_frozen r) && negb (cr_alias r) && cr_result_frozen r
  | CThaw => cr_frozen r && negb (cr_alias r) && negb (cr_result_frozen r)
  | CNewCopy => negb (cr_alias r) && Bool.eqb (cr_result_frozen r) (cr_frozen r)
  end.
Definition cmeth_eqb (a b : cmeth) : bool :=
  match a, b with CCopy, CCopy | CDeepcopy, CDeepcopy | CFreeze, CFreeze | CThaw, CThaw | CNewCopy, CNewCopy => true | _, _ => false end.
Definition c_covered (t : list crow) : bool :=
  forallb (fun fm => existsb (fun r => Bool.eqb (fst fm) (cr_frozen r) && cmeth_eqb (snd fm) (cr_meth r)) t)
    [(false, CCopy); (true, CCopy); (false, CDeepcopy); (true, CDeepcopy); (false, CFreeze); (true, CThaw);
     (false, CNewCopy); (true, CNewCopy)].
Definition copies_ok (t : list crow) : bool := forallb crow_ok t && c_covered t.
