(** C04 — Matrix -> Angle -> Matrix at the float level, away from the gimbal band: composition of the exact Euler round trip
    (Rot/RotEulerProofs.v) with the binary64 error bound of the arithmetic of from_angle (Rot/RotRoundTied.v).

    For an exact rotation [m] outside the band let [a] be its exact Euler angles ([to_angle], atan2 by its specification).  If
    the six numbers the float from_angle runs on (what libm returned for sin / cos of the float angles that the float
    _to_angle produced) are within [d] of the real sin / cos of [a], then every entry of the float matrix is within [tol] of
    the entry of [m].  Everything that is not + - * (atan2, degrees, % 360, radians, sin, cos in binary64) is inside the one
    visible hypothesis, which the check measures on every run against 50-digit arithmetic. *)
From Coq Require Import List Reals Qreals.
From SV Require Import Rot.RotBase Rot.RotRound Rot.RotRoundFlocq Rot.RotRoundTied Rot.RotAlgebra Rot.RotEuler
  Rot.RotEulerProofs Gen.RotFormulas_gen Gen.RotRounded_gen.
Import ListNotations.
Local Open Scope R_scope.

Theorem euler_roundtrip_binary64 : forall atan2, atan2_spec atan2 ->
  forall d tol, errs_within_in 1 d tol from_angle_fe = true ->
  forall m, rotation m -> horiz m > 1 / 1000 ->
  forall inp,
    (forall n, Rabs (inp n - from_angle_inputs (a_pitch (to_angle atan2 m)) (a_yaw (to_angle atan2 m))
                                               (a_roll (to_angle atan2 m)) n) <= Q2R d) ->
  forall i, (i < 9)%nat ->
    Rabs (nth i (map (fe_fl rnd64 inp) from_angle_fe) 0
          - nth i [aa m; ab m; ac m; ba m; bb m; bc m; ca m; cb m; cc m] 0) <= Q2R tol.
Proof.
  intros atan2 A d tol Hok m Hm Hh inp Hinp i Hi.
  pose proof (from_angle_binary64_error d tol Hok _ _ _ inp Hinp i Hi) as [E _].
  cbv zeta in E. rewrite <- from_angle_obj_eq in E.
  replace (from_angle_obj (to_angle atan2 m)) with m in E by (symmetry; apply (euler_roundtrip atan2 A m Hm Hh)).
  exact E.
Qed.
