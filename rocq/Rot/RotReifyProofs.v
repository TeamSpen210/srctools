(** C04 — the reified pieces (Gen/RotReified_gen.v) denote the generated formulas (Gen/RotFormulas_gen.v), and what
    the decidable acceptance tests of Rot/RotReify.v mean.
      [ta_guard_tied], [mat_mul_self_tied], [mat_mul_ss_tied]: the translator's expansion is right (ring);
      [guard_ok_horiz]: an accepted guard is "horizontal length of the forward row > 1/1000" (generic in the guard);
      [entries_inj] with the two ties: equal polynomial lists make _mat_mul safe for one object on both sides. *)
From Coq Require Import Reals Lra Qreals List.
From SV Require Import Rot.RotBase Rot.RotGJProofs Rot.RotReify Gen.RotFormulas_gen Gen.RotReified_gen Rot.RotEuler.
Import ListNotations.
Local Open Scope R_scope.

Lemma atom_eqb_eq : forall a b, atom_eqb a b = true -> a = b.
Proof. intros [i|i] [j|j] H; cbn in H; try discriminate; apply Nat.eqb_eq in H; subst; reflexivity. Qed.
Lemma term_eqb_eq : forall a b, term_eqb a b = true -> a = b.
Proof.
  intros [c m] [d n] H. unfold term_eqb in H; cbn in H. apply andb_prop in H as [H1 H2].
  apply Z.eqb_eq in H1. apply (list_eqb_eq _ atom_eqb_eq) in H2. subst. reflexivity.
Qed.
Lemma poly_eqb_eq : forall p q, poly_eqb p q = true -> p = q.
Proof. exact (list_eqb_eq _ term_eqb_eq). Qed.

(** ** the guard *)
Theorem guard_ok_horiz : forall c, guard_cfg_ok c = true -> forall m, guard_den c m <-> horiz m > 1 / 1000.
Proof.
  intros [op lhs rhs] H m. unfold guard_cfg_ok, guard_operator_ok, guard_literal_ok, guard_operand_ok in H; cbn in H.
  apply andb_prop in H as [H H3]. apply andb_prop in H as [H1 H2].
  destruct op; try discriminate. destruct lhs as [p|p]; [discriminate|]. apply poly_eqb_eq in H3. subst p.
  apply Qeq_bool_eq, Qeq_eqR in H2. unfold guard_den; cbn [g_op g_lhs g_rhs cmp_den gexpr_den]. rewrite H2.
  replace (Q2R (1 # 1000)) with (1 / 1000) by (unfold Q2R; cbn; lra).
  unfold horiz, horiz_sq_poly; cbn [poly_den mono_den atom_den slot_of fst snd].
  match goal with |- sqrt ?a > _ <-> sqrt ?b > _ => replace a with b by ring end. tauto.
Qed.

(** The reified guard is the generated guard. *)
Lemma ta_guard_tied : forall s, ta_guard s <-> guard_den ta_guard_cfg s.
Proof.
  intro s. unfold ta_guard, guard_den, ta_guard_cfg; cbn [g_op g_lhs g_rhs cmp_den gexpr_den].
  unfold Q2R; cbn [Qnum Qden poly_den mono_den atom_den slot_of fst snd].
  match goal with
  | |- (?f (sqrt ?a) ?c) <-> (?g (sqrt ?b) ?d) => replace b with a by ring; replace d with c by lra; tauto
  | |- (?f ?a ?c) <-> (?g ?b ?d) => replace b with a by ring; replace d with c by lra; tauto
  end.
Qed.

(** Hence: if today's guard is accepted, the generated test is the engine's threshold on the horizontal length. *)
Theorem ta_guard_accepted_horiz : guard_cfg_ok ta_guard_cfg = true -> forall m, ta_guard m <-> horiz m > 1 / 1000.
Proof. intros H m. rewrite ta_guard_tied. apply guard_ok_horiz, H. Qed.

(** ** the pitch component *)
(** The reified pitch components are the generated ones (both branches). *)
Lemma ta_pitch_tied : forall s,
  comp_den s ta_pitch_main_cfg (fst (fst (ta_main s))) /\ comp_den s ta_pitch_lock_cfg (fst (fst (ta_lock s))).
Proof.
  intro s. unfold ta_pitch_main_cfg, ta_pitch_lock_cfg, ta_main, ta_lock; cbn [fst snd comp_den].
  unfold Q2R; cbn [gexpr_den Qnum Qden poly_den mono_den atom_den slot_of fst snd].
  split; repeat split; first [ring | f_equal; ring | lra].
Qed.

(** ** aliasing in _mat_mul *)
Lemma mat_mul_self_tied : forall s, map (poly_den s s) mat_mul_self_polys = entries (mat_mul_self s).
Proof.
  intro s. unfold mat_mul_self_polys, mat_mul_self, entries; cbn [map poly_den mono_den atom_den slot_of fst snd aa ab ac ba bb bc ca cb cc].
  repeat (apply f_equal2; [ring|]). reflexivity.
Qed.
Lemma mat_mul_ss_tied : forall s, map (poly_den s s) mat_mul_ss_polys = entries (mat_mul s s).
Proof.
  intro s. unfold mat_mul_ss_polys, mat_mul, entries; cbn [map poly_den mono_den atom_den slot_of fst snd aa ab ac ba bb bc ca cb cc].
  repeat (apply f_equal2; [ring|]). reflexivity.
Qed.
Lemma entries_inj : forall m n, entries m = entries n -> m = n.
Proof. intros [] [] H. unfold entries in H; cbn in H. injection H as -> -> -> -> -> -> -> -> ->. reflexivity. Qed.
