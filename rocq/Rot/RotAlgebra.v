(** C04 — algebra of the GENERATED rotation formulas (Gen/RotFormulas_gen.v): proofs.
    Everything here is about the expression trees read out of math.py; a source edit changes them and these proofs are
    re-checked. *)
From Coq Require Import Reals Psatz.
From SV Require Import Rot.RotBase Gen.RotFormulas_gen.
Open Scope R_scope.

(** The Angle-object path and the three-float path of from_angle compute the same matrix. *)
Lemma from_angle_obj_eq : forall a, from_angle_obj a = from_angle (a_pitch a) (a_yaw a) (a_roll a).
Proof. intro a. unfold from_angle_obj, from_angle. apply mat_ext; ring. Qed.

(** *** Composition *)
Lemma mat_mul_assoc : forall a b c, mat_mul (mat_mul a b) c = mat_mul a (mat_mul b c).
Proof. intros. unfold mat_mul; cbn [aa ab ac ba bb bc ca cb cc]. apply mat_ext; ring. Qed.

Lemma vec_rot_assoc : forall v a b, vec_rot b (vec_rot a v) = vec_rot (mat_mul a b) v.
Proof.
  intros. unfold vec_rot, mat_mul; cbn [aa ab ac ba bb bc ca cb cc vx vy vz]. apply vec_ext; ring.
Qed.

Lemma mat_mul_I_l : forall m, mat_mul I3 m = m.
Proof. intro m. rewrite (mat_eta m) at 2. unfold mat_mul, I3; cbn [aa ab ac ba bb bc ca cb cc]. apply mat_ext; ring. Qed.
Lemma mat_mul_I_r : forall m, mat_mul m I3 = m.
Proof. intro m. rewrite (mat_eta m) at 2. unfold mat_mul, I3; cbn [aa ab ac ba bb bc ca cb cc]. apply mat_ext; ring. Qed.
Lemma vec_rot_I : forall v, vec_rot I3 v = v.
Proof. intros [x y z]. unfold vec_rot, I3; cbn [aa ab ac ba bb bc ca cb cc vx vy vz]. apply vec_ext; ring. Qed.

Lemma det_mul : forall a b, det (mat_mul a b) = det a * det b.
Proof. intros. unfold det, mat_mul; cbn [aa ab ac ba bb bc ca cb cc]. ring. Qed.

Lemma transpose_involutive : forall m, transpose (transpose m) = m.
Proof. intros []. reflexivity. Qed.
Lemma det_transpose : forall m, det (transpose m) = det m.
Proof. intros. unfold det, transpose; cbn [aa ab ac ba bb bc ca cb cc]. ring. Qed.
Lemma transpose_mul : forall a b, transpose (mat_mul a b) = mat_mul (transpose b) (transpose a).
Proof. intros. unfold transpose, mat_mul; cbn [aa ab ac ba bb bc ca cb cc]. apply mat_ext; ring. Qed.

(** *** Orthonormal rows say [m * transpose m = I3] *)
Lemma orthonormal_mul_transpose : forall m, orthonormal m -> mat_mul m (transpose m) = I3.
Proof.
  intros m (H1 & H2 & H3 & H4 & H5 & H6). unfold mat_mul, transpose, I3; cbn [aa ab ac ba bb bc ca cb cc].
  apply mat_ext; lra.
Qed.

Lemma mul_transpose_I_orthonormal : forall m, mat_mul m (transpose m) = I3 -> orthonormal m.
Proof.
  intros [a1 a2 a3 b1 b2 b3 c1 c2 c3]. unfold mat_mul, transpose, I3, orthonormal; cbn [aa ab ac ba bb bc ca cb cc].
  intro H. injection H as E1 E2 E3 E4 E5 E6 E7 E8 E9. repeat split; lra.
Qed.

Lemma I3_eq : forall m, m = I3 -> orthonormal m.
Proof. intros m ->. unfold orthonormal, I3; cbn [aa ab ac ba bb bc ca cb cc]. repeat split; ring. Qed.

Lemma rotation_I3 : rotation I3.
Proof. split; [apply I3_eq; reflexivity | unfold det, I3; cbn [aa ab ac ba bb bc ca cb cc]; ring]. Qed.

(** *** The transpose of a rotation is its adjugate.
    The adjugate is a left inverse up to the determinant for every matrix; for a rotation [m * transpose m = I3] then
    makes it equal to the transpose.  Entry by entry this says that each row is the cross product of the other two, and
    it gives the orthonormality of the columns. *)
Definition adj (m : mat) : mat :=
  Mat (bb m * cc m - bc m * cb m) (ac m * cb m - ab m * cc m) (ab m * bc m - ac m * bb m)
      (bc m * ca m - ba m * cc m) (aa m * cc m - ac m * ca m) (ac m * ba m - aa m * bc m)
      (ba m * cb m - bb m * ca m) (ab m * ca m - aa m * cb m) (aa m * bb m - ab m * ba m).

Lemma adj_mul : forall m, mat_mul (adj m) m = Mat (det m) 0 0  0 (det m) 0  0 0 (det m).
Proof. intro m. unfold mat_mul, adj, det; cbn [aa ab ac ba bb bc ca cb cc]. apply mat_ext; ring. Qed.

Lemma rotation_transpose_adj : forall m, rotation m -> transpose m = adj m.
Proof.
  intros m [O D].
  rewrite <- (mat_mul_I_r (adj m)), <- (orthonormal_mul_transpose m O), <- mat_mul_assoc, adj_mul, D.
  symmetry. apply mat_mul_I_l.
Qed.

Lemma transpose_mul_rotation : forall m, rotation m -> mat_mul (transpose m) m = I3.
Proof. intros m Hm. rewrite (rotation_transpose_adj m Hm), adj_mul. destruct Hm as [_ ->]. reflexivity. Qed.

Lemma rotation_cross : forall m, rotation m ->
  ca m = ab m * bc m - ac m * bb m /\ cb m = ac m * ba m - aa m * bc m /\ cc m = aa m * bb m - ab m * ba m.
Proof.
  intros m Hm. pose proof (rotation_transpose_adj m Hm) as E.
  split; [|split]; [exact (f_equal ac E) | exact (f_equal bc E) | exact (f_equal cc E)].
Qed.

Lemma orthonormal_transpose : forall m, rotation m -> orthonormal (transpose m).
Proof.
  intros m Hm. apply mul_transpose_I_orthonormal. rewrite transpose_involutive. apply transpose_mul_rotation, Hm.
Qed.

Lemma rotation_transpose : forall m, rotation m -> rotation (transpose m).
Proof. intros m H. split; [apply orthonormal_transpose, H | rewrite det_transpose; apply H]. Qed.

(** *** inverse = transpose on rotations *)
Lemma rotation_inverse_is_transpose : forall m, rotation m ->
  mat_mul m (transpose m) = I3 /\ mat_mul (transpose m) m = I3 /\
  (forall n, mat_mul n m = I3 -> n = transpose m) /\ (forall n, mat_mul m n = I3 -> n = transpose m).
Proof.
  intros m Hm.
  assert (R : mat_mul m (transpose m) = I3) by (apply orthonormal_mul_transpose, Hm).
  assert (L : mat_mul (transpose m) m = I3) by (apply transpose_mul_rotation, Hm).
  repeat split; trivial.
  - intros n Hn. rewrite <- (mat_mul_I_r n), <- R, <- mat_mul_assoc, Hn. apply mat_mul_I_l.
  - intros n Hn. rewrite <- (mat_mul_I_l n), <- L, mat_mul_assoc, Hn. apply mat_mul_I_r.
Qed.

(** Products of rotations are rotations (so every value reachable by @ is covered). *)
Lemma rotation_mul : forall a b, rotation a -> rotation b -> rotation (mat_mul a b).
Proof.
  intros a b Ha Hb. split.
  - apply mul_transpose_I_orthonormal. rewrite transpose_mul, mat_mul_assoc, <- (mat_mul_assoc b).
    rewrite (orthonormal_mul_transpose b) by apply Hb. rewrite mat_mul_I_l. apply orthonormal_mul_transpose, Ha.
  - rewrite det_mul. destruct Ha as [_ ->], Hb as [_ ->]. ring.
Qed.

(** Every entry of a rotation is at most 1 in absolute value. *)
Lemma sq_le1 : forall x y z, x * x + y * y + z * z = 1 -> Rabs x <= 1.
Proof. intros x y z H. apply Rabs_le. split; nra. Qed.
Lemma rotation_entries_le1 : forall m, rotation m ->
  Rabs (aa m) <= 1 /\ Rabs (ab m) <= 1 /\ Rabs (ac m) <= 1 /\ Rabs (ba m) <= 1 /\ Rabs (bb m) <= 1 /\ Rabs (bc m) <= 1 /\
  Rabs (ca m) <= 1 /\ Rabs (cb m) <= 1 /\ Rabs (cc m) <= 1.
Proof.
  intros [a b c d e f g h k] [(N1 & N2 & N3 & _) _]. cbn [aa ab ac ba bb bc ca cb cc] in *.
  repeat split.
  - apply (sq_le1 a b c); lra.
  - apply (sq_le1 b a c); lra.
  - apply (sq_le1 c a b); lra.
  - apply (sq_le1 d e f); lra.
  - apply (sq_le1 e d f); lra.
  - apply (sq_le1 f d e); lra.
  - apply (sq_le1 g h k); lra.
  - apply (sq_le1 h g k); lra.
  - apply (sq_le1 k g h); lra.
Qed.

(** The largest of three numbers that add up to 1 (the squares of a row or a column of a rotation). *)
Lemma third_le_max : forall x y z, x + y + z = 1 -> 1 / 3 <= Rmax x (Rmax y z).
Proof.
  intros x y z H. pose proof (Rmax_l x (Rmax y z)). pose proof (Rmax_r x (Rmax y z)).
  pose proof (Rmax_l y z). pose proof (Rmax_r y z). lra.
Qed.

(** Rotating preserves length: [|v m|^2 = v (m * transpose m) v^T]. *)
Lemma vec_rot_adjoint : forall m v u,
  vx (vec_rot m v) * vx u + vy (vec_rot m v) * vy u + vz (vec_rot m v) * vz u =
  vx v * vx (vec_rot (transpose m) u) + vy v * vy (vec_rot (transpose m) u) + vz v * vz (vec_rot (transpose m) u).
Proof. intros. unfold vec_rot, transpose; cbn [aa ab ac ba bb bc ca cb cc vx vy vz]. ring. Qed.

Lemma vec_rot_len : forall m v, rotation m ->
  let w := vec_rot m v in vx w * vx w + vy w * vy w + vz w * vz w = vx v * vx v + vy v * vy v + vz v * vz v.
Proof.
  intros m v [Hm _] w. unfold w.
  rewrite vec_rot_adjoint, vec_rot_assoc, (orthonormal_mul_transpose m Hm), vec_rot_I. reflexivity.
Qed.

(** *** The elementary rotations, and from_angle as their product *)
Lemma sc1 : forall x, cos x * cos x + sin x * sin x = 1.
Proof. intro x. generalize (sin2_cos2 x). unfold Rsqr. lra. Qed.

Lemma from_axis_rotation : forall t, rotation (from_pitch t) /\ rotation (from_yaw t) /\ rotation (from_roll t).
Proof.
  intro t. unfold rotation, orthonormal, det, from_pitch, from_yaw, from_roll; cbn [aa ab ac ba bb bc ca cb cc].
  pose proof (sc1 (radians t)). repeat split; lra.
Qed.

(** Source convention: roll about X, then pitch about Y, then yaw about Z (row vectors: v @ M = v * M) *)
Lemma from_angle_convention : forall p y r,
  from_angle p y r = mat_mul (mat_mul (from_roll r) (from_pitch p)) (from_yaw y).
Proof.
  intros p y r. unfold from_angle, mat_mul, from_roll, from_pitch, from_yaw; cbn [aa ab ac ba bb bc ca cb cc].
  apply mat_ext; ring.
Qed.

Lemma from_angle_rotation : forall p y r, rotation (from_angle p y r).
Proof. intros. rewrite from_angle_convention. repeat apply rotation_mul; apply from_axis_rotation. Qed.

Lemma from_angle_orthonormal : forall p y r, orthonormal (from_angle p y r).
Proof. intros. apply from_angle_rotation. Qed.

Lemma from_angle_det_one : forall p y r, det (from_angle p y r) = 1.
Proof. intros. apply from_angle_rotation. Qed.

(** Each elementary rotation fixes its own axis ... *)
Lemma axis_fixed : forall t,
  vec_rot (from_roll t) (Vec3 1 0 0) = Vec3 1 0 0 /\
  vec_rot (from_pitch t) (Vec3 0 1 0) = Vec3 0 1 0 /\
  vec_rot (from_yaw t) (Vec3 0 0 1) = Vec3 0 0 1.
Proof.
  intro t. unfold vec_rot, from_roll, from_pitch, from_yaw; cbn [aa ab ac ba bb bc ca cb cc vx vy vz].
  repeat split; apply vec_ext; ring.
Qed.

(** ... and turns in the engine's direction: +90 yaw takes forward (x) to left (y), +90 pitch takes forward to
    down (-z), +90 roll takes left (y) to up (z). *)
Lemma radians_90 : radians 90 = PI / 2.
Proof. unfold radians. field. Qed.
Lemma handedness :
  vec_rot (from_yaw 90) (Vec3 1 0 0) = Vec3 0 1 0 /\
  vec_rot (from_pitch 90) (Vec3 1 0 0) = Vec3 0 0 (-1) /\
  vec_rot (from_roll 90) (Vec3 0 1 0) = Vec3 0 0 1.
Proof.
  unfold vec_rot, from_roll, from_pitch, from_yaw; cbn [aa ab ac ba bb bc ca cb cc vx vy vz].
  rewrite radians_90, cos_PI2, sin_PI2. repeat split; apply vec_ext; ring.
Qed.
