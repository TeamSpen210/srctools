(** C04 — non-vacuity of the Gauss-Jordan theorems: a literal copy of today's program is accepted by [gj_prog_ok], and the
    interpreter over the reals returns on the identity matrix (so the hypothesis [gj_inverse Rnum p m = GOk n] is satisfiable). *)
From Coq Require Import List QArith.
From SV Require Import Rot.RotBase Rot.RotAlgebra Rot.RotGJ Rot.RotGJProofs Rot.RotGJTotal Rot.RotGJTotalProofs.
Import ListNotations.
Local Open Scope R_scope.

Definition gj_ref_prog : gj_prog := GjProg [0;1;2;3;4;5;6;7;8]%nat [1;0;0;0;1;0;0;0;1]%Q
  [OPivotSwap 0 0 [0;1;2]%nat CGt 0; OElim 1 0 0; OElim 2 0 0; OPivotSwap 1 1 [1;2]%nat CGt 0; OElim 2 1 1;
   OElim 1 2 2; OElim 0 2 2; OElim 0 1 1; OScale 0 0 CLe (1#100000); OScale 1 1 CLe (1#100000); OScale 2 2 CLe (1#100000)]
  [(0, 0); (0, 1); (0, 2); (1, 0); (1, 1); (1, 2); (2, 0); (2, 1); (2, 2)]%nat.

Lemma rows_of_mat_of : forall n, rows_of (mat_of n) = n.
Proof. intros [[[[a b] c] [[d e] f]] [[g h] k]]. reflexivity. Qed.

(** The program is accepted by [gj_total_ok] too (non-vacuity of the totality theorems, Rot/RotGJTotalProofs.v) ... *)
Example gj_ref_total : gj_total_ok gj_ref_prog = true /\ rotation I3.
Proof. split; [vm_compute; reflexivity | exact rotation_I3]. Qed.

(** ... so on the identity, a rotation, the interpreter returns the transpose: the identity. *)
Example gj_identity : gj_prog_ok gj_ref_prog = true /\ gj_inverse Rnum gj_ref_prog (rows_of I3) = GOk (rows_of I3).
Proof.
  assert (OK : gj_prog_ok gj_ref_prog = true) by (vm_compute; reflexivity).
  split; [exact OK|]. destruct gj_ref_total as [OT HI].
  destruct (gj_inverse_rotation_is_transpose gj_ref_prog OK OT I3 HI) as (n & E & T).
  rewrite E, <- (rows_of_mat_of n), T. reflexivity.
Qed.
