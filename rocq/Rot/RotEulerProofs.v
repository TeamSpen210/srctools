(** C04 — Euler extraction: round trip outside the gimbal band, error bound inside it.  Proofs. *)
From Coq Require Import Reals Psatz.
From SV Require Import Rot.RotBase Gen.RotFormulas_gen Rot.RotAlgebra Rot.RotEuler.
Open Scope R_scope.

(** *** degrees / radians / % 360 are invisible to sin and cos *)
Lemma radians_degrees : forall t, radians (degrees t) = t.
Proof. intro t. unfold radians, degrees. field. apply PI_neq0. Qed.
Lemma radians_0 : radians 0 = 0.
Proof. unfold radians. field. Qed.

Lemma trig_shift_nat : forall x (n : nat), cos (x - 2 * PI * INR n) = cos x /\ sin (x - 2 * PI * INR n) = sin x.
Proof.
  intros x n. split.
  - rewrite <- (cos_period (x - 2 * PI * INR n) n). f_equal. ring.
  - rewrite <- (sin_period (x - 2 * PI * INR n) n). f_equal. ring.
Qed.
Lemma trig_shift_Z : forall x (k : Z), cos (x - 2 * PI * IZR k) = cos x /\ sin (x - 2 * PI * IZR k) = sin x.
Proof.
  intros x k. destruct (Z_le_gt_dec 0 k) as [H|H].
  - rewrite <- (Z2Nat.id k H), <- INR_IZR_INZ. apply trig_shift_nat.
  - assert (E : k = (- Z.of_nat (Z.to_nat (- k)))%Z) by (rewrite Z2Nat.id; lia).
    rewrite E, opp_IZR, <- INR_IZR_INZ.
    replace (x - 2 * PI * - INR (Z.to_nat (- k))) with (x + 2 * INR (Z.to_nat (- k)) * PI) by ring.
    split; [apply cos_period | apply sin_period].
Qed.

Lemma trig_pymod360 : forall d,
  cos (radians (pymod d ta_modulus)) = cos (radians d) /\ sin (radians (pymod d ta_modulus)) = sin (radians d).
Proof.
  intro d. unfold pymod, ta_modulus.
  replace (radians (d - 360 * IZR (Int_part (d / 360)))) with (radians d - 2 * PI * IZR (Int_part (d / 360)))
    by (unfold radians; field).
  apply trig_shift_Z.
Qed.

Lemma trig_iter_pymod : forall n d,
  cos (radians (Nat.iter n (fun d => pymod d ta_modulus) d)) = cos (radians d) /\
  sin (radians (Nat.iter n (fun d => pymod d ta_modulus) d)) = sin (radians d).
Proof.
  induction n as [|n IH]; intro d; [split; reflexivity|].
  change (Nat.iter (S n) (fun d0 => pymod d0 ta_modulus) d)
    with (pymod (Nat.iter n (fun d0 => pymod d0 ta_modulus) d) ta_modulus).
  destruct (trig_pymod360 (Nat.iter n (fun d => pymod d ta_modulus) d)) as [-> ->]. apply IH.
Qed.

(** However the source writes the squared horizontal length (today with [** 2]). *)
Lemma horiz_eq : forall m e, e = aa m * aa m + ab m * ab m -> sqrt e = horiz m.
Proof. intros m e ->. reflexivity. Qed.

(** Bounds used inside the gimbal band. *)
Lemma circle_bound : forall x y e, 0 <= e -> x * x + y * y = e * e -> (- e <= x <= e) /\ (- e <= y <= e).
Proof. intros. nra. Qed.
Lemma mul_bound : forall x y e, -1 <= x <= 1 -> - e <= y <= e -> - e <= x * y <= e.
Proof. intros. nra. Qed.

(** [(x, y)] from its two products with [(a1, a2)]: inverts the matrix [[a1 a2] [-a2 a1]]. *)
Lemma solve_rot2 : forall a1 a2 x y p q s, s = a1 * a1 + a2 * a2 -> s <> 0 ->
  a1 * x + a2 * y = p -> a1 * y - a2 * x = q -> x = (a1 * p - a2 * q) / s /\ y = (a2 * p + a1 * q) / s.
Proof. intros; subst; split; field; assumption. Qed.

(** The guard in the source is the comparison of the horizontal length with 0.001. *)
Lemma ta_guard_horiz : forall m, ta_guard m <-> horiz m > 1 / 1000.
Proof.
  intro m. unfold ta_guard. match goal with |- context [sqrt ?e] => rewrite (horiz_eq m e) by ring end. tauto.
Qed.

(** Facts about a rotation used by both branches. *)
Lemma rot_facts : forall m, rotation m ->
  let h := horiz m in
  0 <= h /\ h * h = aa m * aa m + ab m * ab m /\ h * h + ac m * ac m = 1 /\ bc m * bc m + cc m * cc m = h * h /\
  ba m * ba m + bb m * bb m = 1 - bc m * bc m.
Proof.
  intros m Hm h. pose proof (orthonormal_transpose m Hm) as (T1 & T2 & T3 & _).
  destruct Hm as [(H1 & H2 & H3 & _) _]. unfold transpose in *; cbn [aa ab ac ba bb bc ca cb cc] in *.
  assert (Hh : h * h = aa m * aa m + ab m * ab m) by (unfold h, horiz; apply sqrt_sqrt; nra).
  repeat split; try lra. apply sqrt_pos.
Qed.

Section WithAtan2.
  Variable atan2 : R -> R -> R.
  Hypothesis A : atan2_spec atan2.

  Lemma ta_eval_trig : forall n y x r, 0 < r -> r * r = x * x + y * y ->
    cos (radians (ta_eval atan2 (TaAtan2 n y x))) = x / r /\ sin (radians (ta_eval atan2 (TaAtan2 n y x))) = y / r.
  Proof.
    intros n y x r Hr E. cbn [ta_eval]. destruct (trig_iter_pymod n (degrees (atan2 y x))) as [-> ->].
    rewrite radians_degrees, <- (sqrt_square r), E by lra. apply A. nra.
  Qed.

  (** *** Round trip outside the gimbal band *)
  Lemma euler_roundtrip : forall m, rotation m -> horiz m > 1 / 1000 ->
    from_angle_obj (to_angle atan2 m) = m.
  Proof.
    intros m Hm Hh. pose proof (rot_facts m Hm) as (h0 & hh & h1 & h2 & _).
    pose proof (rotation_transpose_adj m Hm) as X. pose proof Hm as [(_ & _ & _ & O4 & O5 & _) _].
    unfold to_angle. destruct (ta_guard_dec m) as [G|G]; [|exfalso; apply G, ta_guard_horiz, Hh].
    rewrite from_angle_obj_eq. unfold ta_ang, ta_main; cbn [fst snd a_pitch a_yaw a_roll].
    match goal with |- context [sqrt ?e] => rewrite (horiz_eq m e) by ring end. set (h := horiz m) in *.
    (* the number of [% 360] reductions of each component is whatever the source has today *)
    match goal with |- context [ta_eval atan2 (TaAtan2 ?n (- ac m) h)] =>
      destruct (ta_eval_trig n (- ac m) h 1) as [Ecp Esp]; [lra | lra |] end.
    match goal with |- context [ta_eval atan2 (TaAtan2 ?n (ab m) (aa m))] =>
      destruct (ta_eval_trig n (ab m) (aa m) h) as [Ecy Esy]; [lra | lra |] end.
    match goal with |- context [ta_eval atan2 (TaAtan2 ?n (bc m) (cc m))] =>
      destruct (ta_eval_trig n (bc m) (cc m) h) as [Ecr Esr]; [lra | lra |] end.
    unfold from_angle. rewrite Ecp, Esp, Ecy, Esy, Ecr, Esr. clear Ecp Esp Ecy Esy Ecr Esr G.
    clearbody h. destruct m as [a1 a2 a3 b1 b2 b3 c1 c2 c3].
    unfold transpose, adj in X; cbn [aa ab ac ba bb bc ca cb cc] in *. injection X as _ _ _ _ _ _ _ B3 C3.
    (* the first row, b3 and c3 are read off directly; they determine the rest of the second and third rows *)
    destruct (solve_rot2 a1 a2 b1 b2 (- (a3 * b3)) c3 (h * h)) as [Eb1 Eb2]; [lra | nra | lra | lra |].
    destruct (solve_rot2 a1 a2 c1 c2 (- (a3 * c3)) (- b3) (h * h)) as [Ec1 Ec2]; [lra | nra | lra | lra |].
    apply mat_ext; [field | field | field | rewrite Eb1; field | rewrite Eb2; field | field
                   | rewrite Ec1; field | rewrite Ec2; field | field]; lra.
  Qed.

  (** *** Inside the gimbal band: every entry is reproduced within twice the horizontal length *)
  Lemma gimbal_error_bound : forall m, rotation m -> horiz m <= 1 / 1000 ->
    mat_close (2 * horiz m) (from_angle_obj (to_angle atan2 m)) m.
  Proof.
    intros m Hm Hh. pose proof (rot_facts m Hm) as (h0 & hh & h1 & h2 & h3).
    destruct (rotation_cross m Hm) as (C1 & C2 & C3).
    unfold to_angle. destruct (ta_guard_dec m) as [G|G]; [apply ta_guard_horiz in G; lra|].
    rewrite from_angle_obj_eq. unfold ta_ang, ta_lock; cbn [fst snd a_pitch a_yaw a_roll].
    match goal with |- context [sqrt ?e] => rewrite (horiz_eq m e) by ring end. set (h := horiz m) in *.
    set (n := sqrt (bb m * bb m + - ba m * - ba m)).
    assert (nn : n * n = 1 - bc m * bc m) by (unfold n; rewrite sqrt_sqrt; nra).
    assert (npos : 0 < n) by (apply sqrt_lt_R0; nra).
    match goal with |- context [ta_eval atan2 (TaAtan2 ?k (- ac m) h)] =>
      destruct (ta_eval_trig k (- ac m) h 1) as [Ecp Esp]; [lra | lra |] end.
    match goal with |- context [ta_eval atan2 (TaAtan2 ?k (- ba m) (bb m))] =>
      destruct (ta_eval_trig k (- ba m) (bb m) n) as [Ecy Esy]; [lra | lra |] end.
    unfold from_angle.
    rewrite Ecp, Esp, Ecy, Esy. cbn [ta_eval]. rewrite radians_0, cos_0, sin_0. clear Ecp Esp Ecy Esy G.
    clearbody n h. destruct m as [a1 a2 a3 b1 b2 b3 c1 c2 c3]; cbn [aa ab ac ba bb bc ca cb cc] in *.
    subst c1 c2 c3.
    (* With p = b2 / n and q = b1 / n (a unit vector) the nine differences are
         h p - a1,  - h q - a2,  0,   q - b1,  p - b2,  - b3,   - a3 (p - b2) - a2 b3,  a3 (q - b1) + a1 b3,  h - c3,
       and p - b2 = p (1 - n), q - b1 = q (1 - n) with 0 <= 1 - n <= b3^2 <= h^2 <= h. *)
    assert (pq : b2 / n * (b2 / n) + b1 / n * (b1 / n) = 1 * 1).
    { replace (1 * 1) with ((b1 * b1 + b2 * b2) / (n * n)) by (rewrite h3, <- nn; field; lra). field. lra. }
    destruct (circle_bound _ _ 1 Rle_0_1 pq) as [pb qb].
    destruct (circle_bound a1 a2 h h0 (eq_sym hh)) as [a1b a2b].
    destruct (circle_bound _ _ h h0 h2) as [b3b c3b].
    destruct (circle_bound h a3 1 Rle_0_1) as [_ a3b]; [lra|].
    assert (gap : - (h * h) <= 1 - n <= h * h) by (clear - nn npos b3b; nra).
    assert (hsq : h * h <= h) by (clear - h0 Hh; nra).
    pose proof (mul_bound _ _ _ pb gap) as dp. pose proof (mul_bound _ _ _ qb gap) as dq.
    replace (b2 / n * (1 - n)) with (b2 / n - b2) in dp by (field; lra).
    replace (b1 / n * (1 - n)) with (b1 / n - b1) in dq by (field; lra).
    assert (hh' : - h <= h <= h) by lra.
    pose proof (mul_bound _ _ _ pb hh'). pose proof (mul_bound _ _ _ qb hh').
    pose proof (mul_bound _ _ _ a3b dp). pose proof (mul_bound _ _ _ a3b dq).
    assert (a1' : -1 <= a1 <= 1) by lra. assert (a2' : -1 <= a2 <= 1) by lra.
    pose proof (mul_bound _ _ _ a1' b3b). pose proof (mul_bound _ _ _ a2' b3b).
    unfold mat_close; cbn [aa ab ac ba bb bc ca cb cc].
    repeat split; apply Rabs_le; lra.
  Qed.
End WithAtan2.

(** Non-vacuity witnesses for the hypotheses of the two Euler theorems. *)
Lemma rotation_I3_main : rotation I3 /\ horiz I3 > 1 / 1000.
Proof.
  split; [exact rotation_I3|].
  unfold horiz, I3; cbn [aa ab]. replace (1 * 1 + 0 * 0) with 1 by ring. rewrite sqrt_1. lra.
Qed.
Lemma rotation_pole_lock :
  rotation (Mat 0 0 (-1)  0 1 0  1 0 0) /\ horiz (Mat 0 0 (-1)  0 1 0  1 0 0) <= 1 / 1000.
Proof.
  split.
  - unfold rotation, orthonormal, det; cbn [aa ab ac ba bb bc ca cb cc]. repeat split; ring.
  - unfold horiz; cbn [aa ab]. replace (0 * 0 + 0 * 0) with 0 by ring. rewrite sqrt_0. lra.
Qed.
