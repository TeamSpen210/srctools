(** C04 — census of the process state of srctools/math.py: format of the generated census (Gen/RotState_gen.v), its
    decidable acceptance test, and what an accepted census means for a HISTORY of public calls: every call returns what it
    returns as the first call of a new process.  "Every matrix built from an Euler angle agrees with the Source convention"
    quantifies over calls, not over first calls: a memo table keyed by part of the arguments (seeded fault c04_8), a shared
    default, a class-level cache make the answer depend on what was asked before.  No reals; decidable part by vm_compute. *)
From Coq Require Import List Bool String.
Import ListNotations.

Record state_census := StateCensus {
  (* objects that outlive a call: module-level and class-level bindings to a mutable value (dict / list / set displays,
     comprehensions, results of calls that are not constructors of the frozen classes or typing helpers) *)
  sc_reads : list string;          (* ... those that the body of some function reads *)
  sc_writes : list string;         (* ... those that the body of some function updates, rebinds, deletes or lets escape *)
  sc_write_sites : list string;    (* the sites (function:line: text) of these updates / escapes *)
  sc_class_writes : list string;   (* stores into a class object from inside a function: cls.x = / type(self).x = / setattr(cls, ..) *)
  sc_decorators : list string;     (* decorators other than the stateless ones (a cache / memo decorator keeps a table) *)
  sc_defaults : list string;       (* parameter defaults that are mutable objects (shared by all calls) *)
  sc_globals : list string;        (* global / nonlocal declarations *)
  sc_reflective : list string;     (* globals() / vars() / exec / eval / __dict__ / sys.modules inside a function *)
  sc_imports : list string }.      (* imports from outside the standard library (state the census cannot see) *)

Definition is_nil {A} (l : list A) : bool := match l with [] => true | _ => false end.
Definition mem (s : string) (l : list string) : bool := existsb (String.eqb s) l.

(** No function reads an object that some function can update (what history independence needs) ... *)
Definition reads_not_written (c : state_census) : bool := forallb (fun n => negb (mem n (sc_writes c))) (sc_reads c).
(** ... and, stricter, the named parts of the acceptance test: nothing that outlives a call is updated at all. *)
Definition no_long_lived_object_updated (c : state_census) : bool := is_nil (sc_writes c) && is_nil (sc_write_sites c).
Definition no_class_attribute_stored (c : state_census) : bool := is_nil (sc_class_writes c).
Definition no_caching_decorator (c : state_census) : bool := is_nil (sc_decorators c).
Definition no_mutable_default (c : state_census) : bool := is_nil (sc_defaults c).
Definition no_global_declaration (c : state_census) : bool := is_nil (sc_globals c).
Definition no_reflective_access (c : state_census) : bool := is_nil (sc_reflective c).
Definition no_foreign_import (c : state_census) : bool := is_nil (sc_imports c).
Definition state_ok (c : state_census) : bool :=
  reads_not_written c && no_long_lived_object_updated c && no_class_attribute_stored c && no_caching_decorator c &&
  no_mutable_default c && no_global_declaration c && no_reflective_access c && no_foreign_import c.

Lemma mem_In : forall s l, mem s l = true <-> In s l.
Proof.
  intros s l. unfold mem. rewrite existsb_exists. split.
  - intros (x & Hx & E). apply String.eqb_eq in E. subst. exact Hx.
  - intro H. exists s. split; [exact H | apply String.eqb_refl].
Qed.

Lemma reads_not_written_sound : forall c, reads_not_written c = true -> forall n, In n (sc_reads c) -> ~ In n (sc_writes c).
Proof.
  intros c H n Hn Hw. unfold reads_not_written in H. rewrite forallb_forall in H. specialize (H n Hn).
  apply negb_true_iff in H. apply mem_In in Hw. congruence.
Qed.

Lemma is_nil_true : forall {A} (l : list A), is_nil l = true -> l = [].
Proof. intros A [|x l] H; [reflexivity | discriminate]. Qed.

Lemma state_ok_parts : forall c, state_ok c = true ->
  reads_not_written c = true /\ sc_writes c = [] /\ sc_write_sites c = [] /\ sc_class_writes c = [] /\ sc_decorators c = [] /\
  sc_defaults c = [] /\ sc_globals c = [] /\ sc_reflective c = [] /\ sc_imports c = [].
Proof.
  intros c H. unfold state_ok, no_long_lived_object_updated in H. rewrite !andb_true_iff in H.
  destruct H as [[[[[[[R [W S]] C] D] F] G] X] I].
  repeat split; try apply is_nil_true; assumption.
Qed.

(** * Meaning: calls over a store of long-lived objects.  [run a g] is one public call with arguments [a] (which entry point and
    which values) in the process state [g]: what it returns and the state it leaves.  A FOOTPRINT (R, W) of [run]: objects outside
    W are left as they were, and the result depends on the state through the objects in R only.  That the census computes a
    footprint of the real module is the trusted step (the census reads the source; Python's scoping rules); the theorem says
    what follows from it. *)
Section History.
  Variables V A B : Type.
  Definition store := string -> V.
  Variable run : A -> store -> B * store.

  Definition footprint (R W : list string) : Prop :=
    (forall a g n, ~ In n W -> snd (run a g) n = g n) /\
    (forall a g g', (forall n, In n R -> g n = g' n) -> fst (run a g) = fst (run a g')).

  (** the state after a history of earlier calls *)
  Fixpoint after (h : list A) (g : store) : store :=
    match h with [] => g | a :: h' => after h' (snd (run a g)) end.

  Lemma after_frame : forall R W, footprint R W -> forall h g n, ~ In n W -> after h g n = g n.
  Proof.
    intros R W [Fw _] h. induction h as [|a h IH]; intros g n Hn; cbn [after]; [reflexivity|].
    rewrite (IH _ n Hn). apply Fw. exact Hn.
  Qed.

  Theorem history_independent : forall R W, footprint R W -> (forall n, In n R -> ~ In n W) ->
    forall h a g, fst (run a (after h g)) = fst (run a g).
  Proof.
    intros R W F D h a g. apply (proj2 F). intros n Hn. apply (after_frame R W F), D, Hn.
  Qed.

  (** An accepted census: whatever was called before (any entry points, any arguments, calls that raised included - a raise is a
      result), a call returns what it returns in the initial state. *)
  Theorem state_ok_history_independent : forall c, state_ok c = true -> footprint (sc_reads c) (sc_writes c) ->
    forall h a g, fst (run a (after h g)) = fst (run a g).
  Proof.
    intros c H F. apply (history_independent (sc_reads c) (sc_writes c) F).
    apply reads_not_written_sound. apply (state_ok_parts c H).
  Qed.
End History.

(** * The rejected shape (seeded fault c04_8): a memo table keyed by the text alone.  The census of such a module lists the table
    under reads and writes; the acceptance test rejects it; and the shape does violate history independence: a concrete [run]
    with exactly that footprint returns the fallback of the FIRST call for the same text. *)
Local Open Scope string_scope.
Definition memo_census : state_census :=
  StateCensus ["_ANGSTR_CACHE"; "_IND_TO_SLOT"] ["_ANGSTR_CACHE"] ["from_angstr:1800: _ANGSTR_CACHE[val] = Py_FrozenMatrix(mat)"]
              [] [] [] [] [] [].

Definition memo_run (a : string * nat) (g : store (list (string * nat))) : nat * store (list (string * nat)) :=
  let tbl := g "_ANGSTR_CACHE" in
  match find (fun e => String.eqb (fst e) (fst a)) tbl with
  | Some e => (snd e, g)
  | None => (snd a, fun n => if String.eqb n "_ANGSTR_CACHE" then a :: tbl else g n)
  end.

Lemma memo_footprint : footprint _ _ _ memo_run ["_ANGSTR_CACHE"] ["_ANGSTR_CACHE"].
Proof.
  split.
  - intros a g n Hn. unfold memo_run. destruct (find _ _); cbn [snd]; [reflexivity|].
    destruct (String.eqb n "_ANGSTR_CACHE") eqn:E; [|reflexivity]. apply String.eqb_eq in E. subst. exfalso. apply Hn. left. reflexivity.
  - intros a g g' H. unfold memo_run. rewrite (H "_ANGSTR_CACHE" (or_introl eq_refl)). destruct (find _ _); reflexivity.
Qed.

Definition memo_refuted_statement : Prop :=
  state_ok memo_census = false /\ reads_not_written memo_census = false /\
  footprint _ _ _ memo_run ["_ANGSTR_CACHE"] ["_ANGSTR_CACHE"] /\
  (* from_angstr('', yaw=0) then from_angstr('', yaw=90): the second call answers 0; alone it answers 90 *)
  fst (memo_run ("", 90) (after _ _ _ memo_run [("", 0)] (fun _ => []))) = 0 /\
  fst (memo_run ("", 90) (fun _ => [])) = 90.

Lemma memo_by_text_refuted : memo_refuted_statement.
Proof. split; [|split; [|split; [exact memo_footprint|]]]; repeat split. Qed.

(** Non-vacuity: a census with a constant table that is only read is accepted. *)
Definition constant_table_census : state_census := StateCensus ["_IND_TO_SLOT"] [] [] [] [] [] [] [] [].
Example constant_table_accepted : state_ok constant_table_census = true.
Proof. reflexivity. Qed.
