From Coq Require Import Reals List String Lra.
From Flocq Require Import BinarySingleNaN.
From SV Require Import Num.Mod360 Num.Mod360Proofs Num.AngleSites.
Import ListNotations.

Lemma zero_in_range : in_range (B754_zero false).
Proof. split; simpl; auto. lra. Qed.

Lemma update_Forall P n x l : Forall P l -> P x -> Forall P (update n x l).
Proof.
  revert n; induction l as [|y r IH]; intros n Hl Hx; simpl; auto.
  inversion Hl; subst. destruct n; constructor; auto.
Qed.

Lemma nth_in_range n st : Forall in_range st -> in_range (nth n st (B754_zero false)).
Proof.
  revert n; induction st as [|y r IH]; intros [|n] H; simpl; try apply zero_in_range.
  - inversion H; auto.
  - inversion H; auto.
Qed.

Lemma eval_rhs_in_range r v s : rhs_safe r = true -> is_finite v = true -> in_range s -> in_range (eval_rhs r v s).
Proof.
  destruct r; simpl; try discriminate; intros _ Hv Hs.
  - exact (norm360_range v Hv).
  - exact Hs.
  - apply zero_in_range.
Qed.

Lemma all_sites_safe_nth sites n nm r : all_sites_safe sites = true -> nth_error sites n = Some (nm, r) -> rhs_safe r = true.
Proof.
  unfold all_sites_safe. rewrite forallb_forall. intros H E. apply nth_error_In in E. exact (H _ E).
Qed.

(** If every store site is safe, every angle slot is in [0,360) after ANY history of stores with finite
    inputs and allocations. *)
Theorem angle_range_invariant sites : all_sites_safe sites = true ->
  forall es st, Forall in_range st -> finite_inputs es -> Forall in_range (run sites es st).
Proof.
  intros Hs es. unfold run. induction es as [|e es IH]; intros st Hst Hf; simpl; auto.
  inversion Hf; subst. apply IH; auto.
  destruct e as [o|]; simpl.
  - unfold step. destruct (nth_error sites (site o)) as [[nm r]|] eqn:E; auto.
    apply update_Forall; auto. apply eval_rhs_in_range; auto.
    + eapply all_sites_safe_nth; eauto.
    + apply nth_in_range; auto.
  - unfold alloc. apply Forall_app. split; auto. repeat constructor; apply zero_in_range.
Qed.

(** ERROR PATHS.  The events of the model are the individual STORES, not the calls: a call that raises half-way
    (a bad second component, an iterator that fails, a body that raises inside transform()) has executed a PREFIX of the
    stores it would have made and the caller carries on with what is left behind.  The invariant holds after every such
    prefix, whatever the skipped stores would have been - there is no store that is "repaired later" by another one. *)
Corollary angle_range_after_interrupted_call sites : all_sites_safe sites = true ->
  forall done skipped st, Forall in_range st -> finite_inputs done -> Forall in_range (run sites done st) /\
    (finite_inputs skipped -> Forall in_range (run sites (done ++ skipped) st)).
Proof.
  intros Hs d k st Hst Hd. split.
  - apply angle_range_invariant; auto.
  - intros Hk. apply angle_range_invariant; auto. unfold finite_inputs in *. apply Forall_app. split; assumption.
Qed.

Example invariant_not_vacuous :
  all_sites_safe [("Angle.pitch"%string, Double360); ("Angle.freeze"%string, CopyFromAngle)] = true.
Proof. reflexivity. Qed.
