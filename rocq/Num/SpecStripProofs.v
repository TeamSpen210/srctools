(** C05 (c) — the zero stripping of __format__ removes trailing zeros of the FRACTION only. *)
From Coq Require Import NArith List Bool Lia.
From SV Require Import Num.SpecStrip.
Import ListNotations.
Open Scope N_scope.

Lemma rstrip_cons_ne c y r : ss_rstrip c r <> [] -> ss_rstrip c (y :: r) = y :: ss_rstrip c r.
Proof. intros H. cbn [ss_rstrip]. destruct (ss_rstrip c r); [contradiction|reflexivity]. Qed.

Lemma rstrip_ne c x t : N.eqb x c = false -> ss_rstrip c (x :: t) <> [].
Proof. intros Hx. cbn [ss_rstrip]. destruct (ss_rstrip c t); [rewrite Hx|]; discriminate. Qed.

Lemma rstrip_cons_not c x t : N.eqb x c = false -> ss_rstrip c (x :: t) = x :: ss_rstrip c t.
Proof. intros Hx. cbn [ss_rstrip]. destruct (ss_rstrip c t); [rewrite Hx|]; reflexivity. Qed.

Lemma rstrip_app_not c s x t : N.eqb x c = false -> ss_rstrip c (s ++ x :: t) = s ++ ss_rstrip c (x :: t).
Proof.
  intros Hx. pose proof (rstrip_ne c x t Hx) as Hne. induction s as [|y s IH]; [reflexivity|].
  change ((y :: s) ++ x :: t) with (y :: (s ++ x :: t)). rewrite rstrip_cons_ne.
  - rewrite IH. reflexivity.
  - rewrite IH. intro E. apply app_eq_nil in E. tauto.
Qed.

Lemma rstrip_repeat c n : ss_rstrip c (repeat c n) = [].
Proof. induction n as [|n IH]; simpl; auto. rewrite IH. rewrite N.eqb_refl. reflexivity. Qed.

Lemma rstrip_app_repeat c s n : ss_rstrip c (s ++ repeat c n) = ss_rstrip c s.
Proof.
  induction s as [|x s IH]; [apply rstrip_repeat|].
  change ((x :: s) ++ repeat c n) with (x :: (s ++ repeat c n)). cbn [ss_rstrip]. rewrite IH. reflexivity.
Qed.

Lemma rstrip_no_c c s : ss_has c s = false -> ss_rstrip c s = s.
Proof.
  induction s as [|x s IH]; [reflexivity|]. unfold ss_has. cbn [existsb]. intros H.
  apply Bool.orb_false_iff in H. destruct H as [Hx Hs]. rewrite rstrip_cons_not by (rewrite N.eqb_sym; exact Hx).
  f_equal. apply IH. exact Hs.
Qed.

Lemma rstrip_suffix_no_c c a b : ss_has c b = false -> b <> [] -> ss_rstrip c (a ++ b) = a ++ b.
Proof.
  intros Hb Hne. induction a as [|y a IH]; [apply rstrip_no_c; exact Hb|].
  change ((y :: a) ++ b) with (y :: (a ++ b)). rewrite rstrip_cons_ne; rewrite IH; auto.
  intro E. apply app_eq_nil in E. tauto.
Qed.

Lemma rstrip_idem c s : ss_rstrip c (ss_rstrip c s) = ss_rstrip c s.
Proof.
  induction s as [|x s IH]; [reflexivity|]. cbn [ss_rstrip]. destruct (ss_rstrip c s) as [|y r] eqn:E.
  - destruct (N.eqb x c) eqn:Ex; [reflexivity|]. cbn [ss_rstrip]. rewrite Ex. reflexivity.
  - rewrite rstrip_cons_ne; rewrite IH; [reflexivity|discriminate].
Qed.

Lemma rstrip_length c s : (length (ss_rstrip c s) <= length s)%nat.
Proof.
  induction s as [|x s IH]; [simpl; lia|]. cbn [ss_rstrip]. destruct (ss_rstrip c s) as [|y r].
  - destruct (N.eqb x c); simpl; lia.
  - simpl in *. lia.
Qed.

(** every text is its [ss_rstrip] followed by copies of the stripped character ... *)
Lemma rstrip_decomp c s : exists n, s = ss_rstrip c s ++ repeat c n.
Proof.
  induction s as [|x s IH]; [exists 0%nat; reflexivity|]. destruct IH as [n Hn]. cbn [ss_rstrip].
  destruct (ss_rstrip c s) as [|y r].
  - simpl in Hn. destruct (N.eqb x c) eqn:Ex.
    + apply N.eqb_eq in Ex. subst x. exists (S n). simpl. f_equal. exact Hn.
    + exists n. simpl. f_equal. exact Hn.
  - exists n. simpl. f_equal. exact Hn.
Qed.

(** ... and the stripped text does not end in it *)
Lemma rstrip_last c s p x : ss_rstrip c s = p ++ [x] -> x <> c.
Proof.
  intros E Hx. subst x. pose proof (rstrip_idem c s) as Hi. rewrite E in Hi.
  change [c] with (repeat c 1) in Hi. rewrite rstrip_app_repeat in Hi.
  pose proof (rstrip_length c p) as Hl. rewrite Hi in Hl. rewrite app_length in Hl. simpl in Hl. lia.
Qed.

Lemma has_app c a b : ss_has c (a ++ b) = ss_has c a || ss_has c b.
Proof. unfold ss_has. apply existsb_app. Qed.

Lemma digits_has_not c s : ss_digits s = true -> ss_is_digit c = false -> ss_has c s = false.
Proof.
  unfold ss_digits, ss_has. intros Hd Hc. induction s as [|x s IH]; simpl; auto.
  simpl in Hd. apply andb_prop in Hd. destruct Hd as [Hx Hs]. rewrite IH by auto.
  destruct (N.eqb c x) eqn:E; auto. apply N.eqb_eq in E. subst. congruence.
Qed.

Lemma digits_app a b : ss_digits (a ++ b) = true -> ss_digits a = true /\ ss_digits b = true.
Proof. unfold ss_digits. rewrite forallb_app. apply andb_prop. Qed.

(** rstrip('0') of  pre ++ "." ++ frac  works on the fraction only *)
Lemma rstrip_zero_frac pre frac : ss_rstrip 48 (pre ++ 46 :: frac) = pre ++ 46 :: ss_rstrip 48 frac.
Proof. rewrite rstrip_app_not by reflexivity. rewrite rstrip_cons_not by reflexivity. reflexivity. Qed.

(** rstrip('.') afterwards removes the dot exactly when nothing of the fraction is left *)
Lemma rstrip_dot_frac pre f : ss_has 46 pre = false -> ss_has 46 f = false ->
  ss_rstrip 46 (pre ++ 46 :: f) = pre ++ (match f with [] => [] | _ => 46 :: f end).
Proof.
  intros Hp Hf. destruct f as [|y r].
  - change [46] with (repeat 46 1). rewrite rstrip_app_repeat. rewrite app_nil_r. apply rstrip_no_c. exact Hp.
  - change (pre ++ 46 :: y :: r) with (pre ++ [46] ++ y :: r). rewrite app_assoc.
    rewrite rstrip_suffix_no_c; [rewrite <- app_assoc; reflexivity | exact Hf | discriminate].
Qed.

(** FIXED-POINT TEXTS.  For a configuration that passes [spec_cfg_ok] and a text  pre ++ "." ++ frac  where [pre] (sign
    and integer digits, possibly with padding or thousands separators) contains no '.', 'e', 'E' and [frac] consists
    of digits: the result is the same text with the trailing zeros of [frac] removed, and without the dot when nothing
    of [frac] is left.  Nothing else changes: no character of [pre], no non-zero digit of the fraction. *)
Theorem spec_post_fixed k pre frac :
  spec_cfg_ok k = true -> spec_neg_zero_fix k = false ->
  ss_has 46 pre = false -> ss_has 101 pre = false -> ss_has 69 pre = false -> ss_digits frac = true ->
  exists frac' n, frac = frac' ++ repeat 48 n /\ (forall p x, frac' = p ++ [x] -> x <> 48) /\
    spec_post k (pre ++ 46 :: frac) = pre ++ (match frac' with [] => [] | _ => 46 :: frac' end).
Proof.
  intros Hok Hfix Hp1 Hp2 Hp3 Hfrac.
  unfold spec_cfg_ok in Hok. apply andb_prop in Hok. destruct Hok as [Hok Hdot].
  apply andb_prop in Hok. destruct Hok as [Hok Hsz]. apply andb_prop in Hok. destruct Hok as [Hgd Hge].
  destruct (rstrip_decomp 48 frac) as [n Hs].
  exists (ss_rstrip 48 frac), n. split; [exact Hs|]. split; [intros p x E; exact (rstrip_last 48 frac p x E)|].
  assert (Hf' : ss_digits (ss_rstrip 48 frac) = true) by (rewrite Hs in Hfrac; apply digits_app in Hfrac; tauto).
  assert (Hg : ss_guard k (pre ++ 46 :: frac) = true).
  { assert (H46 : ss_has 46 (pre ++ 46 :: frac) = true).
    { rewrite has_app. change (ss_has 46 (46 :: frac)) with (N.eqb 46 46 || ss_has 46 frac). rewrite N.eqb_refl. apply Bool.orb_true_r. }
    assert (H101 : ss_has 101 (pre ++ 46 :: frac) = false).
    { rewrite has_app, Hp2. change (ss_has 101 (46 :: frac)) with (N.eqb 101 46 || ss_has 101 frac).
      rewrite (digits_has_not 101 frac) by (auto; reflexivity). reflexivity. }
    assert (H69 : ss_has 69 (pre ++ 46 :: frac) = false).
    { rewrite has_app, Hp3. change (ss_has 69 (46 :: frac)) with (N.eqb 69 46 || ss_has 69 frac).
      rewrite (digits_has_not 69 frac) by (auto; reflexivity). reflexivity. }
    unfold ss_guard. rewrite Hgd, Hge, H46, H101, H69. reflexivity. }
  unfold spec_post. rewrite Hg, Hsz, Hfix. cbn [andb]. rewrite rstrip_zero_frac.
  assert (Hd := rstrip_dot_frac pre (ss_rstrip 48 frac) Hp1 (digits_has_not 46 _ Hf' eq_refl)).
  destruct (strip_dot k) eqn:Esd.
  - rewrite Hd. destruct (dot_outside k); [|reflexivity]. rewrite <- Hd. apply rstrip_idem.
  - cbn [orb] in Hdot. rewrite Hdot. exact Hd.
Qed.

Lemma rstrip_last_not c s x : N.eqb x c = false -> ss_rstrip c (s ++ [x]) = s ++ [x].
Proof. intros Hx. rewrite rstrip_app_not by auto. cbn [ss_rstrip]. rewrite Hx. reflexivity. Qed.

(** TEXTS WITH AN EXPONENT are handed on unchanged (the zeros at their end belong to the exponent). *)
Theorem spec_post_exponent k s :
  guard_no_exp k = true -> dot_outside k = false \/ (forall p, s <> p ++ [46]) ->
  ss_has 101 s = true \/ ss_has 69 s = true -> spec_post k s = s.
Proof.
  intros Hg Hdot He. unfold spec_post, ss_guard. rewrite Hg. cbn [negb orb].
  assert (E : ss_has 101 s || ss_has 69 s = true) by (destruct He as [He|He]; rewrite He; auto using Bool.orb_true_r).
  rewrite E. cbn [negb]. rewrite Bool.andb_false_r.
  assert (Hb : (if dot_outside k then ss_rstrip 46 s else s) = s).
  { destruct (dot_outside k); auto. destruct Hdot as [?|Hn]; [discriminate|].
    destruct s as [|a t _] using rev_ind; [reflexivity|].
    apply rstrip_last_not. destruct (N.eqb a 46) eqn:Ea; auto. apply N.eqb_eq in Ea. subst. exfalso. apply (Hn t). reflexivity. }
  rewrite Hb.
  destruct (spec_neg_zero_fix k); auto. cbn [andb].
  destruct s as [|a [|b [|c r]]]; cbn [ss_eq]; auto.
  - rewrite Bool.andb_false_r. reflexivity.
  - destruct (N.eqb a 45) eqn:Ea; cbn [andb]; auto. destruct (N.eqb b 48) eqn:Eb; cbn [andb]; auto.
    apply N.eqb_eq in Ea, Eb. subst. vm_compute in E. discriminate.
  - rewrite !Bool.andb_false_r. reflexivity.
Qed.

(** Without the exponent guard (the pinned tree before the repair): "1.5e+20" becomes "1.5e+2". *)
Definition cfg_unguarded : spec_cfg :=
  {| guard_dot := true; guard_no_exp := false; strip_zeros := true; strip_dot := true; dot_outside := false; spec_neg_zero_fix := false |}.
Definition cfg_guarded : spec_cfg :=
  {| guard_dot := true; guard_no_exp := true; strip_zeros := true; strip_dot := true; dot_outside := false; spec_neg_zero_fix := false |}.

Example spec_post_examples :
  spec_cfg_ok cfg_guarded = true /\
  spec_post cfg_guarded [49; 48; 48; 46; 48; 48; 48] = [49; 48; 48] /\                        (* "100.000" -> "100" *)
  spec_post cfg_guarded [45; 48; 46; 53; 48] = [45; 48; 46; 53] /\                            (* "-0.50" -> "-0.5" *)
  spec_post cfg_guarded [51; 49; 52; 46; 48; 48; 37] = [51; 49; 52; 46; 48; 48; 37].          (* "314.00%" unchanged *)
Proof. repeat split. Qed.
