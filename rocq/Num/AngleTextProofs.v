(** C05 (a)+(c) composed — str(angle) -> parse_vec_str -> float() -> the constructor's [% 360.0 % 360.0]:
    every component of an angle that satisfies the range invariant comes back as a double in [0, 360) that is within
    5e-7 + ulp/2 of the original ON THE CIRCLE (a component such as 359.9999997 prints as "360", is read back as
    360.0 and stored as 0.0: the distance is measured modulo 360).

    Arithmetic fact needed for that: Python's [% 360.0] is EXACT subtraction of 360 on [360, 720)
    (Num/Mod360Id.v, [double360_shift]).

    Uses Flocq's real-number rounding (float() = round to nearest even, Num/VecTextFloat.v), hence the classical
    axioms of Coq's Reals - the same four as the other range theorems. *)
From Coq Require Import Reals Lia Lra List.
From Flocq Require Import Core BinarySingleNaN.
From SV Require Import Num.Mod360 Num.Mod360Proofs Num.Mod360Id Num.AngleSites Num.Dec6 Num.Dec6Proofs
                       Num.VecText Num.VecTextProofs Num.VecTextFloat Num.AngleText.
Import ListNotations.
Open Scope R_scope.

Theorem double360_sub x : is_finite x = true -> 360 <= B2R x < 720 ->
  B2R (double360 x) = B2R x - 360 /\ is_finite (double360 x) = true.
Proof.
  intros Hx Hr. destruct (double360_shift x 1 Hx) as [E F]; [lia|simpl; lra|]. split; [rewrite E; simpl; lra|exact F].
Qed.

Lemma dy_of_R x : is_finite x = true -> dy_R (dy_of x) = B2R x.
Proof.
  destruct x as [s|s| |s m e Hb]; try discriminate; intros _.
  - unfold dy_R; simpl. ring.
  - unfold dy_R, dy_of; cbn [dneg dm de]. unfold B2R, F2R; cbn [Fnum Fexp].
    destruct s; unfold sgnR; cbn [cond_Zopp Z.of_N Z.opp].
    + change (Z.neg m) with (- Z.pos m)%Z. rewrite opp_IZR. ring.
    + ring.
Qed.

(** a slot in range is never negative: its dyadic has no sign or is a zero *)
Lemma in_range_sign x : in_range x -> dneg (dy_of x) = false \/ dm (dy_of x) = 0%N.
Proof.
  intros [Fx Rx]. destruct x as [s|s| |s m e Hb]; try discriminate; [right; reflexivity|]. left.
  apply (nonneg_finite_sign s m e Hb). lra.
Qed.

(** the field printed for a number that is not negative decodes to a decimal that is not negative (the carved-out
    "-0" decodes to 0) *)
Lemma dec_of_parts_nonneg c x : dneg x = false \/ dm x = 0%N -> 0 <= dec_R (dec_of_parts (fmt_parts c x)).
Proof.
  intros Hs. destruct (fmt_parts_wf c x) as (_ & _ & _ & Hl). unfold dec_of_parts, dec_R.
  assert (P10 : 0 < IZR (10 ^ Z.of_nat (length (pfrac (fmt_parts c x))))) by (apply IZR_lt, Z.pow_pos_nonneg; lia).
  destruct (N.eq_dec (scaled6 x) 0) as [Ez|En].
  - (* the printed value is zero: numerator 0 *)
    pose proof (dec_of_parts_scaled _ Hl) as S. rewrite format6_value, Ez in S.
    apply N.eq_mul_0 in S. destruct S as [S|S].
    + rewrite S. simpl. unfold Rdiv. rewrite Rmult_0_r, Rmult_0_l. lra.
    + exfalso. revert S. apply N.pow_nonzero. lia.
  - destruct (fmt_parts_sign c x) as [Hsg|Ez]; [|contradiction].
    destruct Hs as [Hn|Hm0]; [|exfalso; apply En, scaled6_of_zero, Hm0].
    rewrite Hsg, Hn. unfold sgnR, Rdiv. rewrite Rmult_1_l.
    apply Rmult_le_pos; [apply IZR_le; lia|left; apply Rinv_0_lt_compat, P10].
Qed.

Lemma fmt_361 : generic_format radix2 fexp64 361.
Proof.
  replace 361 with (F2R (Float radix2 361 0)) by (unfold F2R; simpl; lra).
  apply fmt_dyadic; lia.
Qed.

(** [x]: the slot that is printed; [d]: the decimal the reader decodes from its text; [f]: the double float() returns
    for it (correctly rounded); the slot stored by the constructor is [double360 f]. *)
Theorem angle_component_roundtrip c (x f : b64) d :
  in_range x -> parse_decimal (format6 c (dy_of x)) = Some d ->
  is_finite f = true -> B2R f = py_float d ->
  in_range (double360 f) /\
  (Rabs (B2R (double360 f) - B2R x) <= 5 / 10000000 + / 2 * ulp radix2 fexp64 (dec_R d) \/
   Rabs (B2R (double360 f) + 360 - B2R x) <= 5 / 10000000 + / 2 * ulp radix2 fexp64 (dec_R d)).
Proof.
  intros Rx Hp Ff Hf. rewrite parse_format6_dec in Hp. injection Hp as <-.
  pose proof (dec_of_parts_within c (dy_of x)) as W.
  pose proof (dec_of_parts_nonneg c _ (in_range_sign x Rx)) as P. destruct Rx as [Fx Rx].
  set (d := dec_of_parts _) in *.
  pose proof (within_5e7_R d _ W) as HW. rewrite (dy_of_R x Fx) in HW.
  pose proof (float_parse_error d _ W) as HE. rewrite (dy_of_R x Fx), <- Hf in HE.
  split; [apply norm360_range; exact Ff|].
  assert (Y0 : 0 <= B2R f).
  { rewrite Hf. unfold py_float. rewrite <- (round_0 radix2 fexp64 ZnearestE). apply round_le; try typeclasses eauto. exact P. }
  assert (Y720 : B2R f < 720).
  { rewrite Hf. unfold py_float. apply Rle_lt_trans with 361; [|lra].
    rewrite <- (round_generic radix2 fexp64 ZnearestE 361 fmt_361). apply round_le; try typeclasses eauto.
    apply Rabs_le_inv in HW. lra. }
  destruct (Rlt_le_dec (B2R f) 360) as [Lt|Ge].
  - left. destruct (double360_id f Ff (conj Y0 Lt)) as [E _]. rewrite E. exact HE.
  - right. destruct (double360_sub f Ff (conj Ge Y720)) as [E _]. rewrite E.
    replace (B2R f - 360 + 360 - B2R x) with (B2R f - B2R x) by ring. exact HE.
Qed.

(** the wrap-around case exists: 360 - 2^-40 prints as "360", reads back as 360.0 and is stored as 0.0 *)
Example wraparound_example :
  let x := mk false (360 * 2 ^ 40 - 1) (-40) in
  format6 cfg_pinned (dy_of x) = [51; 54; 48]%N /\ show (double360 f360) = (0, 0, 0)%Z.
Proof. vm_compute. split; reflexivity. Qed.

(** Angle.from_str(text of an angle whose three slots are in range) for every pipeline read from the source with
    [pcfg_ok]: parse_vec_str finds three decimal fields, and whichever doubles float() returns for them (correctly
    rounded, finite), the slots the constructor stores are in [0, 360) and each is within 5e-7 + ulp/2 of the slot
    that was printed, modulo 360. *)
Theorem angle_text_roundtrip : forall pc c (p y r : b64) ws1 ob wa s1 s2 wb cb ws2,
  pcfg_ok pc = true ->
  all_space ws1 -> all_space wa -> all_space wb -> all_space ws2 ->
  all_space s1 -> s1 <> [] -> all_space s2 -> s2 <> [] ->
  opt_bracket (opens pc) ob -> opt_bracket (closes pc) cb ->
  in_range p -> in_range y -> in_range r ->
  exists d1 d2 d3,
    parse_vec pc (ws1 ++ ob ++ wa ++ format6 c (dy_of p) ++ s1 ++ format6 c (dy_of y) ++ s2 ++ format6 c (dy_of r) ++ wb ++ cb ++ ws2)
      = PFields (Some d1) (Some d2) (Some d3) /\
    forall d x, In (d, x) [(d1, p); (d2, y); (d3, r)] ->
    forall f : b64, is_finite f = true -> B2R f = py_float d ->
      in_range (double360 f) /\
      (Rabs (B2R (double360 f) - B2R x) <= 5 / 10000000 + / 2 * ulp radix2 fexp64 (dec_R d) \/
       Rabs (B2R (double360 f) + 360 - B2R x) <= 5 / 10000000 + / 2 * ulp radix2 fexp64 (dec_R d)).
Proof.
  intros pc c p y r ws1 ob wa s1 s2 wb cb ws2 OK H1 H2 H3 H4 H5 H6 H7 H8 H9 H10 Rp Ry Rr.
  destruct (parse_format6 c (dy_of p)) as (d1 & P1 & _). destruct (parse_format6 c (dy_of y)) as (d2 & P2 & _).
  destruct (parse_format6 c (dy_of r)) as (d3 & P3 & _).
  destruct (format6_numchars c (dy_of p)) as [N1 E1]. destruct (format6_numchars c (dy_of y)) as [N2 E2].
  destruct (format6_numchars c (dy_of r)) as [N3 E3].
  exists d1, d2, d3. split.
  - rewrite (parse_vec_fields pc OK _ _ _ N1 E1 N2 E2 N3 E3 ws1 ob wa s1 s2 wb cb ws2); auto.
    rewrite P1, P2, P3. reflexivity.
  - intros d x [E|[E|[E|[]]]] f Ff Hf; inversion E; subst d x;
      eapply angle_component_roundtrip; eauto.
Qed.

(** the premises are satisfiable and the wrap-around branch is taken: for 360 - 2^-40 the text is "360", the decoded
    decimal is 360, float() of it is exactly 360.0 (representable) and the stored slot is 0.0 - 360 away from the
    original as a real number, 2^-40 away on the circle *)
Example roundtrip_not_vacuous :
  let x := mk false (360 * 2 ^ 40 - 1) (-40) in
  in_range x /\ parse_decimal (format6 cfg_pinned (dy_of x)) = Some (false, 360%N, O) /\
  is_finite f360 = true /\ B2R f360 = py_float (false, 360%N, O).
Proof.
  cbv zeta. split; [|split; [vm_compute; reflexivity|split; [vm_compute; reflexivity|]]].
  - split; [vm_compute; reflexivity|].
    assert (E360 : 360 = F2R (Float radix2 (360 * 2 ^ 40) (-40))) by (unfold F2R; simpl; lra).
    assert (Hlt : F2R (Float radix2 (360 * 2 ^ 40 - 1) (-40)) < 360) by (rewrite E360; apply F2R_lt; reflexivity).
    assert (Hge : 0 <= F2R (Float radix2 (360 * 2 ^ 40 - 1) (-40))) by (apply F2R_ge_0; simpl; discriminate).
    assert (E : B2R (mk false (360 * 2 ^ 40 - 1) (-40)) = F2R (Float radix2 (360 * 2 ^ 40 - 1) (-40))).
    { unfold mk. change ((360 * 2 ^ 40 - 1 =? 0)%Z) with false. cbv iota.
      destruct (norm_exact (360 * 2 ^ 40 - 1) (-40)) as [H _]; [reflexivity|discriminate| |exact H].
      rewrite Rabs_pos_eq by exact Hge. lra. }
    rewrite E. split; [exact Hge|exact Hlt].
  - destruct f360_spec as [H _]. rewrite H. unfold py_float, dec_R. simpl.
    replace (1 * 360 / 1) with 360 by field. symmetry. apply round_generic; [typeclasses eauto|exact fmt_360].
Qed.

(** Vec.from_str / FrozenVec.from_str applied to the text of a vector with finite components: no normalisation is
    involved (the constructor stores float(x)), so the statement is the plain distance *)
Theorem vec_text_roundtrip : forall pc c (x y z : b64) ws1 ob wa s1 s2 wb cb ws2,
  pcfg_ok pc = true ->
  all_space ws1 -> all_space wa -> all_space wb -> all_space ws2 ->
  all_space s1 -> s1 <> [] -> all_space s2 -> s2 <> [] ->
  opt_bracket (opens pc) ob -> opt_bracket (closes pc) cb ->
  is_finite x = true -> is_finite y = true -> is_finite z = true ->
  exists d1 d2 d3,
    parse_vec pc (ws1 ++ ob ++ wa ++ format6 c (dy_of x) ++ s1 ++ format6 c (dy_of y) ++ s2 ++ format6 c (dy_of z) ++ wb ++ cb ++ ws2)
      = PFields (Some d1) (Some d2) (Some d3) /\
    forall d v, In (d, v) [(d1, x); (d2, y); (d3, z)] ->
      Rabs (py_float d - B2R v) <= 5 / 10000000 + / 2 * ulp radix2 fexp64 (dec_R d).
Proof.
  intros pc c x y z ws1 ob wa s1 s2 wb cb ws2 OK H1 H2 H3 H4 H5 H6 H7 H8 H9 H10 Fx Fy Fz.
  destruct (parse_format_vec pc c (dy_of x) (dy_of y) (dy_of z) ws1 ob wa s1 s2 wb cb ws2 OK H1 H2 H3 H4 H5 H6 H7 H8 H9 H10)
    as (d1 & d2 & d3 & E & W1 & W2 & W3).
  exists d1, d2, d3. split; [exact E|].
  intros d v [Q|[Q|[Q|[]]]]; inversion Q; subst d v;
    rewrite <- dy_of_R by assumption; apply float_parse_error; assumption.
Qed.
