(** C05 — the WHOLE property as one statement over everything the translator reads from math.py.
    [c05_source] collects the generated objects of Gen/AngleSites_gen.v; [c05_source_ok] is the conjunction of the
    boolean checks that checks/c05.py discharges as named instance obligations on every run; [c05_whole] composes the
    theorems of the parts.  The check evaluates [c05_source_ok] on today's objects as one more obligation
    (whole_property_hypotheses_hold). *)
From Coq Require Import Reals List String.
From Flocq Require Import Core BinarySingleNaN.
From SV Require Import Num.Mod360 Num.AngleSites Num.AngleSitesProofs Num.AngleCtor Num.AngleCtorProofs Num.Dec6
                       Num.Dec6Proofs Num.Dec6CarveProofs Num.VecText Num.VecTextProofs Num.VecTextFloat Num.AngleText
                       Num.AngleTextProofs Num.SpecStrip Num.SpecStripProofs SM.FrozenOps SM.FrozenOpsProofs
                       SM.FrozenCopy SM.FrozenCopyValue SM.FrozenCopyValueProofs SM.FrozenHash SM.FrozenHashProofs
                       SM.FrozenEq SM.FrozenEqProofs.
Import ListNotations.

Record c05_source := {
  s_sites : list (string * rhs);            (* every store to an angle slot *)
  s_creations : list (string * creation);   (* every expression that creates an angle object *)
  s_ctors : list string;
  s_ctor_rows : list ctor_row;              (* constructors by argument form *)
  s_events : list mut_event;                (* mutation census *)
  s_results : list result_entry;            (* result kinds of the public methods *)
  s_shapes : list copy_entry;               (* slot transfer of the copy-like methods *)
  s_hash : list hash_row;
  s_inplace : list inplace_row;
  s_eq : list eq_row;                       (* per-slot comparisons of __eq__ per family (round 5) *)
  s_shared : list (string * string * string); (* state kept between calls besides the objects: (function, kind, name) (round 5) *)
  s_fmt : fmt_cfg;                          (* format_float *)
  s_parse : parse_cfg;                      (* parse_vec_str *)
  s_vspec : spec_cfg;                       (* Vec.__format__ *)
  s_aspec : spec_cfg                        (* Angle.__format__ *)
}.

(** The frame, copy and hash models have one kind of state, the objects themselves.  That is adequate for histories of calls
    only if the source keeps nothing else from one call to the next (a cache, an interning table, a class attribute written
    by a method): the census of such places must be empty. *)
Definition no_shared_state (l : list (string * string * string)) : bool := match l with [] => true | _ :: _ => false end.

Definition c05_source_ok (s : c05_source) : bool :=
  all_sites_safe (s_sites s) && all_creations_ok (s_creations s) && ctor_table_ok (s_ctors s) (s_ctor_rows s)
  && table_ok (s_events s) no_carve && copy_results_ok (s_results s) && no_copy_events (s_events s)
  && copy_shapes_ok (s_shapes s) && hash_table_ok (s_hash s) && inplace_ok (s_inplace s) && eq_table_ok (s_eq s) && no_shared_state (s_shared s)
  && cfg_base_ok (s_fmt s) && zero_sign_ok (s_fmt s) && pcfg_ok (s_parse s)
  && spec_cfg_ok (s_vspec s) && spec_cfg_ok (s_aspec s).

Section Whole.
  Variable s : c05_source.
  Hypothesis OK : c05_source_ok s = true.

  Local Ltac split_ok := pose proof OK as H0; unfold c05_source_ok in H0; repeat (apply andb_prop in H0; destruct H0 as [H0 ?]).

  (** (a) every angle slot stays in [0, 360) along every history of stores with finite operands ... *)
  Definition whole_range : Prop :=
    forall es st, Forall in_range st -> finite_inputs es -> Forall in_range (AngleSites.run (s_sites s) es st).
  (** ... and every constructor, for every form of its argument, hands out an angle in range *)
  Definition whole_ctor : Prop :=
    forall c, In c (s_ctors s) -> forall f v, supplied_ok f v ->
      (exists a, In (c, f, a) (s_ctor_rows s)) /\
      (forall a, In (c, f, a) (s_ctor_rows s) -> exists t, ctor_eval a v = Some t /\ in_range3 t).
  (** (b) frozen objects never change, objects that are not the receiver never change, the hash of a frozen object
      never changes and is the same for equal values *)
  Definition whole_frozen : Prop :=
    forall (V : Type) h st i r, good_history V (s_events s) no_carve h st -> nth_error st i = Some r ->
      frozen_class (fst r) = true -> nth_error (FrozenOps.run V (s_events s) h st) i = Some r.
  Definition whole_independent : Prop :=
    forall (V : Type) h st i r, good_history V (s_events s) no_carve h st -> nth_error st i = Some r ->
      Forall (fun x => recv (fst (fst x)) <> i) h -> nth_error (FrozenOps.run V (s_events s) h st) i = Some r.
  Definition whole_hash : Prop :=
    forall (V X H : Type) (get : V -> string -> X) (hf : list X -> H) (ident : nat -> H),
      (forall c a b i j, frozen_class c = true -> same_value V X get c a b ->
         hash_of V X H get hf ident (s_hash s) i (c, a) = hash_of V X H get hf ident (s_hash s) j (c, b)) /\
      (forall h st i r, good_history V (s_events s) no_carve h st -> nth_error st i = Some r -> frozen_class (fst r) = true ->
         exists r', nth_error (FrozenOps.run V (s_events s) h st) i = Some r' /\
                    hash_of V X H get hf ident (s_hash s) i r' = hash_of V X H get hf ident (s_hash s) i r).
  (** the only state a history of calls can carry is the objects themselves (adequacy of the register models below) *)
  Definition whole_no_hidden_state : Prop := s_shared s = [].
  (** == on two objects of one family whose slots hold the same finite values (rationals) answers True: with the copy-value
      clause below, "a copy compares equal to its source" (round 5: the == table is part of the source record) *)
  Definition whole_eq : Prop :=
    forall fam l, In (fam, l) (s_eq s) -> forall a b : string -> QArith_base.Q,
      (forall sl, In sl (family_slots fam) -> QArith_base.Qeq (a sl) (b sl)) -> eq_eval l a b = true.
  (** a copy has the promised class and the value of its source *)
  Definition whole_copy_value : Prop :=
    (forall c m rc sh, In (c, m, rc, sh) (s_shapes s) -> rc = result_class c m) /\
    (forall c m rc t, In (c, m, rc, CSlots t) (s_shapes s) -> angle_family rc = false ->
       forall (V : Type) (norm : V -> V) (dflt : V) (src : string -> V) sl, In sl (slots_of rc) -> built V norm dflt t src sl = src sl) /\
    (forall c m rc t, In (c, m, rc, CSlots t) (s_shapes s) -> angle_family rc = true ->
       forall src : string -> b64, (forall sl, In sl (slots_of rc) -> in_range (src sl)) ->
       forall sl, In sl (slots_of rc) ->
         same64 (built b64 double360 (B754_zero false) t src sl) (src sl) /\ in_range (built b64 double360 (B754_zero false) t src sl)).
  (** (c) the text of a component is a plain decimal, "-0" exactly on the carved-out class, "0" for an exact zero *)
  Definition whole_text_shape : Prop :=
    (forall x, carved (s_fmt s) x = false -> plain_decimal (format6 (s_fmt s) x) = true) /\
    (forall x, format6 (s_fmt s) x = [45; 48]%N <-> carved (s_fmt s) x = true) /\
    (forall x, dm x = 0%N -> format6 (s_fmt s) x = [48]%N).
  (** str(angle) -> from_str: in range again and within 5e-7 + ulp/2 on the circle; str(vec) -> from_str within 5e-7 + ulp/2 *)
  Definition whole_angle_roundtrip : Prop :=
    forall (p y r : b64) ws1 ob wa s1 s2 wb cb ws2,
    all_space ws1 -> all_space wa -> all_space wb -> all_space ws2 ->
    all_space s1 -> s1 <> [] -> all_space s2 -> s2 <> [] ->
    opt_bracket (opens (s_parse s)) ob -> opt_bracket (closes (s_parse s)) cb ->
    in_range p -> in_range y -> in_range r ->
    exists d1 d2 d3,
      parse_vec (s_parse s) (ws1 ++ ob ++ wa ++ format6 (s_fmt s) (dy_of p) ++ s1 ++ format6 (s_fmt s) (dy_of y) ++ s2 ++ format6 (s_fmt s) (dy_of r) ++ wb ++ cb ++ ws2)
        = PFields (Some d1) (Some d2) (Some d3) /\
      forall d x, In (d, x) [(d1, p); (d2, y); (d3, r)] ->
      forall f : b64, is_finite f = true -> B2R f = py_float d ->
        in_range (double360 f) /\
        (Rabs (B2R (double360 f) - B2R x) <= 5 / 10000000 + / 2 * ulp radix2 (FLT_exp (-1074) 53) (dec_R d) \/
         Rabs (B2R (double360 f) + 360 - B2R x) <= 5 / 10000000 + / 2 * ulp radix2 (FLT_exp (-1074) 53) (dec_R d))%R.
  Definition whole_vec_roundtrip : Prop :=
    forall (x y z : b64) ws1 ob wa s1 s2 wb cb ws2,
    all_space ws1 -> all_space wa -> all_space wb -> all_space ws2 ->
    all_space s1 -> s1 <> [] -> all_space s2 -> s2 <> [] ->
    opt_bracket (opens (s_parse s)) ob -> opt_bracket (closes (s_parse s)) cb ->
    is_finite x = true -> is_finite y = true -> is_finite z = true ->
    exists d1 d2 d3,
      parse_vec (s_parse s) (ws1 ++ ob ++ wa ++ format6 (s_fmt s) (dy_of x) ++ s1 ++ format6 (s_fmt s) (dy_of y) ++ s2 ++ format6 (s_fmt s) (dy_of z) ++ wb ++ cb ++ ws2)
        = PFields (Some d1) (Some d2) (Some d3) /\
      forall d v, In (d, v) [(d1, x); (d2, y); (d3, z)] ->
        (Rabs (py_float d - B2R v) <= 5 / 10000000 + / 2 * ulp radix2 (FLT_exp (-1074) 53) (dec_R d))%R.
  (** format(obj, spec): only trailing zeros of a fixed-point fraction are removed; exponent texts are untouched *)
  Definition whole_format_spec : Prop :=
    forall k, k = s_vspec s \/ k = s_aspec s ->
      (spec_neg_zero_fix k = false -> forall pre frac,
         ss_has 46 pre = false -> ss_has 101 pre = false -> ss_has 69 pre = false -> ss_digits frac = true ->
         exists (frac' : list N) n, frac = (frac' ++ repeat 48%N n)%list /\ (forall p x, frac' = (p ++ [x])%list -> x <> 48%N) /\
           spec_post k (pre ++ 46%N :: frac)%list = (pre ++ (match frac' with [] => [] | _ => 46%N :: frac' end))%list) /\
      (forall t, dot_outside k = false \/ (forall p, t <> (p ++ [46%N])%list) -> ss_has 101 t = true \/ ss_has 69 t = true -> spec_post k t = t).

  Theorem c05_whole :
    whole_range /\ whole_ctor /\ whole_no_hidden_state /\ whole_frozen /\ whole_independent /\ whole_hash /\ whole_eq /\ whole_copy_value /\
    whole_text_shape /\ whole_angle_roundtrip /\ whole_vec_roundtrip /\ whole_format_spec.
  Proof.
    split_ok.
    repeat match goal with |- _ /\ _ => split end.
    - unfold whole_range. apply angle_range_invariant. assumption.
    - unfold whole_ctor. apply ctor_range. assumption.
    - unfold whole_no_hidden_state. destruct (s_shared s); [reflexivity|discriminate].
    - intros V h. apply frozen_registers_stable. assumption.
    - intros V h. apply non_receiver_stable. assumption.
    - intros V X HT get hf ident. split.
      + apply hash_same_value. assumption.
      + apply frozen_hash_stable. assumption.
    - unfold whole_eq. apply eq_same_value. assumption.
    - unfold whole_copy_value. split; [|split].
      + apply copy_result_class. assumption.
      + apply copy_value_equal_exact. assumption.
      + apply copy_value_equal_angles. assumption.
    - unfold whole_text_shape. split; [|split].
      + intros x. apply format6_plain_gen. assumption.
      + intros x. apply negative_zero_iff_carved. assumption.
      + intros x. apply exact_zero_prints_zero; assumption.
    - unfold whole_angle_roundtrip. intros. apply angle_text_roundtrip; assumption.
    - unfold whole_vec_roundtrip. intros. apply vec_text_roundtrip; assumption.
    - intros k Hk. assert (Hs : spec_cfg_ok k = true) by (destruct Hk; subst; assumption). split.
      + intros Hf pre frac. apply spec_post_fixed; assumption.
      + intros t Hd He. apply spec_post_exponent; auto.
        unfold spec_cfg_ok in Hs. repeat (apply andb_prop in Hs; destruct Hs as [Hs ?]). assumption.
  Qed.
End Whole.

(** the hypotheses are satisfiable (non-vacuity; the check evaluates them on today's generated objects) *)
Example c05_source_ok_satisfiable :
  c05_source_ok {| s_sites := [("Angle.pitch"%string, Double360)]; s_creations := [("from_str"%string, ViaCtor)];
                   s_ctors := ["C"%string];
                   s_ctor_rows := map (fun f => ("C"%string, f, if form_is_angle f then AStores CopyFromAngle CopyFromAngle CopyFromAngle
                                                                else AStores Double360 Double360 Double360)) all_forms;
                   s_events := []; s_results := []; s_shapes := [];
                   s_hash := [("Vec", HUnhashable); ("FrozenVec", HSlots ["_x"; "_y"; "_z"]); ("Angle", HUnhashable);
                              ("FrozenAngle", HSlots ["_pitch"; "_yaw"; "_roll"]); ("Matrix", HUnhashable); ("FrozenMatrix", HUnhashable)]%string;
                   s_inplace := [("Vec", "__iadd__")]%string;
                   s_eq := [("VecBase"%string, map (fun sl => (sl, CTol true (QArith_base.Qmake 1 1000000))) (family_slots "VecBase"));
                            ("AngleBase"%string, map (fun sl => (sl, CTol false (QArith_base.Qmake 1 1000000))) (family_slots "AngleBase"));
                            ("MatrixBase"%string, map (fun sl => (sl, CExact)) (family_slots "MatrixBase"))];
                   s_shared := [];
                   s_fmt := cfg_pinned;
                   s_parse := {| strips_ws := true; opens := [40]%N; closes := [41]%N; splits_ws := true; uses_float := true |};
                   s_vspec := cfg_guarded; s_aspec := cfg_guarded |} = true.
Proof. vm_compute. reflexivity. Qed.
