(** C05 (c) — parse_vec_str (Num/VecText.v) re-reads what format_float wrote: for every formatting pipeline, every
    parsing pipeline accepted by [pcfg_ok], every three dyadics and every bracket / whitespace wrapping, the three
    fields are recognised as plain decimals whose exact values are within 5e-7 of the components. Axiom-free. *)
From Coq Require Import NArith List Bool Lia.
From SV Require Import Num.Dec6 Num.Dec6Proofs Num.VecText.
Import ListNotations.
Open Scope N_scope.

Definition all_space (l : list N) : Prop := forallb py_space l = true.
(** head-of-list predicates *)
Definition hdP (P : N -> Prop) (l : list N) : Prop := match l with c :: _ => P c | [] => True end.
Definition hd_nonspace : list N -> Prop := hdP (fun c => py_space c = false).

Lemma hdP_app P l r : l <> [] -> hdP P l -> hdP P (l ++ r).
Proof. destruct l; [contradiction|]. intros _ H. exact H. Qed.

Lemma hdP_imp (P Q : N -> Prop) l : (forall c, P c -> Q c) -> hdP P l -> hdP Q l.
Proof. destruct l; [auto|]. intros H. apply H. Qed.

Lemma lstrip_spaces a m : all_space a -> hd_nonspace m -> lstrip (a ++ m) = m.
Proof.
  unfold all_space. induction a as [|c a IH]; cbn [app forallb lstrip]; intros Ha Hm.
  - destruct m as [|c r]; [reflexivity|]. cbn [lstrip]. cbn in Hm. rewrite Hm. reflexivity.
  - apply andb_prop in Ha. destruct Ha as [Hc Ha]. rewrite Hc. apply IH; assumption.
Qed.

Lemma all_space_rev a : all_space a -> all_space (rev a).
Proof.
  unfold all_space. rewrite !forallb_forall. intros H x Hx. apply H. apply in_rev. exact Hx.
Qed.

Lemma all_space_app a b : all_space a -> all_space b -> all_space (a ++ b).
Proof. unfold all_space. rewrite forallb_app. intros -> ->. reflexivity. Qed.

(** strip removes exactly the surrounding whitespace of a non-empty core that starts and ends with a non-space *)
Lemma strip_core a m b : all_space a -> all_space b -> m <> [] -> hd_nonspace m -> hd_nonspace (rev m) ->
  strip (a ++ m ++ b) = m.
Proof.
  intros Ha Hb Hne Hm Hr. unfold strip.
  rewrite (lstrip_spaces a (m ++ b) Ha).
  - rewrite rev_app_distr, (lstrip_spaces (rev b) (rev m) (all_space_rev b Hb) Hr). apply rev_involutive.
  - destruct m; [contradiction|exact Hm].
Qed.

Definition no_space (l : list N) : Prop := forallb (fun c => negb (py_space c)) l = true.

Lemma fields_word w r cur : no_space w -> fields (w ++ r) cur = fields r (rev w ++ cur).
Proof.
  unfold no_space. revert cur. induction w as [|c w IH]; intros cur Hw; cbn [app rev forallb] in *.
  - reflexivity.
  - apply andb_prop in Hw. destruct Hw as [Hc Hw]. apply negb_true_iff in Hc.
    cbn [fields]. rewrite Hc, (IH _ Hw), <- app_assoc. reflexivity.
Qed.

Lemma fields_spaces a r : all_space a -> fields (a ++ r) [] = fields r [].
Proof.
  unfold all_space. induction a as [|c a IH]; cbn [app forallb]; intros Ha; [reflexivity|].
  apply andb_prop in Ha. destruct Ha as [Hc Ha]. cbn [fields]. rewrite Hc. apply IH, Ha.
Qed.

(** a word followed by at least one space *)
Lemma fields_word_sep w sp r : no_space w -> w <> [] -> all_space sp -> sp <> [] ->
  fields (w ++ sp ++ r) [] = w :: fields r [].
Proof.
  intros Hw Hne Hs Hsne. rewrite (fields_word w _ [] Hw), app_nil_r.
  destruct sp as [|c sp]; [contradiction|]. unfold all_space in Hs. cbn [forallb] in Hs.
  apply andb_prop in Hs. destruct Hs as [Hc Hs]. cbn [app fields]. rewrite Hc.
  destruct (rev w) as [|x y] eqn:E.
  - exfalso. apply Hne. rewrite <- (rev_involutive w), E. reflexivity.
  - rewrite <- E, rev_involutive. f_equal. apply fields_spaces, Hs.
Qed.

Lemma fields_last_word w b : no_space w -> w <> [] -> all_space b -> fields (w ++ b) [] = [w].
Proof.
  intros Hw Hne Hb. rewrite (fields_word w _ [] Hw), app_nil_r.
  assert (Hr : rev w <> []) by (intros E; apply Hne; rewrite <- (rev_involutive w), E; reflexivity).
  destruct b as [|c b].
  - cbn [fields]. destruct (rev w) eqn:E; [contradiction|]. rewrite <- E, rev_involutive. reflexivity.
  - unfold all_space in Hb. cbn [forallb] in Hb. apply andb_prop in Hb. destruct Hb as [Hc Hb].
    cbn [fields]. rewrite Hc. destruct (rev w) eqn:E; [contradiction|]. rewrite <- E, rev_involutive.
    f_equal. rewrite <- (app_nil_r b), (fields_spaces b [] Hb). reflexivity.
Qed.

Theorem fields_three a f1 s1 f2 s2 f3 b :
  all_space a -> all_space b -> all_space s1 -> s1 <> [] -> all_space s2 -> s2 <> [] ->
  no_space f1 -> f1 <> [] -> no_space f2 -> f2 <> [] -> no_space f3 -> f3 <> [] ->
  fields (a ++ f1 ++ s1 ++ f2 ++ s2 ++ f3 ++ b) [] = [f1; f2; f3].
Proof.
  intros Ha Hb H1 N1 H2 N2 F1 E1 F2 E2 F3 E3.
  rewrite (fields_spaces a _ Ha), (fields_word_sep f1 s1 _ F1 E1 H1 N1), (fields_word_sep f2 s2 _ F2 E2 H2 N2),
    (fields_last_word f3 b F3 E3 Hb). reflexivity.
Qed.

Lemma digit_val_ch l : map digit_val (map ch l) = l.
Proof. induction l as [|d r IH]; cbn [map]; [reflexivity|]. rewrite IH. unfold digit_val, ch. f_equal. lia. Qed.

Lemma intval_acc l : forall a, fold_left stepd l a = a * 10 ^ N.of_nat (length l) + fold_left stepd l 0.
Proof.
  induction l as [|d r IH]; intros a; cbn [fold_left length].
  - cbn. lia.
  - rewrite (IH (a * 10 + d)), (IH (0 * 10 + d)), Nat2N.inj_succ, N.pow_succ_r'. lia.
Qed.

Lemma intval_app a b : intval (a ++ b) = intval a * 10 ^ N.of_nat (length b) + intval b.
Proof. unfold intval. rewrite fold_left_app. apply intval_acc. Qed.

(** the fraction digits, read as an integer, scaled to six places *)
Lemma fracval_intval l : forall w, (length l <= w)%nat -> fracval w l = intval l * 10 ^ N.of_nat (w - length l).
Proof.
  induction l as [|d r IH]; intros w Hw.
  - destruct w; reflexivity.
  - destruct w as [|w]; [cbn in Hw; lia|]. cbn [fracval length] in *.
    rewrite (IH w ltac:(lia)). change (d :: r) with ([d] ++ r). rewrite intval_app.
    change (intval [d]) with (0 * 10 + d). replace (S w - S (length r))%nat with (w - length r)%nat by lia.
    assert (E : 10 ^ N.of_nat w = 10 ^ N.of_nat (length r) * 10 ^ N.of_nat (w - length r)).
    { rewrite <- N.pow_add_r. f_equal. lia. }
    rewrite E. lia.
Qed.

Definition dec_of_parts (p : parts) : decimal :=
  (pneg p, intval (pint p ++ pfrac p), length (pfrac p)).

(** parse_decimal inverts render on every well-formed structured result (including "-0") *)
Lemma parse_render p : all_digits (pint p) = true -> all_digits (pfrac p) = true -> pint p <> [] ->
  parse_decimal (render p) = Some (dec_of_parts p).
Proof.
  destruct p as [neg ip fp]. cbn [pint pfrac]. intros Hi Hf Hne.
  rewrite render_eq. cbn [pneg pint pfrac]. unfold dec_of_parts. cbn [pneg pint pfrac].
  set (tail := match fp with [] => [] | _ :: _ => 46 :: map ch fp end).
  assert (Htail : match tail with [] => True | c :: _ => is_digit c = false end).
  { subst tail. destruct fp; [exact I|reflexivity]. }
  assert (Hsplit : (match (if neg then [45] else []) ++ map ch ip ++ tail with
                    | c :: r => if c =? 45 then (true, r) else (false, (if neg then [45] else []) ++ map ch ip ++ tail)
                    | [] => (false, (if neg then [45] else []) ++ map ch ip ++ tail) end) = (neg, map ch ip ++ tail)).
  { destruct neg; [reflexivity|]. cbn [app]. destruct ip as [|d r]; [contradiction|].
    cbn [map app]. cbn [all_digits forallb] in Hi. apply andb_prop in Hi. destruct Hi as [Hd _].
    rewrite (ch_not_minus d Hd). reflexivity. }
  unfold parse_decimal. rewrite Hsplit, (span_digits_app ip tail Hi Htail), nonempty_map.
  replace (nonempty ip) with true by (destruct ip; [contradiction|reflexivity]).
  subst tail. destruct fp as [|f0 fr].
  - rewrite digit_val_ch, app_nil_r. reflexivity.
  - change (46 =? 46) with true. cbv iota.
    rewrite <- (app_nil_r (map ch (f0 :: fr))), (span_digits_app (f0 :: fr) [] Hf I).
    rewrite nonempty_map. cbn [nonempty negb andb].
    rewrite <- map_app, digit_val_ch, map_length. reflexivity.
Qed.

(** value of the decoded decimal, scaled to six places = the value of the structured result *)
Lemma dec_of_parts_scaled p : (length (pfrac p) <= 6)%nat ->
  intval (pint p ++ pfrac p) * 10 ^ N.of_nat (6 - length (pfrac p)) = scaled_value p.
Proof.
  intros Hl. unfold scaled_value. rewrite intval_app, (fracval_intval (pfrac p) 6 Hl).
  assert (E : 1000000 = 10 ^ N.of_nat (length (pfrac p)) * 10 ^ N.of_nat (6 - length (pfrac p))).
  { rewrite <- N.pow_add_r. replace (N.of_nat (length (pfrac p)) + N.of_nat (6 - length (pfrac p))) with 6 by lia. reflexivity. }
  rewrite E. lia.
Qed.

(** facts about fmt_parts for EVERY configuration *)
Lemma frac_of_facts c x : all_digits (frac_of c x) = true /\ (length (frac_of c x) <= 6)%nat.
Proof.
  unfold frac_of. destruct (strips c).
  - split; [apply rstrip0_all_digits, fixed_all_digits|].
    pose proof (rstrip0_length (fixed 6 (scaled6 x mod 1000000))) as L. rewrite fixed_length in L. exact L.
  - split; [apply fixed_all_digits|]. rewrite fixed_length. lia.
Qed.

Lemma fmt_parts_wf c x : all_digits (pint (fmt_parts c x)) = true /\ all_digits (pfrac (fmt_parts c x)) = true /\
  pint (fmt_parts c x) <> [] /\ (length (pfrac (fmt_parts c x)) <= 6)%nat.
Proof.
  destruct (fmt_parts_fields c x) as [-> ->]. destruct (frac_of_facts c x) as [F1 F2].
  destruct (to_digits_shape (scaled6 x / 1000000)) as (D1 & D2 & _).
  repeat split; auto. intros E. rewrite E in D2. discriminate.
Qed.

(** the printed sign agrees with the sign of x unless the printed value is zero *)
Lemma sign_flag_eq c x : scaled6 x <> 0 -> sign_flag c x = dneg x.
Proof.
  intros E. unfold sign_flag. destruct (adds_zero c); [|reflexivity].
  destruct (N.eqb_spec (dm x) 0) as [Hm|Hm]; [|cbn; apply andb_true_r].
  exfalso. apply E, scaled6_of_zero, Hm.
Qed.

Lemma fmt_parts_sign c x : pneg (fmt_parts c x) = dneg x \/ scaled6 x = 0.
Proof.
  destruct (N.eq_dec (scaled6 x) 0) as [E|E]; [right; exact E|left].
  rewrite fmt_parts_neg, (sign_flag_eq c x E).
  destruct (is_zero_parts (fmt_parts c x)) eqn:Z; [destruct (E (is_zero_parts_scaled c x Z))|].
  rewrite andb_false_r. apply andb_true_r.
Qed.

(** every field written by format_float is decoded to a decimal within 5e-7 of the number formatted —
    for every configuration and every input, the carved-out "-0" included *)
Lemma parse_format6_dec c x : parse_decimal (format6 c x) = Some (dec_of_parts (fmt_parts c x)).
Proof. destruct (fmt_parts_wf c x) as (Hi & Hf & Hne & _). apply parse_render; assumption. Qed.

Lemma dec_of_parts_within c x : within_5e7 (dec_of_parts (fmt_parts c x)) x.
Proof.
  destruct (fmt_parts_wf c x) as (_ & _ & _ & Hl). split; [exact Hl|]. cbv beta.
  rewrite (dec_of_parts_scaled _ Hl), format6_value.
  destruct (scaled6_error x) as [Hd He].
  destruct (fmt_parts_sign c x) as [-> | Ez].
  - unfold sgn. destruct (dneg x); lia.
  - rewrite Ez in *. unfold sgn. destruct (pneg (fmt_parts c x)), (dneg x); lia.
Qed.

Theorem parse_format6 c x : exists d, parse_decimal (format6 c x) = Some d /\ within_5e7 d x.
Proof. exists (dec_of_parts (fmt_parts c x)). split; [apply parse_format6_dec|apply dec_of_parts_within]. Qed.

Lemma numchar_render p : all_digits (pint p) = true -> all_digits (pfrac p) = true -> forallb numchar (render p) = true.
Proof.
  intros Hi Hf. rewrite render_eq, !forallb_app.
  assert (D : forall l, all_digits l = true -> forallb numchar (map ch l) = true).
  { induction l as [|d r IH]; cbn [map forallb all_digits]; [reflexivity|]. fold (all_digits r).
    intros H. apply andb_prop in H. destruct H as [Hd Hr]. rewrite (IH Hr). unfold numchar.
    rewrite (is_digit_ch d Hd). reflexivity. }
  rewrite (D _ Hi). destruct (pneg p); destruct (pfrac p) eqn:E; cbn [forallb andb]; try reflexivity;
    try (rewrite <- E in *; rewrite (D _ Hf)); reflexivity.
Qed.

Lemma format6_numchars c x : forallb numchar (format6 c x) = true /\ format6 c x <> [].
Proof.
  destruct (fmt_parts_wf c x) as (Hi & Hf & Hne & _). split; [apply numchar_render; assumption|].
  unfold format6. rewrite render_eq. destruct (pneg (fmt_parts c x)); [discriminate|].
  destruct (pint (fmt_parts c x)); [contradiction|discriminate].
Qed.

Lemma numchar_not_space c : numchar c = true -> py_space c = false.
Proof. unfold numchar, is_digit, py_space. lia. Qed.

Lemma numchars_no_space l : forallb numchar l = true -> no_space l.
Proof.
  unfold no_space. rewrite !forallb_forall. intros H c Hc. rewrite (numchar_not_space c (H c Hc)). reflexivity.
Qed.

Lemma pcfg_ok_facts pc : pcfg_ok pc = true -> strips_ws pc = true /\
  (forall c, In c (opens pc ++ closes pc) -> numchar c = false /\ py_space c = false).
Proof.
  unfold pcfg_ok. intros H. repeat (apply andb_prop in H; destruct H as [H ?]). split; [assumption|].
  intros c Hc. rewrite forallb_forall in H0. specialize (H0 c Hc). apply andb_prop in H0.
  destruct H0 as [A B]. apply negb_true_iff in A, B. auto.
Qed.

Lemma mem_in c l : mem c l = true <-> In c l.
Proof.
  unfold mem. rewrite existsb_exists. split.
  - intros (y & Hy & E). apply N.eqb_eq in E. subst. exact Hy.
  - intros H. exists c. split; [exact H|apply N.eqb_refl].
Qed.

Lemma mem_numchar pc c : (forall c, In c (opens pc ++ closes pc) -> numchar c = false /\ py_space c = false) ->
  numchar c = true -> mem c (opens pc) = false /\ mem c (closes pc) = false.
Proof.
  intros H Hc. split; apply not_true_is_false; intros M; apply mem_in in M.
  - destruct (H c (in_or_app _ _ c (or_introl M))) as [E _]. congruence.
  - destruct (H c (in_or_app _ _ c (or_intror M))) as [E _]. congruence.
Qed.

(** an optional bracket *)
Definition opt_bracket (set b : list N) : Prop := b = [] \/ exists c, b = [c] /\ In c set.

Lemma drop_open_nomem ops s : hdP (fun c => mem c ops = false) s -> drop_open ops s = s.
Proof. destruct s as [|c r]; [reflexivity|]. cbn. intros ->. reflexivity. Qed.

Lemma drop_open_mem ops c r : mem c ops = true -> drop_open ops (c :: r) = r.
Proof. cbn. intros ->. reflexivity. Qed.

Lemma drop_close_nomem cls s : hdP (fun c => mem c cls = false) (rev s) -> drop_close cls s = s.
Proof.
  unfold drop_close. destruct (rev s) as [|c r] eqn:E.
  - intros _. rewrite <- (rev_involutive s), E. reflexivity.
  - cbn. intros ->. reflexivity.
Qed.

Lemma drop_close_mem cls r c : mem c cls = true -> drop_close cls (r ++ [c]) = r.
Proof. unfold drop_close. rewrite rev_app_distr. cbn [rev app]. intros ->. apply rev_involutive. Qed.

Lemma numchars_hd l : forallb numchar l = true -> hdP (fun c => numchar c = true) l.
Proof. destruct l as [|c r]; [exact (fun _ => I)|]. cbn [forallb hdP]. intros H. apply andb_prop in H. tauto. Qed.

Lemma numchars_last l : forallb numchar l = true -> hdP (fun c => numchar c = true) (rev l).
Proof.
  intros H. apply numchars_hd. rewrite forallb_forall in *. intros c Hc. apply H, in_rev, Hc.
Qed.

Lemma rev_nonnil (l : list N) : l <> [] -> rev l <> [].
Proof. intros H E. apply H. rewrite <- (rev_involutive l), E. reflexivity. Qed.

Section RoundTrip.
  Variable pc : parse_cfg.
  Hypothesis OK : pcfg_ok pc = true.
  Variables f1 f2 f3 : list N.
  Hypothesis N1 : forallb numchar f1 = true. Hypothesis E1 : f1 <> [].
  Hypothesis N2 : forallb numchar f2 = true. Hypothesis E2 : f2 <> [].
  Hypothesis N3 : forallb numchar f3 = true. Hypothesis E3 : f3 <> [].
  Variables ws1 ob wa s1 s2 wb cb ws2 : list N.
  Hypothesis Hws1 : all_space ws1. Hypothesis Hwa : all_space wa. Hypothesis Hwb : all_space wb. Hypothesis Hws2 : all_space ws2.
  Hypothesis Hs1 : all_space s1. Hypothesis Hs1n : s1 <> []. Hypothesis Hs2 : all_space s2. Hypothesis Hs2n : s2 <> [].
  Hypothesis Hob : opt_bracket (opens pc) ob.
  Hypothesis Hcb : opt_bracket (closes pc) cb.

  (** what the three numbers and their separators look like from outside: non-empty, first and last character
      are number characters *)
  Lemma core_ends : let F := f1 ++ s1 ++ f2 ++ s2 ++ f3 in
    F <> [] /\ hdP (fun c => numchar c = true) F /\ hdP (fun c => numchar c = true) (rev F).
  Proof.
    cbv zeta. split; [|split].
    - destruct f1; [contradiction|discriminate].
    - apply hdP_app; [assumption|apply numchars_hd, N1].
    - rewrite !rev_app_distr, <- !app_assoc. apply hdP_app; [apply rev_nonnil, E3|apply numchars_last, N3].
  Qed.

  (** the string handed to split() *)
  Lemma debracket : forall F, F <> [] -> hdP (fun c => numchar c = true) F -> hdP (fun c => numchar c = true) (rev F) ->
    exists a b, all_space a /\ all_space b /\
      drop_close (closes pc) (drop_open (opens pc) (strip (ws1 ++ ob ++ wa ++ F ++ wb ++ cb ++ ws2))) = a ++ F ++ b.
  Proof.
    intros F Fne Fh Fl.
    destruct (pcfg_ok_facts pc OK) as [_ HB].
    assert (Hop : forall c, numchar c = true -> mem c (opens pc) = false) by (intros c Hc; apply (mem_numchar pc c HB Hc)).
    assert (Hcl : forall c, numchar c = true -> mem c (closes pc) = false) by (intros c Hc; apply (mem_numchar pc c HB Hc)).
    assert (Fh_sp : hd_nonspace F) by (revert Fh; apply hdP_imp, numchar_not_space).
    assert (Fl_sp : hd_nonspace (rev F)) by (revert Fl; apply hdP_imp, numchar_not_space).
    assert (Fh_op : hdP (fun c => mem c (opens pc) = false) F) by (revert Fh; apply hdP_imp, Hop).
    assert (Fl_cl : hdP (fun c => mem c (closes pc) = false) (rev F)) by (revert Fl; apply hdP_imp, Hcl).
    assert (Enil : all_space []) by reflexivity.
    destruct Hob as [-> | (o & -> & Ho)], Hcb as [-> | (c & -> & Hc)].
    - (* no brackets *)
      exists [], []. repeat split; auto.
      replace (ws1 ++ [] ++ wa ++ F ++ wb ++ [] ++ ws2) with ((ws1 ++ wa) ++ F ++ (wb ++ ws2))
        by (cbn [app]; rewrite <- !app_assoc; reflexivity).
      rewrite (strip_core (ws1 ++ wa) F (wb ++ ws2) (all_space_app _ _ Hws1 Hwa) (all_space_app _ _ Hwb Hws2) Fne Fh_sp Fl_sp).
      rewrite (drop_open_nomem _ _ Fh_op), (drop_close_nomem _ _ Fl_cl). cbn [app]. rewrite app_nil_r. reflexivity.
    - (* closing bracket only *)
      destruct (HB c (in_or_app _ _ c (or_intror Hc))) as [_ Sc].
      exists [], wb. repeat split; auto.
      replace (ws1 ++ [] ++ wa ++ F ++ wb ++ [c] ++ ws2) with ((ws1 ++ wa) ++ (F ++ wb ++ [c]) ++ ws2)
        by (cbn [app]; rewrite <- !app_assoc; reflexivity).
      assert (M1 : F ++ wb ++ [c] <> []) by (destruct F; [contradiction|discriminate]).
      assert (M2 : hd_nonspace (F ++ wb ++ [c]))
        by (apply hdP_app; assumption).
      assert (M3 : hd_nonspace (rev (F ++ wb ++ [c]))) by (rewrite !rev_app_distr; cbn [rev app]; exact Sc).
      rewrite (strip_core (ws1 ++ wa) _ ws2 (all_space_app _ _ Hws1 Hwa) Hws2 M1 M2 M3).
      rewrite drop_open_nomem by (apply hdP_app; assumption).
      replace (F ++ wb ++ [c]) with ((F ++ wb) ++ [c]) by (rewrite <- app_assoc; reflexivity).
      apply mem_in in Hc. rewrite (drop_close_mem _ _ _ Hc). reflexivity.
    - (* opening bracket only *)
      destruct (HB o (in_or_app _ _ o (or_introl Ho))) as [_ So].
      exists wa, []. repeat split; auto.
      replace (ws1 ++ [o] ++ wa ++ F ++ wb ++ [] ++ ws2) with (ws1 ++ ([o] ++ wa ++ F) ++ (wb ++ ws2))
        by (cbn [app]; rewrite <- !app_assoc; reflexivity).
      assert (M1 : [o] ++ wa ++ F <> []) by discriminate.
      assert (M2 : hd_nonspace ([o] ++ wa ++ F)) by exact So.
      assert (M3 : hd_nonspace (rev ([o] ++ wa ++ F))).
      { rewrite app_assoc, rev_app_distr. apply hdP_app; [apply rev_nonnil, Fne|exact Fl_sp]. }
      rewrite (strip_core ws1 _ (wb ++ ws2) Hws1 (all_space_app _ _ Hwb Hws2) M1 M2 M3).
      cbn [app]. apply mem_in in Ho. rewrite (drop_open_mem _ _ _ Ho).
      rewrite drop_close_nomem; [rewrite app_nil_r; reflexivity|].
      rewrite rev_app_distr. apply hdP_app; [apply rev_nonnil, Fne|exact Fl_cl].
    - (* both brackets *)
      destruct (HB o (in_or_app _ _ o (or_introl Ho))) as [_ So].
      destruct (HB c (in_or_app _ _ c (or_intror Hc))) as [_ Sc].
      exists wa, wb. repeat split; auto.
      replace (ws1 ++ [o] ++ wa ++ F ++ wb ++ [c] ++ ws2) with (ws1 ++ ([o] ++ wa ++ F ++ wb ++ [c]) ++ ws2)
        by (cbn [app]; rewrite <- !app_assoc; reflexivity).
      assert (M1 : [o] ++ wa ++ F ++ wb ++ [c] <> []) by discriminate.
      assert (M2 : hd_nonspace ([o] ++ wa ++ F ++ wb ++ [c])) by exact So.
      assert (M3 : hd_nonspace (rev ([o] ++ wa ++ F ++ wb ++ [c]))).
      { replace ([o] ++ wa ++ F ++ wb ++ [c]) with (([o] ++ wa ++ F ++ wb) ++ [c]) by (rewrite <- !app_assoc; reflexivity).
        rewrite rev_app_distr. cbn [rev app]. exact Sc. }
      rewrite (strip_core ws1 _ ws2 Hws1 Hws2 M1 M2 M3).
      cbn [app]. apply mem_in in Ho. rewrite (drop_open_mem _ _ _ Ho).
      replace (wa ++ F ++ wb ++ [c]) with ((wa ++ F ++ wb) ++ [c]) by (rewrite <- !app_assoc; reflexivity).
      apply mem_in in Hc. rewrite (drop_close_mem _ _ _ Hc). reflexivity.
  Qed.

  Theorem parse_vec_fields :
    parse_vec pc (ws1 ++ ob ++ wa ++ f1 ++ s1 ++ f2 ++ s2 ++ f3 ++ wb ++ cb ++ ws2)
      = PFields (parse_decimal f1) (parse_decimal f2) (parse_decimal f3).
  Proof.
    destruct (pcfg_ok_facts pc OK) as [Hst _].
    destruct core_ends as (Fne & Fh & Fl).
    destruct (debracket _ Fne Fh Fl) as (a & b & Ha & Hb & E).
    unfold parse_vec. rewrite Hst.
    replace (ws1 ++ ob ++ wa ++ f1 ++ s1 ++ f2 ++ s2 ++ f3 ++ wb ++ cb ++ ws2)
      with (ws1 ++ ob ++ wa ++ (f1 ++ s1 ++ f2 ++ s2 ++ f3) ++ wb ++ cb ++ ws2) by (rewrite <- !app_assoc; reflexivity).
    rewrite E.
    replace (a ++ (f1 ++ s1 ++ f2 ++ s2 ++ f3) ++ b) with (a ++ f1 ++ s1 ++ f2 ++ s2 ++ f3 ++ b) by (rewrite <- !app_assoc; reflexivity).
    rewrite fields_three; auto using numchars_no_space.
  Qed.
End RoundTrip.

(** THE ROUND TRIP: parse_vec_str applied to the text of a vector or angle — in any of the bracket styles, with
    any surrounding / inner whitespace and any non-empty whitespace between the numbers — yields three decimals
    each within 5e-7 of the component that was formatted. *)
Theorem parse_format_vec : forall pc c x y z ws1 ob wa s1 s2 wb cb ws2,
  pcfg_ok pc = true ->
  all_space ws1 -> all_space wa -> all_space wb -> all_space ws2 ->
  all_space s1 -> s1 <> [] -> all_space s2 -> s2 <> [] ->
  opt_bracket (opens pc) ob -> opt_bracket (closes pc) cb ->
  exists dx dy dz,
    parse_vec pc (ws1 ++ ob ++ wa ++ format6 c x ++ s1 ++ format6 c y ++ s2 ++ format6 c z ++ wb ++ cb ++ ws2)
      = PFields (Some dx) (Some dy) (Some dz) /\
    within_5e7 dx x /\ within_5e7 dy y /\ within_5e7 dz z.
Proof.
  intros pc c x y z ws1 ob wa s1 s2 wb cb ws2 OK H1 H2 H3 H4 H5 H6 H7 H8 H9 H10.
  destruct (parse_format6 c x) as (dx & Px & Wx). destruct (parse_format6 c y) as (dy & Py & Wy).
  destruct (parse_format6 c z) as (dz & Pz & Wz).
  destruct (format6_numchars c x) as [Nx Ex]. destruct (format6_numchars c y) as [Ny Ey].
  destruct (format6_numchars c z) as [Nz Ez].
  exists dx, dy, dz. split; [|auto].
  rewrite (parse_vec_fields pc OK _ _ _ Nx Ex Ny Ey Nz Ez ws1 ob wa s1 s2 wb cb ws2); auto.
  rewrite Px, Py, Pz. reflexivity.
Qed.

(** with the documented bracket sets accepted, every documented bracket is an [opt_bracket] of the theorem *)
Lemma documented_open pc c : accepts_documented_brackets pc = true -> In c [40; 123; 91; 60] -> opt_bracket (opens pc) [c].
Proof.
  unfold accepts_documented_brackets. intros H Hc. apply andb_prop in H. destruct H as [H _].
  rewrite forallb_forall in H. right. exists c. split; [reflexivity|]. apply mem_in, H, Hc.
Qed.
Lemma documented_close pc c : accepts_documented_brackets pc = true -> In c [41; 125; 93; 62] -> opt_bracket (closes pc) [c].
Proof.
  unfold accepts_documented_brackets. intros H Hc. apply andb_prop in H. destruct H as [_ H].
  rewrite forallb_forall in H. right. exists c. split; [reflexivity|]. apply mem_in, H, Hc.
Qed.

(** the source's configuration satisfies the premise; the statement is not vacuous *)
Example pcfg_source_ok : pcfg_ok cfg_source_brackets = true /\ accepts_documented_brackets cfg_source_brackets = true.
Proof. split; reflexivity. Qed.

Example parse_example :
  parse_vec cfg_source_brackets [32; 40; 45; 48; 32; 49; 46; 53; 32; 32; 55; 50; 53; 46; 53; 41; 10]
  = PFields (Some (true, 0, O)) (Some (false, 15, 1%nat)) (Some (false, 7255, 1%nat)).
Proof. vm_compute. reflexivity. Qed.

