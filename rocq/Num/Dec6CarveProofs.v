(** C05 (c) — the '-0' carve-out is exact.

    [carved c x] (Num/Dec6.v) is the class of inputs on which a pipeline without the '-0' repair prints "-0".
    Here: the class is characterised arithmetically (a sign is printed and |x|·10^6 <= 1/2), it is EXACTLY the
    set of inputs whose text is "-0" (both directions), and an exact zero of either sign never belongs to it
    as long as the pipeline formats x+0.0 or repairs '-0'. *)
From Coq Require Import ZArith List Bool Lia.
From SV Require Import Num.Dec6 Num.Dec6Proofs.
Import ListNotations.
Open Scope N_scope.

(** round-half-even gives 0 exactly when the quotient is at most one half *)
Lemma rhe_zero_iff num den : 0 < den -> (round_half_even num den = 0 <-> 2 * num <= den).
Proof.
  intros Hd. unfold round_half_even.
  pose proof (N.div_mod num den ltac:(lia)) as E.
  pose proof (N.mod_lt num den ltac:(lia)) as L.
  set (q := num / den) in *. set (r := num mod den) in *.
  destruct (N.compare_spec (2 * r) den) as [C|C|C].
  - destruct (N.even q) eqn:Ev.
    + split; intros H; [subst q; nia|].
      destruct (N.eq_dec q 0) as [|Hq]; [assumption|]. exfalso. nia.
    + split; intros H; [lia|]. exfalso.
      assert (q = 0) by nia. subst q. rewrite H0 in Ev. discriminate.
  - split; intros H; [nia|]. destruct (N.eq_dec q 0) as [|Hq]; [assumption|]. exfalso. nia.
  - split; intros H; [lia|]. exfalso. nia.
Qed.

Theorem scaled6_zero_iff x : scaled6 x = 0 <-> 2 * fst (num_den x) <= snd (num_den x).
Proof.
  pose proof (den_pos x) as Hd. unfold scaled6. destruct (num_den x) as [num den]. cbn [fst snd] in *.
  apply rhe_zero_iff; assumption.
Qed.

(** The carve-out, arithmetically: no '-0' repair, a sign is printed, and |x|·10^6 <= 1/2 (i.e. |x| <= 5e-7). *)
Theorem carved_iff c x : carved c x = true <->
  neg_zero_fix c = false /\ sign_flag c x = true /\ 2 * fst (num_den x) <= snd (num_den x).
Proof.
  unfold carved. rewrite !andb_true_iff, negb_true_iff, N.eqb_eq, scaled6_zero_iff. tauto.
Qed.

(** Exactness: for a pipeline that strips zeros at 6 places the text is "-0" if AND ONLY IF the input is carved out. *)
Theorem negative_zero_iff_carved c x : cfg_base_ok c = true -> (format6 c x = [45; 48] <-> carved c x = true).
Proof.
  intros Hc. split.
  - intros E. destruct (carved c x) eqn:Hcv; [reflexivity|]. exfalso.
    pose proof (format6_plain_gen c x Hc Hcv) as P. rewrite E in P. vm_compute in P. discriminate.
  - apply carved_prints_negative_zero; assumption.
Qed.

(** an exact zero (+0.0 or -0.0) is never carved out when the pipeline formats x+0.0 or repairs '-0' ... *)
Definition zero_sign_ok (c : fmt_cfg) : bool := adds_zero c || neg_zero_fix c.

Theorem exact_zero_not_carved c x : zero_sign_ok c = true -> dm x = 0 -> carved c x = false.
Proof.
  unfold zero_sign_ok, carved, sign_flag. intros H Hm. rewrite Hm.
  destruct (adds_zero c), (neg_zero_fix c); try discriminate; cbn; try reflexivity;
    destruct (dneg x); reflexivity.
Qed.

(** ... and prints as "0" *)
Theorem exact_zero_prints_zero c x : cfg_base_ok c = true -> zero_sign_ok c = true -> dm x = 0 -> format6 c x = [48].
Proof.
  intros Hc Hz Hm. unfold cfg_base_ok in Hc. apply andb_prop in Hc. destruct Hc as [_ Hstrip].
  unfold format6, fmt_parts. cbv zeta. rewrite (scaled6_of_zero x Hm), Hstrip, Hm.
  unfold zero_sign_ok in Hz.
  destruct (adds_zero c), (neg_zero_fix c), (dneg x); try discriminate; reflexivity.
Qed.

