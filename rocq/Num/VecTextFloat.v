(** C05 (c) — the last step of reading a number back: Python's float() rounds the exact decimal to binary64.
    float() is an external builtin; it enters as the DEFINITION [py_float] = round-to-nearest-even of the exact
    decimal value (the "correctly rounded" assumption, stated once, here).  Then: the double obtained from a field
    that is within 5e-7 of x (Num/VecText.v [within_5e7]) is within 5e-7 + half an ulp of x.
    Uses Flocq's real-number rounding, hence the classical axioms of Coq's Reals. *)
From Coq Require Import Reals Lia Lra.
From Flocq Require Import Core.
From SV Require Import Num.Dec6 Num.Dec6Proofs Num.VecText Num.Mod360Proofs.
Open Scope R_scope.

Definition sgnR (b : bool) : R := if b then -1 else 1.
(** real value of a dyadic (a double given as sign, mantissa, exponent) and of a decimal *)
Definition dy_R (x : dyadic) : R := sgnR (dneg x) * IZR (Z.of_N (dm x)) * bpow radix2 (de x).
Definition dec_R (d : decimal) : R :=
  let '(neg, num, k) := d in sgnR neg * IZR (Z.of_N num) / IZR (10 ^ Z.of_nat k).
(** float(text): correctly rounded (round to nearest, ties to even) binary64 *)
Definition py_float (d : decimal) : R := round radix2 fexp64 ZnearestE (dec_R d).

Lemma sgn_R b : IZR (sgn b) = sgnR b.
Proof. destruct b; reflexivity. Qed.

(** |x|·10^6 = num/den *)
Lemma num_den_R x : IZR (Z.of_N (fst (num_den x))) = IZR (Z.of_N (dm x)) * bpow radix2 (de x) * 1000000 * IZR (Z.of_N (snd (num_den x))).
Proof.
  unfold num_den. destruct (0 <=? de x)%Z eqn:E; cbn [fst snd].
  - apply Z.leb_le in E. rewrite !N2Z.inj_mul, N2Z.inj_pow, Z2N.id by lia. rewrite !mult_IZR.
    change (Z.of_N 2) with 2%Z. rewrite (IZR_Zpower radix2) by lia. change (Z.of_N 1000000) with 1000000%Z.
    change (Z.of_N 1) with 1%Z. lra.
  - apply Z.leb_gt in E. rewrite N2Z.inj_mul, N2Z.inj_pow, Z2N.id by lia. rewrite mult_IZR.
    change (Z.of_N 2) with 2%Z. rewrite (IZR_Zpower radix2) by lia. change (Z.of_N 1000000) with 1000000%Z.
    rewrite (Rmult_comm (_ * bpow radix2 (de x)) 1000000), !Rmult_assoc, <- bpow_plus.
    replace (de x + - de x)%Z with 0%Z by lia. simpl. lra.
Qed.

Lemma pow10_split k : (k <= 6)%nat -> (1000000 = 10 ^ Z.of_nat k * 10 ^ Z.of_nat (6 - k))%Z.
Proof. intros H. rewrite <- Z.pow_add_r by lia. replace (Z.of_nat k + Z.of_nat (6 - k))%Z with 6%Z by lia. reflexivity. Qed.

(** the integer statement [within_5e7] says: the decimal is within 5e-7 of x, as real numbers *)
Theorem within_5e7_R d x : within_5e7 d x -> Rabs (dec_R d - dy_R x) <= 5 / 10000000.
Proof.
  destruct d as [[neg num] k]. unfold within_5e7. intros [Hk H].
  pose proof (den_pos x) as Hd.
  set (den := Z.of_N (snd (num_den x))) in *. set (nx := Z.of_N (fst (num_den x))) in *.
  assert (Hden : 0 < IZR den) by (apply IZR_lt; unfold den; lia).
  apply IZR_le in H. rewrite mult_IZR, abs_IZR, minus_IZR, !mult_IZR, !sgn_R in H.
  rewrite N2Z.inj_mul, N2Z.inj_pow, nat_N_Z in H. change (Z.of_N 10) with 10%Z in H. rewrite mult_IZR in H.
  pose proof (num_den_R x) as E. fold nx den in E. rewrite E in H.
  assert (P1 : 0 < IZR (10 ^ Z.of_nat k)) by (apply IZR_lt, Z.pow_pos_nonneg; lia).
  assert (P2 : 0 < IZR (10 ^ Z.of_nat (6 - k))) by (apply IZR_lt, Z.pow_pos_nonneg; lia).
  assert (S : 1000000 = IZR (10 ^ Z.of_nat k) * IZR (10 ^ Z.of_nat (6 - k))).
  { rewrite <- mult_IZR, <- (pow10_split k Hk). reflexivity. }
  set (pk := IZR (10 ^ Z.of_nat k)) in *. set (pr := IZR (10 ^ Z.of_nat (6 - k))) in *.
  unfold dec_R, dy_R. fold pk.
  (* scale the goal by 10^6 * den > 0 *)
  apply Rmult_le_reg_r with (1000000 * IZR den); [nra|].
  rewrite <- (Rabs_pos_eq (1000000 * IZR den)) at 1 by nra. rewrite <- Rabs_mult.
  replace ((sgnR neg * IZR (Z.of_N num) / pk - sgnR (dneg x) * IZR (Z.of_N (dm x)) * bpow radix2 (de x)) * (1000000 * IZR den))
    with (sgnR neg * (IZR (Z.of_N num) * pr) * IZR den - sgnR (dneg x) * (IZR (Z.of_N (dm x)) * bpow radix2 (de x) * 1000000 * IZR den)).
  - match goal with |- Rabs ?t <= _ => set (T := Rabs t) in * end. clearbody T den. clear - H Hden. lra.
  - rewrite S. field. lra.
Qed.

(** THE READ-BACK BOUND: the double that float() returns for a field within 5e-7 of x is within 5e-7 plus half an
    ulp (of the exact decimal) of x.  The 5e-7 alone cannot be claimed: for a tie such as x = 1/128 = 0.0078125 the
    text "0.007812" is exactly 5e-7 away and the nearest double to 0.007812 may lie on the far side. *)
Theorem float_parse_error d x : within_5e7 d x ->
  Rabs (py_float d - dy_R x) <= 5 / 10000000 + / 2 * ulp radix2 fexp64 (dec_R d).
Proof.
  intros W. pose proof (within_5e7_R d x W) as H.
  pose proof (error_le_half_ulp radix2 fexp64 (fun n => negb (Z.even n)) (dec_R d)) as E.
  fold ZnearestE in E.
  unfold py_float.
  replace (round radix2 fexp64 ZnearestE (dec_R d) - dy_R x)
    with ((round radix2 fexp64 ZnearestE (dec_R d) - dec_R d) + (dec_R d - dy_R x)) by ring.
  eapply Rle_trans; [apply Rabs_triang|]. lra.
Qed.

