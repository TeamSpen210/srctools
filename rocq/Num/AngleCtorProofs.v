(** C05 (a) — every constructor path yields an angle in [0, 360), for every argument form. *)
From Coq Require Import Reals List String Lra Lia.
From Flocq Require Import Core BinarySingleNaN.
From SV Require Import Num.Mod360 Num.Mod360Proofs Num.AngleSites Num.AngleSitesProofs Num.AngleCtor.
Import ListNotations.

Lemma argform_eqb_eq a b : argform_eqb a b = true -> a = b.
Proof. destruct a, b; simpl; congruence. Qed.

Lemma in_range_finite x : in_range x -> is_finite x = true.
Proof. intros [H _]; exact H. Qed.

Lemma rhs_ok_in_range f r v :
  rhs_ok_for f r = true -> is_finite v = true -> (form_is_angle f = true -> in_range v) -> in_range (eval_rhs r v v).
Proof.
  destruct r; simpl; try discriminate; intros H Hv Ha.
  - exact (norm360_range v Hv).
  - apply Ha; exact H.
  - apply zero_in_range.
Qed.

Lemma action_ok_range f a v :
  action_ok f a = true -> supplied_ok f v -> exists s, ctor_eval a v = Some s /\ in_range3 s.
Proof.
  destruct v as [[v1 v2] v3]. intros Hok [[F1 [F2 F3]] Hang]. destruct a as [|p y r|]; simpl in *; try discriminate.
  - exists (v1, v2, v3). split; [reflexivity | apply Hang; exact Hok].
  - apply andb_prop in Hok. destruct Hok as [Hok Hr]. apply andb_prop in Hok. destruct Hok as [Hp Hy].
    eexists; split; [reflexivity|]. simpl.
    assert (A1 : form_is_angle f = true -> in_range v1) by (intro E; apply Hang in E; tauto).
    assert (A2 : form_is_angle f = true -> in_range v2) by (intro E; apply Hang in E; tauto).
    assert (A3 : form_is_angle f = true -> in_range v3) by (intro E; apply Hang in E; tauto).
    split; [|split]; apply rhs_ok_in_range with f; auto.
Qed.

(** For a table that passes [ctor_table_ok]: whatever the form of the argument and whatever finite floats it
    supplies (in range when it is an angle), each constructor of the table HAS a path for that form, and every
    path listed for it hands out an object whose three slots are finite and in [0, 360). *)
Theorem ctor_range ctors rows :
  ctor_table_ok ctors rows = true ->
  forall c, In c ctors -> forall f v, supplied_ok f v ->
    (exists a, In (c, f, a) rows) /\
    (forall a, In (c, f, a) rows -> exists s, ctor_eval a v = Some s /\ in_range3 s).
Proof.
  unfold ctor_table_ok. intros H c Hc f v Hv.
  apply andb_prop in H. destruct H as [H _]. apply andb_prop in H. destruct H as [Hrows Hcov].
  rewrite forallb_forall in Hrows, Hcov. split.
  - specialize (Hcov c Hc). rewrite forallb_forall in Hcov.
    assert (Hin : In f all_forms) by (destruct f; simpl; tauto).
    specialize (Hcov f Hin). unfold has_row in Hcov. apply existsb_exists in Hcov.
    destruct Hcov as [[[c' f'] a] [Hin' E]]. simpl in E. apply andb_prop in E. destruct E as [E1 E2].
    apply String.eqb_eq in E1. apply argform_eqb_eq in E2. subst. exists a; exact Hin'.
  - intros a Ha. specialize (Hrows _ Ha). unfold row_ok in Hrows; simpl in Hrows.
    apply action_ok_range with f; auto.
Qed.

(** The fast path of seeded fault c05_6: for a Vec argument the components are stored as they are.  The table fails,
    and the object built from Vec(-90, 0, 0) holds -90. *)
Definition neg90 : b64 := norm (-90) 0.

Lemma neg90_spec : B2R neg90 = (-90)%R /\ is_finite neg90 = true.
Proof.
  destruct (norm_exact (-90) 0) as [H1 H2]; try lia.
  - unfold F2R; simpl. rewrite Rabs_left; lra.
  - split; auto. fold neg90 in H1. rewrite H1. unfold F2R; simpl; lra.
Qed.

(** the same shape with the slots named as copies of an angle (`res._pitch = vec._pitch` would read like one) is
    rejected for a vector form and accepted for an angle form *)
Example copy_needs_angle_form :
  action_ok FVec (AStores CopyFromAngle CopyFromAngle CopyFromAngle) = false /\
  action_ok FOtherAngle (AStores CopyFromAngle CopyFromAngle CopyFromAngle) = true /\
  action_ok FFrozenVec AReturnArg = false.
Proof. repeat split. Qed.

(** today's shape of the two constructors satisfies the premise (non-vacuity) *)
Example ctor_table_satisfiable :
  ctor_table_ok ["C"%string]
    (map (fun f => ("C"%string, f, if form_is_angle f then AStores CopyFromAngle CopyFromAngle CopyFromAngle
                                   else AStores Double360 Double360 Double360)) all_forms) = true.
Proof. reflexivity. Qed.
