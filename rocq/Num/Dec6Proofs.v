(** C05 (c) — proofs about the format_float model (Num/Dec6.v). *)
From Coq Require Import ZArith NArith List Bool Lia ZifyBool.
From SV Require Import Num.Dec6.
Import ListNotations.
Open Scope N_scope.

Lemma den_pos x : 0 < snd (num_den x).
Proof.
  unfold num_den. destruct (0 <=? de x)%Z; cbn [snd]; [lia|].
  apply N.neq_0_lt_0. apply N.pow_nonzero. lia.
Qed.

Lemma rhe_error num den : 0 < den ->
  (2 * Z.abs (Z.of_N (round_half_even num den) * Z.of_N den - Z.of_N num) <= Z.of_N den)%Z.
Proof.
  intros Hd. unfold round_half_even.
  pose proof (N.div_mod num den ltac:(lia)) as E.
  pose proof (N.mod_lt num den ltac:(lia)) as L.
  set (q := num / den) in *. set (r := num mod den) in *.
  destruct (N.compare_spec (2 * r) den) as [C|C|C]; [destruct (N.even q)| |]; nia.
Qed.

Theorem scaled6_error : forall x,
  (0 < Z.of_N (snd (num_den x)))%Z /\
  (2 * Z.abs (Z.of_N (scaled6 x) * Z.of_N (snd (num_den x)) - Z.of_N (fst (num_den x))) <= Z.of_N (snd (num_den x)))%Z.
Proof.
  intros x. pose proof (den_pos x) as Hd. split; [lia|].
  unfold scaled6. destruct (num_den x) as [num den]. cbn [fst snd] in *. apply rhe_error; auto.
Qed.

(** an exact zero rounds to zero *)
Lemma scaled6_of_zero x : dm x = 0 -> scaled6 x = 0.
Proof.
  intros Hm. pose proof (den_pos x) as Hd. unfold scaled6, num_den in *. rewrite Hm.
  destruct (0 <=? de x)%Z; cbn [N.mul snd] in *; [reflexivity|].
  unfold round_half_even. rewrite N.div_0_l, N.mod_0_l by lia.
  destruct (N.compare_spec (2 * 0) (2 ^ Z.to_N (- de x))); try reflexivity; lia.
Qed.

Notation stepd := (fun a d : N => a * 10 + d).

Lemma digs_value fuel : forall q acc, q < 2 ^ N.of_nat fuel ->
  fold_left stepd (digs fuel q acc) 0 = fold_left stepd acc q.
Proof.
  induction fuel as [|f IH]; intros q acc Hq.
  - cbn [digs]. change (2 ^ N.of_nat 0) with 1 in Hq. assert (q = 0) by lia. subst. reflexivity.
  - cbn [digs]. destruct (N.ltb_spec q 10) as [H|H].
    + cbn [fold_left]. f_equal.
    + rewrite IH.
      * cbn [fold_left]. f_equal. pose proof (N.div_mod q 10 ltac:(lia)). lia.
      * rewrite Nat2N.inj_succ, N.pow_succ_r' in Hq.
        apply N.div_lt_upper_bound; lia.
Qed.

Lemma to_digits_value q : intval (to_digits q) = q.
Proof.
  unfold intval, to_digits. rewrite digs_value; [reflexivity|].
  rewrite Nat2N.inj_succ, N2Nat.id, N.pow_succ_r'.
  pose proof (N.size_gt q). lia.
Qed.

Lemma digs_all_digits fuel : forall q acc, all_digits acc = true -> all_digits (digs fuel q acc) = true.
Proof.
  induction fuel as [|f IH]; intros q acc Ha; cbn [digs]; auto.
  destruct (N.ltb_spec q 10) as [H|H].
  - cbn [all_digits forallb]. fold (all_digits acc). rewrite Ha. lia.
  - apply IH. cbn [all_digits forallb]. fold (all_digits acc). rewrite Ha.
    pose proof (N.mod_lt q 10 ltac:(lia)). lia.
Qed.

(** head of the result: non-zero when q > 0 (and fuel suffices); the result is never empty *)
Lemma digs_head fuel : forall q acc, 0 < q -> q < 2 ^ N.of_nat fuel ->
  exists d r, digs fuel q acc = d :: r /\ d <> 0.
Proof.
  induction fuel as [|f IH]; intros q acc H0 Hq.
  - change (2 ^ N.of_nat 0) with 1 in Hq. lia.
  - cbn [digs]. destruct (N.ltb_spec q 10) as [H|H].
    + exists q, acc. split; auto. lia.
    + apply IH.
      * apply N.div_str_pos. lia.
      * rewrite Nat2N.inj_succ, N.pow_succ_r' in Hq. apply N.div_lt_upper_bound; lia.
Qed.

Lemma to_digits_shape q : all_digits (to_digits q) = true /\ no_leading_zero (to_digits q) = true /\
  (to_digits q = [0] <-> q = 0).
Proof.
  split; [apply digs_all_digits; reflexivity|].
  destruct (N.eq_dec q 0) as [->|Hne].
  - split; [reflexivity|]. split; auto.
  - destruct (digs_head (S (N.to_nat (N.size q))) q []) as (d & r & E & Hd); [lia| |].
    + rewrite Nat2N.inj_succ, N2Nat.id, N.pow_succ_r'. pose proof (N.size_gt q). lia.
    + unfold to_digits. rewrite E. split.
      * unfold no_leading_zero. destruct r; auto. destruct (N.eqb_spec d 0); auto; try contradiction.
      * split; [|contradiction]. intros E'. inversion E'. contradiction.
Qed.

Lemma fixed_length k f : length (fixed k f) = k.
Proof. induction k; cbn [fixed length]; auto. Qed.

Lemma fixed_all_digits k f : all_digits (fixed k f) = true.
Proof.
  induction k as [|k IH]; cbn [fixed all_digits forallb]; auto. fold (all_digits (fixed k f)). rewrite IH.
  pose proof (N.mod_lt (f / 10 ^ N.of_nat k) 10 ltac:(lia)). lia.
Qed.

Lemma fixed_value k f : fracval k (fixed k f) = f mod 10 ^ N.of_nat k.
Proof.
  induction k as [|k IH].
  - cbn. symmetry. apply N.mod_1_r.
  - cbn [fixed fracval]. rewrite IH, Nat2N.inj_succ, N.pow_succ_r'.
    assert (Hp : 10 ^ N.of_nat k <> 0) by (apply N.pow_nonzero; lia).
    rewrite (N.mul_comm 10), N.mod_mul_r by lia. lia.
Qed.

Lemma rstrip0_value l : forall w, fracval w (rstrip0 l) = fracval w l.
Proof.
  induction l as [|d r IH]; intros w; cbn [rstrip0]; auto.
  destruct w as [|w].
  - destruct (rstrip0 r); [destruct (d =? 0)|]; destruct r; reflexivity.
  - specialize (IH w). destruct (rstrip0 r) as [|d' r'] eqn:E.
    + destruct (N.eqb_spec d 0) as [->|Hd].
      * cbn [fracval]. rewrite <- IH. destruct w; cbn; lia.
      * cbn [fracval]. rewrite <- IH. destruct w; cbn; lia.
    + cbn [fracval]. rewrite IH. reflexivity.
Qed.

Lemma rstrip0_length l : (length (rstrip0 l) <= length l)%nat.
Proof.
  induction l as [|d r IH]; cbn [rstrip0 length]; auto.
  destruct (rstrip0 r); [destruct (d =? 0)|]; cbn [length] in *; lia.
Qed.

Lemma rstrip0_all_digits l : all_digits l = true -> all_digits (rstrip0 l) = true.
Proof.
  induction l as [|d r IH]; cbn [rstrip0 all_digits forallb]; auto. fold (all_digits r).
  intros H. apply andb_prop in H. destruct H as [Hd Hr]. specialize (IH Hr).
  destruct (rstrip0 r) as [|d' r']; [destruct (d =? 0)|]; cbn [all_digits forallb] in *; auto.
  - rewrite Hd. reflexivity.
  - rewrite Hd. exact IH.
Qed.

Lemma rstrip0_last l : rstrip0 l = [] \/ exists l' d, rstrip0 l = l' ++ [d] /\ d <> 0.
Proof.
  induction l as [|d r IH]; cbn [rstrip0]; auto.
  destruct IH as [E|(l' & d' & E & Hd)].
  - rewrite E. destruct (N.eqb_spec d 0); auto. right. exists [], d. auto.
  - rewrite E. right. destruct (l' ++ [d']) as [|x y] eqn:E2.
    + destruct l'; discriminate.
    + exists (d :: l'), d'. rewrite <- E2. auto.
Qed.

Lemma rstrip0_no_trailing l : no_trailing_zero (rstrip0 l) = true.
Proof.
  destruct (rstrip0_last l) as [E|(l' & d & E & Hd)]; rewrite E; [reflexivity|].
  unfold no_trailing_zero. rewrite rev_app_distr. cbn [rev app].
  destruct (N.eqb_spec d 0); auto; try contradiction.
Qed.

Definition frac_of (c : fmt_cfg) (x : dyadic) : list N :=
  if strips c then rstrip0 (fixed 6 (scaled6 x mod 1000000)) else fixed 6 (scaled6 x mod 1000000).

Lemma fmt_parts_fields c x :
  pint (fmt_parts c x) = to_digits (scaled6 x / 1000000) /\ pfrac (fmt_parts c x) = frac_of c x.
Proof.
  unfold fmt_parts, frac_of. cbv zeta.
  match goal with |- context [if ?b then _ else _] => destruct b end; split; reflexivity.
Qed.

Theorem format6_value : forall c x, scaled_value (fmt_parts c x) = scaled6 x.
Proof.
  intros c x. unfold scaled_value. destruct (fmt_parts_fields c x) as [-> ->].
  rewrite to_digits_value. unfold frac_of.
  assert (E : fracval 6 (fixed 6 (scaled6 x mod 1000000)) = scaled6 x mod 1000000).
  { rewrite fixed_value. change (10 ^ N.of_nat 6) with 1000000. apply N.mod_mod. lia. }
  destruct (strips c); [rewrite rstrip0_value|]; rewrite E;
    pose proof (N.div_mod (scaled6 x) 1000000 ltac:(lia)); lia.
Qed.

(** The '-0' repair touches nothing but the sign: a sign is printed when [sign_flag] says so, unless the repair
    meets a printed zero. *)
Lemma fmt_parts_neg c x :
  pneg (fmt_parts c x) = sign_flag c x && negb (neg_zero_fix c && is_zero_parts (fmt_parts c x)).
Proof.
  unfold fmt_parts. cbv zeta. fold (sign_flag c x).
  destruct (neg_zero_fix c), (sign_flag c x); cbn [andb negb pneg]; try reflexivity.
  match goal with |- context [if ?b then _ else _] => destruct b eqn:B end;
    unfold is_zero_parts in *; cbn [pneg pint pfrac] in *; rewrite B; reflexivity.
Qed.

(** a printed zero means the rounded integer is zero *)
Lemma is_zero_parts_scaled c x : is_zero_parts (fmt_parts c x) = true -> scaled6 x = 0.
Proof.
  intros H. rewrite <- (format6_value c x). unfold scaled_value, is_zero_parts in *.
  destruct (pint (fmt_parts c x)) as [|[|?] [|? ?]]; try discriminate.
  destruct (pfrac (fmt_parts c x)); try discriminate. reflexivity.
Qed.

(** General form: the shape holds for every pipeline that strips zeros at 6 places, on every input that is
    not carved out (nothing is carved out when the '-0' repair is present). *)
Theorem format6_shape_gen : forall c x, cfg_base_ok c = true -> carved c x = false -> shape_ok (fmt_parts c x) = true.
Proof.
  intros c x Hc Hcv. unfold cfg_base_ok in Hc. apply andb_prop in Hc. destruct Hc as [_ Hstrip].
  unfold shape_ok. rewrite fmt_parts_neg. destruct (fmt_parts_fields c x) as [-> ->].
  destruct (to_digits_shape (scaled6 x / 1000000)) as (-> & -> & _).
  unfold frac_of. rewrite Hstrip, rstrip0_no_trailing, rstrip0_all_digits by apply fixed_all_digits.
  pose proof (rstrip0_length (fixed 6 (scaled6 x mod 1000000))) as L. rewrite fixed_length in L.
  apply Nat.leb_le in L. rewrite L. cbn [andb].
  (* a printed zero has its sign repaired, or else the input is carved out *)
  unfold carved in Hcv.
  destruct (is_zero_parts (fmt_parts c x)) eqn:Z; [|rewrite andb_false_r; reflexivity].
  rewrite (is_zero_parts_scaled c x Z) in Hcv.
  destruct (neg_zero_fix c), (sign_flag c x); try reflexivity; discriminate.
Qed.

Lemma cfg_ok_not_carved c x : cfg_ok c = true -> cfg_base_ok c = true /\ carved c x = false.
Proof.
  unfold cfg_ok, cfg_base_ok, carved. intros H. apply andb_prop in H. destruct H as [H1 H2].
  rewrite H1, H2. split; reflexivity.
Qed.

Theorem format6_shape : forall c x, cfg_ok c = true -> shape_ok (fmt_parts c x) = true.
Proof. intros c x H. destruct (cfg_ok_not_carved c x H). apply format6_shape_gen; assumption. Qed.

(** the carved-out class is exactly where the pinned pipeline prints "-0" *)
Theorem carved_prints_negative_zero : forall c x, cfg_base_ok c = true -> carved c x = true ->
  format6 c x = [45; 48].
Proof.
  intros c x Hc Hcv. unfold cfg_base_ok in Hc. apply andb_prop in Hc. destruct Hc as [_ Hstrip].
  unfold carved in Hcv. apply andb_prop in Hcv. destruct Hcv as [Hcv Hz]. apply andb_prop in Hcv.
  destruct Hcv as [Hfix Hs]. apply N.eqb_eq in Hz. apply negb_true_iff in Hfix.
  unfold format6, fmt_parts. cbv zeta. fold (sign_flag c x). rewrite Hfix, Hs, Hstrip, Hz.
  reflexivity.
Qed.

Example format6_example : format6 (cfg_fixed true) {| dneg := false; dm := 1451; de := (-1)%Z |} = [55; 50; 53; 46; 53].
Proof. vm_compute. reflexivity. Qed.

Lemma is_digit_ch d : d <? 10 = true -> is_digit (ch d) = true.
Proof. unfold is_digit, ch. lia. Qed.

Lemma ch_not_minus d : d <? 10 = true -> (ch d =? 45) = false.
Proof. unfold ch. lia. Qed.

Lemma span_digits_app l rest : all_digits l = true ->
  match rest with [] => True | c :: _ => is_digit c = false end ->
  span_digits (map ch l ++ rest) = (map ch l, rest).
Proof.
  induction l as [|d r IH]; intros Ha Hr.
  - cbn [map app]. destruct rest as [|c rest']; [reflexivity|]. cbn [span_digits]. rewrite Hr. reflexivity.
  - cbn [all_digits forallb] in Ha. fold (all_digits r) in Ha. apply andb_prop in Ha. destruct Ha as [Hd Ha].
    cbn [map app span_digits]. rewrite (is_digit_ch d Hd), (IH Ha Hr). reflexivity.
Qed.

Lemma nonempty_map l : nonempty (map ch l) = nonempty l.
Proof. destruct l; reflexivity. Qed.

Lemma render_eq p : render p =
  (if pneg p then [45] else []) ++ map ch (pint p) ++
  (match pfrac p with [] => [] | _ :: _ => 46 :: map ch (pfrac p) end).
Proof. unfold render. destruct (pfrac p); reflexivity. Qed.

Theorem render_plain : forall p, shape_ok p = true -> plain_decimal (render p) = true.
Proof.
  intros [neg ip fp]. unfold shape_ok. cbn [pint pfrac pneg]. intros H.
  repeat (apply andb_prop in H; let H' := fresh "H" in destruct H as [H H']).
  rename H into Hi, H4 into Hf, H3 into Hl, H2 into Hlen, H1 into Htr, H0 into Hnz.
  rewrite render_eq. cbn [pint pfrac pneg].
  set (tail := match fp with [] => [] | _ :: _ => 46 :: map ch fp end).
  assert (Htail : match tail with [] => True | c :: _ => is_digit c = false end).
  { subst tail. destruct fp; [exact I|reflexivity]. }
  assert (Hip : nonempty ip = true) by (destruct ip; [discriminate|reflexivity]).
  (* the body after an optional '-' *)
  assert (Hbody : match ((if neg then [45] else []) ++ map ch ip ++ tail) with
                  | c :: r => if c =? 45 then r else (if neg then [45] else []) ++ map ch ip ++ tail
                  | [] => (if neg then [45] else []) ++ map ch ip ++ tail end = map ch ip ++ tail).
  { destruct neg; [reflexivity|]. cbn [app]. destruct ip as [|d r]; [discriminate|].
    cbn [map app]. cbn [all_digits forallb] in Hi. apply andb_prop in Hi. destruct Hi as [Hd _].
    rewrite (ch_not_minus d Hd). reflexivity. }
  unfold plain_decimal. cbv zeta. rewrite Hbody. rewrite (span_digits_app ip tail Hi Htail).
  rewrite nonempty_map, Hip. cbn [andb].
  apply andb_true_intro. split.
  - subst tail. destruct fp as [|f0 fr]; [reflexivity|].
    change (46 =? 46) with true. cbn [andb].
    rewrite <- (app_nil_r (map ch (f0 :: fr))), (span_digits_app (f0 :: fr) [] Hf I).
    rewrite nonempty_map, map_length. cbn [nonempty negb andb]. rewrite Hlen. reflexivity.
  - (* never "-0" *)
    destruct neg.
    + cbn [app]. destruct ip as [|d0 [|d1 r]]; [discriminate| |].
      * cbn [map app]. subst tail. destruct fp as [|f0 fr].
        -- cbn [andb]. change (45 =? 45) with true. cbn [andb].
           cbn [all_digits forallb] in Hi. unfold is_zero_parts in Hnz. cbn [pint pfrac andb] in Hnz.
           unfold ch. destruct d0; [discriminate|]. lia.
        -- reflexivity.
      * cbn [map app]. destruct (map ch r ++ tail); reflexivity.
    + cbn [app]. destruct ip as [|d0 r]; [discriminate|]. cbn [map app].
      cbn [all_digits forallb] in Hi. apply andb_prop in Hi. destruct Hi as [Hd _].
      destruct (map ch r ++ tail) as [|a [|b t]]; try reflexivity.
      rewrite (ch_not_minus d0 Hd). reflexivity.
Qed.

Theorem format6_plain : forall c x, cfg_ok c = true -> plain_decimal (format6 c x) = true.
Proof. intros c x H. unfold format6. apply render_plain, format6_shape, H. Qed.

Theorem format6_plain_gen : forall c x, cfg_base_ok c = true -> carved c x = false -> plain_decimal (format6 c x) = true.
Proof. intros c x H1 H2. unfold format6. apply render_plain, format6_shape_gen; assumption. Qed.
