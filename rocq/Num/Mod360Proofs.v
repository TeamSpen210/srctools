(** C05 (a) — range theorems for the executable model of Python's [x % 360.0] (Num/Mod360.v). *)
From Coq Require Import Reals Lia Lra.
From Flocq Require Import Core BinarySingleNaN.
From SV Require Import Num.Mod360.
Open Scope R_scope.

Notation fexp64 := (FLT_exp (-1074) 53).
Notation rnd := (round radix2 fexp64 ZnearestE).

Lemma fmt_dyadic m e : (Z.abs m < 2 ^ 53)%Z -> (-1074 <= e)%Z ->
  generic_format radix2 fexp64 (F2R (Float radix2 m e)).
Proof.
  intros Hm He. apply generic_format_FLT. exists (Float radix2 m e); simpl; auto.
Qed.

Lemma fmt_360 : generic_format radix2 fexp64 360.
Proof.
  replace 360 with (F2R (Float radix2 360 0)) by (unfold F2R; simpl; lra).
  apply fmt_dyadic; lia.
Qed.

Lemma bpow1024_big : 360 < bpow radix2 1024.
Proof.
  apply Rlt_le_trans with (bpow radix2 9).
  - simpl. lra.
  - apply bpow_le. lia.
Qed.

(** [norm] is exact on dyadics that fit and are small. *)
Lemma norm_exact m e : (Z.abs m < 2 ^ 53)%Z -> (-1074 <= e)%Z ->
  Rabs (F2R (Float radix2 m e)) <= 360 ->
  B2R (norm m e) = F2R (Float radix2 m e) /\ is_finite (norm m e) = true.
Proof.
  intros Hm He Hs.
  generalize (binary_normalize_correct 53 1024 Hprec53 Hemax1024 mode_NE m e false).
  cbv zeta. fold (norm m e).
  change (SpecFloat.fexp 53 1024) with fexp64.
  change (round_mode mode_NE) with ZnearestE.
  rewrite (round_generic radix2 fexp64 ZnearestE _ (fmt_dyadic m e Hm He)).
  rewrite Rlt_bool_true.
  - intros (H1 & H2 & _). auto.
  - eapply Rle_lt_trans; [exact Hs | exact bpow1024_big].
Qed.

Lemma f360_spec : B2R f360 = 360 /\ is_finite f360 = true.
Proof.
  destruct (norm_exact 360 0) as [H1 H2]; try lia.
  - unfold F2R; simpl. rewrite Rabs_pos_eq; lra.
  - split; auto. fold f360 in H1. rewrite H1. unfold F2R; simpl; lra.
Qed.

(** bounds carried by a finite binary64 record *)
Lemma bounded_facts m e : SpecFloat.bounded 53 1024 m e = true -> (Z.pos m < 2 ^ 53)%Z /\ (-1074 <= e)%Z.
Proof.
  intros H. apply andb_prop in H. destruct H as [H _].
  apply Zeq_bool_eq in H. unfold SpecFloat.fexp, SpecFloat.emin in H.
  rewrite Digits.Zpos_digits2_pos in H.
  split; [|lia].
  assert (Hd : (Digits.Zdigits radix2 (Z.pos m) <= 53)%Z) by lia.
  apply (Digits.Zpower_gt_Zdigits radix2) in Hd. simpl Z.abs in Hd. exact Hd.
Qed.

(** [rem360] brings the value and 360 to one exponent [re] — there the value is n·2^re and 360 is K·2^re — and
    reduces the mantissa modulo K *)
Lemma rem360_form mx e : (0 < mx < 2 ^ 53)%Z -> (-1074 <= e)%Z ->
  exists n K re, rem360 mx e = ((n mod K)%Z, re) /\ (0 < K)%Z /\ (-1074 <= re)%Z /\ (n mod K < 2 ^ 53)%Z /\
    F2R (Float radix2 n re) = F2R (Float radix2 mx e) /\ F2R (Float radix2 K re) = 360.
Proof.
  intros Hm He. unfold rem360. destruct (Z.leb_spec 0 e) as [E|E].
  - exists (mx * 2 ^ e)%Z, 360%Z, 0%Z.
    pose proof (Z.mod_pos_bound (mx * 2 ^ e) 360 ltac:(lia)).
    repeat split; try lia; unfold F2R; cbn [Fnum Fexp].
    + rewrite mult_IZR, (IZR_Zpower radix2) by lia. simpl. ring.
    + simpl. lra.
  - assert (Hp : (0 < 2 ^ (- e))%Z) by (apply Z.pow_pos_nonneg; lia).
    exists mx, (360 * 2 ^ (- e))%Z, e.
    pose proof (Z.mod_le mx (360 * 2 ^ (- e)) ltac:(lia) ltac:(lia)).
    repeat split; try lia. unfold F2R; cbn [Fnum Fexp].
    rewrite mult_IZR, (IZR_Zpower radix2), Rmult_assoc, <- bpow_plus by lia.
    replace (- e + e)%Z with 0%Z by lia. simpl. lra.
Qed.

(** the integer remainder is a dyadic in [0, 360) that fits a binary64 mantissa *)
Lemma rem360_facts mx e : (0 < mx < 2 ^ 53)%Z -> (-1074 <= e)%Z ->
  let '(rm, re) := rem360 mx e in
  (0 <= rm < 2 ^ 53)%Z /\ (-1074 <= re)%Z /\ 0 <= F2R (Float radix2 rm re) < 360.
Proof.
  intros Hm He. destruct (rem360_form mx e Hm He) as (n & K & re & -> & HK & Hre & Hlt & _ & <-).
  destruct (Z.mod_pos_bound n K HK) as [H0 H1].
  split; [lia|]. split; [exact Hre|]. split; [apply F2R_ge_0, H0|apply F2R_lt, H1].
Qed.

(** What [fmod360] returns on a finite argument: finite, |.| < 360, never with the opposite sign. *)
Lemma fmod360_spec x : is_finite x = true ->
  is_finite (fmod360 x) = true /\ Rabs (B2R (fmod360 x)) < 360 /\
  (Bsign x = false -> 0 <= B2R (fmod360 x)) /\ (Bsign x = true -> B2R (fmod360 x) <= 0).
Proof.
  destruct x as [s|s| |s m e Hb]; try discriminate; intros _.
  - simpl. rewrite Rabs_R0. repeat split; try lra.
  - destruct (bounded_facts m e Hb) as [Hm He].
    pose proof (rem360_facts (Z.pos m) e ltac:(lia) He) as Hr.
    unfold fmod360. destruct (rem360 (Z.pos m) e) as [rm re].
    destruct Hr as (Hrm & Hre & Hv).
    destruct (rm =? 0)%Z eqn:Ez.
    + simpl. rewrite Rabs_R0. repeat split; try lra.
    + set (sm := if s then (- rm)%Z else rm).
      assert (Habs : (Z.abs sm < 2 ^ 53)%Z) by (unfold sm; destruct s; lia).
      assert (HF : F2R (Float radix2 sm re) = if s then - F2R (Float radix2 rm re) else F2R (Float radix2 rm re)).
      { unfold sm; destruct s; auto. rewrite <- F2R_Zopp. reflexivity. }
      destruct (norm_exact sm re Habs Hre) as [H1 H2].
      { rewrite HF. destruct s; [rewrite Rabs_Ropp|]; rewrite Rabs_pos_eq; lra. }
      rewrite H1, HF. split; auto.
      destruct s; simpl Bsign; repeat split; intros; try discriminate;
        try rewrite Rabs_Ropp; try rewrite Rabs_pos_eq; lra.
Qed.

Lemma is_neg_R x : is_neg x = true -> B2R x < 0.
Proof.
  destruct x as [s|s| |[|] m e Hb]; try discriminate. intros _.
  simpl. apply F2R_lt_0. simpl. lia.
Qed.

Lemma not_neg_R x : is_finite x = true -> is_neg x = false -> 0 <= B2R x.
Proof.
  destruct x as [s|s| |[|] m e Hb]; try discriminate; intros _ _; simpl; try lra.
  apply F2R_ge_0. simpl. lia.
Qed.

Lemma is_zero_R x : is_zero x = true -> B2R x = 0.
Proof. destruct x; try discriminate; auto. Qed.

Lemma not_zero_R x : is_finite x = true -> is_zero x = false -> B2R x <> 0.
Proof.
  destruct x as [s|s| |s m e Hb]; try discriminate; intros _ _. simpl.
  apply F2R_neq_0. simpl. destruct s; simpl; lia.
Qed.

(** the sign-adjusting rounded addition stays inside [0, 360] — and can reach 360 *)
Lemma adjust_range m : -360 < m < 0 -> 0 <= rnd (m + 360) <= 360.
Proof.
  intros Hm. split.
  - rewrite <- (round_0 radix2 fexp64 ZnearestE). apply round_le; try typeclasses eauto. lra.
  - rewrite <- (round_generic radix2 fexp64 ZnearestE 360 fmt_360) at 2.
    apply round_le; try typeclasses eauto. lra.
Qed.

(** One application of Python's [% 360.0]: finite, in the CLOSED interval [0, 360]. *)
Lemma pymod360_closed x : is_finite x = true ->
  is_finite (pymod360 x) = true /\ 0 <= B2R (pymod360 x) <= 360 /\
  (Bsign x = false -> B2R (pymod360 x) < 360).
Proof.
  intros Hx. destruct (fmod360_spec x Hx) as (Hf & Ha & Hp & Hn).
  unfold pymod360. destruct (is_zero (fmod360 x)) eqn:Ez.
  - simpl. repeat split; try lra.
  - destruct (is_neg (fmod360 x)) eqn:En.
    + pose proof (is_neg_R _ En) as Hlt.
      assert (Hr : -360 < B2R (fmod360 x) < 0).
      { split; auto. apply Rabs_def2 in Ha. lra. }
      destruct f360_spec as [H360 F360].
      generalize (Bplus_correct 53 1024 Hprec53 Hemax1024 mode_NE (fmod360 x) f360 Hf F360).
      change (SpecFloat.fexp 53 1024) with fexp64.
      change (round_mode mode_NE) with ZnearestE.
      rewrite H360. pose proof (adjust_range _ Hr) as Hadj.
      rewrite Rlt_bool_true.
      * intros (H1 & H2 & _). rewrite H1. repeat split; try lra; auto.
        intros Hs. specialize (Hp Hs). lra.
      * rewrite Rabs_pos_eq by lra. eapply Rle_lt_trans; [apply Hadj | exact bpow1024_big].
    + pose proof (not_neg_R _ Hf En) as Hge.
      rewrite Rabs_pos_eq in Ha by auto. repeat split; auto; lra.
Qed.

(** a finite non-zero double whose value is not negative has no sign bit *)
Lemma nonneg_finite_sign s m e Hb : 0 <= B2R (B754_finite s m e Hb : b64) -> s = false.
Proof. destruct s; [|reflexivity]. intros H. pose proof (is_neg_R (B754_finite true m e Hb) eq_refl). lra. Qed.

Lemma Bsign_nonneg x : is_finite x = true -> 0 <= B2R x -> is_zero x = false -> Bsign x = false.
Proof. destruct x as [s|s| |s m e Hb]; try discriminate. intros _ H _. exact (nonneg_finite_sign s m e Hb H). Qed.

(** fmod360 of exactly 360 is a zero: the case that the second [%] repairs *)
Lemma pymod360_of_zero x : is_zero x = true -> pymod360 x = B754_zero false.
Proof. destruct x; try discriminate; auto. Qed.

(** The double application is in the HALF-OPEN interval [0, 360). *)
Theorem norm360_range x : is_finite x = true ->
  is_finite (double360 x) = true /\ 0 <= B2R (double360 x) < 360.
Proof.
  intros Hx. unfold double360.
  destruct (pymod360_closed x Hx) as (Hf & [H0 H360] & _).
  set (y := pymod360 x) in *.
  destruct (is_zero y) eqn:Ez.
  - rewrite (pymod360_of_zero y Ez). simpl. split; auto; lra.
  - pose proof (Bsign_nonneg y Hf H0 Ez) as Hs.
    destruct (pymod360_closed y Hf) as (Hf2 & [Ha Hb] & Hc).
    split; [exact Hf2|]. split; [exact Ha | exact (Hc Hs)].
Qed.

(** The hypothesis of the theorem is satisfiable, and the conclusion is not trivially about 0. *)
Example norm360_example : show (double360 (mk false 1451 (-1))) = (0, 6192449487634432, -50)%Z.
Proof. vm_compute. reflexivity. Qed.

Lemma show_B2R (x y : b64) : show x = show y -> B2R x = B2R y.
Proof.
  destruct x as [[|]|[|]| |[|] m e Hb], y as [[|]|[|]| |[|] m' e' Hb']; simpl; intros E;
    try reflexivity; try discriminate; inversion E; subst; reflexivity.
Qed.

(** A single application is NOT enough: -1e-14 % 360.0 is exactly 360.0. *)
Lemma single360_tiny_neg : B2R (single360 tiny_neg) = 360.
Proof. destruct f360_spec as [<- _]. apply show_B2R. vm_compute. reflexivity. Qed.

Theorem single_mod_refuted : exists x, is_finite x = true /\ B2R (single360 x) = 360.
Proof. exists tiny_neg. split; [vm_compute; reflexivity|exact single360_tiny_neg]. Qed.
