(** C05 (a)+(c) — Python's [% 360.0] on a finite value that is not negative is exact: it subtracts the multiple of
    360 below the value (C fmod is exact; no sign adjustment happens for a positive operand).  In particular it
    leaves a value that already is in [0, 360) unchanged.  Consequence: the
    constructor normalisation applied by Angle.from_str / Angle(...) / FrozenAngle(...) to a component that was read
    back from text does not move it, and normalising twice is the same as normalising once more (idempotence of
    the stored representation). *)
From Coq Require Import ZArith Reals Lia Lra.
From Flocq Require Import Core BinarySingleNaN.
From SV Require Import Num.Mod360 Num.Mod360Proofs.
Open Scope R_scope.

(** On a dyadic in [360·k, 360·(k+1)) the integer remainder is exactly 360·k less. *)
Lemma rem360_shift mx e k : (0 < mx < 2 ^ 53)%Z -> (-1074 <= e)%Z ->
  360 * IZR k <= F2R (Float radix2 mx e) < 360 * IZR (k + 1) ->
  let '(rm, re) := rem360 mx e in F2R (Float radix2 rm re) = F2R (Float radix2 mx e) - 360 * IZR k.
Proof.
  intros Hm He. destruct (rem360_form mx e Hm He) as (n & K & re & -> & HK & _ & _ & <- & E360).
  assert (Ek : forall j, 360 * IZR j = F2R (Float radix2 (K * j) re)).
  { intros j. rewrite <- E360. unfold F2R; cbn [Fnum Fexp]. rewrite mult_IZR. ring. }
  rewrite !Ek. intros [Hlo%le_F2R Hhi%lt_F2R].
  (* for integers: n mod K is n - K·k when K·k <= n < K·(k+1) *)
  replace (n mod K)%Z with (n - K * k)%Z.
  - unfold F2R; cbn [Fnum Fexp]. rewrite minus_IZR. ring.
  - replace n with ((n - K * k) + k * K)%Z at 2 by lia. rewrite Z_mod_plus_full, Z.mod_small; lia.
Qed.

(** C fmod by 360 on a finite value that is not negative: exactly [360·k] less, for the [k] whose interval holds it *)
Lemma fmod360_shift x k : is_finite x = true -> (0 <= k)%Z -> 360 * IZR k <= B2R x < 360 * IZR (k + 1) ->
  B2R (fmod360 x) = B2R x - 360 * IZR k /\ is_neg (fmod360 x) = false /\ is_finite (fmod360 x) = true.
Proof.
  destruct x as [s|s| |s m e Hb]; try discriminate; intros _ Hk Hr; pose proof (IZR_le _ _ Hk) as Hk'.
  - simpl in *. assert (k = 0%Z) as -> by (apply eq_IZR; lra). split; [lra|auto].
  - destruct (bounded_facts m e Hb) as [Hm He].
    assert (s = false) as -> by (apply (nonneg_finite_sign s m e Hb); lra).
    simpl B2R in *. pose proof (rem360_shift (Z.pos m) e k ltac:(lia) He Hr) as Hid.
    pose proof (rem360_facts (Z.pos m) e ltac:(lia) He) as Hf.
    unfold fmod360. destruct (rem360 (Z.pos m) e) as [rm re]. destruct Hf as (Hrm & Hre & Hv).
    destruct (rm =? 0)%Z eqn:Ez.
    * apply Z.eqb_eq in Ez. subst rm. simpl. split; [|auto]. rewrite <- Hid. unfold F2R; simpl. lra.
    * destruct (norm_exact rm re) as [H1 H2]; try lia.
      { rewrite Rabs_pos_eq; lra. }
      split; [rewrite H1; exact Hid|]. split; [|exact H2].
      destruct (is_neg (norm rm re)) eqn:En; [|reflexivity].
      exfalso. apply is_neg_R in En. rewrite H1 in En. lra.
Qed.

Theorem pymod360_shift x k : is_finite x = true -> (0 <= k)%Z -> 360 * IZR k <= B2R x < 360 * IZR (k + 1) ->
  B2R (pymod360 x) = B2R x - 360 * IZR k /\ is_finite (pymod360 x) = true.
Proof.
  intros Hx Hk Hr. destruct (fmod360_shift x k Hx Hk Hr) as (Hv & Hn & Hf).
  unfold pymod360. destruct (is_zero (fmod360 x)) eqn:Ez.
  - apply is_zero_R in Ez. simpl. split; [lra|reflexivity].
  - rewrite Hn. auto.
Qed.

Theorem double360_shift x k : is_finite x = true -> (0 <= k)%Z -> 360 * IZR k <= B2R x < 360 * IZR (k + 1) ->
  B2R (double360 x) = B2R x - 360 * IZR k /\ is_finite (double360 x) = true.
Proof.
  intros Hx Hk Hr. destruct (pymod360_shift x k Hx Hk Hr) as [H1 F1]. unfold double360.
  destruct (pymod360_shift (pymod360 x) 0 F1) as [H2 F2]; [lia|rewrite H1, plus_IZR in *; simpl; lra|].
  split; [rewrite H2, H1; simpl; lra|exact F2].
Qed.

(** the normalisation used by every store site is the identity (as a real number) on its own range:
    storing a value twice, copying through the constructor, or re-reading a printed component that denotes a double
    below 360 never moves it *)
Theorem double360_id x : is_finite x = true -> 0 <= B2R x < 360 ->
  B2R (double360 x) = B2R x /\ is_finite (double360 x) = true.
Proof.
  intros Hx Hr. destruct (double360_shift x 0 Hx) as [E F]; [lia|simpl; lra|]. split; [rewrite E; simpl; lra|exact F].
Qed.

