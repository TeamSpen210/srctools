(** A fixed copy of the decision trees read from the pinned tokenizer.py (translate/c02_gettoken.py), as a witness that the
    condition [trees_ok] of Text/GtTable.v is satisfiable, and a nearby wrong object that it rejects. *)
From Coq Require Import NArith List.
From SV Require Import Text.Str Text.Tokenizer Text.GtTable.
Import ListNotations.
Open Scope N_scope.

Definition ex_dispatch : tree :=
  Node (ACls 0) (Leaf (false, 0, 0, [], 1, 0, 0)) (Node (AOps) (Leaf (false, 0, 0, [], 2, 0, 0)) (Node (ACls 1) (Leaf (false, 1, 1, [], 1, 2, 2)) (Node (ACls 2) (Node (ALcr) (Leaf (false, 0, 2, [], 0, 0, 0)) (Leaf (false, 1, 2, [], 1, 2, 2))) (Node (ACls 3) (Leaf (false, 0, 2, [], 0, 0, 0)) (Node (ACls 4) (Leaf (false, 0, 2, [], 0, 0, 0)) (Node (ACls 5) (Leaf (false, 0, 2, [], 5, 0, 0)) (Node (ACls 6) (Leaf (false, 0, 2, [], 4, 0, 0)) (Node (ACls 7) (Node (AOpt 0) (Leaf (false, 0, 2, [], 6, 1, 0)) (Leaf (false, 0, 2, [], 1, 11, 1))) (Node (ACls 8) (Node (AOpt 1) (Leaf (false, 0, 2, [], 6, 2, 0)) (Leaf (false, 0, 2, [], 1, 8, 1))) (Node (ACls 9) (Node (ALine1) (Leaf (false, 0, 2, [], 0, 0, 0)) (Node (ABd) (Leaf (false, 0, 2, [], 3, 10, 1)) (Leaf (false, 0, 2, [], 6, 4, 1)))) (Node (ACls 10) (Node (AOpt 5) (Leaf (false, 0, 2, [], 1, 13, 1)) (Node (ABd) (Leaf (false, 0, 2, [], 3, 10, 1)) (Leaf (false, 0, 2, [], 6, 4, 1)))) (Node (ACls 11) (Node (AOpt 6) (Leaf (false, 0, 2, [], 1, 15, 1)) (Node (ABd) (Leaf (false, 0, 2, [], 3, 10, 1)) (Leaf (false, 0, 2, [], 6, 4, 1)))) (Node (ACls 12) (Node (AOpt 0) (Leaf (false, 0, 2, [], 3, 8, 0)) (Leaf (false, 0, 2, [], 1, 12, 1))) (Node (ACls 13) (Node (AOpt 1) (Leaf (false, 0, 2, [], 3, 9, 0)) (Leaf (false, 0, 2, [], 1, 9, 1))) (Node (ACls 14) (Leaf (false, 0, 2, [], 6, 3, 0)) (Node (ABd) (Leaf (false, 0, 2, [], 3, 10, 1)) (Leaf (false, 0, 2, [], 6, 4, 1)))))))))))))))))).
Definition ex_brack : tree :=
  Node (ACls 12) (Leaf (false, 0, 0, [], 1, 10, 3)) (Node (ACls 2) (Leaf (false, 0, 0, [], 3, 3, 0)) (Node (ACls 7) (Leaf (false, 0, 0, [], 3, 4, 0)) (Node (ACls 0) (Leaf (false, 0, 0, [], 3, 5, 0)) (Leaf (false, 0, 0, [2], 0, 0, 0))))).
Definition ex_paren : tree :=
  Node (ACls 13) (Leaf (false, 0, 0, [], 1, 3, 3)) (Node (ACls 2) (Leaf (false, 1, 0, [2], 0, 0, 0)) (Node (ACls 8) (Leaf (false, 0, 0, [], 3, 6, 0)) (Node (ACls 0) (Leaf (false, 0, 0, [], 3, 7, 0)) (Leaf (false, 0, 0, [2], 0, 0, 0))))).
Definition ex_directive : tree :=
  Node (ACls 0) (Leaf (false, 0, 0, [], 1, 4, 3)) (Node (ABd) (Leaf (true, 0, 0, [], 1, 4, 3)) (Node (ACls 10) (Node (AOpt 5) (Leaf (true, 0, 0, [], 1, 4, 3)) (Leaf (false, 0, 0, [3], 0, 0, 0))) (Node (ACls 11) (Node (AOpt 6) (Leaf (true, 0, 0, [], 1, 4, 3)) (Leaf (false, 0, 0, [3], 0, 0, 0))) (Leaf (false, 0, 0, [3], 0, 0, 0))))).
Definition ex_bare : tree :=
  Node (ACls 0) (Leaf (false, 0, 0, [], 1, 1, 3)) (Node (ABd) (Leaf (true, 0, 0, [], 1, 1, 3)) (Node (ACls 10) (Node (AOpt 5) (Leaf (true, 0, 0, [], 1, 1, 3)) (Leaf (false, 0, 0, [2], 0, 0, 0))) (Node (ACls 11) (Node (AOpt 6) (Leaf (true, 0, 0, [], 1, 1, 3)) (Leaf (false, 0, 0, [2], 0, 0, 0))) (Leaf (false, 0, 0, [2], 0, 0, 0))))).
Definition ex_star : tree :=
  Node (AOpt 4) (Node (ACls 0) (Leaf (false, 0, 0, [], 3, 11, 2)) (Node (ACls 2) (Leaf (false, 1, 0, [2], 0, 0, 0)) (Node (ACls 15) (Read2 (Node (ACls2 0) (Leaf (false, 0, 0, [], 3, 11, 2)) (Node (ACls2 5) (Leaf (false, 0, 0, [], 1, 5, 3)) (Leaf (true, 0, 0, [], 0, 0, 0))))) (Leaf (false, 0, 0, [2], 0, 0, 0))))) (Node (ACls 0) (Leaf (false, 0, 0, [], 3, 11, 2)) (Node (ACls 2) (Leaf (false, 1, 0, [], 0, 0, 0)) (Node (ACls 15) (Read2 (Node (ACls2 0) (Leaf (false, 0, 0, [], 3, 11, 2)) (Node (ACls2 5) (Leaf (false, 0, 0, [], 7, 0, 0)) (Leaf (true, 0, 0, [], 0, 0, 0))))) (Leaf (false, 0, 0, [], 0, 0, 0))))).
Definition ex_line : tree :=
  Node (AOpt 4) (Node (ACls 2) (Leaf (true, 0, 0, [], 1, 5, 3)) (Node (ACls 0) (Leaf (true, 0, 0, [], 1, 5, 3)) (Leaf (false, 0, 0, [2], 0, 0, 0)))) (Node (ACls 2) (Leaf (true, 0, 0, [], 7, 0, 0)) (Node (ACls 0) (Leaf (true, 0, 0, [], 7, 0, 0)) (Leaf (false, 0, 0, [], 0, 0, 0)))).
Definition ex_cprefix : tree :=
  Node (AOpt 4) (Node (ACls 15) (Node (AOpt 3) (Leaf (false, 0, 0, [], 6, 5, 0)) (Leaf (false, 0, 0, [], 3, 12, 0))) (Node (ACls 5) (Leaf (false, 0, 0, [], 6, 6, 0)) (Node (AOpt 3) (Leaf (false, 0, 0, [], 3, 13, 0)) (Leaf (false, 0, 0, [], 3, 14, 0))))) (Node (ACls 15) (Node (AOpt 3) (Leaf (false, 0, 0, [], 6, 5, 2)) (Leaf (false, 0, 0, [], 3, 12, 0))) (Node (ACls 5) (Leaf (false, 0, 0, [], 6, 6, 2)) (Node (AOpt 3) (Leaf (false, 0, 0, [], 3, 13, 0)) (Leaf (false, 0, 0, [], 3, 14, 0))))).

Definition ex_trees : trees :=
  {| t_dispatch := ex_dispatch; t_brack := ex_brack; t_paren := ex_paren; t_directive := ex_directive; t_bare := ex_bare;
     t_star := ex_star; t_line := ex_line; t_cprefix := ex_cprefix |}.

Lemma ex_trees_ok : trees_ok ex_trees = true.
Proof. vm_compute. reflexivity. Qed.

(** The nearby wrong shape: the outer loop no longer looks at [_last_was_cr] (the LF of a CR LF pair is a second NEWLINE). *)
Fixpoint forget_lcr (t : tree) : tree :=
  match t with
  | Leaf o => Leaf o
  | Node ALcr y n => forget_lcr n
  | Node a y n => Node a (forget_lcr y) (forget_lcr n)
  | Read2 t' => Read2 (forget_lcr t')
  end.
Definition bad_trees : trees :=
  {| t_dispatch := forget_lcr ex_dispatch; t_brack := ex_brack; t_paren := ex_paren; t_directive := ex_directive; t_bare := ex_bare;
     t_star := ex_star; t_line := ex_line; t_cprefix := ex_cprefix |}.
Definition ex_tables : tables :=
  {| esc_table := []; excl_single := []; excl_multi := []; bare_disallowed := [34; 13; 10; 32]; operators := [(123, BRACE_OPEN)];
     casefold := fun c => [c] |}.
Definition ex_opts : opts :=
  {| string_bracket := false; string_parens := true; allow_escapes := true; allow_star_comments := false;
     preserve_comments := false; colon_operator := false; plus_operator := false |}.

Lemma bad_trees_refuted :
  trees_ok bad_trees = false
  /\ itokens_flat (gt_interp ex_tables ex_opts (steps_of bad_trees) (handle_string ex_tables ex_opts) 5) 3 1 false [CR; LF]
     = [RTok NEWLINE [LF] 2 true; RTok NEWLINE [LF] 3 false; RTok EOF [] 3 false]
  /\ tokens_flat ex_tables ex_opts 3 5 1 false [CR; LF] = [RTok NEWLINE [LF] 2 true; RTok EOF [] 2 false; RTok EOF [] 2 false].
Proof. vm_compute. repeat split; reflexivity. Qed.
