(** Options are read at call time.

    The seven options of [srctools.tokenizer.Tokenizer] are public, documented, settable attributes; every call of [tok()]
    consults the values they hold AT THAT MOMENT.  The model takes the option vector as a parameter of [get_token], so a trace in
    which the options change between calls is simply a trace with one option vector per call ([tokens_flat_opts]).  That the
    real class behaves like this (no value derived from an option is kept from construction time) is the instance obligation
    [GtGen.tokenizer_options_are_read_from_the_public_attribute_at_call_time] and the correspondence [options_by_attribute].

    C02 for such traces: the quoted escaped text is read back by ONE call; only the options in force during that call matter
    (escapes enabled), whatever they were before and whatever they become afterwards. *)
From Coq Require Import List NArith Lia.
From SV Require Import Text.Str Text.Prog Text.Escape Text.Tokenizer Text.EscapeProofs.
Import ListNotations.
Open Scope N_scope.

(** One call per element of [os]: the i-th call runs with the i-th option vector; stops at the first error. *)
Fixpoint tokens_flat_opts (T : tables) (os : list opts) (fuel : nat) (line : N) (lcr : bool) (l : str) : list result :=
  match os with
  | [] => []
  | o :: os' =>
    let '(r, l') := run_flat (get_token T o fuel line lcr) l in
    match r with
    | RTok _ _ line' lcr' => r :: tokens_flat_opts T os' fuel line' lcr' l'
    | _ => [r]
    end
  end.

(** With the same vector at every call this is the trace the other theorems are about. *)
Lemma tokens_flat_opts_const T o n fuel line lcr l :
  tokens_flat_opts T (repeat o n) fuel line lcr l = tokens_flat T o n fuel line lcr l.
Proof.
  revert line lcr l. induction n as [|n IH]; intros line lcr l; cbn [repeat tokens_flat_opts tokens_flat]; [reflexivity|].
  destruct (run_flat (get_token T o fuel line lcr) l) as [r l']. destruct r; try reflexivity. now rewrite IH.
Qed.

(** At the end of the input every call gives EOF, whatever the options are by then. *)
Lemma tokens_flat_opts_eof T os f line lcr :
  tokens_flat_opts T os (S f) line lcr [] = map (fun _ => RTok EOF [] line lcr) os.
Proof.
  induction os as [|o os IH]; cbn [tokens_flat_opts map]; [reflexivity|].
  rewrite get_token_eof. now rewrite IH.
Qed.

(** ONE call reads the quoted escaped text, from any reader state (line, [_last_was_cr]) that earlier calls - made under any
    options whatsoever - have left, and leaves the rest of the input untouched: only the options in force during this call
    matter. *)
Theorem get_token_reads_quoted_escape T o ml :
  allow_escapes o = true -> tbl_ok T ml = true -> dq_not_operator T = true ->
  forall s f line lcr rest, (length s + 2 <= f)%nat ->
  run_flat (get_token T o f line lcr) (DQ :: escape T ml s ++ DQ :: rest)
  = (RTok STRING s (line + raw_lfs T ml s) false, rest).
Proof.
  intros He Hok Hop s f line lcr rest Hf. destruct f as [|f]; [lia|].
  rewrite get_token_quote by assumption.
  now rewrite (quoted_embedding T o He ml Hok s f [] line rest) by lia.
Qed.

Theorem escape_tokenize_inverse_opts T o os ml :
  allow_escapes o = true -> tbl_ok T ml = true -> dq_not_operator T = true ->
  forall s fuel line lcr, (length s + 2 <= fuel)%nat ->
  tokens_flat_opts T (o :: os) fuel line lcr (DQ :: escape T ml s ++ [DQ])
  = RTok STRING s (line + raw_lfs T ml s) false :: map (fun _ => RTok EOF [] (line + raw_lfs T ml s) false) os.
Proof.
  intros He Hok Hop s fuel line lcr Hf. cbn [tokens_flat_opts].
  rewrite (get_token_reads_quoted_escape T o ml He Hok Hop s fuel line lcr [] Hf).
  f_equal. destruct fuel; [lia|apply tokens_flat_opts_eof].
Qed.
