(** Proofs about the decision trees of [_get_token] / [_handle_comment] (Text/GtTable.v): if the trees read from the
    source pass [trees_ok], their interpretation IS the hand model [Tokenizer.get_token] on every input. *)
From Coq Require Import List NArith Bool Lia.
From SV Require Import Text.Str Text.Prog Text.ProgProofs Text.Tokenizer Text.GtTable.
Import ListNotations.
Open Scope N_scope.

Lemma eval_ext (al : atom -> bool) e1 e2 t :
  (forall a, al a = true -> ea e1 a = ea e2 a) -> atoms_in al t = true -> eval e1 t = eval e2 t.
Proof.
  intros H. induction t as [o|a y IHy n IHn|t IH]; cbn [atoms_in eval]; intros Ht.
  - reflexivity.
  - apply andb_true_iff in Ht. destruct Ht as [Ht Hn]. apply andb_true_iff in Ht. destruct Ht as [Ha Hy].
    rewrite (H a Ha). destruct (ea e2 a); auto.
  - now rewrite IH.
Qed.

Lemma ltb_seq n k : (k <? N.of_nat n) = true -> In k (map N.of_nat (seq 0 n)).
Proof. intros H. apply N.ltb_lt in H. rewrite <- (N2Nat.id k). apply in_map, in_seq. lia. Qed.

Lemma ltb17 k : (k <? 17) = true -> In k classes.
Proof. exact (ltb_seq 17 k). Qed.

Lemma ea_proj kind a e : (kind <? 6) = true -> allowed kind a = true -> ea (proj kind e) a = ea e a.
Proof.
  intros Hk Ha. apply (ltb_seq 6) in Hk. destruct e as [c1 c2 ops bd lcr l1 o]. destruct o as [sb sp ae sc pc co po].
  cbn [In] in Hk.
  destruct Hk as [<-|[<-|[<-|[<-|[<-|[<-|[]]]]]]]; destruct a as [k|k|  |  |  |  |k]; cbn in Ha |- *; try discriminate; try reflexivity;
    repeat match goal with
           | H : (_ || _) = true |- _ => apply orb_true_iff in H; destruct H as [H|H]
           | H : (_ && _) = true |- _ => apply andb_true_iff in H; destruct H as [? H]
           | H : (?k =? _) = true |- _ => apply N.eqb_eq in H; subst k
           end; try discriminate; try reflexivity.
Qed.

Lemma cls_in oc : In (cls oc) classes.
Proof.
  destruct oc as [c|]; cbn [cls]; [|cbn; tauto].
  repeat match goal with |- context [if ?b then _ else _] => destruct b end; cbn; tauto.
Qed.

(** The character of a class from 1 to 15. *)
Definition cls_char (k : N) : char :=
  match k with
  | 1 => CR | 2 => LF | 3 => SP | 4 => TAB | 5 => SLASH | 6 => DQ | 7 => LBRACK | 8 => LPAREN | 9 => BOM | 10 => COLONC
  | 11 => PLUSC | 12 => RBRACK | 13 => RPAREN | 14 => HASH | _ => STAR
  end.

Lemma cls_char_cls c : cls (Some c) <> 16 -> cls_char (cls (Some c)) = c.
Proof.
  cbn [cls].
  repeat match goal with |- context [if ?c =? ?x then _ else _] => destruct (N.eqb_spec c x) as [->|_]; [reflexivity|] end.
  intros H. now elim H.
Qed.

Lemma cls_some_pos c : (cls (Some c) =? 0) = false.
Proof.
  cbn [cls]. repeat match goal with |- context [if ?b then _ else _] => destruct b; [reflexivity|] end. reflexivity.
Qed.

(** A test of the class is a test of the character: rewriting with this (and [cbn [cls_char]]) turns the model's
    functions of the abstract environment into the if-chains of [Tokenizer.v], test by test. *)
Lemma cls_is c k : (0 <? k) && (k <? 16) = true -> (cls (Some c) =? k) = (c =? cls_char k).
Proof.
  intros Hk. apply andb_true_iff in Hk. destruct Hk as [H0 H16]. apply N.ltb_lt in H0, H16.
  destruct (N.eqb_spec c (cls_char k)) as [->|Hne]; apply N.eqb_eq || apply N.eqb_neq.
  - assert (Hin : In k classes) by (apply ltb17, N.ltb_lt; lia).
    cbn [In classes] in Hin. repeat (destruct Hin as [<-|Hin]; [reflexivity || lia|]). destruct Hin.
  - intros <-. apply Hne. symmetry. apply cls_char_cls. lia.
Qed.

Lemma in_bl (c x : bool) : In (c && x) (bl c).
Proof. destruct c, x; cbn; tauto. Qed.
Lemma in_bools (x : bool) : In x bools.
Proof. destruct x; cbn; tauto. Qed.

Lemma In_envs c1 c2 ops bd lcr l1 sb sp sc pc co po c2s opss bds lcrs l1s sbs sps scs pcs cos pos :
  In c1 classes -> In c2 c2s -> In ops opss -> In bd bds -> In lcr lcrs -> In l1 l1s -> In sb sbs -> In sp sps -> In sc scs ->
  In pc pcs -> In co cos -> In po pos ->
  In (mk_e c1 c2 ops bd lcr l1 sb sp sc pc co po) (envs c2s opss bds lcrs l1s sbs sps scs pcs cos pos).
Proof.
  intros. unfold envs.
  repeat (apply in_flat_map; eexists; split; [eassumption|]).
  apply in_map. assumption.
Qed.

Lemma lN_eqb'_eq a b : lN_eqb' a b = true -> a = b.
Proof.
  revert b. induction a as [|x a IH]; destruct b as [|y b]; cbn; try discriminate; [reflexivity|].
  rewrite andb_true_iff. intros [H1 H2]. apply N.eqb_eq in H1. subst. f_equal. auto.
Qed.

Lemma res_eqb_eq a b : res_eqb a b = true -> a = b.
Proof.
  destruct a as [r1 [[[[[[u1 d1] a1] p1] x1] m1] n1]], b as [r2 [[[[[[u2 d2] a2] p2] x2] m2] n2]].
  unfold res_eqb, leaf_eqb. cbn [fst snd].
  rewrite !andb_true_iff. intros [H0 [[[[[[H1 H2] H3] H4] H5] H6] H7]].
  apply eqb_prop in H0, H1. apply N.eqb_eq in H2, H3, H5, H6, H7. apply lN_eqb'_eq in H4. now subst.
Qed.

Section Abs.
Variable T : tables.
Variable o : opts.

(** [step] computes [spec] on every environment a run can produce. *)
Definition agrees (step spec : aenv -> bool * leaf) : Prop :=
  forall oc od lcr line, step (abs T o oc od lcr line) = spec (abs T o oc od lcr line).

Lemma abs_consistent kind oc od lcr line : consistent (proj kind (abs T o oc od lcr line)) = true.
Proof.
  unfold consistent, proj, abs, mk_e. cbn [a_c1 a_ops a_bd].
  destruct oc as [c|]; [now rewrite cls_some_pos|cbn; now rewrite !andb_false_r].
Qed.

Lemma proj_abs_in_dom kind oc od lcr line : (kind <? 6) = true -> In (proj kind (abs T o oc od lcr line)) (dom kind).
Proof.
  intros Hk. apply (ltb_seq 6) in Hk. unfold dom. apply filter_In. split; [|apply abs_consistent].
  unfold proj. apply In_envs; try apply in_bl; try apply cls_in.
  - cbn [In] in Hk. destruct Hk as [<-|[<-|[<-|[<-|[<-|[<-|[]]]]]]]; cbn; try tauto. apply cls_in.
Qed.

(** The central step: an accepted tree computes the model's function on every environment a run can produce. *)
Lemma tree_ok_sound kind t spec : (kind <? 6) = true -> tree_ok kind t spec = true ->
  (forall e, spec (proj kind e) = spec e) -> agrees (fun e => eval e t) spec.
Proof.
  intros Hk Hok Hsp oc od lcr line. apply andb_true_iff in Hok. destruct Hok as [Hat Hall].
  rewrite <- Hsp, <- (eval_ext (allowed kind) (proj kind (abs T o oc od lcr line)) _ t (fun a => ea_proj kind a _ Hk) Hat).
  rewrite forallb_forall in Hall. apply res_eqb_eq, Hall, proj_abs_in_dom, Hk.
Qed.

End Abs.

(** The model's functions depend only on what their kind allows. *)
Ltac spec_proj e := destruct e as [c1 c2 ops bd lcr l1 [sb sp ae sc pc co po]]; reflexivity.
Lemma spec_dispatch_proj e : spec_dispatch (proj 0 e) = spec_dispatch e. Proof. spec_proj e. Qed.
Lemma spec_brack_proj e : spec_brack (proj 1 e) = spec_brack e. Proof. spec_proj e. Qed.
Lemma spec_paren_proj e : spec_paren (proj 1 e) = spec_paren e. Proof. spec_proj e. Qed.
Lemma spec_directive_proj e : spec_directive (proj 2 e) = spec_directive e. Proof. spec_proj e. Qed.
Lemma spec_bare_proj e : spec_bare (proj 2 e) = spec_bare e. Proof. spec_proj e. Qed.
Lemma spec_line_proj e : spec_line (proj 3 e) = spec_line e. Proof. spec_proj e. Qed.
Lemma spec_star_proj e : spec_star (proj 4 e) = spec_star e. Proof. spec_proj e. Qed.
Lemma spec_cprefix_proj e : spec_cprefix (proj 5 e) = spec_cprefix e. Proof. spec_proj e. Qed.

Section Loops.
Variable T : tables.
Variable o : opts.

(** One segment on a flat input. *)
Lemma seg_flat {A} step lcr line (fin : leaf -> option char -> option char -> Prog A) l :
  run_flat (seg T o step lcr line fin) l =
  let oc := fst (fnext l) in let l' := snd (fnext l) in
  let r := step (abs T o oc None lcr line) in
  if fst r
  then let od := fst (fnext l') in let l'' := snd (fnext l') in
       let lf := snd (step (abs T o oc od lcr line)) in
       run_flat (fin lf oc od) (if lf_unread lf then fback od l'' else l'')
  else run_flat (fin (snd r) oc None) (if lf_unread (snd r) then fback oc l' else l').
Proof.
  unfold seg. cbn [run_flat]. destruct (fnext l) as [oc l']. cbn [fst snd]. cbv zeta.
  destruct (fst (step (abs T o oc None lcr line))).
  - cbn [run_flat]. destruct (fnext l') as [od l'']. reflexivity.
  - reflexivity.
Qed.

Lemma delim_a_abs c od lcr line : delim_a (abs T o (Some c) od lcr line) = is_delim T o c.
Proof.
  unfold delim_a, is_delim, abs. cbn [a_c1 a_bd a_o]. now rewrite !cls_is by reflexivity.
Qed.

(** In every proof below both sides are the same chain of tests once the class tests are character tests; [leaf]
    evaluates what the leaf reached says to do ([line + 0] is the line count of a leaf that counts no line). *)
Ltac leaf := cbn; rewrite ?N.add_0_r; try reflexivity.

Lemma brack_ok step :
  agrees T o step spec_brack ->
  forall f acc line start l, run_flat (tloop T o step f acc false line start) l = run_flat (brack_loop f acc line) l.
Proof.
  intros Hs. induction f as [|f IH]; intros acc line start l; [reflexivity|].
  unfold tloop in *. cbn [gloop brack_loop run_flat]. rewrite seg_flat. destruct (fnext l) as [[c|] l']; cbv zeta; rewrite !Hs;
    unfold spec_brack, abs; cbn [a_c1 fst snd]; [|leaf].
  rewrite cls_some_pos, !cls_is by reflexivity; cbn [cls_char].
  destruct (c =? RBRACK); [leaf|]. destruct (c =? LF); [leaf|]. destruct (c =? LBRACK); leaf. apply IH.
Qed.

Lemma paren_ok step :
  agrees T o step spec_paren ->
  forall f acc line start l, run_flat (tloop T o step f acc false line start) l = run_flat (paren_loop f acc line) l.
Proof.
  intros Hs. induction f as [|f IH]; intros acc line start l; [reflexivity|].
  unfold tloop in *. cbn [gloop paren_loop run_flat]. rewrite seg_flat. destruct (fnext l) as [[c|] l']; cbv zeta; rewrite !Hs;
    unfold spec_paren, abs; cbn [a_c1 fst snd]; [|leaf].
  rewrite cls_some_pos, !cls_is by reflexivity; cbn [cls_char].
  destruct (c =? RPAREN); [leaf|]. destruct (c =? LF); [leaf; apply IH|]. destruct (c =? LPAREN); leaf. apply IH.
Qed.

Lemma directive_ok step :
  agrees T o step spec_directive ->
  forall f acc line start l, run_flat (tloop T o step f acc false line start) l = run_flat (directive_loop T o f acc line) l.
Proof.
  intros Hs. induction f as [|f IH]; intros acc line start l; [reflexivity|].
  unfold tloop in *. cbn [gloop directive_loop run_flat]. rewrite seg_flat. destruct (fnext l) as [[c|] l']; cbv zeta; rewrite !Hs;
    unfold spec_directive; cbn [fst snd]; [|leaf].
  rewrite delim_a_abs. cbn [abs a_c1 unread_delim]. rewrite cls_some_pos.
  destruct (is_delim T o c); leaf. apply IH.
Qed.

Lemma bare_ok step :
  agrees T o step spec_bare ->
  forall f acc line start l, run_flat (tloop T o step f acc false line start) l = run_flat (bare_loop T o f acc line) l.
Proof.
  intros Hs. induction f as [|f IH]; intros acc line start l; [reflexivity|].
  unfold tloop in *. cbn [gloop bare_loop run_flat]. rewrite seg_flat. destruct (fnext l) as [[c|] l']; cbv zeta; rewrite !Hs;
    unfold spec_bare; cbn [fst snd]; [|leaf].
  rewrite delim_a_abs. cbn [abs a_c1 unread_delim]. rewrite cls_some_pos.
  destruct (is_delim T o c); leaf. apply IH.
Qed.

(** The comment loops keep their buffer only with [preserve_comments]; without it the result does not depend on it. *)
Lemma line_ok step :
  agrees T o step spec_line ->
  forall f acc acc' line start l, (preserve_comments o = true -> acc = acc') ->
  run_flat (cloop T o step f acc false line start) l = run_flat (line_comment o f acc' line) l.
Proof.
  intros Hs. induction f as [|f IH]; intros acc acc' line start l Hacc; [reflexivity|].
  unfold cloop in *. cbn [gloop line_comment run_flat]. rewrite seg_flat. destruct (fnext l) as [[c|] l']; cbv zeta; rewrite !Hs;
    unfold spec_line, cend, capp, comment_end, abs; cbn [a_c1 a_o fst snd].
  - rewrite cls_some_pos, !cls_is by reflexivity; cbn [cls_char]. cbn [orb].
    destruct (preserve_comments o) eqn:Hp; [rewrite <- (Hacc eq_refl)|]; (destruct (c =? LF); leaf; apply IH; congruence).
  - destruct (preserve_comments o) eqn:Hp; [rewrite <- (Hacc eq_refl)|]; leaf.
Qed.

Lemma star_ok step :
  agrees T o step spec_star ->
  forall f acc acc' line start l, (preserve_comments o = true -> acc = acc') ->
  run_flat (cloop T o step f acc false line start) l = run_flat (star_comment o f acc' line start) l.
Proof.
  intros Hs. induction f as [|f IH]; intros acc acc' line start l Hacc; [reflexivity|].
  unfold cloop in *. cbn [gloop star_comment run_flat]. rewrite seg_flat. destruct (fnext l) as [[c|] l']; cbv zeta; rewrite !Hs;
    unfold spec_star, cend, capp, comment_end, abs; cbn [a_c1 a_c2 a_o fst snd]; [|leaf].
  rewrite cls_some_pos, !cls_is by reflexivity; cbn [cls_char].
  destruct (preserve_comments o) eqn:Hp; [rewrite <- (Hacc eq_refl)|].
  all: destruct (c =? LF); [leaf; apply IH; congruence|]; destruct (c =? STAR); [|leaf; apply IH; congruence].
  all: change (cls None) with 0; cbn [N.eqb fst L2 run_flat keep]; destruct (fnext l') as [[d|] l'']; cbn [fst snd]; [|leaf].
  all: rewrite cls_some_pos, !cls_is by reflexivity; cbn [cls_char]; destruct (d =? SLASH); leaf; apply IH; congruence.
Qed.

(** The two functions. *)
Variable St : steps.
Hypothesis Hd : agrees T o (s_dispatch St) spec_dispatch.
Hypothesis Hb : agrees T o (s_brack St) spec_brack.
Hypothesis Hp : agrees T o (s_paren St) spec_paren.
Hypothesis Hdi : agrees T o (s_directive St) spec_directive.
Hypothesis Hba : agrees T o (s_bare St) spec_bare.
Hypothesis Hst : agrees T o (s_star St) spec_star.
Hypothesis Hli : agrees T o (s_line St) spec_line.
Hypothesis Hcp : agrees T o (s_cprefix St) spec_cprefix.

Lemma hc_ok f line l : run_flat (hc_interp T o St f false line) l = run_flat (handle_comment o f line) l.
Proof.
  unfold hc_interp, handle_comment. cbn [run_flat]. rewrite seg_flat. destruct (fnext l) as [[c|] l']; cbv zeta; rewrite !Hcp;
    unfold spec_cprefix, abs; cbn [a_c1 a_o keep fst snd].
  - rewrite !cls_is by reflexivity. cbn [cls_char].
    destruct (c =? STAR); [destruct (allow_star_comments o); [destruct (preserve_comments o) eqn:E|]|
                           destruct (c =? SLASH); [destruct (preserve_comments o) eqn:E|destruct (allow_star_comments o)]]; leaf.
    all: first [apply star_ok | apply line_ok]; first [exact Hst | exact Hli | congruence].
  - destruct (allow_star_comments o); leaf.
Qed.

Variable hs : nat -> str -> bool -> N -> Prog result.
Hypothesis Hhs : forall f acc lcr line l, run_flat (hs f acc lcr line) l = run_flat (handle_string T o f acc lcr line) l.

Arguments hc_interp : simpl never.
Arguments handle_comment : simpl never.

Lemma gt_ok : forall f line lcr l, run_flat (gt_interp T o St hs f line lcr) l = run_flat (get_token T o f line lcr) l.
Proof.
  induction f as [|f IH]; intros line lcr l; [reflexivity|].
  cbn [gt_interp get_token run_flat]. rewrite seg_flat. destruct (fnext l) as [[c|] l']; cbv zeta; rewrite !Hd; cbn [fst snd keep];
    [|leaf].
  (* one copy of the model's function, walked together with the chain of [get_token] *)
  remember (spec_dispatch (abs T o (Some c) None lcr line)) as r eqn:Hr. revert Hr.
  unfold spec_dispatch, abs; cbn [a_c1 a_ops a_bd a_lcr a_line1 a_o].
  rewrite cls_some_pos, !cls_is by reflexivity; cbn [cls_char].
  destruct (lookup c (operators T)) eqn:Hop; [intros ->; leaf; now rewrite Hop|].
  destruct (c =? CR); [intros ->; leaf|].
  destruct (c =? LF); [destruct lcr; intros ->; leaf; apply IH|].
  destruct ((c =? SP) || (c =? TAB)); [intros ->; leaf; apply IH|].
  destruct (c =? SLASH).
  { intros ->. leaf. rewrite !run_flat_bind, hc_ok.
    destruct (run_flat (handle_comment o f line) l') as [[line'|r] l'']; [apply IH|reflexivity]. }
  destruct (c =? DQ); [intros ->; leaf; apply Hhs|].
  destruct (c =? LBRACK); [destruct (string_bracket o); intros ->; leaf; apply brack_ok, Hb|].
  destruct (c =? LPAREN); [destruct (string_parens o); intros ->; leaf; apply paren_ok, Hp|].
  destruct ((c =? BOM) && (line =? 1)); [intros ->; leaf; apply IH|].
  destruct ((c =? COLONC) && colon_operator o); [intros ->; leaf|].
  destruct ((c =? PLUSC) && plus_operator o); [intros ->; leaf|].
  destruct (c =? RBRACK); [destruct (string_bracket o); intros ->; leaf|].
  destruct (c =? RPAREN); [destruct (string_parens o); intros ->; leaf|].
  destruct (c =? HASH); [intros ->; leaf; apply directive_ok, Hdi|].
  destruct (mem c (bare_disallowed T)); intros ->; leaf. apply bare_ok, Hba.
Qed.

End Loops.

(** The whole-function statement: if the eight trees read from the source pass [trees_ok] and [hs] computes what the hand model of
    [_handle_string] computes, then interpreting the trees gives the hand model [Tokenizer.get_token], for every input,
    fuel, line and flag. *)
Theorem gt_trees_interp_is_model T o G hs : trees_ok G = true ->
  (forall f acc lcr line l, run_flat (hs f acc lcr line) l = run_flat (handle_string T o f acc lcr line) l) ->
  forall f line lcr l,
  run_flat (gt_interp T o (steps_of G) hs f line lcr) l = run_flat (get_token T o f line lcr) l.
Proof.
  intros Hok Hhs. unfold trees_ok in Hok. rewrite !andb_true_iff in Hok.
  destruct Hok as [[[[[[[H1 H2] H3] H4] H5] H6] H7] H8].
  exact (gt_ok T o (steps_of G)
           (tree_ok_sound T o 0 (t_dispatch G) spec_dispatch eq_refl H1 spec_dispatch_proj)
           (tree_ok_sound T o 1 (t_brack G) spec_brack eq_refl H2 spec_brack_proj)
           (tree_ok_sound T o 1 (t_paren G) spec_paren eq_refl H3 spec_paren_proj)
           (tree_ok_sound T o 2 (t_directive G) spec_directive eq_refl H4 spec_directive_proj)
           (tree_ok_sound T o 2 (t_bare G) spec_bare eq_refl H5 spec_bare_proj)
           (tree_ok_sound T o 4 (t_star G) spec_star eq_refl H6 spec_star_proj)
           (tree_ok_sound T o 3 (t_line G) spec_line eq_refl H7 spec_line_proj)
           (tree_ok_sound T o 5 (t_cprefix G) spec_cprefix eq_refl H8 spec_cprefix_proj)
           hs Hhs).
Qed.

(** The same over the chunked reader state of the real class. *)
Theorem gt_trees_interp_is_model_chunked T o G hs : trees_ok G = true ->
  (forall f acc lcr line l, run_flat (hs f acc lcr line) l = run_flat (handle_string T o f acc lcr line) l) ->
  forall f line lcr l s, R l s ->
  fst (run_chk (gt_interp T o (steps_of G) hs f line lcr) s) = fst (run_flat (get_token T o f line lcr) l).
Proof.
  intros Hok Hhs f line lcr l s HR. rewrite <- (gt_trees_interp_is_model T o G hs Hok Hhs).
  destruct (chunk_independent (gt_interp T o (steps_of G) hs f line lcr) l s HR) as [Heq _]. symmetry. exact Heq.
Qed.

Theorem gt_trees_trace_is_model T o G hs : trees_ok G = true ->
  (forall f acc lcr line l, run_flat (hs f acc lcr line) l = run_flat (handle_string T o f acc lcr line) l) ->
  forall n fuel line lcr l,
  itokens_flat (gt_interp T o (steps_of G) hs fuel) n line lcr l = tokens_flat T o n fuel line lcr l.
Proof.
  intros Hok Hhs. induction n as [|n IH]; intros fuel line lcr l; cbn [itokens_flat tokens_flat]; [reflexivity|].
  rewrite (gt_trees_interp_is_model T o G hs Hok Hhs).
  destruct (run_flat (get_token T o fuel line lcr) l) as [r l']. destruct r; try reflexivity. f_equal. apply IH.
Qed.

(** Call after call, whatever program a call runs: the trace over a chunked source is the trace over the text it denotes. *)
Lemma itokens_chunk_independent get : forall n line lcr l s, R l s ->
  itokens_chk get n line lcr s = itokens_flat get n line lcr l.
Proof.
  induction n as [|n IH]; intros line lcr l s HR; cbn [itokens_chk itokens_flat]; [reflexivity|].
  destruct (chunk_independent (get line lcr) l s HR) as [Hfst HR'].
  destruct (run_flat (get line lcr) l) as [r l'], (run_chk (get line lcr) s) as [r' s'].
  cbn [fst snd] in Hfst, HR'. subst r'. destruct r; try reflexivity. f_equal. apply IH, HR'.
Qed.

Theorem gt_trees_trace_is_model_chunked T o G hs : trees_ok G = true ->
  (forall f acc lcr line l, run_flat (hs f acc lcr line) l = run_flat (handle_string T o f acc lcr line) l) ->
  forall n fuel line lcr l s, R l s ->
  itokens_chk (gt_interp T o (steps_of G) hs fuel) n line lcr s = tokens_flat T o n fuel line lcr l.
Proof.
  intros Hok Hhs n fuel line lcr l s HR.
  rewrite (itokens_chunk_independent _ n line lcr l s HR). now apply gt_trees_trace_is_model.
Qed.
