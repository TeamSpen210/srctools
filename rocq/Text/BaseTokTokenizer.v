(** [Tokenizer] as the source under the [BaseTokenizer] layer: [_get_token] over the flat text and over the chunked
    reader state are bisimilar (Text/ProgProofs.v), hence every sequence of calls, peeks, push-backs, [expect],
    [skipping_newlines], [block] steps gives the same results — tokens, values, errors — and leaves the same
    [line_num] / [_last_was_cr], on every chunking. *)
From Coq Require Import List NArith.
From SV Require Import Text.Str Text.Prog Text.ProgProofs Text.Tokenizer Text.BaseTok Text.BaseTokProofs.
Import ListNotations.

Section TK.
  Variable T : tables.
  Variable o : opts.
  Variable fuel : nat.

  Definition conv {X} (line : N) (lcr : bool) (rx : result * X) : (ptok + result) * (N * bool * X) :=
    match fst rx with
    | RTok k v line' lcr' => (inl (k, v), (line', lcr', snd rx))
    | e => (inr e, (line, lcr, snd rx))
    end.
  (** [_get_token] with [line_num] and [_last_was_cr] as part of the source state. *)
  Definition tk_get_flat (st : N * bool * str) : (ptok + result) * (N * bool * str) :=
    let '(line, lcr, l) := st in conv line lcr (run_flat (get_token T o fuel line lcr) l).
  Definition tk_get_chk (st : N * bool * chk) : (ptok + result) * (N * bool * chk) :=
    let '(line, lcr, s) := st in conv line lcr (run_chk (get_token T o fuel line lcr) s).

  Definition Rtk (a : N * bool * str) (b : N * bool * chk) : Prop :=
    fst (fst a) = fst (fst b) /\ snd (fst a) = snd (fst b) /\ R (snd a) (snd b).

  Lemma tk_get_bisim a b : Rtk a b ->
    fst (tk_get_flat a) = fst (tk_get_chk b) /\ Rtk (snd (tk_get_flat a)) (snd (tk_get_chk b)).
  Proof.
    destruct a as [[line lcr] l], b as [[line' lcr'] s]. intros [H1 [H2 H3]]. cbn [fst snd] in *. subst line' lcr'.
    unfold tk_get_flat, tk_get_chk, conv.
    destruct (chunk_independent (get_token T o fuel line lcr) l s H3) as [Hr HR].
    rewrite <- Hr. destruct HR as [Ha Hb]. destruct (fst (run_flat (get_token T o fuel line lcr) l)); cbn [fst snd]; unfold Rtk; cbn [fst snd]; repeat split; assumption.
  Qed.

  (** Any operation sequence through the BaseTokenizer layer: same results, related final states (same push-back
      list, same [line_num], same [_last_was_cr], the rest of the input denotes the same text). *)
  Theorem bt_ops_chunk_independent c ops pbl line lcr l s : R l s ->
    fst (run _ _ tk_get_flat c ops {| pb := pbl; src := (line, lcr, l) |})
    = fst (run _ _ tk_get_chk c ops {| pb := pbl; src := (line, lcr, s) |})
    /\ Rb _ _ Rtk (snd (run _ _ tk_get_flat c ops {| pb := pbl; src := (line, lcr, l) |}))
                  (snd (run _ _ tk_get_chk c ops {| pb := pbl; src := (line, lcr, s) |})).
  Proof.
    intros HR. apply (run_bisim _ _ _ tk_get_flat tk_get_chk c Rtk tk_get_bisim).
    split; [reflexivity|]. cbn [src]. unfold Rtk. cbn [fst snd]. split; [reflexivity|split; [reflexivity|exact HR]].
  Qed.

  Theorem bt_expect_chunk_independent c f want skip pbl line lcr l s : R l s ->
    fst (expect _ _ tk_get_flat c f want skip {| pb := pbl; src := (line, lcr, l) |})
    = fst (expect _ _ tk_get_chk c f want skip {| pb := pbl; src := (line, lcr, s) |}).
  Proof.
    intros HR. apply (expect_bisim _ _ _ tk_get_flat tk_get_chk c Rtk tk_get_bisim).
    split; [reflexivity|]. cbn [src]. unfold Rtk. cbn [fst snd]. split; [reflexivity|split; [reflexivity|exact HR]].
  Qed.
End TK.
