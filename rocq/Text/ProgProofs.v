(** Generic theorem: a reader program cannot tell a chunked source from the flat string it denotes. *)
From Coq Require Import List ZArith Lia.
From SV Require Import Text.Str Text.Prog.
Import ListNotations.
Open Scope Z_scope.

Lemma refill_concat cs : match refill cs with
  | Some (l, r) => l <> [] /\ concat cs = l ++ concat r
  | None => concat cs = [] end.
Proof. induction cs as [|[|c t] r IH]; simpl; auto. split; [discriminate|reflexivity]. Qed.

Lemma nthZ_skipn l i c : 0 <= i -> nthZ l i = Some c -> dropZ i l = c :: dropZ (i+1) l.
Proof.
  unfold nthZ, dropZ. intros Hi. destruct (i <? 0) eqn:E; [lia|].
  replace (Z.to_nat (i+1)) with (S (Z.to_nat i)) by lia.
  generalize (Z.to_nat i). clear. intros n; revert l; induction n; destruct l; simpl; try discriminate; intros H.
  - now inversion H.
  - now apply IHn.
Qed.

Lemma nthZ_none l i : 0 <= i -> nthZ l i = None -> Z.of_nat (length l) <= i /\ dropZ i l = [].
Proof.
  unfold nthZ, dropZ. intros Hi. destruct (i <? 0) eqn:E; [lia|]. intros H.
  apply nth_error_None in H. split; [lia|]. apply skipn_all2. lia.
Qed.

(** A read through the chunked state is a read of the text it denotes, and the push-back undoes it on both sides. *)
Lemma cnext_absr s : -1 <= idx s ->
  let '(c, s') := cnext s in
  fnext (absr s) = (c, absr s') /\ 0 <= idx s' /\ absr (cunread s') = fback c (absr s').
Proof.
  intros Hlo. unfold cnext, absr, cunread.
  destruct (nthZ (cur s) (idx s + 1)) as [c|] eqn:En; cbn [cur idx more].
  - replace (idx s + 1 - 1 + 1) with (idx s + 1) by lia.
    rewrite (nthZ_skipn (cur s) (idx s + 1) c ltac:(lia) En). repeat split; lia || reflexivity.
  - destruct (nthZ_none (cur s) (idx s + 1) ltac:(lia) En) as [Hge Hdrop]. rewrite Hdrop. cbn [app].
    pose proof (refill_concat (more s)) as Hrf.
    destruct (refill (more s)) as [[[|c t] r]|]; cbn [cur idx more].
    + destruct Hrf as [Hne _]; congruence.
    + destruct Hrf as [_ ->]. repeat split; lia || reflexivity.
    + rewrite Hrf. replace (idx s + 1 - 1 + 1) with (idx s + 1) by lia. rewrite Hdrop.
      unfold dropZ. rewrite skipn_all2 by lia. repeat split; lia || reflexivity.
Qed.

(** One read, optionally followed by the push-back, keeps the two sources related. *)
Lemma next_sim (u : option char -> bool) l s : R l s ->
  let '(c1, l') := fnext l in let '(c2, s') := cnext s in
  c1 = c2 /\ R (if u c1 then fback c1 l' else l') (if u c1 then cunread s' else s').
Proof.
  intros [Hlo ->]. pose proof (cnext_absr s Hlo) as H. destruct (cnext s) as [c s']. destruct H as (-> & Hi & Hu).
  split; [reflexivity|]. destruct (u c); split; cbn [cunread idx]; try lia; [symmetry; exact Hu|reflexivity].
Qed.

Theorem chunk_independent {A} (p : Prog A) : forall l s, R l s ->
  fst (run_flat p l) = fst (run_chk p s) /\ R (snd (run_flat p l)) (snd (run_chk p s)).
Proof.
  induction p as [a|u k IH]; intros l s HR; cbn [run_flat run_chk].
  - auto.
  - pose proof (next_sim u l s HR) as Hn. destruct (fnext l) as [c1 l1], (cnext s) as [c2 s1].
    destruct Hn as [<- HR1]. apply IH, HR1.
Qed.

Lemma R_of_str s : R s (chk_of_str s).
Proof. unfold R, absr, chk_of_str, dropZ; cbn. split; [lia|]. now rewrite app_nil_r. Qed.

Lemma R_of_chunks cs : R (concat cs) (chk_of_chunks cs).
Proof. unfold R, absr, chk_of_chunks, dropZ; cbn. split; [lia|reflexivity]. Qed.

Lemma run_flat_bind {A B} (p : Prog A) (f : A -> Prog B) : forall l,
  run_flat (bind p f) l = let '(a, l') := run_flat p l in run_flat (f a) l'.
Proof.
  induction p as [a|u k IH]; intros l; cbn [bind run_flat].
  - reflexivity.
  - destruct (fnext l) as [c l1]. apply IH.
Qed.
