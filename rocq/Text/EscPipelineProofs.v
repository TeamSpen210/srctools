(** A pipeline that is one table substitution per mode IS the per-character model [Escape.escape]. *)
From Coq Require Import List NArith.
From SV Require Import Text.Str Text.Escape Text.EscPipeline.
Import ListNotations.
Open Scope N_scope.

Lemma sub_char_esc_char T ml c : sub_char (esc_table T) (excl T ml) c = esc_char T ml c.
Proof. reflexivity. Qed.

Theorem pipeline_is_escape T p ml :
  single_sub p ml = Some (excl T ml) -> forall s, run_pipeline (esc_table T) p ml s = escape T ml s.
Proof.
  unfold single_sub, run_pipeline. destruct (effective p ml) as [|[ex|o n|ex n|ex la] [|st r]]; try discriminate.
  intros H s. inversion H; subst. reflexivity.
Qed.

Lemma is_single_sub_spec p ml : is_single_sub p ml = true -> single_sub p ml = Some (excl_of p ml).
Proof. unfold is_single_sub, excl_of. destruct (single_sub p ml); [reflexivity|discriminate]. Qed.

(** [replace] really is different from a per-character map: post-processing the escaped text with
    [replace("\\n", LF)] (putting line feeds back) maps the escaped form of backslash + 'n' (backslash backslash n) to backslash +
    LF, a line continuation: the witness below is the pipeline of that shape and the input backslash 'n'. *)
Definition pp_table : list (char * char) := [(110, 10); (92, 92); (34, 34)].
Definition pp_pipeline : pipeline := [(PAlways, PSub []); (PMulti, PReplace [92; 110] [10])].
Example postprocessing_pipeline_not_charwise_refuted :
  is_single_sub pp_pipeline true = false
  /\ run_pipeline pp_table pp_pipeline true [92; 110] = [92; 10]
  /\ run_pipeline pp_table pp_pipeline true [10] = [10].
Proof. vm_compute. repeat split; reflexivity. Qed.

(** A count-limited substitution is not the per-character map either: with [count = 2] the third double quote stays raw. *)
Example limited_substitution_not_charwise_refuted :
  is_single_sub [(PAlways, PSubN [] 2)] false = false
  /\ run_pipeline pp_table [(PAlways, PSubN [] 2)] false [34; 34; 34] = [92; 34; 92; 34; 34]
  /\ run_pipeline pp_table [(PAlways, PSub [])] false [34; 34; 34] = [92; 34; 92; 34; 92; 34].
Proof. vm_compute. repeat split; reflexivity. Qed.

(** A substitution with a look-ahead is not the per-character map either: with the alternative CR(?!LF) the CR of a CR LF pair
    stays raw, a lone CR is escaped. *)
Definition la_table : list (char * char) := [(110, 10); (114, 13); (92, 92); (34, 34)].
Example lookahead_substitution_not_charwise_refuted :
  is_single_sub [(PAlways, PSubLA [10] [(13, 10)])] true = false
  /\ run_pipeline la_table [(PAlways, PSubLA [10] [(13, 10)])] true [13; 10; 13] = [13; 10; 92; 114]
  /\ run_pipeline la_table [(PAlways, PSub [10])] true [13; 10; 13] = [92; 114; 10; 92; 114].
Proof. vm_compute. repeat split; reflexivity. Qed.
