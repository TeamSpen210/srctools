(** Lemmas about the text of a tokenizer error (model: Text/ErrFmt.v), generic over the generated texts; the statements
    about [format_fileinfo] built on them are in Props/C03.v. *)
From Coq Require Import List NArith Bool Lia.
From SV Require Import Text.Str Text.Tokenizer Text.ErrFmt.
Import ListNotations.
Open Scope N_scope.

Lemma forallb_cases (f : option (list piece) -> bool) c :
  forallb f (cases c) = true -> f (f_none_none c) = true /\ f (f_file_only c) = true /\ f (f_line_only c) = true /\ f (f_both c) = true.
Proof.
  unfold cases. cbn [forallb]. rewrite !andb_true_iff. tauto.
Qed.

Lemma fcase_in_cases c file line : In (fcase c file line) (cases c).
Proof. unfold fcase, cases. destruct file, line; cbn; tauto. Qed.

Lemma render_has f msg file line val ps : existsb f ps = true ->
  exists p a b, f p = true /\ render msg file line val ps = a ++ render_piece msg file line val p ++ b.
Proof.
  induction ps as [|q ps IH]; cbn; [discriminate|]. rewrite orb_true_iff. intros [H|H].
  - exists q, [], (render msg file line val ps). split; [exact H|reflexivity].
  - destruct (IH H) as (p & a & b & Hp & E). exists p, (render_piece msg file line val q ++ a), b. split; [exact Hp|].
    unfold render in E. rewrite E. rewrite <- app_assoc. reflexivity.
Qed.

(** A piece the pieces of a combination contain is rendered somewhere in the text. *)
Lemma fileinfo_has f c msg file line s : has f (fcase c file line) = true -> format_fileinfo c msg file line = Some s ->
  exists p a b, f p = true /\
    s = a ++ render_piece msg (match file with Some x => x | None => [] end) (match line with Some l => l | None => 0 end) [] p ++ b.
Proof.
  unfold format_fileinfo. destruct (fcase c file line) as [ps|]; [|discriminate].
  intros Hc E. injection E as <-. exact (render_has _ _ _ _ _ ps Hc).
Qed.

(** The decimal rendering consists of digits and is never empty. *)
Lemma dec_aux_digits fuel : forall n acc, Forall (fun c => 48 <= c <= 57) acc -> Forall (fun c => 48 <= c <= 57) (dec_aux fuel n acc).
Proof.
  induction fuel as [|f IH]; intros n acc H; cbn [dec_aux]; [exact H|].
  assert (Hd : Forall (fun c => 48 <= c <= 57) ((48 + n mod 10) :: acc)).
  { constructor; [|exact H]. pose proof (N.mod_upper_bound n 10 ltac:(discriminate)) as Hm. generalize dependent (n mod 10). intros m Hm. lia. }
  destruct (n / 10 =? 0); [exact Hd|apply IH, Hd].
Qed.
Theorem dec_digits n : Forall (fun c => 48 <= c <= 57) (dec n).
Proof. apply dec_aux_digits. constructor. Qed.
Lemma dec_aux_nonempty fuel : forall n acc, dec_aux (S fuel) n acc <> [].
Proof.
  induction fuel as [|f IH]; intros n acc.
  - cbn. destruct (n / 10 =? 0); discriminate.
  - cbn [dec_aux]. destruct (n / 10 =? 0); [discriminate|apply IH].
Qed.
Theorem dec_nonempty n : dec n <> [].
Proof. apply dec_aux_nonempty. Qed.

(** The text of the error a tokenizer run ends with: [msgf] = the message text of an error site with its arguments (any function); [file] = the tokenizer's file name. *)
Definition err_text (c : fcfg) (msgf : err -> str -> str) (file : option str) (r : result) : option str :=
  match r with
  | RErr e a line => format_fileinfo c (msgf e a) file (Some line)
  | _ => None
  end.
