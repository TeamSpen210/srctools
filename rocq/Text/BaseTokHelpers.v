(** [BaseTokenizer.expect] against the logical stream: it skips the NEWLINE tokens in front (when asked to and when
    NEWLINE itself is not wanted) and decides on the first other token — wherever those tokens come from (push-back
    list or source). *)
From Coq Require Import List Lia.
From SV Require Import Text.Str Text.BaseTok Text.BaseTokProofs.
Import ListNotations.

Section H.
  Variables (S E : Type).
  Variable get : S -> (ptok + E) * S.
  Variable c : bcfg.
  Notation call := (call S E get c).
  Notation view := (view S E get c).
  Notation expect := (expect S E get c).

  (** One call takes the head of the logical stream; the rest is the logical stream of the new state. *)
  Lemma call_view n b x L : view n b = x :: L ->
    fst (call b) = x /\ (forall t, x = inl t -> exists n', view n' (snd (call b)) = L).
  Proof.
    unfold BaseTok.view, BaseTok.call. pose proof (pop_stack c (pb b)) as Hp.
    destruct (pb_pop (pop_last c) (pb b)) as [[y l]|].
    - rewrite Hp. cbn [map app fst snd pb src]. intros H. inversion H; subst. split; [reflexivity|].
      intros t _. exists n. reflexivity.
    - destruct Hp as [Hs _]. rewrite Hs. cbn [map app]. destruct n as [|n]; [discriminate|].
      cbn [BaseTok.unfold]. destruct (get (src b)) as [r0 s]. cbn [fst snd pb src]. intros H. inversion H; subst.
      split; [reflexivity|]. intros t Ht. subst. exists n. now rewrite Hs.
  Qed.

  Theorem expect_spec : forall nls fuel want b n x rest,
    Forall (fun t => is_tok NEWLINE t = true) nls -> is_tok NEWLINE x = false ->
    is_tok NEWLINE (want, []) = false -> (length nls < fuel)%nat ->
    view n b = map inl nls ++ inl x :: rest ->
    fst (expect fuel want true b) = if is_tok want x then HVal (snd x) else HErr x.
  Proof.
    induction nls as [|t nls IH]; intros fuel want b n x rest Hnl Hx Hw Hf Hv;
      (destruct fuel as [|f]; [cbn in Hf; lia|]); cbn [BaseTok.expect].
    - cbn [map app] in Hv. destruct (call_view n b _ _ Hv) as [Hc _].
      destruct (call b) as [r b']. cbn [fst] in Hc. subst r. rewrite Hx, Hw. cbn [andb negb].
      destruct (is_tok want x); reflexivity.
    - cbn [map app] in Hv. destruct (call_view n b _ _ Hv) as [Hc Hrest].
      destruct (call b) as [r b'] eqn:Ec. cbn [fst snd] in *. subst r.
      inversion Hnl as [|? ? Ht Hnl']; subst. rewrite Ht, Hw. cbn [andb negb].
      destruct (Hrest t eq_refl) as [n' Hv']. apply (IH f want b' n' x rest Hnl' Hx Hw); [cbn in Hf; lia|exact Hv'].
  Qed.
End H.
