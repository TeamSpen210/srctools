(** C03 (and the chunked form of C02): properties of the tokenizer model. *)
From Coq Require Import List ZArith Bool Lia.
From SV Require Import Text.Str Text.Prog Text.ProgProofs Text.Tokenizer.
Import ListNotations.

Lemma reads_bind {A B} (p : Prog A) (f : A -> Prog B) : forall l,
  reads (bind p f) l = (reads p l + reads (f (fst (run_flat p l))) (snd (run_flat p l)))%nat.
Proof.
  induction p as [a|u k IH]; intros l; cbn [bind reads run_flat]; [reflexivity|].
  destruct (fnext l) as [c l1]. rewrite IH. reflexivity.
Qed.

Lemma run_flat_bind' {A B} (p : Prog A) (f : A -> Prog B) l :
  run_flat (bind p f) l = run_flat (f (fst (run_flat p l))) (snd (run_flat p l)).
Proof. rewrite run_flat_bind. now destruct (run_flat p l). Qed.

(** Number of character reads ([_next_char] calls) on the chunked source. *)
Fixpoint reads_chk {A} (p : Prog A) (s : chk) : nat :=
  match p with
  | Ret _ => O
  | Next u k => let '(c, s') := cnext s in S (reads_chk (k c) (if u c then cunread s' else s'))
  end.

Section Proofs.
Variable T : tables.
Variable o : opts.

(** The token trace does not depend on how the text is cut into chunks: any chunked reader state denoting the
    flat string [l] yields the same results, call after call. Inherited from the generic simulation; no case
    analysis of the tokenizer is involved. *)
Theorem tokens_chunk_independent : forall n fuel line lcr l s, R l s ->
  tokens_chk T o n fuel line lcr s = tokens_flat T o n fuel line lcr l.
Proof.
  induction n as [|n IH]; intros fuel line lcr l s HR; cbn [tokens_chk tokens_flat]; [reflexivity|].
  destruct (chunk_independent (get_token T o fuel line lcr) l s HR) as [Hfst HR'].
  destruct (run_flat (get_token T o fuel line lcr) l) as [r l'].
  destruct (run_chk (get_token T o fuel line lcr) s) as [r' s'].
  cbn [fst snd] in Hfst, HR'. subst r'.
  destruct r as [k v line' lcr'| |]; try reflexivity.
  f_equal. apply IH. exact HR'.
Qed.

Corollary tokens_any_chunking n fuel cs :
  tokens_chk T o n fuel 1 false (chk_of_chunks cs) = tokens_chk T o n fuel 1 false (chk_of_str (concat cs)).
Proof.
  rewrite (tokens_chunk_independent n fuel 1%N false (concat cs) _ (R_of_chunks cs)).
  now rewrite (tokens_chunk_independent n fuel 1%N false (concat cs) _ (R_of_str (concat cs))).
Qed.

(** What is shown of every loop: it does not run out of fuel, it never yields EOF (only [get_token] does, and only
    with the input exhausted), and it performs at most 2*(characters consumed)+1 reads. *)
Definition res_ok (inner : bool) (r : result) (l' : str) : Prop :=
  r <> RFuel /\ (forall v ln b, r = RTok EOF v ln b -> if inner then False else l' = [] /\ v = [] /\ True).
Definition cres_ok (r : cres) (l' : str) : Prop := match r with CDone r => res_ok true r [] | CSwallow _ => True end.
Definition good {A} (ok : A -> str -> Prop) (p : Prog A) (l : str) : Prop :=
  ok (fst (run_flat p l)) (snd (run_flat p l))
  /\ (reads p l + 2 * length (snd (run_flat p l)) <= 2 * length l + 1)%nat.

Lemma res_ok_inner r l1 l2 : res_ok true r l1 -> res_ok false r l2.
Proof. intros [H1 H2]. split; [exact H1|]. intros v ln b E. destruct (H2 v ln b E). Qed.

(** After [k] reads that left [r] to a good program: the bound of the whole has room for [k] reads as long as [k] is
    at most twice the characters consumed, plus the one spare read if nothing follows. *)
Lemma good_after {A} (ok : A -> str -> Prop) k n p r : good ok p r -> (k + 2 * length r <= n)%nat ->
  ok (fst (run_flat p r)) (snd (run_flat p r)) /\ (k + reads p r + 2 * length (snd (run_flat p r)) <= n + 1)%nat.
Proof. intros [H1 H2] Hk. split; [exact H1|lia]. Qed.

(** [ret]: the branch returns; [go k IH]: the branch goes on, after [k] reads, with a program the induction covers. *)
Ltac ret := cbn [run_flat reads fst snd]; split; [easy | cbn [fback length]; lia].
Ltac go k IH Hf := apply (good_after _ k); [apply IH|]; cbn [length] in Hf |- *; lia.

Lemma brack_total inner : forall f l acc line, (length l < f)%nat -> good (res_ok inner) (brack_loop f acc line) l.
Proof.
  induction f as [|f IH]; intros l acc line Hf; [lia|].
  destruct l as [|c r]; unfold good; cbn [run_flat reads brack_loop fnext keep fst snd]; [ret|].
  destruct (N.eqb c RBRACK); [ret|]. destruct (N.eqb c LF); [ret|]. destruct (N.eqb c LBRACK); [ret|]. go 1%nat IH Hf.
Qed.

Lemma paren_total inner : forall f l acc line, (length l < f)%nat -> good (res_ok inner) (paren_loop f acc line) l.
Proof.
  induction f as [|f IH]; intros l acc line Hf; [lia|].
  destruct l as [|c r]; unfold good; cbn [run_flat reads paren_loop fnext keep fst snd]; [ret|].
  destruct (N.eqb c RPAREN); [ret|]. destruct (N.eqb c LF); [go 1%nat IH Hf|]. destruct (N.eqb c LPAREN); [ret|]. go 1%nat IH Hf.
Qed.

Lemma directive_total inner : forall f l acc line, (length l < f)%nat -> good (res_ok inner) (directive_loop T o f acc line) l.
Proof.
  induction f as [|f IH]; intros l acc line Hf; [lia|].
  destruct l as [|c r]; unfold good; cbn [run_flat reads directive_loop fnext unread_delim fst snd]; [ret|].
  destruct (is_delim T o c); [ret|]. go 1%nat IH Hf.
Qed.

Lemma bare_total inner : forall f l acc line, (length l < f)%nat -> good (res_ok inner) (bare_loop T o f acc line) l.
Proof.
  induction f as [|f IH]; intros l acc line Hf; [lia|].
  destruct l as [|c r]; unfold good; cbn [run_flat reads bare_loop fnext unread_delim fst snd]; [ret|].
  destruct (is_delim T o c); [ret|]. go 1%nat IH Hf.
Qed.

Lemma string_total inner : forall f l acc lcr line, (length l < f)%nat -> good (res_ok inner) (handle_string T o f acc lcr line) l.
Proof.
  induction f as [|f IH]; intros l acc lcr line Hf; [lia|].
  destruct l as [|c r]; unfold good; cbn [run_flat reads handle_string fnext keep fst snd]; [ret|].
  destruct (N.eqb c DQ); [ret|]. destruct (N.eqb c CR); [go 1%nat IH Hf|].
  destruct (N.eqb c LF); [destruct lcr; go 1%nat IH Hf|].
  destruct (N.eqb c BS && allow_escapes o); [|go 1%nat IH Hf].
  destruct r as [|e r']; cbn [run_flat reads fnext keep fst snd]; [ret|].
  destruct (N.eqb e LF); [go 2%nat IH Hf|]. destruct (lookup e (esc_table T)); go 2%nat IH Hf.
Qed.

Lemma line_comment_total : forall f l acc line, (length l < f)%nat -> good cres_ok (line_comment o f acc line) l.
Proof.
  induction f as [|f IH]; intros l acc line Hf; [lia|].
  destruct l as [|c r]; unfold good; cbn [run_flat reads line_comment fnext fst snd]; unfold comment_end.
  - destruct (preserve_comments o); ret.
  - destruct (N.eqb c LF); [destruct (preserve_comments o); ret|]. go 1%nat IH Hf.
Qed.

(** The character after a star that is not a slash is read twice: two reads for the star that was consumed. *)
Lemma star_comment_total : forall f l acc line start, (length l < f)%nat -> good cres_ok (star_comment o f acc line start) l.
Proof.
  induction f as [|f IH]; intros l acc line start Hf; [lia|].
  destruct l as [|c r]; unfold good; cbn [run_flat reads star_comment fnext keep fst snd]; unfold comment_end; [ret|].
  destruct (N.eqb c LF); [go 1%nat IH Hf|]. destruct (N.eqb c STAR); [|go 1%nat IH Hf].
  destruct r as [|d r']; cbn [run_flat reads fnext fst snd]; [ret|].
  destruct (N.eqb d SLASH); cbn [negb fback]; [destruct (preserve_comments o); ret|]. go 2%nat IH Hf.
Qed.

Lemma handle_comment_total : forall f l line, (length l < f)%nat -> good cres_ok (handle_comment o f line) l.
Proof.
  intros f l line Hf. destruct l as [|c r]; unfold good; cbn [run_flat reads handle_comment fnext keep fst snd]; [ret|].
  destruct (N.eqb c STAR); [destruct (allow_star_comments o); [go 1%nat star_comment_total Hf|ret]|].
  destruct (N.eqb c SLASH); [go 1%nat line_comment_total Hf|ret].
Qed.

(** [EOF] is not an operator token. *)
Definition ops_no_eof : bool := forallb (fun p : char * tok => match snd p with EOF => false | _ => true end) (operators T).

Theorem get_token_total : ops_no_eof = true ->
  forall f l line lcr, (length l < f)%nat -> good (res_ok false) (get_token T o f line lcr) l.
Proof.
  intros Hops. induction f as [|f IH]; intros l line lcr Hf; [lia|].
  destruct l as [|c r]; unfold good; cbn [run_flat reads get_token fnext keep fst snd].
  { split; [split; [discriminate|]|cbn [length]; lia]. intros v ln b E. inversion E. auto. }
  destruct (lookup c (operators T)) as [t|] eqn:El.
  { cbn [run_flat reads fst snd]. split; [split; [discriminate|]|cbn [length]; lia].
    intros v ln b E. inversion E; subst. exfalso.
    unfold ops_no_eof in Hops. rewrite forallb_forall in Hops.
    specialize (Hops _ (lookup_In _ _ _ El)). discriminate. }
  destruct (N.eqb c CR); [ret|].
  destruct (N.eqb c LF); [destruct lcr; [go 1%nat IH Hf|ret]|].
  destruct (N.eqb c SP || N.eqb c TAB); [go 1%nat IH Hf|].
  destruct (N.eqb c SLASH).
  { rewrite run_flat_bind', reads_bind.
    destruct (handle_comment_total f r line ltac:(cbn [length] in Hf; lia)) as [H1 H2].
    destruct (run_flat (handle_comment o f line) r) as [[line'|r'] l1]; cbn [fst snd] in *.
    - destruct (IH l1 line' false ltac:(cbn [length] in Hf; lia)) as [H3 H4]. split; [exact H3|cbn [length]; lia].
    - cbn [run_flat reads fst snd]. split; [exact (res_ok_inner r' [] l1 H1)|cbn [length]; lia]. }
  destruct (N.eqb c DQ); [go 1%nat (string_total false) Hf|].
  destruct (N.eqb c LBRACK); [destruct (string_bracket o); [go 1%nat (brack_total false) Hf|ret]|].
  destruct (N.eqb c LPAREN); [destruct (string_parens o); [go 1%nat (paren_total false) Hf|ret]|].
  destruct (N.eqb c BOM && N.eqb line 1); [go 1%nat IH Hf|].
  destruct (N.eqb c COLONC && colon_operator o); [ret|].
  destruct (N.eqb c PLUSC && plus_operator o); [ret|].
  destruct (N.eqb c RBRACK); [destruct (string_bracket o); ret|].
  destruct (N.eqb c RPAREN); [destruct (string_parens o); ret|].
  destruct (N.eqb c HASH); [go 1%nat (directive_total false) Hf|].
  destruct (negb (mem c (bare_disallowed T))); [go 1%nat (bare_total false) Hf|ret].
Qed.

(** After the end of the input every call returns EOF and changes nothing. *)
Lemma tokens_flat_eof n f line lcr : tokens_flat T o n (S f) line lcr [] = repeat (RTok EOF [] line lcr) n.
Proof.
  induction n as [|n IH]; cbn [tokens_flat repeat]; [reflexivity|].
  cbn [run_flat get_token fnext keep]. now rewrite IH.
Qed.

(** The whole trace: no call runs out of fuel when fuel exceeds the length of the text. *)
Theorem tokens_total : ops_no_eof = true -> forall n fuel line lcr l, (length l < fuel)%nat ->
  Forall (fun r => r <> RFuel) (tokens_flat T o n fuel line lcr l).
Proof.
  intros Hops. induction n as [|n IH]; intros fuel line lcr l Hf; cbn [tokens_flat]; [constructor|].
  destruct (get_token_total Hops fuel l line lcr Hf) as [[H1 _] H2].
  destruct (run_flat (get_token T o fuel line lcr) l) as [r l']. cbn [fst snd] in *.
  destruct r as [k v line' lcr'|e a ln|]; [|constructor; [discriminate|constructor]|congruence].
  constructor; [discriminate|]. apply IH. lia.
Qed.

(** EOF for ever: once a call returns EOF, the input is exhausted and every later call returns the same EOF. *)
Theorem eof_forever : ops_no_eof = true -> forall fuel l line lcr v line' lcr' l', (length l < fuel)%nat ->
  run_flat (get_token T o fuel line lcr) l = (RTok EOF v line' lcr', l') ->
  v = [] /\ l' = [] /\ forall n, tokens_flat T o n fuel line' lcr' l' = repeat (RTok EOF [] line' lcr') n.
Proof.
  intros Hops fuel l line lcr v line' lcr' l' Hf E.
  destruct (get_token_total Hops fuel l line lcr Hf) as [[_ H1] _]. rewrite E in H1. cbn [fst snd] in H1.
  destruct (H1 v line' lcr' eq_refl) as (-> & -> & _). repeat split.
  intros n. destruct fuel; [lia|]. apply tokens_flat_eof.
Qed.

(** Linear bound: one call performs at most 2*|remaining text|+1 reads; with the reads that later calls
    perform this telescopes, so the whole token stream costs at most 2*|text| + (number of calls) reads. *)
Theorem get_token_reads : ops_no_eof = true -> forall fuel l line lcr, (length l < fuel)%nat ->
  (reads (get_token T o fuel line lcr) l + 2 * length (snd (run_flat (get_token T o fuel line lcr) l)) <= 2 * length l + 1)%nat.
Proof. intros Hops fuel l line lcr Hf. exact (proj2 (get_token_total Hops fuel l line lcr Hf)). Qed.

Fixpoint trace_reads (n fuel : nat) (line : N) (lcr : bool) (l : str) : nat :=
  match n with O => O | S n' =>
    let '(r, l') := run_flat (get_token T o fuel line lcr) l in
    (reads (get_token T o fuel line lcr) l +
     match r with RTok _ _ line' lcr' => trace_reads n' fuel line' lcr' l' | _ => O end)%nat
  end.

Theorem trace_reads_linear : ops_no_eof = true -> forall n fuel line lcr l, (length l < fuel)%nat ->
  (trace_reads n fuel line lcr l <= 2 * length l + n)%nat.
Proof.
  intros Hops. induction n as [|n IH]; intros fuel line lcr l Hf; cbn [trace_reads]; [lia|].
  pose proof (get_token_reads Hops fuel l line lcr Hf) as H.
  destruct (run_flat (get_token T o fuel line lcr) l) as [r l']. cbn [snd] in H.
  destruct r as [k v line' lcr'|e a ln|]; try lia.
  specialize (IH fuel line' lcr' l' ltac:(lia)). lia.
Qed.

End Proofs.
