(** [BaseTokenizer]: the push-back list is a stack in front of the underlying token stream; every sequence of
    [__call__] / [peek] / [push_back] behaves like the same operations on the logical stream
    "pushed-back tokens in LIFO order, then what [_get_token] delivers"; calls deliver the underlying stream unchanged;
    two bisimilar sources (the flat text and any chunking of it) cannot be told apart through this layer. *)
From Coq Require Import List Bool Lia.
From SV Require Import Text.Str Text.BaseTok.
Import ListNotations.

Lemma pb_pop_add last x l : pb_pop last (pb_add last x l) = Some (x, l).
Proof.
  unfold pb_pop, pb_add. destruct last; [|reflexivity].
  rewrite rev_unit. now rewrite rev_involutive.
Qed.

Lemma reads_call r : reads (Call :: r) = Datatypes.S (reads r). Proof. reflexivity. Qed.
Lemma reads_peek r : reads (Peek :: r) = Datatypes.S (reads r). Proof. reflexivity. Qed.
Lemma reads_push x r : reads (Push x :: r) = reads r. Proof. reflexivity. Qed.

Section Proofs.
  Variables (S E : Type).
  Variable get : S -> (ptok + E) * S.
  Variable c : bcfg.
  Hypothesis Hl : lifo c = true.

  Lemma lifo_push : push_last c = pop_last c.
  Proof. unfold lifo in Hl. apply andb_true_iff in Hl. destruct Hl as [H _]. apply eqb_prop in H. now symmetry. Qed.
  Lemma lifo_peek : peek_last c = pop_last c.
  Proof. unfold lifo in Hl. apply andb_true_iff in Hl. destruct Hl as [_ H]. apply eqb_prop in H. now symmetry. Qed.

  Lemma stack_add x l : stack c (pb_add (pop_last c) x l) = x :: stack c l.
  Proof. unfold stack, pb_add. destruct (pop_last c); [|reflexivity]. now rewrite rev_unit. Qed.

  Lemma pop_stack l : match pb_pop (pop_last c) l with
                      | Some (x, l') => stack c l = x :: stack c l'
                      | None => stack c l = [] /\ l = [] end.
  Proof.
    unfold pb_pop, stack. destruct (pop_last c).
    - destruct (rev l) as [|x r] eqn:Er.
      + split; [reflexivity|]. apply (f_equal (@rev _)) in Er. now rewrite rev_involutive in Er.
      + now rewrite rev_involutive.
    - destruct l as [|x r]; [split; reflexivity|reflexivity].
  Qed.

  Notation bt := (bt S).
  Notation call := (call S E get c).
  Notation peek := (peek S E get c).
  Notation push := (push S c).
  Notation run := (run S E get c).
  Notation unfold := (unfold S E get).
  Notation view := (view S E get c).
  Notation srun := (srun E).

  (** push_back then call gives the token back and restores the state (LIFO, one level). *)
  Theorem call_push x b : call (push x b) = (inl x, b).
  Proof.
    unfold BaseTok.call, BaseTok.push. cbn [pb src]. rewrite lifo_push, pb_pop_add. now destruct b.
  Qed.

  (** A token delivered from the push-back list leaves the underlying source (and so [line_num]) untouched. *)
  Theorem redelivery_keeps_source b x l : pb_pop (pop_last c) (pb b) = Some (x, l) ->
    call b = (inl x, {| pb := l; src := src b |}).
  Proof. intros H. unfold BaseTok.call. now rewrite H. Qed.

  (** peek shows what the next call returns, and that call leaves the state a direct call would have left. *)
  Theorem peek_then_call b x b1 : call b = (inl x, b1) ->
    fst (peek b) = inl x /\ call (snd (peek b)) = (inl x, b1).
  Proof.
    intros H. unfold BaseTok.peek. rewrite H. cbn [fst snd]. split; [reflexivity|].
    unfold BaseTok.call at 1. cbn [pb src]. rewrite lifo_peek, pb_pop_add. now destruct b1.
  Qed.

  (** One call takes the head of the logical stream; after a token the rest is the logical stream of the new state. *)
  Lemma view_call n b : exists n', (n <= n')%nat /\
    view (Datatypes.S n) b = fst (call b) :: match fst (call b) with inl _ => view n' (snd (call b)) | inr _ => [] end.
  Proof.
    unfold BaseTok.view, BaseTok.call. pose proof (pop_stack (pb b)) as Hp.
    destruct (pb_pop (pop_last c) (pb b)) as [[x l]|].
    - exists (Datatypes.S n). split; [lia|]. now rewrite Hp.
    - destruct Hp as [Hs _]. exists n. split; [lia|]. rewrite Hs. cbn [map app BaseTok.unfold].
      destruct (get (src b)) as [[x|e] s]; cbn [fst snd pb src]; [now rewrite Hs|reflexivity].
  Qed.

  (** A token added at the popping end is the new head of the logical stream. *)
  Lemma view_add n x b : view n {| pb := pb_add (pop_last c) x (pb b); src := src b |} = inl x :: view n b.
  Proof. unfold BaseTok.view. cbn [pb src map app]. now rewrite stack_add. Qed.

  (** Every sequence of calls, peeks and push-backs = the same sequence on the logical stream. *)
  Theorem run_refines : forall ops b n, (reads ops <= n)%nat -> fst (run ops b) = srun ops (view n b).
  Proof.
    induction ops as [|o r IH]; intros b n Hn; [reflexivity|].
    destruct o as [| |x]; cbn [BaseTok.run BaseTok.srun].
    - rewrite reads_call in Hn. destruct n as [|n]; [lia|]. destruct (view_call n b) as (n' & Hn' & ->).
      destruct (call b) as [[x|e] b']; cbn [fst snd]; [|reflexivity].
      rewrite <- (IH b' n') by lia. now destruct (run r b').
    - rewrite reads_peek in Hn. destruct n as [|n]; [lia|]. destruct (view_call n b) as (n' & Hn' & ->).
      unfold BaseTok.peek. destruct (call b) as [[x|e] b']; cbn [fst snd]; [|reflexivity].
      rewrite <- (view_add n' x b'), <- lifo_peek, <- (IH _ n') by lia. now destruct (run r _).
    - rewrite reads_push in Hn. rewrite (IH (push x b) n Hn). unfold BaseTok.push. now rewrite lifo_push, view_add.
  Qed.

  (** On the logical stream, without push_back, the results of the calls are a prefix of the stream, in order:
      peeks neither lose, duplicate nor reorder anything. *)
  Lemma srun_calls_prefix : forall ops L, Forall (fun o => match o with Push _ => False | _ => True end) ops ->
    exists k, map snd (filter fst (srun ops L)) = firstn k L.
  Proof.
    induction ops as [|o r IH]; intros L Hf; [exists O; reflexivity|].
    inversion Hf as [|? ? Ho Hr]; subst. destruct o as [| |x]; [| |contradiction]; cbn [BaseTok.srun].
    - destruct L as [|x L']; [exists O; reflexivity|].
      destruct x as [t|e].
      + destruct (IH L' Hr) as [k Hk]. exists (Datatypes.S k). cbn [filter fst map snd firstn]. now rewrite Hk.
      + exists 1%nat. reflexivity.
    - destruct L as [|x L']; [exists O; reflexivity|].
      destruct x as [t|e].
      + destruct (IH (inl t :: L') Hr) as [k Hk]. exists k. cbn [filter fst]. exact Hk.
      + exists O. reflexivity.
  Qed.

  (** Delivery = underlying stream: starting with an empty push-back list, whatever mixture of calls and peeks
      the parser performs, the tokens its calls return are exactly the first tokens of [_get_token]'s stream. *)
  Theorem delivery_is_underlying_stream ops b : pb b = [] ->
    Forall (fun o => match o with Push _ => False | _ => True end) ops ->
    exists k, map snd (filter fst (fst (run ops b))) = firstn k (unfold (reads ops) (src b)).
  Proof.
    intros Hpb Hf. rewrite (run_refines ops b (reads ops) (le_n _)).
    destruct (srun_calls_prefix ops (view (reads ops) b) Hf) as [k Hk]. exists k. rewrite Hk.
    unfold BaseTok.view. rewrite Hpb. unfold stack. destruct (pop_last c); reflexivity.
  Qed.
End Proofs.

(** Two sources that cannot be told apart by [get] cannot be told apart through the BaseTokenizer layer. *)
Section Bisim.
  Variables (S1 S2 E : Type).
  Variable get1 : S1 -> (ptok + E) * S1.
  Variable get2 : S2 -> (ptok + E) * S2.
  Variable c : bcfg.
  Variable Rs : S1 -> S2 -> Prop.
  Hypothesis Hget : forall s1 s2, Rs s1 s2 ->
    fst (get1 s1) = fst (get2 s2) /\ Rs (snd (get1 s1)) (snd (get2 s2)).

  Definition Rb (b1 : bt S1) (b2 : bt S2) : Prop := pb b1 = pb b2 /\ Rs (src b1) (src b2).

  (** A call on related states returns the same result and leaves related states. *)
  Lemma call_bisim b1 b2 : Rb b1 b2 ->
    exists r b1' b2', call S1 E get1 c b1 = (r, b1') /\ call S2 E get2 c b2 = (r, b2') /\ Rb b1' b2'.
  Proof.
    intros [Hp Hs]. unfold call. rewrite Hp. destruct (pb_pop (pop_last c) (pb b2)) as [[x l]|].
    - repeat eexists. exact Hs.
    - destruct (Hget _ _ Hs) as [H1 H2]. destruct (get1 (src b1)) as [r1 s1'], (get2 (src b2)) as [r2 s2'].
      cbn [fst snd] in *. subst. repeat eexists. exact H2.
  Qed.

  Lemma peek_bisim b1 b2 : Rb b1 b2 ->
    exists r b1' b2', peek S1 E get1 c b1 = (r, b1') /\ peek S2 E get2 c b2 = (r, b2') /\ Rb b1' b2'.
  Proof.
    intros H. unfold peek. destruct (call_bisim b1 b2 H) as (r & b1' & b2' & -> & -> & [Hp Hs]).
    destruct r; repeat eexists; cbn [pb src]; congruence.
  Qed.

  Theorem run_bisim : forall ops b1 b2, Rb b1 b2 ->
    fst (run S1 E get1 c ops b1) = fst (run S2 E get2 c ops b2)
    /\ Rb (snd (run S1 E get1 c ops b1)) (snd (run S2 E get2 c ops b2)).
  Proof.
    induction ops as [|o r IH]; intros b1 b2 H; [split; [reflexivity|exact H]|]. destruct o as [| |x]; cbn [run].
    - destruct (call_bisim b1 b2 H) as (r1 & b1' & b2' & -> & -> & H2).
      destruct r1; [|split; [reflexivity|exact H2]]. specialize (IH b1' b2' H2).
      destruct (run S1 E get1 c r b1'), (run S2 E get2 c r b2'). cbn [fst snd] in *. destruct IH as [-> IH2].
      split; [reflexivity|exact IH2].
    - destruct (peek_bisim b1 b2 H) as (r1 & b1' & b2' & -> & -> & H2).
      destruct r1; [|split; [reflexivity|exact H2]]. specialize (IH b1' b2' H2).
      destruct (run S1 E get1 c r b1'), (run S2 E get2 c r b2'). cbn [fst snd] in *. destruct IH as [-> IH2].
      split; [reflexivity|exact IH2].
    - apply IH. destruct H as [Hp Hs]. split; cbn [push pb src]; congruence.
  Qed.

  (** The helpers are built from [call] only, so the same holds for them (result, including the token an error
      message would name, and the states stay related). *)
  Theorem expect_bisim : forall fuel want skip b1 b2, Rb b1 b2 ->
    fst (expect S1 E get1 c fuel want skip b1) = fst (expect S2 E get2 c fuel want skip b2)
    /\ Rb (snd (expect S1 E get1 c fuel want skip b1)) (snd (expect S2 E get2 c fuel want skip b2)).
  Proof.
    induction fuel as [|f IH]; intros want skip b1 b2 H; cbn [expect]; [split; [reflexivity|exact H]|].
    destruct (call_bisim b1 b2 H) as ([x|e] & b1' & b2' & -> & -> & H2); [|split; [reflexivity|exact H2]].
    destruct (skip && negb (is_tok NEWLINE (want, [])) && is_tok NEWLINE x); [apply IH, H2|].
    destruct (is_tok want x); split; try reflexivity; exact H2.
  Qed.

  Theorem skipping_newlines_bisim : forall fuel b1 b2, Rb b1 b2 ->
    fst (skipping_newlines_step S1 E get1 c fuel b1) = fst (skipping_newlines_step S2 E get2 c fuel b2)
    /\ Rb (snd (skipping_newlines_step S1 E get1 c fuel b1)) (snd (skipping_newlines_step S2 E get2 c fuel b2)).
  Proof.
    induction fuel as [|f IH]; intros b1 b2 H; cbn [skipping_newlines_step]; [split; [reflexivity|exact H]|].
    destruct (call_bisim b1 b2 H) as ([x|e] & b1' & b2' & -> & -> & H2); [|split; [reflexivity|exact H2]].
    destruct (is_tok EOF x); [split; [reflexivity|exact H2]|].
    destruct (is_tok NEWLINE x); [apply IH, H2|split; [reflexivity|exact H2]].
  Qed.

  Theorem block_bisim : forall fuel b1 b2, Rb b1 b2 ->
    fst (block_step S1 E get1 c fuel b1) = fst (block_step S2 E get2 c fuel b2)
    /\ Rb (snd (block_step S1 E get1 c fuel b1)) (snd (block_step S2 E get2 c fuel b2)).
  Proof.
    induction fuel as [|f IH]; intros b1 b2 H; cbn [block_step]; [split; [reflexivity|exact H]|].
    destruct (call_bisim b1 b2 H) as ([x|e] & b1' & b2' & -> & -> & H2); [|split; [reflexivity|exact H2]].
    destruct (is_tok EOF x); [split; [reflexivity|exact H2]|].
    destruct (is_tok BRACE_CLOSE x); [split; [reflexivity|exact H2]|].
    destruct (is_tok STRING x); [split; [reflexivity|exact H2]|].
    destruct (is_tok NEWLINE x); [apply IH, H2|split; [reflexivity|exact H2]].
  Qed.
End Bisim.

(** [IterTokenizer]: total, and EOF for ever once the wrapped iterator is exhausted. *)
Theorem iter_eof_forever : forall n, unfold (list ptok) Empty_set iter_get n [] = repeat (inl (EOF, [])) n.
Proof. induction n as [|n IH]; [reflexivity|]. cbn [unfold iter_get repeat]. now rewrite IH. Qed.

Theorem iter_delivers_the_list : forall l n, (length l <= n)%nat ->
  unfold (list ptok) Empty_set iter_get n l = map inl l ++ repeat (inl (EOF, [])) (n - length l).
Proof.
  induction l as [|x r IH]; intros n Hn.
  - cbn [map app length]. rewrite PeanoNat.Nat.sub_0_r. apply iter_eof_forever.
  - destruct n as [|n]; [cbn in Hn; lia|]. cbn [unfold iter_get map app length PeanoNat.Nat.sub].
    rewrite IH by (cbn in Hn; lia). reflexivity.
Qed.
