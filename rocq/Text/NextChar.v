(** Text layer: [Tokenizer._next_char] as a table, and chunk sources that are not texts.

    translate/c03_nextchar.py reads the fast path of [_next_char] and executes its refill part on abstract values, once for
    every thing the chunk iterator can do next; the result is Gen/NextChar_gen.v ([nc_fast_path], [nc_rows]).  This file
    gives such a table a meaning over *extended* chunk sources - the iterator may yield a [str], a [bytes] object, another
    object, or raise [UnicodeDecodeError] / another exception - and proves that for a table with the model's rows

    * on a source of [str] chunks the function IS [Prog.cnext], the reader that every chunk-independence theorem is about;
    * the first thing that is not a [str] is answered precisely: ValueError for a bytes / non-str object (such a source is
      not a text: outside the property), the tokenizer's own error for [UnicodeDecodeError] (a file in the wrong encoding
      is covered by "TokenSyntaxError and nothing else"), and any other exception of the iterator propagates unchanged. *)
From Coq Require Import List ZArith Bool.
From SV Require Import Text.Str Text.Prog.
Import ListNotations.

Inductive item := IStr (s : str) | IBytes | INonStr | IDecodeErr | IOtherErr.
Record xchk := { xcur : str; xidx : Z; xmore : list item }.
Inductive xres := XChar (c : option char) | XValueError | XDecodeError | XPropagates | XBad.

Definition item_class (it : item) : N :=
  match it with IBytes => 0 | INonStr => 1 | IStr [] => 2 | IStr (_ :: _) => 3 | IDecodeErr => 5 | IOtherErr => 6 end%N.

(** The refill loop under a table [tb] (class of what the iterator does -> action). *)
Fixpoint xfill (tb : N -> N) (cur : str) (i : Z) (items : list item) : xres * xchk :=
  match items with
  | [] => match tb 4%N with
          | 3%N => (XChar None, {| xcur := cur; xidx := i; xmore := [] |})
          | _ => (XBad, {| xcur := cur; xidx := i; xmore := [] |}) end
  | it :: r =>
    match tb (item_class it), it with
    | 0%N, _ => xfill tb cur i r
    | 1%N, IStr (c :: t) => (XChar (Some c), {| xcur := c :: t; xidx := 0; xmore := r |})
    | 2%N, _ => (XValueError, {| xcur := cur; xidx := i; xmore := r |})
    | 4%N, _ => (XDecodeError, {| xcur := cur; xidx := i; xmore := r |})
    | 5%N, _ => (XPropagates, {| xcur := cur; xidx := i; xmore := r |})
    | _, _ => (XBad, {| xcur := cur; xidx := i; xmore := r |})
    end
  end.

(** [_next_char] under a table: the fast path, then the refill loop. *)
Definition xnext (tb : N -> N) (s : xchk) : xres * xchk :=
  let i := (xidx s + 1)%Z in
  match nthZ (xcur s) i with
  | Some c => (XChar (Some c), {| xcur := xcur s; xidx := i; xmore := xmore s |})
  | None => xfill tb (xcur s) i (xmore s)
  end.

(** The rows of the model. *)
Definition nc_spec (k : N) : N := match k with 0 => 2 | 1 => 2 | 2 => 0 | 3 => 1 | 4 => 3 | 5 => 4 | 6 => 5 | _ => 9 end%N.
Definition nc_tb (rows : list (N * N)) (k : N) : N := match lookup k rows with Some a => a | None => 9%N end.
Definition nc_rows_ok (fast : N) (rows : list (N * N)) : bool :=
  (fast =? 1)%N && forallb (fun k => (nc_tb rows k =? nc_spec k)%N) [0; 1; 2; 3; 4; 5; 6]%N.

(** Embedding of the plain reader state. *)
Definition xof (s : chk) : xchk := {| xcur := cur s; xidx := idx s; xmore := map IStr (more s) |}.

Lemma rows_ok_key fast rows : nc_rows_ok fast rows = true -> forall k, In k [0; 1; 2; 3; 4; 5; 6]%N -> nc_tb rows k = nc_spec k.
Proof.
  unfold nc_rows_ok. intros H. apply andb_true_iff in H. destruct H as [_ H]. rewrite forallb_forall in H.
  intros k Hk. apply N.eqb_eq, H, Hk.
Qed.
Lemma rows_ok_at fast rows : nc_rows_ok fast rows = true -> forall it, nc_tb rows (item_class it) = nc_spec (item_class it).
Proof. intros H it. apply (rows_ok_key fast rows H). destruct it as [[|c t]| | | |]; cbn; tauto. Qed.
Lemma rows_ok_exhausted fast rows : nc_rows_ok fast rows = true -> nc_tb rows 4%N = 3%N.
Proof. intros H. apply (rows_ok_key fast rows H). cbn. tauto. Qed.

(** On [str] chunks the refill loop is [Prog.refill] ... *)
Lemma xfill_strs fast rows : nc_rows_ok fast rows = true -> forall cs cur0 i,
  xfill (nc_tb rows) cur0 i (map IStr cs) =
  match refill cs with
  | Some (c :: t, r) => (XChar (Some c), {| xcur := c :: t; xidx := 0; xmore := map IStr r |})
  | _ => (XChar None, {| xcur := cur0; xidx := i; xmore := [] |})
  end.
Proof.
  intros H. induction cs as [|[|c t] r IH]; intros cur0 i; cbn [map xfill refill].
  - now rewrite (rows_ok_exhausted fast rows H).
  - rewrite (rows_ok_at fast rows H (IStr [])). cbn [item_class nc_spec]. apply IH.
  - rewrite (rows_ok_at fast rows H (IStr (c :: t))). reflexivity.
Qed.

(** ... so [_next_char] as written IS the reader [cnext] of the model. *)
Theorem xnext_is_cnext fast rows : nc_rows_ok fast rows = true -> forall s,
  xnext (nc_tb rows) (xof s) = (XChar (fst (cnext s)), xof (snd (cnext s))).
Proof.
  intros H s. unfold xnext, cnext, xof. cbn [xcur xidx xmore].
  destruct (nthZ (cur s) (idx s + 1)) as [c|]; [reflexivity|].
  rewrite (xfill_strs fast rows H). destruct (refill (more s)) as [[[|c t] r]|]; reflexivity.
Qed.

(** The first thing that is not a [str], after any number of empty chunks, at the end of the current chunk. *)
Definition at_end (s : xchk) : Prop := nthZ (xcur s) (xidx s + 1) = None.
Theorem xnext_first_bad fast rows : nc_rows_ok fast rows = true -> forall s n it r,
  at_end s -> xmore s = repeat (IStr []) n ++ it :: r ->
  fst (xnext (nc_tb rows) s) =
  match it with
  | IBytes | INonStr => XValueError
  | IDecodeErr => XDecodeError
  | IOtherErr => XPropagates
  | IStr [] => fst (xnext (nc_tb rows) {| xcur := xcur s; xidx := xidx s; xmore := r |})
  | IStr (c :: _) => XChar (Some c)
  end.
Proof.
  intros H s n it r He Hm. unfold xnext. unfold at_end in He. rewrite He, Hm. cbn [xcur xidx xmore]. rewrite He. clear Hm.
  induction n as [|n IH]; cbn [repeat app xfill].
  - rewrite (rows_ok_at fast rows H it). destruct it as [[|c t]| | | |]; reflexivity.
  - rewrite (rows_ok_at fast rows H (IStr [])). cbn [item_class nc_spec]. exact IH.
Qed.

(** Non-vacuity and a refutation: the model's own rows pass; a table that skips non-str objects (instead of raising) is
    rejected and silently drops the object. *)
Definition nc_rows_of_spec : list (N * N) := map (fun k => (k, nc_spec k)) [0; 1; 2; 3; 4; 5; 6]%N.
Definition nc_rows_bad : list (N * N) := [(0, 2); (1, 0); (2, 0); (3, 1); (4, 3); (5, 5); (6, 5)]%N.
Lemma nc_spec_rows_ok : nc_rows_ok 1 nc_rows_of_spec = true.
Proof. vm_compute. reflexivity. Qed.
Lemma nc_rows_bad_refuted :
  nc_rows_ok 1 nc_rows_bad = false
  /\ fst (xnext (nc_tb nc_rows_bad) {| xcur := []; xidx := -1; xmore := [INonStr; IStr [65%N]] |}) = XChar (Some 65%N)
  /\ fst (xnext (nc_tb nc_rows_bad) {| xcur := []; xidx := -1; xmore := [IDecodeErr] |}) = XPropagates.
Proof. vm_compute. repeat split; reflexivity. Qed.
