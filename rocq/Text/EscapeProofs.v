(** C02: [escape_text] and [Tokenizer._handle_string] are inverse, for every table satisfying the boolean
    conditions of Text/Escape.v (discharged for the generated tables by computation). *)
From Coq Require Import List NArith Bool Lia.
From SV Require Import Text.Str Text.Prog Text.Escape Text.Tokenizer Text.TokenizerProofs.
Import ListNotations.
Open Scope N_scope.

(** A character is left alone, or replaced by backslash and its symbol. *)
Lemma esc_char_cases T ml c :
  (is_raw T ml c = true /\ esc_char T ml c = [c])
  \/ (exists s, rlookup c (esc_table T) = Some s /\ is_raw T ml c = false /\ esc_char T ml c = [BS; s]).
Proof.
  unfold is_raw, esc_char. destruct (mem c (excl T ml)); [now left|].
  destruct (rlookup c (esc_table T)) as [s|]; [right; now exists s|now left].
Qed.

Section Proofs.
Variable T : tables.
Variable o : opts.
Hypothesis Hesc : allow_escapes o = true.

Lemma roundtrip_spec c s : tbl_roundtrip T = true -> rlookup c (esc_table T) = Some s ->
  (s =? LF) = false /\ lookup s (esc_table T) = Some c.
Proof.
  intros Hrt Hr. unfold tbl_roundtrip in Hrt. rewrite forallb_forall in Hrt.
  specialize (Hrt (s, c) (rlookup_In _ _ _ Hr)). cbn [snd] in Hrt. rewrite Hr in Hrt.
  apply andb_true_iff in Hrt. destruct Hrt as [H1 H2]. split.
  - now apply negb_true_iff in H1.
  - destruct (lookup s (esc_table T)) as [x|]; cbn [opt_eqb] in H2; [|discriminate].
    apply N.eqb_eq in H2. now subst.
Qed.

Lemma raw_neq ml c d : must_escape T ml d = true -> is_raw T ml c = true -> (c =? d) = false.
Proof.
  intros Hm Hr. apply N.eqb_neq. intros ->. unfold must_escape in Hm. rewrite Hr in Hm. discriminate.
Qed.

Lemma BS_DQ : (BS =? DQ) = false. Proof. reflexivity. Qed.
Lemma BS_CR : (BS =? CR) = false. Proof. reflexivity. Qed.
Lemma BS_LF : (BS =? LF) = false. Proof. reflexivity. Qed.

(** One source character: its escaped form is consumed by exactly one iteration of the string loop, which
    appends the character itself. *)
Lemma step_char ml c : tbl_ok T ml = true -> forall f acc line rest,
  run_flat (handle_string T o (S f) acc false line) (esc_char T ml c ++ rest)
  = run_flat (handle_string T o f (c :: acc) false (line + raw_lf T ml c)) rest.
Proof.
  intros Hok f acc line rest. unfold tbl_ok in Hok. rewrite !andb_true_iff in Hok.
  destruct Hok as [[[Hrt Hdq] Hcr] Hbs]. unfold raw_lf.
  destruct (esc_char_cases T ml c) as [[Hr ->]|(s & Er & Hnr & ->)]; cbn [app run_flat handle_string fnext keep].
  - rewrite Hr, (raw_neq ml c DQ Hdq Hr), (raw_neq ml c CR Hcr Hr), (raw_neq ml c BS Hbs Hr).
    destruct (c =? LF) eqn:El; cbn [andb].
    + apply N.eqb_eq in El. subst c. reflexivity.
    + now rewrite N.add_0_r.
  - destruct (roundtrip_spec c s Hrt Er) as [Hs Hl]. rewrite Hnr, andb_false_r, N.add_0_r.
    rewrite BS_DQ, BS_CR, BS_LF, N.eqb_refl, Hesc. cbn [andb run_flat fnext keep].
    rewrite Hs, Hl. reflexivity.
Qed.

(** Compositional form: the escaped text followed by a quote, embedded before ANY rest of input, at ANY line and
    with ANY characters already collected, is read back as exactly the string; the rest is untouched. *)
Theorem quoted_embedding ml : tbl_ok T ml = true -> forall s f acc line rest, (length s < f)%nat ->
  run_flat (handle_string T o f acc false line) (escape T ml s ++ DQ :: rest)
  = (RTok STRING (rev acc ++ s) (line + raw_lfs T ml s) false, rest).
Proof.
  intros Hok. induction s as [|c s IH]; intros f acc line rest Hf; cbn [escape flat_map raw_lfs fold_right app].
  - destruct f; [cbn in Hf; lia|]. cbn [run_flat handle_string fnext keep]. rewrite N.eqb_refl.
    cbn [run_flat]. now rewrite app_nil_r, N.add_0_r.
  - destruct f; [cbn in Hf; lia|]. rewrite <- app_assoc, (step_char ml c Hok).
    fold (escape T ml s). rewrite IH by (cbn in Hf; lia).
    cbn [rev]. rewrite <- app_assoc. cbn [app]. f_equal. f_equal. fold (raw_lfs T ml s). lia.
Qed.

(** Whole-tokenizer form. [DQ] must not be an operator character. *)
Definition dq_not_operator : bool := match lookup DQ (operators T) with None => true | Some _ => false end.

Lemma get_token_quote f line lcr l : dq_not_operator = true ->
  run_flat (get_token T o (S f) line lcr) (DQ :: l) = run_flat (handle_string T o f [] false line) l.
Proof.
  unfold dq_not_operator. intros Hop. cbn [run_flat get_token fnext keep].
  destruct (lookup DQ (operators T)); [discriminate|]. reflexivity.
Qed.

Lemma get_token_eof f line lcr : run_flat (get_token T o (S f) line lcr) [] = (RTok EOF [] line lcr, []).
Proof. reflexivity. Qed.

Theorem escape_tokenize_inverse ml : tbl_ok T ml = true -> dq_not_operator = true ->
  forall s n fuel line lcr, (length s + 2 <= fuel)%nat ->
  tokens_flat T o (S n) fuel line lcr (DQ :: escape T ml s ++ [DQ])
  = RTok STRING s (line + raw_lfs T ml s) false :: repeat (RTok EOF [] (line + raw_lfs T ml s) false) n.
Proof.
  intros Hok Hop s n fuel line lcr Hf.
  destruct fuel as [|f]; [lia|].
  cbn [tokens_flat]. rewrite get_token_quote by assumption.
  rewrite (quoted_embedding ml Hok s f [] line []) by lia. cbn [rev app].
  f_equal. apply tokens_flat_eof.
Qed.

Lemma esc_unit_raw ml c d : esc_unit T ml c = Raw d -> d = c /\ is_raw T ml c = true.
Proof.
  unfold esc_unit, is_raw. destruct (mem c (excl T ml)).
  - intros H; inversion H; auto.
  - destruct (rlookup c (esc_table T)); intros H; inversion H; auto.
Qed.

(** Every raw unit of the escaped text is a character that [d] is not, whenever [d] must be escaped. *)
Theorem escape_no_raw ml d : must_escape T ml d = true ->
  forall s, Forall (fun u => match u with Raw c => c <> d | Esc _ => True end) (escape_units T ml s).
Proof.
  intros Hm s. apply Forall_forall. intros u Hin. unfold escape_units in Hin. apply in_map_iff in Hin.
  destruct Hin as [c [Hu _]]. destruct u as [x|x]; [|exact I].
  destruct (esc_unit_raw ml c x Hu) as [-> Hr]. apply N.eqb_neq. exact (raw_neq ml c d Hm Hr).
Qed.

(** In single-line mode the escaped text contains no line-break character at all (raw or as a symbol). *)
Theorem escape_no_linebreak_single : tbl_lf_single T = true -> tbl_cr T false = true -> tbl_sym_no_linebreak T = true ->
  forall s, ~ In LF (escape T false s) /\ ~ In CR (escape T false s).
Proof.
  intros Hlf Hcr Hsym s.
  assert (Hc : forall c x, In x (esc_char T false c) -> x <> LF /\ x <> CR).
  { intros c x Hin. destruct (esc_char_cases T false c) as [[Hr E]|(sy & Er & _ & E)]; rewrite E in Hin.
    - destruct Hin as [<-|[]]. split; apply N.eqb_neq; [exact (raw_neq false c LF Hlf Hr)|exact (raw_neq false c CR Hcr Hr)].
    - destruct Hin as [<-|[<-|[]]]; [split; discriminate|].
      unfold tbl_sym_no_linebreak in Hsym. rewrite forallb_forall in Hsym.
      specialize (Hsym (sy, c) (rlookup_In _ _ _ Er)). cbn [fst] in Hsym.
      apply andb_true_iff in Hsym. destruct Hsym as [H1 H2].
      apply negb_true_iff in H1, H2. split; now apply N.eqb_neq. }
  split; intros Hin; unfold escape in Hin; apply in_flat_map in Hin; destruct Hin as [c [_ Hin]];
    destruct (Hc c _ Hin); congruence.
Qed.

End Proofs.
