(** C03: nothing but KeyValError leaves the model of [Keyvalues.parse] when every indexing site is guarded the way
    the configuration says; and each foreign exit needs its own guard to be missing. *)
From Coq Require Import List NArith Bool Lia.
From SV Require Import Text.Str Text.Tokenizer Text.TokenizerProofs Text.KvErrModel.
Import ListNotations.
Open Scope N_scope.

(** The guard whose absence a foreign exit needs ([F_EXPECT_INDEX] has none: it is excluded by the invariant
    "a block is only expected right after it was appended"). *)
Definition site_guard (c : kcfg) (s : fsite) : bool :=
  match s with
  | F_BANG => bang_total c
  | F_REPLACE_BLOCK => guard_replace_block c
  | F_REPLACE_LEAF => guard_replace_leaf c
  | F_ROOT0 => guard_single_root c
  | F_CLOSE => close_guarded c
  | F_EXPECT_INDEX => true
  end.

Section Proofs.
  Variable cfg : kcfg.
  Variable ko : kopts.
  Variable cf : char -> list char.
  Variables flags defaults : list (str * bool).
  Variable fin : option result.
  Notation prun := (prun cfg ko cf flags defaults fin).

  Lemma at_end_not_foreign k s : (forall s', k <> OForeign s') -> at_end fin k <> OForeign s.
  Proof. unfold at_end. destruct fin; [discriminate|auto]. Qed.

  (** [_read_flag] raises only on the empty flag, and only when the test for '!' is not total. *)
  Lemma read_flag_none v : read_flag cfg cf flags defaults v = None -> bang_total cfg = false.
  Proof.
    unfold read_flag. destruct v as [|c v]; [destruct (bang_total cfg); [discriminate|reflexivity]|].
    destruct (c =? BANG); discriminate.
  Qed.

  Lemma guard_missing (cfr g cur : bool) : cfr && negb g && negb cur = true -> g = false.
  Proof. destruct g; [|reflexivity]. now rewrite andb_false_r. Qed.

  Ltac brk :=
    repeat match goal with
    | |- context [match ?x with _ => _ end] => destruct x eqn:?
    | |- context [if ?x then _ else _] => destruct x eqn:?
    end.

  (** By induction on the length of the token list: a step of [prun] continues on a tail up to four tokens further on. *)
  Lemma prun_foreign : forall ts stk cur b cfr s,
    (b = BExpect -> cur = true) -> prun stk cur b cfr ts = OForeign s -> site_guard cfg s = false.
  Proof.
    induction ts as [ts IH] using (Wf_nat.induction_ltof1 _ (@length ptok)). unfold Wf_nat.ltof in IH.
    intros stk cur b cfr s Hinv. destruct ts as [|[t v] r]; cbn [KvErrModel.prun].
    { unfold at_end, pfinal. brk; discriminate. }
    cbn [length] in IH. destruct (cls t) eqn:Ec.
    all: try (destruct b; try discriminate).
    all: try (apply IH; [lia|]; intros; try discriminate; auto).
    - (* CStr, BNone *)
      destruct (negb (newline_keys ko) && has_lb v); [discriminate|].
      destruct r as [|[t2 v2] r2]; [unfold at_end; destruct fin; discriminate|].
      cbn [length] in IH. destruct (cls t2) eqn:Ec2.
      all: try (apply IH; [cbn [length]; lia|]; intros; try discriminate; auto).
      + (* value *)
        destruct (negb (newline_values ko) && has_lb v2); [discriminate|].
        destruct r2 as [|[t3 v3] r3].
        { unfold at_end, pfinal. brk; discriminate. }
        destruct (cls t3) eqn:Ec3.
        all: try (destruct (single_block ko && is_root stk); [discriminate|]).
        all: try (apply IH; [cbn [length]; lia|]; intros; try discriminate; auto).
        * destruct (single_line ko); [|discriminate].
          apply IH; [cbn [length]; lia|]; intros; discriminate.
        * destruct r3 as [|[t4 v4] r4]; [unfold at_end; destruct fin; discriminate|].
          destruct (cls t4); try discriminate.
          destruct (read_flag cfg cf flags defaults v3) as [[|]|] eqn:Erf.
          -- destruct (cfr && negb (guard_replace_leaf cfg) && negb cur) eqn:Eg.
             ++ intros [= <-]. exact (guard_missing _ _ _ Eg).
             ++ destruct (single_block ko && is_root stk); [discriminate|].
                apply IH; [cbn [length]; lia|]; intros; discriminate.
          -- apply IH; [cbn [length]; lia|]; intros; discriminate.
          -- intros [= <-]. exact (read_flag_none _ Erf).
      + (* "name" [flag] *)
        destruct r2 as [|[t3 v3] r3]; [unfold at_end; destruct fin; discriminate|].
        destruct (cls t3); try discriminate.
        destruct (read_flag cfg cf flags defaults v2) as [[|]|] eqn:Erf.
        * destruct (cfr && negb (guard_replace_block cfg) && negb cur) eqn:Eg.
          -- intros [= <-]. exact (guard_missing _ _ _ Eg).
          -- apply IH; [cbn [length]; lia|]; intros; reflexivity.
        * apply IH; [cbn [length]; lia|]; intros; discriminate.
        * intros [= <-]. exact (read_flag_none _ Erf).
    - (* COpen, BExpect *)
      rewrite (Hinv eq_refl). apply IH; [lia|]; intros; discriminate.
    - (* CClose, BNone *)
      destruct stk as [|p stk'].
      + destruct (close_guarded cfg) eqn:E; [discriminate|]. intros [= <-]. exact E.
      + destruct (single_block ko && is_root stk' && (negb (guard_single_root cfg) || p)) eqn:E.
        * destruct p; [discriminate|]. intros [= <-]. cbn [site_guard].
          apply andb_true_iff in E. destruct E as [_ E]. rewrite orb_false_r in E. now apply negb_true_iff in E.
        * apply IH; [lia|]; intros; discriminate.
  Qed.

  (** Every indexing site guarded => nothing but KeyValError leaves the parser, for every token stream, every flag
      mapping, every option vector, whatever error the tokenizer ends with. *)
  Theorem no_foreign : cfg_safe cfg = true -> forall ts s, parse_tokens cfg ko cf flags defaults fin ts <> OForeign s.
  Proof.
    intros Hs ts s H. unfold parse_tokens in H.
    pose proof (prun_foreign ts [] false BNone false s ltac:(discriminate) H) as Hg.
    unfold cfg_safe in Hs. repeat (apply andb_true_iff in Hs; destruct Hs as [Hs ?]).
    destruct s; cbn [site_guard] in Hg; congruence.
  Qed.

  (** Per site: a foreign exit at [s] is only possible when the guard of [s] is missing in the source. *)
  Theorem foreign_needs_missing_guard : forall ts s,
    parse_tokens cfg ko cf flags defaults fin ts = OForeign s -> site_guard cfg s = false.
  Proof. intros ts s. exact (prun_foreign ts [] false BNone false s ltac:(discriminate)). Qed.
End Proofs.

Lemma split_trace_fin rs : forall ts r, split_trace rs = (ts, Some r) -> In r rs /\ (forall k v l b, r <> RTok k v l b).
Proof.
  induction rs as [|x rs IH]; intros ts r; cbn [split_trace]; [discriminate|].
  destruct x as [k v l b| |].
  - destruct k; try discriminate;
      (destruct (split_trace rs) as [ts' f] eqn:E; intros H; inversion H; subst;
       destruct (IH ts' r eq_refl) as [Hin Hne]; split; [now right|exact Hne]).
  - intros H; inversion H; subst. split; [now left|discriminate].
  - intros H; inversion H; subst. split; [now left|discriminate].
Qed.

(** Text level: [Keyvalues.parse(text)] = the parser model on the token trace of the tokenizer model.  With all
    sites guarded and fuel above the text length, the tokenizer part never runs out of fuel (so the trace ends in EOF
    or in one of the 14 error sites raised through [self.error], whose type is KeyValError here) and the parser part
    never leaves with a foreign exception. *)
Theorem kv_parse_text_typed T cfg ko ae flags defaults : cfg_safe cfg = true -> ops_no_eof T = true ->
  forall text,
  let tr := split_trace (tokens_flat T (kv_tok_opts ae) (S (length text)) (S (length text)) 1 false text) in
  snd tr <> Some RFuel /\ forall s, kv_parse_text T cfg ko ae flags defaults text <> OForeign s.
Proof.
  intros Hs Ho text tr. split.
  - intros Hf. destruct tr as [ts f] eqn:E. cbn [snd] in Hf. subst f.
    destruct (split_trace_fin _ _ _ E) as [Hin _].
    pose proof (tokens_total T (kv_tok_opts ae) Ho (S (length text)) (S (length text)) 1 false text (PeanoNat.Nat.lt_succ_diag_r _)) as Hall.
    rewrite Forall_forall in Hall. exact (Hall _ Hin eq_refl).
  - intros s. unfold kv_parse_text. fold tr. destruct tr as [ts f]. apply no_foreign. exact Hs.
Qed.
