(** Proofs about the decision table of [_handle_string] (Text/HsTable.v). *)
From Coq Require Import List NArith Bool.
From SV Require Import Text.Str Text.Prog Text.Tokenizer Text.HsTable.
Import ListNotations.
Open Scope N_scope.

Lemma lN_eqb_eq a b : lN_eqb a b = true -> a = b.
Proof.
  revert b. induction a as [|x a IH]; destruct b as [|y b]; cbn; try discriminate; [reflexivity|].
  rewrite andb_true_iff. intros [H1 H2]. apply N.eqb_eq in H1. subst. f_equal. auto.
Qed.

Lemma hout_eqb_eq a b : hout_eqb a b = true -> a = b.
Proof.
  destruct a as [[[[r1 d1] l1] a1] x1], b as [[[[r2 d2] l2] a2] x2]. cbn.
  rewrite !andb_true_iff. intros [[[[H1 H2] H3] H4] H5].
  apply eqb_prop in H1, H3. apply N.eqb_eq in H2, H5. apply lN_eqb_eq in H4. now subst.
Qed.

Lemma rows_ok_at rows : hs_rows_ok rows = true -> forall k, In k hs_keys -> tb_of rows k = hs_spec k.
Proof.
  unfold hs_rows_ok. rewrite forallb_forall. intros H k Hin. apply hout_eqb_eq. auto.
Qed.

Lemma classify_cases oc : In (classify oc) [0; 1; 2; 3; 4; 5].
Proof.
  destruct oc as [c|]; cbn [classify]; [|cbn; tauto].
  destruct (c =? DQ); [cbn; tauto|]. destruct (c =? CR); [cbn; tauto|].
  destruct (c =? LF); [cbn; tauto|]. destruct (c =? BS); cbn; tauto.
Qed.

Lemma eclassify_cases T oe : In (eclassify T oe) [1; 2; 3; 4].
Proof.
  destruct oe as [e|]; cbn [eclassify]; [|cbn; tauto].
  destruct (e =? LF); [cbn; tauto|]. destruct (lookup e (esc_table T)); cbn; tauto.
Qed.

Lemma in_bools (b : bool) : In b [false; true].
Proof. destruct b; cbn; tauto. Qed.

Lemma rows_ok_first rows : hs_rows_ok rows = true ->
  forall oc lcr ae, tb_of rows (classify oc, lcr, ae, 0) = hs_spec (classify oc, lcr, ae, 0).
Proof.
  intros H oc lcr ae. apply (rows_ok_at rows H), in_or_app. left.
  apply in_flat_map. exists (classify oc). split; [apply classify_cases|].
  apply in_flat_map. exists lcr. split; [apply in_bools|].
  apply in_flat_map. exists ae. split; [apply in_bools|now left].
Qed.

Lemma rows_ok_second T rows : hs_rows_ok rows = true ->
  forall oe lcr, tb_of rows (3, lcr, true, eclassify T oe) = hs_spec (3, lcr, true, eclassify T oe).
Proof.
  intros H oe lcr. apply (rows_ok_at rows H), in_or_app. right.
  apply in_flat_map. exists lcr. split; [apply in_bools|]. apply in_map, eclassify_cases.
Qed.

Section HSP.
Variable T : tables.
Variable o : opts.

(** Evaluates what a row says to do ([line + 0] is the line count of a row that counts no line). *)
Ltac leaf := cbn; rewrite ?N.add_0_r; try reflexivity.

(** The interpretation of the model's own table is the model. *)
Lemma hs_interp_ext (tb : hkey -> hout) :
  (forall oc lcr ae, tb (classify oc, lcr, ae, 0) = hs_spec (classify oc, lcr, ae, 0)) ->
  (forall oe lcr, tb (3, lcr, true, eclassify T oe) = hs_spec (3, lcr, true, eclassify T oe)) ->
  forall f acc lcr line l,
  run_flat (hs_interp T o tb f acc lcr line) l = run_flat (handle_string T o f acc lcr line) l.
Proof.
  intros H1 H2. induction f as [|f IH]; intros acc lcr line l; [reflexivity|].
  cbn [hs_interp handle_string run_flat]. destruct (fnext l) as [oc l']. cbn [keep]. rewrite H1.
  destruct oc as [c|]; cbn [classify]; [|leaf].
  destruct (c =? DQ); [leaf|]. destruct (c =? CR); [leaf; apply IH|].
  destruct (c =? LF) eqn:Hlf; [apply N.eqb_eq in Hlf; subst c; destruct lcr; leaf; apply IH|].
  destruct (c =? BS); [|leaf; apply IH]. destruct (allow_escapes o); [|leaf; apply IH].
  cbn [hs_spec o_reads andb run_flat]. destruct (fnext l') as [oe l'']. cbn [keep]. rewrite H2.
  destruct oe as [e|]; cbn [eclassify]; [|leaf].
  destruct (e =? LF); [leaf; apply IH|].
  destruct (lookup e (esc_table T)) eqn:Hlk; leaf; rewrite ?Hlk; apply IH.
Qed.

(** If the rows read from the source are the model's rows, interpreting them gives the hand model, for every input,
    every amount of fuel, every already collected prefix, flag and line. *)
Theorem hs_rows_interp_is_model rows : hs_rows_ok rows = true ->
  forall f acc lcr line l,
  run_flat (hs_interp T o (tb_of rows) f acc lcr line) l = run_flat (handle_string T o f acc lcr line) l.
Proof.
  intros H. apply hs_interp_ext.
  - intros oc lcr ae. apply rows_ok_first, H.
  - intros oe lcr. apply rows_ok_second, H.
Qed.

End HSP.

(** The condition matters: a table whose LF row ignores the flag (CR LF counted as two line breaks) is rejected, and
    its interpretation differs from the model on CR LF. *)
Definition hs_rows_of_spec : list (hkey * hout) := map (fun k => (k, hs_spec k)) hs_keys.
Definition hs_rows_bad : list (hkey * hout) :=
  map (fun k => (k, let '(c, _, _, _) := k in if c =? 2 then (false, 1, false, [2], 0) else hs_spec k)) hs_keys.

Lemma hs_spec_rows_ok : hs_rows_ok hs_rows_of_spec = true.
Proof. vm_compute. reflexivity. Qed.
